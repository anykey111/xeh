(* BuildUnwind.v: the two ways a build ends, as equations.  [build_unwind]: leaving contexts
   moves only [cx] and [nested]; the rest of the unwinding is one truncation of every stack
   to the marks of the context returned to, followed by at most one more context pop.
   [context_close]: one branch per mode of the context that is closed. *)
From Xeh Require Import Model.Prelude Model.Cell Model.Vm Model.Words Model.Build.
Local Notation length := List.length.

Lemma leave_contexts_frame fuel depth s :
  exists c n, leave_contexts fuel depth s = set_nested (set_cx s c) n.
Proof.
  revert s. induction fuel as [|f IH]; intro s; cbn [leave_contexts].
  - exists (cx s), (nested s). destruct s; reflexivity.
  - destruct (S depth <? length (nested s))%nat; [|exists (cx s), (nested s); destruct s; reflexivity].
    destruct (nested s) as [|prev rest] eqn:E; [exists (cx s), []; rewrite <- E; destruct s; reflexivity|].
    destruct (IH (set_cx (set_nested s rest) prev)) as (c & n & ->). exists c, n. reflexivity.
Qed.

Definition unwind_cut (dsl heapl : nat) (s : state) : state :=
  let c := cx s in
  mkstate (firstn (di_len c) (dict s)) (firstn heapl (heap s)) (firstn (cs_len c) (code s))
          (firstn (cs_len c) (dbg s)) (sources s) (input s) (lastn dsl (ds s)) (lastn (rs_len c) (rs s))
          (lastn (fs_len c) (flows s)) (lastn (ls_len c) (loops s)) (lastn (ss_ptr c) (special s))
          (cx s) (nested s) (meter s) (insn_limit s) (heap_limit s) (stack_limit s) (rlog s) (out s)
          (last_tok s) (stopping s).

Lemma build_unwind_eq depth inputs dsl heapl s :
  build_unwind depth inputs dsl heapl s =
  let s5 := unwind_cut dsl heapl
              (leave_contexts (S (length (nested s))) depth (set_input s (lastn inputs (input s)))) in
  match nested s5 with
  | prev :: rest => if (depth <? length (nested s5))%nat then set_cx (set_nested s5 rest) prev else s5
  | [] => s5
  end.
Proof. reflexivity. Qed.

Lemma build_unwind_shape depth inputs dsl heapl s :
  exists c c' n',
    build_unwind depth inputs dsl heapl s =
    set_nested (set_cx (unwind_cut dsl heapl (set_cx (set_input s (lastn inputs (input s))) c)) c') n'.
Proof.
  rewrite build_unwind_eq. cbv zeta.
  destruct (leave_contexts_frame (S (length (nested s))) depth (set_input s (lastn inputs (input s))))
    as (c & n & ->).
  exists c. cbn [unwind_cut nested set_nested].
  destruct n as [|prev rest]; [exists c, []; reflexivity|].
  destruct (depth <? length (prev :: rest))%nat; [exists prev, rest|exists c, (prev :: rest)]; reflexivity.
Qed.

Lemma build_unwind_rlog d i dl h s : rlog (build_unwind d i dl h s) = rlog s.
Proof. destruct (build_unwind_shape d i dl h s) as (c & c' & n' & ->). reflexivity. Qed.

Lemma build_unwind_input d i dl h s : input (build_unwind d i dl h s) = lastn i (input s).
Proof. destruct (build_unwind_shape d i dl h s) as (c & c' & n' & ->). reflexivity. Qed.

Lemma leave_contexts_chain (tmp : ctx) (base : list ctx) (depth : nat) :
  length base = S depth ->
  forall ms fuel t, cx t :: nested t = ms ++ tmp :: base -> length ms <= fuel ->
    leave_contexts fuel depth t = set_nested (set_cx t tmp) base.
Proof.
  intros Hb. induction ms as [|c ms IH]; intros fuel t E Hf; cbn [app] in E.
  - injection E as E1 E2.
    assert (R : t = set_nested (set_cx t tmp) base).
    { destruct t; cbn in *; subst; reflexivity. }
    destruct fuel as [|f]; cbn [leave_contexts]; [exact R|].
    rewrite E2, Hb, Nat.ltb_irrefl. exact R.
  - injection E as E1 E2. destruct fuel as [|f]; cbn [length] in Hf; [lia|].
    cbn [leave_contexts].
    assert (L : (S depth <? length (nested t))%nat = true).
    { apply Nat.ltb_lt. rewrite E2, app_length. cbn [length]. lia. }
    rewrite L. destruct (nested t) as [|prev rest] eqn:En.
    + destruct ms; discriminate.
    + rewrite IH; [reflexivity| |lia]. cbn [set_cx set_nested cx nested].
      rewrite E2. reflexivity.
Qed.

Lemma build_unwind_chain tmp prev rest ms inputs dsl heapl s :
  cx s :: nested s = ms ++ tmp :: prev :: rest ->
  build_unwind (length rest) inputs dsl heapl s =
  set_cx (set_nested (unwind_cut dsl heapl (set_cx (set_input s (lastn inputs (input s))) tmp)) rest) prev.
Proof.
  intros E. rewrite build_unwind_eq. cbv zeta.
  rewrite (leave_contexts_chain tmp (prev :: rest) (length rest) eq_refl ms); [|exact E|].
  - cbn [unwind_cut nested set_nested length]. rewrite (proj2 (Nat.ltb_lt _ _) (Nat.lt_succ_diag_r _)).
    reflexivity.
  - apply (f_equal (@length ctx)) in E. rewrite app_length in E. cbn [length] in E. lia.
Qed.

(* the other way a build ends: [context_close] *)

(* what closing a meta block drops: the code compiled inside it and the definitions it made *)
Definition close_cut (s : state) : state :=
  let n := cs_len (cx s) in
  let s2 := set_dbg (set_code s (firstn n (code s))) (firstn n (dbg s)) in
  set_dict s2 (purge_dict (S (length (dict s2))) (dict s2) (di_len (cx s))).

(* the results of the block are compiled into the context returned to, unless that is a meta
   block which is not building a function *)
Definition close_reemits (prev : ctx) (s : state) : bool :=
  negb (mode_eqb (cmode prev) MMeta) ||
  match firstn (length (flows s) - fs_len prev) (flows s) with FFun _ _ _ :: _ => true | _ => false end.

Definition close_meta_tail (prev : ctx) : M unit :=
  modify close_cut ;;
  (let* s := get in if close_reemits prev s then emit_results (S (length (ds s))) else ret tt) ;;
  modify (fun s => set_cx s prev).

Definition close_eval_fin (prev : ctx) (s : state) : state :=
  set_cx s (if mode_eqb (cmode prev) MEval then set_ctx_ip prev (ip s) else prev).

Lemma context_close_eq fo rf s :
  context_close fo rf s =
  match nested s with
  | [] => RErr EContext None s
  | prev :: rest =>
    match cmode (cx s) with
    | MCompile => ROk tt (set_cx (set_nested s rest) prev)
    | MEval => res_map (close_eval_fin prev) (run_m fo rf (set_nested s rest))
    | MMeta =>
      match run_m fo rf (set_nested s rest) with
      | ROk _ s1 => close_meta_tail prev s1
      | RErr k p s1 => RErr k p (set_nested s1 (prev :: nested s1))
      | RPanic => RPanic
      | RUnsup => RUnsup
      end
    end
  end.
Proof.
  unfold context_close. destruct (nested s) as [|prev rest]; [reflexivity|]. cbv zeta.
  change (cx (set_nested s rest)) with (cx s).
  destruct (cmode (cx s)); try reflexivity;
    destruct (run_m fo rf (set_nested s rest)) as [[] s1| | |]; try reflexivity.
  unfold close_meta_tail, bind, modify, get, ret.
  match goal with |- context [if ?b then _ else _] => change b with (close_reemits prev (close_cut s1)) end.
  destruct (close_reemits prev (close_cut s1)); [|reflexivity].
  change (emit_results _ _) with (emit_results (S (length (ds (close_cut s1)))) (close_cut s1)).
  destruct (emit_results _ (close_cut s1)); reflexivity.
Qed.

Lemma emit_results_S f s :
  emit_results (S f) s =
  (let* s0 := get in
   if (ds_len (cx s0) <? length (ds s0))%nat
   then let* v := pop_data in code_emit_value v ;; emit_results f
   else ret tt) s.
Proof.
  unfold bind, get. cbn [emit_results]. destruct (_ <? _)%nat; [|reflexivity].
  destruct (pop_data s) as [v s1| | |]; [|reflexivity..]. destruct (code_emit_value v s1); reflexivity.
Qed.
