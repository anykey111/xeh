(* ArithTypeErr.v: a type error of an arithmetic / comparison / bitwise / conversion /
   sign-test word reports one of the operands that were on the stack (the cell itself or
   its untagged value) - never any other value (C09). *)
From Xeh Require Import Model.Prelude Model.Bits Model.Codec Model.Cell Model.Lexer Model.Fmt
                        Model.Vm Model.BaseN Model.Words.
From Xeh Require Import Proofs.WordRun Proofs.ArithNum Proofs.ArithProofs.
Local Notation length := List.length.
Local Open Scope Z_scope.

Definition operands (n : nat) (s : state) : list cell := firstn (Nat.min n (data_depth s)) (ds s).

Definition reports_operand (n : nat) (s : state) (r : res unit) : Prop :=
  forall p s', r = RErr EType (Some p) s' ->
  exists c, In c (operands n s) /\ (p = c \/ p = value c).

Lemma m_xint_err c s k p s' : m_xint c s = RErr k p s' -> k = EType /\ p = Some (value c) /\ s' = s.
Proof. unfold m_xint, ret, fail. destruct (value c); intros H; try discriminate; injection H as <- <- <-; auto. Qed.
Lemma m_real_err c s k p s' : m_real c s = RErr k p s' -> k = EType /\ p = Some (value c) /\ s' = s.
Proof. unfold m_real, ret, fail. destruct (value c); intros H; try discriminate; injection H as <- <- <-; auto. Qed.
Lemma m_xint_ok c s x s' : m_xint c s = ROk x s' -> s' = s.
Proof. unfold m_xint, ret, fail. destruct (value c); intros H; try discriminate; injection H as _ <-; auto. Qed.
Lemma m_real_ok c s x s' : m_real c s = ROk x s' -> s' = s.
Proof. unfold m_real, ret, fail. destruct (value c); intros H; try discriminate; injection H as _ <-; auto. Qed.

Lemma popped_fields l s v : ds (set_ds (with_log l s) v) = v /\ cx (set_ds (with_log l s) v) = cx s.
Proof.
  destruct (set_ds_fields (with_log l s) v) as (F1 & F2 & _). destruct (with_log_fields l s) as (_ & F3 & _).
  rewrite F1, F2, F3. split; reflexivity.
Qed.

Lemma push_not_type c s p s' : push_data c s <> RErr EType p s'.
Proof. intro H. apply push_data_err in H. destruct H as [H _]. discriminate. Qed.

Lemma pop1_cases s :
  (exists a rest, ds s = a :: rest /\ (ds_len (cx s) <= length rest)%nat /\ operands 1 s = [a]) \/
  (forall A (k : cell -> M A), (let* x := pop_data in k x) s = RErr EUnderflow None s).
Proof.
  destruct (ds s) as [|a rest] eqn:Hd.
  - right. intros A k. unfold bind. rewrite pop_data_under; [reflexivity|]. rewrite Hd. cbn [List.length]. lia.
  - destruct (Nat.le_gt_cases (ds_len (cx s)) (length rest)) as [L|L].
    + left. exists a, rest. repeat split; try assumption.
      unfold operands, data_depth. rewrite Hd. cbn [List.length].
      replace (Nat.min 1 (S (length rest) - ds_len (cx s))) with 1%nat by lia. reflexivity.
    + right. intros A k. unfold bind. rewrite pop_data_under; [reflexivity|]. rewrite Hd. cbn [List.length]. lia.
Qed.

Lemma pop2_cases s :
  (exists a b rest, ds s = b :: a :: rest /\ (ds_len (cx s) <= length rest)%nat /\ operands 2 s = [b; a]) \/
  (exists s', forall A (k : cell -> cell -> M A),
     (let* y := pop_data in let* x := pop_data in k x y) s = RErr EUnderflow None s').
Proof.
  destruct (ds s) as [|b [|a rest]] eqn:Hd.
  - right. exists s. intros A k. unfold bind. rewrite pop_data_under; [reflexivity|]. rewrite Hd. cbn [List.length]. lia.
  - right. destruct (Nat.le_gt_cases (ds_len (cx s)) 0) as [L|L].
    + eexists. intros A k. unfold bind at 1. rewrite (pop_data_run s b [] Hd) by (cbn [List.length]; lia).
      unfold bind. rewrite pop_data_under; [reflexivity|].
      destruct (popped_fields [RPushData b] s []) as (-> & _). cbn [List.length]. lia.
    + exists s. intros A k. unfold bind. rewrite pop_data_under; [reflexivity|]. rewrite Hd. cbn [List.length]. lia.
  - destruct (Nat.le_gt_cases (ds_len (cx s)) (length rest)) as [L|L].
    + left. exists a, b, rest. repeat split; try assumption.
      unfold operands, data_depth. rewrite Hd. cbn [List.length].
      replace (Nat.min 2 (S (S (length rest)) - ds_len (cx s))) with 2%nat by lia. reflexivity.
    + right. destruct (Nat.le_gt_cases (ds_len (cx s)) (S (length rest))) as [L2|L2].
      * eexists. intros A k. unfold bind at 1. rewrite (pop_data_run s b (a :: rest) Hd) by (cbn [List.length]; lia).
        unfold bind. rewrite pop_data_under; [reflexivity|].
        destruct (popped_fields [RPushData b] s (a :: rest)) as (-> & ->). cbn [List.length]. lia.
      * exists s. intros A k. unfold bind. rewrite pop_data_under; [reflexivity|]. rewrite Hd. cbn [List.length]. lia.
Qed.

Lemma operands_mono s c : In c (operands 1 s) -> In c (operands 2 s).
Proof.
  unfold operands. intros H.
  destruct (Nat.le_gt_cases (data_depth s) 1) as [L|L].
  - replace (Nat.min 2 (data_depth s)) with (Nat.min 1 (data_depth s)) by lia. assumption.
  - replace (Nat.min 1 (data_depth s)) with 1%nat in H by lia.
    replace (Nat.min 2 (data_depth s)) with 2%nat by lia.
    destruct (ds s) as [|x [|y r]]; cbn [firstn In] in *; tauto.
Qed.

(* what follows a dispatch may be moved into its branches *)
Lemma bind_dispatch2 {A B} (ki kr : Z -> Z -> M A) (g : A -> M B) s :
  (let* c := dispatch2 ki kr in g c) s
  = dispatch2 (fun x y => let* c := ki x y in g c) (fun x y => let* c := kr x y in g c) s.
Proof.
  unfold dispatch2, bind. destruct (pop_data s) as [b s1| | |]; try reflexivity.
  destruct (pop_data s1) as [a s2| | |]; try reflexivity.
  destruct (value b); try reflexivity; [destruct (m_xint a s2)|destruct (m_real a s2)]; reflexivity.
Qed.

Lemma dispatch2_payload (ki kr : Z -> Z -> M unit) s :
  (forall x y s0 p s1, ki x y s0 <> RErr EType p s1) -> (forall x y s0 p s1, kr x y s0 <> RErr EType p s1) ->
  reports_operand 2 s (dispatch2 ki kr s).
Proof.
  intros Hi Hr p s' H. unfold dispatch2 in H.
  destruct (pop2_cases s)
    as [(a & b & rest & Hd & Hm & Hop)|(s1 & E)]; [|rewrite E in H; discriminate].
  rewrite (run_pop2 _ s a b rest Hd Hm) in H. rewrite Hop.
  destruct (value b) eqn:Hb;
    try (injection H as <- _; exists b; split; left; reflexivity).
  - unfold bind in H. destruct (m_xint a _) as [x s2|k q s2| |] eqn:E; try discriminate.
    + exfalso. eapply Hi, H.
    + apply m_xint_err in E. destruct E as (-> & -> & ->). injection H as <- _.
      exists a. split; [right; left; reflexivity|right; reflexivity].
  - unfold bind in H. destruct (m_real a _) as [x s2|k q s2| |] eqn:E; try discriminate.
    + exfalso. eapply Hr, H.
    + apply m_real_err in E. destruct E as (-> & -> & ->). injection H as <- _.
      exists a. split; [right; left; reflexivity|right; reflexivity].
Qed.

Lemma dispatch1_payload (ki kr : Z -> M unit) s :
  (forall x s0 p s1, ki x s0 <> RErr EType p s1) -> (forall x s0 p s1, kr x s0 <> RErr EType p s1) ->
  reports_operand 1 s (dispatch1 ki kr s).
Proof.
  intros Hi Hr p s' H. unfold dispatch1 in H.
  destruct (pop1_cases s) as [(a & rest & Hd & Hm & Hop)|E]; [|rewrite E in H; discriminate].
  rewrite (run_pop1 _ s a rest Hd Hm) in H. rewrite Hop.
  destruct (value a) eqn:Ha;
    try (injection H as <- _; exists a; split; left; reflexivity).
  - exfalso. eapply Hi, H.
  - exfalso. eapply Hr, H.
Qed.

Lemma unary_int_payload g s : reports_operand 1 s (unary_int g s).
Proof.
  intros p s' H. unfold unary_int in H.
  destruct (pop1_cases s)
    as [(a & rest & Hd & Hm & Hop)|E]; [|rewrite E in H; discriminate].
  rewrite (run_pop1 _ s a rest Hd Hm) in H. rewrite Hop.
  unfold bind in H. destruct (m_xint a _) as [x s2|k q s2| |] eqn:E; try discriminate.
  - exfalso. eapply push_not_type, H.
  - apply m_xint_err in E. destruct E as (-> & -> & ->). injection H as <- _.
    exists a. split; [left; reflexivity|right; reflexivity].
Qed.
Lemma unary_real_payload g s : reports_operand 1 s (unary_real g s).
Proof.
  intros p s' H. unfold unary_real in H.
  destruct (pop1_cases s)
    as [(a & rest & Hd & Hm & Hop)|E]; [|rewrite E in H; discriminate].
  rewrite (run_pop1 _ s a rest Hd Hm) in H. rewrite Hop.
  unfold bind in H. destruct (m_real a _) as [x s2|k q s2| |] eqn:E; try discriminate.
  - exfalso. eapply push_not_type, H.
  - apply m_real_err in E. destruct E as (-> & -> & ->). injection H as <- _.
    exists a. split; [left; reflexivity|right; reflexivity].
Qed.

(* the branches of the words end in a push or in an error that is not a type error *)
Lemma if_not_type {A} (c : bool) (m1 m2 : M A) s0 p s1 :
  m1 s0 <> RErr EType p s1 -> m2 s0 <> RErr EType p s1 -> (if c then m1 else m2) s0 <> RErr EType p s1.
Proof. destruct c; auto. Qed.

Section Payload.
  Variable fo : fops.

  Lemma arith_real_payload oi orl s :
    (forall x y s0 p s1, oi x y s0 <> RErr EType p s1) ->
    reports_operand 2 s (arith_real oi orl s).
  Proof.
    intros Hoi. rewrite arith_real_is. apply dispatch2_payload.
    - intros x y s0 p s1 H. unfold bind in H. destruct (oi x y s0) as [r s2|k q s2| |] eqn:E; try discriminate.
      + eapply push_not_type, H.
      + injection H as -> -> ->. eapply Hoi, E.
    - intros. apply push_not_type.
  Qed.

  Lemma add_payload s : reports_operand 2 s (w_add fo s).
  Proof. apply arith_real_payload. discriminate. Qed.
  Lemma sub_payload s : reports_operand 2 s (w_sub fo s).
  Proof. apply arith_real_payload. discriminate. Qed.
  Lemma mul_payload s : reports_operand 2 s (w_mul fo s).
  Proof. apply arith_real_payload. discriminate. Qed.
  Lemma rem_payload s : reports_operand 2 s (w_rem fo s).
  Proof. apply arith_real_payload. intros. apply if_not_type; discriminate. Qed.
  Lemma min_payload s : reports_operand 2 s (w_min fo s).
  Proof. apply arith_real_payload. discriminate. Qed.
  Lemma max_payload s : reports_operand 2 s (w_max fo s).
  Proof. apply arith_real_payload. discriminate. Qed.

  Lemma div_payload s : reports_operand 2 s (w_div fo s).
  Proof.
    rewrite w_div_is. apply dispatch2_payload; intros.
    - apply if_not_type; [discriminate|]. apply if_not_type; [apply push_not_type|discriminate].
    - apply if_not_type; [discriminate|apply push_not_type].
  Qed.

  Lemma cmp_payload f s : reports_operand 2 s (w_cmp f s).
  Proof.
    unfold w_cmp. rewrite compare_cells_is, bind_dispatch2.
    apply dispatch2_payload; intros; apply push_not_type.
  Qed.

  (* band bor bxor bsl bsr: the right operand is popped and checked before the left one *)
  Lemma arith_int_payload f s : reports_operand 2 s (arith_int f s).
  Proof.
    intros p s' H. unfold arith_int in H.
    destruct (pop1_cases s)
      as [(b & rest0 & Hd & Hm & Hop)|E]; [|rewrite E in H; discriminate].
    rewrite (run_pop1 _ s b rest0 Hd Hm) in H.
    unfold bind at 1 in H. destruct (m_xint b _) as [y s2|k q s2| |] eqn:E; try discriminate.
    - pose proof (m_xint_ok _ _ _ _ E) as ->.
      destruct (pop1_cases (set_ds (with_log [RPushData b] s) rest0))
        as [(a & rest & Hd2 & Hm2 & _)|E2]; [|rewrite E2 in H; discriminate].
      rewrite (run_pop1 _ _ a rest Hd2 Hm2) in H.
      destruct (popped_fields [RPushData b] s rest0) as (F1 & F2).
      rewrite F1 in Hd2. subst rest0. rewrite F2 in Hm2.
      assert (Hop2 : operands 2 s = [b; a]).
      { unfold operands, data_depth. rewrite Hd. cbn [List.length].
        replace (Nat.min 2 (S (S (length rest)) - ds_len (cx s))) with 2%nat by lia. reflexivity. }
      rewrite Hop2. unfold bind in H. destruct (m_xint a _) as [x s3|k q s3| |] eqn:E3; try discriminate.
      + exfalso. eapply push_not_type, H.
      + apply m_xint_err in E3. destruct E3 as (-> & -> & ->). injection H as <- _.
        exists a. split; [right; left; reflexivity|right; reflexivity].
    - apply m_xint_err in E. destruct E as (-> & -> & ->). injection H as <- _.
      exists b. split; [apply operands_mono; rewrite Hop; left; reflexivity|right; reflexivity].
  Qed.

  Lemma neg_payload s : reports_operand 1 s (w_neg s).
  Proof.
    rewrite w_neg_is. apply dispatch1_payload; intros.
    - apply if_not_type; [apply push_not_type|discriminate].
    - apply push_not_type.
  Qed.
  Lemma abs_payload s : reports_operand 1 s (w_abs s).
  Proof.
    rewrite w_abs_is. apply dispatch1_payload; intros.
    - apply if_not_type; [apply push_not_type|discriminate].
    - apply push_not_type.
  Qed.
  Lemma sign_test_payload fi fr s : reports_operand 1 s (w_sign_test fi fr s).
  Proof. rewrite w_sign_test_is. apply dispatch1_payload; intros; apply push_not_type. Qed.

  Lemma bnot_payload s : reports_operand 1 s (w_bnot s).
  Proof. apply (unary_int_payload (fun x => cint (Z.lnot x))). Qed.
  Lemma popcnt_payload s : reports_operand 1 s (w_popcnt s).
  Proof. apply (unary_int_payload (fun x => cint (popcount x))). Qed.
  Lemma round_payload s : reports_operand 1 s (w_round fo s).
  Proof. apply (unary_real_payload (fun x => CReal (f_round fo x))). Qed.

  Lemma top_data_cases s :
    (exists a, top_data s = ROk a s) \/ top_data s = RErr EUnderflow None s.
  Proof.
    unfold top_data. destruct (ds s) as [|a rest]; [right; reflexivity|].
    destruct (ds_len (cx s) <? length (a :: rest))%nat; [left; exists a|right]; reflexivity.
  Qed.

  Lemma into_real_payload s : reports_operand 1 s (w_into_real fo s).
  Proof.
    intros p s' H. unfold w_into_real in H. unfold bind at 1 in H.
    destruct (top_data_cases s) as [(a & E)|E]; rewrite E in H; [|discriminate].
    destruct (value a); try (eapply (unary_int_payload (fun x => CReal (f_of_int fo x))); eassumption).
    discriminate.
  Qed.
  Lemma into_int_payload s : reports_operand 1 s (w_into_int fo s).
  Proof.
    intros p s' H. unfold w_into_int in H. unfold bind at 1 in H.
    destruct (top_data_cases s) as [(a & E)|E]; rewrite E in H; [|discriminate].
    destruct (value a); try (eapply (unary_real_payload (fun x => cint (f_to_int fo x))); eassumption).
    discriminate.
  Qed.

  Definition c09_words : list (string * nat) :=
    [ ("+", 2); ("-", 2); ("*", 2); ("/", 2); ("rem", 2); ("neg", 1); ("abs", 1); ("min", 2); ("max", 2);
      ("<", 2); ("<=", 2); (">", 2); (">=", 2); ("==", 2); ("<>", 2);
      ("band", 2); ("bor", 2); ("bxor", 2); ("bnot", 1); ("popcnt", 1); ("bsl", 2); ("bsr", 2);
      (">int", 1); (">real", 1); ("round", 1); ("zero?", 1); ("positive?", 1); ("negative?", 1) ]%string%nat.

  Theorem type_error_payload : forall name n w s,
    In (name, n) c09_words -> native_fn fo name = Some w -> reports_operand n s (w s).
  Proof.
    intros name n w s Hin Hw. unfold c09_words in Hin. cbn [In] in Hin.
    repeat (destruct Hin as [Hin|Hin];
            [injection Hin as <- <-; injection Hw as <-; auto using add_payload, sub_payload, mul_payload,
               div_payload, rem_payload, neg_payload, abs_payload, min_payload, max_payload, cmp_payload,
               arith_int_payload, bnot_payload, popcnt_payload, into_int_payload, into_real_payload,
               round_payload, sign_test_payload|]).
    contradiction.
  Qed.
End Payload.
