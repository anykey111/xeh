(* BuildLogMain.v (C15): recording is transparent for the whole API.
   The run used inside the builder (meta blocks, user immediate words, closing an eval context),
   context_close, the table of immediate words, build_word, the build loop, the unwinding of a
   failed build, eval and compile; then the statements about single stepping and the six ways of
   driving a source. *)
From Xeh Require Import Model.Prelude Model.Bits Model.Codec Model.Cell Model.Lexer Model.Fmt
                        Model.Vm Model.Words Model.Build.
From Xeh Require Import Proofs.VmFrame Proofs.VmFetch Proofs.VmDrive Proofs.NoPanicBuild Proofs.BuildLog Proofs.BuildUnwind.
Local Notation length := List.length.

#[local] Arguments Z.add : simpl never.
#[local] Arguments Z.sub : simpl never.
#[local] Arguments Z.mul : simpl never.
#[local] Arguments Z.ltb : simpl never.
#[local] Arguments Z.leb : simpl never.
#[local] Arguments Z.eqb : simpl never.
#[local] Arguments Z.of_nat : simpl never.
#[local] Arguments Z.to_nat : simpl never.

#[export] Hint Resolve R_i_if R_i_else R_i_then R_i_case R_i_of R_i_endof R_i_endcase R_i_begin
  R_i_while R_i_until R_i_break R_i_repeat R_i_open R_i_close R_i_def_begin R_i_def_end R_i_late
  R_i_immediate R_i_local R_i_var R_i_setvar R_code_emit R_i_nested_begin R_i_const R_i_do
  R_i_loop R_i_foreach R_i_defined R_build_let_in R_i_set_fmt_base R_emit_native : rldb.

Lemma R_emit_results : forall fuel, R_log (emit_results fuel) (emit_results fuel).
Proof.
  induction fuel as [|f IH]; intro s; cbn [emit_results]; [reflexivity|]. erase_norm.
  destruct (ds_len (cx s) <? length (ds s))%nat; [|reflexivity].
  rewrite <- (R_pop_data s).
  destruct (pop_data s) as [v s1|k p s1| |]; cbn [res_map]; try reflexivity.
  rewrite <- (R_code_emit_value v s1).
  destruct (code_emit_value v s1) as [u s2|k p s2| |]; cbn [res_map]; try reflexivity.
  apply IH.
Qed.

(* what context_close does after the run of a meta block, in named pieces *)
Definition trunc_code (s1 : state) : state :=
  set_dbg (set_code s1 (firstn (cs_len (cx s1)) (code s1))) (firstn (cs_len (cx s1)) (dbg s1)).
Definition purge_from (s2 : state) (i : nat) : state :=
  set_dict s2 (purge_dict (S (length (dict s2))) (dict s2) i).
Definition meta_tail (prev : ctx) (s1 : state) : res unit :=
  let s3 := purge_from (trunc_code s1) (di_len (cx s1)) in
  let after :=
      if negb (mode_eqb (cmode prev) MMeta) ||
         match firstn (length (flows s3) - fs_len prev) (flows s3) with
         | FFun _ _ _ :: _ => true
         | _ => false
         end
      then emit_results (S (length (ds s3))) s3 else ROk tt s3 in
  match after with
  | ROk _ s4 => ROk tt (set_cx s4 prev)
  | e => e
  end.

Lemma meta_tail_erase prev s1 :
  res_map erase_log (meta_tail prev s1) = meta_tail prev (erase_log s1).
Proof.
  unfold meta_tail. cbv zeta.
  change (purge_from (trunc_code (erase_log s1)) (di_len (cx (erase_log s1))))
    with (erase_log (purge_from (trunc_code s1) (di_len (cx s1)))).
  set (s3 := purge_from (trunc_code s1) (di_len (cx s1))). clearbody s3. erase_norm.
  rewrite <- (R_emit_results (S (length (ds s3))) s3).
  destruct (negb (mode_eqb (cmode prev) MMeta) || _); [|reflexivity].
  destruct (emit_results (S (length (ds s3))) s3); reflexivity.
Qed.

Lemma leave_contexts_erase : forall fuel depth s,
  erase_log (leave_contexts fuel depth s) = leave_contexts fuel depth (erase_log s).
Proof.
  induction fuel as [|f IH]; intros depth s; cbn [leave_contexts]; [reflexivity|].
  change (nested (erase_log s)) with (nested s).
  destruct (S depth <? length (nested s))%nat; [|reflexivity].
  destruct (nested s) as [|prev rest]; [reflexivity|].
  apply (IH depth (set_cx (set_nested s rest) prev)).
Qed.

Lemma build_unwind_erase : forall depth inputs dsl heapl s,
  erase_log (build_unwind depth inputs dsl heapl s) = build_unwind depth inputs dsl heapl (erase_log s).
Proof.
  intros depth inputs dsl heapl s. rewrite !build_unwind_eq. cbv zeta.
  change (set_input (erase_log s) (lastn inputs (input (erase_log s))))
    with (erase_log (set_input s (lastn inputs (input s)))).
  change (nested (erase_log s)) with (nested s).
  rewrite <- leave_contexts_erase.
  destruct (leave_contexts_frame (S (length (nested s))) depth (set_input s (lastn inputs (input s))))
    as (c & n & ->).
  cbn [unwind_cut nested set_nested erase_log set_rlog].
  destruct n as [|prev rest]; [reflexivity|].
  destruct (depth <? length (prev :: rest))%nat; reflexivity.
Qed.

Section Run.
  Variable fo : fops.
  Variable pr : string -> option Z.
  Variable rf : nat.

  Lemma R_run_m : R_log (run_m fo rf) (run_m fo rf).
  Proof.
    intro s. unfold run_m, nf. rewrite <- (recording_transparent_run fo rf s).
    destruct (run (native_fn fo) rf s) as [r|]; reflexivity.
  Qed.

  Lemma R_context_close : R_log (context_close fo rf) (context_close fo rf).
  Proof.
    intro s. unfold context_close. cbv zeta.
    change (nested (erase_log s)) with (nested s).
    destruct (nested s) as [|prev rest]; [reflexivity|].
    change (set_nested (erase_log s) rest) with (erase_log (set_nested s rest)).
    set (s0 := set_nested s rest). clearbody s0.
    change (cx (erase_log s0)) with (cx s0).
    destruct (cmode (cx s0)).
    - reflexivity.
    - rewrite <- (R_run_m s0).
      destruct (run_m fo rf s0) as [u s1|k p s1| |]; cbn [res_map]; reflexivity.
    - rewrite <- (R_run_m s0).
      destruct (run_m fo rf s0) as [u s1|k p s1| |]; cbn [res_map]; try reflexivity.
      exact (meta_tail_erase prev s1).
  Qed.

  Lemma R_i_nested_end : R_log (i_nested_end fo rf) (i_nested_end fo rf).
  Proof. pose proof R_context_close. rl_solve. Qed.
  Lemma R_i_nested_inject : R_log (i_nested_inject fo rf) (i_nested_inject fo rf).
  Proof. pose proof R_context_close. rl_solve. Qed.

  (* enum: the words that close a context *)
  Lemma R_i_enum_field : R_log (i_enum_field fo pr rf) (i_enum_field fo pr rf).
  Proof. pose proof R_i_nested_end. pose proof R_enum_add_field. rl_solve. Qed.
  Lemma R_i_enum_field_set : R_log (i_enum_field_set fo pr rf) (i_enum_field_set fo pr rf).
  Proof. pose proof R_i_nested_end. pose proof R_enum_add_field. pose proof R_m_xint. rl_solve. Qed.
  Lemma R_i_endenum : R_log (i_endenum fo rf) (i_endenum fo rf).
  Proof. pose proof R_i_nested_end. rl_solve. Qed.

  Lemma R_immediate_fn fuel name w :
    immediate_fn fo pr rf fuel name = Some w -> R_log w w.
  Proof.
    unfold immediate_fn. cbv zeta.
    apply (table_find_row (fun _ m => R_log m m)).
    pose proof R_i_nested_end. pose proof R_i_nested_inject.
    pose proof (R_i_enum pr). pose proof R_i_enum_field. pose proof R_i_enum_field_set. pose proof R_i_endenum.
    repeat (apply Forall_cons; [ cbn [snd]; solve [ auto 1 with rldb nocore ] | ]).
    apply Forall_nil.
  Qed.

  Lemma R_run_immediate fuel f :
    R_log (run_immediate fo pr rf fuel f) (run_immediate fo pr rf fuel f).
  Proof.
    unfold run_immediate. destruct f as [x|name].
    - pose proof R_run_m. rl_solve.
    - destruct (immediate_fn fo pr rf fuel name) as [w|] eqn:E.
      + eapply R_immediate_fn; eauto.
      + apply R_unsup.
  Qed.

  Lemma R_build_word fuel name :
    R_log (build_word fo pr rf fuel name) (build_word fo pr rf fuel name).
  Proof. pose proof R_run_immediate. rl_solve. Qed.

  Lemma R_build1 : forall fuel depth, R_log (build1 fo pr rf fuel depth) (build1 fo pr rf fuel depth).
  Proof.
    induction fuel as [|f IH]; intros depth; cbn [build1]; [apply R_unsup|].
    pose proof R_run_m. pose proof R_build_word.
    rl_solve.
  Qed.

  Lemma R_build_from_source fuel src m :
    R_log (build_from_source fo pr rf fuel src m) (build_from_source fo pr rf fuel src m).
  Proof.
    intro s. unfold build_from_source. cbv zeta. erase_norm.
    assert (Ho : R_log (context_open m;; intern_source src) (context_open m;; intern_source src))
      by rl_solve.
    rewrite <- (Ho s).
    destruct ((context_open m;; intern_source src) s) as [u s1|k p s1| |]; cbn [res_map]; try reflexivity.
    change (nested (erase_log s1)) with (nested s1).
    rewrite <- (R_build1 fuel (length (nested s1)) s1).
    destruct (build1 fo pr rf fuel (length (nested s1)) s1) as [u2 s2|k p s2| |];
      cbn [res_map]; try reflexivity.
    - apply R_context_close.
    - rewrite build_unwind_erase. reflexivity.
  Qed.

  Theorem recording_transparent_eval : forall fuel src s,
    res_map erase_log (eval fo pr rf fuel src s) = eval fo pr rf fuel src (erase_log s).
  Proof. intros. apply R_build_from_source. Qed.

  Theorem recording_transparent_compile : forall fuel src s,
    res_map erase_log (compile fo pr rf fuel src s) = compile fo pr rf fuel src (erase_log s).
  Proof. intros. apply R_build_from_source. Qed.

  Theorem recording_transparent_compile_run : forall fuel src s,
    res_map erase_log ((compile fo pr rf fuel src ;; run_m fo rf) s) =
    (compile fo pr rf fuel src ;; run_m fo rf) (erase_log s).
  Proof.
    intros fuel src.
    apply (R_bind _ _ _ _ _ _ (R_build_from_source fuel src MCompile) (fun _ => R_run_m)).
  Qed.
End Run.

Lemma steps_erase : forall fo n s,
  steps (native_fn fo) n (erase_log s) = option_map erase_log (steps (native_fn fo) n s).
Proof.
  intros fo. induction n as [|n IH]; intro s; cbn [steps]; [reflexivity|].
  rewrite <- (recording_transparent fo s).
  destruct (fetch_and_run (native_fn fo) s) as [u s1|k p s1| |]; cbn [res_map option_map]; try reflexivity.
  apply IH.
Qed.

(* the outcome of single stepping to the end: [n] successful steps, then either the machine has
   stopped (result: that state) or the next step does not succeed (result: what that step
   returned - an error with its state, or a panic) *)
Definition stepped (nf : natives) (n : nat) (s : state) (r : res unit) : Prop :=
  exists sn, steps nf n s = Some sn /\
    ((is_running sn = false /\ r = ROk tt sn) \/
     (is_running sn = true /\ r = fetch_and_run nf sn /\ forall u s', r <> ROk u s')).

Lemma run_failing_step : forall nf fuel s,
  is_running s = true -> (forall u s', fetch_and_run nf s <> ROk u s') ->
  run nf (S fuel) s = Some (fetch_and_run nf s).
Proof.
  intros nf fuel s Hr Hf. cbn [run]. rewrite Hr.
  destruct (fetch_and_run nf s) as [u s1|k p s1| |]; try reflexivity.
  exfalso. eapply Hf. reflexivity.
Qed.

Theorem stepping_is_run : forall nf n s r fuel,
  stepped nf n s r -> n < fuel -> run nf fuel s = Some r.
Proof.
  intros nf n s r fuel (sn & Hs & H) Hlt.
  rewrite (run_is_stepping nf n s sn fuel Hs Hlt).
  destruct H as [(Hr & ->)|(Hr & -> & Hf)]; rewrite Hr; [reflexivity|].
  destruct (fuel - n) as [|g] eqn:E; [lia|].
  apply run_failing_step; assumption.
Qed.

Theorem run_is_stepped : forall nf fuel s r,
  run nf fuel s = Some r -> exists n, n < fuel /\ stepped nf n s r.
Proof.
  intros nf fuel s r H. destruct (run_steps nf fuel s r H) as (n & sn & Hn & Hs & Hd).
  exists n. split; [exact Hn|]. exists sn. auto.
Qed.

Lemma stepped_erase : forall fo n s r,
  stepped (native_fn fo) n s r -> stepped (native_fn fo) n (erase_log s) (res_map erase_log r).
Proof.
  intros fo n s r (sn & Hs & H). exists (erase_log sn). split.
  - rewrite steps_erase, Hs. reflexivity.
  - change (is_running (erase_log sn)) with (is_running sn).
    destruct H as [(Hr & ->)|(Hr & -> & Hf)]; [left; split; [exact Hr|reflexivity]|right].
    split; [exact Hr|]. split; [apply recording_transparent|].
    intros u s' E. destruct (fetch_and_run (native_fn fo) sn) as [u1 s1|k p s1| |]; cbn [res_map] in E;
      try discriminate. eapply Hf. reflexivity.
Qed.

(* compile, then single-step to the end: a rejected source gives the build error, otherwise
   the outcome of stepping the compiled state (at most [rf] steps are allowed, as for run) *)
Definition compile_stepped (fo : fops) (pr : string -> option Z) (rf fuel : nat) (src : string)
           (s : state) (r : res unit) : Prop :=
  match compile fo pr rf fuel src s with
  | ROk _ sc => exists n, n < rf /\ stepped (native_fn fo) n sc r
  | e => r = e
  end.

Theorem compile_step_is_compile_run : forall fo pr rf fuel src s r,
  compile_stepped fo pr rf fuel src s r -> (compile fo pr rf fuel src ;; run_m fo rf) s = r.
Proof.
  intros fo pr rf fuel src s r H. unfold compile_stepped in H. unfold bind.
  destruct (compile fo pr rf fuel src s) as [u sc|k p sc| |]; try (symmetry; exact H).
  destruct H as (n & Hn & Hs). unfold run_m, nf. rewrite (stepping_is_run _ _ _ _ _ Hs Hn). reflexivity.
Qed.

(* the converse: unless the run is out of fuel, stepping reaches the result of compile ;; run *)
Theorem compile_run_is_compile_step : forall fo pr rf fuel src s,
  (forall sc, compile fo pr rf fuel src s = ROk tt sc -> run (native_fn fo) rf sc <> None) ->
  compile_stepped fo pr rf fuel src s ((compile fo pr rf fuel src ;; run_m fo rf) s).
Proof.
  intros fo pr rf fuel src s H. unfold compile_stepped, bind.
  destruct (compile fo pr rf fuel src s) as [u sc|k p sc| |]; try reflexivity.
  destruct u. specialize (H sc eq_refl). unfold run_m, nf.
  destruct (run (native_fn fo) rf sc) as [r|] eqn:E; [|contradiction].
  apply run_is_stepped. exact E.
Qed.

Theorem compile_stepped_erase : forall fo pr rf fuel src s r,
  compile_stepped fo pr rf fuel src s r ->
  compile_stepped fo pr rf fuel src (erase_log s) (res_map erase_log r).
Proof.
  intros fo pr rf fuel src s r H. unfold compile_stepped in *.
  rewrite <- recording_transparent_compile.
  destruct (compile fo pr rf fuel src s) as [u sc|k p sc| |]; cbn [res_map]; try (rewrite H; reflexivity).
  destruct H as (n & Hn & Hs). exists n. split; [exact Hn|]. apply stepped_erase. exact Hs.
Qed.

(* building the premise of the six-way statement from explicit steps *)
Lemma compile_stepped_stops : forall fo pr rf fuel src s sc n sn,
  compile fo pr rf fuel src s = ROk tt sc ->
  steps (native_fn fo) n sc = Some sn -> is_running sn = false -> n < rf ->
  compile_stepped fo pr rf fuel src s (ROk tt sn).
Proof.
  intros fo pr rf fuel src s sc n sn Hc Hs Hr Hn. unfold compile_stepped. rewrite Hc.
  exists n. split; [exact Hn|]. exists sn. split; [exact Hs|]. left. split; [exact Hr|reflexivity].
Qed.
