(* BuildShape.v: the shape of [code_emit], of [emit_results], of [context_close] and of a
   successful [build1].

   [code_emit] appends the instruction and writes the debug entry of the new cell, and
   panics exactly when the debug map is shorter than the code ([code_emit_eq]).
   [emit_results] is a sequence of [pop_data] and [code_emit] steps ([emitted]).
   [context_close] has one outcome per mode of the context it leaves ([close_spec]); for a
   meta context the code of the block is run, code / debug map / dictionary are cut back to
   the marks of the block ([close_cut]) and the results of the run are emitted again. *)
From Xeh Require Import Model.Prelude Model.Bits Model.Codec Model.Cell Model.Lexer Model.Fmt
                        Model.Vm Model.Words Model.Build.
From Xeh Require Import Proofs.VmFrame Proofs.VmLimits Proofs.BuildUnwind.
Local Notation length := List.length.

Lemma bind_ok {A B} (m : M A) (f : A -> M B) s b s' :
  bind m f s = ROk b s' -> exists a s1, m s = ROk a s1 /\ f a s1 = ROk b s'.
Proof. unfold bind. destruct (m s) as [a s1|k p s1| |]; try discriminate. eauto. Qed.

Definition cur_tok (s : state) : tokref :=
  match last_tok s with Some t => t | None => (0, 0, 0) end.

(* the debug map after an emission: the entry of the new cell is written, or overwritten
   when the map is longer than the code *)
Definition emit_dbg (s : state) : list tokref :=
  if (length (code s) <? length (dbg s))%nat then list_set (dbg s) (length (code s)) (cur_tok s)
  else dbg s ++ [cur_tok s].

Lemma code_emit_eq op s :
  code_emit op s = if (length (code s) <=? length (dbg s))%nat
                   then ROk tt (set_code (set_dbg s (emit_dbg s)) (code s ++ [op]))
                   else RPanic.
Proof.
  unfold code_emit, emit_dbg, cur_tok. cbv zeta.
  destruct (length (code s) <? length (dbg s))%nat eqn:E1.
  - apply Nat.ltb_lt in E1. replace (length (code s) <=? length (dbg s))%nat with true; [reflexivity|].
    symmetry. apply Nat.leb_le. lia.
  - apply Nat.ltb_ge in E1. destruct (length (code s) =? length (dbg s))%nat eqn:E2.
    + apply Nat.eqb_eq in E2. rewrite E2, Nat.leb_refl. reflexivity.
    + apply Nat.eqb_neq in E2. replace (length (code s) <=? length (dbg s))%nat with false; [reflexivity|].
      symmetry. apply Nat.leb_gt. lia.
Qed.

Lemma emit_dbg_length s : length (code s) <= length (dbg s) ->
  length (emit_dbg s) = Nat.max (length (dbg s)) (S (length (code s))).
Proof.
  intros H. unfold emit_dbg. destruct (length (code s) <? length (dbg s))%nat eqn:E.
  - apply Nat.ltb_lt in E. rewrite list_set_length. lia.
  - apply Nat.ltb_ge in E. rewrite app_length. cbn [length]. lia.
Qed.

Lemma code_emit_no_err op s k p s' : code_emit op s <> RErr k p s'.
Proof. rewrite code_emit_eq. destruct (_ <=? _)%nat; discriminate. Qed.

Inductive emitted : state -> state -> Prop :=
| emitted_refl : forall s, emitted s s
| emitted_pop : forall s v s1 s2, pop_data s = ROk v s1 -> emitted s1 s2 -> emitted s s2
| emitted_emit : forall s op s1 s2, code_emit op s = ROk tt s1 -> emitted s1 s2 -> emitted s s2.

(* the only way out that is neither a result nor [RUnsup]: an emission that finds the debug
   map shorter than the code *)
Definition emit_res (s : state) (r : res unit) : Prop :=
  match r with
  | ROk _ s' => emitted s s'
  | RErr _ _ s' => emitted s s'
  | RPanic => exists s' op, emitted s s' /\ code_emit op s' = RPanic
  | RUnsup => True
  end.

Lemma emit_res_step (s s2 : state) r :
  (forall s3, emitted s2 s3 -> emitted s s3) -> emit_res s2 r -> emit_res s r.
Proof.
  intros H. destruct r as [u s'|k p s'| |]; cbn [emit_res]; auto.
  intros (s' & op & E & P). exists s', op. auto.
Qed.

Lemma emit_results_spec : forall fuel s, emit_res s (emit_results fuel s).
Proof.
  induction fuel as [|f IH]; intros s; cbn [emit_results]; [apply emitted_refl|].
  destruct (ds_len (cx s) <? length (ds s))%nat; [|apply emitted_refl].
  unfold pop_data at 1. destruct (ds s) as [|c r] eqn:Ed; [apply emitted_refl|].
  destruct (ds_len (cx s) <? length (c :: r))%nat eqn:El; [|apply emitted_refl].
  set (s1 := add_rstep (RPushData c) (set_ds s r)).
  assert (E1 : pop_data s = ROk c s1) by (unfold pop_data; rewrite Ed, El; reflexivity).
  apply (emit_res_step s s1); [intros s3; apply emitted_pop with c; exact E1|].
  unfold code_emit_value.
  destruct (code_emit (load_value_opcode c) s1) as [[] s2|k p s2| |] eqn:E2.
  - apply (emit_res_step s1 s2); [intros s3; eapply emitted_emit; exact E2|apply IH].
  - exfalso. exact (code_emit_no_err _ _ _ _ _ E2).
  - exists s1, (load_value_opcode c). split; [apply emitted_refl|exact E2].
  - exact I.
Qed.

Lemma emitted_frame a b : emitted a b ->
  dict b = dict a /\ flows b = flows a /\ cx b = cx a /\ nested b = nested a /\
  sources b = sources a /\ input b = input a /\ last_tok b = last_tok a.
Proof.
  induction 1 as [s|s v s1 s2 E _ IH|s op s1 s2 E _ IH]; [repeat split| |].
  - assert (F : dict s1 = dict s /\ flows s1 = flows s /\ cx s1 = cx s /\ nested s1 = nested s /\
                sources s1 = sources s /\ input s1 = input s /\ last_tok s1 = last_tok s).
    { revert E. unfold pop_data. destruct (ds s); [discriminate|]. destruct (_ <? _)%nat; [|discriminate].
      intros [= _ <-]. unfold add_rstep. cbn [set_ds rlog]. destruct (rlog s); repeat split. }
    destruct F as (F1 & F2 & F3 & F4 & F5 & F6 & F7), IH as (I1 & I2 & I3 & I4 & I5 & I6 & I7).
    repeat split; congruence.
  - rewrite code_emit_eq in E. destruct (_ <=? _)%nat; [|discriminate]. injection E as <-. exact IH.
Qed.

(* the context an eval block returns to remembers where the block stopped *)
Definition eval_prev (prev : ctx) (s1 : state) : ctx :=
  if mode_eqb (cmode prev) MEval then set_ctx_ip prev (ip s1) else prev.

Section Close.
  Variable fo : fops.
  Variable rf : nat.

  Inductive close_spec (s : state) : res unit -> Prop :=
  | close_none : nested s = [] -> close_spec s (RErr EContext None s)
  | close_compile : forall prev rest,
      nested s = prev :: rest -> cmode (cx s) = MCompile ->
      close_spec s (ROk tt (set_cx (set_nested s rest) prev))
  | close_eval_ok : forall prev rest u s1,
      nested s = prev :: rest -> cmode (cx s) = MEval -> run_m fo rf (set_nested s rest) = ROk u s1 ->
      close_spec s (ROk tt (set_cx s1 (eval_prev prev s1)))
  | close_eval_err : forall prev rest k p s1,
      nested s = prev :: rest -> cmode (cx s) = MEval -> run_m fo rf (set_nested s rest) = RErr k p s1 ->
      close_spec s (RErr k p (set_cx s1 (eval_prev prev s1)))
  (* the block failed while running: the popped context is put back *)
  | close_meta_err : forall prev rest k p s1,
      nested s = prev :: rest -> cmode (cx s) = MMeta -> run_m fo rf (set_nested s rest) = RErr k p s1 ->
      close_spec s (RErr k p (set_nested s1 (prev :: nested s1)))
  | close_meta_ok : forall prev rest u s1 s4,
      nested s = prev :: rest -> cmode (cx s) = MMeta -> run_m fo rf (set_nested s rest) = ROk u s1 ->
      emitted (close_cut s1) s4 -> close_spec s (ROk tt (set_cx s4 prev))
  | close_meta_emit_err : forall prev rest u s1 k p s4,
      nested s = prev :: rest -> cmode (cx s) = MMeta -> run_m fo rf (set_nested s rest) = ROk u s1 ->
      emitted (close_cut s1) s4 -> close_spec s (RErr k p s4)
  | close_meta_panic : forall prev rest u s1 s4 op,
      nested s = prev :: rest -> cmode (cx s) = MMeta -> run_m fo rf (set_nested s rest) = ROk u s1 ->
      emitted (close_cut s1) s4 -> code_emit op s4 = RPanic -> close_spec s RPanic
  | close_run_panic : forall prev rest,
      nested s = prev :: rest -> run_m fo rf (set_nested s rest) = RPanic -> close_spec s RPanic
  | close_unsup : close_spec s RUnsup.

  Lemma close_spec_holds s : close_spec s (context_close fo rf s).
  Proof.
    unfold context_close. destruct (nested s) as [|prev rest] eqn:En; [apply close_none; exact En|].
    cbv zeta. change (cx (set_nested s rest)) with (cx s).
    destruct (cmode (cx s)) eqn:Em.
    - apply close_compile; assumption.
    - fold (eval_prev prev). destruct (run_m fo rf (set_nested s rest)) as [u s1|k p s1| |] eqn:Er.
      + eapply close_eval_ok; eassumption.
      + eapply close_eval_err; eassumption.
      + eapply close_run_panic; eassumption.
      + apply close_unsup.
    - destruct (run_m fo rf (set_nested s rest)) as [u s1|k p s1| |] eqn:Er;
        [|eapply close_meta_err; eassumption|eapply close_run_panic; eassumption|apply close_unsup].
      fold (close_cut s1).
      match goal with |- context [if ?b then _ else _] => destruct b end.
      + pose proof (emit_results_spec (S (length (ds (close_cut s1)))) (close_cut s1)) as H.
        destruct (emit_results _ (close_cut s1)) as [u4 s4|k p s4| |]; cbn [emit_res] in H.
        * eapply close_meta_ok; eassumption.
        * eapply close_meta_emit_err; eassumption.
        * destruct H as (s4 & op & H & P). eapply close_meta_panic; eassumption.
        * apply close_unsup.
      + eapply close_meta_ok; [eassumption..|apply emitted_refl].
  Qed.
End Close.

Section Build1.
  Variable fo : fops.
  Variable pr : string -> option Z.
  Variable rf : nat.

  Lemma next_token_end_input : forall fuel s s', next_token pr fuel s = ROk BEnd s' -> input s' = [].
  Proof.
    induction fuel as [|f IH]; intros s s' H; cbn [next_token] in H; [discriminate|].
    destruct (input s) as [|il rest] eqn:Ein.
    - injection H as <-. exact Ein.
    - cbv zeta in H. destruct (lex_next_nonws _ _) as [t l']. destruct t; try discriminate.
      + eapply IH. exact H.
      + destruct (pr text); discriminate.
  Qed.

  Lemma build1_ok_end : forall fuel d s u s', build1 fo pr rf fuel d s = ROk u s' ->
    input s' = [] /\ length (nested s') = d /\ has_pending_flow s' = false.
  Proof.
    induction fuel as [|f IH]; intros d s u s' H; cbn [build1] in H; [discriminate|].
    apply bind_ok in H. destruct H as (s0 & s0' & H0 & H). injection H0 as <- <-.
    apply bind_ok in H. destruct H as (u1 & s1 & _ & H).
    apply bind_ok in H. destruct H as (t & s2 & Ht & H).
    assert (X : forall (m : M unit) a, bind m (fun _ => build1 fo pr rf f d) a = ROk u s' ->
                input s' = [] /\ length (nested s') = d /\ has_pending_flow s' = false).
    { intros m a Hm. apply bind_ok in Hm. destruct Hm as (u4 & s4 & _ & Hm). eapply IH; exact Hm. }
    destruct t as [|name|v]; [|unfold bind at 1, get in H|exact (X _ _ H)].
    - unfold bind, get in H.
      destruct (length (nested s2) =? d)%nat eqn:Ed; cbn [negb] in H; [|discriminate].
      destruct (has_pending_flow s2) eqn:Ep; [discriminate|].
      injection H as <- <-. split; [eapply next_token_end_input; exact Ht|].
      split; [apply Nat.eqb_eq; exact Ed|exact Ep].
    - destruct (top_function_flow s2) as [[[fa fb] ls]|]; [destruct (rposition ls name 0 None)|];
        exact (X _ _ H).
  Qed.
End Build1.
