(* DbgMapGen.v (C17, C08): the walk through the builder, done once for an arbitrary invariant.

   Three predicates: [J0] holds between tokens of [build1]; [J] (stronger) holds while one
   token is being compiled (after [get_token] returned a word or a literal); [E] is what is
   left when the build fails.  Given that they are kept by machine steps ([vmrel]), by
   [code_emit], by token reading and by the context operations, every immediate word,
   [build_word] and [build1] (any fuel) keep them ([gp_walk]).

   Before the walk: what token reading keeps ([bk]), and [context_close] for an invariant
   that does not look at the contexts ([close_data]). *)
From Xeh Require Import Model.Prelude Model.Bits Model.Codec Model.Cell Model.Lexer Model.Fmt
                        Model.Vm Model.Words Model.Build.
From Xeh Require Import Proofs.VmFrame Proofs.VmLimits Proofs.DbgMapVm Proofs.BuildLet Proofs.BuildUnwind Proofs.BuildShape.

(* [bk]: everything but the input lexers and the last token *)
Definition bk (s s' : state) : Prop :=
  code s' = code s /\ dbg s' = dbg s /\ sources s' = sources s /\ nested s' = nested s /\
  cx s' = cx s /\ flows s' = flows s /\ dict s' = dict s.

Lemma bk_refl s : bk s s.
Proof. repeat split. Qed.
Lemma bk_trans a b c : bk a b -> bk b c -> bk a c.
Proof.
  intros (A1 & A2 & A3 & A4 & A5 & A6 & A7) (B1 & B2 & B3 & B4 & B5 & B6 & B7). repeat split; congruence.
Qed.

Definition bkp {A} (m : M A) : Prop := forall s, m s <> RPanic /\ res_all (bk s) (m s).

Section Tok.
  Variable pr : string -> option Z.

  Lemma next_token_bkp : forall fuel, bkp (next_token pr fuel).
  Proof.
    induction fuel as [|f IH]; intros s; cbn [next_token]; [split; [discriminate|exact I]|].
    destruct (input s) as [|il rest]; [split; [discriminate|apply bk_refl]|]. cbv zeta.
    destruct (lex_next_nonws _ _) as [t l'].
    destruct t; try (split; [discriminate|cbn [res_all]; try exact I; repeat split]).
    - match goal with |- context [next_token pr f ?s1] => destruct (IH s1) as [N K] end.
      split; [exact N|].
      destruct (next_token pr f _); cbn [res_all] in *; auto;
        (eapply bk_trans; [|exact K]; repeat split).
    - destruct (pr text); (split; [discriminate|cbn [res_all]; repeat split]).
  Qed.

  Lemma get_token_bkp : bkp (get_token pr).
  Proof. intros s. apply next_token_bkp. Qed.

  Lemma next_name_bkp : bkp (next_name pr).
  Proof.
    intros s. unfold next_name. cbv zeta. destruct (get_token_bkp s) as [N K].
    destruct (get_token pr s) as [t s1|k p s1| |]; cbn [res_all] in *;
      [|split; [discriminate|exact K]|contradiction|split; [discriminate|exact I]].
    destruct t; (split; [discriminate|]); cbn [res_all]; try exact K; destruct (last_tok s); exact K.
  Qed.

  Lemma get_token_bk s : res_all (bk s) (get_token pr s).
  Proof. apply get_token_bkp. Qed.

  Lemma next_name_bk s : res_all (bk s) (next_name pr s).
  Proof. apply next_name_bkp. Qed.
End Tok.

Lemma run_m_vmrel fo rf s : res_all (vmrel s) (run_m fo rf s).
Proof.
  unfold run_m. pose proof (run_vmrel (nf fo) (native_wl fo) rf s) as H.
  destruct (run (nf fo) rf s); [exact H|exact I].
Qed.

Definition same_data (s s' : state) : Prop :=
  code s' = code s /\ dbg s' = dbg s /\ sources s' = sources s /\ input s' = input s /\
  last_tok s' = last_tok s.

Section CloseData.
  Variable J : state -> Prop.
  (* the marks at which the code and the debug map may be cut *)
  Variable C : nat -> Prop.
  Hypothesis J_vm : forall s s', vmrel s s' -> J s -> J s'.
  Hypothesis J_data : forall s s', same_data s s' -> J s -> J s'.
  Hypothesis J_emit : forall op s s', code_emit op s = ROk tt s' -> J s -> J s'.
  Hypothesis J_cut : forall s n, C n -> J s ->
    J (set_dbg (set_code s (firstn n (code s))) (firstn n (dbg s))).

  Lemma J_emitted s s' : emitted s s' -> J s -> J s'.
  Proof.
    induction 1 as [s|s v s1 s2 E _ IH|s op s1 s2 E _ IH]; intros Hs; [exact Hs| |].
    - apply IH. pose proof (wl_frm _ _ wl_pop_data s) as F. rewrite E in F.
      eapply J_vm; [apply vmrel_frm; exact F|exact Hs].
    - apply IH. eapply J_emit; eassumption.
  Qed.

  Lemma close_data fo rf s :
    J s -> (cmode (cx s) = MMeta -> C (cs_len (cx s))) -> res_all J (context_close fo rf s).
  Proof.
    intros Hs Hc.
    assert (R : forall r s1, run_m fo rf (set_nested s r) = s1 -> res_all J s1).
    { intros r s1 <-. pose proof (run_m_vmrel fo rf (set_nested s r)) as V.
      assert (H0 : J (set_nested s r)) by (eapply J_data; [|exact Hs]; repeat split).
      destruct (run_m fo rf (set_nested s r)); cbn [res_all] in *; auto; eapply J_vm; eassumption. }
    assert (D : forall s1 c, J s1 -> J (set_cx s1 c)) by (intros; eapply J_data; [|eassumption]; repeat split).
    assert (M : forall r u s1 s4, cmode (cx s) = MMeta -> run_m fo rf (set_nested s r) = ROk u s1 ->
                  emitted (close_cut s1) s4 -> J s4).
    { intros r u s1 s4 Em Er E4. apply (J_emitted _ _ E4).
      pose proof (run_m_vmrel fo rf (set_nested s r)) as V. rewrite Er in V. cbn [res_all] in V.
      destruct (vmrel_keeps _ _ V) as (_ & _ & _ & _ & _ & _ & K7).
      eapply J_data with (s := set_dbg (set_code s1 _) _); [repeat split|].
      apply J_cut; [rewrite (ctx_noip_cs _ _ K7); exact (Hc Em)|exact (R _ _ Er)]. }
    destruct (close_spec_holds fo rf s)
      as [En|prev rest En Em|prev rest u s1 En Em Er|prev rest k p s1 En Em Er|prev rest k p s1 En Em Er
         |prev rest u s1 s4 En Em Er E4|prev rest u s1 k p s4 En Em Er E4| | |]; cbn [res_all]; try exact I.
    - exact Hs.
    - apply D. eapply J_data; [|exact Hs]; repeat split.
    - apply D. exact (R _ _ Er).
    - apply D. exact (R _ _ Er).
    - eapply J_data; [|exact (R _ _ Er)]; repeat split.
    - apply D. eapply M; eassumption.
    - eapply M; eassumption.
  Qed.
End CloseData.

Section Gen.
  Variable fo : fops.
  Variable pr : string -> option Z.
  Variable rf : nat.
  Variables J0 J E : state -> Prop.

  Definition gq {A} (P : state -> Prop) (Q : A -> state -> Prop) (m : M A) : Prop :=
    forall s, P s -> match m s with
                     | ROk a s' => Q a s'
                     | RErr _ _ s' => E s'
                     | _ => True
                     end.
  Definition gp {A} (m : M A) : Prop := gq J (fun (_ : A) => J) m.
  Definition gp0 {A} (m : M A) : Prop := gq J0 (fun (_ : A) => J0) m.

  Hypothesis H_J_J0 : forall s, J s -> J0 s.
  Hypothesis H_J0_E : forall s, J0 s -> E s.
  Hypothesis H_J_vm : forall s s', vmrel s s' -> J s -> J s'.
  Hypothesis H_J0_vm : forall s s', vmrel s s' -> J0 s -> J0 s'.
  Hypothesis H_emit : forall op, gp (code_emit op).
  Hypothesis H_tok : gp (get_token pr).
  Hypothesis H_tok0 :
    gq J0 (fun t s' => match t with BEnd => J0 s' | _ => J s' end) (get_token pr).
  Hypothesis H_name : gp (next_name pr).
  Hypothesis H_open : gp (context_open MMeta).
  (* context_close is reached from the immediate words only with a meta context current *)
  Hypothesis H_close :
    gq (fun s => J s /\ cmode (cx s) = MMeta) (fun _ => J) (context_close fo rf).
  Hypothesis H_intern : forall t, gp (intern_source t).

  Lemma H_J_E : forall s, J s -> E s.
  Proof. intros s H. apply H_J0_E, H_J_J0, H. Qed.

  Lemma gq_bind A B (P : state -> Prop) (Q : A -> state -> Prop) (R : B -> state -> Prop)
        (m : M A) (f : A -> M B) :
    gq P Q m -> (forall a, gq (Q a) R (f a)) -> gq P R (bind m f).
  Proof.
    intros Hm Hf s Hs. unfold bind. specialize (Hm s Hs).
    destruct (m s) as [a s1|k p s1| |]; auto. apply Hf. exact Hm.
  Qed.

  Lemma gq_get_bind B (P : state -> Prop) (R : B -> state -> Prop) (k : state -> M B) :
    (forall s0, P s0 -> gq P R (k s0)) -> gq P R (bind get k).
  Proof. intros H s Hs. unfold bind, get. apply H; exact Hs. Qed.

  Lemma gq_weaken A (P P' : state -> Prop) (Q Q' : A -> state -> Prop) (m : M A) :
    (forall s, P' s -> P s) -> (forall a s, Q a s -> Q' a s) -> gq P Q m -> gq P' Q' m.
  Proof.
    intros HP HQ H s Hs. specialize (H s (HP s Hs)). destruct (m s); auto.
  Qed.

  Lemma gp_ret A (a : A) : gp (ret a).
  Proof. intros s H. exact H. Qed.
  Lemma gp_fail A k p : gp (@fail A k p).
  Proof. intros s H. apply H_J_E. exact H. Qed.
  Lemma gp_unsup A : gp (@unsup A).
  Proof. intros s H. exact I. Qed.
  Lemma gp_panic A : gp (@panic A).
  Proof. intros s H. exact I. Qed.
  Lemma gp_bind A B (m : M A) (f : A -> M B) : gp m -> (forall a, gp (f a)) -> gp (bind m f).
  Proof. intros Hm Hf. eapply gq_bind; [exact Hm|exact Hf]. Qed.
  Lemma gp_get_bind B (k : state -> M B) : (forall s0, J s0 -> gp (k s0)) -> gp (bind get k).
  Proof. apply gq_get_bind. Qed.
  Lemma gp_put s' : J s' -> gp (put s').
  Proof. intros H s _. exact H. Qed.
  Lemma gp_modify f : (forall s, J s -> J (f s)) -> gp (modify f).
  Proof. intros H s Hs. apply H. exact Hs. Qed.

  Lemma gp_frm A (m : M A) : P_frm m -> gp m.
  Proof.
    intros H s Hs. specialize (H s). destruct (m s) as [a s1|k p s1| |]; cbn [res_all] in H; auto.
    - eapply H_J_vm; [apply vmrel_frm; exact H|exact Hs].
    - apply H_J_E. eapply H_J_vm; [apply vmrel_frm; exact H|exact Hs].
  Qed.
  Lemma gp_wl A (m : M A) : wl m -> gp m.
  Proof. intros H. apply gp_frm. apply wl_frm. exact H. Qed.

  Lemma J_frm s s' : frm s s' -> J s -> J s'.
  Proof. intros H. apply H_J_vm. apply vmrel_frm. exact H. Qed.

  Lemma gp_bk A (m : M A) :
    (forall s s', bk s s' -> J s -> J s') -> (forall s, res_all (bk s) (m s)) -> gp m.
  Proof.
    intros HJ H s Hs. specialize (H s). destruct (m s) as [a s1|k p s1| |]; cbn [res_all] in H; auto.
    - eapply HJ; eassumption.
    - apply H_J_E. eapply HJ; eassumption.
  Qed.

  Lemma gp_backpatch pos op : gp (backpatch pos op).
  Proof.
    intros s Hs. unfold backpatch. destruct (pos <? length (code s))%nat; [|exact I].
    eapply H_J_vm; [apply vmrel_patch|exact Hs].
  Qed.

  Lemma gp_backpatch_jump pos offs : gp (backpatch_jump pos offs).
  Proof.
    intros s Hs. unfold backpatch_jump.
    destruct (nth_error (code s) pos) as [op|]; [|apply H_J_E; exact Hs].
    destruct op; try exact I; apply gp_backpatch; exact Hs.
  Qed.

  Lemma gp_pop_flow : gp pop_flow.
  Proof.
    intros s Hs. unfold pop_flow. destruct (flows s); [exact Hs|].
    destruct (_ <? _)%nat; [|exact Hs]. eapply J_frm; [|exact Hs]. repeat split.
  Qed.

  Lemma gp_take_first_cond_flow : gp take_first_cond_flow.
  Proof.
    intros s Hs. unfold take_first_cond_flow. cbv zeta.
    destruct (take_cond (pending s)) as [[f act']|]; [|exact Hs].
    eapply J_frm; [|exact Hs]. repeat split.
  Qed.

  Lemma gp_dict_insert name e : gp (dict_insert name e).
  Proof. intros s Hs. unfold dict_insert. eapply J_frm; [|exact Hs]. repeat split. Qed.

  Lemma gp_alloc_heap v : gp (alloc_heap v).
  Proof.
    intros s Hs. unfold alloc_heap. destruct (mode_eqb _ _); [apply H_J_E; exact Hs|].
    destruct (limit_reached _ _); [apply H_J_E; exact Hs|].
    eapply J_frm; [|exact Hs]. repeat split.
  Qed.

  Lemma gq_run_m (P : state -> Prop) :
    (forall s s', vmrel s s' -> P s -> P s') -> (forall s, P s -> E s) ->
    gq P (fun _ => P) (run_m fo rf).
  Proof.
    intros Hvm HE s Hs. pose proof (run_m_vmrel fo rf s) as H.
    destruct (run_m fo rf s) as [u s1|k p s1| |]; cbn [res_all] in H; auto.
    - eapply Hvm; eassumption.
    - apply HE. eapply Hvm; eassumption.
  Qed.

  Lemma gp_run_m : gp (run_m fo rf).
  Proof. apply gq_run_m; [exact H_J_vm|exact H_J_E]. Qed.
  Lemma gp0_run_m : gp0 (run_m fo rf).
  Proof. apply gq_run_m; [exact H_J0_vm|exact H_J0_E]. Qed.

  Lemma gp_vec_collect p : gp (vec_collect_till_ptr p).
  Proof. apply gp_wl. wl_solve. Qed.
  Lemma gp_join_str_vec sep v : gp (join_str_vec sep v).
  Proof. apply gp_wl. wl_solve. Qed.

  Ltac gp_fin :=
    lazymatch goal with
    | H : J ?s |- J _ => first [ exact H | eapply J_frm; [ | exact H ]; repeat split ]
    end.

  Ltac gp_prim :=
    lazymatch goal with
    | |- gp (ret _) => apply gp_ret
    | |- gp (fail _ _) => apply gp_fail
    | |- gp unsup => apply gp_unsup
    | |- gp panic => apply gp_panic
    | |- gp (put _) => apply gp_put; gp_fin
    | |- gp (modify _) => apply gp_modify; intros; gp_fin
    | |- gp (push_flow _) => apply gp_modify; intros; gp_fin
    | |- gp (code_emit _) => apply H_emit
    | |- gp (backpatch _ _) => apply gp_backpatch
    | |- gp (backpatch_jump _ _) => apply gp_backpatch_jump
    | |- gp pop_flow => apply gp_pop_flow
    | |- gp take_first_cond_flow => apply gp_take_first_cond_flow
    | |- gp (dict_insert _ _) => apply gp_dict_insert
    | |- gp (context_open _) => apply H_open
    | |- gp (intern_source _) => apply H_intern
    | |- gp (alloc_heap _) => apply gp_alloc_heap
    | |- gp (get_token _) => apply H_tok
    | |- gp (next_name _) => apply H_name
    | |- gp (run_m _ _) => apply gp_run_m
    | |- gp (vec_collect_till_ptr _) => apply gp_vec_collect
    | |- gp (join_str_vec _ _) => apply gp_join_str_vec
    | |- gp pop_data => apply gp_wl, wl_pop_data
    | |- gp (push_data _) => apply gp_wl, wl_push_data
    | |- gp (push_return _) => apply gp_wl, wl_push_return
    | |- gp (set_ip _) => apply gp_wl, wl_set_ip
    end.

  (* one step: a primitive, a program already shown (hypotheses are tried by [auto], which
     matches heads and does not unfold), or else open the head of the term *)
  Ltac gp_step :=
    cbv beta zeta;
    first
      [ gp_prim
      | solve [ auto 2 with nocore ]
      | lazymatch goal with
        | |- gp (bind get _) => apply gp_get_bind; intros ? ?
        | |- gp (bind _ _) => apply gp_bind; [ | intro ]
        | |- gp (match ?x with _ => _ end) => destruct x
        | |- gp ?m => let h := head_of m in unfold h
        end ].

  Ltac gp_solve := repeat gp_step.

  Definition JM (s : state) : Prop := J s /\ cmode (cx s) = MMeta.

  Lemma gq_get_at B (P : state -> Prop) (R : B -> state -> Prop) (k : state -> M B) :
    (forall s, P s -> gq (fun s' => s' = s) R (k s)) -> gq P R (bind get k).
  Proof. intros H s Hs. unfold bind, get. apply (H s Hs s eq_refl). Qed.

  Lemma gq_frm_JM A (m : M A) : P_frm m -> gq JM (fun _ => JM) m.
  Proof.
    intros H s [Hs Hm]. specialize (H s). destruct (m s) as [a s1|k p s1| |]; cbn [res_all] in H; auto.
    - split; [eapply J_frm; eassumption|].
      destruct H as (_ & _ & _ & _ & _ & _ & H7). rewrite (ctx_noip_mode _ _ H7). exact Hm.
    - apply H_J_E. eapply J_frm; eassumption.
  Qed.

  Lemma mode_eqb_meta c : mode_eqb c MMeta = true -> c = MMeta.
  Proof. destruct c; cbn; congruence. Qed.

  Lemma gp_i_nested_end : gp (i_nested_end fo rf).
  Proof.
    unfold i_nested_end. apply gq_get_at. intros s Hs.
    destruct (mode_eqb (cmode (cx s)) MMeta) eqn:Em; cbn [negb].
    - destruct (has_pending_flow s); [intros s' ->; apply H_J_E; exact Hs|].
      eapply gq_weaken; [| |exact H_close]; [|auto].
      intros s' ->. split; [exact Hs|apply mode_eqb_meta; exact Em].
    - intros s' ->. apply H_J_E. exact Hs.
  Qed.

  Lemma gp_i_nested_inject : gp (i_nested_inject fo rf).
  Proof.
    unfold i_nested_inject. apply gq_get_at. intros s Hs.
    destruct (mode_eqb (cmode (cx s)) MMeta) eqn:Em; cbn [negb].
    - destruct (has_pending_flow s); [intros s' ->; apply H_J_E; exact Hs|].
      eapply gq_weaken with (P := JM) (Q := fun _ => J);
        [intros s' ->; split; [exact Hs|apply mode_eqb_meta; exact Em]|auto|].
      eapply gq_bind; [apply gq_frm_JM, wl_frm; wl_solve|]. intros v.
      eapply gq_bind; [apply gq_frm_JM, wl_frm; wl_solve|]. intros t.
      eapply gq_bind; [exact H_close|]. intros ?u; cbv beta. apply H_intern.
    - intros s' ->. apply H_J_E. exact Hs.
  Qed.

  Lemma gp_emit_native w : gp (emit_native w).
  Proof. gp_solve. Qed.
  Lemma gp_code_emit_value v : gp (code_emit_value v).
  Proof. gp_solve. Qed.

  Lemma gp_endcase_loop : forall fuel org, gp (endcase_loop fuel org).
  Proof. induction fuel as [|f IH]; intros org; cbn [endcase_loop]; gp_solve. Qed.

  Lemma gp_repeat_loop : forall fuel, gp (repeat_loop fuel).
  Proof. induction fuel as [|f IH]; cbn [repeat_loop]; gp_solve. Qed.

  Lemma gp_loop_loop : forall fuel a b, gp (loop_loop fuel a b).
  Proof. induction fuel as [|f IH]; intros a b; cbn [loop_loop]; gp_solve. Qed.

  Lemma gp_build_let_named w : gp (build_let_named w).
  Proof. gp_solve. Qed.

  Lemma gp_build_let_in f : gp (build_let_in pr f).
  Proof.
    exact (build_let_in_closed pr (fun A => @gp A) gp_ret gp_fail gp_unsup gp_bind H_tok H_emit
             gp_build_let_named f).
  Qed.

  Lemma gp_immediate_fn : forall fuel name w, immediate_fn fo pr rf fuel name = Some w -> gp w.
  Proof.
    intros fuel name w H. unfold immediate_fn in H. cbv zeta in H.
    eapply table_find_Forall with (P := fun m => gp m); [|exact H].
    pose proof (gp_build_let_in fuel) as HL.
    pose proof gp_emit_native as HE. pose proof gp_code_emit_value as HV.
    pose proof gp_endcase_loop as H1. pose proof gp_repeat_loop as H2. pose proof gp_loop_loop as H3.
    pose proof gp_i_nested_end as H4. pose proof gp_i_nested_inject as H5.
    repeat (apply Forall_cons; [ cbn [snd]; gp_solve | ]).
    apply Forall_nil.
  Qed.

  Lemma gp_run_immediate fuel f : gp (run_immediate fo pr rf fuel f).
  Proof.
    unfold run_immediate. destruct f as [x|name].
    - gp_solve.
    - destruct (immediate_fn fo pr rf fuel name) as [w|] eqn:Ei; [|apply gp_unsup].
      eapply gp_immediate_fn. exact Ei.
  Qed.

  Lemma gp_build_word fuel name : gp (build_word fo pr rf fuel name).
  Proof. pose proof (gp_run_immediate fuel). gp_solve. Qed.

  Lemma gp0_build1 : forall fuel depth, gp0 (build1 fo pr rf fuel depth).
  Proof.
    induction fuel as [|f IH]; intros depth; cbn [build1]; [intros s Hs; exact I|].
    apply gq_get_bind. intros s0 _.
    eapply gq_bind with (Q := fun _ => J0).
    { destruct (_ && _); [apply gp0_run_m|intros s Hs; exact Hs]. }
    intros ?u; cbv beta. eapply gq_bind; [exact H_tok0|].
    intros t. destruct t as [|name|v].
    - apply gq_get_bind. intros s1 _.
      destruct (negb _); [intros s Hs; apply H_J0_E; exact Hs|].
      destruct (has_pending_flow s1); [intros s Hs; apply H_J0_E; exact Hs|].
      intros s Hs. exact Hs.
    - assert (X : forall m : M unit, gp m -> gq J (fun _ => J0) (m ;; build1 fo pr rf f depth)).
      { intros m Hm. eapply gq_bind; [exact Hm|]. intros ?u; cbv beta.
        eapply gq_weaken; [exact H_J_J0| |apply IH]. auto. }
      apply gq_get_bind. intros s1 _.
      destruct (top_function_flow s1) as [[[fa fb] ls]|].
      + destruct (rposition ls name 0 None); apply X; [apply H_emit|apply gp_build_word].
      + apply X. apply gp_build_word.
    - eapply gq_bind; [apply gp_code_emit_value|]. intros ?u; cbv beta.
      eapply gq_weaken; [exact H_J_J0| |apply IH]. auto.
  Qed.

  Definition walk_keeps : Prop :=
    (forall fuel name w, immediate_fn fo pr rf fuel name = Some w -> gp w) /\
    (forall fuel name, gp (build_word fo pr rf fuel name)) /\
    (forall fuel depth, gp0 (build1 fo pr rf fuel depth)).

  Theorem gp_walk : walk_keeps.
  Proof. split; [exact gp_immediate_fn|]. split; [exact gp_build_word|exact gp0_build1]. Qed.
End Gen.

(* when the same invariant holds between tokens and within one *)
Lemma gq_tok0_same E J (m : M btok) :
  gp J E m -> gq E J (fun t s' => match t with BEnd => J s' | _ => J s' end) m.
Proof.
  intros H s Hs. specialize (H s Hs). destruct (m s) as [t s1|k p s1| |]; auto. destruct t; exact H.
Qed.
