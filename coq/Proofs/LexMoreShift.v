(* Position independence of the lexer: moving a lexer state by d bytes moves every span (those of
   error tokens included) by d and changes nothing else. *)
From Xeh Require Import Model.Prelude Model.Bits Model.Cell Model.Lexer.
From Xeh Require Import Proofs.LexBasic Proofs.LexStr Proofs.LexMoreCmt Proofs.LexNext Proofs.LexAll Proofs.LexMoreWords.
Local Open Scope string_scope.

Definition shift_tok (d : nat) (t : tok) : tok :=
  match t with TErr e a b => TErr e (a + d) (b + d) | _ => t end.

Definition shift_st (d : nat) (l : lexst) : lexst :=
  mklex (lrest l) (lpos l + d) (lstart l + d) (llen l + d).

Definition shift_span (d : nat) (x : tok * nat * nat) : tok * nat * nat :=
  let '(t, a, b) := x in (shift_tok d t, a + d, b + d).

Definition sh3 (d : nat) (x : tok * string * nat) : tok * string * nat :=
  let '(t, r, p) := x in (shift_tok d t, r, p + d).

Lemma lex_str_shift d : forall curly f s pos tmp start endpos,
  lex_str curly f s (pos + d) tmp (start + d) (endpos + d) = sh3 d (lex_str curly f s pos tmp start endpos).
Proof.
  intros curly. induction f as [|f IH]; intros s pos tmp start endpos; [reflexivity|].
  rewrite !lex_str_step. destruct (str_next curly s) as [k X|k|k|k];
    replace (pos + d + k) with (pos + k + d) by lia; [apply IH| |reflexivity..].
  cbv zeta. destruct (next_is_ws_or_end (str_drop k s)); reflexivity.
Qed.

Lemma lex_bits_shift d : forall s pos b endpos,
  lex_bits s (pos + d) b (endpos + d) = sh3 d (lex_bits s pos b endpos).
Proof.
  induction s as [|c r IH]; intros pos b endpos; [reflexivity|]. rewrite !lex_bits_cons.
  destruct (bits_of c); [apply (IH (S pos))|]. destruct (byte_of c =? 124)%N; [reflexivity|].
  cbn [sh3 shift_tok]. replace (pos + d + utf8_width c) with (pos + utf8_width c + d) by lia. reflexivity.
Qed.

Lemma mlc_result_shift d s pos :
  mlc_result s (pos + d) = match mlc_result s pos with Some (r, p) => Some (r, p + d) | None => None end.
Proof. unfold mlc_result. destruct (first_close s); [|reflexivity]. f_equal. f_equal. lia. Qed.

Definition sh2 (d : nat) (x : tok * lexst) : tok * lexst :=
  let '(t, l) := x in (shift_tok d t, shift_st d l).

Lemma num_stage1_shift d c r1 p1 :
  num_stage1 c r1 (p1 + d) = let '(np, tmp0, r2, p2) := num_stage1 c r1 p1 in (np, tmp0, r2, p2 + d).
Proof.
  unfold num_stage1. destruct (is_digit c); [reflexivity|].
  destruct ((byte_of c =? 45)%N || (byte_of c =? 43)%N); [|reflexivity].
  destruct r1 as [|c2 r1']; [reflexivity|]. destruct (is_digit c2); reflexivity.
Qed.

Lemma num_stage2_shift d is0 tmp0 r2 p2 :
  num_stage2 is0 tmp0 r2 (p2 + d) =
  let '(radix, tmp1, r3, p3) := num_stage2 is0 tmp0 r2 p2 in (radix, tmp1, r3, p3 + d).
Proof. rewrite !num_stage2_eq. destruct (if is0 then _ else _); reflexivity. Qed.

Lemma word_tail_shift d l text rest p4 :
  word_tail (shift_st d l) text rest (p4 + d) = sh2 d (word_tail l text rest p4).
Proof.
  unfold word_tail. cbn [shift_st lpos llen].
  destruct (String.eqb text "\").
  { destruct (skip_line rest 0) as [r5 n5]. cbn [sh2 shift_tok shift_st lrest lpos lstart llen].
    replace (p4 + d + n5) with (p4 + n5 + d) by lia. reflexivity. }
  destruct (String.eqb text "\("); [|reflexivity].
  rewrite !skip_mlc_spec_exact, mlc_result_shift by lia. destruct (mlc_result rest p4) as [[r5 p5]|]; reflexivity.
Qed.

Lemma word_finish_shift d l np radix tmp1 r3 p3 : lpos l <= p3 ->
  word_finish (shift_st d l) np radix tmp1 r3 (p3 + d) = sh2 d (word_finish l np radix tmp1 r3 p3).
Proof.
  intros Hp. unfold word_finish. cbv zeta. cbn [shift_st lpos llen lrest].
  destruct (scan_word r3 0 (numeric_of np) tmp1 false) as [[[r4 n4] tmp] has_dot].
  replace (p3 + d + n4 - (lpos l + d)) with (p3 + n4 - lpos l) by lia.
  replace (p3 + d + n4) with (p3 + n4 + d) by lia.
  destruct (negb (numeric_of np)); [apply (word_tail_shift d l)|].
  destruct has_dot.
  - destruct radix; reflexivity.
  - destruct (int_from_str_radix tmp _); reflexivity.
Qed.

Lemma lex_word_shift d l c : lex_word (shift_st d l) c = sh2 d (lex_word l c).
Proof.
  unfold lex_word. cbv zeta. cbn [shift_st lpos lrest].
  replace (lpos l + d + utf8_width c) with (lpos l + utf8_width c + d) by lia.
  rewrite num_stage1_shift.
  destruct (num_stage1 c (str_drop (utf8_width c) (lrest l)) (lpos l + utf8_width c))
    as [[[np tmp0] r2] p2] eqn:E1.
  rewrite num_stage2_shift.
  destruct (num_stage2 (is0_of np) tmp0 r2 p2) as [[[radix tmp1] r3] p3] eqn:E2.
  destruct (num_stage1_spec _ _ _ _ _ _ _ E1) as [(k1 & _ & K1 & _) _].
  destruct (num_stage2_spec _ _ _ _ _ _ _ _ E2) as [(k2 & _ & K2 & _) _].
  apply (word_finish_shift d l np radix tmp1 r3 p3). lia.
Qed.

Lemma lex_next_shift d l : lex_next (shift_st d l) = sh2 d (lex_next l).
Proof.
  rewrite !lex_next_unfold. cbv zeta. cbn [shift_st lpos lrest llen].
  destruct (skip_ws (lrest l) 0) as [r0 nws].
  destruct (0 <? nws)%nat.
  { cbn [sh2 shift_tok shift_st lrest lpos lstart llen]. replace (lpos l + d + nws) with (lpos l + nws + d) by lia. reflexivity. }
  destruct (lrest l) as [|c r] eqn:Hl; [reflexivity|].
  destruct (byte_of c =? 34)%N.
  { change (S (lpos l + d)) with (S (lpos l) + d). rewrite lex_str_shift.
    destruct (lex_str false (S (String.length r)) r (S (lpos l)) "" (lpos l) (llen l)) as [[t rest] pos]. reflexivity. }
  destruct (starts_ldq (String c r)).
  { replace (lpos l + d + 3) with (lpos l + 3 + d) by lia. rewrite lex_str_shift.
    destruct (lex_str _ _ _ (lpos l + 3) "" (lpos l) (llen l)) as [[t rest] pos]. reflexivity. }
  destruct (byte_of c =? 124)%N.
  { change (S (lpos l + d)) with (S (lpos l) + d). rewrite lex_bits_shift.
    destruct (lex_bits r (S (lpos l)) bvb_empty (llen l)) as [[t rest] pos]. reflexivity. }
  change (mklex (String c r) (lpos l + d) (lstart l + d) (llen l + d)) with
    (mklex (lrest (mklex (String c r) (lpos l) (lstart l) (llen l)))
           (lpos (mklex (String c r) (lpos l) (lstart l) (llen l)) + d)
           (lstart (mklex (String c r) (lpos l) (lstart l) (llen l)) + d)
           (llen (mklex (String c r) (lpos l) (lstart l) (llen l)) + d)).
  fold (shift_st d (mklex (String c r) (lpos l) (lstart l) (llen l))).
  rewrite lex_word_shift. reflexivity.
Qed.

Lemma lex_all_shift d : forall f l, lex_all f (shift_st d l) = map (shift_span d) (lex_all f l).
Proof.
  induction f as [|f IH]; intros l; [reflexivity|].
  rewrite !lex_all_S, lex_next_shift. destruct (lex_next l) as [t l']. cbn [sh2].
  assert (Ef : is_final (shift_tok d t) = is_final t) by (destruct t; reflexivity). rewrite Ef.
  destruct (is_final t); cbn [map shift_span shift_st lstart lpos]; [reflexivity|]. f_equal. apply IH.
Qed.

Lemma lex_from_shift d rest p n :
  lex_from rest (p + d) (n + d) = map (shift_span d) (lex_from rest p n).
Proof. unfold lex_from. rewrite <- lex_all_shift. reflexivity. Qed.

Lemma significant_shift d l : significant (map (shift_span d) l) = map (shift_span d) (significant l).
Proof.
  induction l as [|[[t a] b] l IH]; [reflexivity|].
  unfold significant in *. cbn [map filter shift_span fst].
  assert (E : is_blank_tok (shift_tok d t) = is_blank_tok t) by (destruct t; reflexivity). rewrite E.
  destruct (is_blank_tok t); cbn [negb map shift_span]; [exact IH|]. f_equal. exact IH.
Qed.

(* [blank g rest]: the text g, standing at a token boundary in front of rest, consists of
   whitespace runs, line comments (ended by the line feed that starts what follows) and closed
   multi-line comments *)
Inductive blank : string -> string -> Prop :=
| blank_nil rest : blank "" rest
| blank_ws w g rest : all_ws w = true -> blank g rest -> blank (w ++ g) rest
| blank_line cm g rest :
    next_is_ws_or_end (cm ++ g ++ rest) = true -> no_nl cm = true -> next_is_nl_or_end (g ++ rest) = true ->
    blank g rest -> blank ("\" ++ cm ++ g) rest
| blank_mlc cmt g rest i :
    next_is_ws_or_end (cmt ++ g ++ rest) = true -> first_close (cmt ++ g ++ rest) = Some i ->
    String.length cmt = Nat.min (i + 4) (String.length (cmt ++ g ++ rest)) ->
    blank g rest -> blank ("\(" ++ cmt ++ g) rest.

Lemma blank_transparent g rest : blank g rest -> forall p n,
  significant (lex_from (g ++ rest) p n) = significant (lex_from rest (p + String.length g) n).
Proof.
  induction 1 as [rest|w g rest Hw Hb IH|cm g rest H1 H2 H3 Hb IH|cmt g rest i H1 H2 H3 Hb IH]; intros p n.
  - cbn [append String.length]. rewrite Nat.add_0_r. reflexivity.
  - rewrite app_assoc_s, significant_ws by exact Hw. rewrite IH, app_length_s, Nat.add_assoc. reflexivity.
  - assert (E : lex_next (mklex (("\" ++ cm ++ g) ++ rest) p p n) =
                (TComment, mklex (g ++ rest) (p + 1 + String.length cm) p n)).
    { apply (lex_next_line_comment (mklex (("\" ++ cm ++ g) ++ rest) p p n) cm (g ++ rest)); try assumption.
      cbn [lrest]. rewrite !app_assoc_s. reflexivity. }
    rewrite (significant_step _ _ _ _ _ _ _ E eq_refl), IH. f_equal. f_equal.
    rewrite !app_length_s. cbn [String.length]. lia.
  - pose proof (lex_next_mlc (mklex (("\(" ++ cmt ++ g) ++ rest) p p n) (cmt ++ g ++ rest)) as E.
    cbn [lrest lpos llen] in E. rewrite !app_assoc_s in E. specialize (E eq_refl H1). rewrite H2 in E.
    rewrite <- H3 in E. rewrite str_drop_min, <- H3, str_drop_app_length in E.
    rewrite !app_assoc_s.
    rewrite (significant_step _ _ _ _ _ _ _ E eq_refl), IH. f_equal. f_equal.
    rewrite !app_length_s. cbn [String.length]. lia.
Qed.

