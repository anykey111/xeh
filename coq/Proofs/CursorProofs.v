(* CursorProofs.v: the parsing words of the bit-string module, executed symbolically
   (lemmas behind Props/C06.v). *)
From Xeh Require Import Model.Prelude Model.Bits Model.Codec Model.Cell Model.Lexer Model.Fmt
                        Model.Vm Model.Words.
From Xeh Require Import Proofs.BitsBasic Proofs.BitsLists Proofs.BitsMirror Proofs.BitsProofs
                        Proofs.VmStep Proofs.CursorDefs.
From Coq Require Import ZifyBool ZifyNat ZifyN.
Local Notation length := List.length.

Lemma two64_pos : (0 < two64)%Z.
Proof. reflexivity. Qed.

Lemma wp_result {A} (m : M A) s (P : res A -> Prop) :
  wp m s (fun a s' => P (ROk a s')) (fun k p s' => P (RErr k p s')) (P RUnsup) -> P (m s).
Proof. unfold wp. destruct (m s); tauto. Qed.

Lemma wp_behaves (m : M unit) s (Q : state -> Prop) (E : ekind -> state -> Prop) :
  wp m s (fun _ s' => Q s') (fun k _ s' => E k s') False -> behaves (m s) Q E.
Proof. unfold wp, behaves. destruct (m s); auto. Qed.

Lemma wp_returns (m : M unit) s (Q : state -> Prop) :
  wp m s (fun _ => Q) (fun _ _ _ => False) False -> exists s', m s = ROk tt s' /\ Q s'.
Proof. intros H. apply wp_total in H. destruct H as ([] & s' & H). eauto. Qed.

(* [wp_pop_data] with the reason of the underflow *)
Lemma wp_pop s0 s d h (Q : cell -> state -> Prop) (E : ekind -> option cell -> state -> Prop) (U : Prop) :
  st s0 s d h ->
  (forall c r s', d = c :: r -> ds_len (cx s0) < length d -> st s0 s' r h -> Q c s') ->
  (length d <= ds_len (cx s0) -> E EUnderflow None s) ->
  wp pop_data s Q E U.
Proof.
  intros (Hd & Hh & Hs) HQ HE. unfold wp, pop_data. rewrite Hd, (sim_cx _ _ Hs).
  destruct d as [|c r]; [apply HE; cbn [length]; lia|].
  destruct (Nat.ltb_spec (ds_len (cx s0)) (length (c :: r))) as [Hlt|Hge]; [|apply HE; exact Hge].
  apply (HQ c r); [reflexivity|exact Hlt|]. repeat split.
  - rewrite ds_add_rstep. reflexivity.
  - rewrite heap_add_rstep. exact Hh.
  - unfold sim. rewrite core_add_rstep. exact Hs.
Qed.

Lemma hcursor_len h inp off : hcursor h inp off -> 6 <= length h.
Proof. intros H. apply H. Qed.

Lemma hcursor_wf h inp off : hcursor h inp off -> wf inp.
Proof. intros H. apply H. Qed.

Lemma hcursor_range h inp off : hcursor h inp off ->
  (Z.of_nat (cstart inp) <= off <= Z.of_nat (cend inp))%Z /\ (Z.of_nat (cend inp) < two64)%Z.
Proof. intros (_ & _ & _ & _ & Hb & Hr). auto. Qed.

Lemma hcursor_cells h inp off : hcursor h inp off ->
  exists ci co, nth_error h R_INPUT = Some ci /\ value ci = CBits inp /\
                nth_error h R_OFFSET = Some co /\ value co = CInt off.
Proof.
  intros (_ & Hi & Ho & _). revert Hi Ho. unfold h_input, h_offset.
  destruct (nth_error h R_INPUT) as [ci|]; [|discriminate].
  destruct (nth_error h R_OFFSET) as [co|]; [|discriminate].
  destruct (value ci) eqn:Ei; try discriminate.
  destruct (value co) eqn:Eo; try discriminate.
  intros Hi Ho. injection Hi as ->. injection Ho as ->.
  exists ci, co. auto.
Qed.

Lemma h_input_set_offset h c : h_input (list_set h R_OFFSET c) = h_input h.
Proof. unfold h_input. rewrite nth_list_set_other by (unfold R_OFFSET, R_INPUT; lia). reflexivity. Qed.

Lemma h_stash_set_offset h c : h_stash (list_set h R_OFFSET c) = h_stash h.
Proof. unfold h_stash. rewrite nth_list_set_other by (unfold R_OFFSET, R_STASH; lia). reflexivity. Qed.

Lemma h_order_set_offset h c : h_order (list_set h R_OFFSET c) = h_order h.
Proof. unfold h_order. rewrite nth_list_set_other by (unfold R_OFFSET, R_BIG; lia). reflexivity. Qed.

Lemma hcursor_set_offset h inp off pos :
  hcursor h inp off -> (Z.of_nat (cstart inp) <= pos <= Z.of_nat (cend inp))%Z ->
  hcursor (list_set h R_OFFSET (cint pos)) inp pos.
Proof.
  intros (Hl & Hi & Ho & Hw & Hb & Hr) Hp. unfold hcursor.
  rewrite list_set_len, h_input_set_offset. split; [exact Hl|]. split; [exact Hi|]. split; [|auto].
  unfold h_offset. rewrite nth_list_set_same by (unfold R_OFFSET; lia). reflexivity.
Qed.

Lemma cursor_same s s' inp off : cursor s inp off -> sim s s' -> heap s' = heap s -> cursor s' inp off.
Proof. intros (Hm & Hc) Hs Hh. split; [exact (sim_notmeta _ _ Hs Hm)|rewrite Hh; exact Hc]. Qed.

Lemma cursor_st s s1 d inp off : cursor s inp off -> st s s1 d (heap s) -> cursor s1 inp off.
Proof. intros Hcur (_ & Hh & Hs). exact (cursor_same _ _ _ _ Hcur Hs Hh). Qed.

Lemma sub_spec inp off n :
  wf inp -> (Z.of_nat (cstart inp) <= off)%Z -> (0 <= n)%Z -> (off + n <= Z.of_nat (cend inp))%Z ->
  wf (sub inp off n) /\ abs (sub inp off n) = slice_bits inp off n /\
  clen (sub inp off n) = Z.to_nat n.
Proof.
  intros Hw H1 H2 H3. unfold sub, slice_bits.
  pose proof (substr_spec inp (Z.to_nat off) (Z.to_nat (off + n)) Hw) as Hs.
  unfold substr in Hs.
  replace ((Z.to_nat off <=? Z.to_nat (off + n)) && (cstart inp <=? Z.to_nat off)
           && (Z.to_nat (off + n) <=? cend inp)) with true in Hs by lia.
  destruct Hs as (_ & _ & _ & Hwf & Habs). split; [exact Hwf|]. split.
  - rewrite Habs. f_equal. lia.
  - unfold clen. cbn [cstart cend]. lia.
Qed.

Lemma sub_cend inp off n : (0 <= off + n)%Z -> Z.of_nat (cend (sub inp off n)) = (off + n)%Z.
Proof. intros. unfold sub. cbn [cend]. lia. Qed.

Lemma clen_sub inp off n : (0 <= off)%Z -> (0 <= n)%Z -> clen (sub inp off n) = Z.to_nat n.
Proof. intros. unfold sub, clen. cbn [cstart cend]. lia. Qed.

Section Exec.
  Variables (s0 : state) (inp : cbs) (off : Z).
  Variable (E : ekind -> option cell -> state -> Prop) (U : Prop).

  Lemma wp_current_input s d h (Q : cbs -> state -> Prop) :
    st s0 s d h -> notmeta s0 -> hcursor h inp off ->
    Q inp s -> wp current_input s Q E U.
  Proof.
    intros Hst Hm Hc HQ. destruct (hcursor_cells _ _ _ Hc) as (ci & co & Hi & Vi & Ho & Vo).
    unfold current_input. apply wp_bind. eapply wp_get_var; eauto.
    apply wp_m_bits.
    - intros b Hb. rewrite Vi in Hb. injection Hb as <-. exact HQ.
    - intros Hn. exfalso. eapply Hn; eauto.
  Qed.

  Lemma wp_current_offset s d h (Q : Z -> state -> Prop) :
    st s0 s d h -> notmeta s0 -> hcursor h inp off ->
    Q off s -> wp current_offset s Q E U.
  Proof.
    intros Hst Hm Hc HQ. destruct (hcursor_cells _ _ _ Hc) as (ci & co & Hi & Vi & Ho & Vo).
    destruct (hcursor_range _ _ _ Hc) as (Hr & Hb).
    unfold current_offset. apply wp_bind. eapply wp_get_var; eauto.
    apply wp_m_usize.
    - intros z [Hz _]. rewrite Vo in Hz. injection Hz as <-. exact HQ.
    - intros Hn. exfalso. apply (Hn off). split; [exact Vo|lia].
  Qed.

  (* uN iN fN without an order suffix, int! uint! ...: the order of the [big]/[little] switch *)
  Lemma wp_with_order (f : order -> M unit) s d h (Q : unit -> state -> Prop) :
    st s0 s d h -> notmeta s0 -> 6 <= length h ->
    (forall o, h_order h = Some o -> wp (f o) s Q E U) -> wp (with_order f) s Q E U.
  Proof.
    intros Hst Hm Hl HQ. unfold with_order, current_order, current_big.
    destruct (nth_error h R_BIG) as [c|] eqn:Ec.
    - apply wp_bind. apply wp_bind. apply wp_bind. eapply wp_get_var; eauto.
      apply wp_ret. apply wp_ret. apply HQ. unfold h_order. rewrite Ec. reflexivity.
    - apply nth_error_None in Ec. unfold R_BIG in Ec. lia.
  Qed.

  Lemma wp_peek_bits n s d h (Q : cbs -> state -> Prop) :
    st s0 s d h -> notmeta s0 -> hcursor h inp off ->
    ((0 <= n)%Z -> (off + n <= Z.of_nat (cend inp))%Z -> Q (sub inp off n) s) ->
    (~ ((0 <= n)%Z /\ (off + n <= Z.of_nat (cend inp))%Z) -> E ERead None s) ->
    wp (peek_bits n) s Q E U.
  Proof.
    intros Hst Hm Hc HQ HE. unfold peek_bits.
    apply wp_bind. eapply wp_current_input; eauto.
    apply wp_bind. eapply wp_current_offset; eauto. cbv zeta.
    destruct (hcursor_range _ _ _ Hc) as (Hr & _).
    destruct ((off <=? off + n)%Z && (Z.of_nat (cstart inp) <=? off)%Z
              && (off + n <=? Z.of_nat (cend inp))%Z) eqn:Ec.
    - apply wp_ret. apply HQ; lia.
    - apply wp_fail. apply HE. lia.
  Qed.

  Lemma wp_rest_bits s d h (Q : cbs -> state -> Prop) :
    st s0 s d h -> notmeta s0 -> hcursor h inp off ->
    Q (mkcbs (Z.to_nat off) (cend inp) (cdata inp)) s ->
    wp rest_bits s Q E U.
  Proof.
    intros Hst Hm Hc HQ. unfold rest_bits.
    apply wp_bind. eapply wp_current_input; eauto.
    apply wp_bind. eapply wp_current_offset; eauto.
    destruct (hcursor_range _ _ _ Hc) as (Hr & _).
    replace ((Z.of_nat (cstart inp) <=? off)%Z && (off <=? Z.of_nat (cend inp))%Z) with true by lia.
    apply wp_ret. exact HQ.
  Qed.

  Lemma wp_move_offset pos s d h (Q : unit -> state -> Prop) :
    st s0 s d h -> notmeta s0 -> hcursor h inp off ->
    ((Z.of_nat (cstart inp) <= pos <= Z.of_nat (cend inp))%Z ->
     forall s', st s0 s' d (list_set h R_OFFSET (cint pos)) -> Q tt s') ->
    (~ (Z.of_nat (cstart inp) <= pos <= Z.of_nat (cend inp))%Z -> E ESeek None s) ->
    wp (move_offset_checked pos) s Q E U.
  Proof.
    intros Hst Hm Hc HQ HE. unfold move_offset_checked.
    apply wp_bind. eapply wp_current_input; eauto.
    destruct ((Z.of_nat (cstart inp) <=? pos)%Z && (pos <=? Z.of_nat (cend inp))%Z) eqn:Ec.
    - eapply wp_set_var; eauto.
      + pose proof (hcursor_len _ _ _ Hc). unfold R_OFFSET. lia.
      + apply HQ. lia.
    - apply wp_fail. apply HE. lia.
  Qed.

  (* the common tail of every read: push the result, then advance (a push refused by the
     stack limit therefore leaves the offset where it was) *)
  Lemma wp_commit n v s d h (Q : unit -> state -> Prop) :
    st s0 s d h -> notmeta s0 -> hcursor h inp off ->
    (0 <= n)%Z -> (off + n <= Z.of_nat (cend inp))%Z ->
    (limit_reached (stack_limit s0) (length d) = false ->
     forall s', st s0 s' (v :: d) (list_set h R_OFFSET (cint (off + n))) -> Q tt s') ->
    (limit_reached (stack_limit s0) (length d) = true -> E ELimit None s) ->
    wp (push_data v ;; move_offset_checked (Z.of_nat (cend (sub inp off n)))) s Q E U.
  Proof.
    intros Hst Hm Hc Hn Hfit HQ HE.
    destruct (hcursor_range _ _ _ Hc) as (Hr & _).
    rewrite sub_cend by lia.
    apply wp_bind. eapply wp_push_data; eauto.
    intros Hroom s1 Hs1. eapply wp_move_offset; eauto.
    intros Hbad. exfalso. lia.
  Qed.
End Exec.

Lemma wp_with_size (f : Z -> M unit) s s1 d h (Q : unit -> state -> Prop) E U :
  st s s1 d h ->
  (forall c r n s2, d = c :: r -> is_usize c n -> st s s2 r h -> wp (f n) s2 Q E U) ->
  E EUnderflow None s1 ->
  (forall c r s2 k p, d = c :: r -> (forall z, ~ is_usize c z) -> st s s2 r h ->
                      k = EType \/ k = EOverflow -> E k p s2) ->
  wp (with_size f) s1 Q E U.
Proof.
  intros Hst HQ HE1 HE2. unfold with_size. apply wp_bind.
  eapply wp_pop_data; eauto.
  intros c r s2 Hd Hs2. apply wp_bind. apply wp_m_usize.
  - intros z Hz. eapply HQ; eauto.
  - intros Hn k p Hk. eapply HE2; eauto.
Qed.

Lemma fail_frame_mono a b s s' : a <= b -> fail_frame a s s' -> fail_frame b s s'.
Proof.
  intros Hab (Hh & Hs & args & Ha & Hl). split; [exact Hh|]. split; [exact Hs|].
  exists args. split; [exact Ha|lia].
Qed.

Definition fits (inp : cbs) (off n : Z) : bool := (0 <=? n)%Z && (off + n <=? Z.of_nat (cend inp))%Z.

Definition guarded_read (bad : cbs -> bool) (k : ekind) (mk : cbs -> cell) (n : Z) : M unit :=
  let* b := peek_bits n in
  if bad b then fail k None else push_data (mk b) ;; move_offset_checked (Z.of_nat (cend b)).

Definition uint_cell (o : order) (b : cbs) : cell := with_tags (cint (to_uint o b)) (num_tags b o).
Definition int_cell (o : order) (b : cbs) : cell := with_tags (cint (to_int o b)) (num_tags b o).
Definition float_cell (fo : fops) (n : Z) (o : order) (b : cbs) : cell :=
  with_tags (CReal (if (n =? 32)%Z then f_of_f32 fo (to_fbits 4 o b) else to_fbits 8 o b)) (num_tags b o).

Lemma read_float_guarded fo n o s :
  read_float fo n o s =
  guarded_read (fun _ => negb ((n =? 32)%Z || (n =? 64)%Z)) EFloatLen (float_cell fo n o) n s.
Proof.
  unfold read_float, guarded_read, float_cell, bind. destruct (peek_bits n s); try reflexivity.
  destruct (n =? 32)%Z; [reflexivity|]. destruct (n =? 64)%Z; reflexivity.
Qed.

Lemma nul_len_bound : forall gs acc,
  nul_len (map grp gs) acc <= acc + length (List.concat gs).
Proof.
  induction gs as [|g r IH]; intros acc; cbn [map nul_len List.concat]; [lia|].
  unfold grp at 1. rewrite app_length. destruct (bits_to_N g =? 0)%N; [lia|].
  specialize (IH (acc + length g)). lia.
Qed.

Lemma nul_bits_le l : nul_bits l <= length l.
Proof.
  unfold nul_bits. pose proof (nul_len_bound (chunk8 l) 0) as H.
  rewrite concat_chunk8 in H. lia.
Qed.

Lemma rest_spec inp off :
  wf inp -> (Z.of_nat (cstart inp) <= off <= Z.of_nat (cend inp))%Z ->
  let r := mkcbs (Z.to_nat off) (cend inp) (cdata inp) in
  wf r /\ abs r = rest_of inp off /\ clen r = cend inp - Z.to_nat off.
Proof.
  intros Hw Hr. cbv zeta.
  pose proof (seek_spec inp (Z.to_nat off) Hw) as Hs. unfold seek in Hs.
  replace ((cstart inp <=? Z.to_nat off) && (Z.to_nat off <=? cend inp)) with true in Hs by lia.
  destruct Hs as (_ & Hwf & Ha). split; [exact Hwf|]. split; [exact Ha|]. reflexivity.
Qed.

Lemma rest_of_length inp off :
  (Z.of_nat (cstart inp) <= off <= Z.of_nat (cend inp))%Z ->
  length (rest_of inp off) = cend inp - Z.to_nat off.
Proof.
  intros Hr. unfold rest_of. rewrite skipn_length, abs_length. unfold clen. lia.
Qed.

Lemma slice_bits_rest inp off n : slice_bits inp off n = firstn (Z.to_nat n) (rest_of inp off).
Proof. reflexivity. Qed.

Lemma to_fbits_spec k o c : wf c -> to_fbits k o c = fbits_of k o (abs c).
Proof.
  intros Hw. unfold to_fbits, fbits_of. rewrite iter8_spec by exact Hw.
  rewrite map_map. reflexivity.
Qed.

Lemma string_cmp_eq : forall a b, string_cmp a b = Eq -> a = b.
Proof.
  induction a as [|x a IH]; intros [|y b]; cbn [string_cmp]; try discriminate; [reflexivity|].
  destruct (N_of_ascii x ?= N_of_ascii y)%N eqn:C; try discriminate.
  intros H. apply N.compare_eq in C.
  assert (x = y) by (rewrite <- (ascii_N_embedding x), <- (ascii_N_embedding y), C; reflexivity).
  subst y. f_equal. auto.
Qed.

Lemma string_cmp_refl : forall a, string_cmp a a = Eq.
Proof.
  induction a as [|x a IH]; cbn [string_cmp]; [reflexivity|]. rewrite N.compare_refl. exact IH.
Qed.

Lemma offset_cmp_gt k' : cell_cmp offset_lit k' = Gt -> cell_cmp k' offset_lit <> Eq.
Proof.
  unfold offset_lit.
  assert (Hs : forall y, string_cmp "offset" y = Gt -> string_cmp y "offset" <> Eq).
  { intros y H1 H2. apply string_cmp_eq in H2. subst y. rewrite string_cmp_refl in H1. discriminate. }
  destruct k' as [| | | |y| | | | | |t v]; cbn; try discriminate; auto.
  destruct v as [| | | |y| | | | | |t' v']; cbn; try discriminate; auto.
Qed.

Lemma assoc_find_insert_offset : forall t v,
  assoc_find (assoc_insert t offset_lit v) offset_lit = Some v.
Proof.
  induction t as [|[k' v'] r IH]; intros v.
  - reflexivity.
  - cbn [assoc_insert]. destruct (cell_cmp offset_lit k') eqn:C.
    + reflexivity.
    + reflexivity.
    + unfold assoc_find. cbn [find fst]. pose proof (offset_cmp_gt k' C) as Hne.
      destruct (cell_cmp k' offset_lit); try congruence; apply IH.
Qed.

Lemma get_insert_offset c v : get_tag (insert_tag c offset_lit v) offset_lit = Some v.
Proof. unfold insert_tag, with_tags, get_tag. cbn [tags_of]. apply assoc_find_insert_offset. Qed.

Lemma value_insert_tag c k v : value (insert_tag c k v) = value c.
Proof. reflexivity. Qed.

Lemma value_value c b : value c = CBits b -> value (value c) = CBits b.
Proof. intros ->. reflexivity. Qed.

Lemma find_bytes_le : forall p l i pos, find_bytes p l i = Some pos -> i <= pos <= i + length l.
Proof.
  induction l as [|x r IH]; intros i pos; cbn [find_bytes].
  - destruct (prefix_eqb p []); [|discriminate]. intros H. injection H as <-. cbn [length]. lia.
  - destruct (prefix_eqb p (x :: r)).
    + intros H. injection H as <-. cbn [length]. lia.
    + intros H. apply IH in H. cbn [length]. lia.
Qed.

Definition heap3 (h : list cell) (o i st : cell) : list cell :=
  list_set (list_set (list_set h R_OFFSET o) R_INPUT i) R_STASH st.

(* the state after open-bitstr / close-bitstr: the cursor is on the new input, the stash is [v] *)
Lemma cursor_heap3 s s' inp off oc ic v b o :
  cursor s inp off -> sim s s' -> heap s' = heap3 (heap s) oc ic (CVec v) ->
  value ic = CBits b -> value oc = CInt o ->
  wf b -> (Z.of_nat (cend b) < two64)%Z -> (Z.of_nat (cstart b) <= o <= Z.of_nat (cend b))%Z ->
  cursor s' b o /\ h_stash (heap s') = Some v.
Proof.
  intros (Hm & Hc) Hs Hh Hi Ho Hw Hb Hr. pose proof (hcursor_len _ _ _ Hc) as Hl.
  unfold cursor, hcursor, h_input, h_offset, h_stash. rewrite Hh. unfold heap3, R_OFFSET, R_INPUT, R_STASH.
  rewrite !list_set_len, nth_list_set_same by (rewrite !list_set_len; lia).
  rewrite !(nth_list_set_other _ 3) by lia. rewrite nth_list_set_same by (rewrite list_set_len; lia).
  rewrite nth_list_set_other by lia. rewrite nth_list_set_same by lia. rewrite Hi, Ho.
  pose proof (sim_notmeta _ _ Hs Hm). auto 10.
Qed.

Lemma h_stash_cells h v : h_stash h = Some v ->
  exists cs, nth_error h R_STASH = Some cs /\ value cs = CVec v.
Proof.
  unfold h_stash. destruct (nth_error h R_STASH) as [cs|]; [|discriminate].
  destruct (value cs) eqn:Ev; try discriminate. intros H. injection H as ->. eauto.
Qed.

Section Frame.
  Variable s : state.

  Definition EF (ar : nat) : ekind -> option cell -> state -> Prop :=
    fun _ _ s' => fail_frame ar s s'.

  Lemma frame_intro ar s' d' args :
    st s s' d' (heap s) -> ds s = args ++ d' -> length args <= ar -> fail_frame ar s s'.
  Proof.
    intros (Hd & Hh & Hs) Ha Hl. split; [exact Hh|]. split; [exact Hs|]. exists args. rewrite Hd. auto.
  Qed.
End Frame.

Section Reads.
  Variables (s : state) (inp : cbs) (off : Z).
  Hypothesis Hcur : cursor s inp off.

  Let Hm : notmeta s := proj1 Hcur.
  Let Hc : hcursor (heap s) inp off := proj2 Hcur.

  Lemma done_intro s' v d' n :
    st s s' (v :: d') (list_set (heap s) R_OFFSET (cint (off + n))) ->
    (0 <= n)%Z -> (off + n <= Z.of_nat (cend inp))%Z ->
    read_done s s' inp off n d' v /\ cursor s' inp (off + n).
  Proof.
    intros (Hd & Hh & Hs) Hn Hfit. split.
    - repeat split; auto.
    - split; [eapply sim_notmeta; eauto|]. rewrite Hh. apply (hcursor_set_offset _ _ off); [exact Hc|].
      destruct (hcursor_range _ _ _ Hc). lia.
  Qed.

  (* the result [r] of a guarded read of [n] bits whose guard evaluates to [bad] and whose cell
     is [v], from a state [s1] reached from [s] with stack [d] and the heap of [s]: the four
     cases, in the order in which the word meets them *)
  Definition read_result (s1 : state) (d : list cell) (n : Z) (bad : bool) (k : ekind) (v : cell)
             (r : res unit) : Prop :=
    if negb (fits inp off n) then r = RErr ERead None s1
    else if bad then r = RErr k None s1
    else if limit_reached (stack_limit s) (length d) then r = RErr ELimit None s1
    else exists s', r = ROk tt s' /\ st s s' (v :: d) (list_set (heap s) R_OFFSET (cint (off + n))).

  Lemma guarded_read_result bad k mk n s1 d :
    st s s1 d (heap s) ->
    read_result s1 d n (bad (sub inp off n)) k (mk (sub inp off n)) (guarded_read bad k mk n s1).
  Proof.
    intros Hst. apply wp_result. unfold read_result, fits, guarded_read. apply wp_bind.
    eapply wp_peek_bits; eauto.
    - intros Hn Hfit. replace ((0 <=? n)%Z && (off + n <=? Z.of_nat (cend inp))%Z) with true by lia.
      cbn [negb]. destruct (bad (sub inp off n)); [apply wp_fail; reflexivity|].
      eapply wp_commit; eauto.
      + intros -> s' Hs'. exists s'. auto.
      + intros ->. reflexivity.
    - intros Hno. replace ((0 <=? n)%Z && (off + n <=? Z.of_nat (cend inp))%Z) with false by lia.
      reflexivity.
  Qed.

  Section Cases.
    Variables (s1 : state) (d : list cell) (n : Z) (bad : bool) (k : ekind) (v : cell) (r : res unit).
    Hypothesis Hres : read_result s1 d n bad k v r.

    Lemma read_result_past_end :
      ~ ((0 <= n)%Z /\ (off + n <= Z.of_nat (cend inp))%Z) -> r = RErr ERead None s1.
    Proof.
      intros Hno. unfold read_result, fits in Hres.
      replace ((0 <=? n)%Z && (off + n <=? Z.of_nat (cend inp))%Z) with false in Hres by lia. exact Hres.
    Qed.

    Hypothesis (Hn : (0 <= n)%Z) (Hfit : (off + n <= Z.of_nat (cend inp))%Z).

    Let Hres' : if bad then r = RErr k None s1
                else if limit_reached (stack_limit s) (length d) then r = RErr ELimit None s1
                else exists s', r = ROk tt s' /\
                                st s s' (v :: d) (list_set (heap s) R_OFFSET (cint (off + n))).
    Proof.
      unfold read_result, fits in Hres.
      replace ((0 <=? n)%Z && (off + n <=? Z.of_nat (cend inp))%Z) with true in Hres by lia. exact Hres.
    Qed.

    Lemma read_result_bad : bad = true -> r = RErr k None s1.
    Proof. intros Hb. rewrite Hb in Hres'. exact Hres'. Qed.

    Lemma read_result_limit :
      bad = false -> limit_reached (stack_limit s) (length d) = true -> r = RErr ELimit None s1.
    Proof. intros Hb Hl. rewrite Hb, Hl in Hres'. exact Hres'. Qed.

    Lemma read_result_ok :
      bad = false -> limit_reached (stack_limit s) (length d) = false ->
      exists s', r = ROk tt s' /\ st s s' (v :: d) (list_set (heap s) R_OFFSET (cint (off + n))).
    Proof. intros Hb Hl. rewrite Hb, Hl in Hres'. exact Hres'. Qed.
  End Cases.

  (* the four cases as one statement about all outcomes: a read that returns has passed its
     guard and advanced by [n]; a read that fails has left a frame *)
  Lemma read_result_wp (m : M unit) s1 d args ar n bad k v :
    st s s1 d (heap s) -> ds s = args ++ d -> length args <= ar ->
    read_result s1 d n bad k v (m s1) ->
    wp m s1 (fun _ s' => bad = false /\ read_done s s' inp off n d v /\ cursor s' inp (off + n))
       (EF s ar) False.
  Proof.
    intros Hst Ha Hl Hres. pose proof (frame_intro s ar s1 d args Hst Ha Hl) as Hfr.
    unfold wp, read_result, fits in *.
    destruct ((0 <=? n)%Z && (off + n <=? Z.of_nat (cend inp))%Z) eqn:Hf; cbn [negb] in Hres;
      [|rewrite Hres; exact Hfr].
    destruct bad; [rewrite Hres; exact Hfr|].
    destruct (limit_reached (stack_limit s) (length d)); [rewrite Hres; exact Hfr|].
    destruct Hres as (s' & -> & Hs'). split; [reflexivity|]. apply done_intro; [exact Hs'|lia|lia].
  Qed.

  Lemma read_bits_result n s1 d :
    st s s1 d (heap s) ->
    read_result s1 d n false ERead (CBits (sub inp off n)) (read_bits n s1).
  Proof. exact (guarded_read_result (fun _ => false) ERead CBits n s1 d). Qed.

  Lemma read_unsigned_result n o s1 d :
    st s s1 d (heap s) ->
    read_result s1 d n (127 <? clen (sub inp off n)) EOverflow (uint_cell o (sub inp off n))
                (read_unsigned n o s1).
  Proof. exact (guarded_read_result (fun b => 127 <? clen b) EOverflow (uint_cell o) n s1 d). Qed.

  Lemma read_signed_result n o s1 d :
    st s s1 d (heap s) ->
    read_result s1 d n (128 <? clen (sub inp off n)) EOverflow (int_cell o (sub inp off n))
                (read_signed n o s1).
  Proof. exact (guarded_read_result (fun b => 128 <? clen b) EOverflow (int_cell o) n s1 d). Qed.

  Lemma read_float_result fo n o s1 d :
    st s s1 d (heap s) ->
    read_result s1 d n (negb ((n =? 32)%Z || (n =? 64)%Z)) EFloatLen (float_cell fo n o (sub inp off n))
                (read_float fo n o s1).
  Proof. rewrite read_float_guarded. apply guarded_read_result. Qed.

  Lemma cursor_clen_sub n : (0 <= n)%Z -> clen (sub inp off n) = Z.to_nat n.
  Proof. intros Hn. apply clen_sub; [|exact Hn]. destruct (hcursor_range _ _ _ Hc). lia. Qed.

  Lemma magic_word :
    wp w_magic s
       (fun _ s' => exists c rest pat, ds s = c :: rest /\ value c = CBits pat /\
          let n := Z.of_nat (clen pat) in
          read_done s s' inp off n rest (CBits (sub inp off n)) /\
          eq_with (sub inp off n) pat = true /\ cursor s' inp (off + n))
       (EF s 1) False.
  Proof.
    unfold w_magic. apply wp_bind. eapply wp_pop_data; [apply st_init| |].
    - intros c r s1 Hd Hs1. apply wp_bind. apply wp_m_bits.
      + intros pat Hpat.
        eapply wp_conseq; [eapply (read_result_wp _ s1 r [c] 1); [exact Hs1|exact Hd|apply le_n|]| |auto|auto].
        { apply (guarded_read_result (fun b => negb (eq_with b pat)) EMatch CBits _ s1 r Hs1). }
        intros _ s' (Hbad & Hdone & Hcu). exists c, r, pat. cbv zeta.
        apply Bool.negb_false_iff in Hbad. auto.
      + intros _. eapply (frame_intro s 1 _ r [c]); eauto.
    - eapply (frame_intro s 1 _ (ds s) []); eauto using st_init.
  Qed.

  Let Hw : wf inp := hcursor_wf _ _ _ Hc.
  Let Hr : (Z.of_nat (cstart inp) <= off <= Z.of_nat (cend inp))%Z := proj1 (hcursor_range _ _ _ Hc).

  (* nulbytestr, cstr: the slice up to and including the first zero byte, as [mk] presents it *)
  Lemma nul_read_word (mk : cbs -> cell) :
    wp (let* b := nulbytestr_read in push_data (mk b) ;; move_offset_checked (Z.of_nat (cend b))) s
       (fun _ s' => let n := Z.of_nat (nul_bits (rest_of inp off)) in
                    read_done s s' inp off n (ds s) (mk (sub inp off n)) /\ cursor s' inp (off + n))
       (EF s 0) False.
  Proof.
    pose proof (frame_intro s 0 s (ds s) [] (st_init s) eq_refl (le_n 0)) as Hfr.
    apply wp_bind. unfold nulbytestr_read. apply wp_bind.
    eapply wp_rest_bits; eauto using st_init.
    destruct (rest_spec inp off Hw Hr) as (Hrw & Hra & Hrl).
    set (r := mkcbs (Z.to_nat off) (cend inp) (cdata inp)) in *.
    destruct (is_bytestr r); cbn [negb]; [|apply wp_fail; exact Hfr].
    cbv zeta. rewrite (iter8_spec r Hrw), Hra. fold (nul_bits (rest_of inp off)).
    pose proof (nul_bits_le (rest_of inp off)) as Hle. rewrite rest_of_length in Hle by exact Hr.
    set (len := nul_bits (rest_of inp off)) in *.
    change (cstart r) with (Z.to_nat off). change (cdata r) with (cdata inp).
    replace (mkcbs (Z.to_nat off) (Z.to_nat off + len) (cdata inp))
      with (sub inp off (Z.of_nat len)) by (unfold sub; f_equal; lia).
    apply wp_ret. eapply wp_commit; [apply st_init|exact Hm|exact Hc|lia|lia| |intros _; exact Hfr].
    intros _ s2 Hs2. apply done_intro; [exact Hs2|lia|lia].
  Qed.

  Lemma cstr_word :
    wp w_cstr s
       (fun _ s' => let n := Z.of_nat (nul_bits (rest_of inp off)) in
                    read_done s s' inp off n (ds s) (CStr (cstr_of (slice_bits inp off n))) /\
                    cursor s' inp (off + n))
       (EF s 0) False.
  Proof.
    eapply wp_conseq; [apply (nul_read_word (fun b => CStr (cstr_chars (iter8 b))))| |auto|auto].
    cbv zeta. intros _ s' (Hd & Hcu). split; [|exact Hcu].
    destruct Hd as (Hn & Hfit & Hd). set (n := Z.of_nat (nul_bits (rest_of inp off))) in *.
    destruct (sub_spec inp off n Hw ltac:(lia) Hn Hfit) as (Hsw & Hsa & _).
    rewrite (iter8_spec _ Hsw), Hsa in Hd. split; [exact Hn|]. split; [exact Hfit|exact Hd].
  Qed.

  Lemma seek_word :
    wp w_seek s
       (fun _ s' => exists c rest n, ds s = c :: rest /\ is_usize c n /\
          (Z.of_nat (cstart inp) <= n <= Z.of_nat (cend inp))%Z /\
          ds s' = rest /\ heap s' = list_set (heap s) R_OFFSET (cint n) /\ sim s s' /\
          cursor s' inp n)
       (EF s 1) False.
  Proof.
    unfold w_seek. eapply wp_with_size; [apply st_init| | |].
    - intros c r n s2 Hd Hn Hs2. eapply wp_move_offset; eauto.
      + intros Hin s' (Hd' & Hh' & Hs'). exists c, r, n.
        split; [exact Hd|]. split; [exact Hn|]. split; [exact Hin|]. split; [exact Hd'|].
        split; [exact Hh'|]. split; [exact Hs'|]. split.
        * eapply sim_notmeta; eauto.
        * rewrite Hh'. apply (hcursor_set_offset _ _ off); auto.
      + intros _. eapply (frame_intro s 1 _ r [c]); eauto.
    - eapply (frame_intro s 1 _ (ds s) []); eauto using st_init.
    - intros c r s2 k p Hd _ Hs2 _. eapply (frame_intro s 1 _ r [c]); eauto.
  Qed.

  (* remain can only fail for lack of room on the stack *)
  Lemma wp_remain (Q : unit -> state -> Prop) (E : ekind -> option cell -> state -> Prop) (U : Prop) :
    (limit_reached (stack_limit s) (length (ds s)) = false ->
     forall s', st s s' (cint (Z.of_nat (cend inp) - off) :: ds s) (heap s) -> Q tt s') ->
    (limit_reached (stack_limit s) (length (ds s)) = true -> E ELimit None s) ->
    wp w_remain s Q E U.
  Proof.
    intros HQ HE. unfold w_remain. apply wp_bind. eapply wp_current_input; eauto using st_init.
    apply wp_bind. eapply wp_current_offset; eauto using st_init.
    replace (Z.max (Z.of_nat (cend inp)) off) with (Z.of_nat (cend inp)) by lia.
    eapply wp_push_data; [apply st_init|exact HQ|exact HE].
  Qed.

  Lemma find_word :
    wp w_find s
       (fun _ s' => exists c rest pat r, ds s = c :: rest /\ value c = CBits pat /\
          ds s' = r :: rest /\ heap s' = heap s /\ sim s s' /\
          (r = CNil \/ exists p, r = cint p /\ (off <= p <= Z.of_nat (cend inp))%Z))
       (EF s 1) False.
  Proof.
    unfold w_find. apply wp_bind. eapply wp_pop_data; [apply st_init| |].
    - intros c r s1 Hd Hs1.
      pose proof (frame_intro s 1 s1 r [c] Hs1 Hd (le_n 1)) as Hfr.
      apply wp_bind. apply wp_m_bits; [|intros _; exact Hfr].
      intros pat Hpat. apply wp_bind. eapply wp_rest_bits; eauto.
      destruct (bytestr pat) as [pb|]; [|apply wp_fail; exact Hfr].
      destruct (rest_spec inp off Hw Hr) as (Hrw & Hra & Hrl).
      set (rb := mkcbs (Z.to_nat off) (cend inp) (cdata inp)) in *.
      destruct (slice rb) as [bytes|] eqn:Esl; [|apply wp_fail; exact Hfr].
      assert (Hlen : 8 * length bytes = clen rb).
      { unfold slice in Esl. destruct (is_u8_slice rb) eqn:Eu; [|discriminate].
        injection Esl as <-. pose proof (bytes_of_length rb Hrw Eu). lia. }
      destruct (find_bytes pb bytes 0) as [pos|] eqn:Ef;
        (eapply wp_push_data; [exact Hs1| |intros _; exact Hfr]);
        intros _ s' (Hd' & Hh' & Hs'); exists c, r, pat; eexists; repeat split; eauto.
      right. apply find_bytes_le in Ef. eexists. split; [reflexivity|].
      change (cstart rb) with (Z.to_nat off). lia.
    - eapply (frame_intro s 1 _ (ds s) []); eauto using st_init.
  Qed.

  Lemma wp_open v (Q : unit -> state -> Prop) (E : ekind -> option cell -> state -> Prop) (U : Prop) :
    h_stash (heap s) = Some v ->
    (forall c rest b e s', ds s = c :: rest -> value c = CBits b ->
        entry_input e = Some inp -> entry_offset e = Some off ->
        st s s' rest (heap3 (heap s) (cnat (cstart b)) (CBits b) (CVec (v ++ [e]))) -> Q tt s') ->
    (length (ds s) <= ds_len (cx s) -> E EUnderflow None s) ->
    (forall c rest s1, ds s = c :: rest -> (forall b, value c <> CBits b) -> st s s1 rest (heap s) ->
                       E EType (Some (value c)) s1) ->
    wp w_open_bitstr s Q E U.
  Proof.
    intros Hv HQ HE1 HE2. destruct (h_stash_cells _ _ Hv) as (cs & Hcs & Vcs).
    destruct (hcursor_cells _ _ _ Hc) as (ci & co & Hi & Vi & Ho & Vo).
    pose proof (hcursor_len _ _ _ Hc) as Hl.
    unfold w_open_bitstr. apply wp_bind. eapply wp_pop; [apply st_init| |exact HE1].
    intros c r s1 Hd _ Hs1. apply wp_bind. apply wp_m_bits; [|intros Hno; exact (HE2 c r s1 Hd Hno Hs1)].
    intros b Hb.
    apply wp_bind. eapply wp_get_var; eauto.
    apply wp_bind. eapply wp_get_var; eauto.
    apply wp_bind. eapply wp_set_var; eauto; [unfold R_OFFSET; lia|]. intros s2 Hs2.
    apply wp_bind. eapply wp_set_var; eauto; [rewrite list_set_len; unfold R_INPUT; lia|].
    intros s3 Hs3.
    apply wp_bind. eapply wp_get_var; eauto.
    { rewrite !nth_list_set_other by (unfold R_OFFSET, R_INPUT, R_STASH; lia). exact Hcs. }
    apply wp_bind. apply wp_m_vec; [|intros Hn; exfalso; eapply Hn; eauto].
    intros v0 Hv0. rewrite Vcs in Hv0. injection Hv0 as <-.
    eapply wp_set_var; eauto; [rewrite !list_set_len; unfold R_STASH; lia|].
    intros s4 Hs4. apply (HQ c r b (insert_tag ci offset_lit co) s4 Hd Hb); [| |exact Hs4].
    - unfold entry_input. rewrite value_insert_tag, Vi. reflexivity.
    - unfold entry_offset. rewrite get_insert_offset, Vo. reflexivity.
  Qed.

  Lemma open_word v : h_stash (heap s) = Some v ->
    wp w_open_bitstr s
       (fun _ s' => exists c rest b e, ds s = c :: rest /\ value c = CBits b /\ ds s' = rest /\
          heap s' = heap3 (heap s) (cnat (cstart b)) (CBits b) (CVec (v ++ [e])) /\
          entry_input e = Some inp /\ entry_offset e = Some off /\ sim s s')
       (EF s 1) False.
  Proof.
    intros Hv. apply (wp_open v); [exact Hv| | |].
    - intros c rest b e s' Hd Hb He1 He2 (Hd' & Hh' & Hs'). exists c, rest, b, e. auto 10.
    - intros _. eapply (frame_intro s 1 _ (ds s) []); eauto using st_init.
    - intros c rest s1 Hd _ Hs1. eapply (frame_intro s 1 _ rest [c]); eauto.
  Qed.

  Lemma close_word v : h_stash (heap s) = Some v ->
    wp w_close_bitstr s
       (fun _ s' => exists v' e, v = v' ++ [e] /\ ds s' = ds s /\
          heap s' = heap3 (heap s)
                          (match get_tag e offset_lit with Some o => o | None => cint 0 end)
                          (value e) (CVec v') /\
          sim s s')
       (fun k _ s' => v = [] /\ fail_frame 0 s s') False.
  Proof.
    intros Hv. destruct (h_stash_cells _ _ Hv) as (cs & Hcs & Vcs).
    pose proof (hcursor_len _ _ _ Hc) as Hl.
    unfold w_close_bitstr. apply wp_bind. eapply wp_get_var; eauto using st_init.
    apply wp_bind. apply wp_m_vec.
    - intros v0 Hv0. rewrite Vcs in Hv0. injection Hv0 as <-.
      destruct (rev v) as [|e r] eqn:Er.
      + apply wp_fail. split.
        * rewrite <- (rev_involutive v), Er. reflexivity.
        * eapply (frame_intro s 0 _ (ds s) []); eauto using st_init.
      + assert (Hv' : v = rev r ++ [e]) by (rewrite <- (rev_involutive v), Er; reflexivity).
        cbv zeta.
        apply wp_bind. eapply (wp_set_var _ _ s s (ds s) (heap s)); [apply st_init|exact Hm|unfold R_OFFSET; lia|].
        intros s2 Hs2.
        apply wp_bind. eapply wp_set_var; eauto; [rewrite list_set_len; unfold R_INPUT; lia|].
        intros s3 Hs3.
        eapply wp_set_var; [exact Hs3|exact Hm|rewrite !list_set_len; unfold R_STASH; lia|].
        intros s4 (Hd4 & Hh4 & Hs4). exists (rev r), e. auto.
    - intros Hn. exfalso. eapply Hn; eauto.
  Qed.
End Reads.

Arguments guarded_read_result {s inp off}.
Arguments read_bits_result {s inp off}.
Arguments read_unsigned_result {s inp off}.
Arguments read_signed_result {s inp off}.
Arguments read_float_result {s inp off}.
Arguments read_result_wp {s inp off}.
Arguments cursor_clen_sub {s inp off}.
Arguments read_result_past_end {s inp off s1 d n bad k v r}.
Arguments read_result_bad {s inp off s1 d n bad k v r}.
Arguments read_result_limit {s inp off s1 d n bad k v r}.
Arguments read_result_ok {s inp off s1 d n bad k v r}.
