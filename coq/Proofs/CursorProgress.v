(* CursorProgress.v: C06 (b), exactly: which error each named failure is, and what it leaves.
   The reading cores are read off the four cases of [read_result]. *)
From Xeh Require Import Model.Prelude Model.Bits Model.Codec Model.Cell Model.Lexer Model.Fmt
                        Model.Vm Model.Words.
From Xeh Require Import Proofs.VmStep Proofs.CursorDefs Proofs.CursorProofs.
From Coq Require Import ZifyBool ZifyNat ZifyN.
Local Notation length := List.length.

Definition ENone : ekind -> option cell -> state -> Prop := fun _ _ _ => False.

Definition after_read (s s' : state) (off n : Z) (d : list cell) (v : cell) : Prop :=
  st s s' (v :: d) (list_set (heap s) R_OFFSET (cint (off + n))).

Lemma after_read_cursor s s' inp off n d v :
  cursor s inp off -> (0 <= n)%Z -> (off + n <= Z.of_nat (cend inp))%Z ->
  after_read s s' off n d v -> cursor s' inp (off + n).
Proof. intros Hcur Hn Hfit Hs'. apply (done_intro s inp off Hcur s' v d n Hs' Hn Hfit). Qed.

Section Failures.
  Variables (s : state) (inp : cbs) (off : Z).
  Hypothesis Hcur : cursor s inp off.

  Let Hbits n := read_bits_result Hcur n s (ds s) (st_init s).
  Let Hunsigned n o := read_unsigned_result Hcur n o s (ds s) (st_init s).
  Let Hsigned n o := read_signed_result Hcur n o s (ds s) (st_init s).
  Let Hfloat fo n o := read_float_result Hcur fo n o s (ds s) (st_init s).

  (* a read past the end (or of a negative count): the read error, the state is untouched *)
  Lemma read_past_end n :
    ~ ((0 <= n)%Z /\ (off + n <= Z.of_nat (cend inp))%Z) ->
    read_bits n s = RErr ERead None s /\
    (forall o, read_unsigned n o s = RErr ERead None s) /\
    (forall o, read_signed n o s = RErr ERead None s) /\
    (forall fo o, read_float fo n o s = RErr ERead None s).
  Proof.
    intros Hno. split; [|split; [|split]]; intros.
    - exact (read_result_past_end (Hbits n) Hno).
    - exact (read_result_past_end (Hunsigned n o) Hno).
    - exact (read_result_past_end (Hsigned n o) Hno).
    - exact (read_result_past_end (Hfloat fo n o) Hno).
  Qed.

  (* a result refused by the data-stack limit: the limit error, and the state is untouched -
     in particular the offset has not moved (the push comes before the move) *)
  Lemma limit_refused n :
    limit_reached (stack_limit s) (length (ds s)) = true ->
    (0 <= n)%Z -> (off + n <= Z.of_nat (cend inp))%Z ->
    read_bits n s = RErr ELimit None s /\
    ((n <= 127)%Z -> forall o, read_unsigned n o s = RErr ELimit None s) /\
    ((n <= 128)%Z -> forall o, read_signed n o s = RErr ELimit None s) /\
    (n = 32%Z \/ n = 64%Z -> forall fo o, read_float fo n o s = RErr ELimit None s).
  Proof.
    intros Hlim Hn Hfit. pose proof (cursor_clen_sub Hcur n Hn) as Hlen.
    split; [|split; [|split]]; intros.
    - exact (read_result_limit (Hbits n) Hn Hfit eq_refl Hlim).
    - apply (read_result_limit (Hunsigned n o) Hn Hfit); [rewrite Hlen; lia|exact Hlim].
    - apply (read_result_limit (Hsigned n o) Hn Hfit); [rewrite Hlen; lia|exact Hlim].
    - apply (read_result_limit (Hfloat fo n o) Hn Hfit); [lia|exact Hlim].
  Qed.

  (* seek outside the input: the seek error; only the argument is gone *)
  Lemma seek_out_of_range c rest n :
    ds s = c :: rest -> ds_len (cx s) < length (ds s) -> is_usize c n ->
    ~ (Z.of_nat (cstart inp) <= n <= Z.of_nat (cend inp))%Z ->
    exists s', w_seek s = RErr ESeek None s' /\ ds s' = rest /\ heap s' = heap s /\ sim s s'.
  Proof.
    intros Hd Hlen Hn Hbad. apply wp_result. unfold w_seek, with_size. apply wp_bind.
    eapply (wp_pop_data_ok c rest s s (heap s)); [rewrite <- Hd; apply st_init|rewrite <- Hd; exact Hlen|].
    intros s1 Hs1. apply wp_bind. apply wp_m_usize; [|intros Hno; destruct (Hno n Hn)].
    intros z Hz. assert (z = n) as -> by (destruct Hn, Hz; congruence).
    eapply wp_move_offset; [exact Hs1|apply Hcur|apply Hcur|contradiction|]. intros _. exists s1. auto.
  Qed.

  (* magic on bits that differ from the pattern: the match error; only the argument is gone *)
  Lemma magic_mismatch c rest pat :
    ds s = c :: rest -> ds_len (cx s) < length (ds s) -> value c = CBits pat ->
    (off + Z.of_nat (clen pat) <= Z.of_nat (cend inp))%Z ->
    eq_with (sub inp off (Z.of_nat (clen pat))) pat = false ->
    exists s', w_magic s = RErr EMatch None s' /\ ds s' = rest /\ heap s' = heap s /\ sim s s'.
  Proof.
    intros Hd Hlen Hv Hfit Hne. apply wp_result. unfold w_magic. apply wp_bind.
    eapply (wp_pop_data_ok c rest s s (heap s)); [rewrite <- Hd; apply st_init|rewrite <- Hd; exact Hlen|].
    intros s1 Hs1. apply wp_bind. apply wp_m_bits; [|intros Hno; destruct (Hno pat Hv)].
    intros b Hb. assert (b = pat) as -> by congruence.
    pose proof (guarded_read_result Hcur (fun b => negb (eq_with b pat)) EMatch (fun b => CBits b)
                  (Z.of_nat (clen pat)) s1 rest Hs1) as Hres.
    apply (read_result_bad Hres) in Hfit; [|lia|rewrite Hne; reflexivity].
    unfold wp. fold (guarded_read (fun b => negb (eq_with b pat)) EMatch (fun b => CBits b) (Z.of_nat (clen pat))).
    rewrite Hfit. exists s1. auto.
  Qed.
End Failures.
