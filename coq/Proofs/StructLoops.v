(* StructLoops.v: loop-index hygiene of the structural evaluator.  A block that runs to its
   end or stops at a break leaves the loop stack as it found it: the same records with the
   same index and limit always; literally the same records when the program does not use
   the word "%foreach-next" (the only native word that writes into a loop record).
   Hence after a counted loop the words I / J / K see what they saw before it. *)
From Xeh Require Import Model.Prelude Model.Bits Model.Codec Model.Cell Model.Lexer Model.Fmt
                        Model.Vm Model.Words Model.Struct
                        Proofs.VmFrame Proofs.StructBase Proofs.StructNat Proofs.StructInv.
Local Notation length := List.length.

Lemma init_local_ok : forall i v s a s',
  init_local i v s = ROk a s' ->
  loops s' = loops s /\ cx s' = cx s /\
  exists f r, rs s = f :: r /\ rs s' = mkframe (fn_addr f) (return_to f) (pad_set (locals f) i v) :: r.
Proof.
  intros i v s a s' H. unfold init_local in H. destruct (rs s) as [| f r] eqn:E; [ discriminate | ].
  destruct (Nat.ltb _ _); [ | discriminate ]. injection H as _ <-.
  unfold add_rstep. cbn. destruct (rlog s); cbn; repeat split; eauto.
Qed.

Lemma push_return_ok : forall fr s a s',
  push_return fr s = ROk a s' -> loops s' = loops s /\ cx s' = cx s /\ rs s' = fr :: rs s.
Proof.
  intros fr s a s' H. unfold push_return in H. injection H as _ <-.
  unfold add_rstep. destruct (rlog s); cbn; repeat split.
Qed.

Lemma pop_return_ok : forall s fr s',
  pop_return s = ROk fr s' -> loops s' = loops s /\ cx s' = cx s /\ rs s = fr :: rs s'.
Proof.
  intros s fr s' H. unfold pop_return in H. destruct (rs s) as [| f r] eqn:E; [ discriminate | ].
  destruct (Nat.ltb _ _); [ | discriminate ]. injection H as <- <-.
  unfold add_rstep. cbn. destruct (rlog s); cbn; repeat split.
Qed.

Lemma push_loop_ok : forall l s a s',
  push_loop l s = ROk a s' -> loops s' = l :: loops s /\ cx s' = cx s /\ rs s' = rs s.
Proof.
  intros l s a s' H. unfold push_loop in H. injection H as _ <-.
  unfold add_rstep. destruct (rlog s); cbn; repeat split.
Qed.

Lemma pop_loop_ok : forall s l s',
  pop_loop s = ROk l s' -> loops s = l :: loops s' /\ cx s' = cx s /\ rs s' = rs s.
Proof.
  intros s l s' H. unfold pop_loop in H. destruct (loops s) as [| l0 r] eqn:E; [ discriminate | ].
  destruct (Nat.ltb _ _); [ | discriminate ]. injection H as <- <-.
  unfold add_rstep. cbn. destruct (rlog s); cbn; repeat split.
Qed.

Definition next_start (l : loopr) : Z :=
  if (l_start l <? l_end l)%Z then (l_start l + 1)%Z else l_start l.

Lemma loop_next_ok : forall s more s',
  loop_next s = ROk more s' ->
  cx s' = cx s /\ rs s' = rs s /\
  exists l r, loops s = l :: r /\ loops s' = mkloop (l_items l) (next_start l) (l_end l) :: r /\
              more = (next_start l <? l_end l)%Z.
Proof.
  intros s more s' H. unfold loop_next in H. destruct (loops s) as [| l r] eqn:E; [ discriminate | ].
  destruct (Nat.ltb _ _); [ | discriminate ]. injection H as <- <-.
  unfold add_rstep. cbn. destruct (rlog s); cbn; repeat split; exists l, r; repeat split.
Qed.

Definition lkeeps (fe : bool) (s s' : state) : Prop :=
  cx s' = cx s /\ map lkey (loops s') = map lkey (loops s) /\ (fe = false -> loops s' = loops s).

Lemma lkeeps_refl : forall fe s, lkeeps fe s s.
Proof. intros; repeat split. Qed.
Lemma lkeeps_trans : forall fe a b c, lkeeps fe a b -> lkeeps fe b c -> lkeeps fe a c.
Proof.
  intros fe a b c (H1 & H2 & H3) (G1 & G2 & G3). repeat split; try congruence.
  intro E. rewrite G3, H3; auto.
Qed.
Lemma keeps_lkeeps : forall fe fe' s s', keeps fe s s' -> (fe = true -> fe' = true) -> lkeeps fe' s s'.
Proof.
  intros fe fe' s s' (H1 & H2 & H3 & H4) Hfe. repeat split; auto.
  intro E. apply H4. destruct fe; [ rewrite Hfe in E; [ discriminate | reflexivity ] | reflexivity ].
Qed.
Lemma lkeeps_of_eq : forall fe s s', cx s' = cx s -> loops s' = loops s -> lkeeps fe s s'.
Proof. intros fe s s' H1 H2. repeat split; auto. rewrite H2. reflexivity. Qed.

Definition okfe (fe : bool) (x : stmt) : bool :=
  match x with
  | SPrim w _ => fe || negb (may_set_items w)
  | _ => true
  end.

Definition nfe_stmt : stmt -> bool := all_stmt (okfe false).
Definition nfe_block : list stmt -> bool := all_block (okfe false).
Definition funs_all (P : stmt -> bool) (funs : list (nat * list stmt)) : Prop :=
  forall g body, fun_body funs g = Some body -> all_block P body = true.
Definition nfe_funs : list (nat * list stmt) -> Prop := funs_all (okfe false).

Lemma okfe_true_all : (forall x, all_stmt (okfe true) x = true) /\ (forall l, all_block (okfe true) l = true).
Proof. apply all_stmt_true. intros []; reflexivity. Qed.

Lemma map_lkey_cons_inv : forall (ls : list loopr) l r0,
  map lkey ls = map lkey (l :: r0) -> exists l' r', ls = l' :: r' /\ lkey l' = lkey l /\ map lkey r' = map lkey r0.
Proof.
  intros ls l r0 H. destruct ls as [| l' r']; [ discriminate | ].
  cbn [map] in H. injection H as H1 H2 H3. exists l', r'. unfold lkey. rewrite H1, H2. auto.
Qed.

(* [lkeeps] for the records below the top one: what the increment of `loop` respects *)
Definition lunder (fe : bool) (s s' : state) : Prop :=
  cx s' = cx s /\ map lkey (tl (loops s')) = map lkey (tl (loops s)) /\
  (fe = false -> tl (loops s') = tl (loops s)).

Lemma lunder_trans : forall fe a b c, lunder fe a b -> lunder fe b c -> lunder fe a c.
Proof.
  intros fe a b c (H1 & H2 & H3) (G1 & G2 & G3). repeat split; try congruence.
  intro E. rewrite G3, H3; auto.
Qed.
Lemma lkeeps_lunder : forall fe s s', lkeeps fe s s' -> lunder fe s s'.
Proof.
  intros fe s s' (C & M & X). repeat split; [ exact C | | intro E; rewrite (X E); reflexivity ].
  apply (f_equal (@tl _)) in M. destruct (loops s), (loops s'); exact M.
Qed.

Lemma do_iter_loops : forall fe (body : state -> sres) pl l k s1 s2,
  (forall s, post (lkeeps fe s) (body s)) ->
  push_loop l s1 = ROk tt s2 -> post (lkeeps fe s1) (do_iter body pl k s2).
Proof.
  intros fe body pl l k s1 s2 Hbody E2 s' E'. apply push_loop_ok in E2 as (L2 & C2 & _).
  destruct (do_iter_ends (lunder fe) (lunder_trans fe) body pl) with (k := k) (s := s2) (s' := s')
    as (s4 & l4 & (C & M & X) & P); [ | | exact E' | ].
  - intros s s3 E. apply lkeeps_lunder. apply Hbody. exact E.
  - intros s m s3 E. apply loop_next_ok in E as (C & _ & l3 & r3 & E1 & E3 & _).
    unfold lunder. rewrite E1, E3. repeat split. exact C.
  - apply pop_loop_ok in P as (L4 & C4 & _). rewrite L2, L4 in *. cbn [tl] in *.
    repeat split; [ congruence | exact M | exact X ].
Qed.

Section Hygiene.
  Variable fo : fops.
  Variable funs : list (nat * list stmt).
  Variable fe : bool.
  Hypothesis Hfuns : funs_all (okfe fe) funs.
  Notation sblock := (sblock fo funs).
  Notation sstmt := (sstmt fo funs).

  Lemma hyg_prim : forall w p m s s',
    okfe fe (SPrim w p) = true -> native_fn fo w = Some m -> m s = ROk tt s' -> lkeeps fe s s'.
  Proof.
    intros w p m s s' Hok En E. cbn [okfe] in Hok.
    pose proof (native_keeps fo w m s En) as K. rewrite E in K. cbn [rkeeps] in K.
    eapply keeps_lkeeps; [ exact K | ].
    intro Em. rewrite Em in Hok. cbn in Hok. rewrite orb_false_r in Hok. exact Hok.
  Qed.

  Lemma hyg_call : forall f g p s,
    (forall b s, all_block (okfe fe) b = true -> post (lkeeps fe s) (sblock f b s)) ->
    post (lkeeps fe s) (sstmt (S f) (SCall g p) s).
  Proof.
    intros f g p s IH. rewrite sstmt_SCall.
    destruct (fun_body funs g) as [body |] eqn:Eb; [ | apply post_none; reflexivity ].
    apply (ends_run_m _ (lkeeps_trans fe)).
    { intros a s1 E. apply push_return_ok in E as (L & C & _). apply lkeeps_of_eq; assumption. }
    intros _ s1. apply (ends_on_res _ (lkeeps_trans fe)); [ apply IH; exact (Hfuns g body Eb) | | ].
    - intro s2. apply (ends_run_m _ (lkeeps_trans fe)); [ | intros; apply ends_done, lkeeps_refl ].
      intros fr s3 E. apply pop_return_ok in E as (L & C & _). apply lkeeps_of_eq; assumption.
    - intro s2. apply ends_broke, lkeeps_refl.
  Qed.

  Theorem loops_hygiene : forall f,
    (forall b s, all_block (okfe fe) b = true -> post (lkeeps fe s) (sblock f b s)) /\
    (forall x s, all_stmt (okfe fe) x = true -> post (lkeeps fe s) (sstmt f x s)).
  Proof.
    apply gen_both.
    - apply lkeeps_refl.
    - apply lkeeps_trans.
    - intros s s' K. eapply keeps_lkeeps; [ exact K | discriminate ].
    - exact hyg_prim.
    - intros i p v s s' _ E. apply init_local_ok in E as (L & C & _). apply lkeeps_of_eq; assumption.
    - intros f g p s _. apply hyg_call.
    - apply do_iter_loops.
  Qed.
End Hygiene.

Theorem loop_keys_block : forall fo funs f b s s',
  sblock fo funs f b s = SDone s' \/ sblock fo funs f b s = SBroke s' ->
  cx s' = cx s /\ map lkey (loops s') = map lkey (loops s).
Proof.
  intros fo funs f b s s' H. apply fin_of_or in H.
  apply (proj1 (loops_hygiene fo funs true (fun g body _ => proj2 okfe_true_all body) f)) in H
    as (C & M & _); [ split; assumption | apply okfe_true_all ].
Qed.

Theorem loop_keys_stmt : forall fo funs f x s s',
  sstmt fo funs f x s = SDone s' \/ sstmt fo funs f x s = SBroke s' ->
  cx s' = cx s /\ map lkey (loops s') = map lkey (loops s).
Proof.
  intros fo funs f x s s' H. apply fin_of_or in H.
  apply (proj2 (loops_hygiene fo funs true (fun g body _ => proj2 okfe_true_all body) f)) in H
    as (C & M & _); [ split; assumption | apply okfe_true_all ].
Qed.

Theorem loops_stmt : forall fo funs f x s s',
  nfe_funs funs -> nfe_stmt x = true ->
  sstmt fo funs f x s = SDone s' \/ sstmt fo funs f x s = SBroke s' ->
  loops s' = loops s.
Proof.
  intros fo funs f x s s' Hf Hx H. apply fin_of_or in H.
  apply (proj2 (loops_hygiene fo funs false Hf f) x s Hx) in H as (_ & _ & X). apply X. reflexivity.
Qed.

Lemma active_loops_keys : forall s s',
  cx s' = cx s -> map lkey (loops s') = map lkey (loops s) ->
  map lkey (active_loops s') = map lkey (active_loops s).
Proof.
  intros s s' C M. unfold active_loops. rewrite <- !firstn_map, M, C.
  assert (L : length (loops s') = length (loops s)).
  { rewrite <- (map_length lkey (loops s')), M. apply map_length. }
  rewrite L. reflexivity.
Qed.

Theorem do_leaves_no_index : forall fo funs f p b pl s s',
  sstmt fo funs f (SDo p b pl) s = SDone s' ->
  map lkey (active_loops s') = map lkey (active_loops s).
Proof.
  intros fo funs f p b pl s s' H.
  destruct (loop_keys_stmt fo funs f (SDo p b pl) s s' (or_introl H)) as [C M].
  apply active_loops_keys; assumption.
Qed.

Local Open Scope string_scope.
Lemma native_I : forall fo, native_fn fo "I" = Some (w_counter 0).
Proof. reflexivity. Qed.
Lemma native_J : forall fo, native_fn fo "J" = Some (w_counter 1).
Proof. reflexivity. Qed.
Lemma native_K : forall fo, native_fn fo "K" = Some (w_counter 2).
Proof. reflexivity. Qed.

Lemma w_counter_no_loop : forall n s,
  nth_error (map lkey (active_loops s)) n = None -> w_counter n s = RErr ELoopUnderflow None s.
Proof.
  intros n s H. unfold w_counter, bind, get.
  rewrite nth_error_map in H. destruct (nth_error (active_loops s) n); [ discriminate | reflexivity ].
Qed.

