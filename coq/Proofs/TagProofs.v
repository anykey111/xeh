(* TagProofs.v: C13 - tags never change what a value does.
   The list facts the Tag files share; strip and the typed accessors; the tag words behave as a map
   attached to the value; the shape of the sized words.
   (the simulation theorem [native_sim] is in TagWords.v) *)
From Xeh Require Import Model.Prelude Model.Bits Model.Codec Model.Cell Model.Lexer Model.Fmt
                        Model.Vm Model.Words Proofs.BitsProofs Proofs.CellProofs Proofs.CollProofs.
From Coq Require Import Sorting.Sorted ZifyBool ZifyNat ZifyN.
Local Notation length := List.length.

Lemma Forall_incl : forall {A} (P : A -> Prop) l l', incl l' l -> Forall P l -> Forall P l'.
Proof. intros A P l l' I F. rewrite Forall_forall in *. auto. Qed.
Lemma incl_firstn : forall {A} n (l : list A), incl (firstn n l) l.
Proof. intros A n l x Hx. rewrite <- (firstn_skipn n l). apply in_or_app. auto. Qed.
Lemma incl_skipn : forall {A} n (l : list A), incl (skipn n l) l.
Proof. intros A n l x Hx. rewrite <- (firstn_skipn n l). apply in_or_app. auto. Qed.

Lemma list_set_same : forall {A} (l : list A) i d, list_set l i (nth i l d) = l.
Proof. induction l; destruct i; cbn; intros; auto. f_equal. auto. Qed.
Lemma list_set_length : forall {A} (l : list A) i v, length (list_set l i v) = length l.
Proof. induction l; destruct i; cbn; auto. Qed.
Lemma nth_error_list_set : forall {A} (l : list A) i v, (i < length l)%nat -> nth_error (list_set l i v) i = Some v.
Proof. induction l; destruct i; cbn; intros; auto; try lia. apply IHl. lia. Qed.
Lemma nth_error_list_set_other : forall {A} (l : list A) i j v, i <> j ->
  nth_error (list_set l i v) j = nth_error l j.
Proof.
  induction l as [| x r IH]; destruct i, j; cbn; intros v H; auto; try congruence;
    try (apply IH; congruence).
Qed.
Lemma map_list_set : forall {A B} (f : A -> B) l i v, map f (list_set l i v) = list_set (map f l) i (f v).
Proof. induction l; destruct i; cbn; auto. intros. f_equal. auto. Qed.
Lemma Forall_list_set : forall {A} (P : A -> Prop) l i v, Forall P l -> P v -> Forall P (list_set l i v).
Proof.
  induction l; destruct i; cbn; intros v F Hv; auto; inversion F; subst; constructor; auto.
Qed.

Lemma strip_value_any : forall c, strip (value c) = strip c.
Proof. destruct c; reflexivity. Qed.

Lemma strip_with_tags : forall c t, strip (with_tags c t) = strip c.
Proof. intros. unfold with_tags. cbn [strip]. apply strip_value_any. Qed.

Lemma tagwf_with_tags : forall c t, tagwf c -> tagwf (with_tags c t).
Proof. intros c t H. unfold with_tags. apply tagwf_tag. destruct (tagwf_value _ H). auto. Qed.

Theorem eqb_with_tags : forall a b t, tagwf a -> tagwf b -> cell_eqb (with_tags a t) b = cell_eqb a b.
Proof.
  intros a b t Ha Hb. rewrite !eqb_strip by auto using tagwf_with_tags.
  unfold seqb. rewrite strip_with_tags. reflexivity.
Qed.

(* typed accessors look through the tag wrapper: they depend on [value c] only, except for
   the payload of the error some of them report (the whole cell) *)
Definition payload_strip {A} (r : res A) : res A :=
  match r with RErr k p s => RErr k (option_map strip p) s | x => x end.

Section Accessors.
  Variables (a b : cell).
  Hypothesis H : value a = value b.

  Lemma to_xint_value : to_xint a = to_xint b.   Proof. unfold to_xint. rewrite H. reflexivity. Qed.
  Lemma to_real_value : to_real a = to_real b.   Proof. unfold to_real. rewrite H. reflexivity. Qed.
  Lemma to_bool_value : to_bool a = to_bool b.   Proof. unfold to_bool. rewrite H. reflexivity. Qed.
  Lemma cond_true_value : cond_true a = cond_true b. Proof. unfold cond_true. rewrite H. reflexivity. Qed.
  Lemma to_vec_value : to_vec a = to_vec b.      Proof. unfold to_vec. rewrite H. reflexivity. Qed.
  Lemma to_map_value : to_map a = to_map b.      Proof. unfold to_map. rewrite H. reflexivity. Qed.
  Lemma to_xstr_value : to_xstr a = to_xstr b.   Proof. unfold to_xstr. rewrite H. reflexivity. Qed.
  Lemma to_bitstr_value : to_bitstr a = to_bitstr b. Proof. unfold to_bitstr. rewrite H. reflexivity. Qed.
  Lemma to_usize_value : to_usize a = to_usize b. Proof. unfold to_usize. rewrite H. reflexivity. Qed.
  Lemma to_isize_value : to_isize a = to_isize b. Proof. unfold to_isize. rewrite H. reflexivity. Qed.

  Lemma m_xint_value : m_xint a = m_xint b.   Proof. unfold m_xint. rewrite H. reflexivity. Qed.
  Lemma m_real_value : m_real a = m_real b.   Proof. unfold m_real. rewrite H. reflexivity. Qed.
  Lemma m_vec_value : m_vec a = m_vec b.      Proof. unfold m_vec. rewrite H. reflexivity. Qed.
  Lemma m_map_value : m_map a = m_map b.      Proof. unfold m_map. rewrite H. reflexivity. Qed.
  Lemma m_str_value : m_str a = m_str b.      Proof. unfold m_str. rewrite H. reflexivity. Qed.
  Lemma m_bits_value : m_bits a = m_bits b.   Proof. unfold m_bits. rewrite H. reflexivity. Qed.
  Lemma m_isize_value : m_isize a = m_isize b. Proof. unfold m_isize. rewrite H. reflexivity. Qed.

  (* these report the whole cell on a type error *)
  Hypothesis Hs : strip a = strip b.
  Lemma m_bool_value : forall s, payload_strip (m_bool a s) = payload_strip (m_bool b s).
  Proof. intro s. unfold m_bool. rewrite H. destruct (value b); cbn; rewrite ?Hs; reflexivity. Qed.
  Lemma m_cond_value : forall s, payload_strip (m_cond a s) = payload_strip (m_cond b s).
  Proof. intro s. unfold m_cond. rewrite H. destruct (value b); cbn; rewrite ?Hs; reflexivity. Qed.
  Lemma m_usize_value : forall s, payload_strip (m_usize a s) = payload_strip (m_usize b s).
  Proof.
    intro s. unfold m_usize. rewrite H. destruct (value b); cbn; try reflexivity.
    destruct (z <? 0)%Z; cbn; rewrite ?Hs; reflexivity.
  Qed.
End Accessors.

Definition tags_or_empty (c : cell) : list (cell * cell) :=
  match tags_of c with Some t => t | None => [] end.

Lemma value_insert_tag : forall c k v, value (insert_tag c k v) = value c.
Proof. reflexivity. Qed.
Lemma get_tag_with_tags : forall c t k, get_tag (with_tags c t) k = assoc_find t k.
Proof. reflexivity. Qed.

Lemma tags_of_insert_tag : forall c k v, tags_of (insert_tag c k v) = Some (assoc_insert (tags_or_empty c) k v).
Proof. reflexivity. Qed.

Lemma tags_of_remove_tag : forall c k, tags_of (remove_tag c k) = Some (assoc_remove (tags_or_empty c) k).
Proof. intros. unfold remove_tag, tags_or_empty. destruct (tags_of c); reflexivity. Qed.

Lemma get_tag_find : forall c k, get_tag c k = assoc_find (tags_or_empty c) k.
Proof. intros. unfold get_tag, tags_or_empty. destruct (tags_of c); reflexivity. Qed.

Lemma tags_ok : forall c, cell_ok c -> map_ok (tags_or_empty c).
Proof.
  intros c H. unfold tags_or_empty. destruct c; cbn [tags_of]; try (apply cell_ok_map; repeat split; constructor).
  apply cell_ok_tag in H. unfold map_ok. tauto.
Qed.

Theorem get_insert_tag_cmp : forall c k v k', keys_tagwf (tags_or_empty c) -> tagwf k -> tagwf k' ->
  get_tag (insert_tag c k v) k' = if cmp_is_eq (cell_cmp k k') then Some v else get_tag c k'.
Proof.
  intros c k v k' Hc Hk Hk'. rewrite (get_tag_find c). unfold insert_tag. rewrite get_tag_with_tags.
  apply find_insert_cmp; assumption.
Qed.

Theorem get_insert_tag : forall c k v k', cell_ok c -> cell_ok k -> NoNaN k -> cell_ok k' -> NoNaN k' ->
  get_tag (insert_tag c k v) k' = if cell_eqb k k' then Some v else get_tag c k'.
Proof.
  intros c k v k' Hc Hk Nk Hk' Nk'. rewrite (get_tag_find c). unfold insert_tag. rewrite get_tag_with_tags.
  apply find_insert; auto using tags_ok.
Qed.

Theorem get_remove_tag : forall c k k', cell_ok c -> cell_ok k -> NoNaN k -> cell_ok k' -> NoNaN k' ->
  get_tag (remove_tag c k) k' = if cell_eqb k k' then None else get_tag c k'.
Proof.
  intros c k k' Hc Hk Nk Hk' Nk'. rewrite (get_tag_find c), (get_tag_find (remove_tag c k)).
  unfold tags_or_empty at 1. rewrite tags_of_remove_tag.
  apply find_remove; auto using tags_ok.
Qed.

Theorem with_tags_ok : forall c t, cell_ok c -> map_ok t -> cell_ok (with_tags c t).
Proof.
  intros c t Hc Ht. unfold with_tags. apply cell_ok_tag. split; [|split]; auto.
  - destruct c; cbn; auto. apply cell_ok_tag in Hc. tauto.
  - destruct c; cbn [value]; auto. apply cell_ok_tag in Hc. tauto.
Qed.

Theorem insert_tag_ok : forall c k v, cell_ok c -> cell_ok k -> NoNaN k -> cell_ok v -> cell_ok (insert_tag c k v).
Proof.
  intros c k v Hc Hk Nk Hv. unfold insert_tag. apply with_tags_ok; auto.
  apply insert_ok; auto. apply tags_ok. assumption.
Qed.

Theorem remove_tag_ok : forall c k, cell_ok c -> cell_ok k -> cell_ok (remove_tag c k).
Proof.
  intros c k Hc Hk. unfold remove_tag. apply with_tags_ok; auto.
  pose proof (tags_ok c Hc) as T. unfold tags_or_empty in T.
  destruct (tags_of c); [apply remove_ok; assumption | exact T].
Qed.

Theorem insert_tag_size : forall c k v, cell_ok c -> cell_ok k ->
  length (tags_or_empty (insert_tag c k v)) =
  match get_tag c k with Some _ => length (tags_or_empty c) | None => S (length (tags_or_empty c)) end.
Proof.
  intros c k v Hc Hk. rewrite get_tag_find. unfold tags_or_empty at 1. rewrite tags_of_insert_tag.
  pose proof (tags_ok c Hc) as T.
  apply insert_length; auto using map_ok_keys_tagwf, map_ok_sorted, cell_ok_tagwf.
Qed.

