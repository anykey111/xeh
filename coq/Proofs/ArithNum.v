(* ArithNum.v: the number-level facts behind C09: two's complement wrapping, truncating
   division, bitwise operations on the 128-bit representation, shifts, population count,
   and the sign bit of a binary64 pattern. *)
From Xeh Require Import Model.Prelude Model.Cell Model.Words.
From Coq Require Import ZifyBool ZifyNat.
Local Ltac Zify.zify_post_hook ::= Z.div_mod_to_equations.
Local Notation length := List.length.
Local Open Scope Z_scope.

Lemma two128_val : two128 = 340282366920938463463374607431768211456.
Proof. reflexivity. Qed.
Lemma two127_val : two127 = 170141183460469231731687303715884105728.
Proof. reflexivity. Qed.
Lemma two64_val : two64 = 18446744073709551616.
Proof. reflexivity. Qed.

Ltac i128 :=
  unfold in_i128, i128_min, i128_max, wrap128, to_u128, of_u128 in *;
  rewrite ?two128_val, ?two127_val in *; cbv zeta in *;
  repeat match goal with
         | |- context [if ?b then _ else _] => destruct b eqn:?
         | H : context [if ?b then _ else _] |- _ => destruct b eqn:?
         end.

Lemma wrap128_id z : in_i128 z = true -> wrap128 z = z.
Proof. intros H. i128; lia. Qed.

Lemma wrap128_in z : in_i128 (wrap128 z) = true.
Proof. i128; lia. Qed.

Lemma wrap128_u128 z : to_u128 (wrap128 z) = to_u128 z.
Proof. i128; lia. Qed.

Lemma wrap128_closed z : wrap128 z = z - two128 * ((z + two127) / two128).
Proof. i128; lia. Qed.

Lemma wrap128_id_iff z : wrap128 z = z <-> in_i128 z = true.
Proof. split; [intros <-; apply wrap128_in|apply wrap128_id]. Qed.

Lemma quot_abs_le x y : y <> 0 -> Z.abs (Z.quot x y) <= Z.abs x.
Proof.
  intros Hy. rewrite <- Z.quot_abs by assumption.
  apply Z.quot_le_upper_bound; [lia|]. nia.
Qed.

Lemma quot_overflow x y : in_i128 x = true -> in_i128 y = true -> y <> 0 ->
  (in_i128 (Z.quot x y) = false <-> x = i128_min /\ y = -1).
Proof.
  intros Hx Hyr Hy. split.
  - intros Hq. pose proof (quot_abs_le x y Hy) as Hle.
    assert (Hq' : Z.quot x y = two127).
    { i128; lia. }
    assert (Hax : Z.abs x = two127) by (i128; lia).
    assert (Hx' : x = i128_min) by (i128; lia).
    split; [assumption|].
    destruct (Z.eq_dec y (-1)) as [|Hn1]; [assumption|exfalso].
    destruct (Z.eq_dec y 1) as [->|Hn2].
    { rewrite Z.quot_1_r in Hq'. i128; lia. }
    assert (Hay : 2 <= Z.abs y) by lia.
    assert (Hb : Z.quot (Z.abs x) (Z.abs y) <= 2 ^ 126).
    { apply Z.quot_le_upper_bound; [lia|]. rewrite Hax, two127_val.
      change (2 ^ 126) with 85070591730234615865843651857942052864. lia. }
    rewrite Z.quot_abs in Hb by assumption. rewrite Hq', two127_val in Hb.
    change (2 ^ 126) with 85070591730234615865843651857942052864 in Hb. lia.
  - intros [-> ->]. reflexivity.
Qed.

Lemma rem_in x y : in_i128 x = true -> y <> 0 -> in_i128 (Z.rem x y) = true.
Proof.
  intros Hx Hy. assert (H : Z.abs (Z.rem x y) <= Z.abs x).
  { rewrite Z.rem_mod by assumption. rewrite Z.abs_mul.
    assert (0 <= Z.abs x mod Z.abs y <= Z.abs x).
    { split; [apply Z.mod_pos_bound; lia|apply Z.mod_le; lia]. }
    destruct (Z.sgn_spec x) as [(?&->)|[(?&->)|(?&->)]]; lia. }
  assert (Hs : Z.rem x y = 0 \/ Z.sgn (Z.rem x y) = Z.sgn x).
  { destruct (Z.eq_dec (Z.rem x y) 0); [left; assumption|right; apply Z.rem_sign_nz; assumption]. }
  i128; lia.
Qed.

Lemma neg_overflow x : in_i128 x = true -> (in_i128 (- x) = false <-> x = i128_min).
Proof. intros H. i128; lia. Qed.

Lemma abs_overflow x : in_i128 x = true -> (in_i128 (Z.abs x) = false <-> x = i128_min).
Proof. intros H. i128; lia. Qed.

Lemma min_in x y : in_i128 x = true -> in_i128 y = true -> in_i128 (Z.min x y) = true.
Proof. intros. i128; lia. Qed.
Lemma max_in x y : in_i128 x = true -> in_i128 y = true -> in_i128 (Z.max x y) = true.
Proof. intros. i128; lia. Qed.

Lemma cmp_flags x y :
  is_lt (x ?= y) = (x <? y) /\ is_le (x ?= y) = (x <=? y) /\
  is_gt (x ?= y) = (y <? x) /\ is_ge (x ?= y) = (y <=? x) /\
  is_eq (x ?= y) = (x =? y) /\ is_ne (x ?= y) = negb (x =? y).
Proof.
  destruct (Z.compare_spec x y) as [->|H|H]; cbn [is_lt is_le is_gt is_ge is_eq is_ne]; repeat split; lia.
Qed.

Lemma to_u128_land_ones z : to_u128 z = Z.land z (Z.ones 128).
Proof. unfold to_u128, two128. symmetry. apply Z.land_ones. lia. Qed.

Lemma bitop_u128 (f : Z -> Z -> Z) (op : bool -> bool -> bool) :
  (forall a b n, Z.testbit (f a b) n = op (Z.testbit a n) (Z.testbit b n)) -> op false false = false ->
  forall x y, to_u128 (f x y) = f (to_u128 x) (to_u128 y).
Proof.
  intros Hf H0 x y. rewrite !to_u128_land_ones. apply Z.bits_inj'. intros n Hn.
  rewrite Z.land_spec, !Hf, !Z.land_spec.
  destruct (Z.testbit (Z.ones 128) n); rewrite ?Bool.andb_true_r, ?Bool.andb_false_r; [reflexivity|].
  symmetry. exact H0.
Qed.
Lemma land_u128 x y : to_u128 (Z.land x y) = Z.land (to_u128 x) (to_u128 y).
Proof. exact (bitop_u128 Z.land andb Z.land_spec eq_refl x y). Qed.
Lemma lor_u128 x y : to_u128 (Z.lor x y) = Z.lor (to_u128 x) (to_u128 y).
Proof. exact (bitop_u128 Z.lor orb Z.lor_spec eq_refl x y). Qed.
Lemma lxor_u128 x y : to_u128 (Z.lxor x y) = Z.lxor (to_u128 x) (to_u128 y).
Proof. exact (bitop_u128 Z.lxor xorb Z.lxor_spec eq_refl x y). Qed.
Lemma lnot_u128 x : to_u128 (Z.lnot x) = two128 - 1 - to_u128 x.
Proof. unfold Z.lnot. i128; lia. Qed.
Lemma lnot_val x : Z.lnot x = - x - 1.
Proof. unfold Z.lnot. lia. Qed.

Lemma in_i128_shiftr z : in_i128 z = true <-> (Z.shiftr z 127 = 0 \/ Z.shiftr z 127 = -1).
Proof.
  rewrite Z.shiftr_div_pow2 by lia. change (2 ^ 127) with 170141183460469231731687303715884105728.
  i128; lia.
Qed.

Lemma land_in x y : in_i128 x = true -> in_i128 y = true -> in_i128 (Z.land x y) = true.
Proof.
  rewrite !in_i128_shiftr, Z.shiftr_land. intros [-> | ->] [-> | ->]; cbn; auto.
Qed.
Lemma lor_in x y : in_i128 x = true -> in_i128 y = true -> in_i128 (Z.lor x y) = true.
Proof.
  rewrite !in_i128_shiftr, Z.shiftr_lor. intros [-> | ->] [-> | ->]; cbn; auto.
Qed.
Lemma lxor_in x y : in_i128 x = true -> in_i128 y = true -> in_i128 (Z.lxor x y) = true.
Proof.
  rewrite !in_i128_shiftr, Z.shiftr_lxor. intros [-> | ->] [-> | ->]; cbn; auto.
Qed.
Lemma lnot_in x : in_i128 x = true -> in_i128 (Z.lnot x) = true.
Proof. intros H. rewrite lnot_val. i128; lia. Qed.

Lemma shift_count n : 0 <= n < 128 -> (n mod two64) mod 128 = n.
Proof. intros H. rewrite two64_val. lia. Qed.

Lemma shl128_spec x n : 0 <= n < 128 -> shl128 x n = wrap128 (x * 2 ^ n).
Proof. intros H. unfold shl128. rewrite shift_count by assumption. rewrite Z.shiftl_mul_pow2 by lia. reflexivity. Qed.

Lemma shr128_spec x n : 0 <= n < 128 -> shr128 x n = x / 2 ^ n.
Proof. intros H. unfold shr128. rewrite shift_count by assumption. apply Z.shiftr_div_pow2. lia. Qed.

Lemma shr_in x n : in_i128 x = true -> 0 <= n -> in_i128 (x / 2 ^ n) = true.
Proof.
  intros Hx Hn. assert (Hp : 1 <= 2 ^ n) by (pose proof (Z.pow_pos_nonneg 2 n); lia).
  set (d := 2 ^ n) in *.
  assert (H : (0 <= x -> 0 <= x / d <= x) /\ (x < 0 -> x <= x / d < 0)).
  { split; intros Hs.
    - split; [apply Z.div_pos; lia|]. apply Z.div_le_upper_bound; [lia|nia].
    - split; [apply Z.div_le_lower_bound; [lia|nia]|apply Z.div_lt_upper_bound; lia]. }
  i128; lia.
Qed.

Lemma fold_count (P : nat -> bool) l : forall a,
  fold_left (fun acc i => if P i then acc + 1 else acc) l a = a + Z.of_nat (length (filter P l)).
Proof.
  induction l as [|i l IH]; intros a; cbn [fold_left filter].
  - cbn [List.length]. lia.
  - rewrite IH. destruct (P i); cbn [List.length]; lia.
Qed.

Lemma popcount_spec x :
  popcount x = Z.of_nat (length (filter (fun i => Z.testbit (to_u128 x) (Z.of_nat i)) (seq 0 128))).
Proof. unfold popcount, to_u128. cbv zeta. rewrite fold_count. lia. Qed.

Lemma filter_len_le {A} (P : A -> bool) l : (length (filter P l) <= length l)%nat.
Proof. induction l as [|a l IH]; cbn [filter List.length]; [lia|]. destruct (P a); cbn [List.length]; lia. Qed.

Lemma popcount_range x : 0 <= popcount x <= 128.
Proof.
  rewrite popcount_spec.
  pose proof (filter_len_le (fun i => Z.testbit (to_u128 x) (Z.of_nat i)) (seq 0 128)) as H.
  rewrite seq_length in H. lia.
Qed.

Lemma popcount_in x : in_i128 (popcount x) = true.
Proof. pose proof (popcount_range x). i128; lia. Qed.

Lemma testbit63 r : 0 <= r < 2 ^ 64 -> Z.testbit r 63 = (2 ^ 63 <=? r).
Proof.
  intros H. change (2 ^ 64) with 18446744073709551616 in H.
  destruct (Z.testbit r 63) eqn:E.
  - apply Z.testbit_true in E; [|lia]. change (2 ^ 63) with 9223372036854775808 in *. lia.
  - apply Z.testbit_false in E; [|lia]. change (2 ^ 63) with 9223372036854775808 in *. lia.
Qed.

Lemma land_pow63 r : Z.testbit r 63 = false -> Z.land r (2 ^ 63) = 0.
Proof.
  intros H. apply Z.bits_inj'. intros n Hn. rewrite Z.land_spec, Z.bits_0, Z.pow2_bits_eqb by lia.
  destruct (Z.eqb_spec 63 n) as [<-|]; [rewrite H; reflexivity|apply Bool.andb_false_r].
Qed.

Lemma lxor63 r : 0 <= r < 2 ^ 64 ->
  Z.lxor r (2 ^ 63) = if 2 ^ 63 <=? r then r - 2 ^ 63 else r + 2 ^ 63.
Proof.
  intros H. pose proof (testbit63 r H) as T.
  destruct (2 ^ 63 <=? r) eqn:E.
  - assert (T' : Z.testbit (r - 2 ^ 63) 63 = false).
    { rewrite testbit63; change (2 ^ 64) with 18446744073709551616 in *;
        change (2 ^ 63) with 9223372036854775808 in *; lia. }
    pose proof (Z.add_nocarry_lxor _ _ (land_pow63 _ T')) as A.
    replace (Z.lxor r (2 ^ 63)) with (Z.lxor (r - 2 ^ 63 + 2 ^ 63) (2 ^ 63)) by (f_equal; lia).
    rewrite A. rewrite Z.lxor_assoc, Z.lxor_nilpotent, Z.lxor_0_r. reflexivity.
  - symmetry. apply Z.add_nocarry_lxor. apply land_pow63. assumption.
Qed.

Definition f64_pat (r : Z) : Prop := 0 <= r < 2 ^ 64.

(* neg flips the sign bit and abs clears it; the other 63 bits are untouched *)
Lemma f64_neg_flip r : f64_pat r ->
  f64_pat (Z.lxor r (2 ^ 63)) /\ f64_neg (Z.lxor r (2 ^ 63)) = negb (f64_neg r) /\
  (Z.lxor r (2 ^ 63)) mod 2 ^ 63 = r mod 2 ^ 63 /\ f64_key (Z.lxor r (2 ^ 63)) = - f64_key r.
Proof.
  intros H. unfold f64_pat in *. pose proof (lxor63 r H) as L.
  assert (Hr : 0 <= Z.lxor r (2 ^ 63) < 2 ^ 64) by (rewrite L; destruct (2 ^ 63 <=? r) eqn:E; lia).
  unfold f64_key, f64_neg. rewrite !testbit63 by assumption. rewrite L.
  destruct (2 ^ 63 <=? r) eqn:E.
  - replace (2 ^ 63 <=? r - 2 ^ 63) with false by lia. cbn [negb]. repeat split; lia.
  - replace (2 ^ 63 <=? r + 2 ^ 63) with true by lia. cbn [negb]. repeat split; lia.
Qed.

Lemma f64_abs_clear r : f64_pat r ->
  f64_pat (r mod 2 ^ 63) /\ f64_neg (r mod 2 ^ 63) = false /\
  (r mod 2 ^ 63) mod 2 ^ 63 = r mod 2 ^ 63 /\ f64_key (r mod 2 ^ 63) = Z.abs (f64_key r).
Proof.
  intros H. unfold f64_pat in *.
  assert (Hr : 0 <= r mod 2 ^ 63 < 2 ^ 64) by lia.
  unfold f64_key, f64_neg. rewrite (testbit63 (r mod 2 ^ 63)) by assumption.
  replace (2 ^ 63 <=? r mod 2 ^ 63) with false by lia.
  destruct (Z.testbit r 63); repeat split; lia.
Qed.

Lemma finite_not_nan p : f64_exp p <> 2047 -> f64_is_nan p = false.
Proof. intros H. unfold f64_is_nan. destruct (Z.eqb_spec (f64_exp p) 2047); [contradiction|reflexivity]. Qed.

