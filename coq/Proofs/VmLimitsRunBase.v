(* VmLimitsRunBase.v (C14): a refinement [wlx] of the predicate [wl] of VmFrame.v:
   programs built from the logging primitives that
     - never raise [ELimit] themselves (so a limit error can only come from [push_data]), and
     - read the state only through fields other than the reverse log, the meter and the limits.
   Every native word and every instruction is such a program. *)
From Xeh Require Import Model.Prelude Model.Bits Model.Codec Model.Cell Model.Lexer Model.Fmt
                        Model.Vm Model.Words Proofs.VmFrame.
Local Notation length := List.length.

#[local] Arguments Z.add : simpl never.
#[local] Arguments Z.sub : simpl never.
#[local] Arguments Z.mul : simpl never.
#[local] Arguments Z.ltb : simpl never.
#[local] Arguments Z.leb : simpl never.
#[local] Arguments Z.eqb : simpl never.
#[local] Arguments Z.of_nat : simpl never.
#[local] Arguments Z.to_nat : simpl never.

Inductive wlx : forall {A : Type}, M A -> Prop :=
| wlx_ret : forall A (a : A), wlx (ret a)
| wlx_fail : forall A k p, k <> ELimit -> wlx (@fail A k p)
| wlx_unsup : forall A, wlx (@unsup A)
| wlx_panic : forall A, wlx (@panic A)
| wlx_bind : forall A B (m : M A) (f : A -> M B), wlx m -> (forall a, wlx (f a)) -> wlx (bind m f)
| wlx_get_bind : forall B (k : state -> M B),
    (forall s0, wlx (k s0)) ->
    (forall s0 l s, k (set_rlog s0 l) s = k s0 s) ->
    (forall s0 i h c s, k (set_limits s0 i h c) s = k s0 s) ->
    (forall s0 m s, k (set_meter s0 m) s = k s0 s) ->
    wlx (bind get k)
| wlx_set_stopping : forall b, wlx (modify (fun s => set_stopping s b))
| wlx_push_data : forall c, wlx (push_data c)
| wlx_pop_data : wlx pop_data
| wlx_top_data : wlx top_data
| wlx_swap_data : wlx swap_data
| wlx_rot_data : wlx rot_data
| wlx_over_data : wlx over_data
| wlx_push_return : forall f, wlx (push_return f)
| wlx_pop_return : wlx pop_return
| wlx_top_frame : wlx top_frame
| wlx_push_loop : forall l, wlx (push_loop l)
| wlx_pop_loop : wlx pop_loop
| wlx_loop_next : wlx loop_next
| wlx_loop_set_items : forall c, wlx (loop_set_items c)
| wlx_push_special : forall p, wlx (push_special p)
| wlx_pop_special : wlx pop_special
| wlx_get_var : forall a, wlx (get_var a)
| wlx_set_var : forall a v, wlx (set_var a v)
| wlx_init_local : forall i v, wlx (init_local i v)
| wlx_set_ip : forall n, wlx (set_ip n)
| wlx_next_ip : wlx next_ip
| wlx_print : forall msg, wlx (print msg).

Lemma wlx_wl : forall A (m : M A), wlx m -> wl m.
Proof.
  induction 1; try (constructor; auto; fail).
Qed.

(* [wlx] asks of a [get] continuation less than [wprog] does *)
Lemma wprog_wlx c A (m : M A) : wprog c m -> wlx m.
Proof.
  induction 1; try (constructor; auto; fail).
  apply wlx_get_bind; [assumption|..]; intros s0.
  - intros l s. rewrite (view_determines _ k H1 (set_rlog s0 l) s0 eq_refl). reflexivity.
  - intros i h x s. rewrite (view_determines _ k H1 (set_limits s0 i h x) s0 eq_refl). reflexivity.
  - intros z s. rewrite (view_determines _ k H1 (set_meter s0 z) s0 eq_refl). reflexivity.
Qed.

Theorem native_wlx : forall fo w f, native_fn fo w = Some f -> wlx f.
Proof. intros fo w f H. exact (wprog_wlx _ _ _ (native_wprog fo w f H)). Qed.

Lemma wlx_pop_n : forall n, wlx (pop_n n).
Proof. intros n. exact (wprog_wlx all_caps _ _ (wp_pop_n _ n)). Qed.

Lemma wlx_push_all : forall l, wlx (push_all l).
Proof. intros l. exact (wprog_wlx all_caps _ _ (wp_push_all _ l)). Qed.

Lemma wlx_bitstr_concat : forall c, wlx (bitstr_concat c).
Proof. intros c. exact (wprog_wlx all_caps _ _ (wp_bitstr_concat _ c)). Qed.

Lemma wlx_exec_op : forall (nf : natives),
  (forall w f, nf w = Some f -> wlx f) ->
  forall ip0 op, wlx (exec_op nf ip0 op).
Proof.
  intros nf Hnf ip0 op. destruct op; cbn [exec_op];
    try (apply (wprog_wlx all_caps); wp_solve; fail).
  destruct (nf w) eqn:E; [|apply wlx_unsup].
  apply wlx_bind; [eapply Hnf; eauto|intro; apply wlx_next_ip].
Qed.
