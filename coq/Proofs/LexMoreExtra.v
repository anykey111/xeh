(* Small companions of the C16 statements: spelled-out tables, the iff forms, worked examples. *)
From Xeh Require Import Model.Prelude Model.Cell Model.Lexer Model.Vm Model.Words Model.Boot.
From Xeh Require Import Proofs.LexLoc Proofs.LexBasic Proofs.LexStr Proofs.LexMoreCmt Proofs.LexMoreShift Proofs.LexMoreLocal.
Local Open Scope string_scope.

Lemma escape_table :
  escape_value "\" = Some "\"%char /\ escape_value """" = Some """"%char /\
  escape_value "n" = Some (ascii_of_N 10) /\ escape_value "r" = Some (ascii_of_N 13) /\
  escape_value "t" = Some (ascii_of_N 9) /\
  (forall c, escape_value c <> None ->
     c = "\"%char \/ c = """"%char \/ c = "n"%char \/ c = "r"%char \/ c = "t"%char).
Proof.
  repeat (split; [reflexivity|]). intros c H. unfold escape_value in H.
  destruct (byte_of c =? 92)%N eqn:E1; [left; exact (byte_eqb c _ E1)|].
  destruct (byte_of c =? 34)%N eqn:E2; [right; left; exact (byte_eqb c _ E2)|].
  destruct (byte_of c =? 110)%N eqn:E3; [right; right; left; exact (byte_eqb c _ E3)|].
  destruct (byte_of c =? 114)%N eqn:E4; [right; right; right; left; exact (byte_eqb c _ E4)|].
  destruct (byte_of c =? 116)%N eqn:E5; [right; right; right; right; exact (byte_eqb c _ E5)|].
  congruence.
Qed.

Lemma closes_here_spec s : closes_here s = true <->
  exists c r, s = String c ("\)" ++ r) /\ is_ws c = true /\ next_is_ws_or_end r = true.
Proof.
  split.
  - destruct s as [|c [|c1 [|c2 r]]]; cbn [closes_here]; try discriminate. intros H.
    apply andb_prop in H. destruct H as [H H4]. apply andb_prop in H. destruct H as [H H3].
    apply andb_prop in H. destruct H as [H1 H2].
    apply byte_eqb in H2. apply byte_eqb in H3. subst c1 c2.
    exists c, r. repeat split; assumption.
  - intros (c & r & -> & H1 & H2). cbn [append closes_here]. rewrite H1, H2. reflexivity.
Qed.

Definition nl1 : string := String (ascii_of_N 10) "".

Lemma ex_blank :
  let nl := String (ascii_of_N 10) "" in
  let g := "  \ a comment" ++ nl ++ "\( one \)x \) \( two" ++ nl ++ "\)" ++ nl in
  blank g "1 +" /\
  significant (lex_string (g ++ "1 +")) = [(TLit (CInt 1), 38, 39); (TWord "+", 40, 41); (TEnd, 41, 41)] /\
  significant (lex_string (" " ++ "1 +")) = [(TLit (CInt 1), 1, 2); (TWord "+", 3, 4); (TEnd, 4, 4)].
Proof.
  cbv zeta. split; [|split; vm_compute; reflexivity].
  apply (blank_ws "  " ("\ a comment" ++ nl1 ++ "\( one \)x \) \( two" ++ nl1 ++ "\)" ++ nl1) "1 +"); [reflexivity|].
  apply (blank_line " a comment" (nl1 ++ "\( one \)x \) \( two" ++ nl1 ++ "\)" ++ nl1) "1 +");
    [reflexivity|reflexivity|reflexivity|].
  apply (blank_ws nl1 ("\( one \)x \) \( two" ++ nl1 ++ "\)" ++ nl1) "1 +"); [reflexivity|].
  apply (blank_mlc " one \)x \) " ("\( two" ++ nl1 ++ "\)" ++ nl1) "1 +" 8);
    [reflexivity|reflexivity|reflexivity|].
  apply (blank_mlc (" two" ++ nl1 ++ "\)" ++ nl1) "" "1 +" 4); [reflexivity|reflexivity|reflexivity|].
  apply blank_nil.
Qed.

(* end-to-end evaluation helpers for the examples *)
Definition z2 (a b : Z) : Z := 0%Z.
Definition fo0 : fops := fops_with z2 z2 z2 z2 z2 z2 z2.
Definition ds_of (r : res unit) : option (list cell) :=
  match r with ROk _ s => Some (ds s) | _ => None end.

Lemma last_significant_snoc l y : is_blank_tok (fst (fst y)) = false -> last_significant (l ++ [y]).
Proof. intros H pre' x E. apply app_inj_tail in E. destruct E as [_ <-]. exact H. Qed.

Lemma ex_blank_in_context :
  let nl := String (ascii_of_N 10) "" in
  let a := ": sq dup *" in
  let g := " \ squares" ++ nl ++ "  \( note \) " in
  let b := "; 3 sq" in
  valid_utf8 a = true /\ blank g b /\ next_is_ws_or_end (g ++ b) = true /\
  (exists pre e e', lex_string a = (pre ++ [(TEnd, e, e')])%list /\ last_significant pre) /\
  map (fun x => fst (fst x)) (significant (lex_string (a ++ g ++ b))) =
    [TWord ":"; TWord "sq"; TWord "dup"; TWord "*"; TWord ";"; TLit (CInt 3); TWord "sq"; TEnd] /\
  map (fun x => fst (fst x)) (significant (lex_string (a ++ " " ++ b))) =
    [TWord ":"; TWord "sq"; TWord "dup"; TWord "*"; TWord ";"; TLit (CInt 3); TWord "sq"; TEnd].
Proof.
  cbv zeta. split; [reflexivity|]. split; [|split; [reflexivity|split; [|split; vm_compute; reflexivity]]].
  - apply (blank_ws " " ("\ squares" ++ nl1 ++ "  \( note \) ") "; 3 sq"); [reflexivity|].
    apply (blank_line " squares" (nl1 ++ "  \( note \) ") "; 3 sq"); [reflexivity|reflexivity|reflexivity|].
    apply (blank_ws (nl1 ++ "  ") ("\( note \) ") "; 3 sq"); [reflexivity|].
    apply (blank_mlc " note \) " "" "; 3 sq" 5); [reflexivity|reflexivity|reflexivity|].
    apply blank_nil.
  - exists ([(TWord ":", 0, 1); (TWs, 1, 2); (TWord "sq", 2, 4); (TWs, 4, 5); (TWord "dup", 5, 8); (TWs, 8, 9)]
             ++ [(TWord "*", 9, 10)])%list, 10, 10.
    split; [vm_compute; reflexivity|]. apply last_significant_snoc. reflexivity.
Qed.

(* a stand-in for the decimal-to-double oracle in the examples: knows one text *)
Definition pr0 (t : string) : option Z :=
  if String.eqb t "10.5" then Some 4622100592565682176%Z else None.
Definition is_parse_error (r : res unit) : bool :=
  match r with RErr EParse _ _ => true | _ => false end.

