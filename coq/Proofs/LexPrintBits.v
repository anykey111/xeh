(* printing a bit-string literal and lexing the text back *)
From Xeh Require Import Model.Prelude Model.Bits Model.Cell Model.Lexer Model.Fmt.
From Xeh Require Import Proofs.BitsKernel Proofs.BitsLists Proofs.BitsProofs.
From Xeh Require Import Proofs.LexBasic Proofs.LexNext Proofs.LexAll.
Local Open Scope string_scope.

(* the bits a piece of literal text contributes, as the lexer reads it *)
Fixpoint text_bits (s : string) : option (list N) :=
  match s with
  | "" => Some []
  | String c r =>
    match bits_of c, text_bits r with
    | Some l, Some rest => Some (l ++ rest)%list
    | _, _ => None
    end
  end.

Lemma text_bits_app : forall a b x y,
  text_bits a = Some x -> text_bits b = Some y -> text_bits (a ++ b) = Some (x ++ y)%list.
Proof.
  induction a as [|c a IH]; intros b x y Ha Hb.
  - injection Ha as <-. exact Hb.
  - cbn [append text_bits] in *. destruct (bits_of c) as [l|]; [|discriminate].
    destruct (text_bits a) as [ra|]; [|discriminate]. injection Ha as <-.
    rewrite (IH b ra y eq_refl Hb), app_assoc. reflexivity.
Qed.

Lemma lex_bits_text : forall t bits rest pos b endpos, text_bits t = Some bits ->
  lex_bits (t ++ rest) pos b endpos =
  lex_bits rest (pos + String.length t) (fold_left append_bit bits b) endpos.
Proof.
  induction t as [|c t IH]; intros bits rest pos b endpos H.
  - injection H as <-. cbn [append String.length fold_left]. rewrite Nat.add_0_r. reflexivity.
  - cbn [text_bits] in H. destruct (bits_of c) as [l|] eqn:Eb; [|discriminate].
    destruct (text_bits t) as [rt|]; [|discriminate]. injection H as <-.
    cbn [append String.length]. rewrite lex_bits_cons, Eb, fold_left_app, <- Nat.add_succ_comm. apply IH. reflexivity.
Qed.

Lemma lex_bits_close rest pos b endpos :
  lex_bits (String "|" rest) pos b endpos = (TLit (CBits (bvb_finish b)), rest, S pos).
Proof. reflexivity. Qed.

(* one printed group reads back as its bits: all 511 groups of at most 8 bits *)
Definition group_ok (g : list bool) : bool :=
  match text_bits (fmt_group (bits_to_N g) (List.length g)) with
  | Some l => list_eqb N.eqb l (map b2n g)
  | None => false
  end.

Lemma k_group_all : forallb (fun n => forallb group_ok (all_lists n)) (seq 0 9) = true.
Proof. vm_compute. reflexivity. Qed.

Lemma group_kernel g : List.length g <= 8 ->
  text_bits (fmt_group (bits_to_N g) (List.length g)) = Some (map b2n g).
Proof.
  intros Hg.
  pose proof (sweep_nat _ _ k_group_all (List.length g) ltac:(lia)) as H1. cbv beta in H1.
  rewrite forallb_forall in H1. specialize (H1 g (in_all_lists g)). unfold group_ok in H1.
  destruct (text_bits (fmt_group (bits_to_N g) (List.length g))) as [l|]; [|discriminate].
  apply (list_eqb_spec N.eqb N.eqb_eq) in H1. rewrite H1. reflexivity.
Qed.

Lemma groups_text : forall X first, Forall (fun g => List.length g <= 8) X ->
  text_bits (fmt_groups (map grp X) first) = Some (map b2n (List.concat X)).
Proof.
  induction X as [|g X IH]; intros first H; [reflexivity|].
  inversion H as [|? ? Hg HX]; subst.
  cbn [map fmt_groups grp List.concat]. unfold grp at 1. rewrite map_app.
  change (map b2n g ++ map b2n (List.concat X))%list with ([] ++ (map b2n g ++ map b2n (List.concat X)))%list.
  apply text_bits_app.
  - destruct first; reflexivity.
  - apply text_bits_app; [apply group_kernel; exact Hg|apply IH; exact HX].
Qed.

Lemma print_read_bitstr : forall b, wf b ->
  let txt := fmt_bitstr b in
  exists b', lex_string txt = [(TLit (CBits b'), 0, String.length txt); (TEnd, String.length txt, String.length txt)]
             /\ wf b' /\ abs b' = abs b.
Proof.
  intros b Hb txt.
  exists (of_bools (abs b)). destruct (of_bools_spec (abs b)) as [W A].
  split; [|split; [exact W|exact A]].
  set (G := fmt_groups (iter8 b) true).
  assert (Hg : text_bits G = Some (map b2n (abs b))).
  { unfold G. rewrite iter8_spec by exact Hb.
    rewrite groups_text by apply chunks8_len_le8. rewrite concat_chunk8. reflexivity. }
  apply lex_string_one_token; [reflexivity|].
  rewrite (lex_next_bar (lex_new txt) (G ++ "|") eq_refl).
  cbn [lex_new lpos llen]. rewrite (lex_bits_text G _ "|" 1 bvb_empty _ Hg), lex_bits_close. cbn [fin3 lex_new lpos llen].
  change txt with (String "|" (G ++ "|")). cbn [String.length]. rewrite app_length_s. cbn [String.length].
  unfold of_bools, from_bits. f_equal. f_equal. lia.
Qed.
