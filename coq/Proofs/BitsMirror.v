(* The building blocks of the mirror (bits, iter8, bytes_of, the builders, trim_tail,
   append_bits_mut) in terms of [getbit] / [abs]; the packed form [packs] of a bit list and
   the canonical value [canon] over it. *)
From Xeh Require Import Model.Prelude Model.Bits Proofs.BitsBasic Proofs.BitsKernel Proofs.BitsLists.
From Coq Require Import ZifyBool ZifyNat ZifyN.
Local Ltac Zify.zify_post_hook ::= Z.div_mod_to_equations.

Lemma wf_mk s e d : s <= e -> e <= 8 * length d -> bytes_ok d -> wf (mkcbs s e d).
Proof. intros H1 H2 H3. unfold wf. cbn [cstart cend cdata]. auto. Qed.

Lemma wf_inv c : wf c ->
  cstart c <= cend c /\ cend c <= 8 * length (cdata c) /\ bytes_ok (cdata c).
Proof. intros H. exact H. Qed.

Lemma abs_mk s e d : abs (mkcbs s e d) = map (getbit d) (seq s (e - s)).
Proof. reflexivity. Qed.

Lemma abs_unfold c : abs c = map (getbit (cdata c)) (seq (cstart c) (cend c - cstart c)).
Proof. reflexivity. Qed.

Lemma cbs_eta c : mkcbs (cstart c) (cend c) (cdata c) = c.
Proof. destruct c; reflexivity. Qed.

Lemma nth_abs c i :
  nth i (abs c) false = if i <? clen c then getbit (cdata c) (cstart c + i) else false.
Proof. apply nth_map_seq. Qed.

Lemma bit_at_getbit d pos : bytes_ok d -> bit_at d pos = b2n (getbit d pos).
Proof.
  intros Hd. unfold bit_at. rewrite getbit_tb.
  apply bitat_kernel; [apply nthb_lt; assumption|lia].
Qed.

Lemma bits_spec c : wf c -> bits c = map b2n (abs c).
Proof.
  intros (H1 & H2 & H3). unfold bits, abs. rewrite map_map.
  apply map_ext. intros i. apply bit_at_getbit. assumption.
Qed.

Lemma tb_seq_getbit d pos k : pos mod 8 + k <= 8 ->
  map (tb (nthb d (pos / 8))) (seq (pos mod 8) k) = map (getbit d) (seq pos k).
Proof.
  intros H. apply map_seq_ext. intros j Hj. rewrite getbit_tb.
  replace ((pos + j) / 8) with (pos / 8) by lia.
  replace ((pos + j) mod 8) with (pos mod 8 + j) by lia. reflexivity.
Qed.

Lemma cut_bits_buf d pos e : bytes_ok d ->
  cut_bits (nthb d (pos / 8)) pos e =
  (bits_to_N (map (getbit d) (seq pos (Nat.min (e - pos) (8 - pos mod 8)))),
   Nat.min (e - pos) (8 - pos mod 8)).
Proof.
  intros Hd. rewrite cut_bits_spec by (apply nthb_lt; assumption).
  rewrite tb_seq_getbit by lia. reflexivity.
Qed.

Definition step_val (d : list N) (e pos : nat) : N :=
  let len := Nat.min (e - pos) 8 in
  let idx := pos / 8 in
  let '(v, n) := cut_bits (nthb d idx) pos (pos + len) in
  if n <? len
  then let '(v2, n2) := cut_bits (nthb d (idx + 1)) (pos + n) (pos + len) in
       N.lor (N.shiftl v (N.of_nat n2)) v2
  else v.

Lemma iter8_go_S d e f pos :
  iter8_go d e (S f) pos =
  if e <=? pos then []
  else (step_val d e pos, Nat.min (e - pos) 8) :: iter8_go d e f (pos + Nat.min (e - pos) 8).
Proof. reflexivity. Qed.

Lemma step_val_spec d e pos : bytes_ok d -> pos < e ->
  step_val d e pos = bits_to_N (map (getbit d) (seq pos (Nat.min (e - pos) 8))).
Proof.
  intros Hd Hlt. unfold step_val. cbv zeta.
  set (len := Nat.min (e - pos) 8).
  rewrite cut_bits_buf by assumption. cbv beta iota.
  set (n := Nat.min (pos + len - pos) (8 - pos mod 8)).
  destruct (n <? len) eqn:E.
  - assert (Hn : n = 8 - pos mod 8) by lia.
    replace (pos / 8 + 1) with ((pos + n) / 8) by lia.
    rewrite cut_bits_buf by assumption. cbv beta iota.
    set (n2 := Nat.min (pos + len - (pos + n)) (8 - (pos + n) mod 8)).
    assert (Hn2 : len = n + n2) by lia.
    rewrite lor_shiftl_add.
    + rewrite Hn2, seq_app, map_app, bits_to_N_app.
      rewrite map_length, seq_length. reflexivity.
    + pose proof (bits_to_N_lt (map (getbit d) (seq (pos + n) n2))) as Hb.
      rewrite map_length, seq_length in Hb. exact Hb.
  - replace n with len by lia. reflexivity.
Qed.

Lemma iter8_go_spec d e : bytes_ok d -> forall fuel pos,
  e - pos <= fuel ->
  iter8_go d e fuel pos = map grp (chunks8 fuel (map (getbit d) (seq pos (e - pos)))).
Proof.
  intros Hd. induction fuel as [|fuel IH]; intros pos Hf.
  - reflexivity.
  - rewrite iter8_go_S. destruct (e <=? pos) eqn:E.
    + replace (e - pos) with 0 by lia. reflexivity.
    + assert (Hne : map (getbit d) (seq pos (e - pos)) <> []).
      { destruct (e - pos) eqn:E2; [lia|]. cbn [seq map]. discriminate. }
      rewrite chunks8_cons by assumption. cbn [map]. f_equal.
      * unfold grp. rewrite step_val_spec by (assumption || lia).
        rewrite firstn_map_seq. rewrite (Nat.min_comm 8).
        rewrite map_length, seq_length. reflexivity.
      * rewrite IH by lia. rewrite skipn_map_seq. f_equal. f_equal.
        destruct (le_lt_dec (e - pos) 8) as [Hs|Hs].
        -- replace (e - pos - 8) with 0 by lia.
           replace (e - (pos + Nat.min (e - pos) 8)) with 0 by lia. reflexivity.
        -- replace (Nat.min (e - pos) 8) with 8 by lia. f_equal. f_equal. lia.
Qed.

Lemma iter8_abs c : wf c -> iter8 c = map grp (chunk8 (abs c)).
Proof.
  intros (H1 & H2 & H3). unfold iter8, chunk8. rewrite abs_length.
  rewrite iter8_go_spec by (assumption || (unfold clen; lia)).
  reflexivity.
Qed.

Lemma slice_inv c : is_u8_slice c = true -> cstart c mod 8 = 0 /\ clen c mod 8 = 0.
Proof.
  unfold is_u8_slice, is_bytestr. intros H. apply andb_prop in H.
  destruct H as [H1 H2]. apply Nat.eqb_eq in H1, H2. auto.
Qed.

Lemma bytes_of_length c : wf c -> is_u8_slice c = true ->
  8 * length (bytes_of c) = clen c.
Proof.
  intros (H1 & H2 & H3) Hs. apply slice_inv in Hs. destruct Hs as [Hs1 Hs2].
  unfold clen in *. unfold bytes_of. rewrite ubi_aligned by lia.
  rewrite firstn_length_le; [lia|]. rewrite skipn_length. lia.
Qed.

Lemma getbit_bytes_of c i : wf c -> is_u8_slice c = true -> i < clen c ->
  getbit (bytes_of c) i = getbit (cdata c) (cstart c + i).
Proof.
  intros (H1 & H2 & H3) Hs Hi. apply slice_inv in Hs. destruct Hs as [Hs1 Hs2].
  unfold clen in *. unfold bytes_of. rewrite ubi_aligned by lia. rewrite getbit_firstn.
  replace (i <? 8 * (cend c / 8 - cstart c / 8)) with true by lia.
  rewrite getbit_skipn. f_equal. lia.
Qed.

Lemma bytes_ok_bytes_of c : bytes_ok (cdata c) -> bytes_ok (bytes_of c).
Proof. intros H. unfold bytes_of. apply bytes_ok_firstn, bytes_ok_skipn, H. Qed.

(* [d] holds the bits [l] from bit 0 on, in as many bytes as they need, zero after them:
   the form in which detach, the builders and append_bits_mut leave a buffer *)
Definition packs (d : list N) (l : list bool) : Prop :=
  length d = ubi (length l) /\ bytes_ok d /\ forall i, getbit d i = nth i l false.

Lemma packs_nil : packs [] [].
Proof.
  split; [reflexivity|]. split; [constructor|].
  intros i. rewrite getbit_nil. destruct i; reflexivity.
Qed.

Lemma packs_inj d d' l : packs d l -> packs d' l -> d = d'.
Proof.
  intros (L & B & G) (L' & B' & G'). apply bytes_ext; [exact B|exact B'|congruence|].
  intros i. rewrite G, G'. reflexivity.
Qed.

Lemma packs_abs d l s : packs d l -> s <= length l ->
  wf (mkcbs s (length l) d) /\ abs (mkcbs s (length l) d) = skipn s l.
Proof.
  intros (L & B & G) Hs. split.
  - apply wf_mk; [exact Hs|rewrite L; apply ubi_ge|exact B].
  - rewrite abs_mk. rewrite <- (map_nth_seq0 false l) at 2. rewrite skipn_map_seq.
    apply map_ext. exact G.
Qed.

Lemma getbit_pack_chunks : forall fuel l i, length l <= fuel ->
  getbit (map pack (chunks8 fuel l)) i = nth i l false.
Proof.
  induction fuel as [|fuel IH]; intros l i Hl.
  - destruct l; [|cbn [length] in Hl; lia]. cbn [chunks8 map].
    rewrite getbit_nil. destruct i; reflexivity.
  - destruct l as [|x l].
    + cbn [chunks8 map]. rewrite getbit_nil. destruct i; reflexivity.
    + rewrite chunks8_cons by discriminate. cbn [map]. rewrite getbit_cons.
      destruct (i <? 8) eqn:E.
      * rewrite pack_kernel by (try apply firstn_le_length; lia).
        rewrite nth_firstn'. rewrite E. reflexivity.
      * rewrite IH.
        -- rewrite nth_skipn'. f_equal. lia.
        -- rewrite skipn_length. cbn [length] in *. lia.
Qed.

Lemma packs_pack l : packs (map pack (chunk8 l)) l.
Proof.
  split; [|split].
  - rewrite map_length. apply chunk8_length.
  - apply Forall_forall. intros x Hx. apply in_map_iff in Hx.
    destruct Hx as (g & <- & _). apply pack_lt.
  - intros i. apply getbit_pack_chunks. lia.
Qed.

Definition canon (l : list bool) : cbs := mkcbs 0 (length l) (map pack (chunk8 l)).

Lemma canon_spec l : wf (canon l) /\ abs (canon l) = l.
Proof. exact (packs_abs _ l 0 (packs_pack l) (Nat.le_0_l _)). Qed.

Lemma packs_canon d l : packs d l -> mkcbs 0 (length l) d = canon l.
Proof. intros H. unfold canon. f_equal. exact (packs_inj _ _ _ H (packs_pack l)). Qed.

Lemma packs_bytes_of t : wf t -> is_u8_slice t = true -> packs (bytes_of t) (abs t).
Proof.
  intros Ht Hs. pose proof (bytes_of_length t Ht Hs) as HL. destruct (slice_inv t Hs) as [_ Hm].
  split; [|split].
  - rewrite abs_length, ubi_aligned by exact Hm. lia.
  - apply bytes_ok_bytes_of, Ht.
  - intros i. rewrite nth_abs. destruct (i <? clen t) eqn:E.
    + apply getbit_bytes_of; assumption || lia.
    + apply getbit_overflow. lia.
Qed.

Lemma pack_full g : length g = 8 -> pack g = bits_to_N g.
Proof.
  intros H. unfold pack. rewrite H. change (N.of_nat (8 - 8)) with 0%N. rewrite N.shiftl_0_r.
  change 255%N with (N.ones 8). rewrite N.land_ones. apply N.mod_small.
  pose proof (bits_to_N_lt g) as L. rewrite H in L. exact L.
Qed.

Lemma pack_chunks_aligned : forall fuel l, length l <= fuel -> length l mod 8 = 0 ->
  map pack (chunks8 fuel l) = map bits_to_N (chunks8 fuel l).
Proof.
  induction fuel as [|fuel IH]; intros l Hf Hm; [reflexivity|].
  destruct l as [|x l]; [reflexivity|]. rewrite chunks8_cons by discriminate. cbn [map].
  assert (H8 : 8 <= length (x :: l)) by (cbn [length] in *; lia).
  f_equal.
  - apply pack_full. rewrite firstn_length. lia.
  - apply IH; rewrite skipn_length; cbn [length] in *; lia.
Qed.

Lemma bytes_of_spec c : wf c -> is_u8_slice c = true ->
  bytes_of c = map bits_to_N (chunk8 (abs c)).
Proof.
  intros Hc Hs. rewrite (packs_inj _ _ _ (packs_bytes_of c Hc Hs) (packs_pack (abs c))).
  apply pack_chunks_aligned; [lia|]. rewrite abs_length. apply (slice_inv c Hs).
Qed.

Lemma detach_data c : wf c ->
  map (fun '(v, n) => N.land (N.shiftl v (N.of_nat (8 - n))) 255) (iter8 c)
  = map pack (chunk8 (abs c)).
Proof.
  intros H. rewrite iter8_abs by assumption. rewrite map_map.
  apply map_ext. intros g. reflexivity.
Qed.

Lemma packs_byte x g : 0 < length g <= 8 -> (x < 256)%N ->
  (forall j, j < 8 -> tb x j = nth j g false) -> packs [x] g.
Proof.
  intros Hg Hx Ht. split; [|split].
  - cbn [length]. destruct (ubi_spec (length g)) as [(? & _ & ->)|(? & _ & ->)]; lia.
  - constructor; [exact Hx|constructor].
  - intros i. rewrite getbit_cons. destruct (i <? 8) eqn:E; [apply Ht; lia|].
    rewrite getbit_nil. symmetry. apply nth_overflow. lia.
Qed.

Lemma packs_app d1 l1 d2 l2 : length l1 mod 8 = 0 ->
  packs d1 l1 -> packs d2 l2 -> packs (d1 ++ d2) (l1 ++ l2).
Proof.
  intros Ha (L1 & B1 & G1) (L2 & B2 & G2). rewrite (ubi_aligned _ Ha) in L1.
  split; [|split].
  - rewrite !app_length, L1, L2.
    destruct (ubi_spec (length l2)) as [(? & _ & ->)|(? & _ & ->)];
      destruct (ubi_spec (length l1 + length l2)) as [(? & _ & ->)|(? & _ & ->)]; lia.
  - apply bytes_ok_app; assumption.
  - intros i. rewrite getbit_app. replace (8 * length d1) with (length l1) by lia.
    destruct (i <? length l1) eqn:E.
    + rewrite app_nth1 by lia. apply G1.
    + rewrite app_nth2 by lia. apply G2.
Qed.

(* bits or-ed into the partly filled last byte: [f] ors the group [g] in after the
   [length l mod 8] bits already there *)
Lemma packs_or_last d l g f :
  0 < length l mod 8 -> length l mod 8 + length g <= 8 -> packs d l ->
  (forall y, (y < 256)%N -> (f y < 256)%N /\ forall j, j < 8 ->
     tb (f y) j = tb y j || ((length l mod 8 <=? j) && nth (j - length l mod 8) g false)) ->
  packs (upd d (length l / 8) f) (l ++ g).
Proof.
  intros Hr Hg (L & B & G) Hf.
  destruct (ubi_spec (length l)) as [(? & _ & _)|(_ & _ & U)]; [lia|]. rewrite U in L.
  split; [|split].
  - rewrite upd_length, app_length, L.
    destruct (ubi_spec (length l + length g)) as [(? & _ & ->)|(? & _ & ->)]; lia.
  - apply bytes_ok_upd; [exact B|]. intros y Hy. apply (Hf y Hy).
  - intros i. rewrite getbit_upd by lia.
    destruct (i / 8 =? length l / 8) eqn:E.
    + rewrite (proj2 (Hf _ (nthb_lt d _ B))) by lia.
      replace (tb (nthb d (length l / 8)) (i mod 8)) with (getbit d i)
        by (rewrite getbit_tb; f_equal; f_equal; lia).
      rewrite G. destruct (i <? length l) eqn:E2.
      * replace (length l mod 8 <=? i mod 8) with false by lia.
        rewrite orb_false_r. rewrite app_nth1 by lia. reflexivity.
      * replace (length l mod 8 <=? i mod 8) with true by lia.
        rewrite nth_overflow by lia. rewrite app_nth2 by lia. cbn [orb andb]. f_equal. lia.
    + rewrite G. destruct (i <? length l) eqn:E2.
      * rewrite app_nth1 by lia. reflexivity.
      * rewrite !nth_overflow; [reflexivity|rewrite app_length; lia|lia].
Qed.

Definition binv (b : bvb) (l : list bool) : Prop := blen b = length l /\ packs (bdata b) l.

Lemma binv_empty : binv bvb_empty [].
Proof. split; [reflexivity|exact packs_nil]. Qed.

Lemma append_bit_inv b l x : binv b l -> binv (append_bit b (b2n x)) (l ++ [x]).
Proof.
  intros (H1 & HP). pose proof HP as (L & _). unfold append_bit. rewrite H1.
  split; [rewrite app_length; cbn [blen length]; destruct (_ =? _); cbn [blen]; lia|].
  destruct (ubi_spec (length l)) as [(U1 & _ & U2)|(U1 & _ & U2)]; rewrite U2 in L.
  - replace (length (bdata b) =? length l / 8) with true by lia. cbn [bdata].
    apply packs_app; [exact U1|exact HP|].
    apply packs_byte; [cbn [length]; lia|apply land_255_lt|].
    intros j Hj. rewrite push_kernel by exact Hj. destruct j as [|[|j]]; [apply andb_true_r| |];
      apply andb_false_r.
  - replace (length (bdata b) =? length l / 8) with false by lia. cbn [bdata].
    apply packs_or_last; [lia|cbn [length]; lia|exact HP|].
    intros y Hy. destruct (or_kernel y x (length l mod 8) Hy ltac:(lia)) as [K1 K2].
    split; [exact K1|]. intros j Hj. rewrite K2 by exact Hj. f_equal.
    destruct (j =? length l mod 8) eqn:E.
    + apply Nat.eqb_eq in E. subst j. rewrite Nat.sub_diag, Nat.leb_refl. apply andb_true_r.
    + rewrite andb_false_r. destruct (length l mod 8 <=? j) eqn:E2; [|reflexivity].
      destruct (j - length l mod 8) as [|[|k]] eqn:E3; [lia|reflexivity|reflexivity].
Qed.

Lemma fold_append_inv : forall bs b l, binv b l ->
  binv (fold_left append_bit (map b2n bs) b) (l ++ bs).
Proof.
  induction bs as [|x bs IH]; intros b l H; cbn [map fold_left].
  - rewrite app_nil_r. exact H.
  - replace (l ++ x :: bs) with ((l ++ [x]) ++ bs) by (rewrite <- app_assoc; reflexivity).
    apply IH. apply append_bit_inv. exact H.
Qed.

Definition hinv (n : nat) (buf : list N) (l : list bool) : Prop :=
  n = length l /\ n mod 4 = 0 /\ packs buf l.

Lemma nibble_bits_length v : length (nibble_bits v) = 4.
Proof. reflexivity. Qed.

Lemma hex_step_inv n buf l v : (v < 16)%N -> hinv n buf l ->
  hinv (n + 4)
       (if length buf =? n / 8 then buf ++ [N.land (N.shiftl v 4) 255]
        else upd buf (n / 8) (fun y => N.lor y v))
       (l ++ nibble_bits v).
Proof.
  intros Hv (H1 & H2 & HP). pose proof HP as (L & _). subst n.
  split; [rewrite app_length, nibble_bits_length; reflexivity|]. split; [lia|].
  destruct (ubi_spec (length l)) as [(U1 & _ & U2)|(U1 & _ & U2)]; rewrite U2 in L.
  - replace (length buf =? length l / 8) with true by lia.
    apply packs_app; [exact U1|exact HP|].
    apply packs_byte; [rewrite nibble_bits_length; lia|apply land_255_lt|].
    intros j Hj. rewrite hexhi_kernel by assumption.
    destruct (j <? 4) eqn:E; [reflexivity|].
    symmetry. apply nth_overflow. rewrite nibble_bits_length. lia.
  - replace (length buf =? length l / 8) with false by lia.
    assert (Hm : length l mod 8 = 4) by lia.
    apply packs_or_last; [lia|rewrite nibble_bits_length; lia|exact HP|].
    intros y Hy. rewrite Hm. exact (hexlo_kernel y v Hy Hv).
Qed.

Lemma from_hex_go_inv : forall ds n buf l,
  Forall (fun d => (d < 16)%N) ds -> hinv n buf l ->
  hinv (fst (from_hex_go ds n buf)) (snd (from_hex_go ds n buf))
       (l ++ flat_map nibble_bits ds).
Proof.
  induction ds as [|v ds IH]; intros n buf l Hds H; cbn [from_hex_go flat_map].
  - rewrite app_nil_r. exact H.
  - inversion Hds as [|? ? Hv Hds']; subst.
    rewrite app_assoc. apply IH; [assumption|].
    apply hex_step_inv; assumption.
Qed.

Lemma trim_tail_packs c : wf c -> packs (trim_tail c) (map (getbit (cdata c)) (seq 0 (cend c))).
Proof.
  intros (H1 & H2 & H3). unfold packs. rewrite map_length, seq_length.
  unfold trim_tail. cbv zeta.
  destruct (ubi_spec (cend c)) as [(U1 & U0 & U2)|(U1 & U0 & U2)]; rewrite U0, U2.
  - repeat split.
    + apply firstn_length_le. lia.
    + apply bytes_ok_firstn. assumption.
    + intros i. rewrite nth_map_seq, getbit_firstn.
      replace (i <? 8 * (cend c / 8)) with (i <? cend c) by lia. reflexivity.
  - replace (cend c / 8 + 1 - 1) with (cend c / 8) by lia.
    set (d0 := firstn (cend c / 8 + 1) (cdata c)).
    assert (Hlen : length d0 = cend c / 8 + 1) by (apply firstn_length_le; lia).
    assert (Hd0 : bytes_ok d0) by (apply bytes_ok_firstn; assumption).
    repeat split.
    + rewrite upd_length. exact Hlen.
    + apply bytes_ok_upd; [exact Hd0|].
      intros y Hy. apply (trim_kernel y (cend c mod 8) Hy). lia.
    + intros i. rewrite nth_map_seq, getbit_upd by lia.
      destruct (trim_kernel (nthb d0 (cend c / 8)) (cend c mod 8)
                  (nthb_lt _ _ Hd0) ltac:(lia)) as [_ Hk].
      destruct (i / 8 =? cend c / 8) eqn:E.
      * rewrite Hk by lia.
        replace (tb (nthb d0 (cend c / 8)) (i mod 8)) with (getbit d0 i)
          by (rewrite getbit_tb; f_equal; f_equal; lia).
        unfold d0. rewrite getbit_firstn.
        replace (i <? 8 * (cend c / 8 + 1)) with true by lia.
        destruct (i <? cend c) eqn:E2.
        -- replace (i mod 8 <? cend c mod 8) with true by lia. apply andb_true_r.
        -- replace (i mod 8 <? cend c mod 8) with false by lia. apply andb_false_r.
      * unfold d0. rewrite getbit_firstn.
        destruct (i <? cend c) eqn:E2.
        -- replace (i <? 8 * (cend c / 8 + 1)) with true by lia. reflexivity.
        -- replace (i <? 8 * (cend c / 8 + 1)) with false by lia. reflexivity.
Qed.

Lemma packs_or_bits d l bs : packs d l ->
  packs (or_bits (resize d (ubi (length l + length bs))) (length l) (map b2n bs)) (l ++ bs).
Proof.
  intros (L & B & G). pose proof (ubi_ge (length l + length bs)) as HU.
  set (d1 := resize d _).
  assert (B1 : bytes_ok d1) by (apply bytes_ok_resize, B).
  assert (L1 : length d1 = ubi (length l + length bs)) by apply resize_length.
  split; [|split].
  - rewrite or_bits_length, app_length. exact L1.
  - apply bytes_ok_or_bits, B1.
  - intros i. rewrite getbit_or_bits by (assumption || lia).
    unfold d1. rewrite getbit_resize, G. destruct (i <? length l) eqn:E.
    + rewrite app_nth1 by lia. replace (length l <=? i) with false by lia.
      replace (i <? 8 * ubi (length l + length bs)) with true by lia. apply orb_false_r.
    + rewrite app_nth2 by lia. rewrite (nth_overflow l) by lia.
      replace (length l <=? i) with true by lia.
      destruct (i <? 8 * ubi (length l + length bs)); reflexivity.
Qed.

Lemma append_bits_mut_range c t :
  cstart (append_bits_mut c t) = cstart c /\ cend (append_bits_mut c t) = cend c + clen t.
Proof.
  unfold append_bits_mut. cbv zeta.
  destruct (is_u8_slice c && is_u8_slice t); cbn [cstart cend]; split; reflexivity.
Qed.

(* whatever is in the buffer of [c] after its end is gone, and the bits of [t] follow *)
Lemma append_bits_mut_packs c t : wf c -> wf t ->
  packs (cdata (append_bits_mut c t)) (map (getbit (cdata c)) (seq 0 (cend c)) ++ abs t).
Proof.
  intros Hc Ht. pose proof (trim_tail_packs c Hc) as HT.
  unfold append_bits_mut. cbv zeta.
  destruct (is_u8_slice c && is_u8_slice t) eqn:E; cbn [cdata].
  - apply andb_prop in E. destruct E as [Ec Et].
    apply packs_app; [|exact HT|apply packs_bytes_of; assumption].
    rewrite map_length, seq_length. destruct (slice_inv c Ec) as [S1 S2], Hc as (C1 & _).
    unfold clen in S2. lia.
  - rewrite (bits_spec t Ht).
    pose proof (packs_or_bits _ _ (abs t) HT) as H.
    rewrite map_length, seq_length, abs_length in H. exact H.
Qed.

Lemma append_bits_mut_spec c t : wf c -> wf t ->
  wf (append_bits_mut c t) /\ abs (append_bits_mut c t) = abs c ++ abs t.
Proof.
  intros Hc Ht. pose proof (append_bits_mut_packs c t Hc Ht) as HP.
  destruct (append_bits_mut_range c t) as [Rs Re]. destruct Hc as (C1 & _).
  rewrite <- (cbs_eta (append_bits_mut c t)), Rs, Re.
  assert (EL : length (map (getbit (cdata c)) (seq 0 (cend c)) ++ abs t) = cend c + clen t)
    by (rewrite app_length, map_length, seq_length, abs_length; reflexivity).
  rewrite <- EL. destruct (packs_abs _ _ (cstart c) HP ltac:(lia)) as [W A].
  split; [exact W|]. rewrite A, skipn_app, skipn_map_seq, map_length, seq_length.
  replace (cstart c - cend c) with 0 by lia. reflexivity.
Qed.

Lemma append_bits_mut_canon c t : wf c -> wf t -> cstart c = 0 ->
  append_bits_mut c t = canon (abs c ++ abs t).
Proof.
  intros Hc Ht S0. pose proof (append_bits_mut_packs c t Hc Ht) as HP.
  destruct (append_bits_mut_range c t) as [Rs Re].
  rewrite <- (cbs_eta (append_bits_mut c t)), Rs, Re, S0.
  assert (EA : abs c = map (getbit (cdata c)) (seq 0 (cend c)))
    by (rewrite abs_unfold, S0, Nat.sub_0_r; reflexivity).
  rewrite <- EA in HP. rewrite <- (packs_canon _ _ HP), app_length, !abs_length.
  replace (clen c) with (cend c) by (unfold clen; lia). reflexivity.
Qed.
