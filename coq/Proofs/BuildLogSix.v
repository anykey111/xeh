(* BuildLogSix.v (C15): the six ways of driving a source agree.
   eval / compile ;; run / compile then single steps, each from the state with recording on (any
   log content) and from the same state with recording off.  Also: the hypothesis of
   eval_is_compile_run ([calls_bad], idle) does not see the reverse log. *)
From Xeh Require Import Model.Prelude Model.Bits Model.Codec Model.Cell Model.Lexer Model.Fmt
                        Model.Vm Model.Words Model.Build.
From Xeh Require Import Proofs.VmFrame Proofs.VmDrive Proofs.NoPanicBuild Proofs.UnwindBuild
                        Proofs.UnwindMain Proofs.UnwindSimMain Proofs.BuildLog Proofs.BuildLogMain.
Local Notation length := List.length.

Lemma idle_top_erase s : idle_top (erase_log s) <-> idle_top s.
Proof. reflexivity. Qed.

Section Watch.
  Variable fo : fops.
  Variable pr : string -> option Z.
  Variable rf : nat.
  Variable dl : nat.

  Lemma const_clobbers_erase s : const_clobbers pr dl (erase_log s) = const_clobbers pr dl s.
  Proof.
    unfold const_clobbers. rewrite <- (R_next_name pr s).
    destruct (next_name pr s) as [n s'|k p s'| |]; reflexivity.
  Qed.

  Lemma enum_field_bad_erase s : enum_field_bad fo rf (erase_log s) = enum_field_bad fo rf s.
  Proof.
    unfold enum_field_bad. rewrite <- (R_i_nested_end fo rf s).
    destruct (i_nested_end fo rf s) as [u t1|k p t1| |]; reflexivity.
  Qed.

  Lemma enum_close_bad_erase s : enum_close_bad fo rf (erase_log s) = enum_close_bad fo rf s.
  Proof.
    unfold enum_close_bad. rewrite <- (R_i_nested_end fo rf s).
    destruct (i_nested_end fo rf s) as [u t1|k p t1| |]; reflexivity.
  Qed.

  Lemma native_bad_erase w s : native_bad fo pr rf dl w (erase_log s) = native_bad fo pr rf dl w s.
  Proof.
    unfold native_bad. rewrite const_clobbers_erase, enum_close_bad_erase, enum_field_bad_erase. reflexivity.
  Qed.

  Lemma bad_word_erase s name : bad_word fo pr rf dl (erase_log s) name = bad_word fo pr rf dl s name.
  Proof.
    unfold bad_word. change (dict_entry (erase_log s) name) with (dict_entry s name).
    destruct (dict_entry s name) as [[c|a|[|] [x|w] len]|]; try reflexivity. apply native_bad_erase.
  Qed.

  Lemma calls_bad_erase : forall fuel depth s,
    calls_bad fo pr rf dl fuel depth (erase_log s) = calls_bad fo pr rf dl fuel depth s.
  Proof.
    induction fuel as [|f IH]; intros depth s; cbn [calls_bad]; [reflexivity|].
    change (cx (erase_log s)) with (cx s).
    change (has_pending_flow (erase_log s)) with (has_pending_flow s).
    assert (H0 : R_log (if mode_eqb (cmode (cx s)) MMeta && negb (has_pending_flow s)
                        then run_m fo rf else ret tt)
                       (if mode_eqb (cmode (cx s)) MMeta && negb (has_pending_flow s)
                        then run_m fo rf else ret tt)).
    { destruct (mode_eqb (cmode (cx s)) MMeta && negb (has_pending_flow s)); [apply R_run_m|apply R_ret]. }
    rewrite <- (H0 s).
    destruct ((if mode_eqb (cmode (cx s)) MMeta && negb (has_pending_flow s) then run_m fo rf else ret tt) s)
      as [u s0|k p s0| |]; cbn [res_map]; try reflexivity.
    rewrite <- (R_get_token pr s0).
    destruct (get_token pr s0) as [tk s1|k p s1| |]; cbn [res_map]; try reflexivity.
    destruct tk as [|name|v]; try reflexivity.
    - rewrite bad_word_erase.
      rewrite <- (R_build_word fo pr rf f name s1).
      change (top_function_flow (erase_log s1)) with (top_function_flow s1).
      assert (Hw : match res_map erase_log (build_word fo pr rf f name s1) with
                   | ROk _ s2 => calls_bad fo pr rf dl f depth s2 | _ => false end =
                   match build_word fo pr rf f name s1 with
                   | ROk _ s2 => calls_bad fo pr rf dl f depth s2 | _ => false end).
      { destruct (build_word fo pr rf f name s1); cbn [res_map]; try reflexivity. apply IH. }
      rewrite Hw.
      destruct (top_function_flow s1) as [[[a b] ls]|]; [|reflexivity].
      destruct (rposition ls name 0 None) as [i|]; [|reflexivity].
      rewrite <- (R_code_emit (OLoadLocal i) s1).
      destruct (code_emit (OLoadLocal i) s1); cbn [res_map]; try reflexivity. apply IH.
    - rewrite <- (R_code_emit_value v s1).
      destruct (code_emit_value v s1); cbn [res_map]; try reflexivity. apply IH.
  Qed.
End Watch.

Theorem six_way : forall fo pr rf fuel src s s1,
  idle_top s ->
  (context_open MEval ;; intern_source src) s = ROk tt s1 ->
  calls_bad fo pr rf 0 fuel (length (nested s1)) s1 = false ->
  forall r r',
    compile_stepped fo pr rf fuel src s r ->
    compile_stepped fo pr rf fuel src (erase_log s) r' ->
    let E := eval fo pr rf fuel src s in
    (compile fo pr rf fuel src ;; run_m fo rf) s = E /\
    r = E /\
    eval fo pr rf fuel src (erase_log s) = res_map erase_log E /\
    (compile fo pr rf fuel src ;; run_m fo rf) (erase_log s) = res_map erase_log E /\
    r' = res_map erase_log E.
Proof.
  intros fo pr rf fuel src s s1 Hi Ho Hc r r' Hr Hr' E.
  assert (E1 : (compile fo pr rf fuel src ;; run_m fo rf) s = E)
    by (symmetry; exact (eval_is_compile_run fo pr rf fuel src s s1 Hi Ho Hc)).
  assert (E2 : (compile fo pr rf fuel src ;; run_m fo rf) (erase_log s) = res_map erase_log E)
    by (rewrite <- recording_transparent_compile_run, E1; reflexivity).
  split; [exact E1|]. split.
  - rewrite <- E1. symmetry. apply compile_step_is_compile_run. exact Hr.
  - split; [symmetry; apply recording_transparent_eval|]. split; [exact E2|].
    rewrite <- E2. symmetry. apply compile_step_is_compile_run. exact Hr'.
Qed.

(* the hypotheses hold of the recording-off state exactly when they hold of the recording one *)
Theorem six_way_hyps_erase : forall fo pr rf fuel src s s1,
  (context_open MEval ;; intern_source src) s = ROk tt s1 ->
  (context_open MEval ;; intern_source src) (erase_log s) = ROk tt (erase_log s1) /\
  (idle_top (erase_log s) <-> idle_top s) /\
  calls_bad fo pr rf 0 fuel (length (nested (erase_log s1))) (erase_log s1) =
  calls_bad fo pr rf 0 fuel (length (nested s1)) s1.
Proof.
  intros fo pr rf fuel src s s1 Ho. split; [|split].
  - assert (H : R_log (context_open MEval;; intern_source src) (context_open MEval;; intern_source src))
      by rl_solve.
    rewrite <- (H s), Ho. reflexivity.
  - reflexivity.
  - change (nested (erase_log s1)) with (nested s1). apply calls_bad_erase.
Qed.
