(* BuildLog.v (C15): recording is transparent for the builder.
   [R_log m m'] relates two programs: running [m] and erasing the reverse log afterwards is
   running [m'] on the state with the log erased before.  [P_log m] (Proofs/VmDrive.v) is
   [R_log m m].  The two-sided form is what makes [get] compositional: after [let* s := get]
   the continuation on the recording side holds [s], the other one holds [erase_log s]; the
   projections agree by conversion and [put (set_x s v)] is matched by [R_put].
   This file: combinators, the primitives of the builder, tokens, every immediate word that does
   not run the machine, and the [let] pattern builders. *)
From Xeh Require Import Model.Prelude Model.Bits Model.Codec Model.Cell Model.Lexer Model.Fmt
                        Model.Vm Model.Words Model.Build.
From Xeh Require Import Proofs.VmFrame Proofs.VmDrive Proofs.BuildLet Proofs.NoPanicBuild.
Local Notation length := List.length.

#[local] Arguments Z.add : simpl never.
#[local] Arguments Z.sub : simpl never.
#[local] Arguments Z.mul : simpl never.
#[local] Arguments Z.ltb : simpl never.
#[local] Arguments Z.leb : simpl never.
#[local] Arguments Z.eqb : simpl never.
#[local] Arguments Z.of_nat : simpl never.
#[local] Arguments Z.to_nat : simpl never.

Definition R_log {A} (m m' : M A) : Prop := forall s, res_map erase_log (m s) = m' (erase_log s).

Lemma P_log_R A (m : M A) : P_log m -> R_log m m.
Proof. exact (fun H => H). Qed.
Lemma R_P_log A (m : M A) : R_log m m -> P_log m.
Proof. exact (fun H => H). Qed.

Lemma R_ret A (a : A) : R_log (ret a) (ret a).
Proof. intro s. reflexivity. Qed.
Lemma R_fail A k p : R_log (@fail A k p) (@fail A k p).
Proof. intro s. reflexivity. Qed.
Lemma R_unsup A : R_log (@unsup A) (@unsup A).
Proof. intro s. reflexivity. Qed.
Lemma R_panic A : R_log (@panic A) (@panic A).
Proof. intro s. reflexivity. Qed.
Lemma R_bind A B (m m' : M A) (f f' : A -> M B) :
  R_log m m' -> (forall a, R_log (f a) (f' a)) -> R_log (bind m f) (bind m' f').
Proof.
  intros Hm Hf s. unfold bind. rewrite <- (Hm s).
  destruct (m s) as [a s1|k p s1| |]; cbn [res_map]; try reflexivity. apply Hf.
Qed.
Lemma R_get_bind B (k k' : state -> M B) :
  (forall s0, R_log (k s0) (k' (erase_log s0))) -> R_log (bind get k) (bind get k').
Proof. intros H s. unfold bind, get. apply H. Qed.
Lemma R_put s1 : R_log (put s1) (put (erase_log s1)).
Proof. intro s. reflexivity. Qed.
Lemma R_wprog A (m : M A) : wprog all_caps m -> R_log m m.
Proof. exact (wprog_log all_caps A m). Qed.

(* normalisation: a projection of [erase_log s] other than the log is that of [s] *)
Ltac erase_norm :=
  repeat match goal with
         | |- context [?f (erase_log ?s)] => progress change (f (erase_log s)) with (f s)
         end.

(* programs written directly as functions of the state *)
Ltac rl_direct :=
  let s := fresh "s" in
  intro s; cbv zeta; erase_norm;
  repeat match goal with |- context [match ?x with _ => _ end] => destruct x end;
  reflexivity.

Lemma R_code_emit op : R_log (code_emit op) (code_emit op).
Proof. unfold code_emit. rl_direct. Qed.
Lemma R_backpatch pos op : R_log (backpatch pos op) (backpatch pos op).
Proof. unfold backpatch. rl_direct. Qed.
Lemma R_backpatch_jump pos offs : R_log (backpatch_jump pos offs) (backpatch_jump pos offs).
Proof.
  intro s. unfold backpatch_jump. erase_norm.
  destruct (nth_error (code s) pos) as [op|]; [|reflexivity].
  destruct op; try reflexivity; apply R_backpatch.
Qed.
Lemma R_push_flow f : R_log (push_flow f) (push_flow f).
Proof. intro s. reflexivity. Qed.
Lemma R_pop_flow : R_log pop_flow pop_flow.
Proof. unfold pop_flow. rl_direct. Qed.
Lemma R_take_first_cond_flow : R_log take_first_cond_flow take_first_cond_flow.
Proof. unfold take_first_cond_flow. rl_direct. Qed.
Lemma R_dict_insert name e : R_log (dict_insert name e) (dict_insert name e).
Proof. intro s. reflexivity. Qed.
Lemma R_intern_source buf : R_log (intern_source buf) (intern_source buf).
Proof. intro s. reflexivity. Qed.
Lemma R_alloc_heap v : R_log (alloc_heap v) (alloc_heap v).
Proof. unfold alloc_heap. rl_direct. Qed.
Lemma R_context_open m : R_log (context_open m) (context_open m).
Proof. intro s. reflexivity. Qed.
Lemma R_pop_data : R_log pop_data pop_data.
Proof. apply R_wprog. wp_solve. Qed.
Lemma R_vec_collect p : R_log (vec_collect_till_ptr p) (vec_collect_till_ptr p).
Proof. apply R_wprog. wp_solve. Qed.
Lemma R_join_str_vec sep v : R_log (join_str_vec sep v) (join_str_vec sep v).
Proof. apply R_wprog. wp_solve. Qed.
Lemma R_push_return f : R_log (push_return f) (push_return f).
Proof. apply R_wprog. wp_solve. Qed.
Lemma R_set_ip n : R_log (set_ip n) (set_ip n).
Proof. apply R_wprog. wp_solve. Qed.

Section Tok.
  Variable pr : string -> option Z.

  Lemma next_token_log : forall fuel, R_log (next_token pr fuel) (next_token pr fuel).
  Proof.
    induction fuel as [|f IH]; intro s; cbn [next_token]; [reflexivity|].
    change (input (erase_log s)) with (input s).
    destruct (input s) as [|il rest]; [reflexivity|]. cbv zeta.
    destruct (lex_next_nonws _ _) as [tk l'].
    destruct tk; try reflexivity.
    - apply (IH (set_input (set_last_tok (set_input s (mkinlex (in_src il) l' :: rest))
                                         (Some (in_src il, lstart l', lpos l'))) rest)).
    - destruct (pr text); reflexivity.
  Qed.

  Lemma R_get_token : R_log (get_token pr) (get_token pr).
  Proof.
    intro s. unfold get_token. change (tok_fuel (erase_log s)) with (tok_fuel s). apply next_token_log.
  Qed.

  Lemma R_next_name : R_log (next_name pr) (next_name pr).
  Proof.
    intro s. unfold next_name. cbv zeta. rewrite <- (R_get_token s).
    change (last_tok (erase_log s)) with (last_tok s).
    destruct (get_token pr s) as [tk s1|k p s1| |]; cbn [res_map]; try reflexivity.
    destruct tk; try reflexivity; destruct (last_tok s); reflexivity.
  Qed.
End Tok.

Create HintDb rldb.

Ltac rl_prim :=
  lazymatch goal with
  | |- R_log (ret _) _ => apply R_ret
  | |- R_log (fail _ _) _ => apply R_fail
  | |- R_log unsup _ => apply R_unsup
  | |- R_log panic _ => apply R_panic
  | |- R_log (put _) _ => apply R_put
  | |- R_log (code_emit _) _ => apply R_code_emit
  | |- R_log (backpatch _ _) _ => apply R_backpatch
  | |- R_log (backpatch_jump _ _) _ => apply R_backpatch_jump
  | |- R_log (push_flow _) _ => apply R_push_flow
  | |- R_log pop_flow _ => apply R_pop_flow
  | |- R_log take_first_cond_flow _ => apply R_take_first_cond_flow
  | |- R_log (dict_insert _ _) _ => apply R_dict_insert
  | |- R_log (alloc_heap _) _ => apply R_alloc_heap
  | |- R_log (intern_source _) _ => apply R_intern_source
  | |- R_log (context_open _) _ => apply R_context_open
  | |- R_log (get_token _) _ => apply R_get_token
  | |- R_log (next_name _) _ => apply R_next_name
  | |- R_log pop_data _ => apply R_pop_data
  | |- R_log (vec_collect_till_ptr _) _ => apply R_vec_collect
  | |- R_log (join_str_vec _ _) _ => apply R_join_str_vec
  | |- R_log (push_return _) _ => apply R_push_return
  | |- R_log (set_ip _) _ => apply R_set_ip
  end.

Ltac rl_step :=
  cbv beta zeta;
  first
    [ rl_prim
    | solve [ auto 2 with rldb nocore ]
    | lazymatch goal with
      | |- R_log (bind get _) _ =>
        apply R_get_bind; let s0 := fresh "s0" in intro s0; cbv beta zeta; erase_norm
      | |- R_log (bind _ _) _ => apply R_bind; [ | intro ]
      | |- R_log (match ?x with _ => _ end) _ => destruct x
      | |- R_log ?w _ => let h := head_of w in unfold h
      end ].

Ltac rl_solve := repeat rl_step.

Lemma R_emit_native w : R_log (emit_native w) (emit_native w).
Proof. rl_solve. Qed.
Lemma R_code_emit_value v : R_log (code_emit_value v) (code_emit_value v).
Proof. rl_solve. Qed.
#[export] Hint Resolve R_emit_native R_code_emit_value : rldb.

Lemma R_i_if : R_log i_if i_if. Proof. rl_solve. Qed.
Lemma R_i_else : R_log i_else i_else. Proof. rl_solve. Qed.
Lemma R_i_then : R_log i_then i_then. Proof. rl_solve. Qed.
Lemma R_i_case : R_log i_case i_case. Proof. rl_solve. Qed.
Lemma R_endcase_loop : forall fuel org, R_log (endcase_loop fuel org) (endcase_loop fuel org).
Proof. induction fuel as [|f IH]; intros org; cbn [endcase_loop]; rl_solve. Qed.
Lemma R_i_endcase : R_log i_endcase i_endcase.
Proof. pose proof R_endcase_loop. rl_solve. Qed.
Lemma R_i_of : R_log i_of i_of. Proof. rl_solve. Qed.
Lemma R_i_endof : R_log i_endof i_endof. Proof. rl_solve. Qed.
Lemma R_i_begin : R_log i_begin i_begin. Proof. rl_solve. Qed.
Lemma R_i_until : R_log i_until i_until. Proof. rl_solve. Qed.
Lemma R_i_while : R_log i_while i_while. Proof. rl_solve. Qed.
Lemma R_repeat_loop : forall fuel, R_log (repeat_loop fuel) (repeat_loop fuel).
Proof. induction fuel as [|f IH]; cbn [repeat_loop]; rl_solve. Qed.
Lemma R_i_repeat : R_log i_repeat i_repeat.
Proof. pose proof R_repeat_loop. rl_solve. Qed.
Lemma R_i_break : R_log i_break i_break. Proof. rl_solve. Qed.
Lemma R_i_open f w : R_log (i_open f w) (i_open f w). Proof. rl_solve. Qed.
Lemma R_i_close g w : R_log (i_close g w) (i_close g w). Proof. rl_solve. Qed.
Lemma R_i_def_end : R_log i_def_end i_def_end. Proof. rl_solve. Qed.
Lemma R_i_immediate : R_log i_immediate i_immediate. Proof. rl_solve. Qed.
Lemma R_i_do : R_log i_do i_do. Proof. rl_solve. Qed.
Lemma R_loop_loop : forall fuel lo st, R_log (loop_loop fuel lo st) (loop_loop fuel lo st).
Proof. induction fuel as [|f IH]; intros lo st; cbn [loop_loop]; rl_solve. Qed.
Lemma R_i_loop : R_log i_loop i_loop.
Proof. pose proof R_loop_loop. rl_solve. Qed.
Lemma R_i_foreach : R_log i_foreach i_foreach.
Proof. pose proof R_i_do. rl_solve. Qed.
Lemma R_i_set_fmt_base n : R_log (i_set_fmt_base n) (i_set_fmt_base n).
Proof. rl_solve. Qed.
Lemma R_i_nested_begin : R_log i_nested_begin i_nested_begin.
Proof. rl_solve. Qed.
Lemma R_build_local_variable name : R_log (build_local_variable name) (build_local_variable name).
Proof. rl_solve. Qed.
Lemma R_build_global_variable name : R_log (build_global_variable name) (build_global_variable name).
Proof. rl_solve. Qed.
Lemma R_build_let_named w : R_log (build_let_named w) (build_let_named w).
Proof. pose proof R_build_local_variable. pose proof R_build_global_variable. rl_solve. Qed.
Lemma R_build_let_match v : R_log (build_let_match v) (build_let_match v).
Proof. rl_solve. Qed.
Lemma R_let_vec_next i : R_log (let_vec_next i) (let_vec_next i).
Proof. rl_solve. Qed.
#[export] Hint Resolve R_build_local_variable R_build_global_variable R_build_let_named
  R_build_let_match R_let_vec_next : rldb.

Section Imm.
  Variable pr : string -> option Z.

  Lemma R_i_def_begin_named name : R_log (i_def_begin_named name) (i_def_begin_named name).
  Proof. rl_solve. Qed.
  Lemma R_i_def_begin : R_log (i_def_begin pr) (i_def_begin pr).
  Proof. pose proof R_i_def_begin_named. rl_solve. Qed.
  Lemma R_i_late : R_log (i_late pr) (i_late pr). Proof. rl_solve. Qed.
  Lemma R_i_local : R_log (i_local pr) (i_local pr). Proof. rl_solve. Qed.
  Lemma R_i_var : R_log (i_var pr) (i_var pr). Proof. rl_solve. Qed.
  Lemma R_i_setvar : R_log (i_setvar pr) (i_setvar pr). Proof. rl_solve. Qed.
  Lemma R_i_const : R_log (i_const pr) (i_const pr). Proof. rl_solve. Qed.
  Lemma R_i_defined : R_log (i_defined pr) (i_defined pr). Proof. rl_solve. Qed.

  Lemma R_def_immediate name nat : R_log (def_immediate name nat) (def_immediate name nat).
  Proof. rl_solve. Qed.
  Lemma R_i_enum : R_log (i_enum pr) (i_enum pr).
  Proof. pose proof R_def_immediate. pose proof R_i_nested_begin. rl_solve. Qed.
  Lemma R_m_xint c : R_log (m_xint c) (m_xint c).
  Proof. unfold m_xint. destruct (value c); first [apply R_ret|apply R_fail]. Qed.
  Lemma R_enum_add_field nm val : R_log (enum_add_field nm val) (enum_add_field nm val).
  Proof. pose proof R_i_nested_begin. rl_solve. Qed.

  Lemma R_build_let_in f : R_log (build_let_in pr f) (build_let_in pr f).
  Proof.
    apply (build_let_in_closed pr (fun A m => R_log m m)); intros;
      [apply R_ret|apply R_fail|apply R_unsup|apply R_bind; assumption|apply R_get_token
      |apply R_code_emit|apply R_build_let_named].
  Qed.
End Imm.
