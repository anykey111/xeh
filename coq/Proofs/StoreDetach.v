(* StoreDetach.v (C03): the representation of the result of h_detach / h_append / h_invert /
   h_insert does not depend on who else holds the buffer.

   [h_detach] works in place only when the strong count is 1 AND the handle starts at bit 0;
   in every other case it copies and rebases to bit 0.  So the result handle ALWAYS starts at
   bit 0 and ends at the number of bits of the value:
     (a) range lemmas - unconditional (no invariant, any strong count);
     (b) under [store_inv] the view of the result handle is the value-level operation of
         Bits.v applied to the views of the operands, with the ownership flag [strong = 1]
         ([StoreProofs.h_X_sim]); by Proofs/BitsDetach.v that flag is irrelevant for the range
         and the bits (for append / insert: irrelevant altogether);
     (c) two stores whose operand handles have the same views (or only the same bits) give
         result handles with the same [hstart], [hend] and [habs]. *)
From Xeh Require Import Model.Prelude Model.Bits Model.Store.
From Xeh Require Import Proofs.BitsBasic Proofs.BitsKernel Proofs.BitsLists Proofs.BitsMirror Proofs.BitsProofs.
From Xeh Require Import Proofs.BitsDetach Proofs.StoreProofs.
From Coq Require Import Permutation ZifyBool ZifyNat ZifyN.

Lemma habs_length st h : length (habs st h) = hend h - hstart h.
Proof. unfold habs. rewrite abs_length. reflexivity. Qed.

Lemma h_detach_range : forall st h st' h', h_detach st h = (st', h') ->
  hstart h' = 0 /\ hend h' = hend h - hstart h.
Proof.
  intros st h st' h' E. pose proof (h_detach_view _ _ _ _ E) as N.
  pose proof (f_equal cstart N) as Es. pose proof (f_equal cend N) as Ee.
  rewrite detach_cstart in Es. rewrite detach_cend in Ee. exact (conj Es Ee).
Qed.

Lemma h_make_mut_range : forall st h st' h', h_make_mut st h = (st', h') ->
  hstart h' = hstart h /\ hend h' = hend h.
Proof.
  intros st h st' h'. unfold h_make_mut. cbv zeta.
  destruct (strong (sget st (hptr h)) =? 1).
  - intros E. injection E as <- <-. split; reflexivity.
  - unfold alloc. intros E. injection E as <- <-. split; reflexivity.
Qed.

Lemma h_append_bits_mut_range : forall st h t st' h', h_append_bits_mut st h t = (st', h') ->
  hstart h' = hstart h /\ hend h' = hend h + (hend t - hstart t).
Proof.
  intros st h t st' h'. unfold h_append_bits_mut.
  destruct (h_make_mut st h) as [st1 h1] eqn:E1.
  destruct (h_make_mut_range _ _ _ _ E1) as [R1 R2]. cbv zeta.
  intros E. injection E as <- <-. cbn [hstart hend].
  destruct (append_bits_mut_range (view st1 h1) (view st1 t)) as [-> ->].
  unfold clen. cbn [view cstart cend]. lia.
Qed.

Lemma h_append_range : forall st h t st' h', h_append st h t = (st', h') ->
  hstart h' = 0 /\ hend h' = (hend h - hstart h) + (hend t - hstart t).
Proof.
  intros st h t st' h'. unfold h_append.
  destruct (h_detach st h) as [st1 h1] eqn:E1. intros E.
  destruct (h_detach_range _ _ _ _ E1) as [R1 R2].
  destruct (h_append_bits_mut_range _ _ _ _ _ E) as [R3 R4]. lia.
Qed.

Lemma h_invert_range : forall st h st' h', h_invert st h = (st', h') ->
  hstart h' = 0 /\ hend h' = hend h - hstart h.
Proof.
  intros st h st' h'. unfold h_invert.
  destruct (h_detach st h) as [st1 h1] eqn:E1.
  destruct (h_make_mut st1 h1) as [st2 h2] eqn:E2. cbv zeta.
  intros E. injection E as <- <-.
  destruct (h_detach_range _ _ _ _ E1) as [R1 R2].
  destruct (h_make_mut_range _ _ _ _ E2) as [R3 R4]. lia.
Qed.

Lemma h_insert_range : forall st h i s st' h', h_insert st h i s = Some (st', h') ->
  hstart h + i <= hend h /\
  hstart h' = 0 /\ hend h' = (hend h - hstart h) + (hend s - hstart s).
Proof.
  intros st h i s st' h'. unfold h_insert, split_at. cbv zeta. cbn [view cstart cend cdata].
  destruct (hend h <? hstart h + i) eqn:Ei; [discriminate|].
  destruct (h_detach _ _) as [st2 h2] eqn:E2.
  destruct (h_append_bits_mut st2 h2 s) as [st3 h3] eqn:E3.
  destruct (h_append_bits_mut st3 h3 _) as [st4 h4] eqn:E4.
  intros E. injection E as <- <-.
  destruct (h_detach_range _ _ _ _ E2) as [R1 R2].
  destruct (h_append_bits_mut_range _ _ _ _ _ E3) as [R3 R4].
  destruct (h_append_bits_mut_range _ _ _ _ _ E4) as [R5 R6].
  cbn [hstart hend cstart cend] in *. lia.
Qed.

Lemma h_detach_repr : forall st h L st' h',
  store_inv st (h :: L) -> h_detach st h = (st', h') ->
  hstart h' = 0 /\ hend h' = length (habs st h) /\ habs st' h' = habs st h.
Proof.
  intros st h L st' h' HI E. destruct (h_detach_range _ _ _ _ E) as [R1 R2].
  destruct (h_detach_spec _ _ _ _ _ HI E) as (_ & _ & A & _).
  rewrite habs_length. auto.
Qed.

Lemma h_append_repr : forall st h t L st' h',
  store_inv st (h :: L) -> In t L -> h_append st h t = (st', h') ->
  hstart h' = 0 /\ hend h' = length (habs st h ++ habs st t) /\
  habs st' h' = habs st h ++ habs st t.
Proof.
  intros st h t L st' h' HI Ht E. destruct (h_append_range _ _ _ _ _ E) as [R1 R2].
  destruct (h_append_spec _ _ _ _ _ _ HI Ht E) as (_ & _ & A).
  rewrite app_length, !habs_length. auto.
Qed.

Lemma h_invert_repr : forall st h L st' h',
  store_inv st (h :: L) -> h_invert st h = (st', h') ->
  hstart h' = 0 /\ hend h' = length (habs st h) /\ habs st' h' = map negb (habs st h).
Proof.
  intros st h L st' h' HI E. destruct (h_invert_range _ _ _ _ E) as [R1 R2].
  destruct (h_invert_spec _ _ _ _ _ HI E) as (_ & _ & A).
  rewrite habs_length. auto.
Qed.

Lemma h_insert_repr : forall st h i s L st' h',
  store_inv st (h :: L) -> In s L -> h_insert st h i s = Some (st', h') ->
  hstart h' = 0 /\ hend h' = length (habs st h) + length (habs st s) /\
  habs st' h' = firstn i (habs st h) ++ habs st s ++ skipn i (habs st h).
Proof.
  intros st h i s L st' h' HI Hs E. destruct (h_insert_range _ _ _ _ _ _ E) as (_ & R1 & R2).
  pose proof (h_insert_spec _ _ i _ _ HI Hs) as H. rewrite E in H.
  destruct H as (_ & _ & _ & A). rewrite !habs_length. auto.
Qed.

(* operands with the same BITS (the offsets and the buffers may differ) *)
Lemma h_detach_same_bits : forall st1 h1 L1 st1' h1' st2 h2 L2 st2' h2',
  store_inv st1 (h1 :: L1) -> store_inv st2 (h2 :: L2) ->
  habs st1 h1 = habs st2 h2 ->
  h_detach st1 h1 = (st1', h1') -> h_detach st2 h2 = (st2', h2') ->
  hstart h1' = hstart h2' /\ hend h1' = hend h2' /\ habs st1' h1' = habs st2' h2'.
Proof.
  intros st1 h1 L1 st1' h1' st2 h2 L2 st2' h2' I1 I2 Eh E1 E2.
  destruct (h_detach_repr _ _ _ _ _ I1 E1) as (-> & -> & ->).
  destruct (h_detach_repr _ _ _ _ _ I2 E2) as (-> & -> & ->).
  rewrite Eh. auto.
Qed.

Lemma h_invert_same_bits : forall st1 h1 L1 st1' h1' st2 h2 L2 st2' h2',
  store_inv st1 (h1 :: L1) -> store_inv st2 (h2 :: L2) ->
  habs st1 h1 = habs st2 h2 ->
  h_invert st1 h1 = (st1', h1') -> h_invert st2 h2 = (st2', h2') ->
  hstart h1' = hstart h2' /\ hend h1' = hend h2' /\ habs st1' h1' = habs st2' h2'.
Proof.
  intros st1 h1 L1 st1' h1' st2 h2 L2 st2' h2' I1 I2 Eh E1 E2.
  destruct (h_invert_repr _ _ _ _ _ I1 E1) as (-> & -> & ->).
  destruct (h_invert_repr _ _ _ _ _ I2 E2) as (-> & -> & ->).
  rewrite Eh. auto.
Qed.

Lemma h_insert_same_bits : forall st1 h1 s1 L1 st2 h2 s2 L2 i,
  store_inv st1 (h1 :: L1) -> In s1 L1 -> store_inv st2 (h2 :: L2) -> In s2 L2 ->
  habs st1 h1 = habs st2 h2 -> habs st1 s1 = habs st2 s2 ->
  match h_insert st1 h1 i s1, h_insert st2 h2 i s2 with
  | Some (st1', h1'), Some (st2', h2') =>
    hstart h1' = hstart h2' /\ hend h1' = hend h2' /\ habs st1' h1' = habs st2' h2'
  | None, None => True
  | _, _ => False
  end.
Proof.
  intros st1 h1 s1 L1 st2 h2 s2 L2 i I1 S1 I2 S2 Eh Es.
  pose proof (h_insert_spec _ _ i _ _ I1 S1) as H1. pose proof (h_insert_spec _ _ i _ _ I2 S2) as H2.
  pose proof (f_equal (@length bool) Eh) as EL. rewrite !habs_length in EL.
  destruct (h_insert st1 h1 i s1) as [[st1' h1']|] eqn:E1;
    destruct (h_insert st2 h2 i s2) as [[st2' h2']|] eqn:E2.
  - destruct (h_insert_repr _ _ _ _ _ _ _ I1 S1 E1) as (-> & -> & ->).
    destruct (h_insert_repr _ _ _ _ _ _ _ I2 S2 E2) as (-> & -> & ->).
    rewrite Eh, Es. auto.
  - destruct H1 as [H1 _]. lia.
  - destruct H2 as [H2 _]. lia.
  - exact I.
Qed.

(* for append and insert the WHOLE view of the result (backing bytes included) is the same *)
Lemma h_append_ownership_indep : forall st1 h1 t1 L1 st1' h1' st2 h2 t2 L2 st2' h2',
  store_inv st1 (h1 :: L1) -> In t1 L1 -> store_inv st2 (h2 :: L2) -> In t2 L2 ->
  view st1 h1 = view st2 h2 -> view st1 t1 = view st2 t2 ->
  h_append st1 h1 t1 = (st1', h1') -> h_append st2 h2 t2 = (st2', h2') ->
  hstart h1' = hstart h2' /\ hend h1' = hend h2' /\ habs st1' h1' = habs st2' h2' /\
  view st1' h1' = view st2' h2'.
Proof.
  intros st1 h1 t1 L1 st1' h1' st2 h2 t2 L2 st2' h2' I1 T1 I2 T2 Eh Et E1 E2.
  assert (EV : view st1' h1' = view st2' h2').
  { rewrite (proj2 (proj2 (h_append_sim _ _ _ _ _ _ I1 T1 E1)) false).
    rewrite (proj2 (proj2 (h_append_sim _ _ _ _ _ _ I2 T2 E2)) false), Eh, Et. reflexivity. }
  pose proof (f_equal cstart EV) as Es. pose proof (f_equal cend EV) as Ee.
  cbn [view cstart cend] in Es, Ee.
  split; [exact Es|]. split; [exact Ee|]. split; [apply habs_of_view; exact EV|exact EV].
Qed.

Lemma h_insert_ownership_indep : forall st1 h1 s1 L1 st2 h2 s2 L2 i,
  store_inv st1 (h1 :: L1) -> In s1 L1 -> store_inv st2 (h2 :: L2) -> In s2 L2 ->
  view st1 h1 = view st2 h2 -> view st1 s1 = view st2 s2 ->
  match h_insert st1 h1 i s1, h_insert st2 h2 i s2 with
  | Some (st1', h1'), Some (st2', h2') =>
    hstart h1' = hstart h2' /\ hend h1' = hend h2' /\ habs st1' h1' = habs st2' h2' /\
    view st1' h1' = view st2' h2'
  | None, None => True
  | _, _ => False
  end.
Proof.
  intros st1 h1 s1 L1 st2 h2 s2 L2 i I1 S1 I2 S2 Eh Es.
  pose proof (h_insert_sim _ _ i _ _ I1 S1) as H1. pose proof (h_insert_sim _ _ i _ _ I2 S2) as H2.
  rewrite Eh, Es in H1.
  destruct (h_insert st1 h1 i s1) as [[st1' h1']|]; destruct (h_insert st2 h2 i s2) as [[st2' h2']|].
  - destruct H1 as (_ & _ & N1). destruct H2 as (_ & _ & N2).
    assert (EV : view st1' h1' = view st2' h2').
    { specialize (N1 false). rewrite (N2 false) in N1. congruence. }
    pose proof (f_equal cstart EV) as Ec. pose proof (f_equal cend EV) as Ee.
    cbn [view cstart cend] in Ec, Ee.
    split; [exact Ec|]. split; [exact Ee|]. split; [apply habs_of_view; exact EV|exact EV].
  - destruct H1 as (_ & _ & N1). specialize (N1 false). rewrite (H2 false) in N1. discriminate.
  - destruct H2 as (_ & _ & N2). specialize (N2 false). rewrite (H1 false) in N2. discriminate.
  - exact I.
Qed.
