(* CompileLayout.v: facts about the jump-resolved layout of Struct.v: unfolding equations
   for [size_stmt] / [lay_stmt] (their nested fixpoints are [size_block] / [lay_block]),
   the length of a layout, the algebra of "the code vector contains this list at this
   address", and the well-formedness conditions the simulation theorem needs. *)
From Xeh Require Import Model.Prelude Model.Bits Model.Codec Model.Cell Model.Lexer Model.Fmt
                        Model.Vm Model.Words Model.Struct.
Local Notation length := List.length.

#[local] Arguments Z.add : simpl never.
#[local] Arguments Z.sub : simpl never.
#[local] Arguments Z.mul : simpl never.
#[local] Arguments Z.of_nat : simpl never.
#[local] Arguments Z.to_nat : simpl never.

Definition arm : Type := (list stmt * pos * list stmt)%type.

Section StmtInd.
  Variable P : stmt -> Prop.
  Variable Q : list stmt -> Prop.
  Variable R : list arm -> Prop.
  Hypothesis Hnil : Q [].
  Hypothesis Hcons : forall x r, P x -> Q r -> Q (x :: r).
  Hypothesis Rnil : R [].
  Hypothesis Rcons : forall pre p body r, Q pre -> Q body -> R r -> R ((pre, p, body) :: r).
  Hypothesis HLit : forall c p, P (SLit c p).
  Hypothesis HPrim : forall w p, P (SPrim w p).
  Hypothesis HCall : forall g p, P (SCall g p).
  Hypothesis HGet : forall a p, P (SGet a p).
  Hypothesis HSet : forall a p, P (SSet a p).
  Hypothesis HLocGet : forall i p, P (SLocGet i p).
  Hypothesis HLocSet : forall i p, P (SLocSet i p).
  Hypothesis HIf : forall p t, Q t -> P (SIf p t).
  Hypothesis HIfE : forall p t e, Q t -> Q e -> P (SIfE p t e).
  Hypothesis HCase : forall arms d, R arms -> Q d -> P (SCase arms d).
  Hypothesis HUntil : forall b p, Q b -> P (SUntil b p).
  Hypothesis HRepeat : forall b, Q b -> P (SRepeat b).
  Hypothesis HWhile : forall c p b, Q c -> Q b -> P (SWhile c p b).
  Hypothesis HDo : forall p b pl, Q b -> P (SDo p b pl).
  Hypothesis HBreak : P SBreak.
  Hypothesis HDef : forall g, P (SDef g).

  Fixpoint stmt_ind2 (x : stmt) : P x :=
    let lp := fix lp (l : list stmt) : Q l :=
                match l with
                | [] => Hnil
                | y :: r => Hcons y r (stmt_ind2 y) (lp r)
                end in
    match x with
    | SLit c p => HLit c p
    | SPrim w p => HPrim w p
    | SCall g p => HCall g p
    | SGet a p => HGet a p
    | SSet a p => HSet a p
    | SLocGet i p => HLocGet i p
    | SLocSet i p => HLocSet i p
    | SIf p t => HIf p t (lp t)
    | SIfE p t e => HIfE p t e (lp t) (lp e)
    | SCase arms d =>
      HCase arms d
            ((fix go (l : list arm) : R l :=
                match l with
                | [] => Rnil
                | (pre, p, body) :: r => Rcons pre p body r (lp pre) (lp body) (go r)
                end) arms) (lp d)
    | SUntil b p => HUntil b p (lp b)
    | SRepeat b => HRepeat b (lp b)
    | SWhile c p b => HWhile c p b (lp c) (lp b)
    | SDo p b pl => HDo p b pl (lp b)
    | SBreak => HBreak
    | SDef g => HDef g
    end.

  Fixpoint block_ind2 (l : list stmt) : Q l :=
    match l with
    | [] => Hnil
    | y :: r => Hcons y r (stmt_ind2 y) (block_ind2 r)
    end.
End StmtInd.

Fixpoint size_arms (l : list arm) : nat :=
  match l with
  | [] => 0
  | (pre, _, body) :: r => size_block pre + 1 + size_block body + 1 + size_arms r
  end.

Lemma sb_eq : forall l,
  (fix sb (l : list stmt) : nat := match l with [] => 0 | y :: r => size_stmt y + sb r end) l = size_block l.
Proof. intros. reflexivity. Qed.

Lemma size_SIf : forall p t, size_stmt (SIf p t) = 1 + size_block t.
Proof. intros. cbn [size_stmt]. rewrite sb_eq. reflexivity. Qed.
Lemma size_SIfE : forall p t e, size_stmt (SIfE p t e) = 2 + size_block t + size_block e.
Proof. intros. cbn [size_stmt]. rewrite !sb_eq. reflexivity. Qed.
Lemma size_SUntil : forall b p, size_stmt (SUntil b p) = size_block b + 1.
Proof. intros. cbn [size_stmt]. rewrite sb_eq. reflexivity. Qed.
Lemma size_SRepeat : forall b, size_stmt (SRepeat b) = size_block b + 1.
Proof. intros. cbn [size_stmt]. rewrite sb_eq. reflexivity. Qed.
Lemma size_SWhile : forall c p b, size_stmt (SWhile c p b) = size_block c + 1 + size_block b + 1.
Proof. intros. cbn [size_stmt]. rewrite !sb_eq. reflexivity. Qed.
Lemma size_SDo : forall p b pl, size_stmt (SDo p b pl) = 1 + size_block b + 1.
Proof. intros. cbn [size_stmt]. rewrite sb_eq. reflexivity. Qed.
Lemma size_SCase : forall arms d, size_stmt (SCase arms d) = size_arms arms + size_block d.
Proof.
  intros. reflexivity.
Qed.

Section Lay.
  Variable faddr : nat -> nat.

  Fixpoint lay_arms (bc : brk_ctx) (endp : nat) (l : list arm) (d : list stmt) (o : nat) : list opcode :=
    match l with
    | [] => lay_block faddr d o bc
    | (pre, _, body) :: r =>
      let o1 := o + size_block pre in
      let o2 := S o1 + size_block body in
      lay_block faddr pre o bc ++ (OCaseOf (Z.of_nat (2 + size_block body)) :: lay_block faddr body (S o1) bc)
      ++ (OJump (rel o2 endp) :: lay_arms bc endp r d (S o2))
    end.

  Lemma lb_eq : forall l o bc,
    (fix lb (l : list stmt) (o : nat) (bc : brk_ctx) : list opcode :=
       match l with
       | [] => []
       | y :: r => lay_stmt faddr y o bc ++ lb r (o + size_stmt y) bc
       end) l o bc = lay_block faddr l o bc.
  Proof. intros. reflexivity. Qed.

  Lemma lay_SIf : forall p t org bc,
    lay_stmt faddr (SIf p t) org bc = OJumpIfNot (Z.of_nat (1 + size_block t)) :: lay_block faddr t (S org) bc.
  Proof. intros. cbn [lay_stmt]. rewrite lb_eq. reflexivity. Qed.

  Lemma lay_SIfE : forall p t e org bc,
    lay_stmt faddr (SIfE p t e) org bc =
    (OJumpIfNot (Z.of_nat (2 + size_block t)) :: lay_block faddr t (S org) bc)
    ++ (OJump (Z.of_nat (1 + size_block e)) :: lay_block faddr e (org + 2 + size_block t) bc).
  Proof. intros. cbn [lay_stmt]. rewrite !lb_eq. reflexivity. Qed.

  Lemma lay_SUntil : forall b p org bc,
    lay_stmt faddr (SUntil b p) org bc = lay_block faddr b org BNone ++ [OJumpIfNot (- Z.of_nat (size_block b))%Z].
  Proof. intros. cbn [lay_stmt]. rewrite lb_eq. reflexivity. Qed.

  Lemma lay_SRepeat : forall b org bc,
    lay_stmt faddr (SRepeat b) org bc =
    lay_block faddr b org (BJump (org + size_block b + 1)) ++ [OJump (- Z.of_nat (size_block b))%Z].
  Proof. intros. cbn [lay_stmt]. rewrite lb_eq. reflexivity. Qed.

  Lemma lay_SWhile : forall c p b org bc,
    lay_stmt faddr (SWhile c p b) org bc =
    let nc := size_block c in
    let nb := size_block b in
    let endp := org + nc + 1 + nb + 1 in
    lay_block faddr c org (BJump endp)
    ++ (OJumpIfNot (Z.of_nat (nb + 2)) :: lay_block faddr b (org + nc + 1) (BJump endp))
    ++ [OJump (- Z.of_nat (nc + 1 + nb))%Z].
  Proof. intros. cbn [lay_stmt]. rewrite !lb_eq. reflexivity. Qed.

  Lemma lay_SDo : forall p b pl org bc,
    lay_stmt faddr (SDo p b pl) org bc =
    (ODo (Z.of_nat (size_block b + 2)) :: lay_block faddr b (S org) (BLoop (org + size_block b + 2)))
    ++ [OLoop (- Z.of_nat (size_block b))%Z].
  Proof. intros. cbn [lay_stmt]. rewrite lb_eq. reflexivity. Qed.

  Lemma lay_SCase : forall arms d org bc,
    lay_stmt faddr (SCase arms d) org bc = lay_arms bc (org + size_stmt (SCase arms d)) arms d org.
  Proof.
    intros. cbn [lay_stmt].
    remember (org + size_stmt (SCase arms d)) as endp eqn:E. clear E.
    generalize org. induction arms as [|[[pre p] body] r IH]; intro o.
    - cbn [lay_arms]. apply lb_eq.
    - cbn [lay_arms]. rewrite <- IH. rewrite !lb_eq. reflexivity.
  Qed.

  Definition brk_op (p : nat) (bc : brk_ctx) : opcode :=
    match bc with
    | BJump t => OJump (rel p t)
    | BLoop t => OBreak (rel p t)
    | BNone => ONop
    end.

  Lemma lay_SBreak : forall org bc, lay_stmt faddr SBreak org bc = [brk_op org bc].
  Proof. intros. destruct bc; reflexivity. Qed.

  Lemma lay_length_all :
    (forall x, forall org bc, length (lay_stmt faddr x org bc) = size_stmt x).
  Proof.
    apply (stmt_ind2
             (fun x => forall org bc, length (lay_stmt faddr x org bc) = size_stmt x)
             (fun l => forall org bc, length (lay_block faddr l org bc) = size_block l)
             (fun arms => forall d bc endp o,
                  (forall org bc, length (lay_block faddr d org bc) = size_block d) ->
                  length (lay_arms bc endp arms d o) = size_arms arms + size_block d)).
    - reflexivity.
    - intros x r Hx Hr org bc. cbn [lay_block size_block]. rewrite app_length, Hx, Hr. reflexivity.
    - intros d bc endp o Hd. cbn [lay_arms size_arms]. apply Hd.
    - intros pre p body r Hpre Hbody Hr d bc endp o Hd. cbn [lay_arms size_arms].
      rewrite ?app_length. cbn [length]. rewrite ?app_length. cbn [length].
      rewrite Hpre, Hbody, (Hr d bc endp _ Hd). lia.
    - reflexivity.
    - reflexivity.
    - reflexivity.
    - reflexivity.
    - reflexivity.
    - reflexivity.
    - reflexivity.
    - intros p t Ht org bc. rewrite lay_SIf, size_SIf. cbn [length]. rewrite Ht. reflexivity.
    - intros p t e Ht He org bc. rewrite lay_SIfE, size_SIfE. rewrite app_length. cbn [length]. rewrite Ht, He. lia.
    - intros arms d Ha Hd org bc. rewrite lay_SCase, size_SCase. apply Ha. exact Hd.
    - intros b p Hb org bc. rewrite lay_SUntil, size_SUntil, app_length, Hb. reflexivity.
    - intros b Hb org bc. rewrite lay_SRepeat, size_SRepeat, app_length, Hb. reflexivity.
    - intros c p b Hc Hb org bc. rewrite lay_SWhile, size_SWhile. cbv zeta.
      rewrite ?app_length. cbn [length]. rewrite ?app_length. cbn [length]. rewrite Hc, Hb. lia.
    - intros p b pl Hb org bc. rewrite lay_SDo, size_SDo, app_length. cbn [length]. rewrite Hb. lia.
    - intros org bc. rewrite lay_SBreak. reflexivity.
    - reflexivity.
  Qed.

  Lemma lay_stmt_length : forall x org bc, length (lay_stmt faddr x org bc) = size_stmt x.
  Proof. exact lay_length_all. Qed.

  Lemma lay_block_length : forall l org bc, length (lay_block faddr l org bc) = size_block l.
  Proof.
    induction l as [|x r IH]; intros org bc; [reflexivity|].
    cbn [lay_block size_block]. rewrite app_length, lay_stmt_length, IH. reflexivity.
  Qed.

  Lemma lay_arms_length : forall arms d bc endp o,
    length (lay_arms bc endp arms d o) = size_arms arms + size_block d.
  Proof.
    induction arms as [|[[pre p] body] r IH]; intros d bc endp o; cbn [lay_arms size_arms].
    - apply lay_block_length.
    - rewrite ?app_length. cbn [length]. rewrite ?app_length. cbn [length].
      rewrite !lay_block_length, IH. lia.
  Qed.
End Lay.

Definition code_at (c : list opcode) (org : nat) (l : list opcode) : Prop :=
  forall i op, nth_error l i = Some op -> nth_error c (org + i) = Some op.

Lemma code_at_nil : forall c org, code_at c org [].
Proof. intros c org i op H. destruct i; discriminate. Qed.

Lemma code_at_cons : forall c org x l,
  code_at c org (x :: l) <-> nth_error c org = Some x /\ code_at c (S org) l.
Proof.
  intros c org x l. split.
  - intro H. split.
    + specialize (H 0 x eq_refl). rewrite Nat.add_0_r in H. exact H.
    + intros i op Hi. specialize (H (S i) op Hi). rewrite Nat.add_succ_r in H. exact H.
  - intros [H0 H1] i op Hi. destruct i as [|i].
    + cbn in Hi. injection Hi as <-. rewrite Nat.add_0_r. exact H0.
    + rewrite Nat.add_succ_r. apply (H1 i op Hi).
Qed.

Lemma code_at_app : forall c org a b,
  code_at c org (a ++ b) <-> code_at c org a /\ code_at c (org + length a) b.
Proof.
  intros c org a b. split.
  - intro H. split.
    + intros i op Hi. apply H. rewrite nth_error_app1; [exact Hi|]. apply nth_error_Some. congruence.
    + intros i op Hi. rewrite <- Nat.add_assoc. apply H.
      rewrite nth_error_app2 by lia. replace (length a + i - length a) with i by lia. exact Hi.
  - intros [Ha Hb] i op Hi. destruct (Nat.lt_ge_cases i (length a)) as [Hlt|Hge].
    + rewrite nth_error_app1 in Hi by exact Hlt. apply Ha. exact Hi.
    + rewrite nth_error_app2 in Hi by exact Hge. specialize (Hb _ _ Hi).
      replace (org + i) with (org + length a + (i - length a)) by lia. exact Hb.
Qed.

Lemma code_at_one : forall c org x, code_at c org [x] <-> nth_error c org = Some x.
Proof.
  intros. rewrite code_at_cons. split; [tauto|]. intro H. split; [exact H|apply code_at_nil].
Qed.

Lemma nth_firstn_lt : forall A n (l : list A) i, i < n -> nth_error (firstn n l) i = nth_error l i.
Proof.
  induction n as [|n IH]; intros l i H; [lia|].
  destruct l as [|x l]; [destruct i; reflexivity|]. destruct i as [|i]; [reflexivity|].
  cbn [firstn nth_error]. apply IH. lia.
Qed.

Lemma nth_skipn_add : forall A n (l : list A) i, nth_error (skipn n l) i = nth_error l (n + i).
Proof.
  induction n as [|n IH]; intros l i; [reflexivity|].
  destruct l as [|x l]; [destruct i; reflexivity|]. cbn [skipn Nat.add nth_error]. apply IH.
Qed.

Lemma code_at_slice : forall c org l, firstn (length l) (skipn org c) = l -> code_at c org l.
Proof.
  intros c org l H i op Hi.
  assert (Hlt : i < length l) by (apply nth_error_Some; congruence).
  rewrite <- H in Hi. rewrite nth_firstn_lt in Hi by exact Hlt.
  rewrite nth_skipn_add in Hi. exact Hi.
Qed.

Lemma code_at_middle : forall pre l post, code_at (pre ++ l ++ post) (length pre) l.
Proof.
  intros pre l post i op Hi. rewrite nth_error_app2 by lia.
  replace (length pre + i - length pre) with i by lia.
  rewrite nth_error_app1; [exact Hi|]. apply nth_error_Some. congruence.
Qed.

(* [nb_*]: no `break` that belongs to a loop outside of the tree *)
Inductive nb_s : stmt -> Prop :=
| nb_Lit : forall c p, nb_s (SLit c p)
| nb_Prim : forall w p, nb_s (SPrim w p)
| nb_Call : forall g p, nb_s (SCall g p)
| nb_Get : forall a p, nb_s (SGet a p)
| nb_Set : forall a p, nb_s (SSet a p)
| nb_LocGet : forall i p, nb_s (SLocGet i p)
| nb_LocSet : forall i p, nb_s (SLocSet i p)
| nb_If : forall p t, nb_b t -> nb_s (SIf p t)
| nb_IfE : forall p t e, nb_b t -> nb_b e -> nb_s (SIfE p t e)
| nb_Case : forall arms d, nb_a arms -> nb_b d -> nb_s (SCase arms d)
| nb_Until : forall b p, nb_b b -> nb_s (SUntil b p)
| nb_Repeat : forall b, nb_s (SRepeat b)
| nb_While : forall c p b, nb_s (SWhile c p b)
| nb_Do : forall p b pl, nb_s (SDo p b pl)
| nb_Def : forall g, nb_s (SDef g)
with nb_b : list stmt -> Prop :=
| nb_nil : nb_b []
| nb_cons : forall x r, nb_s x -> nb_b r -> nb_b (x :: r)
with nb_a : list arm -> Prop :=
| nba_nil : nb_a []
| nba_cons : forall pre p body r, nb_b pre -> nb_b body -> nb_a r -> nb_a ((pre, p, body) :: r).

(* [wf_*]: the body of every begin ... until is free of pending breaks (the compiler
   refuses the others: `until` finds a Break on the flow stack) *)
Inductive wf_s : stmt -> Prop :=
| wf_Lit : forall c p, wf_s (SLit c p)
| wf_Prim : forall w p, wf_s (SPrim w p)
| wf_Call : forall g p, wf_s (SCall g p)
| wf_Get : forall a p, wf_s (SGet a p)
| wf_Set : forall a p, wf_s (SSet a p)
| wf_LocGet : forall i p, wf_s (SLocGet i p)
| wf_LocSet : forall i p, wf_s (SLocSet i p)
| wf_If : forall p t, wf_b t -> wf_s (SIf p t)
| wf_IfE : forall p t e, wf_b t -> wf_b e -> wf_s (SIfE p t e)
| wf_Case : forall arms d, wf_a arms -> wf_b d -> wf_s (SCase arms d)
| wf_Until : forall b p, wf_b b -> nb_b b -> wf_s (SUntil b p)
| wf_Repeat : forall b, wf_b b -> wf_s (SRepeat b)
| wf_While : forall c p b, wf_b c -> wf_b b -> wf_s (SWhile c p b)
| wf_Do : forall p b pl, wf_b b -> wf_s (SDo p b pl)
| wf_Break : wf_s SBreak
| wf_Def : forall g, wf_s (SDef g)
with wf_b : list stmt -> Prop :=
| wf_nil : wf_b []
| wf_cons : forall x r, wf_s x -> wf_b r -> wf_b (x :: r)
with wf_a : list arm -> Prop :=
| wfa_nil : wf_a []
| wfa_cons : forall pre p body r, wf_b pre -> wf_b body -> wf_a r -> wf_a ((pre, p, body) :: r).

Definition brk_ok (bc : brk_ctx) (b : list stmt) : Prop := bc = BNone -> nb_b b.
Definition brk_ok_s (bc : brk_ctx) (x : stmt) : Prop := bc = BNone -> nb_s x.
Definition brk_ok_a (bc : brk_ctx) (a : list arm) : Prop := bc = BNone -> nb_a a.

Lemma lay_nb : forall faddr x, nb_s x -> forall org bc bc', lay_stmt faddr x org bc = lay_stmt faddr x org bc'.
Proof.
  intro faddr.
  apply (stmt_ind2
           (fun x => nb_s x -> forall org bc bc', lay_stmt faddr x org bc = lay_stmt faddr x org bc')
           (fun l => nb_b l -> forall org bc bc', lay_block faddr l org bc = lay_block faddr l org bc')
           (fun arms => forall d, (nb_b d -> forall org bc bc', lay_block faddr d org bc = lay_block faddr d org bc') ->
                        nb_a arms -> nb_b d ->
                        forall bc bc' endp o, lay_arms faddr bc endp arms d o = lay_arms faddr bc' endp arms d o));
    try reflexivity.   (* the loops lay their bodies out in a context of their own *)
  - intros x r Hx Hr N org bc bc'. inversion N; subst. cbn [lay_block]. rewrite (Hx H1 org bc bc'), (Hr H2 _ bc bc'). reflexivity.
  - intros d Hd _ Nd bc bc' endp o. cbn [lay_arms]. apply Hd. exact Nd.
  - intros pre p body r Hpre Hbody Hr d Hd N Nd bc bc' endp o. inversion N; subst. cbn [lay_arms]. cbv zeta.
    rewrite (Hpre H2 o bc bc'), (Hbody H4 _ bc bc'), (Hr d Hd H5 Nd bc bc'). reflexivity.
  - intros p t Ht N org bc bc'. inversion N; subst. rewrite !lay_SIf, (Ht H0 _ bc bc'). reflexivity.
  - intros p t e Ht He N org bc bc'. inversion N; subst. rewrite !lay_SIfE, (Ht H1 _ bc bc'), (He H3 _ bc bc'). reflexivity.
  - intros arms d Ha Hd N org bc bc'. inversion N; subst. rewrite !lay_SCase. apply Ha; assumption.
  - intro N. inversion N.
Qed.

Lemma lay_nb_block : forall faddr l, nb_b l -> forall org bc bc', lay_block faddr l org bc = lay_block faddr l org bc'.
Proof.
  intros faddr. induction l as [|x r IH]; intros N org bc bc'; [reflexivity|]. inversion N; subst.
  cbn [lay_block]. rewrite (lay_nb faddr x H1 org bc bc'), (IH H2 _ bc bc'). reflexivity.
Qed.
