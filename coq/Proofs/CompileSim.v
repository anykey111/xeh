(* CompileSim.v: the relation between the state of the structural evaluator (Struct.v) and
   the state of the machine running the laid-out code, and the proof that every program the
   two sides share (the native words, the stack / heap / loop primitives) respects it.

   [sim t s]: the two states agree on EVERY component except
     - the instruction pointer (cip of the current context),
     - the instruction meter,
     - the fn_addr / return_to fields of the frames of the return stack (the evaluator
       pushes [mkframe 0 0 []] for a call, the machine the real addresses); the locals of
       the frames agree.
   [keep s s']: what a shared program leaves alone on the machine side. *)
From Xeh Require Import Model.Prelude Model.Bits Model.Codec Model.Cell Model.Lexer Model.Fmt
                        Model.Vm Model.Words Proofs.WordProg Proofs.VmFrame.
Local Notation length := List.length.

#[local] Arguments Z.add : simpl never.
#[local] Arguments Z.sub : simpl never.
#[local] Arguments Z.mul : simpl never.
#[local] Arguments Z.ltb : simpl never.
#[local] Arguments Z.leb : simpl never.
#[local] Arguments Z.eqb : simpl never.
#[local] Arguments Z.of_nat : simpl never.
#[local] Arguments Z.to_nat : simpl never.

Definition strip (f : frame) : frame := mkframe 0 0 (locals f).
Definition norm (s : state) : state :=
  set_rs (set_meter (set_ip_raw s 0) 0%Z) (map strip (rs s)).
Definition sim (t s : state) : Prop := norm t = norm s.

Definition fkey (f : frame) : nat * nat := (fn_addr f, return_to f).

Definition keep (s s' : state) : Prop :=
  ip s' = ip s /\ meter s' = meter s /\ code s' = code s /\ insn_limit s' = insn_limit s /\
  rlog s' = rlog s /\ map fkey (rs s') = map fkey (rs s).

Lemma sim_refl : forall s, sim s s.
Proof. reflexivity. Qed.
Lemma sim_sym : forall a b, sim a b -> sim b a.
Proof. unfold sim. congruence. Qed.
Lemma sim_trans : forall a b c, sim a b -> sim b c -> sim a c.
Proof. unfold sim. congruence. Qed.

Lemma keep_refl : forall s, keep s s.
Proof. intro s. repeat split. Qed.
Lemma keep_trans : forall a b c, keep a b -> keep b c -> keep a c.
Proof. unfold keep. intros a b c (A1&A2&A3&A4&A5&A6) (B1&B2&B3&B4&B5&B6). repeat split; congruence. Qed.

Lemma sim_ds t s : sim t s -> ds t = ds s.
Proof. intro H. exact (f_equal ds H). Qed.
Lemma sim_heap t s : sim t s -> heap t = heap s.
Proof. intro H. exact (f_equal heap H). Qed.
Lemma sim_code t s : sim t s -> code t = code s.
Proof. intro H. exact (f_equal code H). Qed.
Lemma sim_out t s : sim t s -> out t = out s.
Proof. intro H. exact (f_equal out H). Qed.
Lemma sim_loops t s : sim t s -> loops t = loops s.
Proof. intro H. exact (f_equal loops H). Qed.
Lemma sim_special t s : sim t s -> special t = special s.
Proof. intro H. exact (f_equal special H). Qed.
Lemma sim_dict t s : sim t s -> dict t = dict s.
Proof. intro H. exact (f_equal dict H). Qed.
Lemma sim_rlog t s : sim t s -> rlog t = rlog s.
Proof. intro H. exact (f_equal rlog H). Qed.
Lemma sim_stopping t s : sim t s -> stopping t = stopping s.
Proof. intro H. exact (f_equal stopping H). Qed.
Lemma sim_limits t s : sim t s ->
  insn_limit t = insn_limit s /\ heap_limit t = heap_limit s /\ stack_limit t = stack_limit s.
Proof.
  intro H. split; [exact (f_equal insn_limit H) | split; [exact (f_equal heap_limit H) | exact (f_equal stack_limit H)]].
Qed.
Lemma sim_rs t s : sim t s -> map locals (rs t) = map locals (rs s).
Proof.
  intro H. assert (E : map strip (rs t) = map strip (rs s)) by exact (f_equal rs H).
  apply (f_equal (map locals)) in E. rewrite !map_map in E. exact E.
Qed.
Lemma sim_marks t s : sim t s ->
  ds_len (cx t) = ds_len (cx s) /\ rs_len (cx t) = rs_len (cx s) /\ ls_len (cx t) = ls_len (cx s) /\
  ss_ptr (cx t) = ss_ptr (cx s) /\ cmode (cx t) = cmode (cx s).
Proof.
  intro H. assert (E : cx (norm t) = cx (norm s)) by (rewrite H; reflexivity).
  unfold norm, set_ip_raw in E. cbn [cx set_rs set_meter set_cx] in E.
  injection E as E1 E2 E3 E4 E5 E6 E7 E8. auto.
Qed.

Ltac dstate s :=
  destruct s as [? ? ? ? ? ? ? ? ? ? ? [? ? ? ? ? ? ? ? ?] ? ? ? ? ? ? ? ? ?].

Ltac unf_state :=
  cbv [norm strip set_ip_raw ip
       set_ds set_rs set_loops set_special set_heap set_cx set_rlog set_out set_stopping set_meter
       dict heap code dbg sources input ds rs flows loops special cx nested meter insn_limit
       heap_limit stack_limit rlog out last_tok stopping
       ds_len cs_len rs_len fs_len ls_len ss_ptr di_len cip cmode].

Ltac unf_state_in H :=
  cbv [norm strip set_ip_raw ip
       set_ds set_rs set_loops set_special set_heap set_cx set_rlog set_out set_stopping set_meter
       dict heap code dbg sources input ds rs flows loops special cx nested meter insn_limit
       heap_limit stack_limit rlog out last_tok stopping
       ds_len cs_len rs_len fs_len ls_len ss_ptr di_len cip cmode] in H.

Lemma sim_inv : forall t s, sim t s ->
  t = set_rs (set_meter (set_ip_raw s (ip t)) (meter t)) (rs t) /\ map strip (rs t) = map strip (rs s).
Proof.
  intros t s H. split; [ | exact (f_equal rs H) ].
  dstate t; dstate s. unfold sim in H. unf_state_in H. unf_state.
  injection H. intros. subst. reflexivity.
Qed.

Lemma sim_intro : forall s i m r, map strip r = map strip (rs s) ->
  sim (set_rs (set_meter (set_ip_raw s i) m) r) s.
Proof.
  intros s i m r H. dstate s. unfold sim. unf_state. unf_state_in H. rewrite H. reflexivity.
Qed.

(* updates that commute with [norm] *)
Lemma sim_set_ip_r : forall t s n, sim t s -> sim t (set_ip_raw s n).
Proof. intros t s n H. unfold sim in *. rewrite H. dstate s. reflexivity. Qed.
Lemma sim_set_meter_r : forall t s n, sim t s -> sim t (set_meter s n).
Proof. intros t s n H. unfold sim in *. rewrite H. dstate s. reflexivity. Qed.

Definition rrel {A} (s : state) (rt rs : res A) : Prop :=
  match rt, rs with
  | ROk a t', ROk b s' => a = b /\ sim t' s' /\ keep s s'
  | RErr k p t', RErr k' p' s' => k = k' /\ p = p' /\ sim t' s' /\ keep s s'
  | RPanic, RPanic => True
  | RUnsup, RUnsup => True
  | _, _ => False
  end.

(* a program that cannot tell the two sides apart (recording off) *)
Definition par {A} (m : M A) : Prop :=
  forall t s, sim t s -> rlog s = None -> rrel s (m t) (m s).

Lemma keep_rlog : forall s s', keep s s' -> rlog s = None -> rlog s' = None.
Proof. intros s s' (_&_&_&_&E&_) H. congruence. Qed.

Lemma par_bind : forall A B (m : M A) (f : A -> M B), par m -> (forall a, par (f a)) -> par (bind m f).
Proof.
  intros A B m f Hm Hf t s H Hl. unfold bind. specialize (Hm t s H Hl).
  destruct (m t) as [a t1|k p t1| |], (m s) as [b s1|k' p' s1| |]; cbn [rrel] in Hm; try contradiction; auto.
  destruct Hm as (<- & Hs & Hk).
  specialize (Hf a t1 s1 Hs (keep_rlog _ _ Hk Hl)).
  destruct (f a t1) as [c t2|k p t2| |], (f a s1) as [d s2|k' p' s2| |]; cbn [rrel] in *; try contradiction; auto.
  - destruct Hf as (-> & Hs2 & Hk2). eauto using keep_trans.
  - destruct Hf as (-> & -> & Hs2 & Hk2). eauto 6 using keep_trans.
Qed.

Lemma par_get_bind : forall B (k : state -> M B),
  (forall s0, par (k s0)) ->
  (forall s0 i m r x, k (set_rs (set_meter (set_ip_raw s0 i) m) r) x = k s0 x) ->
  par (bind get k).
Proof.
  intros B k Hk Hinv t s H Hl. unfold bind, get.
  destruct (sim_inv _ _ H) as [E _]. rewrite E at 1. rewrite Hinv. apply Hk; assumption.
Qed.

Ltac break_matches :=
  repeat (match goal with
          | |- context [match ?x with _ => _ end] => is_var x; destruct x
          end; cbv beta iota);
  repeat (match goal with
          | |- context [match ?x with _ => _ end] =>
            lazymatch x with context [match _ with _ => _ end] => fail | _ => idtac end;
            destruct x eqn:?
          end; cbv beta iota).

Ltac par_prim_tac :=
  let t := fresh "t" in let s := fresh "s" in let H := fresh "H" in let Hl := fresh "Hl" in
  intros t s H Hl; dstate t; dstate s; unfold sim in H; unf_state_in H; unf_state_in Hl;
  injection H; intros; subst;
  cbv [rrel push_data pop_data top_data swap_data rot_data over_data
       push_loop pop_loop loop_next loop_set_items push_special pop_special get_var set_var
       print modify ret fail unsup panic
       add_rstep limit_reached data_depth ip set_ip_raw
       set_ds set_rs set_loops set_special set_heap set_cx set_rlog set_out set_stopping set_meter
       dict heap code dbg sources input ds rs flows loops special cx nested meter insn_limit
       heap_limit stack_limit rlog out last_tok stopping
       ds_len cs_len rs_len fs_len ls_len ss_ptr di_len cip cmode];
  break_matches;
  repeat match goal with |- _ /\ _ => split end;
  try reflexivity;
  try (unfold sim; unf_state; congruence);
  try (unfold keep; unf_state; repeat split; reflexivity).

Lemma par_push_data : forall c, par (push_data c).
Proof. intro c. par_prim_tac. Qed.
Lemma par_pop_data : par pop_data.
Proof. par_prim_tac. Qed.
Lemma par_top_data : par top_data.
Proof. par_prim_tac. Qed.
Lemma par_push_loop : forall l, par (push_loop l).
Proof. intro l. par_prim_tac. Qed.
Lemma par_pop_loop : par pop_loop.
Proof. par_prim_tac. Qed.
Lemma par_loop_next : par loop_next.
Proof. par_prim_tac. Qed.

Lemma add_rstep_off : forall r s, rlog s = None -> add_rstep r s = s.
Proof. intros r s H. unfold add_rstep. rewrite H. reflexivity. Qed.

Lemma sim_set_rs : forall t s a b, sim t s -> map strip a = map strip b -> sim (set_rs t a) (set_rs s b).
Proof.
  intros t s a b H E. dstate t; dstate s. unfold sim in *. unf_state_in H. unf_state. unf_state_in E.
  injection H; intros; subst. rewrite E. reflexivity.
Qed.

Lemma sim_rs_strip : forall t s, sim t s -> map strip (rs t) = map strip (rs s).
Proof. intros t s H. exact (f_equal rs H). Qed.

Lemma sim_rs_length : forall t s, sim t s -> length (rs t) = length (rs s).
Proof. intros t s H. apply sim_rs_strip in H. apply (f_equal (@length _)) in H. rewrite !map_length in H. exact H. Qed.

Lemma keep_set_rs : forall s b, map fkey b = map fkey (rs s) -> keep s (set_rs s b).
Proof. intros s b H. unfold keep. repeat split; try reflexivity. exact H. Qed.

Lemma par_init_local : forall i v, par (init_local i v).
Proof.
  intros i v t s H Hl. unfold init_local.
  pose proof (sim_rs_strip _ _ H) as Hr. pose proof (sim_rs_length _ _ H) as Hn.
  destruct (sim_marks _ _ H) as (_ & Hm & _). rewrite Hm, Hn.
  assert (Hlt : rlog t = None) by (rewrite (sim_rlog _ _ H); exact Hl).
  destruct (rs t) as [|ft rt] eqn:Et, (rs s) as [|fs rs'] eqn:Es; cbn [map] in Hr; try discriminate.
  - cbn [rrel]. auto using keep_refl.
  - injection Hr as Hl0 Hr.
    destruct (rs_len (cx s) <? length (fs :: rs')).
    + cbn [rrel]. split; [reflexivity|].
      rewrite !add_rstep_off by (cbn [rlog set_rs]; assumption).
      split.
      * apply sim_set_rs; [assumption|]. cbn [map]. unfold strip at 1 3. cbn [locals]. rewrite Hl0, Hr. reflexivity.
      * apply keep_set_rs. rewrite Es. reflexivity.
    + cbn [rrel]. auto using keep_refl.
Qed.

(* [top_frame]: the two sides see frames with the same locals *)
Lemma par_top_frame_bind : forall B (k : frame -> M B),
  (forall f, par (k f)) ->
  (forall f a r x, k (mkframe a r (locals f)) x = k f x) ->
  par (bind top_frame k).
Proof.
  intros B k Hk Hinv t s H Hl. unfold bind, top_frame.
  pose proof (sim_rs_strip _ _ H) as Hr. pose proof (sim_rs_length _ _ H) as Hn.
  destruct (sim_marks _ _ H) as (_ & Hm & _). rewrite Hm, Hn.
  destruct (rs t) as [|ft rt] eqn:Et, (rs s) as [|fs rs'] eqn:Es; cbn [map] in Hr; try discriminate.
  - cbn [rrel]. auto using keep_refl.
  - injection Hr as Hl0 Hr.
    destruct (rs_len (cx s) <? length (fs :: rs')).
    + replace (k ft t) with (k fs t).
      * apply Hk; assumption.
      * rewrite <- (Hinv fs (fn_addr ft) (return_to ft)). rewrite <- Hl0. destruct ft; reflexivity.
    + cbn [rrel]. auto using keep_refl.
Qed.

(* a program without frames and ip runs the same way on both sides: the view is the same *)
Lemma wprog_par c A (m : M A) : c_frame c = false -> c_ip c = false -> wprog c m -> par m.
Proof.
  intros Hf Hi H. induction H; try congruence; try (par_prim_tac; fail).
  - apply par_bind; assumption.
  - apply par_get_bind; [assumption|]. intros s0 i m r x.
    rewrite (view_determines _ k H1 (set_rs (set_meter (set_ip_raw s0 i) m) r) s0 eq_refl). reflexivity.
Qed.

Definition loop_caps : caps := mkcaps false false false true false true false.

Ltac par_solve := apply (wprog_par loop_caps); [ reflexivity | reflexivity | wp_solve ].

Lemma par_pop_n : forall n, par (pop_n n).
Proof. intro n. par_solve. Qed.
Lemma par_push_all : forall l, par (push_all l).
Proof. intro l. par_solve. Qed.

(* every native word runs the same way on the evaluator's state and on the machine's:
   none of them reads or changes the instruction pointer, the meter or the return stack *)
Theorem native_par : forall fo w f, native_fn fo w = Some f -> par f.
Proof. intros fo w f H. exact (wprog_par (caps_of w) _ _ eq_refl eq_refl (native_wprog fo w f H)). Qed.

Lemma par_do_init : par do_init.
Proof. par_solve. Qed.
Lemma par_cond : par (let* c := pop_data in m_cond c).
Proof. par_solve. Qed.
Lemma par_load : forall a, par (let* v := get_var a in push_data v).
Proof. intro a. par_solve. Qed.
Lemma par_store : forall a, par (let* v := pop_data in set_var a v).
Proof. intro a. par_solve. Qed.
Lemma par_initlocal : forall i, par (let* v := pop_data in init_local i v).
Proof. intro i. apply par_bind; [par_solve|]. intro v. apply par_init_local. Qed.
Lemma par_loadlocal : forall i,
  par (let* fr := top_frame in
       match nth_error (locals fr) i with
       | Some v => push_data v
       | None => fail ELocalOob None
       end).
Proof.
  intro i. apply par_top_frame_bind; [|intros; reflexivity].
  intro f. destruct (nth_error (locals f) i); par_solve.
Qed.
Lemma par_caseof : par (let* a := pop_data in let* b := top_data in ret (cell_eqb a b)).
Proof. par_solve. Qed.
