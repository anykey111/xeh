(* F64cProofs.v: correctness facts about the integer-arithmetic conversions of Model/F64c.v
   (mirrors of Rust's `as` casts between i128 / f64 / f32 and of f64::round). *)
From Xeh Require Import Model.Prelude Model.Cell Model.F64c Proofs.ArithNum.
From Coq Require Import ZifyBool.
Local Ltac Zify.zify_post_hook ::= Z.div_mod_to_equations.
Local Open Scope Z_scope.

Lemma p52 : 2 ^ 52 = 4503599627370496. Proof. reflexivity. Qed.
Lemma p53 : 2 ^ 53 = 9007199254740992. Proof. reflexivity. Qed.
Lemma p63 : 2 ^ 63 = 9223372036854775808. Proof. reflexivity. Qed.
Lemma p64 : 2 ^ 64 = 18446744073709551616. Proof. reflexivity. Qed.

Lemma f64_fields s e m : 0 <= e < 2048 -> 0 <= m < 2 ^ 52 ->
  let p := f64_sign_bit s + e * 2 ^ 52 + m in
  f64_pat p /\ f64_exp p = e /\ f64_man p = m /\ f64_neg p = s.
Proof.
  intros He Hm p. unfold f64_pat.
  assert (Hs : f64_sign_bit s = if s then 2 ^ 63 else 0) by reflexivity.
  assert (Hp : 0 <= p < 2 ^ 64).
  { unfold p. rewrite Hs. rewrite p52 in *. rewrite p63, p64. destruct s; lia. }
  split; [exact Hp|]. split; [|split].
  - unfold f64_exp. rewrite Z.shiftr_div_pow2 by lia. unfold p. rewrite Hs.
    rewrite p52 in *. rewrite ?p63. destruct s; lia.
  - unfold f64_man, p. rewrite Hs. rewrite p52 in *. rewrite ?p63. destruct s; lia.
  - unfold f64_neg. rewrite testbit63 by exact Hp. unfold p. rewrite Hs.
    rewrite p52 in *. rewrite ?p63. destruct s; lia.
Qed.

Lemma f64_decompose p : f64_pat p ->
  p = f64_sign_bit (f64_neg p) + f64_exp p * 2 ^ 52 + f64_man p /\
  0 <= f64_exp p < 2048 /\ 0 <= f64_man p < 2 ^ 52.
Proof.
  intros Hp. unfold f64_pat in Hp. unfold f64_neg, f64_exp, f64_man, f64_sign_bit.
  rewrite testbit63 by exact Hp. rewrite Z.shiftr_div_pow2 by lia.
  rewrite p52, p63 in *. rewrite p64 in Hp.
  destruct (9223372036854775808 <=? p) eqn:E; lia.
Qed.

Lemma bitlen_spec a : 0 < a -> 1 <= bitlen a /\ 2 ^ (bitlen a - 1) <= a < 2 ^ bitlen a.
Proof.
  intros H. unfold bitlen. replace (a <=? 0) with false by lia.
  pose proof (Z.log2_nonneg a). pose proof (Z.log2_spec a H) as S.
  replace (Z.log2 a + 1 - 1) with (Z.log2 a) by lia. replace (Z.succ (Z.log2 a)) with (Z.log2 a + 1) in S by lia.
  split; [lia|exact S].
Qed.

Lemma bitlen_unique a L : 1 <= L -> 2 ^ (L - 1) <= a < 2 ^ L -> bitlen a = L.
Proof.
  intros HL H. assert (0 < a).
  { assert (0 < 2 ^ (L - 1)) by (apply Z.pow_pos_nonneg; lia). lia. }
  unfold bitlen. replace (a <=? 0) with false by lia.
  rewrite (Z.log2_unique a (L - 1)); [lia|lia|]. replace (Z.succ (L - 1)) with L by lia. exact H.
Qed.

Lemma bitlen_le a n : 0 < a < 2 ^ n -> 0 <= n -> bitlen a <= n.
Proof.
  intros H Hn. destruct (bitlen_spec a ltac:(lia)) as (H1 & H2 & H3).
  destruct (Z.le_gt_cases (bitlen a) n) as [|G]; [assumption|exfalso].
  assert (2 ^ n <= 2 ^ (bitlen a - 1)) by (apply Z.pow_le_mono_r; lia). lia.
Qed.

Lemma bitlen_bound a n : 0 <= n -> a < 2 ^ n -> bitlen a <= n.
Proof.
  intros Hn H. destruct (Z.leb_spec a 0) as [L|L].
  - unfold bitlen. replace (a <=? 0) with true by lia. exact Hn.
  - apply bitlen_le; [split|]; assumption.
Qed.

Lemma normalise a : 0 < a < 2 ^ 53 ->
  let L := bitlen a in
  1 <= L <= 53 /\ 2 ^ 52 <= a * 2 ^ (53 - L) < 2 ^ 53.
Proof.
  intros H L. destruct (bitlen_spec a ltac:(lia)) as (H1 & H2 & H3). fold L in H1, H2, H3.
  assert (HL : L <= 53) by (apply bitlen_le; lia).
  split; [lia|].
  assert (Hk : 0 < 2 ^ (53 - L)) by (apply Z.pow_pos_nonneg; lia).
  assert (E1 : 2 ^ (L - 1) * 2 ^ (53 - L) = 2 ^ 52).
  { rewrite <- Z.pow_add_r by lia. f_equal. lia. }
  assert (E2 : 2 ^ L * 2 ^ (53 - L) = 2 ^ 53).
  { rewrite <- Z.pow_add_r by lia. f_equal. lia. }
  split.
  - rewrite <- E1. apply Z.mul_le_mono_nonneg_r; lia.
  - rewrite <- E2. apply Z.mul_lt_mono_pos_r; lia.
Qed.

Theorem f64_int_round_trip z : Z.abs z < 2 ^ 53 -> f64_to_int (f64_of_int z) = z.
Proof.
  intros Hz. unfold f64_of_int, f64_of_mag.
  destruct (Z.eqb_spec (Z.abs z) 0) as [E0|E0].
  - assert (z = 0) by lia. subst z. reflexivity.
  - set (a := Z.abs z) in *. assert (Ha : 0 < a < 2 ^ 53) by (unfold a; lia).
    destruct (normalise a Ha) as (HL & HA). cbv zeta in HL, HA. cbv zeta.
    set (L := bitlen a) in *. replace (L <=? 53) with true by lia.
    set (A := a * 2 ^ (53 - L)) in *.
    destruct (f64_fields (z <? 0) (L + 1022) (A - 2 ^ 52) ltac:(lia) ltac:(rewrite p52, p53 in *; lia))
      as (Fp & Fe & Fm & Fs).
    set (p := f64_sign_bit (z <? 0) + (L + 1022) * 2 ^ 52 + (A - 2 ^ 52)) in *.
    unfold f64_to_int, f64_is_nan, f64_mant, f64_ex. rewrite Fe, Fm, Fs.
    replace (L + 1022 =? 2047) with false by lia. cbn [andb].
    replace (L + 1022 =? 0) with false by lia.
    replace (2 ^ 52 + (A - 2 ^ 52)) with A by lia.
    assert (Hmag : (if 0 <=? L + 1022 - 1075
                    then if 200 <? L + 1022 - 1075 then 2 ^ 200 else A * 2 ^ (L + 1022 - 1075)
                    else A / 2 ^ (- (L + 1022 - 1075))) = a).
    { destruct (Z.eq_dec L 53) as [E|E].
      - replace (0 <=? L + 1022 - 1075) with true by lia.
        replace (200 <? L + 1022 - 1075) with false by lia.
        replace (L + 1022 - 1075) with 0 by lia. unfold A. rewrite E. change (2 ^ (53 - 53)) with 1.
        change (2 ^ 0) with 1. lia.
      - replace (0 <=? L + 1022 - 1075) with false by lia.
        replace (- (L + 1022 - 1075)) with (53 - L) by lia. unfold A.
        apply Z.div_mul. assert (0 < 2 ^ (53 - L)) by (apply Z.pow_pos_nonneg; lia). lia. }
    rewrite Hmag. unfold i128_min, i128_max. rewrite two127_val. rewrite p53 in Ha.
    destruct (z <? 0) eqn:Es;
      repeat match goal with |- context [if ?b then _ else _] => destruct b eqn:? end; lia.
Qed.

(* finite, and (below 2^52 in magnitude) the significand has no bits under the binary point *)
Definition f64_integral (p : Z) : Prop :=
  f64_exp p <> 2047 /\ (f64_exp p < 1075 -> f64_mant p mod 2 ^ (- f64_ex p) = 0).

Theorem f64_round_integral p : f64_pat p -> f64_integral p -> f64_round p = p.
Proof.
  intros Hp [Hfin Hint]. destruct (f64_decompose p Hp) as (Ep & He & Hm).
  unfold f64_round. replace (f64_exp p =? 2047) with false by lia.
  destruct (1075 <=? f64_exp p) eqn:E1; [reflexivity|].
  specialize (Hint ltac:(lia)). cbv zeta. rewrite Hint.
  unfold f64_mant, f64_ex in *.
  destruct (Z.eqb_spec (f64_exp p) 0) as [E0|E0].
  - (* zero (a subnormal is not integer-valued) *)
    change (- -1074) with 1074 in *.
    assert (Hsmall : f64_man p < 2 ^ 1074).
    { assert (2 ^ 52 <= 2 ^ 1074) by (apply Z.pow_le_mono_r; lia). lia. }
    rewrite Z.mod_small in Hint by lia. rewrite Hint.
    rewrite Z.div_0_l by (apply Z.pow_nonzero; lia).
    replace (2 ^ (1074 - 1) <=? 0) with false.
    2:{ assert (0 < 2 ^ (1074 - 1)) by (apply Z.pow_pos_nonneg; lia). lia. }
    unfold f64_of_mag. change (0 =? 0) with true. cbv iota.
    rewrite Ep at 2. rewrite E0, Hint. lia.
  - set (k := - (f64_exp p - 1075)) in *. assert (Hk : 1 <= k <= 1074) by (unfold k; lia).
    set (m := 2 ^ 52 + f64_man p) in *.
    assert (Hmr : 2 ^ 52 <= m < 2 ^ 53) by (unfold m; rewrite p52, p53 in *; lia).
    assert (Hpk : 0 < 2 ^ k) by (apply Z.pow_pos_nonneg; lia).
    assert (Hpk1 : 0 < 2 ^ (k - 1)) by (apply Z.pow_pos_nonneg; lia).
    replace (2 ^ (k - 1) <=? 0) with false by lia.
    set (q := m / 2 ^ k).
    assert (Eq : m = q * 2 ^ k).
    { unfold q. pose proof (Z.div_mod m (2 ^ k) ltac:(lia)) as D. rewrite Hint in D. lia. }
    assert (Hk52 : k <= 52).
    { destruct (Z.le_gt_cases k 52) as [|G]; [assumption|exfalso].
      assert (2 ^ 53 <= 2 ^ k) by (apply Z.pow_le_mono_r; lia).
      assert (q = 0) by (unfold q; apply Z.div_small; lia). rewrite H0 in Eq. rewrite p52 in Hmr. lia. }
    assert (E1' : 2 ^ (52 - k) * 2 ^ k = 2 ^ 52) by (rewrite <- Z.pow_add_r by lia; f_equal; lia).
    assert (E2' : 2 ^ (53 - k) * 2 ^ k = 2 ^ 53) by (rewrite <- Z.pow_add_r by lia; f_equal; lia).
    assert (Hq : 2 ^ (52 - k) <= q < 2 ^ (53 - k)).
    { split.
      - apply (Z.mul_le_mono_pos_r _ _ (2 ^ k) Hpk). rewrite E1', <- Eq. lia.
      - apply (Z.mul_lt_mono_pos_r (2 ^ k) _ _ Hpk). rewrite E2', <- Eq. lia. }
    assert (HL : bitlen q = 53 - k).
    { apply bitlen_unique; [lia|]. replace (53 - k - 1) with (52 - k) by lia. exact Hq. }
    assert (Hq0 : 0 < q).
    { assert (0 < 2 ^ (52 - k)) by (apply Z.pow_pos_nonneg; lia). lia. }
    unfold f64_of_mag. replace (q =? 0) with false by lia. cbv zeta. rewrite HL.
    replace (53 - k <=? 53) with true by lia.
    replace (53 - (53 - k)) with k by lia. rewrite <- Eq.
    rewrite Ep at 2. unfold m, k. lia.
Qed.

Lemma q23 : 2 ^ 23 = 8388608. Proof. reflexivity. Qed.
Lemma q24 : 2 ^ 24 = 16777216. Proof. reflexivity. Qed.
Lemma q29 : 2 ^ 29 = 536870912. Proof. reflexivity. Qed.
Lemma q31 : 2 ^ 31 = 2147483648. Proof. reflexivity. Qed.
Lemma q32 : 2 ^ 32 = 4294967296. Proof. reflexivity. Qed.

Definition f32_pat (p : Z) : Prop := 0 <= p < 2 ^ 32.
Definition f32_is_nan (p : Z) : bool := ((p / 2 ^ 23) mod 256 =? 255) && negb (p mod 2 ^ 23 =? 0).

Lemma testbit31 p : f32_pat p -> Z.testbit p 31 = (2 ^ 31 <=? p).
Proof.
  unfold f32_pat. intros H. rewrite q32 in H. rewrite q31.
  destruct (Z.testbit p 31) eqn:E.
  - apply Z.testbit_true in E; [|lia]. rewrite q31 in E. lia.
  - apply Z.testbit_false in E; [|lia]. rewrite q31 in E. lia.
Qed.

Lemma f32_decompose p : f32_pat p ->
  p = f32_sign_bit (Z.testbit p 31) + ((p / 2 ^ 23) mod 256) * 2 ^ 23 + p mod 2 ^ 23 /\
  0 <= (p / 2 ^ 23) mod 256 < 256 /\ 0 <= p mod 2 ^ 23 < 2 ^ 23.
Proof.
  intros Hp. rewrite testbit31 by exact Hp. unfold f32_pat, f32_sign_bit in *.
  rewrite q31, q23 in *. rewrite q32 in Hp. destruct (2147483648 <=? p) eqn:E; lia.
Qed.

Lemma rne_shr_exact q k : 0 < k -> 0 <= q -> rne_shr (q * 2 ^ k) k = q.
Proof.
  intros Hk Hq. unfold rne_shr. replace (k <=? 0) with false by lia. cbv zeta.
  assert (Hp : 0 < 2 ^ k) by (apply Z.pow_pos_nonneg; lia).
  assert (Hh : 0 < 2 ^ (k - 1)) by (apply Z.pow_pos_nonneg; lia).
  rewrite Z.div_mul by lia. rewrite Z.mod_mul by lia.
  replace (2 ^ (k - 1) <? 0) with false by lia.
  replace (0 =? 2 ^ (k - 1)) with false by lia. reflexivity.
Qed.

Theorem f32_f64_round_trip p : f32_pat p -> f32_is_nan p = false -> f64_to_f32 (f32_to_f64 p) = p.
Proof.
  intros Hp Hnan. destruct (f32_decompose p Hp) as (Ep & He & Hm).
  unfold f32_is_nan in Hnan. unfold f32_to_f64. cbv zeta.
  set (s := Z.testbit p 31) in *. set (e := (p / 2 ^ 23) mod 256) in *. set (m := p mod 2 ^ 23) in *.
  assert (Hs32 : f32_sign_bit s = if s then 2 ^ 31 else 0) by reflexivity.
  destruct (Z.eqb_spec e 255) as [E255|E255].
  - assert (Hm0 : m = 0) by (destruct (Z.eqb_spec m 0); [assumption|discriminate]).
    rewrite Hm0. change (0 =? 0) with true. cbv iota.
    replace (f64_sign_bit s + 2047 * 2 ^ 52) with (f64_sign_bit s + 2047 * 2 ^ 52 + 0) by lia.
    destruct (f64_fields s 2047 0 ltac:(lia) ltac:(rewrite p52; lia)) as (_ & Fe & Fm & Fs).
    unfold f64_to_f32, f64_is_nan. cbv zeta. rewrite Fe, Fm, Fs. cbn [andb negb].
    change (2047 =? 2047) with true. change (0 =? 0) with true. cbn [andb negb].
    rewrite q23 in *. lia.
  - destruct (Z.eqb_spec e 0) as [E0|E0].
    + destruct (Z.eqb_spec m 0) as [Hm0|Hm0].
      * replace (f64_sign_bit s) with (f64_sign_bit s + 0 * 2 ^ 52 + 0) by lia.
        destruct (f64_fields s 0 0 ltac:(lia) ltac:(rewrite p52; lia)) as (_ & Fe & Fm & Fs).
        unfold f64_to_f32, f64_is_nan, f64_mant. cbv zeta. rewrite Fe, Fm, Fs.
        change (0 =? 2047) with false. change (0 =? 0) with true. cbn [andb negb]. cbv iota.
        change (0 =? 0) with true. cbv iota.
        rewrite q23 in *. lia.
      * (* subnormal binary32: a normal binary64 *)
        assert (Hm53 : 0 < m < 2 ^ 53) by (rewrite q23 in Hm; rewrite p53; lia).
        destruct (normalise m Hm53) as (HL & HA). cbv zeta in HL, HA.
        set (L := bitlen m) in *.
        assert (HL23 : L <= 23) by (apply bitlen_le; lia).
        set (A := m * 2 ^ (53 - L)) in *.
        destruct (f64_fields s (L + 873) (A - 2 ^ 52) ltac:(lia) ltac:(rewrite p52, p53 in *; lia))
          as (_ & Fe & Fm & Fs).
        unfold f64_to_f32, f64_is_nan, f64_mant, f64_ex. cbv zeta. rewrite Fe, Fm, Fs.
        replace (L + 873 =? 2047) with false by lia. cbn [andb].
        replace (L + 873 =? 0) with false by lia.
        replace (2 ^ 52 + (A - 2 ^ 52)) with A by lia.
        replace (A =? 0) with false by (rewrite p52 in HA; lia).
        assert (HbA : bitlen A = 53) by (apply bitlen_unique; [lia|exact HA]).
        rewrite HbA.
        replace (53 - 1 + (L + 873 - 1075) <? -126) with true by lia.
        replace (- (L + 873 - 1075 + 149)) with (53 - L) by lia.
        unfold A. rewrite rne_shr_exact by lia.
        rewrite q23 in *. lia.
    + assert (Hm52 : 0 <= m * 2 ^ 29 < 2 ^ 52) by (rewrite q23 in Hm; rewrite q29, p52; lia).
      destruct (f64_fields s (e + 896) (m * 2 ^ 29) ltac:(lia) Hm52) as (_ & Fe & Fm & Fs).
      unfold f64_to_f32, f64_is_nan, f64_mant, f64_ex. cbv zeta. rewrite Fe, Fm, Fs.
      replace (e + 896 =? 2047) with false by lia. cbn [andb].
      replace (e + 896 =? 0) with false by lia.
      set (M := 2 ^ 52 + m * 2 ^ 29).
      assert (HM : 2 ^ 52 <= M < 2 ^ 53) by (unfold M; rewrite p52, p53 in *; lia).
      replace (M =? 0) with false by (rewrite p52 in HM; lia).
      assert (HbM : bitlen M = 53) by (apply bitlen_unique; [lia|exact HM]).
      rewrite HbM.
      replace (53 - 1 + (e + 896 - 1075) <? -126) with false by lia.
      replace (- (e + 896 - 1075 - (53 - 1 + (e + 896 - 1075) - 23))) with 29 by lia.
      assert (EM : M = (2 ^ 23 + m) * 2 ^ 29).
      { unfold M. rewrite p52, q23, q29. lia. }
      rewrite EM, rne_shr_exact by (rewrite ?q23; lia).
      replace (2 ^ 23 + m =? 2 ^ 24) with false by (rewrite q23, q24 in *; lia).
      cbv beta iota.
      replace (127 <? 53 - 1 + (e + 896 - 1075)) with false by lia.
      rewrite q23 in *. lia.
Qed.

(* the significand field before packing: in [2^52, 2^53] (2^53 when rounding carries) *)
Definition sig_of (a : Z) : Z :=
  let L := bitlen a in if L <=? 53 then a * 2 ^ (53 - L) else rne_shr a (L - 53).
Definition mag_pat (a : Z) : Z := if a =? 0 then 0 else (bitlen a + 1021) * 2 ^ 52 + sig_of a.

Lemma f64_of_mag_pat s a : f64_of_mag s a = f64_sign_bit s + mag_pat a.
Proof.
  unfold f64_of_mag, mag_pat, sig_of. cbv zeta. destruct (a =? 0); [lia|].
  destruct (bitlen a <=? 53); [lia|].
  destruct (Z.eqb_spec (rne_shr a (bitlen a - 53)) (2 ^ 53)) as [->|]; rewrite ?p52, ?p53; lia.
Qed.

Lemma rne_shr_bounds a k : 0 <= a -> 0 < k -> a / 2 ^ k <= rne_shr a k <= a / 2 ^ k + 1.
Proof.
  intros Ha Hk. unfold rne_shr. replace (k <=? 0) with false by lia. cbv zeta.
  destruct ((2 ^ (k - 1) <? a mod 2 ^ k) || ((a mod 2 ^ k =? 2 ^ (k - 1)) && Z.odd (a / 2 ^ k))); lia.
Qed.

Lemma rne_shr_mono a1 a2 k : 0 <= a1 <= a2 -> 0 < k -> rne_shr a1 k <= rne_shr a2 k.
Proof.
  intros Ha Hk.
  assert (Hd : 0 < 2 ^ k) by (apply Z.pow_pos_nonneg; lia).
  pose proof (Z.div_le_mono a1 a2 (2 ^ k) Hd ltac:(lia)) as Hq.
  destruct (Z.eq_dec (a1 / 2 ^ k) (a2 / 2 ^ k)) as [E|E].
  - pose proof (Z.div_mod a1 (2 ^ k) ltac:(lia)) as D1. pose proof (Z.div_mod a2 (2 ^ k) ltac:(lia)) as D2.
    assert (Hr : a1 mod 2 ^ k <= a2 mod 2 ^ k) by (rewrite E in D1; lia).
    unfold rne_shr. replace (k <=? 0) with false by lia. cbv zeta. rewrite E.
    set (q := a2 / 2 ^ k) in *. set (r1 := a1 mod 2 ^ k) in *. set (r2 := a2 mod 2 ^ k) in *.
    set (h := 2 ^ (k - 1)) in *.
    destruct (Z.odd q); rewrite ?Bool.andb_true_r, ?Bool.andb_false_r, ?Bool.orb_false_r;
      repeat match goal with |- context [if ?b then _ else _] => destruct b eqn:? end; lia.
  - pose proof (rne_shr_bounds a1 k ltac:(lia) Hk). pose proof (rne_shr_bounds a2 k ltac:(lia) Hk). lia.
Qed.

Lemma sig_of_range a : 0 < a -> 2 ^ 52 <= sig_of a <= 2 ^ 53.
Proof.
  intros Ha. unfold sig_of. cbv zeta. destruct (bitlen_spec a Ha) as (H1 & H2 & H3).
  set (L := bitlen a) in *. destruct (Z.leb_spec L 53) as [HL|HL].
  - assert (a < 2 ^ 53).
    { assert (2 ^ L <= 2 ^ 53) by (apply Z.pow_le_mono_r; lia). lia. }
    destruct (normalise a ltac:(lia)) as (_ & HA). cbv zeta in HA. fold L in HA. lia.
  - set (k := L - 53). assert (Hk : 0 < k) by (unfold k; lia).
    assert (Hd : 0 < 2 ^ k) by (apply Z.pow_pos_nonneg; lia).
    assert (E1 : 2 ^ 52 * 2 ^ k = 2 ^ (L - 1)) by (rewrite <- Z.pow_add_r by lia; f_equal; unfold k; lia).
    assert (E2 : 2 ^ 53 * 2 ^ k = 2 ^ L) by (rewrite <- Z.pow_add_r by lia; f_equal; unfold k; lia).
    assert (Hq : 2 ^ 52 <= a / 2 ^ k < 2 ^ 53).
    { split.
      - apply Z.div_le_lower_bound; [lia|]. rewrite Z.mul_comm, E1. lia.
      - apply Z.div_lt_upper_bound; [lia|]. rewrite Z.mul_comm, E2. lia. }
    pose proof (rne_shr_bounds a k ltac:(lia) Hk). lia.
Qed.

Lemma bitlen_mono a1 a2 : 0 < a1 <= a2 -> bitlen a1 <= bitlen a2.
Proof.
  intros H. unfold bitlen. replace (a1 <=? 0) with false by lia. replace (a2 <=? 0) with false by lia.
  pose proof (Z.log2_le_mono a1 a2 ltac:(lia)). lia.
Qed.

Lemma mag_pat_mono a1 a2 : 0 <= a1 <= a2 -> mag_pat a1 <= mag_pat a2.
Proof.
  intros H. unfold mag_pat.
  destruct (Z.eqb_spec a1 0) as [E1|E1].
  - destruct (Z.eqb_spec a2 0) as [E2|E2]; [lia|].
    pose proof (sig_of_range a2 ltac:(lia)). destruct (bitlen_spec a2 ltac:(lia)) as (? & _).
    rewrite p52 in *. lia.
  - replace (a2 =? 0) with false by lia.
    pose proof (sig_of_range a1 ltac:(lia)) as R1. pose proof (sig_of_range a2 ltac:(lia)) as R2.
    pose proof (bitlen_mono a1 a2 ltac:(lia)) as HL.
    destruct (Z.eq_dec (bitlen a1) (bitlen a2)) as [EL|EL].
    + rewrite EL. apply Z.add_le_mono_l. unfold sig_of. cbv zeta. rewrite EL.
      destruct (Z.leb_spec (bitlen a2) 53) as [H53|H53].
      * apply Z.mul_le_mono_nonneg_r; [|lia]. apply Z.pow_nonneg. lia.
      * apply rne_shr_mono; lia.
    + rewrite p52, p53 in *. lia.
Qed.

Lemma mag_pat_bound a : 0 <= a < 2 ^ 128 -> 0 <= mag_pat a < 2 ^ 63.
Proof.
  intros H. unfold mag_pat. destruct (Z.eqb_spec a 0) as [E|E]; [rewrite p63; lia|].
  pose proof (sig_of_range a ltac:(lia)) as R. destruct (bitlen_spec a ltac:(lia)) as (H1 & _).
  pose proof (bitlen_le a 128 ltac:(lia) ltac:(lia)). rewrite p52, p53, p63 in *. lia.
Qed.

Lemma f64_key_of_mag s a : 0 <= a < 2 ^ 128 ->
  f64_key (f64_of_mag s a) = if s then - mag_pat a else mag_pat a.
Proof.
  intros H. rewrite f64_of_mag_pat. pose proof (mag_pat_bound a H) as B.
  set (M := mag_pat a) in *. unfold f64_key, f64_neg.
  assert (Hp : 0 <= f64_sign_bit s + M < 2 ^ 64).
  { unfold f64_sign_bit. rewrite p63 in *. rewrite p64. destruct s; lia. }
  rewrite testbit63 by exact Hp. unfold f64_sign_bit. rewrite p63 in *.
  destruct s; repeat match goal with |- context [if ?b then _ else _] => destruct b eqn:? end; lia.
Qed.

Theorem f64_of_int_monotone z1 z2 :
  Z.abs z1 < 2 ^ 128 -> Z.abs z2 < 2 ^ 128 -> z1 <= z2 ->
  f64_key (f64_of_int z1) <= f64_key (f64_of_int z2).
Proof.
  intros H1 H2 Hle. unfold f64_of_int. rewrite !f64_key_of_mag by lia.
  pose proof (mag_pat_bound (Z.abs z1) ltac:(lia)) as B1.
  pose proof (mag_pat_bound (Z.abs z2) ltac:(lia)) as B2.
  destruct (z1 <? 0) eqn:E1, (z2 <? 0) eqn:E2.
  - pose proof (mag_pat_mono (Z.abs z2) (Z.abs z1) ltac:(lia)). lia.
  - lia.
  - lia.
  - pose proof (mag_pat_mono (Z.abs z1) (Z.abs z2) ltac:(lia)). lia.
Qed.
