(* TagClose2.v: the full "tags never change what a value does" statement, close-bitstr included.

   close-bitstr restores the suspended input from the heap cell R_STASH and reads the "offset" tag
   that open-bitstr attached to the stashed input.  That tag is bookkeeping of the bit-string
   module, not a user tag: so the right statement strips every tag of the machine EXCEPT the
   offset tags of the stash entries ([strip_state_off]), and then every native word outside the
   design's exclusion list - close-bitstr too - commutes with stripping
   ([strip_commutes_full_close(_rel)]).

   On the way: [tagwfT_state] (no doubly wrapped tag anywhere, tag maps included) is an invariant
   of EVERY native word (the tag makers and the tag readers included), and close-bitstr run from
   two states related by [srel] whose stash entries carry related offsets gives related results
   ([close_bitstr_rel]). *)
From Xeh Require Import Model.Prelude Model.Bits Model.Codec Model.Cell Model.Lexer Model.Fmt
                        Model.Vm Model.BaseN Model.Words Proofs.BitsProofs Proofs.CellProofs Proofs.CollProofs
                        Proofs.TagProofs Proofs.TagSim Proofs.TagWords Proofs.TagFresh Proofs.WordProg.
Local Notation length := List.length.

Definition tagwfT_state : state -> Prop := tg_state notagtag.

Lemma tgT_tagwf : forall c, tg notagtag c -> tagwf c.
Proof.
  intros c H. apply deepT_deep in H. revert H. apply deep_impl.
  intros x Hx. destruct x; cbn in *; auto.
Qed.

Lemma tagwfT_state_tagwf : forall s, tagwfT_state s -> tagwf_state s.
Proof.
  intros s (A & B & C). repeat split; [revert A | revert B | revert C]; apply Forall_impl; intro; apply tgT_tagwf.
Qed.

Lemma tgT_top : forall c, tg notagtag c -> is_tag (value c) = false.
Proof.
  intros c H. destruct c; cbn [value is_tag]; auto.
  apply deepT_tag in H. destruct H as (H & _). exact H.
Qed.

Lemma tgT_with_tags : forall c t,
  tg notagtag c -> Forall (tg2 notagtag) t -> tg notagtag (with_tags c t).
Proof.
  intros c t Hc Ht. unfold with_tags, tg. apply deepT_tag.
  split; [cbn; apply tgT_top; exact Hc|]. split; [exact Ht|]. apply tg_value. exact Hc.
Qed.

Lemma tg_tags_list : forall T c,
  tg T c -> Forall (tg2 T) (match tags_of c with Some t => t | None => [] end).
Proof.
  intros T c H. pose proof (tg_tags T c H) as G.
  destruct (tags_of c); [apply tg_map in G; exact G | constructor].
Qed.

Lemma tgT_insert_tag : forall c k v,
  tg notagtag c -> tg notagtag k -> tg notagtag v -> tg notagtag (insert_tag c k v).
Proof.
  intros c k v Hc Hk Hv. unfold insert_tag. apply tgT_with_tags; auto.
  apply tg_insert; auto. apply tg_tags_list. exact Hc.
Qed.

Lemma tgT_remove_tag : forall c k, tg notagtag c -> tg notagtag (remove_tag c k).
Proof.
  intros c k Hc. unfold remove_tag. apply tgT_with_tags; auto.
  pose proof (tg_tags_list _ _ Hc) as G.
  destruct (tags_of c); [apply tg_remove; exact G | constructor].
Qed.

Lemma tg_num_tags : forall T b o, Forall (tg2 T) (num_tags b o).
Proof.
  intros T b o. unfold num_tags, len_lit, big_lit.
  assert (M : Forall (tg2 T) (assoc_insert [] (CStr "len") (cnat (clen b)))).
  { apply tg_insert; [constructor | apply tg_str | apply tg_cnat]. }
  destruct o; auto. apply tg_insert; [exact M | apply tg_str | apply tg_flag].
Qed.

Lemma tg_offset_lit : forall T, tg T offset_lit.
Proof. intro T. apply tg_str. Qed.
Lemma tg_fmt_tag_name : forall T, tg T fmt_tag_name.
Proof. intro T. split; exact I. Qed.

#[export] Hint Resolve tgT_with_tags tgT_insert_tag tgT_remove_tag tg_num_tags tg_offset_lit tg_fmt_tag_name : tgdb.

(* the words that build tag wrappers build them around a value that is not one *)
Lemma invT_tag_makers : forall fo,
  Forall (fun nw => tag_maker (fst nw) = true -> invw notagtag (snd nw)) (word_table fo).
Proof.
  intro fo.
  apply (proj1 (Forall_map (fun nw => (tag_maker (fst nw), snd nw))
                           (fun bw => fst bw = true -> invw notagtag (snd bw)) (word_table fo))).
  cbv [map fst snd word_table tag_maker tag_makers existsb orb andb String.eqb Ascii.eqb Bool.eqb].
  repeat (apply Forall_cons; [ cbn [fst snd]; intro M; first [ discriminate M | solve [ inv_go ] ] | ]).
  apply Forall_nil.
Qed.

Lemma invT_sized_word : forall fo name w, sized_word fo name = Some w -> invw notagtag w.
Proof.
  intros fo name w H. apply sized_word_shape in H.
  induction H; inv_go.
Qed.

Theorem native_invT : forall fo w f, native_fn fo w = Some f -> invw notagtag f.
Proof.
  intros fo w f H. unfold native_fn in H.
  destruct (table_find (word_table fo) w) eqn:E.
  - injection H as <-.
    destruct (table_find_row (fun n x => tag_maker n = true \/ forall T, invw T x) _ _ _ (inv_word_table fo) E)
      as [M | I]; [| apply I].
    exact (table_find_row (fun n x => tag_maker n = true -> invw notagtag x) _ _ _ (invT_tag_makers fo) E M).
  - eapply invT_sized_word; eauto.
Qed.

Theorem native_preserves_tagwfT : forall fo w f s,
  native_fn fo w = Some f -> tagwfT_state s ->
  match f s with
  | ROk _ s' => tagwfT_state s'
  | RErr _ p s' => tgo notagtag p /\ tagwfT_state s'
  | _ => True
  end.
Proof.
  intros fo w f s H Hs. pose proof (native_invT fo w f H s Hs) as I.
  destruct (f s); auto. apply I.
Qed.

(* the offset a stash entry carries (what close-bitstr restores into R_OFFSET) *)
Definition off_of (e : cell) : cell :=
  match get_tag e offset_lit with Some o => o | None => cint 0 end.

Definition stash_vec (s : state) : option (list cell) :=
  match nth_error (heap s) R_STASH with
  | Some st => match value st with CVec v => Some v | _ => None end
  | None => None
  end.

Definition offs_rel (v1 v2 : list cell) : Prop :=
  Forall2 (fun e1 e2 => crel (off_of e1) (off_of e2)) v1 v2.

Lemma Forall2_rev' : forall {A B} (R : A -> B -> Prop) l l', Forall2 R l l' -> Forall2 R (rev l) (rev l').
Proof.
  induction 1; cbn [rev]; [constructor|]. apply Forall2_app; auto.
Qed.

Lemma offs_rel_refl : forall v, Forall (fun e => tagwf (off_of e)) v -> offs_rel v v.
Proof. induction 1; constructor; [apply crel_refl; assumption | assumption]. Qed.

(* what close-bitstr does once the stash cell is known *)
Definition close_tail (st : cell) : M unit :=
  let* v := m_vec st in
  match rev v with
  | [] => fail EBounds None
  | last :: r => set_var R_OFFSET (off_of last) ;; set_var R_INPUT (value last) ;; set_var R_STASH (CVec (rev r))
  end.

Lemma close_unfold : forall s,
  w_close_bitstr s =
  if mode_eqb (cmode (cx s)) MMeta then RErr EConst None s
  else match nth_error (heap s) R_STASH with
       | Some st => close_tail st s
       | None => RErr EHeapOob None s
       end.
Proof.
  intro s. unfold w_close_bitstr. unfold bind at 1. unfold get_var.
  destruct (mode_eqb (cmode (cx s)) MMeta); [reflexivity|].
  destruct (nth_error (heap s) R_STASH); reflexivity.
Qed.

Lemma sim_close_tail : forall st1 st2,
  crel st1 st2 ->
  (forall v1 v2, value st1 = CVec v1 -> value st2 = CVec v2 -> offs_rel v1 v2) ->
  sim eq (close_tail st1) (close_tail st2).
Proof.
  intros st1 st2 Hc Ho. unfold close_tail. eapply sim_bind.
  - (* m_vec hands the two vectors over together with what is known of their entries *)
    instantiate (1 := fun v1 v2 => lrel v1 v2 /\ offs_rel v1 v2). unfold m_vec.
    pose proof (crel_vrel _ _ Hc) as V. pose proof (vrel_strip _ _ V) as S.
    destruct V; try (apply sim_fail; cbn; f_equal; exact S).
    apply sim_ret. split; [assumption | apply Ho; reflexivity].
  - intros v1 v2 [Hv Hoff]. apply lrel_rev in Hv. apply Forall2_rev' in Hoff.
    destruct Hoff as [| last last' r r' Hlast _]; [apply sim_fail; reflexivity|].
    apply lrel_cons_inv in Hv. destruct Hv as [Hl Hr].
    eapply sim_bind; [apply sim_set_var; exact Hlast |].
    intros _ _ _. eapply sim_bind; [apply sim_set_var; apply crel_value; exact Hl |].
    intros _ _ _. apply sim_set_var. apply crel_vec. apply lrel_rev. exact Hr.
Qed.

Theorem close_bitstr_rel : forall s1 s2,
  srel s1 s2 ->
  (forall v1 v2, stash_vec s1 = Some v1 -> stash_vec s2 = Some v2 -> offs_rel v1 v2) ->
  rrel eq (w_close_bitstr s1) (w_close_bitstr s2).
Proof.
  intros s1 s2 H Ho. rewrite !close_unfold, (mode_srel _ _ H).
  destruct (mode_eqb (cmode (cx s2)) MMeta); [cbn; auto|].
  pose proof (lrel_nth _ _ R_STASH (srel_heap _ _ H)) as N.
  destruct (nth_error (heap s1) R_STASH) as [st1|] eqn:E1,
           (nth_error (heap s2) R_STASH) as [st2|] eqn:E2; cbn [orel] in N; try contradiction.
  - apply sim_close_tail; auto.
    intros v1 v2 V1 V2. apply Ho; unfold stash_vec; [rewrite E1, V1 | rewrite E2, V2]; reflexivity.
  - cbn. auto.
Qed.

Definition keep_off (e : cell) : cell :=
  match get_tag e offset_lit with
  | Some o => CTag [(offset_lit, strip o)] (strip e)
  | None => strip e
  end.
Definition keep_offs (st : cell) : cell :=
  match value st with CVec v => CVec (map keep_off v) | _ => strip st end.

Definition strip_state_off (s : state) : state :=
  set_heap (strip_state s)
           (list_set (map strip (heap s)) R_STASH (keep_offs (nth R_STASH (heap s) CNil))).

Lemma is_tag_strip : forall c, is_tag (strip c) = false.
Proof. induction c using cell_ind'; cbn [strip is_tag]; auto. Qed.

Lemma get_tag_strip : forall c k, get_tag (strip c) k = None.
Proof.
  intros c k. unfold get_tag. pose proof (is_tag_strip c) as H.
  destruct (strip c); cbn [tags_of]; auto. discriminate.
Qed.

Lemma strip_keep_off : forall e, strip (keep_off e) = strip e.
Proof. intro e. unfold keep_off. destruct (get_tag e offset_lit); cbn [strip]; apply strip_idem. Qed.

Lemma tagwf_keep_off : forall e, tagwf (keep_off e).
Proof.
  intro e. unfold keep_off. destruct (get_tag e offset_lit); [| apply tagwf_strip].
  apply tagwf_tag. split; [apply is_tag_strip | apply tagwf_strip].
Qed.

Lemma off_of_keep_off : forall e, off_of (keep_off e) = strip (off_of e).
Proof.
  intro e. unfold off_of, keep_off. destruct (get_tag e offset_lit) as [o|].
  - reflexivity.
  - rewrite get_tag_strip. reflexivity.
Qed.

Lemma strip_keep_offs : forall st, strip (keep_offs st) = strip st.
Proof.
  intro st. unfold keep_offs. rewrite <- (strip_value_any st).
  destruct (value st); try apply strip_idem.
  cbn [strip]. f_equal. rewrite map_map. apply map_ext. apply strip_keep_off.
Qed.

Lemma tagwf_keep_offs : forall st, tagwf (keep_offs st).
Proof.
  intro st. unfold keep_offs. destruct (value st); try apply tagwf_strip.
  apply tagwf_vec. apply Forall_forall. intros x Hx. apply in_map_iff in Hx.
  destruct Hx as (e & <- & _). apply tagwf_keep_off.
Qed.

(* strip every cell but the stash, which gets a cell that strips to the same *)
Definition strip_but_stash (s : state) (c : cell) : state :=
  set_heap (strip_state s) (list_set (map strip (heap s)) R_STASH c).

Lemma srel_strip_but_stash : forall s c,
  tagwf_state s -> strip c = strip (nth R_STASH (heap s) CNil) -> tagwf c -> srel s (strip_but_stash s c).
Proof.
  intros s c Hs Ec Hc. unfold strip_but_stash. split; [| split; auto].
  - rewrite strip_set_heap, map_list_set, strip_state_idem, Ec.
    rewrite <- (map_nth strip). change (strip CNil) with CNil.
    rewrite map_strip_idem, list_set_same. destruct s; reflexivity.
  - destruct (tagwf_strip_state s) as (A & B & C).
    repeat split; auto. cbn [heap set_heap].
    apply Forall_list_set; [apply Forall_map_strip | exact Hc].
Qed.

Lemma stash_strip_but_stash : forall s c st,
  nth_error (heap s) R_STASH = Some st -> nth_error (heap (strip_but_stash s c)) R_STASH = Some c.
Proof.
  intros s c st E. unfold strip_but_stash. cbn [heap set_heap]. apply nth_error_list_set.
  rewrite map_length. apply nth_error_Some. congruence.
Qed.

Lemma srel_strip_off : forall s, tagwf_state s -> srel s (strip_state_off s).
Proof.
  intros s Hs. apply srel_strip_but_stash; [exact Hs | apply strip_keep_offs | apply tagwf_keep_offs].
Qed.

Lemma stash_strip_off : forall s st,
  nth_error (heap s) R_STASH = Some st ->
  nth_error (heap (strip_state_off s)) R_STASH = Some (keep_offs st).
Proof.
  intros s st E. unfold strip_state_off. rewrite (nth_error_nth _ _ CNil E).
  exact (stash_strip_but_stash s _ st E).
Qed.

Lemma stash_vec_strip_off : forall s v,
  stash_vec s = Some v -> stash_vec (strip_state_off s) = Some (map keep_off v).
Proof.
  intros s v H. unfold stash_vec in *.
  destruct (nth_error (heap s) R_STASH) as [st|] eqn:E; [|discriminate].
  rewrite (stash_strip_off s st E). unfold keep_offs.
  destruct (value st); try discriminate. injection H as <-. reflexivity.
Qed.

(* the offsets of the stash entries are tagwf: what close-bitstr needs in order to keep the
   machine tagwf (it moves the offset out of the tag map into the heap cell R_OFFSET) *)
Definition stash_off_ok (s : state) : Prop :=
  forall v, stash_vec s = Some v -> Forall (fun e => tagwf (off_of e)) v.

Lemma tgT_stash_off_ok : forall s,
  (forall st, nth_error (heap s) R_STASH = Some st -> tg notagtag st) -> stash_off_ok s.
Proof.
  intros s Hst v H. unfold stash_vec in H.
  destruct (nth_error (heap s) R_STASH) as [st|] eqn:E; [|discriminate].
  specialize (Hst st eq_refl). apply tg_value in Hst. destruct (value st); try discriminate. injection H as <-.
  apply tg_vec in Hst. revert Hst. apply Forall_impl.
  intros e He. apply tgT_tagwf. unfold off_of. apply tg_get_tag_default; [exact He | apply tg_cint].
Qed.

Lemma tagwfT_stash_off_ok : forall s, tagwfT_state s -> stash_off_ok s.
Proof.
  intros s (_ & B & _). apply tgT_stash_off_ok. intros st E.
  rewrite Forall_forall in B. apply B. eapply nth_error_In; eauto.
Qed.

Lemma offs_rel_keep : forall v, Forall (fun e => tagwf (off_of e)) v -> offs_rel v (map keep_off v).
Proof.
  induction 1 as [| e r He Hr IH]; cbn [map]; constructor; auto.
  rewrite off_of_keep_off. apply crel_strip. exact He.
Qed.

Lemma native_close : forall fo, native_fn fo "close-bitstr"%string = Some w_close_bitstr.
Proof. intro fo. reflexivity. Qed.

Lemma not_excluded_cases : forall w, ~ In w design_excluded ->
  w = "close-bitstr"%string \/ tag_reader w = false.
Proof.
  intros w Hx. destruct (tag_reader w) eqn:E; auto.
  apply tag_reader_design in E. tauto.
Qed.

Theorem strip_commutes_full_close_rel : forall fo w f s1 s2,
  native_fn fo w = Some f -> ~ In w design_excluded ->
  srel s1 s2 ->
  (forall v1 v2, stash_vec s1 = Some v1 -> stash_vec s2 = Some v2 -> offs_rel v1 v2) ->
  res_strip (f s1) = res_strip (f s2).
Proof.
  intros fo w f s1 s2 H Hx Hs Ho. apply rrel_res_strip.
  destruct (not_excluded_cases w Hx) as [-> | Hr].
  - rewrite native_close in H. injection H as <-. apply close_bitstr_rel; auto.
  - apply (native_sim fo w f H Hr). exact Hs.
Qed.

(* THE FULL STATEMENT: every native word outside the design's exclusion list, close-bitstr
   included, commutes with stripping every tag except the stash offsets *)
Theorem strip_commutes_full_close : forall fo w f s,
  native_fn fo w = Some f -> ~ In w design_excluded ->
  tagwf_state s -> stash_off_ok s ->
  res_strip (f s) = res_strip (f (strip_state_off s)).
Proof.
  intros fo w f s H Hx Hs Ho. eapply strip_commutes_full_close_rel; eauto using srel_strip_off.
  intros v1 v2 V1 V2. rewrite (stash_vec_strip_off s v1 V1) in V2. injection V2 as <-.
  apply offs_rel_keep. apply Ho. exact V1.
Qed.

Corollary strip_commutes_full_close_T : forall fo w f s,
  native_fn fo w = Some f -> ~ In w design_excluded -> tagwfT_state s ->
  res_strip (f s) = res_strip (f (strip_state_off s)).
Proof.
  intros fo w f s H Hx Hs. eapply strip_commutes_full_close; eauto.
  - apply tagwfT_state_tagwf. exact Hs.
  - apply tagwfT_stash_off_ok. exact Hs.
Qed.

Theorem close_bitstr_preserves_tagwf : forall s,
  tagwf_state s -> stash_off_ok s ->
  match w_close_bitstr s with
  | ROk _ s' => tagwf_state s'
  | RErr _ _ s' => tagwf_state s'
  | _ => True
  end.
Proof.
  intros s Hs Ho.
  assert (R : rrel eq (w_close_bitstr s) (w_close_bitstr s)).
  { apply close_bitstr_rel; [split; auto|].
    intros v1 v2 V1 V2. rewrite V1 in V2. injection V2 as <-. apply offs_rel_refl, Ho, V1. }
  destruct (w_close_bitstr s); cbn in R; auto.
  - destruct R as [_ (_ & T & _)]. exact T.
  - destruct R as (_ & _ & (_ & T & _)). exact T.
Qed.
