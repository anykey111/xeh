(* PackSurface.v: C07 at the level of source text: the byte order is switched with
   `big` / `little` between fields and every width is a literal in front of
   int! uint! float! int uint float bits. *)
From Xeh Require Import Model.Prelude Model.Bits Model.Codec Model.Cell Model.Lexer Model.Fmt
                        Model.Vm Model.Words.
From Xeh Require Import Proofs.VmStep Proofs.CursorDefs Proofs.CursorProofs Proofs.CursorProgress
                        Proofs.PackDefs Proofs.PackProofs Proofs.PackBuild.
From Coq Require Import ZifyBool ZifyNat ZifyN.
Local Notation length := List.length.

Definition hsame (h h' : list cell) : Prop :=
  length h' = length h /\ forall a, a <> R_BIG -> nth_error h' a = nth_error h a.

Lemma hsame_refl h : hsame h h.
Proof. split; auto. Qed.

Lemma hsame_trans a b c : hsame a b -> hsame b c -> hsame a c.
Proof. intros (L1 & H1) (L2 & H2). split; [congruence|]. intros x Hx. rewrite H2, H1; auto. Qed.

Lemma hsame_set_big h c : hsame h (list_set h R_BIG c).
Proof. split; [apply list_set_len|]. intros a Ha. apply nth_list_set_other. auto. Qed.

Lemma hsame_cursor h h' inp off : hcursor h inp off -> hsame h h' -> hcursor h' inp off.
Proof.
  intros (Hl & Hi & Ho & Hrest) (L & H). unfold hcursor, h_input, h_offset in *.
  rewrite L, !H by (unfold R_INPUT, R_OFFSET, R_BIG; lia). auto.
Qed.

Lemma hsame_stash h h' : hsame h h' -> h_stash h' = h_stash h.
Proof. intros (_ & H). unfold h_stash. rewrite H by (unfold R_STASH, R_BIG; lia). reflexivity. Qed.

Definition order_cell (o : order) : cell := cint (if big_flag o then 1 else 0).

Lemma wp_set_order o s0 s d h (Q : unit -> state -> Prop) (E : ekind -> option cell -> state -> Prop) (U : Prop) :
  st s0 s d h -> notmeta s0 -> 6 <= length h ->
  (forall s', st s0 s' d (list_set h R_BIG (order_cell o)) -> Q tt s') ->
  wp (w_set_order (big_flag o)) s Q E U.
Proof.
  intros Hst Hm Hl HQ. unfold w_set_order. eapply wp_set_var; eauto. unfold R_BIG. lia.
Qed.

Lemma wp_lit_size w (f : Z -> M unit) s0 s d h (Q : unit -> state -> Prop)
      (E : ekind -> option cell -> state -> Prop) (U : Prop) :
  st s0 s d h -> limit_reached (stack_limit s0) (length d) = false ->
  ds_len (cx s0) <= length d -> (Z.of_nat w < two64)%Z ->
  (forall s', st s0 s' d h -> wp (f (Z.of_nat w)) s' Q E U) ->
  wp (push_data (cnat w) ;; with_size f) s Q E U.
Proof.
  intros Hst Hroom Hmark Hw HQ. apply wp_bind. eapply wp_push_data_ok; [exact Hst|exact Hroom|].
  intros s1 Hs1. unfold with_size. apply wp_bind.
  eapply wp_pop_data_ok; [exact Hs1|cbn [length]; lia|]. intros s2 Hs2.
  apply wp_bind. apply wp_m_usize.
  - intros z (Hz & _). cbn [value cnat cint] in Hz. injection Hz as <-. apply HQ. exact Hs2.
  - intros Hno. exfalso. apply (Hno (Z.of_nat w)). split; [reflexivity|lia].
Qed.

Lemma wp_lit_ordered o w (core : Z -> order -> M unit) s0 s d h (Q : unit -> state -> Prop)
      (E : ekind -> option cell -> state -> Prop) (U : Prop) :
  st s0 s d (list_set h R_BIG (order_cell o)) -> notmeta s0 -> 6 <= length h ->
  limit_reached (stack_limit s0) (length d) = false ->
  ds_len (cx s0) <= length d -> (Z.of_nat w < two64)%Z ->
  (forall s', st s0 s' d (list_set h R_BIG (order_cell o)) -> wp (core (Z.of_nat w) o) s' Q E U) ->
  wp (push_data (cnat w) ;; with_size (fun n => with_order (core n))) s Q E U.
Proof.
  intros Hst Hm Hl Hroom Hmark Hw HQ. eapply wp_lit_size; [exact Hst|exact Hroom|exact Hmark|exact Hw|].
  intros s' Hs'. eapply wp_with_order; [exact Hs'|exact Hm|rewrite list_set_len; exact Hl|].
  intros o' Ho'. unfold h_order in Ho'. rewrite nth_list_set_same in Ho' by (unfold R_BIG; lia).
  assert (o' = o) as -> by (destruct o; injection Ho' as <-; reflexivity). apply HQ. exact Hs'.
Qed.

Section SurfaceRead.
  Variable fo : fops.

  Definition src_read_post (s s' : state) (inp : cbs) (off : Z) (f : field) (tail : list bool) : Prop :=
    exists v, ds s' = v :: ds s /\ sim s s' /\ field_value fo f v /\
              cursor s' inp (off + Z.of_nat (width f)) /\
              rest_of inp (off + Z.of_nat (width f)) = tail /\
              h_stash (heap s') = h_stash (heap s).

  Lemma read_src_ok s inp off f tail :
    cursor s inp off -> field_rd_ok f ->
    rest_of inp off = (field_bits fo f ++ tail)%list ->
    ds_len (cx s) <= length (ds s) ->
    limit_reached (stack_limit s) (length (ds s)) = false ->
    exists s', read_src fo f s = ROk tt s' /\ src_read_post s s' inp off f tail.
  Proof.
    intros Hcur Hf Hrest Hmark Hroom. pose proof Hcur as (Hm & Hc).
    pose proof (hcursor_len _ _ _ Hc) as Hl.
    assert (Hw : (Z.of_nat (width f) < two64)%Z).
    { destruct f as [w [|] o v|o v|o v|b|t|l]; try (destruct Hf as (_ & Hf); cbn [width]; unfold two64; lia);
        pose proof (field_bits_length fo _ (proj1 Hf)) as Hlen; pose proof (rest_of_length inp off) as Hrl;
        destruct (hcursor_range _ _ _ Hc) as (Hr & Hb); rewrite Hrest, app_length, Hlen in Hrl; lia. }
    (* the matching read word, after the order switch [sb] and the literal width [s2] *)
    assert (Hcore : forall sb s2, st s sb (ds s) (heap sb) -> hsame (heap s) (heap sb) ->
              st s s2 (ds s) (heap sb) ->
              wp (read_field fo f) s2 (fun _ s' => src_read_post s s' inp off f tail) ENone False).
    { intros sb s2 (Hdb & _ & Hsb) Hhb (Hd2 & Hh2 & Hs2).
      assert (Hcb : cursor sb inp off).
      { split; [exact (sim_notmeta _ _ Hsb Hm)|exact (hsame_cursor _ _ _ _ Hc Hhb)]. }
      destruct (read_field_ok fo sb s2 (ds s) inp off f tail Hcb) as (s' & v & Hrun & Hafter & Hval & Hfit & Hrest');
        [split; [exact Hd2|split; [exact Hh2|exact (sim_trans _ _ _ (sim_sym _ _ Hsb) Hs2)]]|exact Hf|exact Hrest
        |rewrite (sim_slim _ _ Hsb); exact Hroom|].
      pose proof (after_read_cursor sb s' inp off _ _ _ Hcb (Zle_0_nat _) Hfit Hafter) as Hcur'.
      destruct Hafter as (Hd' & Hh' & Hs'). unfold wp. rewrite Hrun. exists v.
      split; [exact Hd'|]. split; [exact (sim_trans _ _ _ Hsb Hs')|]. split; [exact Hval|].
      split; [exact Hcur'|]. split; [exact Hrest'|].
      rewrite Hh', h_stash_set_offset. apply hsame_stash. exact Hhb. }
    assert (Hnum : forall o (core : Z -> order -> M unit),
              core (Z.of_nat (width f)) o = read_field fo f ->
              exists s', (w_set_order (big_flag o) ;; push_data (cnat (width f)) ;;
                          with_size (fun n => with_order (core n))) s = ROk tt s' /\
                         src_read_post s s' inp off f tail).
    { intros o core Hco. apply wp_returns.
      apply wp_bind. eapply wp_set_order; [apply st_init|exact Hm|exact Hl|]. intros s1 Hs1.
      eapply wp_lit_ordered; [exact Hs1|exact Hm|exact Hl|exact Hroom|exact Hmark|exact Hw|].
      intros s2 Hs2. rewrite Hco. pose proof Hs1 as (_ & Hh1 & _).
      apply (Hcore s1 s2); rewrite ?Hh1; [exact Hs1|apply hsame_set_big|exact Hs2]. }
    assert (Hbits : read_bits (Z.of_nat (width f)) = read_field fo f ->
              exists s', (push_data (cnat (width f)) ;; with_size read_bits) s = ROk tt s' /\
                         src_read_post s s' inp off f tail).
    { intros Hco. apply wp_returns.
      eapply wp_lit_size; [apply st_init|exact Hroom|exact Hmark|exact Hw|].
      intros s2 Hs2. rewrite Hco. apply (Hcore s s2); [apply st_init|apply hsame_refl|exact Hs2]. }
    destruct f as [w [|] o v|o v|o v|b|t|l]; cbn [read_src width] in *.
    - apply (Hnum o read_signed). reflexivity.
    - apply (Hnum o read_unsigned). reflexivity.
    - apply (Hnum o (read_float fo)). reflexivity.
    - apply (Hnum o (read_float fo)). reflexivity.
    - apply Hbits. reflexivity.
    - apply Hbits. reflexivity.
    - apply Hbits. reflexivity.
  Qed.

  Theorem parse_fields_src : forall fs s inp off tail,
    cursor s inp off -> Forall field_rd_ok fs ->
    rest_of inp off = (fields_bits fo fs ++ tail)%list ->
    ds_len (cx s) <= length (ds s) -> room s (length fs) ->
    exists s' vals, read_fields_src fo fs s = ROk tt s' /\
      ds s' = (rev vals ++ ds s)%list /\ Forall2 (field_value fo) fs vals /\
      cursor s' inp (off + Z.of_nat (total_width fs)) /\
      rest_of inp (off + Z.of_nat (total_width fs)) = tail /\
      sim s s' /\ h_stash (heap s') = h_stash (heap s).
  Proof.
    intros fs s inp off tail Hcur Hok Hrest Hmark Hroom.
    destruct (parse_gen fo (read_src fo) (read_fields_src fo) (fun s => ds_len (cx s) <= length (ds s))
                (fun _ _ => True)) with (fs := fs) (s := s) (inp := inp) (off := off) (tail := tail)
      as (s' & vals & H); auto.
    - clear. intros s inp off f tail Hcur Hf Hrest Hmark Hroom.
      destruct (read_src_ok s inp off f tail Hcur Hf Hrest Hmark Hroom)
        as (s' & Hrun & v & Hd' & Hs' & Hval & Hcur' & Hrest' & Hst').
      exists s', v. rewrite (sim_cx _ _ Hs'), Hd'. cbn [length]. auto 12.
    - exists s', vals. tauto.
  Qed.
End SurfaceRead.

Section SurfaceBuild.
  Variable fo : fops.

  Lemma pack_src_ok s f :
    notmeta s -> 6 <= length (heap s) ->
    field_pk_ok f -> ds_len (cx s) <= length (ds s) ->
    limit_reached (stack_limit s) (length (ds s)) = false ->
    limit_reached (stack_limit s) (S (length (ds s))) = false ->
    exists s', pack_src fo f s = ROk tt s' /\
               ds s' = field_item fo f :: ds s /\ hsame (heap s) (heap s') /\ sim s s'.
  Proof.
    intros Hm Hl Hpk Hmark Hroom0 Hroom1.
    assert (Hnum : forall o w (core : Z -> order -> M unit),
               (Z.of_nat w < two64)%Z -> core (Z.of_nat w) o = pack_word fo f ->
               exists s', (w_set_order (big_flag o) ;; push_data (field_arg fo f) ;; push_data (cnat w) ;;
                           with_size (fun n => with_order (core n))) s = ROk tt s' /\
                          ds s' = field_item fo f :: ds s /\ hsame (heap s) (heap s') /\ sim s s').
    { intros o w core Hw Hco. apply wp_returns.
      apply wp_bind. eapply wp_set_order; [apply st_init|exact Hm|exact Hl|]. intros s1 Hs1.
      apply wp_bind. eapply wp_push_data_ok; [exact Hs1|exact Hroom0|]. intros s2 Hs2.
      eapply wp_lit_ordered; [exact Hs2|exact Hm|exact Hl|exact Hroom1|cbn [length]; lia|exact Hw|].
      intros s3 Hs3. rewrite Hco.
      eapply wp_conseq; [apply (pack_word_ok fo f s s3 _ _ Hs3 Hpk Hmark Hroom0)| |auto|auto].
      intros _ s' (Hd' & Hh' & Hs'). rewrite Hh'. auto using hsame_set_big. }
    assert (Hpush : forall c, field_item fo f = c ->
               exists s', push_data c s = ROk tt s' /\
                          ds s' = field_item fo f :: ds s /\ hsame (heap s) (heap s') /\ sim s s').
    { intros c <-. apply wp_returns. eapply wp_push_data_ok; [apply st_init|exact Hroom0|].
      intros s' (Hd' & Hh' & Hs'). rewrite Hh'. auto using hsame_refl. }
    destruct f as [w sg o v|o v|o v|b|t|l]; cbn [pack_src].
    - apply (Hnum o w pack_int); [unfold field_pk_ok, pack_limit, two64 in *; lia|reflexivity].
    - apply (Hnum o 32 (pack_float fo)); reflexivity.
    - apply (Hnum o 64 (pack_float fo)); reflexivity.
    - apply Hpush. reflexivity.
    - apply Hpush. reflexivity.
    - apply Hpush. reflexivity.
  Qed.

  Lemma push_fields_src_ok : forall fs s,
    notmeta s -> 6 <= length (heap s) ->
    Forall field_pk_ok fs -> ds_len (cx s) <= length (ds s) -> room s (S (length fs)) ->
    exists s', push_fields_src fo fs s = ROk tt s' /\
               ds s' = (rev (map (field_item fo) fs) ++ ds s)%list /\ hsame (heap s) (heap s') /\ sim s s'.
  Proof.
    intros fs s Hm Hl Hpk Hmark Hroom.
    apply (push_gen fo (pack_src fo) (push_fields_src fo) 1
             (fun s => notmeta s /\ 6 <= length (heap s) /\ ds_len (cx s) <= length (ds s)) hsame);
      auto using hsame_refl.
    - exact hsame_trans.
    - intros s0 f Hf (Hm0 & Hl0 & Hmark0) Hr0.
      destruct (pack_src_ok s0 f Hm0 Hl0 Hf Hmark0 (room_here _ _ Hr0)) as (s1 & H1 & Hd1 & Hh1 & Hs1).
      { rewrite <- Nat.add_1_r. apply Hr0. lia. }
      exists s1. rewrite (sim_cx _ _ Hs1), Hd1. cbn [length]. destruct Hh1 as (L & Hh1).
      split; [exact H1|]. split; [reflexivity|]. split; [split; assumption|]. split; [exact Hs1|].
      split; [exact (sim_notmeta _ _ Hs1 Hm0)|]. split; lia.
  Qed.

  Theorem build_src_ok : forall fs s,
    notmeta s -> 6 <= length (heap s) ->
    Forall field_ok fs -> Forall field_pk_ok fs ->
    ds_len (cx s) <= length (ds s) -> ss_ptr (cx s) <= length (special s) ->
    (forall j, j <= S (length fs) -> limit_reached (stack_limit s) (length (ds s) + j) = false) ->
    exists s' p, build_src fo fs s = ROk tt s' /\
                 ds s' = CBits p :: ds s /\ hsame (heap s) (heap s') /\ sim s s' /\
                 wf p /\ abs p = fields_bits fo fs /\ clen p = total_width fs /\ cstart p = 0.
  Proof.
    intros fs s Hm Hl Hok Hpk Hmark Hsp Hroom.
    assert (Hroom0 : limit_reached (stack_limit s) (length (ds s)) = false).
    { rewrite <- (Nat.add_0_r (length (ds s))). apply Hroom. lia. }
    destruct (vec_literal_ok (push_fields_src fo fs) hsame s (map (field_item fo) fs)
                Hmark Hsp Hroom0) as (sD & HD & HdD & HhD & HsD).
    { destruct (vec_begun_same s) as (HdA & HhA & HcxA & HlA & _).
      destruct (push_fields_src_ok fs (vec_begun s)) as (sB & HB & HdB & HhB & HsB); auto.
      - unfold notmeta. rewrite HcxA. exact Hm.
      - rewrite HhA. exact Hl.
      - rewrite HcxA, HdA. exact Hmark.
      - intros j Hj. rewrite HlA, HdA. apply Hroom. lia.
      - exists sB. rewrite HdA in HdB. rewrite HhA in HhB. auto. }
    destruct (into_bitstr_fields fo sD fs _ (ds s) Hok HdD eq_refl) as (s' & p & Hrun & Hd' & Hh' & Hs' & Hp).
    { rewrite (sim_cx _ _ HsD), HdD. cbn [length]. lia. }
    { rewrite (sim_slim _ _ HsD). exact Hroom0. }
    exists s', p. split; [unfold build_src; rewrite HD; exact Hrun|].
    split; [exact Hd'|]. split; [rewrite Hh'; exact HhD|]. split; [eapply sim_trans; eauto|exact Hp].
  Qed.

  (* the source-level round trip:
       [ big|little v w int! ... ] >bitstr open-bitstr  big|little w int ...  remain *)
  Theorem source_roundtrip : forall fs s inp0 off0 v,
    cursor s inp0 off0 -> h_stash (heap s) = Some v ->
    Forall field_rd_ok fs -> (Z.of_nat (total_width fs) < two64)%Z ->
    ds_len (cx s) <= length (ds s) -> ss_ptr (cx s) <= length (special s) ->
    (forall j, j <= S (length fs) -> limit_reached (stack_limit s) (length (ds s) + j) = false) ->
    exists s' vals e,
      (build_src fo fs ;; parse_back_src fo fs) s = ROk tt s' /\
      ds s' = (CInt 0 :: rev vals ++ ds s)%list /\ Forall2 (field_value fo) fs vals /\
      (exists p, cursor s' p (Z.of_nat (cend p)) /\ abs p = fields_bits fo fs /\
                 clen p = total_width fs) /\
      h_stash (heap s') = Some (v ++ [e])%list /\
      entry_input e = Some inp0 /\ entry_offset e = Some off0.
  Proof.
    intros fs s inp0 off0 v Hcur Hv Hrd Htw Hmark Hsp Hroom. pose proof Hcur as (Hm & Hc).
    destruct (build_src_ok fs s Hm (hcursor_len _ _ _ Hc) (field_ok_of_rd fs Hrd) (field_pk_of_rd fs Hrd)
                           Hmark Hsp Hroom)
      as (s1 & p & Hrun1 & Hd1 & Hh1 & Hs1 & Hpw & Hpa & Hpl & Hpc).
    assert (Hcend : cend p = total_width fs).
    { unfold clen in Hpl. destruct Hpw as (? & _). lia. }
    destruct (packed_cursor fo p fs Hpw Hpa (field_ok_of_rd fs Hrd)) as (Hrest & Hlast).
    destruct (roundtrip_gen fo (read_fields_src fo fs) fs s1 inp0 off0 v (CBits p) (ds s) p)
      as (s' & vals & e & Hrun & Hd' & Hvals & Hcur' & Hst' & He); auto.
    - intros s2 Hcur2 Hs2 Hd2.
      destruct (parse_fields_src fo fs s2 p _ [] Hcur2 Hrd Hrest)
        as (s3 & vals & Hrun3 & Hd3 & Hvals & Hcur3 & _ & Hs3 & Hst3).
      { rewrite (sim_cx _ _ Hs2), (sim_cx _ _ Hs1), Hd2. exact Hmark. }
      { intros j Hj. rewrite (sim_slim _ _ Hs2), (sim_slim _ _ Hs1), Hd2. apply Hroom. lia. }
      rewrite Hlast in Hcur3. rewrite Hd2 in Hd3. exists s3, vals. auto 10.
    - split; [exact (sim_notmeta _ _ Hs1 Hm)|exact (hsame_cursor _ _ _ _ Hc Hh1)].
    - rewrite (hsame_stash _ _ Hh1). exact Hv.
    - lia.
    - rewrite (sim_cx _ _ Hs1), Hd1. cbn [length]. lia.
    - rewrite (sim_slim _ _ Hs1). apply Hroom. lia.
    - exists s', vals, e. split; [unfold bind at 1; rewrite Hrun1; exact Hrun|].
      split; [exact Hd'|]. split; [exact Hvals|]. split; [exists p; auto|]. split; [exact Hst'|exact He].
  Qed.
End SurfaceBuild.
