(* C15 (eval / compile+run) - evaluating a source is compiling it and then running.

   For every source, every fuel and every idle top-level state (no nested context, the outer
   context evaluates, the machine stopped exactly at the end of the code, nothing pending above
   the marks of the outer context) [eval src] and [compile src ;; run] give the SAME result:
   same value, same error kind and payload, same final state (all fields) - whether the
   source is rejected at build time, fails at run time, or succeeds.
   Hypothesis on the source: while it is built no user-defined immediate word is invoked
   ([calls_bad] with mark 0 reports exactly that).  It is needed: such a word runs at build
   time in the context opened for the source, and that context hides the data stack in
   compile mode but not in eval mode (C15_user_immediate_refuted). *)
From Xeh Require Import Model.Prelude Model.Bits Model.Cell Model.Lexer Model.Vm Model.Words Model.Build Model.Boot.
From Xeh Require Import Proofs.VmLimits Proofs.UnwindMain Proofs.UnwindSimMain Proofs.UnwindWitness.

Theorem C15_eval_is_compile_run : forall fo pr rf fuel src s s1,
  (nested s = [] /\ cmode (cx s) = MEval /\ ip s = length (code s) /\
   rs_len (cx s) = length (rs s) /\ ls_len (cx s) = length (loops s) /\
   ss_ptr (cx s) = length (special s)) ->
  (context_open MEval ;; intern_source src) s = ROk tt s1 ->
  calls_bad fo pr rf 0 fuel (length (nested s1)) s1 = false ->
  eval fo pr rf fuel src s = (compile fo pr rf fuel src ;; run_m fo rf) s.
Proof. exact eval_is_compile_run. Qed.
Check C15_eval_is_compile_run : forall fo pr rf fuel src s s1,
  (nested s = [] /\ cmode (cx s) = MEval /\ ip s = length (code s) /\
   rs_len (cx s) = length (rs s) /\ ls_len (cx s) = length (loops s) /\
   ss_ptr (cx s) = length (special s)) ->
  (context_open MEval ;; intern_source src) s = ROk tt s1 ->
  calls_bad fo pr rf 0 fuel (length (nested s1)) s1 = false ->
  eval fo pr rf fuel src s = (compile fo pr rf fuel src ;; run_m fo rf) s.

(* ---------- non-vacuity ---------- *)
Local Open Scope string_scope.
Definition c15_zf (a b : Z) : Z := 0%Z.
Definition c15_fo : fops := fops_with c15_zf c15_zf c15_zf c15_zf c15_zf c15_zf c15_zf.
Definition c15_pr : string -> option Z := fun _ => None.
Definition c15_eval (src : string) (s : state) : res unit := eval c15_fo c15_pr 1000 1000 src s.
Definition c15_compile_run (src : string) (s : state) : res unit :=
  (compile c15_fo c15_pr 1000 1000 src ;; run_m c15_fo 1000) s.
Definition c15_state (r : res unit) : state := match r with ROk _ s => s | RErr _ _ s => s | _ => boot end.
Definition c15_err (r : res unit) : option ekind := match r with RErr k _ _ => Some k | _ => None end.
Definition c15_idle_b (s : state) : bool :=
  match nested s with [] => true | _ => false end && mode_eqb (cmode (cx s)) MEval &&
  (ip s =? length (code s))%nat && (rs_len (cx s) =? length (rs s))%nat &&
  (ls_len (cx s) =? length (loops s))%nat && (ss_ptr (cx s) =? length (special s))%nat.
Definition c15_watch (src : string) (s : state) : bool :=
  let s1 := c15_state ((context_open MEval ;; intern_source src) s) in
  calls_bad c15_fo c15_pr 1000 0 1000 (length (nested s1)) s1.

(* the boot state and the state after a successful line are idle top-level states *)
Definition c15_s0 : state := c15_state (c15_eval "7 8 : sq dup * ; var v" boot).
Example C15_ex_idle : c15_idle_b boot = true /\ c15_idle_b c15_s0 = true.
Proof. vm_compute. split; reflexivity. Qed.

(* the hypothesis on the source holds for programs with definitions, loops, meta blocks;
   the three outcomes (success, rejected at build time, failure at run time) all occur *)
Example C15_ex_watch :
  c15_watch "3 sq : cube dup sq * ; #( 2 cube #) 0 do I loop [ 1 2 ] v" c15_s0 = false /\
  c15_err (c15_eval "3 sq : cube dup sq * ; #( 2 cube #) 0 do I loop [ 1 2 ] v" c15_s0) = None /\
  c15_watch "1 if 2 foo" c15_s0 = false /\ c15_err (c15_eval "1 if 2 foo" c15_s0) = Some EUnknown /\
  c15_watch ": f 1 0 / ; f" c15_s0 = false /\ c15_err (c15_eval ": f 1 0 / ; f" c15_s0) = Some EDivZero.
Proof. vm_compute. repeat split; reflexivity. Qed.

(* a user-defined immediate word: eval lets it drop a value of the caller at build time,
   compile refuses (stack underflow) - the two submission styles differ
   (witness: Proofs/UnwindWitness.v) *)
Theorem C15_user_immediate_refuted :
  idle_top f4_s /\
  calls_bad wit_fo wit_pr wit_rf 0 wit_fuel (length (nested (wit_opened "foo" f4_s))) (wit_opened "foo" f4_s) = true /\
  (exists s', eval wit_fo wit_pr wit_rf wit_fuel "foo" f4_s = ROk tt s' /\ ds s' = []) /\
  (exists s', (compile wit_fo wit_pr wit_rf wit_fuel "foo" ;; run_m wit_fo wit_rf) f4_s = RErr EUnderflow None s' /\
              ds s' = [CInt 7]).
Proof.
  split; [unfold idle_top; vm_compute; repeat split; reflexivity|].
  split; [vm_compute; reflexivity|]. split.
  - exists (wit_state (eval wit_fo wit_pr wit_rf wit_fuel "foo" f4_s)). vm_compute. split; reflexivity.
  - exists (wit_state ((compile wit_fo wit_pr wit_rf wit_fuel "foo" ;; run_m wit_fo wit_rf) f4_s)).
    vm_compute. split; reflexivity.
Qed.
Check C15_user_immediate_refuted :
  idle_top f4_s /\
  calls_bad wit_fo wit_pr wit_rf 0 wit_fuel (length (nested (wit_opened "foo" f4_s))) (wit_opened "foo" f4_s) = true /\
  (exists s', eval wit_fo wit_pr wit_rf wit_fuel "foo" f4_s = ROk tt s' /\ ds s' = []) /\
  (exists s', (compile wit_fo wit_pr wit_rf wit_fuel "foo" ;; run_m wit_fo wit_rf) f4_s = RErr EUnderflow None s' /\
              ds s' = [CInt 7]).
