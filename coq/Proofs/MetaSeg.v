(* MetaSeg.v (C11): sequences of token steps inside a meta block.

   [bpath d s x]   x is reached from s by token steps that never leave context depth d
   [seg s x]       the steps are balanced: every nested block opened on the way is closed again
   Every [bpath] that ends at the depth it started from is a [seg] (bracket matching, proved
   with the classification of MetaBlock.v), and a [seg] inside a meta context keeps the frame
   [R2] of that context - at any nesting depth.  Hence the theorem about a whole block:
   opened in state t, closed by #) or ~) after arbitrary contents, it ends in
   [close_state w1 (cx t)] for a machine state w1 related to t by the frame. *)
From Xeh Require Import Model.Prelude Model.Bits Model.Codec Model.Cell Model.Lexer Model.Fmt
                        Model.Vm Model.Words Model.Build.
From Xeh Require Import Proofs.VmFrame Proofs.VmLimits Proofs.NoPanic Proofs.NoPanicBuild Proofs.NoPanicFlow
                        Proofs.MetaBase Proofs.MetaPurge Proofs.MetaBuild Proofs.MetaClose Proofs.MetaPrefix
                        Proofs.MetaPrefixBuild Proofs.MetaPrefixWords Proofs.MetaBlock.
Local Notation length := List.length.
Local Open Scope string_scope.
Local Open Scope list_scope.

Definition depth (s : state) : nat := length (nested s).

Lemma R2_depth cs di a b : R2 cs di a b -> depth b = depth a.
Proof. intros ((_ & N & _) & _). unfold depth. rewrite N. reflexivity. Qed.

Lemma opened_depth s : depth (opened s) = S (depth s).
Proof. reflexivity. Qed.

Section Seg.
  Variable fo : fops.
  Variable pr : string -> option Z.
  Variable rf : nat.

  Definition anystep (s s' : state) : Prop := exists f, tstep fo pr rf f s s'.

  Lemma closes_depth cs di s s' : Pre2 cs di s -> closes fo rf cs di s s' -> depth s = S (depth s').
  Proof.
    intros P (s3 & s4 & H & _ & Ec & D).
    pose proof (R2_keep _ _ _ _ P H) as P3.
    rewrite <- (R2_depth _ _ _ _ H).
    assert (D4 : depth s3 = S (depth s4)).
    { unfold depth. destruct (nested s3) as [|prev rest] eqn:En.
      - rewrite (context_close_nil fo rf s3 En) in Ec. discriminate.
      - pose proof (close_from_pre fo rf cs di s3 prev rest P3 En) as C.
        pose proof (run_m_fr fo rf (set_nested s3 rest)) as Fr.
        destruct (run_m fo rf (set_nested s3 rest)) as [[] s1|? ? ?| |]; try (rewrite C in Ec; discriminate).
        destruct C as [C _]. rewrite C in Ec. injection Ec as <-. rewrite close_nested.
        destruct Fr as (_ & N1 & _). rewrite N1. reflexivity. }
    rewrite D4. destruct D as [->|(txt & ->)]; reflexivity.
  Qed.

  Inductive seg : state -> state -> Prop :=
  | seg_nil s : seg s s
  | seg_plain s s1 s2 : anystep s s1 -> depth s1 = depth s -> seg s1 s2 -> seg s s2
  | seg_block s s1 s2 s3 s4 :
      anystep s s1 -> depth s1 = S (depth s) -> seg s1 s2 ->
      anystep s2 s3 -> depth s3 = depth s -> seg s3 s4 -> seg s s4.

  Lemma seg_depth a b : seg a b -> depth b = depth a.
  Proof. induction 1; congruence. Qed.

  Lemma seg_app a b c : seg a b -> seg b c -> seg a c.
  Proof.
    induction 1; intros Hc; [exact Hc| |].
    - eapply seg_plain; eauto.
    - eapply seg_block; eauto.
  Qed.

  Lemma R2_interned cs di txt s : Pre2 cs di s -> R2 cs di s (interned txt s).
  Proof.
    intros P. apply R2_core; [exact P| |reflexivity]. apply sealed_score; [apply P|reflexivity].
  Qed.

  Theorem seg_R2 : forall s s', seg s s' -> forall cs di, Pre2 cs di s -> R2 cs di s s'.
  Proof.
    induction 1 as [s|s s1 s2 St Hd Sg IH|s s1 s2 s3 s4 St1 Hd1 Sg1 IH1 St2 Hd2 Sg2 IH2]; intros cs di P.
    - apply R2_refl. exact P.
    - destruct St as (f & St).
      destruct (tstep_cls fo pr rf cs di f s s1 P St) as [H|[(u & H & ->)|H]].
      + eapply R2_trans; [exact H|]. apply IH. eapply R2_keep; eassumption.
      + rewrite opened_depth, (R2_depth _ _ _ _ H) in Hd. lia.
      + pose proof (closes_depth _ _ _ _ P H). lia.
    - destruct St1 as (f & St1).
      destruct (tstep_cls fo pr rf cs di f s s1 P St1) as [H|[(u & H & ->)|H]].
      + rewrite (R2_depth _ _ _ _ H) in Hd1. lia.
      + pose proof (R2_keep _ _ _ _ P H) as Pu.
        assert (Wu : wfm u) by apply Pu. assert (Cu : cd_inv u) by apply Pu.
        pose proof (Pre2_opened u Wu Cu) as Po.
        pose proof (IH1 _ _ Po) as H1.
        pose proof (R2_keep _ _ _ _ Po H1) as P2.
        destruct St2 as (f2 & St2).
        destruct (tstep_cls fo pr rf _ _ f2 s2 s3 P2 St2) as [H2|[(u2 & H2 & ->)|H2]].
        * rewrite (R2_depth _ _ _ _ H2), (R2_depth _ _ _ _ H1), opened_depth, (R2_depth _ _ _ _ H) in Hd2. lia.
        * rewrite opened_depth, (R2_depth _ _ _ _ H2), (R2_depth _ _ _ _ H1), opened_depth,
            (R2_depth _ _ _ _ H) in Hd2. lia.
        * destruct H2 as (s3' & s4' & H3 & Hp & Ec & D).
          pose proof (R2_trans _ _ _ _ _ H1 H3) as H13.
          destruct (block_close fo rf u s3' s4' Wu Cu H13 Hp Ec) as (w1 & Hw & Fl & ->).
          pose proof (block_R2 cs di u w1 Pu Hw Fl) as Hb.
          pose proof (R2_keep _ _ _ _ Pu Hb) as Pb.
          assert (H4 : R2 cs di u s3).
          { destruct D as [->|(txt & ->)]; [exact Hb|].
            eapply R2_trans; [exact Hb|]. apply R2_interned. exact Pb. }
          eapply R2_trans; [exact H|]. eapply R2_trans; [exact H4|].
          apply IH2. eapply R2_keep; [exact Pu|exact H4].
      + pose proof (closes_depth _ _ _ _ P H). lia.
  Qed.

  Lemma seg_snoc_plain a b c : seg a b -> anystep b c -> depth c = depth b -> seg a c.
  Proof.
    intros H St Hd. eapply seg_app; [exact H|]. eapply seg_plain; [exact St|exact Hd|apply seg_nil].
  Qed.

  Inductive pseg : nat -> nat -> state -> state -> Prop :=
  | ps_seg cs di s x : seg s x -> pseg cs di s x
  | ps_open cs di s a a' x :
      seg s a -> anystep a (opened a') -> R2 cs di a a' ->
      pseg (length (code a')) (length (dict a')) (opened a') x -> pseg cs di s x.

  (* where a nested block is opened on the way: the frame still holds, and the opened state
     satisfies the precondition at its own marks *)
  Lemma seg_open_pre cs di s a a' : Pre2 cs di s -> seg s a -> R2 cs di a a' ->
    R2 cs di s a' /\ Pre2 (length (code a')) (length (dict a')) (opened a').
  Proof.
    intros P Sg H. pose proof (R2_trans _ _ _ _ _ (seg_R2 _ _ Sg _ _ P) H) as Ha.
    split; [exact Ha|]. pose proof (R2_keep _ _ _ _ P Ha) as Pa. apply Pre2_opened; apply Pa.
  Qed.

  Lemma pseg_depth : forall cs di s x, pseg cs di s x -> Pre2 cs di s -> depth s <= depth x.
  Proof.
    induction 1 as [cs di s x Sg|cs di s a a' x Sg St H Ps IH]; intros P.
    - rewrite (seg_depth _ _ Sg). lia.
    - destruct (seg_open_pre _ _ _ _ _ P Sg H) as [Ha Po].
      specialize (IH Po). rewrite opened_depth, (R2_depth _ _ _ _ Ha) in IH. lia.
  Qed.

  (* one more step: the prefix grows, or the step closes the block the prefix started in *)
  Lemma pseg_snoc : forall cs di s x, pseg cs di s x -> Pre2 cs di s -> forall y, anystep x y ->
    pseg cs di s y \/ (seg s x /\ closes fo rf cs di x y).
  Proof.
    induction 1 as [cs di s x Sg|cs di s a a' x Sg St H Ps IH]; intros P y Sy.
    - pose proof (seg_R2 _ _ Sg _ _ P) as Hx. pose proof (R2_keep _ _ _ _ P Hx) as Px.
      destruct Sy as (f & Sy0). pose proof (ex_intro (fun f => tstep fo pr rf f x y) f Sy0) as Sy.
      destruct (tstep_cls fo pr rf cs di f x y Px Sy0) as [Hy|[(u & Hu & ->)|Hc]].
      + left. apply ps_seg. eapply seg_snoc_plain; [exact Sg|exact Sy|]. apply (R2_depth _ _ _ _ Hy).
      + left. eapply ps_open; [exact Sg|exact Sy|exact Hu|]. apply ps_seg. apply seg_nil.
      + right. split; assumption.
    - destruct (seg_open_pre _ _ _ _ _ P Sg H) as [_ Po].
      destruct (IH Po y Sy) as [Py|[Sgx Hc]].
      + left. eapply ps_open; eassumption.
      + left. apply ps_seg. eapply seg_app; [exact Sg|].
        eapply seg_block; [exact St| |exact Sgx|exact Sy| |apply seg_nil].
        * rewrite opened_depth, (R2_depth _ _ _ _ H). reflexivity.
        * pose proof (seg_R2 _ _ Sgx _ _ Po) as Hx. pose proof (R2_keep _ _ _ _ Po Hx) as Px.
          pose proof (closes_depth _ _ _ _ Px Hc) as Dc.
          rewrite (seg_depth _ _ Sgx), opened_depth, (R2_depth _ _ _ _ H) in Dc. lia.
  Qed.

  Inductive bpath (d : nat) (s : state) : state -> Prop :=
  | bp_nil : bpath d s s
  | bp_snoc x y : bpath d s x -> anystep x y -> d <= depth y -> bpath d s y.

  Lemma bpath_pseg cs di s x : Pre2 cs di s -> bpath (depth s) s x -> pseg cs di s x.
  Proof.
    intros P. induction 1 as [|x y Hb IH Sy Hd]; [apply ps_seg, seg_nil|].
    destruct (pseg_snoc _ _ _ _ IH P y Sy) as [Py|[Sgx Hc]]; [exact Py|].
    pose proof (seg_R2 _ _ Sgx _ _ P) as Hx. pose proof (R2_keep _ _ _ _ P Hx) as Px.
    pose proof (closes_depth _ _ _ _ Px Hc) as Dc. rewrite (seg_depth _ _ Sgx) in Dc. lia.
  Qed.

  (* bracket matching: back at the starting depth means balanced *)
  Theorem bpath_seg cs di s x : Pre2 cs di s -> bpath (depth s) s x -> depth x = depth s -> seg s x.
  Proof.
    intros P Hb Hd. pose proof (bpath_pseg cs di s x P Hb) as Ps.
    inversion Ps as [? ? ? ? Sg|? ? ? a a' ? Sg St H Ps']; subst; [exact Sg|].
    destruct (seg_open_pre _ _ _ _ _ P Sg H) as [Ha Po].
    pose proof (pseg_depth _ _ _ _ Ps' Po) as D.
    rewrite opened_depth, (R2_depth _ _ _ _ Ha) in D. lia.
  Qed.

  (* every state on such a path is inside a meta context that satisfies the frame's precondition *)
  Lemma pseg_inner : forall cs di s x, pseg cs di s x -> Pre2 cs di s -> exists cs' di', Pre2 cs' di' x.
  Proof.
    induction 1 as [cs di s x Sg|cs di s a a' x Sg St H Ps IH]; intros P.
    - exists cs, di. eapply R2_keep; [exact P|]. apply seg_R2; assumption.
    - apply IH. exact (proj2 (seg_open_pre _ _ _ _ _ P Sg H)).
  Qed.

  Lemma bpath_depth d s x : d <= depth s -> bpath d s x -> d <= depth x.
  Proof. intros H Hb. destruct Hb; assumption. Qed.

  (* the first step that leaves the block closes it (with #) or ~) ), whatever the block contained *)
  Theorem block_theorem t u t' :
    wfm t -> cd_inv t ->
    bpath (S (depth t)) (opened t) u -> anystep u t' -> depth t' <= depth t ->
    seg (opened t) u /\
    exists w1, R2 (length (code t)) (length (dict t)) (inner t) w1 /\ flows w1 = flows t /\
               (t' = close_state w1 (cx t) \/ exists txt, t' = interned txt (close_state w1 (cx t))).
  Proof.
    intros W Hcd Hb St Hd.
    pose proof (Pre2_opened t W Hcd) as Po.
    pose proof (bpath_pseg _ _ _ _ Po Hb) as Ps.
    destruct (pseg_snoc _ _ _ _ Ps Po t' St) as [Py|[Sg Hc]].
    - pose proof (pseg_depth _ _ _ _ Py Po) as D. rewrite opened_depth in D. lia.
    - split; [exact Sg|].
      pose proof (seg_R2 _ _ Sg _ _ Po) as H1.
      destruct Hc as (s3 & s4 & H3 & Hp & Ec & D).
      pose proof (R2_trans _ _ _ _ _ H1 H3) as H13.
      destruct (block_close fo rf t s3 s4 W Hcd H13 Hp Ec) as (w1 & Hw & Fl & ->).
      exists w1. split; [exact Hw|]. split; [exact Fl|exact D].
  Qed.

  (* inside the block: every state is in meta mode with an unchanged heap and sealed stacks *)
  Definition sealedm (s x : state) : Prop :=
    is_meta x /\ heap x = heap s /\
    keeps (ds_len (cx s)) (ds s) (ds x) /\ keeps (rs_len (cx s)) (rs s) (rs x) /\
    keeps (ls_len (cx s)) (loops s) (loops x) /\ keeps (ss_ptr (cx s)) (special s) (special x) /\
    keeps (fs_len (cx s)) (flows s) (flows x).

  Lemma pseg_sealedm : forall cs di s x, pseg cs di s x -> Pre2 cs di s -> sealedm s x.
  Proof.
    induction 1 as [cs di s x Sg|cs di s a a' x Sg St H Ps IH]; intros P.
    - pose proof (seg_R2 _ _ Sg _ _ P) as Hx. pose proof (R2_keep _ _ _ _ P Hx) as Px.
      destruct Hx as ((Hh & _ & _ & K1 & K2 & K3 & K4 & K5) & _).
      split; [apply Px|]. repeat split; first [exact Hh|apply K1|apply K2|apply K3|apply K4|apply K5].
    - destruct (seg_open_pre _ _ _ _ _ P Sg H) as [Hsa Po].
      destruct (IH Po) as (Mx & Hh & K1 & K2 & K3 & K4 & K5).
      assert (Ma : is_meta a') by apply (R2_keep _ _ _ _ P Hsa).
      destruct Hsa as ((Hh' & _ & Em & J1 & J2 & J3 & J4 & J5) & _).
      destruct (cmarks_fields _ _ Em) as (M1 & _).
      (* the marks of [opened a'] are the lengths of the stacks of a', except the inherited
         data-stack mark *)
      rewrite (open_ctx_ds_meta a' Ma : ds_len (cx (opened a')) = _), M1 in K1.
      split; [exact Mx|]. split; [exact (eq_trans Hh Hh')|].
      split; [exact (keeps_trans _ _ _ _ J1 K1)|].
      split; [eapply keeps_trans; [exact J2|]; exact (keeps_le _ _ _ _ (proj1 J2) K2 (le_n _))|].
      split; [eapply keeps_trans; [exact J3|]; exact (keeps_le _ _ _ _ (proj1 J3) K3 (le_n _))|].
      split; [eapply keeps_trans; [exact J4|]; exact (keeps_le _ _ _ _ (proj1 J4) K4 (le_n _))|].
      eapply keeps_trans; [exact J5|]; exact (keeps_le _ _ _ _ (proj1 J5) K5 (le_n _)).
  Qed.
End Seg.
