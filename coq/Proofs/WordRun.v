(* WordRun.v: running the primitives of a native word on a state whose data stack starts
   with the operands: what is returned and what the state left behind is.  The state is
   described exactly: the data stack, and the entries the word adds to the reverse log
   when the machine is recording ([with_log]); nothing else changes. *)
From Xeh Require Import Model.Prelude Model.Bits Model.Cell Model.Vm.
Local Notation length := List.length.

(* [new] (newest first) is put on top of the reverse log, if there is one *)
Definition with_log (new : list rstep) (s : state) : state :=
  match rlog s with Some l => set_rlog s (Some (new ++ l)%list) | None => s end.

Ltac destruct_state s :=
  destruct s as [d0 h0 c0 g0 so0 in0 st0 rs0 fl0 lo0 sp0 cx0 ne0 me0 il0 hl0 sl0 rl0 ou0 lt0 sg0].

Ltac state_crush :=
  cbv [with_log add_rstep set_ds set_rlog erase_log
       dict heap code dbg sources input ds rs flows loops special cx nested meter insn_limit
       heap_limit stack_limit rlog out last_tok stopping app];
  try reflexivity.

Lemma with_log_nil s : with_log [] s = s.
Proof. destruct_state s. destruct rl0; state_crush. Qed.

Lemma with_log_fields l s :
  ds (with_log l s) = ds s /\ cx (with_log l s) = cx s /\ stack_limit (with_log l s) = stack_limit s /\
  heap (with_log l s) = heap s /\ dict (with_log l s) = dict s /\ code (with_log l s) = code s /\
  rs (with_log l s) = rs s /\ loops (with_log l s) = loops s /\ special (with_log l s) = special s /\
  out (with_log l s) = out s /\ meter (with_log l s) = meter s /\ nested (with_log l s) = nested s.
Proof. unfold with_log. destruct (rlog s); repeat split. Qed.

Lemma with_log_erase l s : erase_log (with_log l s) = erase_log s.
Proof. unfold with_log. destruct (rlog s); reflexivity. Qed.

Lemma with_log_rlog l s :
  rlog (with_log l s) = match rlog s with Some old => Some (l ++ old)%list | None => None end.
Proof. unfold with_log. destruct (rlog s) eqn:E; [reflexivity|exact E]. Qed.

Lemma set_ds_fields s v :
  ds (set_ds s v) = v /\ cx (set_ds s v) = cx s /\ stack_limit (set_ds s v) = stack_limit s /\
  heap (set_ds s v) = heap s /\ dict (set_ds s v) = dict s /\ code (set_ds s v) = code s /\
  rs (set_ds s v) = rs s /\ loops (set_ds s v) = loops s /\ special (set_ds s v) = special s /\
  out (set_ds s v) = out s /\ meter (set_ds s v) = meter s /\ nested (set_ds s v) = nested s /\
  rlog (set_ds s v) = rlog s.
Proof. repeat split. Qed.

Lemma set_ds_same s : set_ds s (ds s) = s.
Proof. destruct_state s. reflexivity. Qed.

(* the states below are explicit records once the case of [rlog s] is known *)
Ltac by_log s := unfold with_log, add_rstep, erase_log; cbn [rlog set_ds set_rlog];
  destruct (rlog s) eqn:Elog; cbn [rlog set_ds set_rlog]; rewrite ?Elog; reflexivity.

Lemma pop_data_run s c r : ds s = c :: r -> ds_len (cx s) <= length r ->
  pop_data s = ROk c (set_ds (with_log [RPushData c] s) r).
Proof.
  intros Hd Hm. unfold pop_data. rewrite Hd.
  replace (ds_len (cx s) <? length (c :: r)) with true
    by (symmetry; apply Nat.ltb_lt; cbn [List.length]; lia).
  f_equal; by_log s.
Qed.

Lemma pop_data_under s : length (ds s) <= ds_len (cx s) -> pop_data s = RErr EUnderflow None s.
Proof.
  intros H. unfold pop_data. destruct (ds s) as [|c r] eqn:E; [reflexivity|].
  replace (ds_len (cx s) <? length (c :: r)) with false; [reflexivity|].
  symmetry. apply Nat.ltb_ge. assumption.
Qed.

Lemma top_data_run s c r : ds s = c :: r -> ds_len (cx s) <= length r -> top_data s = ROk c s.
Proof.
  intros Hd Hm. unfold top_data. rewrite Hd.
  replace (ds_len (cx s) <? length (c :: r)) with true
    by (symmetry; apply Nat.ltb_lt; cbn [List.length]; lia).
  reflexivity.
Qed.

Lemma run_pop1 {A} (k : cell -> M A) s a rest :
  ds s = a :: rest -> ds_len (cx s) <= length rest ->
  (let* x := pop_data in k x) s = k a (set_ds (with_log [RPushData a] s) rest).
Proof. intros Hd Hm. unfold bind. rewrite (pop_data_run s a rest Hd Hm). reflexivity. Qed.

Lemma run_pop2 {A} (k : cell -> cell -> M A) s a b rest :
  ds s = b :: a :: rest -> ds_len (cx s) <= length rest ->
  (let* y := pop_data in let* x := pop_data in k x y) s
  = k a b (set_ds (with_log [RPushData a; RPushData b] s) rest).
Proof.
  intros Hd Hm. unfold bind.
  rewrite (pop_data_run s b (a :: rest) Hd) by (cbn [List.length]; lia).
  rewrite (pop_data_run _ a rest).
  - f_equal; by_log s.
  - reflexivity.
  - cbn [cx set_ds]. rewrite (proj1 (proj2 (with_log_fields _ s))). exact Hm.
Qed.

Lemma run_push s l c rest : limit_reached (stack_limit s) (length rest) = false ->
  push_data c (set_ds (with_log l s) rest) = ROk tt (set_ds (with_log (RPopData :: l) s) (c :: rest)).
Proof.
  intros H. unfold push_data. cbn [stack_limit ds set_ds].
  rewrite (proj1 (proj2 (proj2 (with_log_fields l s)))), H. f_equal; by_log s.
Qed.

Lemma run_push_limit s l c rest : limit_reached (stack_limit s) (length rest) = true ->
  push_data c (set_ds (with_log l s) rest) = RErr ELimit None (set_ds (with_log l s) rest).
Proof.
  intros H. unfold push_data. cbn [stack_limit ds set_ds].
  rewrite (proj1 (proj2 (proj2 (with_log_fields l s)))), H. reflexivity.
Qed.

Lemma push_data_run s c : limit_reached (stack_limit s) (length (ds s)) = false ->
  push_data c s = ROk tt (set_ds (with_log [RPopData] s) (c :: ds s)).
Proof. intros H. unfold push_data. rewrite H. f_equal; by_log s. Qed.

Lemma push_data_err s c k p s' : push_data c s = RErr k p s' ->
  k = ELimit /\ p = None /\ s' = s /\ limit_reached (stack_limit s) (length (ds s)) = true.
Proof.
  unfold push_data. destruct (limit_reached (stack_limit s) (length (ds s))) eqn:E; [|discriminate].
  intros H. injection H as <- <- <-. auto.
Qed.

(* the state after a word that popped its operands and pushed a result differs from the
   initial state in the data stack and the reverse log only *)
Lemma result_frame l s v :
  erase_log (set_ds (with_log l s) v) = set_ds (erase_log s) v /\
  rlog (set_ds (with_log l s) v) = match rlog s with Some old => Some (l ++ old)%list | None => None end.
Proof. split; [by_log s|apply with_log_rlog]. Qed.
