(* MetaBase.v (C11): meta contexts seal the machine.

   [keeps n l l']      the last n elements of a stack (the part below a context mark) survive
   [sealed s s']       the frame of everything executed inside one meta context: heap, context
                       stack and marks unchanged, every stack unchanged below its mark
   [frame] / [fp]      a generic compositional predicate "program m keeps relation R from every
                       state satisfying Pre", with the bind / get / put rules and the tactic
                       [fp_step] that walks a builder program with them
   and the instance for the machine: every [wl] program (hence every native word, every opcode,
   [fetch_and_run], [run]) is [sealed] when started in meta mode - a consequence of what running
   code keeps in any mode ([frame_rel], UnwindFrame.v). *)
From Xeh Require Import Model.Prelude Model.Bits Model.Codec Model.Cell Model.Lexer Model.Fmt
                        Model.Vm Model.Words Model.Build.
From Xeh Require Import Proofs.WordProg Proofs.VmFrame Proofs.VmLimits Proofs.NoPanic Proofs.NoPanicBuild
                        Proofs.NoPanicFlow Proofs.UnwindLists Proofs.UnwindFrame.
Local Notation length := List.length.
Local Open Scope list_scope.

#[local] Arguments Z.add : simpl never.
#[local] Arguments Z.sub : simpl never.
#[local] Arguments Z.mul : simpl never.
#[local] Arguments Z.ltb : simpl never.
#[local] Arguments Z.leb : simpl never.
#[local] Arguments Z.eqb : simpl never.
#[local] Arguments Z.of_nat : simpl never.
#[local] Arguments Z.to_nat : simpl never.

(* an equation between closed terms, by evaluation.  Both sides are normalised first: the
   independent checker compares a term with a value quickly, two unevaluated terms with
   each other it may not *)
Ltac vm_refl := vm_compute; reflexivity.

Lemma lastn_cons {A} (n : nat) (x : A) (l : list A) : n <= length l -> lastn n (x :: l) = lastn n l.
Proof. intros H. apply (lastn_app n [x] l H). Qed.

Definition keeps {A} (n : nat) (l l' : list A) : Prop := n <= length l' /\ lastn n l' = lastn n l.

Lemma keeps_refl {A} n (l : list A) : n <= length l -> keeps n l l.
Proof. intros H. split; [exact H|reflexivity]. Qed.

Lemma keeps_trans {A} n (a b c : list A) : keeps n a b -> keeps n b c -> keeps n a c.
Proof. intros [A1 A2] [B1 B2]. split; [exact B1|congruence]. Qed.

Lemma keeps_le {A} n m (l l' : list A) : m <= n -> keeps n l l' -> n <= length l -> keeps m l l'.
Proof.
  intros Hle [H1 H2] Hl. split; [lia|].
  rewrite <- (lastn_lastn m n l') by exact Hle. rewrite H2. apply lastn_lastn. exact Hle.
Qed.

Lemma keeps_app {A} n (a l : list A) : n <= length l -> keeps n l (a ++ l).
Proof. intros H. split; [rewrite app_length; lia|apply lastn_app; exact H]. Qed.

Lemma keeps_app_l {A} n (a b l : list A) : n <= length l -> keeps n (a ++ l) (b ++ l).
Proof. intros H. split; [rewrite app_length; lia|rewrite !lastn_app by exact H; reflexivity]. Qed.

(* the whole stack when the mark is its length *)
Lemma keeps_all {A} (l l' : list A) : keeps (length l) l l' -> exists a, l' = a ++ l.
Proof.
  intros [H1 H2]. exists (firstn (length l' - length l) l').
  rewrite (lastn_split (length l) l') at 1. rewrite H2. rewrite lastn_all by lia. reflexivity.
Qed.

Definition is_meta (s : state) : Prop := cmode (cx s) = MMeta.

Lemma not_meta_eqb m : m <> MMeta -> mode_eqb m MMeta = false.
Proof. destruct m; intros H; try reflexivity. contradiction H. reflexivity. Qed.

(* every stack reaches its mark *)
Definition wfm (s : state) : Prop :=
  ds_len (cx s) <= length (ds s) /\ rs_len (cx s) <= length (rs s) /\
  ls_len (cx s) <= length (loops s) /\ ss_ptr (cx s) <= length (special s) /\
  fs_len (cx s) <= length (flows s).

(* all of a context except the instruction pointer *)
Definition cmarks (c : ctx) : nat * nat * nat * nat * nat * nat * nat * mode :=
  (ds_len c, cs_len c, rs_len c, fs_len c, ls_len c, ss_ptr c, di_len c, cmode c).

Lemma cmarks_fields c c' : cmarks c' = cmarks c ->
  ds_len c' = ds_len c /\ cs_len c' = cs_len c /\ rs_len c' = rs_len c /\ fs_len c' = fs_len c /\
  ls_len c' = ls_len c /\ ss_ptr c' = ss_ptr c /\ di_len c' = di_len c /\ cmode c' = cmode c.
Proof. unfold cmarks. intros E. injection E as -> -> -> -> -> -> -> ->. repeat split. Qed.

Definition sealed (s s' : state) : Prop :=
  heap s' = heap s /\ nested s' = nested s /\ cmarks (cx s') = cmarks (cx s) /\
  keeps (ds_len (cx s)) (ds s) (ds s') /\ keeps (rs_len (cx s)) (rs s) (rs s') /\
  keeps (ls_len (cx s)) (loops s) (loops s') /\ keeps (ss_ptr (cx s)) (special s) (special s') /\
  keeps (fs_len (cx s)) (flows s) (flows s').

Definition mpre (s : state) : Prop := is_meta s /\ wfm s.

Lemma sealed_refl s : wfm s -> sealed s s.
Proof.
  intros (H1 & H2 & H3 & H4 & H5). unfold sealed.
  repeat split; try reflexivity; assumption.
Qed.

Lemma sealed_trans a b c : sealed a b -> sealed b c -> sealed a c.
Proof.
  intros (A1 & A2 & A3 & A4 & A5 & A6 & A7 & A8) (B1 & B2 & B3 & B4 & B5 & B6 & B7 & B8).
  destruct (cmarks_fields _ _ A3) as (E1 & E2 & E3 & E4 & E5 & E6 & E7 & E8).
  rewrite E1 in B4. rewrite E3 in B5. rewrite E5 in B6. rewrite E6 in B7. rewrite E4 in B8.
  unfold sealed. repeat split; try congruence; try (eapply keeps_trans; eassumption);
    first [apply B4|apply B5|apply B6|apply B7|apply B8].
Qed.

Lemma sealed_wfm a b : sealed a b -> wfm b.
Proof.
  intros (A1 & A2 & A3 & A4 & A5 & A6 & A7 & A8).
  destruct (cmarks_fields _ _ A3) as (E1 & E2 & E3 & E4 & E5 & E6 & E7 & E8).
  unfold wfm. rewrite E1, E3, E5, E6, E4.
  repeat split; first [apply A4|apply A5|apply A6|apply A7|apply A8].
Qed.

Lemma sealed_meta a b : is_meta a -> sealed a b -> is_meta b.
Proof.
  intros H (_ & _ & A3 & _). destruct (cmarks_fields _ _ A3) as (_ & _ & _ & _ & _ & _ & _ & E).
  unfold is_meta in *. congruence.
Qed.

Lemma sealed_mpre a b : mpre a -> sealed a b -> mpre b.
Proof. intros [H1 H2] S. split; [eapply sealed_meta; eassumption|eapply sealed_wfm; eassumption]. Qed.

(* the fields [sealed] talks about *)
Definition score (s : state) :=
  (heap s, nested s, cx s, ds s, rs s, loops s, special s, flows s).

Lemma sealed_score s s' : wfm s -> score s' = score s -> sealed s s'.
Proof.
  intros W E. unfold score in E. injection E as E1 E2 E3 E4 E5 E6 E7 E8.
  destruct W as (H1 & H2 & H3 & H4 & H5). unfold sealed.
  rewrite E1, E2, E3, E4, E5, E6, E7, E8. repeat split; assumption.
Qed.

Record frame := mkFrame {
  fr_pre : state -> Prop;
  fr_rel : state -> state -> Prop;
  fr_refl : forall s, fr_pre s -> fr_rel s s;
  fr_trans : forall a b c, fr_rel a b -> fr_rel b c -> fr_rel a c;
  fr_keep : forall a b, fr_pre a -> fr_rel a b -> fr_pre b }.

Definition fpa (F : frame) {A} (s : state) (m : M A) : Prop :=
  fr_pre F s -> res_all (fr_rel F s) (m s).
Definition fp (F : frame) {A} (m : M A) : Prop := forall s, fpa F s m.

Section FrameRules.
  Variable F : frame.

  Lemma fpa_ret A (a : A) s : fpa F s (ret a).
  Proof. intros H. apply fr_refl. exact H. Qed.
  Lemma fpa_fail A k p s : fpa F s (@fail A k p).
  Proof. intros H. apply fr_refl. exact H. Qed.
  Lemma fpa_unsup A s : fpa F s (@unsup A).
  Proof. intros H. exact I. Qed.
  Lemma fpa_panic A s : fpa F s (@panic A).
  Proof. intros H. exact I. Qed.

  Lemma fpa_bind A B (m : M A) (f : A -> M B) s :
    fpa F s m -> (forall a, fp F (f a)) -> fpa F s (bind m f).
  Proof.
    intros Hm Hf Hs. unfold bind. specialize (Hm Hs).
    destruct (m s) as [a s1|k p s1| |]; cbn [res_all] in *; auto.
    pose proof (Hf a s1 (fr_keep F _ _ Hs Hm)) as H2.
    destruct (f a s1); cbn [res_all] in *; auto; eapply fr_trans; eassumption.
  Qed.

  Lemma fpa_get_bind B (k : state -> M B) s : fpa F s (k s) -> fpa F s (bind get k).
  Proof. intros H. exact H. Qed.

  Lemma fpa_put s s' : (fr_pre F s -> fr_rel F s s') -> fpa F s (put s').
  Proof. intros H Hs. apply H. exact Hs. Qed.

  Lemma fpa_modify f s : (fr_pre F s -> fr_rel F s (f s)) -> fpa F s (modify f).
  Proof. intros H Hs. apply H. exact Hs. Qed.

  Lemma fp_ret A (a : A) : fp F (ret a).
  Proof. intros s. apply fpa_ret. Qed.
  Lemma fp_fail A k p : fp F (@fail A k p).
  Proof. intros s. apply fpa_fail. Qed.
  Lemma fp_unsup A : fp F (@unsup A).
  Proof. intros s. apply fpa_unsup. Qed.
  Lemma fp_bind A B (m : M A) (f : A -> M B) : fp F m -> (forall a, fp F (f a)) -> fp F (bind m f).
  Proof. intros Hm Hf s. apply fpa_bind; [apply Hm|exact Hf]. Qed.

  (* with a postcondition on the returned value *)
  Definition fpav {A} (Q : A -> Prop) (s : state) (m : M A) : Prop :=
    fr_pre F s ->
    match m s with
    | ROk a s' => Q a /\ fr_rel F s s'
    | RErr _ _ s' => fr_rel F s s'
    | _ => True
    end.

  Lemma fpa_bindv A B (Q : A -> Prop) (m : M A) (f : A -> M B) s :
    fpav Q s m -> (forall a, Q a -> fp F (f a)) -> fpa F s (bind m f).
  Proof.
    intros Hm Hf Hs. unfold bind. specialize (Hm Hs).
    destruct (m s) as [a s1|k p s1| |]; cbn [res_all] in *; auto.
    destruct Hm as [Hq Hm].
    pose proof (Hf a Hq s1 (fr_keep F _ _ Hs Hm)) as H2.
    destruct (f a s1); cbn [res_all] in *; auto; eapply fr_trans; eassumption.
  Qed.

  Lemma fpa_pre A (m : M A) s : (fr_pre F s -> fpa F s m) -> fpa F s m.
  Proof. intros H Hs. apply H; exact Hs. Qed.

  (* a program whose result states satisfy the relation outright *)
  Lemma fpa_of_rel A (m : M A) s : (fr_pre F s -> res_all (fr_rel F s) (m s)) -> fpa F s m.
  Proof. intros H. exact H. Qed.
End FrameRules.

(* One step of a walk through a builder program for a frame: a leaf from the hint database
   [fpdb] or from the context, else the rule for the head of the program. *)
Create HintDb fpdb.
#[export] Hint Resolve fpa_ret fpa_fail fpa_unsup fpa_panic : fpdb.

Ltac fp_step :=
  cbv beta zeta;
  first
    [ solve [ auto 2 with fpdb nocore ]
    | match goal with H : _ |- fpa _ _ _ => solve [ apply H ] end
    | lazymatch goal with
      | |- fp _ _ => intro
      | |- fpa _ _ (bind get _) => apply fpa_get_bind
      | |- fpa _ _ (bind _ _) => apply fpa_bind; [ | intro ]
      | |- fpa _ _ (match ?x with _ => _ end) => destruct x eqn:?
      | |- fpa _ _ (put _) => apply fpa_put; intro
      | |- fpa _ _ ?m => let h := head_of m in unfold h
      end ].

Definition SF : frame := mkFrame mpre sealed (fun s H => sealed_refl s (proj2 H)) sealed_trans sealed_mpre.

(* What running code cannot do at all ([frame_rel], UnwindFrame.v) gives the frame of a meta
   context: there the heap is kept too, and a stack kept below its mark in the sense of [below]
   keeps its last cells. *)
Lemma below_keeps {A} n (l l' : list A) : below n l l' -> n <= length l -> keeps n l l'.
Proof.
  intros B H. assert (Hn : length (lastn n l) = n) by (rewrite lastn_length; lia).
  assert (S : suffix_of (lastn n l) l') by (apply B; [exists (firstn (length l - n) l); apply lastn_split|lia]).
  split; [rewrite <- Hn; exact (suffix_length _ _ S)|].
  rewrite <- Hn at 1. exact (lastn_length_eq _ _ S).
Qed.

Lemma frame_sealed s s' : mpre s -> frame_rel s s' -> sealed s s'.
Proof.
  intros [Hm (W1 & W2 & W3 & W4 & W5)]
         (_ & _ & Fl & Nn & _ & _ & _ & _ & _ & _ & Ec & _ & Hh & B1 & B2 & B3 & B4 & _).
  unfold sealed. rewrite Ec, Fl. split; [exact (Hh Hm)|]. split; [exact Nn|]. split; [reflexivity|].
  split; [exact (below_keeps _ _ _ B1 W1)|]. split; [exact (below_keeps _ _ _ B2 W2)|].
  split; [exact (below_keeps _ _ _ B3 W3)|]. split; [exact (below_keeps _ _ _ B4 W4)|].
  apply keeps_refl. exact W5.
Qed.

Lemma sealed_of_frame {A} s (r : res A) : mpre s -> res_all (frame_rel s) r -> res_all (sealed s) r.
Proof. intros P H. destruct r; cbn [res_all] in *; auto; apply frame_sealed; assumption. Qed.

Lemma wl_sealed : forall A (m : M A), wl m -> fp SF m.
Proof. intros A m Hw s P. exact (sealed_of_frame s _ P (wl_frame A m Hw s)). Qed.

(* variables are sealed in meta mode *)
Lemma get_var_meta a s : is_meta s -> get_var a s = RErr EConst None s.
Proof. unfold is_meta, get_var. intros ->. reflexivity. Qed.
Lemma set_var_meta a v s : is_meta s -> set_var a v s = RErr EConst None s.
Proof. unfold is_meta, set_var. intros ->. reflexivity. Qed.
Lemma alloc_heap_meta v s : is_meta s -> alloc_heap v s = RErr EConst None s.
Proof. unfold is_meta, alloc_heap. intros ->. reflexivity. Qed.

Lemma fp_alloc_heap v : fp SF (alloc_heap v).
Proof. intros s [Hm W]. rewrite alloc_heap_meta by exact Hm. apply sealed_refl. exact W. Qed.

Section Machine.
  Variable fo : fops.

  Lemma far_sealed : fp SF (fetch_and_run (native_fn fo)).
  Proof. intros s P. exact (sealed_of_frame s _ P (far_frame _ (native_wl fo) s)). Qed.

  Lemma fp_run_m rf : fp SF (run_m fo rf).
  Proof.
    intros s P. unfold run_m, nf. pose proof (run_frame_native fo rf s) as H.
    destruct (run (native_fn fo) rf s); [exact (sealed_of_frame s _ P H)|exact I].
  Qed.

  Lemma steps_sealed : forall n s s', mpre s -> steps (native_fn fo) n s = Some s' -> sealed s s'.
  Proof.
    induction n as [|n IH]; intros s s' Hs E; cbn [steps] in E.
    - injection E as <-. apply sealed_refl. apply Hs.
    - pose proof (far_sealed s Hs) as H. cbn [SF fr_rel] in H.
      destruct (fetch_and_run (native_fn fo) s) as [u s1|k p s1| |]; try discriminate.
      cbn [res_all] in H. eapply sealed_trans; [exact H|].
      apply IH; [eapply sealed_mpre; eassumption|exact E].
  Qed.
End Machine.
