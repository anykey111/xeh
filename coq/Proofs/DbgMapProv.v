(* DbgMapProv.v (C17, 2): provenance of the debug-map entries.

   [is_token_span src a b]: the lexer, run over the text [src] ([lex_string]), produces a
   token (not whitespace, not a comment) with exactly the span [a, b).
   [tok_ok s (n, a, b)]: n is the index of a source of s and [a, b) is a token span of it.
   [dbg_ok s]: every entry of the debug map is [tok_ok]; [last_ok s]: so is the last token.

   The input lexers are kept "live" ([lex_live]: every token they will still produce is a
   token of [lex_string] of their source), so each token fetched by [next_token] is a token of
   its source; [code_emit] appends the last token; nothing else writes the debug map except
   the truncations.  The invariant is carried through every immediate word, [build1] for any
   fuel, the context operations, [build_unwind], [eval] / [compile] for ALL sources and every
   machine step, hence holds in every state reachable from [boot]. *)
From Xeh Require Import Model.Prelude Model.Bits Model.Codec Model.Cell Model.Lexer Model.Fmt
                        Model.Vm Model.Words Model.Build Model.Boot.
From Xeh Require Import Proofs.LexLoc Proofs.LexBasic Proofs.LexNext Proofs.LexAll.
From Xeh Require Import Proofs.VmFrame Proofs.VmLimits Proofs.DbgMapVm Proofs.DbgMapGen
                        Proofs.DbgMapAlign Proofs.BuildShape.

Definition nonws (t : tok) : bool := match t with TWs | TComment => false | _ => true end.

Definition is_token_span (src : string) (a b : nat) : Prop :=
  exists t, In (t, a, b) (lex_string src) /\ nonws t = true.

Definition src_of (s : state) (n : nat) : string := nth n (sources s) EmptyString.

Definition tok_ok (s : state) (t : tokref) : Prop :=
  let '(n, a, b) := t in n < List.length (sources s) /\ is_token_span (src_of s n) a b.

Definition dbg_ok (s : state) : Prop := Forall (tok_ok s) (dbg s).

Definition last_ok (s : state) : Prop :=
  match last_tok s with Some t => tok_ok s t | None => True end.

Definition lex_live (src : string) (l : lexst) : Prop :=
  Inv src l /\
  exists fuel, String.length src - lpos l < fuel /\ incl (lex_all fuel l) (lex_string src).

Definition inlex_ok (s : state) (il : inlex) : Prop :=
  in_src il < List.length (sources s) /\ lex_live (src_of s (in_src il)) (in_lex il).

Definition inputs_ok (s : state) : Prop := Forall (inlex_ok s) (input s).

Definition nometa (s : state) : Prop :=
  cmode (cx s) <> MMeta /\ Forall (fun c => cmode c <> MMeta) (nested s).

(* a token has been read, or no meta context is open (so that nothing is emitted before the
   first token of the session has been read) *)
Definition tok_ready (s : state) : Prop := last_tok s <> None \/ nometa s.

Definition PE (s : state) : Prop := al s /\ dbg_ok s /\ last_ok s /\ tok_ready s.
Definition P0 (s : state) : Prop := PE s /\ inputs_ok s.
Definition P1 (s : state) : Prop := P0 s /\ last_tok s <> None.
(* between API calls no input is pending *)
Definition PT (s : state) : Prop := PE s /\ input s = [].

Definition last_is (s : state) (tk : tok) : Prop :=
  exists n a b, last_tok s = Some (n, a, b) /\ n < List.length (sources s) /\
                In (tk, a, b) (lex_string (src_of s n)).

Lemma lex_live_new src : lex_live src (lex_new src).
Proof.
  split; [apply Inv_new|]. exists (S (String.length src)). split; [cbn [lex_new lpos]; lia|].
  unfold lex_string. apply incl_refl.
Qed.

Lemma lex_live_step src l t l' : lex_live src l -> lex_next l = (t, l') ->
  In (t, lstart l', lpos l') (lex_string src) /\
  Inv src l' /\
  (is_final t = false -> lex_live src l' /\ String.length src - lpos l' < String.length src - lpos l).
Proof.
  intros (HI & fuel & Hf & Hin) Hn.
  destruct fuel as [|f]; [lia|].
  rewrite lex_all_S, Hn in Hin.
  destruct (step_inv src l t l' HI Hn) as (I' & S1 & S2 & S3 & S4).
  destruct (is_final t) eqn:Et.
  - split; [apply Hin; left; reflexivity|]. split; [exact I'|]. discriminate.
  - split; [apply Hin; left; reflexivity|]. split; [exact I'|]. intros _.
    destruct (S3 eq_refl) as [Q1 Q2]. split; [|lia].
    split; [exact I'|]. exists f. split; [lia|].
    intros x Hx. apply Hin. right. exact Hx.
Qed.

Lemma lex_nonws_live src : forall fuel l t l',
  lex_live src l -> String.length src - lpos l < fuel ->
  lex_next_nonws fuel l = (t, l') ->
  In (t, lstart l', lpos l') (lex_string src) /\ nonws t = true /\
  (is_final t = false -> lex_live src l').
Proof.
  induction fuel as [|f IH]; intros l t l' HL Hf H; [lia|].
  cbn [lex_next_nonws] in H. destruct (lex_next l) as [t0 l0] eqn:Hn.
  destruct (lex_live_step src l t0 l0 HL Hn) as (A1 & A2 & A3).
  destruct t0; try (injection H as <- <-; split; [exact A1|]; split; [reflexivity|];
                    intros Hfin; exact (proj1 (A3 Hfin))).
  - destruct (A3 eq_refl) as [B1 B2]. eapply IH; [exact B1|lia|exact H].
  - destruct (A3 eq_refl) as [B1 B2]. eapply IH; [exact B1|lia|exact H].
Qed.

Lemma lex_nonws_live_std src l t l' :
  lex_live src l -> lex_next_nonws (S (String.length (lrest l))) l = (t, l') ->
  In (t, lstart l', lpos l') (lex_string src) /\ nonws t = true /\
  (is_final t = false -> lex_live src l').
Proof.
  intros HL H. eapply lex_nonws_live; [exact HL| |exact H].
  destruct HL as ((I1 & I2) & _). rewrite I1, str_drop_length. lia.
Qed.

Lemma src_of_app s s' ext n : sources s' = sources s ++ ext -> n < List.length (sources s) ->
  src_of s' n = src_of s n.
Proof. intros E H. unfold src_of. rewrite E. apply app_nth1. exact H. Qed.

Lemma tok_ok_ext s s' ext t : sources s' = sources s ++ ext -> tok_ok s t -> tok_ok s' t.
Proof.
  intros E. destruct t as [[n a] b]. cbn [tok_ok]. intros [H1 H2]. split.
  - rewrite E, app_length. lia.
  - rewrite (src_of_app s s' ext n E H1). exact H2.
Qed.

Lemma tok_ok_eq s s' t : sources s' = sources s -> tok_ok s t -> tok_ok s' t.
Proof. intros E. apply (tok_ok_ext s s' []). rewrite app_nil_r. exact E. Qed.

Lemma dbg_ok_eq s s' : sources s' = sources s -> dbg s' = dbg s -> dbg_ok s -> dbg_ok s'.
Proof.
  unfold dbg_ok. intros E1 E2 H. rewrite E2. eapply Forall_impl; [|exact H].
  intros t. apply tok_ok_eq. exact E1.
Qed.

Lemma last_ok_eq s s' : sources s' = sources s -> last_tok s' = last_tok s -> last_ok s -> last_ok s'.
Proof.
  unfold last_ok. intros E1 E2 H. rewrite E2. destruct (last_tok s); [|exact I].
  eapply tok_ok_eq; eassumption.
Qed.

Lemma inlex_ok_ext s s' ext il : sources s' = sources s ++ ext -> inlex_ok s il -> inlex_ok s' il.
Proof.
  intros E [H1 H2]. split.
  - rewrite E, app_length. lia.
  - rewrite (src_of_app s s' ext _ E H1). exact H2.
Qed.

Lemma inputs_ok_eq s s' : sources s' = sources s -> input s' = input s -> inputs_ok s -> inputs_ok s'.
Proof.
  unfold inputs_ok. intros E1 E2 H. rewrite E2. eapply Forall_impl; [|exact H].
  intros il. apply (inlex_ok_ext s s' []). rewrite app_nil_r. exact E1.
Qed.

Lemma nometa_eq s s' : cmode (cx s') = cmode (cx s) -> nested s' = nested s -> nometa s -> nometa s'.
Proof. unfold nometa. intros -> ->. auto. Qed.

Lemma tok_ready_eq s s' :
  last_tok s' = last_tok s -> cmode (cx s') = cmode (cx s) -> nested s' = nested s ->
  tok_ready s -> tok_ready s'.
Proof.
  unfold tok_ready. intros E1 E2 E3 [H|H]; [left; congruence|right; eapply nometa_eq; eassumption].
Qed.

Lemma PE_vm s s' : vmrel s s' -> PE s -> PE s'.
Proof.
  intros V (A & B & C & D). destruct (vmrel_keeps _ _ V) as (K1 & K2 & K3 & K4 & K5 & K6 & K7).
  split; [eapply al_vm; eassumption|]. split; [eapply dbg_ok_eq; eassumption|].
  split; [eapply last_ok_eq; eassumption|].
  eapply tok_ready_eq; try eassumption. apply ctx_noip_mode. exact K7.
Qed.

Lemma P0_vm s s' : vmrel s s' -> P0 s -> P0 s'.
Proof.
  intros V (A & B). destruct (vmrel_keeps _ _ V) as (K1 & K2 & K3 & K4 & K5 & K6 & K7).
  split; [eapply PE_vm; eassumption|]. eapply inputs_ok_eq; eassumption.
Qed.

Lemma P1_vm s s' : vmrel s s' -> P1 s -> P1 s'.
Proof.
  intros V (A & B). destruct (vmrel_keeps _ _ V) as (K1 & K2 & K3 & K4 & K5 & K6 & K7).
  split; [eapply P0_vm; eassumption|]. congruence.
Qed.

Lemma PT_vm s s' : vmrel s s' -> PT s -> PT s'.
Proof.
  intros V (A & B). destruct (vmrel_keeps _ _ V) as (K1 & K2 & K3 & K4 & K5 & K6 & K7).
  split; [eapply PE_vm; eassumption|]. congruence.
Qed.

(* with a token read, the context fields do not matter *)
Lemma P1_ctx s s' : same_data s s' -> P1 s -> P1 s'.
Proof.
  intros (E1 & E2 & E3 & E4 & E5) (((A & B & C & D) & F) & G).
  assert (G' : last_tok s' <> None) by congruence.
  split; [|exact G']. split; [|eapply inputs_ok_eq; eassumption].
  split; [eapply al_eq; eassumption|]. split; [eapply dbg_ok_eq; eassumption|].
  split; [eapply last_ok_eq; eassumption|]. left. exact G'.
Qed.

Section Tok.
  Variable pr : string -> option Z.

  Definition tok_post (s : state) (r : res btok) : Prop :=
    match r with
    | ROk BEnd s' => P0 s' /\ input s' = [] /\ (last_tok s <> None -> last_tok s' <> None)
    | ROk (BWord w) s' => P1 s' /\ last_is s' (TWord w)
    | ROk (BLit c) s' =>
      P1 s' /\ (last_is s' (TLit c) \/
                exists txt r, last_is s' (TReal txt) /\ pr txt = Some r /\ c = CReal r)
    | RErr k _ s' =>
      PE s' /\ k = EParse /\
      ((exists e x y, last_is s' (TErr e x y)) \/ (exists txt, last_is s' (TReal txt) /\ pr txt = None))
    | _ => True
    end.

  Lemma next_token_prov : forall fuel s, P0 s -> tok_post s (next_token pr fuel s).
  Proof.
    induction fuel as [|f IH]; intros s Hs; cbn [next_token]; [exact I|].
    destruct (input s) as [|il rest] eqn:Ein.
    { cbn [tok_post]. auto. }
    cbv zeta.
    destruct Hs as ((Ha & Hd & Hl & Hr) & Hi).
    unfold inputs_ok in Hi. rewrite Ein in Hi. inversion Hi as [|x y [Hil1 Hil2] Hrest]; subst x y.
    destruct (lex_next_nonws (S (String.length (lrest (in_lex il)))) (in_lex il)) as [t l'] eqn:En.
    destruct (lex_nonws_live_std _ _ _ _ Hil2 En) as (T1 & T2 & T3).
    set (s1 := set_last_tok (set_input s (mkinlex (in_src il) l' :: rest))
                            (Some (in_src il, lstart l', lpos l'))).
    assert (Htk : tok_ok s1 (in_src il, lstart l', lpos l')).
    { cbn [tok_ok]. split; [exact Hil1|]. exists t. split; [exact T1|exact T2]. }
    assert (HE1 : PE s1).
    { split; [exact Ha|]. split; [exact Hd|]. split; [exact Htk|]. left. discriminate. }
    assert (Hlast : last_is s1 t).
    { exists (in_src il), (lstart l'), (lpos l'). split; [reflexivity|]. split; [exact Hil1|exact T1]. }
    assert (HP1 : is_final t = false -> P1 s1).
    { intros Hfin. split; [|discriminate]. split; [exact HE1|].
      unfold inputs_ok. change (input s1) with (mkinlex (in_src il) l' :: rest).
      constructor; [|exact Hrest]. split; [exact Hil1|]. exact (T3 Hfin). }
    destruct t; try exact I.
    - (* end of this lexer *)
      assert (H0 : P0 (set_input s1 rest)).
      { split; [exact HE1|]. exact Hrest. }
      specialize (IH (set_input s1 rest) H0).
      destruct (next_token pr f (set_input s1 rest)) as [t2 s2|k p s2| |]; try exact IH.
      destruct t2; try exact IH.
      destruct IH as (B1 & B2 & B3). split; [exact B1|]. split; [exact B2|].
      intros _. apply B3. discriminate.
    - cbn [tok_post]. split; [apply HP1; reflexivity|exact Hlast].
    - cbn [tok_post]. split; [apply HP1; reflexivity|left; exact Hlast].
    - destruct (pr text) as [r|] eqn:Epr.
      + cbn [tok_post]. split; [apply HP1; reflexivity|]. right. exists text, r. auto.
      + cbn [tok_post]. split; [exact HE1|]. split; [reflexivity|]. right. exists text. auto.
    - cbn [tok_post]. split; [exact HE1|]. split; [reflexivity|]. left. eauto.
  Qed.

  Lemma get_token_prov : forall s, P0 s -> tok_post s (get_token pr s).
  Proof. intros s Hs. apply next_token_prov. exact Hs. Qed.

  Lemma prov_tok0 :
    gq PE P0 (fun t s' => match t with BEnd => P0 s' | _ => P1 s' end) (get_token pr).
  Proof.
    intros s Hs. pose proof (get_token_prov s Hs) as H.
    destruct (get_token pr s) as [t s1|k p s1| |]; auto.
    - destruct t; cbn [tok_post] in H; tauto.
    - cbn [tok_post] in H. tauto.
  Qed.

  Lemma prov_tok : gp P1 PE (get_token pr).
  Proof.
    intros s [Hs Hn]. pose proof (get_token_prov s Hs) as H.
    destruct (get_token pr s) as [t s1|k p s1| |]; auto.
    - destruct t; cbn [tok_post] in H; try tauto.
      destruct H as (B1 & B2 & B3). split; [exact B1|auto].
    - cbn [tok_post] in H. tauto.
  Qed.

  Lemma prov_name : gp P1 PE (next_name pr).
  Proof.
    intros s Hs. unfold next_name. cbv zeta.
    pose proof (prov_tok s Hs) as H. pose proof (get_token_bk pr s) as K.
    destruct (get_token pr s) as [t s1|k p s1| |]; auto.
    cbn [res_all] in K. destruct K as (K1 & K2 & K3 & K4 & K5 & K6 & K7).
    destruct Hs as (((Ha & Hd & Hl & Hr) & Hi) & Hn).
    assert (X : forall s1, P1 s1 -> code s1 = code s -> dbg s1 = dbg s -> sources s1 = sources s ->
                  PE (match last_tok s with Some _ => set_last_tok s1 (last_tok s) | None => s1 end)).
    { intros s2 (((Ha2 & Hd2 & Hl2 & Hr2) & Hi2) & Hn2) E1 E2 E3.
      destruct (last_tok s) as [t0|] eqn:El; [|congruence].
      split; [exact Ha2|]. split; [exact Hd2|]. split; [|left; discriminate].
      unfold last_ok in *. cbn [set_last_tok last_tok]. rewrite El in Hl.
      eapply tok_ok_eq; [|exact Hl]. exact E3. }
    destruct t; try exact H; apply X; assumption.
  Qed.
End Tok.

Lemma prov_emit op : gp P1 PE (code_emit op).
Proof.
  intros s (((Ha & Hd & Hl & Hr) & Hi) & Hn). rewrite code_emit_al by exact Ha.
  split; [|exact Hn]. split; [|exact Hi].
  split; [apply al_emit_state; exact Ha|]. split; [|split; [exact Hl|exact Hr]].
  unfold dbg_ok, emit_state, cur_tok. cbn [set_code set_dbg dbg].
  apply Forall_app. split; [exact Hd|]. constructor; [|constructor].
  unfold last_ok in Hl. destruct (last_tok s) as [t|]; [exact Hl|congruence].
Qed.

Lemma prov_open m : gp P1 PE (context_open m).
Proof. intros s Hs. unfold context_open. cbv zeta. eapply P1_ctx; [|exact Hs]. repeat split. Qed.

Lemma nometa_open s m c : m <> MMeta -> cmode c = m -> nometa s ->
  nometa (set_nested (set_cx s c) (cx s :: nested s)).
Proof.
  intros Hm Hc [N1 N2]. split; [cbn [set_nested set_cx cx]; congruence|].
  cbn [set_nested set_cx nested]. constructor; assumption.
Qed.

Lemma intern_state_PE t s : PE s ->
  PE (set_input (set_sources s (sources s ++ [t])) (mkinlex (List.length (sources s)) (lex_new t) :: input s)).
Proof.
  intros (Ha & Hd & Hl & Hr).
  set (s' := set_input _ _).
  assert (E : sources s' = sources s ++ [t]) by reflexivity.
  split; [exact Ha|]. split; [|split].
  - unfold dbg_ok. change (dbg s') with (dbg s). eapply Forall_impl; [|exact Hd].
    intros x. apply (tok_ok_ext s s' [t] x E).
  - unfold last_ok in *. change (last_tok s') with (last_tok s). destruct (last_tok s); [|exact I].
    apply (tok_ok_ext s s' [t] _ E Hl).
  - exact Hr.
Qed.

Lemma intern_state_inputs t s : inputs_ok s ->
  inputs_ok (set_input (set_sources s (sources s ++ [t])) (mkinlex (List.length (sources s)) (lex_new t) :: input s)).
Proof.
  intros Hi. set (s' := set_input _ _).
  assert (E : sources s' = sources s ++ [t]) by reflexivity.
  unfold inputs_ok. change (input s') with (mkinlex (List.length (sources s)) (lex_new t) :: input s).
  constructor.
  - split; cbn [in_src in_lex].
    + rewrite E, app_length. cbn [List.length]. lia.
    + unfold src_of. rewrite E. rewrite app_nth2 by lia. rewrite Nat.sub_diag. cbn [nth].
      apply lex_live_new.
  - eapply Forall_impl; [|exact Hi]. intros il. apply (inlex_ok_ext s s' [t] il E).
Qed.

Lemma prov_intern t : gp P1 PE (intern_source t).
Proof.
  intros s ((He & Hi) & Hn). unfold intern_source. cbv zeta.
  split; [|exact Hn]. split; [apply intern_state_PE; exact He|apply intern_state_inputs; exact Hi].
Qed.

Section Close.
  Variable fo : fops.
  Variable rf : nat.

  Lemma P1_PE s : P1 s -> PE s.
  Proof. intros H. exact (proj1 (proj1 H)). Qed.

  Lemma in_firstn_in {A} (n : nat) (l : list A) x : In x (firstn n l) -> In x l.
  Proof. intros H. rewrite <- (firstn_skipn n l). apply in_or_app. left. exact H. Qed.

  Lemma dbg_ok_trunc s n : dbg_ok s ->
    dbg_ok (set_dbg (set_code s (firstn n (code s))) (firstn n (dbg s))).
  Proof.
    unfold dbg_ok. cbn [set_dbg set_code dbg]. intros H.
    apply Forall_forall. intros x Hx. rewrite Forall_forall in H.
    apply (H x). eapply in_firstn_in. exact Hx.
  Qed.

  Lemma P1_trunc s n : P1 s -> P1 (set_dbg (set_code s (firstn n (code s))) (firstn n (dbg s))).
  Proof.
    intros (((Ha & Hd & Hl & Hr) & Hi) & Hn). split; [|exact Hn]. split; [|exact Hi].
    split; [apply al_trunc; exact Ha|]. split; [apply dbg_ok_trunc; exact Hd|]. split; [exact Hl|exact Hr].
  Qed.

  Lemma prov_close : gp P1 PE (context_close fo rf).
  Proof.
    intros s Hs.
    assert (H : res_all P1 (context_close fo rf s)).
    { apply (close_data P1 (fun _ => True)); auto.
      - exact P1_vm.
      - exact P1_ctx.
      - intros op s1 s2 E H1. pose proof (prov_emit op s1 H1) as X. rewrite E in X. exact X.
      - intros s1 n _. apply P1_trunc. }
    destruct (context_close fo rf s); auto. apply P1_PE. exact H.
  Qed.
End Close.

Section Walk.
  Variable fo : fops.
  Variable pr : string -> option Z.
  Variable rf : nat.

  Lemma P1_P0 s : P1 s -> P0 s.
  Proof. intros H. exact (proj1 H). Qed.
  Lemma P0_PE s : P0 s -> PE s.
  Proof. intros H. exact (proj1 H). Qed.

  Lemma prov_immediate_fn : forall fuel name w, immediate_fn fo pr rf fuel name = Some w -> gp P1 PE w.
  Proof.
    exact (gp_immediate_fn fo pr rf P0 P1 PE P1_P0 P0_PE P1_vm prov_emit (prov_tok pr) (prov_name pr)
             (prov_open MMeta) (fun s Hs => prov_close fo rf s (proj1 Hs)) prov_intern).
  Qed.

  Lemma prov_build_word : forall fuel name, gp P1 PE (build_word fo pr rf fuel name).
  Proof.
    exact (gp_build_word fo pr rf P0 P1 PE P1_P0 P0_PE P1_vm prov_emit (prov_tok pr) (prov_name pr)
             (prov_open MMeta) (fun s Hs => prov_close fo rf s (proj1 Hs)) prov_intern).
  Qed.

  Lemma prov_build1 : forall fuel depth, gp0 P0 PE (build1 fo pr rf fuel depth).
  Proof.
    exact (gp0_build1 fo pr rf P0 P1 PE P1_P0 P0_PE P1_vm P0_vm prov_emit (prov_tok pr) (prov_tok0 pr)
             (prov_name pr) (prov_open MMeta) (fun s Hs => prov_close fo rf s (proj1 Hs)) prov_intern).
  Qed.
End Walk.
