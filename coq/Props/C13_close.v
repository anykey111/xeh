(* C13 (continued) - "tags never change what a value does", close-bitstr included.

   Props/C13.v proves the commutation of every native word with [strip_state] except for close-bitstr
   (C13_full_partial) and shows that close-bitstr does not commute with the plain [strip_state]
   (C13_full_refuted): it reads the "offset" tag that open-bitstr attached to the input it suspended
   in the heap cell R_STASH.  This file settles what kind of tag that is:

   * the stash cell is PRIVATE: no native word other than open-bitstr / close-bitstr writes it
     (C13_stash_private), and no dictionary entry names it (Boot: big? input offset output
     output-length are cells 0 1 2 4 5; the stash is cell 3);
   * the offset tag of every stash entry is the one open-bitstr wrote - a user's own "offset" tag on
     the input is overwritten (C13_offset_tag_overwritten, C13_stash_ok_invariant);
   so it is bookkeeping of the bit-string module, not a tag a program can alter, and the full
   statement holds for the stripping that removes every tag of the machine except those offsets:

   Vocabulary (Proofs/TagClose2.v, TagClose2Frame.v):
     tagwfT_state s      no doubly wrapped tag in any cell of s, tag maps included
     stash_vec s         the vector in the stash cell, as close-bitstr sees it
     off_of e            the offset a stash entry carries (its "offset" tag, 0 if it has none)
     stash_off_ok s      those offsets are tagwf;  stash_ok s: every entry HAS an offset tag
     strip_state_off s   s with every tag removed at every depth (data stack, heap, loops, locals,
                         log), except that each stash entry keeps the single tag "offset"
     offs_rel v1 v2      entry by entry, the offsets agree after stripping (and are tagwf)
     srelK s1 s2         s1, s2 equal after stripping, both tagwfT, stash offsets related *)
From Xeh Require Import Model.Prelude Model.Bits Model.Codec Model.Cell Model.Lexer Model.Fmt
                        Model.Vm Model.Words Proofs.BitsProofs Proofs.CellProofs Proofs.CollProofs
                        Proofs.TagProofs Proofs.TagSim Proofs.TagWords Proofs.TagFresh Proofs.TagClose
                        Proofs.TagClose2 Proofs.TagClose2Frame.
Local Notation length := List.length.

(* every native word outside the design's exclusion list - close-bitstr included - commutes with
   stripping every tag except the stash offsets *)
Theorem C13_full_close : forall fo w f s,
  native_fn fo w = Some f -> ~ In w design_excluded ->
  tagwf_state s -> stash_off_ok s ->
  res_strip (f s) = res_strip (f (strip_state_off s)).
Proof. exact strip_commutes_full_close. Qed.
Check C13_full_close : forall fo w f s,
  native_fn fo w = Some f -> ~ In w design_excluded ->
  tagwf_state s -> stash_off_ok s ->
  res_strip (f s) = res_strip (f (strip_state_off s)).

(* under the single invariant tagwfT_state *)
Theorem C13_full_close_T : forall fo w f s,
  native_fn fo w = Some f -> ~ In w design_excluded -> tagwfT_state s ->
  res_strip (f s) = res_strip (f (strip_state_off s)).
Proof. exact strip_commutes_full_close_T. Qed.
Check C13_full_close_T : forall fo w f s,
  native_fn fo w = Some f -> ~ In w design_excluded -> tagwfT_state s ->
  res_strip (f s) = res_strip (f (strip_state_off s)).

(* for any two states that agree after stripping and whose stash entries carry the same offsets *)
Theorem C13_full_close_rel : forall fo w f s1 s2,
  native_fn fo w = Some f -> ~ In w design_excluded ->
  srel s1 s2 ->
  (forall v1 v2, stash_vec s1 = Some v1 -> stash_vec s2 = Some v2 -> offs_rel v1 v2) ->
  res_strip (f s1) = res_strip (f s2).
Proof. exact strip_commutes_full_close_rel. Qed.
Check C13_full_close_rel : forall fo w f s1 s2,
  native_fn fo w = Some f -> ~ In w design_excluded ->
  srel s1 s2 ->
  (forall v1 v2, stash_vec s1 = Some v1 -> stash_vec s2 = Some v2 -> offs_rel v1 v2) ->
  res_strip (f s1) = res_strip (f s2).

(* close-bitstr alone *)
Theorem C13_close_bitstr_rel : forall s1 s2,
  srel s1 s2 ->
  (forall v1 v2, stash_vec s1 = Some v1 -> stash_vec s2 = Some v2 -> offs_rel v1 v2) ->
  rrel eq (w_close_bitstr s1) (w_close_bitstr s2).
Proof. exact close_bitstr_rel. Qed.
Check C13_close_bitstr_rel : forall s1 s2,
  srel s1 s2 ->
  (forall v1 v2, stash_vec s1 = Some v1 -> stash_vec s2 = Some v2 -> offs_rel v1 v2) ->
  rrel eq (w_close_bitstr s1) (w_close_bitstr s2).

(* EVERY native word (tag makers and tag readers included) keeps the machine free of doubly wrapped
   tags, tag maps included *)
Theorem C13_tagwfT_invariant : forall fo w f s,
  native_fn fo w = Some f -> tagwfT_state s ->
  match f s with
  | ROk _ s' => tagwfT_state s'
  | RErr _ p s' => tgo notagtag p /\ tagwfT_state s'
  | _ => True
  end.
Proof. exact native_preserves_tagwfT. Qed.
Check C13_tagwfT_invariant : forall fo w f s,
  native_fn fo w = Some f -> tagwfT_state s ->
  match f s with
  | ROk _ s' => tagwfT_state s'
  | RErr _ p s' => tgo notagtag p /\ tagwfT_state s'
  | _ => True
  end.

Theorem C13_tagwfT_tagwf : forall s, tagwfT_state s -> tagwf_state s.
Proof. exact tagwfT_state_tagwf. Qed.
Check C13_tagwfT_tagwf : forall s, tagwfT_state s -> tagwf_state s.

Theorem C13_tagwfT_stash_off_ok : forall s, tagwfT_state s -> stash_off_ok s.
Proof. exact tagwfT_stash_off_ok. Qed.
Check C13_tagwfT_stash_off_ok : forall s, tagwfT_state s -> stash_off_ok s.

(* close-bitstr keeps the machine tagwf (the missing case of C13_native_preserves_tagwf) *)
Theorem C13_close_bitstr_preserves_tagwf : forall s,
  tagwf_state s -> stash_off_ok s ->
  match w_close_bitstr s with
  | ROk _ s' => tagwf_state s'
  | RErr _ _ s' => tagwf_state s'
  | _ => True
  end.
Proof. exact close_bitstr_preserves_tagwf. Qed.
Check C13_close_bitstr_preserves_tagwf : forall s,
  tagwf_state s -> stash_off_ok s ->
  match w_close_bitstr s with
  | ROk _ s' => tagwf_state s'
  | RErr _ _ s' => tagwf_state s'
  | _ => True
  end.

(* no native word other than open-bitstr / close-bitstr changes the stash cell, whether it
   succeeds or fails *)
Theorem C13_stash_private : forall fo w f s,
  native_fn fo w = Some f -> w <> "open-bitstr"%string -> w <> "close-bitstr"%string ->
  match f s with
  | ROk _ s' => nth_error (heap s') R_STASH = nth_error (heap s) R_STASH
  | RErr _ _ s' => nth_error (heap s') R_STASH = nth_error (heap s) R_STASH
  | _ => True
  end.
Proof.
  intros fo w f s H H1 H2. destruct (native_fn_kst fo w f H) as [Hw | Hk]; [| exact (Hk s)].
  apply Bool.orb_true_iff in Hw. destruct Hw as [Hw | Hw]; apply String.eqb_eq in Hw; congruence.
Qed.
Check C13_stash_private : forall fo w f s,
  native_fn fo w = Some f -> w <> "open-bitstr"%string -> w <> "close-bitstr"%string ->
  match f s with
  | ROk _ s' => nth_error (heap s') R_STASH = nth_error (heap s) R_STASH
  | RErr _ _ s' => nth_error (heap s') R_STASH = nth_error (heap s) R_STASH
  | _ => True
  end.

(* open-bitstr appends the suspended input tagged with the current offset; a failure leaves the
   stash alone *)
Theorem C13_open_bitstr_stash : forall s,
  match w_open_bitstr s with
  | ROk _ s' => exists v x o, stash_vec s = Some v /\
                              nth_error (heap s) R_INPUT = Some x /\ nth_error (heap s) R_OFFSET = Some o /\
                              stash_vec s' = Some (v ++ [insert_tag x offset_lit o])
  | RErr _ _ s' => stash_vec s' = stash_vec s
  | _ => True
  end.
Proof. exact open_bitstr_stash. Qed.
Check C13_open_bitstr_stash : forall s,
  match w_open_bitstr s with
  | ROk _ s' => exists v x o, stash_vec s = Some v /\
                              nth_error (heap s) R_INPUT = Some x /\ nth_error (heap s) R_OFFSET = Some o /\
                              stash_vec s' = Some (v ++ [insert_tag x offset_lit o])
  | RErr _ _ s' => stash_vec s' = stash_vec s
  | _ => True
  end.

(* close-bitstr drops the last entry *)
Theorem C13_close_bitstr_stash : forall s,
  match w_close_bitstr s with
  | ROk _ s' => exists v e, stash_vec s = Some (v ++ [e]) /\ stash_vec s' = Some v
  | RErr _ _ s' => stash_vec s' = stash_vec s
  | _ => True
  end.
Proof. exact close_bitstr_stash. Qed.
Check C13_close_bitstr_stash : forall s,
  match w_close_bitstr s with
  | ROk _ s' => exists v e, stash_vec s = Some (v ++ [e]) /\ stash_vec s' = Some v
  | RErr _ _ s' => stash_vec s' = stash_vec s
  | _ => True
  end.

(* whatever tags the suspended input x carried - a tag "offset" of the user's included - the entry's
   offset tag is the offset open-bitstr saved *)
Theorem C13_offset_tag_overwritten : forall x o,
  tg notagtag x -> get_tag (insert_tag x offset_lit o) offset_lit = Some o.
Proof. exact get_offset_insert. Qed.
Check C13_offset_tag_overwritten : forall x o,
  tg notagtag x -> get_tag (insert_tag x offset_lit o) offset_lit = Some o.

(* every stash entry has an offset tag: an invariant of EVERY native word; so close-bitstr always
   restores a saved offset and never falls back to 0 *)
Theorem C13_stash_ok_invariant : forall fo w f s,
  native_fn fo w = Some f -> tagwfT_state s -> stash_ok s ->
  match f s with
  | ROk _ s' => stash_ok s'
  | RErr _ _ s' => stash_ok s'
  | _ => True
  end.
Proof. exact native_preserves_stash_ok. Qed.
Check C13_stash_ok_invariant : forall fo w f s,
  native_fn fo w = Some f -> tagwfT_state s -> stash_ok s ->
  match f s with
  | ROk _ s' => stash_ok s'
  | RErr _ _ s' => stash_ok s'
  | _ => True
  end.

Theorem C13_stash_ok_last : forall s v e,
  stash_ok s -> stash_vec s = Some (v ++ [e]) -> get_tag e offset_lit = Some (off_of e).
Proof.
  intros s v e Hs V. specialize (Hs _ V). apply Forall_app in Hs. destruct Hs as [_ Hs].
  inversion Hs as [| ? ? [o Ho] _]; subst. unfold off_of. rewrite Ho. reflexivity.
Qed.
Check C13_stash_ok_last : forall s v e,
  stash_ok s -> stash_vec s = Some (v ++ [e]) -> get_tag e offset_lit = Some (off_of e).

(* related states go to related results, for every native word outside the exclusion list *)
Theorem C13_native_simK : forall fo w f s1 s2,
  native_fn fo w = Some f -> ~ In w design_excluded ->
  srelK s1 s2 -> rrelK (f s1) (f s2).
Proof. exact native_simK. Qed.
Check C13_native_simK : forall fo w f s1 s2,
  native_fn fo w = Some f -> ~ In w design_excluded ->
  srelK s1 s2 -> rrelK (f s1) (f s2).

Theorem C13_srelK_strip_off : forall s, tagwfT_state s -> srelK s (strip_state_off s).
Proof. exact srelK_strip_off. Qed.
Check C13_srelK_strip_off : forall s, tagwfT_state s -> srelK s (strip_state_off s).

(* hence any SEQUENCE of such words (run_seq: one after the other, stopping at the first failure) -
   open-bitstr ... close-bitstr pairs, nested, with reads in between - commutes with the stripping *)
Theorem C13_full_close_seq : forall fo fs s,
  Forall (plain_native fo) fs -> tagwfT_state s ->
  res_strip (run_seq fs s) = res_strip (run_seq fs (strip_state_off s)).
Proof.
  intros fo fs s HF Hs. apply rrelK_res_strip. eapply run_seq_simK; eauto. apply srelK_strip_off. exact Hs.
Qed.
Check C13_full_close_seq : forall fo fs s,
  Forall (plain_native fo) fs -> tagwfT_state s ->
  res_strip (run_seq fs s) = res_strip (run_seq fs (strip_state_off s)).

(* a machine whose `input` carries user tags, one of them named "offset" (99); current offset 8.
   open-bitstr stashes the input with offset 8 (the user's 99 is gone), close-bitstr restores 8 -
   from the state itself and from its strip_state_off form; the plain strip_state loses it *)
Example C13_close_nonvacuous : forall fo,
  tagwfT_state ex_oc_state /\ stash_ok ex_oc_state /\
  native_fn fo "open-bitstr"%string = Some w_open_bitstr /\
  native_fn fo "close-bitstr"%string = Some w_close_bitstr /\
  ~ In "close-bitstr"%string design_excluded /\ ~ In "open-bitstr"%string design_excluded /\
  nth_error (heap ex_oc_state) R_INPUT =
    Some (CTag [(CStr "offset", CInt 99); (CStr "zz", CInt 1)] ex_bits) /\
  heap_of (w_open_bitstr ex_oc_state) =
    Some [CInt 0; CBits (mkcbs 0 8 [7%N]); CInt 0;
          CVec [CTag [(CStr "offset", CInt 8); (CStr "zz", CInt 1)] ex_bits]; CNil; CInt 0] /\
  tagwfT_state ex_opened /\ stash_ok ex_opened /\
  nth_error (heap (strip_state_off ex_opened)) R_STASH = Some (CVec [CTag [(CStr "offset", CInt 8)] ex_bits]) /\
  option_map (fun h => nth_error h R_OFFSET) (heap_of (w_close_bitstr ex_opened)) = Some (Some (CInt 8)) /\
  option_map (fun h => nth_error h R_OFFSET) (heap_of (w_close_bitstr (strip_state_off ex_opened))) = Some (Some (CInt 8)) /\
  option_map (fun h => nth_error h R_OFFSET) (heap_of (w_close_bitstr (strip_state ex_opened))) = Some (Some (CInt 0)) /\
  res_strip (w_close_bitstr ex_opened) = res_strip (w_close_bitstr (strip_state_off ex_opened)).
Proof. exact close_nonvacuous. Qed.
