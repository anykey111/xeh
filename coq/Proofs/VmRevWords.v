(* VmRevWords.v: every native word is reversible, and only [exit] touches about_to_stop. *)
From Xeh Require Import Model.Prelude Model.Bits Model.Codec Model.Cell Model.Lexer Model.Fmt Model.Vm Model.Words.
From Xeh Require Import Proofs.VmPrim Proofs.WordProg Proofs.VmRevBase.
Local Notation length := List.length.
Local Open Scope string_scope.

(* a word that uses none of the reserved primitives *)
Definition no_caps : caps := mkcaps false false false false false false false.

Lemma wprog_rev c A (m : M A) :
  wprog c m -> c_stop c = false -> c_over c = false -> c_ip c = false -> rev 0 m.
Proof.
  intros H Hs Ho Hi.
  induction H; try congruence; try (eapply rev_prim; [constructor|discriminate]; fail).
  - apply rev_ret.
  - apply rev_fail.
  - apply rev_unsup.
  - apply rev_bind0; assumption.
  - apply rev_bind0; [apply rev_get|assumption].
  - apply rev_push_data.
  - apply rev_print.
Qed.

(* [exit] sets about_to_stop and then always fails *)
Lemma rev_w_exit : rev 0 w_exit.
Proof.
  intros s Hr Hw. unfold w_exit.
  set (rest := (let* c := pop_data in let* code := m_isize c in fail EExit (Some (cint code))) : M unit).
  assert (Hrest : rev 0 rest) by (apply (wprog_rev no_caps); try reflexivity; unfold rest; wp_solve).
  assert (Hne : forall s0 u s1, rest s0 <> ROk u s1).
  { intros s0 u s1 H. unfold rest, bind, fail in H. destruct (pop_data s0); try discriminate.
    destruct (m_isize a s2); discriminate. }
  unfold bind at 1. cbn [modify].
  assert (Hr2 : recording (set_stopping s true) = true) by exact Hr.
  assert (Hw2 : wf_marks (set_stopping s true)) by exact Hw.
  specialize (Hrest _ Hr2 Hw2).
  destruct (rest (set_stopping s true)) eqn:E; auto.
  exfalso. eapply Hne; eauto.
Qed.

(* [over] is the one word with two log entries for one change *)
Lemma native_fn_rev fo name f : native_fn fo name = Some f -> rev 1 f.
Proof.
  intros H. pose proof (native_wprog fo name f H) as W.
  destruct (String.eqb name "exit") eqn:E1.
  { apply String.eqb_eq in E1. subst name. injection H as <-.
    apply rev_weaken with 0; [apply rev_w_exit|lia]. }
  destruct (String.eqb name "over") eqn:E2.
  { apply String.eqb_eq in E2. subst name. injection H as <-. apply rev_over_data. }
  apply rev_weaken with 0; [|lia]. apply (wprog_rev _ _ _ W); [exact E1|exact E2|reflexivity].
Qed.
Print Assumptions native_fn_rev.

Definition ks {A} (m : M A) : Prop :=
  forall s, match m s with
            | ROk _ s' => stopping s' = stopping s
            | RErr _ _ s' => stopping s' = stopping s
            | _ => True
            end.

Lemma ks_bind {A B} (m : M A) (f : A -> M B) : ks m -> (forall a, ks (f a)) -> ks (bind m f).
Proof.
  intros Hm Hf s. unfold bind. specialize (Hm s). destruct (m s) as [a s1|k p s1| |]; auto.
  specialize (Hf a s1). destruct (f a s1); auto; congruence.
Qed.

Lemma ks_pure {A} (m : M A) : pure_m m -> ks m.
Proof. intros H s. specialize (H s). destruct (m s); auto; subst; auto. Qed.

Lemma ks_runs o {A} (m : M A) : runs o m -> ks m.
Proof.
  intros H s. specialize (H s). destruct (m s); try exact I.
  - exact (f_equal stopping (did_shell _ _ _ H)).
  - destruct H as (-> & _). reflexivity.
Qed.

Lemma ks_push_data c : ks (push_data c).
Proof.
  intros s. pose proof (push_data_did c s) as H. destruct (push_data c s); try exact I.
  - exact (f_equal stopping (did_shell _ _ _ H)).
  - destruct H as (-> & _). reflexivity.
Qed.

Lemma ks_over_data : ks over_data.
Proof.
  intros s. destruct (over_data_eq s) as [->|[b ->]]; [reflexivity|].
  pose proof (ks_push_data b (add_rstep ROverData s)) as H.
  change (stopping s) with (stopping (shell s)). rewrite <- (shell_add_rstep ROverData s). exact H.
Qed.

Lemma wprog_ks c A (m : M A) : wprog c m -> c_stop c = false -> ks m.
Proof.
  intros H Hs. induction H; try congruence; try (eapply ks_runs, prim_runs; constructor; fail);
    try (intros s; reflexivity).
  - apply ks_bind; assumption.
  - intros s. unfold bind, get. apply H0.
  - apply ks_push_data.
  - apply ks_over_data.
Qed.

Lemma native_fn_ks fo name f : native_fn fo name = Some f -> name = "exit" \/ ks f.
Proof.
  intros H. destruct (String.eqb name "exit") eqn:E; [left; apply String.eqb_eq; exact E|right].
  exact (wprog_ks _ _ _ (native_wprog fo name f H) E).
Qed.
