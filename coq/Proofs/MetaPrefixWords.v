(* MetaPrefixWords.v (C11): the frame [F2 cs di] for the table of immediate words. *)
From Xeh Require Import Model.Prelude Model.Bits Model.Codec Model.Cell Model.Lexer Model.Fmt
                        Model.Vm Model.Words Model.Build.
From Xeh Require Import Proofs.WordProg Proofs.BuildLet Proofs.VmFrame Proofs.VmLimits Proofs.NoPanic
                        Proofs.NoPanicBuild Proofs.NoPanicFlow
                        Proofs.MetaBase Proofs.MetaPurge Proofs.MetaBuild Proofs.MetaPrefix
                        Proofs.MetaPrefixBuild.
Local Notation length := List.length.
Local Open Scope list_scope.
Local Open Scope string_scope.

Section Words3.
  Variable cs di : nat.
  Notation F := (F2 cs di).

  Lemma fpp_build_local_variable name s : fpa F s (build_local_variable name).
  Proof.
    revert s. change (fp F (build_local_variable name)). unfold build_local_variable. fpp_solve.
    apply R2_set_locals. assumption.
  Qed.

  Lemma fpp_build_global_variable name s : fpa F s (build_global_variable name).
  Proof. unfold build_global_variable. fpp_solve. Qed.

  Lemma fpp_i_def_end s : fpa F s i_def_end.
  Proof.
    revert s. change (fp F i_def_end). unfold i_def_end. fpp_solve.
    match goal with
    | H : set_dict_len _ _ _ = Some _ |- _ =>
      unfold set_dict_len in H;
      repeat match type of H with
             | match ?x with _ => _ end = _ => destruct x eqn:?; try discriminate H
             end;
      injection H as <-
    end.
    apply R2_set_dict_ge; [assumption|]. cbn [popQ fok] in *. lia.
  Qed.

  Lemma fpp_i_immediate s : fpa F s i_immediate.
  Proof.
    revert s. change (fp F i_immediate). unfold i_immediate. fpp_solve.
    apply R2_set_dict_ge; [assumption|].
    match goal with
    | H : top_function_flow ?s = Some (?d, _, _), U : UP _ _ ?s |- _ =>
      unfold top_function_flow in H; eapply find_fun_fok; [exact U|exact H]
    end.
  Qed.

  Lemma fpp_i_const pr s : fpa F s (i_const pr).
  Proof.
    revert s. change (fp F (i_const pr)). unfold i_const. fpp_solve.
    match goal with
    | H1 : nth_error (dict ?s) ?p = Some ?e, H2 : dent ?e = DConst _ |- _ =>
      apply R2_set_dict_const; [assumption|exact H1|unfold is_dconst; rewrite H2; reflexivity]
    end.
  Qed.
End Words3.

#[export] Hint Resolve fpp_build_local_variable fpp_build_global_variable fpp_i_def_end fpp_i_immediate
  fpp_i_const : fpdb.

Section Words4.
  Variable cs di : nat.
  Notation F := (F2 cs di).

  Lemma fpp_build_let_named w s : fpa F s (build_let_named w).
  Proof. fpp_solve. Qed.
  Lemma fpp_build_let_match v s : fpa F s (build_let_match v).
  Proof. fpp_solve. Qed.
  Lemma fpp_let_vec_next i s : fpa F s (let_vec_next i).
  Proof. fpp_solve. Qed.

  Lemma fpp_i_loop s : fpa F s i_loop.
  Proof.
    revert s. change (fp F i_loop). unfold i_loop. fpp_solve.
    apply fpp_loop_loop. unfold code_origin. lia.
  Qed.
End Words4.

#[export] Hint Resolve fpp_build_let_named fpp_i_loop : fpdb.

Section Let4.
  Variable cs di : nat.
  Variable pr : string -> option Z.
  Notation F := (F2 cs di).

  Lemma fpp_build_let : forall f,
    fp F (build_let_in pr f) /\ fp F (build_let_tags pr f) /\ fp F (build_let_map pr f) /\
    (forall i, fp F (build_let_vec pr f i)).
  Proof.
    apply (build_let_closed pr (fun A m => fp F m)); intros; try (apply fp_bind; assumption); fpp_solve.
  Qed.
End Let4.

Section Top4.
  Variable cs di : nat.
  Variable fo : fops.
  Variable pr : string -> option Z.
  Variable rf : nat.
  Notation F := (F2 cs di).

  Lemma fpp_immediate_fn : forall fuel name w,
    immediate_fn fo pr rf fuel name = Some w -> ctx_word name = false -> fp F w.
  Proof.
    intros fuel name w H Hc. unfold immediate_fn in H. cbv zeta in H.
    revert Hc. apply (table_find_row (fun n m => ctx_word n = false -> fp F m)) with (2 := H).
    pose proof (proj1 (fpp_build_let cs di pr fuel)) as HL.
    repeat (apply Forall_cons;
            [ cbn [fst snd]; intros Hcw;
              first [ discriminate Hcw | fpp_solve ] | ]).
    apply Forall_nil.
  Qed.

  Lemma fpp_run_interp fuel x : fp F (run_immediate fo pr rf fuel (FInterp x)).
  Proof. unfold run_immediate. fpp_solve. Qed.
End Top4.
