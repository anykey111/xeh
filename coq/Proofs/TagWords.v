(* TagWords.v: every native word that does not read tags ([tag_reader]: the tag accessors, the
   formatting-flag and printing words, close-bitstr) commutes with stripping; the words that only
   write tags (with-tags, insert-tag, remove-tag, %tagmap-end) do too. *)
From Xeh Require Import Model.Prelude Model.Bits Model.Codec Model.Cell Model.Lexer Model.Fmt
                        Model.Vm Model.BaseN Model.Words Proofs.BitsProofs Proofs.CellProofs Proofs.CollProofs
                        Proofs.TagProofs Proofs.TagSim Proofs.WordProg.
From Coq Require Import Sorting.Sorted ZifyBool ZifyNat ZifyN.
Local Notation length := List.length.

Notation simw w := (sim eq w w).

Lemma sim_vector_get : forall v v' i, lrel v v' -> sim crel (vector_get v i) (vector_get v' i).
Proof. intros. sim_go. Qed.
#[export] Hint Resolve sim_vector_get : simdb.

Lemma sim_push_all : forall v v', lrel v v' -> sim eq (push_all v) (push_all v').
Proof.
  induction v as [| x r IH]; intros v' H.
  - apply lrel_nil_inv_l in H. subst. apply sim_ret_eq.
  - pose proof (lrel_shape _ _ H) as Sh. destruct v' as [| x' r']; try contradiction.
    destruct Sh as [Hx Hr]. cbn [push_all]. eapply sim_bind; [apply sim_push_data; assumption|].
    intros. apply IH. assumption.
Qed.
#[export] Hint Resolve sim_push_all : simdb.

Lemma sim_pop_n : forall n, sim eq (pop_n n) (pop_n n).
Proof. induction n; cbn [pop_n]; [apply sim_ret_eq|]. eapply sim_bind; [apply sim_pop_data|]. intros; assumption. Qed.
#[export] Hint Resolve sim_pop_n : simdb.

Lemma sim_vec_collect : forall ptr, sim lrel (vec_collect_till_ptr ptr) (vec_collect_till_ptr ptr).
Proof.
  intro ptr. unfold vec_collect_till_ptr. apply sim_get_bind. intros s1 s2 H. cbv zeta.
  rewrite (srel_ds_length _ _ H). destruct (length (ds s2) <? ptr); [apply sim_fail; reflexivity|].
  eapply sim_bind; [apply sim_pop_n|]. intros _ _ _. apply sim_ret.
  apply lrel_rev, lrel_firstn, srel_ds. assumption.
Qed.

Lemma sim_map_collect : forall ptr, sim mrel (map_collect_till_ptr ptr) (map_collect_till_ptr ptr).
Proof.
  intro ptr. unfold map_collect_till_ptr. apply sim_get_bind. intros s1 s2 H. cbv zeta.
  rewrite (srel_ds_length _ _ H). destruct (length (ds s2) <? ptr); [apply sim_fail; reflexivity|].
  destruct (negb ((length (ds s2) - ptr) mod 2 =? 0)); [apply sim_fail; reflexivity|].
  eapply sim_bind; [apply sim_pop_n|]. intros _ _ _. apply sim_ret.
  apply pairs_insert_rel; [| apply mrel_nil]. apply lrel_rev, lrel_firstn, srel_ds. assumption.
Qed.
#[export] Hint Resolve sim_vec_collect sim_map_collect : simdb.

Lemma sim_w_equal : simw w_equal. Proof. sim_go. Qed.
Lemma sim_w_is_nil : simw w_is_nil.
Proof.
  unfold w_is_nil. eapply sim_bind; [apply sim_pop_data|]. intros a a' Ha.
  rewrite (crel_eqb (value a) (value a') CNil CNil (crel_value _ _ Ha) crel_nil). sim_go.
Qed.
Lemma sim_w_drop : simw w_drop. Proof. sim_go. Qed.
Lemma sim_w_length : simw w_length. Proof. sim_go. Qed.
Lemma sim_w_nth : simw w_nth. Proof. sim_go. Qed.
Lemma sim_w_get : simw w_get. Proof. sim_go. Qed.
Lemma sim_w_reverse : simw w_reverse. Proof. sim_go. Qed.
Lemma sim_w_push : simw w_push. Proof. sim_go. Qed.
Lemma sim_w_sort : simw w_sort. Proof. sim_go. Qed.
Lemma sim_w_insert : simw w_insert. Proof. sim_go. Qed.
Lemma sim_w_remove : simw w_remove. Proof. sim_go. Qed.
Lemma sim_w_slice : simw w_slice. Proof. sim_go. Qed.
Lemma sim_w_unbox : simw w_unbox. Proof. sim_go. Qed.
Lemma sim_w_collect : simw w_collect.
Proof.
  unfold w_collect. eapply sim_bind; [apply sim_pop_data|]. intros c c' Hc.
  eapply sim_bind; [apply sim_m_usize; assumption|]. intros n ? <-.
  apply sim_get_bind. intros s1 s2 H.
  rewrite (data_depth_srel _ _ H), (srel_ds_length _ _ H).
  destruct (Z.of_nat (data_depth s2) <? n)%Z; sim_go.
Qed.
Lemma sim_w_depth : simw w_depth.
Proof.
  unfold w_depth. apply sim_get_bind. intros s1 s2 H. rewrite (data_depth_srel _ _ H). sim_go.
Qed.
Lemma sim_w_vec_begin : simw w_vec_begin.
Proof.
  unfold w_vec_begin. apply sim_get_bind. intros s1 s2 H. rewrite (srel_ds_length _ _ H). sim_go.
Qed.
Lemma sim_w_vec_end : simw w_vec_end. Proof. sim_go. Qed.
Lemma sim_w_map_end : simw w_map_end. Proof. sim_go. Qed.
Lemma sim_w_error : simw w_error. Proof. sim_go. Qed.
Lemma sim_w_assert : simw w_assert. Proof. sim_go. Qed.
Lemma sim_w_assert_eq : simw w_assert_eq. Proof. sim_go. Qed.
Lemma sim_w_exit : simw w_exit. Proof. sim_go. Qed.
Lemma sim_w_newline : simw w_newline. Proof. sim_go. Qed.
Lemma sim_w_foreach_init : simw w_foreach_init. Proof. sim_go. Qed.
Lemma sim_w_let_map_begin : simw w_let_map_begin. Proof. sim_go. Qed.
Lemma sim_w_let_map_end : simw w_let_map_end. Proof. sim_go. Qed.
Lemma sim_w_let_map_lookup : simw w_let_map_lookup. Proof. sim_go. Qed.
Lemma sim_w_let_vec_len : simw w_let_vec_len. Proof. sim_go. Qed.
Lemma sim_w_let_vec_any_len : simw w_let_vec_any_len. Proof. sim_go. Qed.
Lemma sim_w_let_vec_at : simw w_let_vec_at. Proof. sim_go. Qed.
Lemma sim_w_let_vec_rest : simw w_let_vec_rest. Proof. sim_go. Qed.

Lemma active_loops_rel : forall s1 s2, srel s1 s2 -> looprel (active_loops s1) (active_loops s2).
Proof.
  intros s1 s2 H. unfold active_loops. rewrite (srel_cx _ _ H), (srel_loops_length _ _ H).
  destruct (srel_looprel _ _ H) as (E & A & B). split.
  - rewrite <- !firstn_map, E. reflexivity.
  - split; eapply Forall_incl; eauto using incl_firstn.
Qed.

Lemma looprel_nth : forall a b n, looprel a b ->
  orel (fun l l' => crel (l_items l) (l_items l') /\ l_start l = l_start l' /\ l_end l = l_end l')
       (nth_error a n) (nth_error b n).
Proof.
  induction a as [| l r IH]; intros b n H; pose proof (looprel_shape _ _ H) as Sh;
    destruct b as [| l' r']; try contradiction.
  - destruct n; exact I.
  - destruct Sh as [Hl Hr]. destruct n; cbn; auto.
Qed.

Lemma sim_w_counter : forall n, simw (w_counter n).
Proof.
  intro n. unfold w_counter. apply sim_get_bind. intros s1 s2 H.
  pose proof (looprel_nth _ _ n (active_loops_rel _ _ H)) as N.
  destruct (nth_error (active_loops s1) n) as [l|], (nth_error (active_loops s2) n) as [l'|];
    cbn [orel] in N; try contradiction; [| sim_go].
  destruct N as (Hi & Hs & He). rewrite Hs. sim_go.
Qed.

Lemma sim_w_foreach_next : simw w_foreach_next.
Proof.
  unfold w_foreach_next. apply sim_get_bind. intros s1 s2 H.
  pose proof (looprel_shape _ _ (active_loops_rel _ _ H)) as Sh.
  destruct (active_loops s1) as [| l r], (active_loops s2) as [| l' r']; try contradiction; [sim_go|].
  destruct Sh as [(Hi & Hs & He) _]. rewrite Hs. sim_go.
Qed.

Section Arith.
  Variable fo : fops.
  Lemma sim_w_add : simw (w_add fo). Proof. sim_go. Qed.
  Lemma sim_w_sub : simw (w_sub fo). Proof. sim_go. Qed.
  Lemma sim_w_mul : simw (w_mul fo). Proof. sim_go. Qed.
  Lemma sim_w_div : simw (w_div fo). Proof. sim_go. Qed.
  Lemma sim_w_rem : simw (w_rem fo). Proof. sim_go. Qed.
  Lemma sim_w_neg : simw w_neg. Proof. sim_go. Qed.
  Lemma sim_w_abs : simw w_abs. Proof. sim_go. Qed.
  Lemma sim_w_cmp : forall f, simw (w_cmp f). Proof. intro. sim_go. Qed.
  Lemma sim_w_min : simw (w_min fo). Proof. sim_go. Qed.
  Lemma sim_w_max : simw (w_max fo). Proof. sim_go. Qed.
  Lemma sim_w_logic : forall f, simw (w_logic f). Proof. intro. sim_go. Qed.
  Lemma sim_w_not : simw w_not. Proof. sim_go. Qed.
  Lemma sim_arith_int : forall f, simw (arith_int f). Proof. intro. sim_go. Qed.
  Lemma sim_w_bnot : simw w_bnot. Proof. sim_go. Qed.
  Lemma sim_w_popcnt : simw w_popcnt. Proof. sim_go. Qed.
  Lemma sim_w_into_real : simw (w_into_real fo). Proof. sim_go. Qed.
  Lemma sim_w_into_int : simw (w_into_int fo). Proof. sim_go. Qed.
  Lemma sim_w_round : simw (w_round fo). Proof. sim_go. Qed.
  Lemma sim_w_sign_test : forall f g, simw (w_sign_test f g). Proof. intros. sim_go. Qed.

  Lemma sim_w_is : forall f, (forall v v', vrel v v' -> f v = f v') -> simw (w_is f).
  Proof.
    intros f Hf. unfold w_is. eapply sim_bind; [apply sim_pop_data|]. intros a a' Ha.
    rewrite (Hf _ _ (crel_vrel _ _ Ha)). sim_go.
  Qed.

  Lemma sim_current_input : sim eq current_input current_input. Proof. sim_go. Qed.
  Lemma sim_current_offset : sim eq current_offset current_offset. Proof. sim_go. Qed.
  Lemma sim_current_big : sim eq current_big current_big. Proof. sim_go. Qed.
  Lemma sim_current_order : sim eq current_order current_order. Proof. sim_go. Qed.
  Lemma sim_move_offset : forall p, sim eq (move_offset_checked p) (move_offset_checked p). Proof. intro. sim_go. Qed.
  Lemma sim_peek_bits : forall n, sim eq (peek_bits n) (peek_bits n). Proof. intro. sim_go. Qed.
  Lemma sim_rest_bits : sim eq rest_bits rest_bits. Proof. sim_go. Qed.
  Hint Resolve sim_current_input sim_current_offset sim_current_big sim_current_order sim_move_offset
       sim_peek_bits sim_rest_bits : simdb.

  Lemma sim_read_bits : forall n, simw (read_bits n). Proof. intro. sim_go. Qed.
  Lemma sim_read_unsigned : forall n o, simw (read_unsigned n o). Proof. intros. sim_go. Qed.
  Lemma sim_read_signed : forall n o, simw (read_signed n o). Proof. intros. sim_go. Qed.
  Lemma sim_read_float : forall n o, simw (read_float fo n o). Proof. intros. sim_go. Qed.
  Lemma sim_pack_int : forall n o, simw (pack_int n o). Proof. intros. sim_go. Qed.
  Lemma sim_pack_float : forall n o, simw (pack_float fo n o). Proof. intros. sim_go. Qed.
  Hint Resolve sim_read_bits sim_read_unsigned sim_read_signed sim_read_float sim_pack_int sim_pack_float : simdb.

  Lemma sim_with_order : forall f, (forall o, simw (f o)) -> simw (with_order f).
  Proof. intros f H. unfold with_order. eapply sim_bind; [apply sim_current_order|]. intros o ? <-. apply H. Qed.
  Lemma sim_with_size : forall f, (forall n, simw (f n)) -> simw (with_size f).
  Proof.
    intros f H. unfold with_size. eapply sim_bind; [apply sim_pop_data|]. intros c c' Hc.
    eapply sim_bind; [apply sim_m_usize; assumption|]. intros n ? <-. apply H.
  Qed.

  Lemma sim_w_open_bitstr : simw w_open_bitstr. Proof. sim_go. Qed.
  Lemma sim_w_units : forall k, simw (w_units k). Proof. intro. sim_go. Qed.
  Lemma sim_w_seek : simw w_seek. Proof. sim_go. Qed.
  Lemma sim_w_remain : simw w_remain. Proof. sim_go. Qed.
  Lemma sim_w_find : simw w_find. Proof. sim_go. Qed.
  Lemma sim_w_bitstr_len : simw w_bitstr_len. Proof. sim_go. Qed.
  Lemma sim_w_bitstr_append : simw w_bitstr_append. Proof. sim_go. Qed.
  Lemma sim_w_bitstr_not : simw w_bitstr_not. Proof. sim_go. Qed.
  Lemma sim_w_bitstr_zip : forall f, simw (w_bitstr_zip f). Proof. intro. sim_go. Qed.
  Lemma sim_w_hex_to_bitstr : simw w_hex_to_bitstr. Proof. sim_go. Qed.
  Lemma sim_w_bitstr_to_hex : simw w_bitstr_to_hex. Proof. sim_go. Qed.
  Lemma sim_w_set_order : forall b, simw (w_set_order b). Proof. intro. sim_go. Qed.
  Lemma sim_w_magic : simw w_magic. Proof. sim_go. Qed.
  Lemma sim_w_emit : simw w_emit. Proof. sim_go. Qed.
  Lemma sim_nulbytestr_read : sim eq nulbytestr_read nulbytestr_read. Proof. sim_go. Qed.
  Lemma sim_w_nulbytestr : simw w_nulbytestr. Proof. sim_go. Qed.
  Lemma sim_w_cstr : simw w_cstr. Proof. sim_go. Qed.
  Lemma sim_w_dump : simw w_dump. Proof. sim_go. Qed.
  Lemma sim_w_dump_at : simw w_dump_at. Proof. sim_go. Qed.
  Lemma sim_w_bitstr_to_utf8 : simw w_bitstr_to_utf8. Proof. sim_go. Qed.

  (* >bitstr walks nested vectors *)
  Definition bcv_rel (r r' : outcome cbs * option cell) : Prop :=
    fst r = fst r' /\ option_map strip (snd r) = option_map strip (snd r').

  Lemma bcv_sim : forall f v v' acc, lrel v v' -> bcv_rel (bitstr_concat_vec f v acc) (bitstr_concat_vec f v' acc).
  Proof.
    induction f as [| f IHf]; intros v v' acc H; [split; reflexivity|].
    revert v' acc H. induction v as [| x r IHv]; intros v' acc H.
    - apply lrel_nil_inv_l in H. subst. split; reflexivity.
    - pose proof (lrel_shape _ _ H) as Sh. destruct v' as [| x' r']; try contradiction.
      destruct Sh as [Hx Hr]. cbn [bitstr_concat_vec].
      pose proof (crel_vrel _ _ Hx) as V. pose proof (vrel_strip _ _ V) as S. revert V S.
      generalize (value x) (value x'). intros y y' V S.
      destruct V; try (split; [reflexivity | cbn; f_equal; exact S]); auto.
      + destruct ((0 <=? z) && (z <=? 255))%Z; auto. split; reflexivity.
      + pose proof (IHf l l' (mkcbs 0 0 []) H0) as [E1 E2].
        destruct (bitstr_concat_vec f l (mkcbs 0 0 [])) as [o p], (bitstr_concat_vec f l' (mkcbs 0 0 [])) as [o' p'].
        cbn [fst snd] in *. subst o'. destruct o; auto; split; auto.
  Qed.

  Lemma sim_bitstr_concat : forall c c', crel c c' -> sim eq (bitstr_concat c) (bitstr_concat c').
  Proof.
    intros c c' H. unfold bitstr_concat. by_vrel H; try (sim_go; fail).
    pose proof (bcv_sim 40 l l' (mkcbs 0 0 []) H0) as [E1 E2].
    destruct (bitstr_concat_vec 40 l (mkcbs 0 0 [])) as [o p], (bitstr_concat_vec 40 l' (mkcbs 0 0 [])) as [o' p'].
    cbn [fst snd] in *. subst o'. destruct o; [apply sim_ret_eq | apply sim_fail; assumption | apply sim_unsup].
  Qed.
  Hint Resolve sim_bitstr_concat : simdb.
  Lemma sim_into_bitstr : sim eq into_bitstr into_bitstr. Proof. sim_go. Qed.
  Hint Resolve sim_into_bitstr : simdb.
  Lemma sim_w_into_bitstr : simw w_into_bitstr. Proof. sim_go. Qed.
  Lemma sim_w_encode : forall e, simw (w_encode e). Proof. intro. sim_go. Qed.
  Lemma sim_w_decode : forall d, simw (w_decode d).
  Proof.
    intro d. unfold w_decode. apply sim_get_bind. intros s1 s2 H.
    rewrite (srel_cx _ _ H), (srel_ds_length _ _ H). sim_go.
  Qed.
End Arith.

#[export] Hint Resolve sim_current_input sim_current_offset sim_current_big sim_current_order sim_move_offset
  sim_peek_bits sim_rest_bits sim_read_bits sim_read_unsigned sim_read_signed sim_read_float sim_pack_int
  sim_pack_float sim_bitstr_concat sim_into_bitstr sim_nulbytestr_read : simdb.

Lemma sim_w_with_tags : simw w_with_tags. Proof. sim_go. Qed.
Lemma sim_w_insert_tag : simw w_insert_tag. Proof. sim_go. Qed.
Lemma sim_w_remove_tag : simw w_remove_tag. Proof. sim_go. Qed.
Lemma sim_w_tagmap_end : simw w_tagmap_end.
Proof. unfold w_tagmap_end. eapply sim_bind; [apply sim_w_map_end|]. intros. apply sim_w_with_tags. Qed.

(* words that READ tags: the tag accessors, the formatting-flag words, the printing words that
   honour the #fmt tag, and close-bitstr, which keeps the saved offset in a tag *)
Definition tag_readers : list string :=
  ["tags"; "get-tag"; "%fmt-base"; "%fmt-prefix"; "%fmt-tags"; "%fmt-upcase";
   "print"; "println"; ".s"; "concat"; "join"; "str>number"; "close-bitstr"]%string.
Definition tag_reader (w : string) : bool := existsb (String.eqb w) tag_readers.

#[export] Hint Resolve sim_w_equal sim_w_is_nil sim_w_counter sim_w_length sim_w_nth sim_w_get sim_w_sort sim_w_reverse sim_w_push
  sim_w_collect sim_w_unbox sim_w_drop sim_w_depth sim_w_assert sim_w_assert_eq sim_w_exit sim_w_newline
  sim_w_slice sim_w_insert sim_w_remove sim_w_with_tags sim_w_insert_tag sim_w_remove_tag sim_w_error
  sim_w_vec_begin sim_w_vec_end sim_w_map_end sim_w_tagmap_end sim_w_foreach_init sim_w_foreach_next
  sim_w_let_map_begin sim_w_let_map_end sim_w_let_map_lookup sim_w_let_vec_len sim_w_let_vec_any_len
  sim_w_let_vec_at sim_w_let_vec_rest
  sim_w_add sim_w_sub sim_w_mul sim_w_div sim_w_rem sim_w_neg sim_w_abs sim_w_cmp sim_w_logic sim_w_not
  sim_arith_int sim_w_bnot sim_w_round sim_w_min sim_w_max sim_w_into_real sim_w_into_int sim_w_sign_test
  sim_w_popcnt sim_w_open_bitstr sim_w_units sim_w_seek sim_w_remain sim_w_find sim_with_size sim_with_order
  sim_w_bitstr_len sim_w_bitstr_append sim_w_bitstr_not sim_w_bitstr_zip sim_w_hex_to_bitstr
  sim_w_bitstr_to_hex sim_w_into_bitstr sim_w_set_order sim_w_magic sim_w_emit sim_w_nulbytestr sim_w_cstr
  sim_w_dump sim_w_dump_at sim_w_bitstr_to_utf8 sim_w_encode sim_w_decode : simdb.
#[export] Hint Extern 1 (sim eq (w_is _) (w_is _)) => apply sim_w_is; intros ? ? []; reflexivity : simdb.

Lemma sim_word_table : forall fo,
  Forall (fun nw => tag_reader (fst nw) = true \/ simw (snd nw)) (word_table fo).
Proof.
  intro fo.
  (* a proof of [Forall] over a literal list repeats the rest of the list at every [Forall_cons]:
     the names are evaluated away first, so that the rows are small *)
  apply (proj1 (Forall_map (fun nw => (tag_reader (fst nw), snd nw))
                           (fun bw => fst bw = true \/ simw (snd bw)) (word_table fo))).
  cbv [map fst snd word_table tag_reader tag_readers existsb orb andb String.eqb Ascii.eqb Bool.eqb].
  repeat (apply Forall_cons;
          [ first [ left; reflexivity | right; cbn [snd]; solve [ auto with simdb nocore ] ] | ]).
  apply Forall_nil.
Qed.

Lemma sim_sized_word : forall fo name w, sized_word fo name = Some w -> simw w.
Proof.
  intros fo name w H. apply sized_word_shape in H.
  induction H; auto with simdb nocore.
Qed.

Lemma In_eqb : forall w l, existsb (String.eqb w) l = true <-> In w l.
Proof.
  intros w l. rewrite existsb_exists. split.
  - intros (x & Hx & E). apply String.eqb_eq in E. subst x. exact Hx.
  - intro H. exists w. split; [exact H | apply String.eqb_refl].
Qed.

Lemma sized_not_reader : forall fo name w, sized_word fo name = Some w -> tag_reader name = false.
Proof.
  intros fo name w H. destruct (tag_reader name) eqn:E; [| reflexivity].
  apply In_eqb in E. repeat (destruct E as [<- | E]; [ discriminate H | ]). destruct E.
Qed.

Theorem native_sim : forall fo w f, native_fn fo w = Some f -> tag_reader w = false -> sim eq f f.
Proof.
  intros fo w f H Hx. unfold native_fn in H.
  destruct (table_find (word_table fo) w) eqn:E.
  - injection H as <-.
    pose proof (table_find_row (fun n x => tag_reader n = true \/ simw x) _ _ _ (sim_word_table fo) E) as [T|T];
      [congruence | exact T].
  - eapply sim_sized_word; eauto.
Qed.

Lemma rrel_res_strip : forall A (r1 r2 : res A), rrel eq r1 r2 -> res_strip r1 = res_strip r2.
Proof.
  intros A r1 r2 H. destruct r1, r2; cbn in *; try contradiction; auto.
  - destruct H as [-> [E _]]. rewrite E. reflexivity.
  - destruct H as (-> & Ep & [E _]). rewrite E, Ep. reflexivity.
Qed.

Definition covered_words (fo : fops) : list string :=
  filter (fun w => negb (tag_reader w)) (map fst (word_table fo)).

Definition ex_state (d h : list cell) : state :=
  mkstate [] h [] [] [] [] d [] [] [] [] (mkctx 0 0 0 0 0 0 0 0 MEval) [] 0%Z None None None None EmptyString None false.

Definition ex_tagged : cell := CTag [(CStr "k", CInt 7)] (CInt 1).

Definition top_of {A} (r : res A) : option cell :=
  match r with ROk _ s => hd_error (ds s) | _ => None end.

Example tags_reads_tags :
  let s := ex_state [ex_tagged] [] in
  top_of (res_strip (w_tags s)) = Some (CMap [(CStr "k", CInt 7)]) /\
  top_of (res_strip (w_tags (strip_state s))) = Some CNil.
Proof. vm_compute. auto. Qed.

Example get_tag_reads_tags :
  let s := ex_state [CStr "k"; ex_tagged] [] in
  top_of (res_strip (w_get_tag s)) = Some (CInt 7) /\
  top_of (res_strip (w_get_tag (strip_state s))) = Some CNil.
Proof. vm_compute. auto. Qed.

(* print honours the #fmt tag: base 16 with prefix *)
Example print_reads_tags :
  let s := ex_state [CTag [(fmt_tag_name, CInt (16 + 256))] (CInt 255)] [] in
  option_map out (res_state (w_print s)) = Some "0xff"%string /\
  option_map out (res_state (w_print (strip_state s))) = Some "255"%string.
Proof. vm_compute. auto. Qed.

(* close-bitstr restores the offset it saved in a tag of the stashed input: with the heap
   stripped the offset is lost *)
Definition ex_bits : cell := CBits (mkcbs 0 16 [1%N; 2%N]).
Definition ex_close_state : state :=
  ex_state [] [CInt 0; ex_bits; CInt 0; CVec [CTag [(CStr "offset", CInt 8)] ex_bits]; CNil; CInt 0].

Example close_bitstr_reads_tags :
  tagwf_state ex_close_state /\
  option_map (fun s => nth_error (heap s) R_OFFSET) (res_state (res_strip (w_close_bitstr ex_close_state)))
    = Some (Some (CInt 8)) /\
  option_map (fun s => nth_error (heap s) R_OFFSET) (res_state (res_strip (w_close_bitstr (strip_state ex_close_state))))
    = Some (Some (CInt 0)).
Proof.
  split; [| vm_compute; auto].
  unfold tagwf_state, ex_close_state, ex_state. cbn.
  repeat split; repeat constructor; cbn; auto.
Qed.

Theorem close_bitstr_not_commuting :
  exists s, tagwf_state s /\ res_strip (w_close_bitstr s) <> res_strip (w_close_bitstr (strip_state s)).
Proof.
  exists ex_close_state. destruct close_bitstr_reads_tags as (T & A & B). split; auto.
  intro E. rewrite E in A. rewrite A in B. discriminate.
Qed.

Definition design_excluded : list string :=
  ["tags"; "with-tags"; "insert-tag"; "remove-tag"; "get-tag"; "%tagmap-end";
   "%fmt-base"; "%fmt-prefix"; "%fmt-tags"; "%fmt-upcase";
   "print"; "println"; ".s"; "concat"; "join"; "str>number"]%string.

Definition dummy_fops : fops :=
  mkfops (fun a _ => a) (fun a _ => a) (fun a _ => a) (fun a _ => a) (fun a _ => a) (fun a _ => a) (fun a _ => a)
         (fun a => a) (fun a => a) (fun a => a) (fun a => a) (fun a => a).

Lemma close_not_excluded : ~ In "close-bitstr"%string design_excluded.
Proof. intro H. apply In_eqb in H. discriminate H. Qed.

Lemma tag_reader_design : forall w, tag_reader w = true -> In w design_excluded \/ w = "close-bitstr"%string.
Proof.
  intros w H. apply In_eqb in H.
  repeat (destruct H as [<- | H]; [ first [ right; reflexivity | left; apply In_eqb; reflexivity ] | ]).
  destruct H.
Qed.

(* a concrete run: tagged arguments at depth 0, 1 and 2 *)
Definition ex_t : list (cell * cell) := [(CStr "k", CInt 7)].
Definition ex_args_state : state :=
  ex_state [CTag ex_t (CInt 1); CTag [(fmt_tag_name, CInt 16)] (CVec [CTag ex_t (CInt 0); CVec [CTag ex_t (CStr "x")]])] [].

Example strip_commutes_nonvacuous : forall fo,
  tagwf_state ex_args_state /\ native_fn fo "nth"%string = Some w_nth /\ tag_reader "nth"%string = false /\
  top_of (w_nth ex_args_state) = Some (CVec [CTag ex_t (CStr "x")]) /\
  top_of (w_nth (strip_state ex_args_state)) = Some (CVec [CStr "x"]) /\
  res_strip (w_nth ex_args_state) = res_strip (w_nth (strip_state ex_args_state)).
Proof.
  intro fo. split; [| split; [reflexivity | split; [reflexivity | vm_compute; repeat split; reflexivity]]].
  unfold tagwf_state, ex_args_state, ex_state. cbn [ds heap loops]. repeat split; ok_tac.
Qed.
