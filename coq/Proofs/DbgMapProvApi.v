(* DbgMapProvApi.v (C17, 2): the provenance invariant through whole sources and the API.

   [PT] (alignment, every debug entry and the last token are token spans of their source, no
   input pending) holds of [boot] and is kept - in the state a success or an error leaves - by
   [eval] / [compile] of ANY text with any fuel, by [next], [run], [rnext] and the settings. *)
From Xeh Require Import Model.Prelude Model.Bits Model.Codec Model.Cell Model.Lexer Model.Fmt
                        Model.Vm Model.Words Model.Build Model.Boot.
From Xeh Require Import Proofs.LexLoc Proofs.LexBasic Proofs.LexNext Proofs.LexAll Proofs.NoPanicLex.
From Xeh Require Import Proofs.BuildUnwind Proofs.BuildShape Proofs.UnwindLists Proofs.VmFrame Proofs.VmLimits
                        Proofs.DbgMapVm Proofs.DbgMapGen Proofs.NoPanicBuild Proofs.DbgMapAlign Proofs.DbgMapProv
                        Proofs.DbgMapMulti.

Definition kin (s s' : state) : Prop :=
  input s' = input s /\ last_tok s' = last_tok s /\ sources s' = sources s.

Lemma kin_refl s : kin s s.
Proof. repeat split. Qed.
Lemma kin_trans a b c : kin a b -> kin b c -> kin a c.
Proof. intros (A1 & A2 & A3) (B1 & B2 & B3). repeat split; congruence. Qed.
Lemma vmrel_kin s s' : vmrel s s' -> kin s s'.
Proof. intros V. destruct (vmrel_keeps _ _ V) as (_ & _ & K3 & K4 & K5 & _). repeat split; assumption. Qed.

Lemma code_emit_kin op s : res_all (kin s) (code_emit op s).
Proof. rewrite code_emit_eq. destruct (_ <=? _)%nat; [cbn [res_all]; repeat split|exact I]. Qed.

Lemma context_close_kin fo rf s : res_all (kin s) (context_close fo rf s).
Proof.
  apply (close_data (kin s) (fun _ => True)); [| | | |apply kin_refl|auto].
  - intros a b V H. exact (kin_trans _ _ _ H (vmrel_kin _ _ V)).
  - intros a b (_ & _ & E3 & E4 & E5) H. apply (kin_trans _ _ _ H). repeat split; assumption.
  - intros op a b E H. apply (kin_trans _ _ _ H). pose proof (code_emit_kin op a) as X. rewrite E in X. exact X.
  - intros a n _ H. apply (kin_trans _ _ _ H). repeat split.
Qed.

Lemma PE_ctx s s' :
  code s' = code s -> dbg s' = dbg s -> sources s' = sources s -> last_tok s' = last_tok s ->
  (last_tok s <> None \/ nometa s') -> PE s -> PE s'.
Proof.
  intros E1 E2 E3 E4 Hr (A & B & C & D).
  split; [eapply al_eq; eassumption|]. split; [eapply dbg_ok_eq; eassumption|].
  split; [eapply last_ok_eq; eassumption|].
  destruct Hr as [Hr|Hr]; [left; congruence|right; exact Hr].
Qed.

Section Top.
  Variable fo : fops.
  Variable pr : string -> option Z.
  Variable rf : nat.

  Lemma close_top : forall s, P0 s ->
    match context_close fo rf s with
    | ROk _ s' => PE s' /\ input s' = input s
    | RErr _ _ s' => PE s' /\ input s' = input s
    | _ => True
    end.
  Proof.
    intros s Hs.
    assert (G : res_all PE (context_close fo rf s)).
    { destruct (last_tok s) as [t0|] eqn:El.
      - assert (H1 : P1 s) by (split; [exact Hs|congruence]).
        pose proof (prov_close fo rf s H1) as H.
        destruct (context_close fo rf s); cbn [res_all]; auto. apply P1_PE. exact H.
      - (* no token read yet: no meta context is open, and leaving a context keeps that *)
        destruct Hs as (He & Hi). pose proof He as (_ & _ & _ & [Hr|[N1 N2]]); [congruence|].
        assert (X : forall prev rest s1 c, nested s = prev :: rest -> vmrel (set_nested s rest) s1 ->
                      cmode c = cmode prev -> PE (set_cx s1 c)).
        { intros prev rest s1 c En V Ec. rewrite En in N2. inversion N2 as [|x y Np Nr]; subst x y.
          assert (He0 : PE (set_nested s rest)).
          { eapply PE_ctx; [..|exact He]; try reflexivity. right. split; [exact N1|exact Nr]. }
          pose proof (PE_vm _ _ V He0) as He1.
          destruct (vmrel_keeps _ _ V) as (_ & _ & _ & _ & _ & K6 & _).
          eapply PE_ctx; [..|exact He1]; try reflexivity. right.
          split; [cbn [set_cx cx]; congruence|cbn [set_cx nested]; rewrite K6; exact Nr]. }
        assert (Ep : forall prev s1, cmode (eval_prev prev s1) = cmode prev).
        { intros prev s1. unfold eval_prev. destruct (mode_eqb _ _); reflexivity. }
        assert (V : forall r, res_all (vmrel (set_nested s r)) (run_m fo rf (set_nested s r)))
          by (intros r; apply run_m_vmrel).
        destruct (close_spec_holds fo rf s)
          as [En|prev rest En Em|prev rest u s1 En Em Er|prev rest k p s1 En Em Er|prev rest k p s1 En Em Er
             |prev rest u s1 s4 En Em Er E4|prev rest u s1 k p s4 En Em Er E4| | |];
          cbn [res_all]; try exact I; try exact He; try congruence.
        + apply (X prev rest); [exact En|apply vmrel_refl|reflexivity].
        + apply (X prev rest); [exact En| |apply Ep]. specialize (V rest). rewrite Er in V. exact V.
        + apply (X prev rest); [exact En| |apply Ep]. specialize (V rest). rewrite Er in V. exact V. }
    pose proof (context_close_kin fo rf s) as K.
    destruct (context_close fo rf s); cbn [res_all] in *; auto; (split; [exact G|exact (proj1 K)]).
  Qed.

  Lemma nometa_leave : forall fuel depth s, nometa s -> nometa (leave_contexts fuel depth s).
  Proof.
    induction fuel as [|f IH]; intros depth s H; cbn [leave_contexts]; [exact H|].
    destruct (S depth <? length (nested s))%nat; [|exact H].
    destruct (nested s) as [|prev rest] eqn:En; [exact H|].
    apply IH. destruct H as [N1 N2]. rewrite En in N2. inversion N2; subst.
    split; assumption.
  Qed.

  Lemma PE_build_unwind : forall depth inputs dsl heapl s, PE s ->
    PE (build_unwind depth inputs dsl heapl s) /\
    (inputs = 0 -> input (build_unwind depth inputs dsl heapl s) = []) /\
    last_tok (build_unwind depth inputs dsl heapl s) = last_tok s /\
    sources (build_unwind depth inputs dsl heapl s) = sources s.
  Proof.
    intros depth inputs dsl heapl s He.
    assert (F : last_tok (build_unwind depth inputs dsl heapl s) = last_tok s /\
                sources (build_unwind depth inputs dsl heapl s) = sources s)
      by (destruct (build_unwind_shape depth inputs dsl heapl s) as (c & c' & n' & ->); split; reflexivity).
    split; [|split; [intros ->; rewrite build_unwind_input; apply lastn_0|exact F]].
    rewrite build_unwind_eq. cbv zeta.
    set (s0 := set_input s (lastn inputs (input s))).
    assert (H0 : PE s0) by (apply (PE_ctx s); [reflexivity..| |exact He]; destruct He as (_ & _ & _ & R); exact R).
    assert (N1 : last_tok s0 <> None \/ nometa (leave_contexts (S (length (nested s))) depth s0)).
    { destruct H0 as (_ & _ & _ & [Hr|Hr]); [left; exact Hr|right]. apply nometa_leave. exact Hr. }
    destruct (leave_contexts_frame (S (length (nested s))) depth s0) as (c & n & E).
    rewrite E in *. set (s1 := set_nested (set_cx s0 c) n) in *.
    (* the cut keeps alignment and provenance; the context fields only matter through [nometa] *)
    assert (H5 : PE (unwind_cut dsl heapl s1)).
    { destruct H0 as (Ha & Hd & Hl & _).
      split; [exact (al_trunc s0 (cs_len c) Ha)|]. split; [exact (dbg_ok_trunc s0 (cs_len c) Hd)|].
      split; [exact Hl|exact N1]. }
    change (nested (unwind_cut dsl heapl s1)) with n.
    destruct n as [|prev rest]; [exact H5|].
    destruct (depth <? length (prev :: rest))%nat; [|exact H5].
    apply (PE_ctx (unwind_cut dsl heapl s1)); [reflexivity..| |exact H5].
    destruct N1 as [Hr|[N1 N2]]; [left; exact Hr|right]. inversion N2; subst. split; assumption.
  Qed.

  Lemma P0_start_state : forall src m s, m <> MMeta -> PT s -> P0 (start_state src m s).
  Proof.
    intros src m s Hm [He Hin]. unfold start_state.
    match goal with |- P0 (set_input (set_sources ?so _) _) =>
      assert (Ho : PE so);
      [ eapply PE_ctx; [..|exact He]; try reflexivity;
        destruct He as (_ & _ & _ & [Hr|Hr]); [left; exact Hr|right];
        apply nometa_open with (m := m); [exact Hm|reflexivity|exact Hr]
      | assert (Hio : inputs_ok so) by (unfold inputs_ok; cbn [set_nested set_cx input]; rewrite Hin; constructor);
        split; [apply (intern_state_PE src so Ho)|apply (intern_state_inputs src so Hio)] ]
    end.
  Qed.

  Theorem PT_build_from_source : forall fuel src m s, m <> MMeta -> PT s ->
    res_all PT (build_from_source fo pr rf fuel src m s).
  Proof.
    intros fuel src m s Hm Hs. unfold build_from_source. cbv zeta. rewrite start_state_eq.
    pose proof (prov_build1 fo pr rf fuel (length (nested (start_state src m s))) _
                  (P0_start_state src m s Hm Hs)) as H2.
    destruct (build1 fo pr rf fuel _ (start_state src m s)) as [u2 s2|k p s2| |] eqn:Eb; auto.
    - pose proof (close_top s2 H2) as H4. destruct (build1_ok_end _ _ _ _ _ _ _ _ Eb) as (H3 & _).
      destruct (context_close fo rf s2) as [u s'|k p s'| |]; cbn [res_all]; auto;
        destruct H4 as [X1 X2]; (split; [exact X1|congruence]).
    - cbn [res_all]. rewrite (proj2 Hs). cbn [length].
      destruct (PE_build_unwind (length (nested s)) 0 (length (ds s)) (length (heap s)) s2 H2) as (X1 & X2 & _).
      split; [exact X1|apply X2; reflexivity].
  Qed.

  Theorem PT_eval : forall fuel src s, PT s -> res_all PT (eval fo pr rf fuel src s).
  Proof. intros fuel src s Hs. apply PT_build_from_source; [discriminate|exact Hs]. Qed.

  Theorem PT_compile : forall fuel src s, PT s -> res_all PT (compile fo pr rf fuel src s).
  Proof. intros fuel src s Hs. apply PT_build_from_source; [discriminate|exact Hs]. Qed.
End Top.

Lemma PT_boot : PT boot.
Proof.
  split; [|reflexivity]. split; [reflexivity|]. split; [constructor|]. split; [exact I|].
  right. split; [discriminate|constructor].
Qed.

Section Api.
  Variable fo : fops.
  Variable pr : string -> option Z.

  Theorem api_PT : forall s, api_reach fo pr s -> PT s.
  Proof.
    apply api_reach_inv; [exact PT_boot|exact PT_vm| |].
    - intros rf bf src s. apply PT_eval.
    - intros rf bf src s. apply PT_compile.
  Qed.

  Definition entry_ok (s : state) (t : tokref) : Prop :=
    let '(n, a, b) := t in
    exists src, nth_error (sources s) n = Some src /\
                (exists tk, In (tk, a, b) (lex_string src) /\ nonws tk = true) /\
                (valid_utf8 src = true -> a <= b /\ b <= String.length src).

  Lemma tok_ok_entry_ok s t : tok_ok s t -> entry_ok s t.
  Proof.
    destruct t as [[n a] b]. cbn [tok_ok entry_ok]. intros [H1 H2].
    exists (src_of s n). split.
    - unfold src_of. apply nth_error_nth'. exact H1.
    - split; [exact H2|]. intros Hv. destruct H2 as (tk & Hin & _).
      eapply lex_span_inside_full; eassumption.
  Qed.

  Theorem api_prov : forall s, api_reach fo pr s ->
    (forall i t, nth_error (dbg s) i = Some t -> entry_ok s t) /\
    (forall t, last_tok s = Some t -> entry_ok s t) /\
    input s = [].
  Proof.
    intros s H. apply api_PT in H.
    destruct H as ((Ha & Hd & Hl & Hr) & Hi). split; [|split; [|exact Hi]].
    - intros i t Hn. apply tok_ok_entry_ok. unfold dbg_ok in Hd. rewrite Forall_forall in Hd.
      apply Hd. eapply nth_error_In. exact Hn.
    - intros t Ht. apply tok_ok_entry_ok. unfold last_ok in Hl. rewrite Ht in Hl. exact Hl.
  Qed.
End Api.
