(* CompileParse2.v: the induction over the parser [pseq]: what it returns is well formed. *)
From Xeh Require Import Model.Prelude Model.Bits Model.Codec Model.Cell Model.Lexer Model.Fmt
                        Model.Vm Model.Words Model.Struct
                        Proofs.CompileLayout Proofs.CompileProg Proofs.CompileParse Proofs.StructParse.
Local Notation length := List.length.
Local Open Scope string_scope.

Section Parse.
  Variable fo : fops.
  Variable pr : string -> option Z.

  Definition Spec (f : nat) : Prop :=
    forall toks e terms acc brk, funs_good (funs e) ->
      good_res e acc brk (pseq fo pr f toks e terms acc brk).

  Lemma inner_ok : forall f toks e0 terms0 tb term tp r1 e1 b1,
    Spec f -> funs_good (funs e0) ->
    pseq fo pr f toks e0 terms0 [] false = POk tb term tp r1 e1 b1 ->
    (term = "" \/ In term terms0) /\
    Forall wf_s tb /\ (b1 = false -> Forall nb_s tb) /\ estep e0 e1 (ddefs_b tb) /\ funs_good (funs e1) /\
    loopdepth e1 = loopdepth e0 /\ (loopdepth e0 = 0 -> b1 = false).
  Proof.
    intros f toks e0 terms0 tb term tp r1 e1 b1 IH Hf E.
    pose proof (pseq_term fo pr f toks e0 terms0 [] false) as T. rewrite E in T.
    pose proof (IH toks e0 terms0 [] false Hf) as H. rewrite E in H. cbn [good_res] in H.
    destruct H as (news & Hb & W & B & Es & F & L1 & L2). cbn [rev app] in Hb. subst tb.
    split; [exact T|]. split; [exact W|]. split; [intro Hq; apply (B Hq)|]. repeat (split; [assumption|]). exact L2.
  Qed.

  Lemma orb_false3 : forall a b c, a || b || c = false -> a = false /\ b = false /\ c = false.
  Proof. intros a b c H. apply Bool.orb_false_elim in H as [H ?]. apply Bool.orb_false_elim in H as [? ?]. auto. Qed.

  Lemma parms_ok : forall f e terms acc brk, Spec f -> funs_good (funs e) ->
    forall k toks e' got brk',
      Forall arm_wf got -> (brk' = false -> brk = false /\ Forall arm_nb got) ->
      estep e e' (ddefs_a got) -> funs_good (funs e') ->
      loopdepth e' = loopdepth e -> (loopdepth e = 0 -> brk' = brk) ->
      good_res e acc brk (parse_arms (pseq fo pr f) e terms acc k toks e' got brk').
  Proof.
    intros f e terms acc brk IH Hf. induction k as [|k IHk]; intros toks e' got brk' Wg Bg Eg Fg Lg Dg; [exact I|].
    cbn [parse_arms].
    destruct (pseq fo pr f toks e' ["of"; "endcase"] [] false) as [pre term pof r1 e1 b1|?|] eqn:E1;
      [|exact I|exact I].
    destruct (inner_ok _ _ _ _ _ _ _ _ _ _ IH Fg E1) as (T1 & W1 & B1 & Es1 & F1 & L1 & D1).
    destruct T1 as [->|[<-|[<-|[]]]]; cbv beta match; [exact I| |].
    - (* of *)
      destruct (pseq fo pr f r1 e1 ["endof"] [] false) as [body term2 tp2 r2 e2 b2|?|] eqn:E2;
        [|exact I|exact I].
      destruct (inner_ok _ _ _ _ _ _ _ _ _ _ IH F1 E2) as (T2 & W2 & B2 & Es2 & F2 & L2 & D2).
      destruct T2 as [->|[<-|[]]]; cbv beta match; [exact I|].
      apply IHk.
      + apply Forall_app. split; [exact Wg|]. constructor; [|constructor].
        split; cbn [fst snd]; apply wf_b_Forall; assumption.
      + intro Hq. apply orb_false3 in Hq. destruct Hq as (Q1 & Q2 & Q3). destruct (Bg Q1) as [Q4 Q5].
        split; [exact Q4|]. apply Forall_app. split; [exact Q5|]. constructor; [|constructor].
        split; cbn [fst snd]; apply nb_b_Forall; auto.
      + rewrite ddefs_a_app. cbn [ddefs_a]. rewrite app_nil_r.
        eapply estep_trans; [exact Eg|]. eapply estep_trans; eassumption.
      + exact F2.
      + congruence.
      + intro H0. rewrite D1, D2 by congruence. rewrite !Bool.orb_false_r. apply Dg. exact H0.
    - (* endcase *)
      eapply good_push.
      + apply IH. exact F1.
      + constructor; [apply wf_a_Forall; exact Wg|apply wf_b_Forall; exact W1].
      + intro Hq. apply Bool.orb_false_elim in Hq. destruct Hq as (Q1 & Q2). destruct (Bg Q1) as [Q4 Q5].
        split; [exact Q4|]. constructor; [apply nb_a_Forall; exact Q5|apply nb_b_Forall; auto].
      + rewrite ddefs_Case. apply (estep_funs_r e e1 (leave e e1)); [reflexivity|reflexivity|].
        eapply estep_trans; eassumption.
      + reflexivity.
      + intro H0. rewrite D1 by congruence. rewrite Bool.orb_false_r. apply Dg. exact H0.
  Qed.

  Ltac simple_push IH Hf :=
    eapply good_push;
    [ apply IH; exact Hf
    | constructor
    | let Hq := fresh "Hq" in intro Hq; split; [exact Hq|constructor]
    | apply estep_same; [reflexivity|auto]
    | reflexivity
    | intros _; reflexivity ].

  Lemma spec_step : forall f, Spec f -> Spec (S f).
  Proof.
    intros f IH toks e terms acc brk Hf. cbn [pseq].
    destruct toks as [|[[t a] b] rest]; [apply good_here; exact Hf|].
    destruct t as [|w| | |c|txt|pe es ee].
    - (* TEnd *) apply good_here. exact Hf.
    - (* TWord *)
      destruct (match plocals e with Some ls => rpos ls w 0 None | None => None end) as [i|];
        [simple_push IH Hf|].
      destruct (lookup (names e) w) as [[x|g|c]|]; [simple_push IH Hf|simple_push IH Hf|simple_push IH Hf|].
      destruct (mem terms w); [apply good_here; exact Hf|].
      destruct (w =? "if").
      { (* if *)
        destruct (pseq fo pr f rest (enter e false) ["else"; "then"] [] false)
          as [tb term tp r1 e1 b1|?|] eqn:E1; [|exact I|exact I].
        destruct (inner_ok _ _ _ _ _ _ _ _ _ _ IH (Hf : funs_good (funs (enter e false))) E1) as (T1 & W1 & B1 & Es1 & F1 & L1 & D1).
        destruct T1 as [->|[<-|[<-|[]]]]; cbv beta match; [exact I| |].
        - destruct (pseq fo pr f r1 e1 ["then"] [] false) as [eb term2 tp2 r2 e2 b2|?|] eqn:E2;
            [|exact I|exact I].
          destruct (inner_ok _ _ _ _ _ _ _ _ _ _ IH F1 E2) as (T2 & W2 & B2 & Es2 & F2 & L2 & D2).
          destruct T2 as [->|[<-|[]]]; cbv beta match; [exact I|].
          eapply good_push.
          + apply IH. exact F2.
          + constructor; apply wf_b_Forall; assumption.
          + intro Hq. apply orb_false3 in Hq. destruct Hq as (Q1 & Q2 & Q3).
            split; [exact Q1|]. constructor; apply nb_b_Forall; auto.
          + rewrite ddefs_IfE. apply (estep_funs_r e e2 (leave e e2)); [reflexivity|reflexivity|].
            apply (estep_funs e (enter e false)); [reflexivity|reflexivity|].
            eapply estep_trans; eassumption.
          + reflexivity.
          + intro H0. change (loopdepth (enter e false)) with (loopdepth e) in *.
            rewrite D1, D2 by congruence. rewrite !Bool.orb_false_r. reflexivity.
        - eapply good_push.
          + apply IH. exact F1.
          + constructor; apply wf_b_Forall; assumption.
          + intro Hq. apply Bool.orb_false_elim in Hq. destruct Hq as (Q1 & Q2).
            split; [exact Q1|]. constructor; apply nb_b_Forall; auto.
          + rewrite ddefs_If. apply (estep_funs_r e e1 (leave e e1)); [reflexivity|reflexivity|].
            apply (estep_funs e (enter e false)); [reflexivity|reflexivity|]. exact Es1.
          + reflexivity.
          + intro H0. change (loopdepth (enter e false)) with (loopdepth e) in *.
            rewrite D1 by congruence. rewrite Bool.orb_false_r. reflexivity. }
      destruct (w =? "case").
      { (* case *)
        change (good_res e acc brk (parse_arms (pseq fo pr f) e terms acc (S f) rest (enter e false) [] brk)).
        apply parms_ok; try assumption.
        - constructor.
        - intro Hq. split; [exact Hq|constructor].
        - apply estep_same; [reflexivity|auto].
        - reflexivity.
        - intros _. reflexivity. }
      destruct (w =? "begin").
      { (* begin *)
        destruct (pseq fo pr f rest (enter e true) ["until"; "repeat"; "while"] [] false)
          as [body term tp r1 e1 b1|?|] eqn:E1; [|exact I|exact I].
        destruct (inner_ok _ _ _ _ _ _ _ _ _ _ IH (Hf : funs_good (funs (enter e true))) E1) as (T1 & W1 & B1 & Es1 & F1 & L1 & D1).
        destruct T1 as [->|[<-|[<-|[<-|[]]]]]; cbv beta match; [exact I| | |].
        - (* until *)
          destruct b1; [exact I|].
          eapply good_push.
          + apply IH. exact F1.
          + constructor; [apply wf_b_Forall; assumption|apply nb_b_Forall; auto].
          + intro Hq. split; [exact Hq|]. constructor. apply nb_b_Forall; auto.
          + rewrite ddefs_Until. apply (estep_funs_r e e1 (leave e e1)); [reflexivity|reflexivity|].
            apply (estep_funs e (enter e true)); [reflexivity|reflexivity|]. exact Es1.
          + reflexivity.
          + intros _. reflexivity.
        - (* repeat *)
          eapply good_push.
          + apply IH. exact F1.
          + constructor; apply wf_b_Forall; assumption.
          + intro Hq. split; [exact Hq|]. constructor.
          + rewrite ddefs_Repeat. apply (estep_funs_r e e1 (leave e e1)); [reflexivity|reflexivity|].
            apply (estep_funs e (enter e true)); [reflexivity|reflexivity|]. exact Es1.
          + reflexivity.
          + intros _. reflexivity.
        - (* while *)
          destruct b1; [exact I|].
          destruct (pseq fo pr f r1 e1 ["repeat"] [] false) as [body2 term2 tp2 r2 e2 b2|?|] eqn:E2;
            [|exact I|exact I].
          destruct (inner_ok _ _ _ _ _ _ _ _ _ _ IH F1 E2) as (T2 & W2 & B2 & Es2 & F2 & L2 & D2).
          destruct T2 as [->|[<-|[]]]; cbv beta match; [exact I|].
          eapply good_push.
          + apply IH. exact F2.
          + constructor; apply wf_b_Forall; assumption.
          + intro Hq. split; [exact Hq|]. constructor.
          + rewrite ddefs_While. apply (estep_funs_r e e2 (leave e e2)); [reflexivity|reflexivity|].
            apply (estep_funs e (enter e true)); [reflexivity|reflexivity|].
            eapply estep_trans; eassumption.
          + reflexivity.
          + intros _. reflexivity. }
      destruct (w =? "do").
      { (* do *)
        destruct (pseq fo pr f rest (enter e true) ["loop"] [] false)
          as [body term tp r1 e1 b1|?|] eqn:E1; [|exact I|exact I].
        destruct (inner_ok _ _ _ _ _ _ _ _ _ _ IH (Hf : funs_good (funs (enter e true))) E1) as (T1 & W1 & B1 & Es1 & F1 & L1 & D1).
        destruct T1 as [->|[<-|[]]]; cbv beta match; [exact I|].
        eapply good_push.
        + apply IH. exact F1.
        + constructor; apply wf_b_Forall; assumption.
        + intro Hq. split; [exact Hq|]. constructor.
        + rewrite ddefs_Do. apply (estep_funs_r e e1 (leave e e1)); [reflexivity|reflexivity|].
          apply (estep_funs e (enter e true)); [reflexivity|reflexivity|]. exact Es1.
        + reflexivity.
        + intros _. reflexivity. }
      destruct (w =? "break").
      { destruct (0 <? loopdepth e)%nat eqn:Hld; [|exact I].
        eapply good_push.
        + apply IH. exact Hf.
        + constructor.
        + intro Hq. discriminate.
        + apply estep_same; [reflexivity|auto].
        + reflexivity.
        + intro H0. rewrite H0 in Hld. discriminate. }
      destruct (w =? ":").
      { (* definition *)
        destruct (plocals e) eqn:Epl; [exact I|].
        destruct (skipb rest) as [|[[[]] ?] r0]; try exact I.
        match goal with |- context [pseq fo pr f r0 ?e0 _ [] false] => set (e0' := e0) end.
        destruct (pseq fo pr f r0 e0' [";"] [] false) as [body term tp r1 e1 b1|?|] eqn:E1;
          [|exact I|exact I].
        destruct (inner_ok _ _ _ _ _ _ _ _ _ _ IH (Hf : funs_good (funs e0')) E1) as (T1 & W1 & B1 & Es1 & F1 & L1 & D1).
        destruct T1 as [->|[<-|[]]]; cbv beta match; [exact I|].
        destruct b1; [exact I|].
        eapply good_push.
        + apply IH. cbn [funs]. constructor; [|exact F1].
          cbn [snd]. split; [apply wf_b_Forall; assumption|apply nb_b_Forall; auto].
        + constructor.
        + intro Hq. split; [exact Hq|constructor].
        + (* inside the definition the locals are present: no function was added there *)
          destruct Es1 as [_ P1]. destruct (P1 ltac:(cbn; discriminate)) as [P2 P3].
          split.
          * cbn [funs map fst ddefs]. rewrite P2. cbn [funs].
            intros x [Hx|Hx]; [subst; apply in_or_app; right; left; reflexivity|apply in_or_app; left; exact Hx].
          * intro Hq. rewrite Epl in Hq. contradiction.
        + reflexivity.
        + intros _. reflexivity. }
      destruct (w =? "local").
      { destruct (skipb rest) as [|[[[]] ?] r0]; try exact I.
        destruct (plocals e) eqn:Epl; [|exact I].
        eapply good_push.
        + apply IH. exact Hf.
        + constructor.
        + intro Hq. split; [exact Hq|constructor].
        + apply estep_same; [reflexivity|]. intros _. cbn. discriminate.
        + reflexivity.
        + intros _. reflexivity. }
      destruct (w =? "var").
      { destruct (skipb rest) as [|[[[]] ?] r0]; try exact I.
        destruct (0 <? nest e)%nat; [exact I|].
        eapply good_push.
        + apply IH. exact Hf.
        + constructor.
        + intro Hq. split; [exact Hq|constructor].
        + apply estep_same; [reflexivity|auto].
        + reflexivity.
        + intros _. reflexivity. }
      destruct (w =? "!").
      { destruct (skipb rest) as [|[[[]] ?] r0]; try exact I.
        destruct (lookup (names e) s) as [[x|g|c]|]; try exact I.
        - simple_push IH Hf.
        - destruct (is_native fo s || mem keywords s || mem other_immediates s); exact I. }
      destruct (w =? "nil"); [simple_push IH Hf|].
      destruct (w =? "true"); [simple_push IH Hf|].
      destruct (w =? "false"); [simple_push IH Hf|].
      destruct (mem keywords w); [exact I|].
      destruct (mem other_immediates w); [exact I|].
      destruct (is_native fo w); [simple_push IH Hf|exact I].
    - (* TWs *) apply IH. exact Hf.
    - (* TComment *) apply IH. exact Hf.
    - (* TLit *) simple_push IH Hf.
    - (* TReal *) destruct (pr txt); [simple_push IH Hf|exact I].
    - (* TErr *) exact I.
  Qed.

  Theorem spec_all : forall f, Spec f.
  Proof.
    induction f as [|f IH]; [intros toks e terms acc brk _; exact I|apply spec_step; exact IH].
  Qed.
End Parse.
