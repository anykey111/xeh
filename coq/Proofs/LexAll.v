(* lex_all / lex_string: the invariants of the token loop, what they give for every token, and the
   tokens from a lexer state on (lex_from). *)
From Xeh Require Import Model.Prelude Model.Cell Model.Lexer.
From Xeh Require Import Proofs.LexLoc Proofs.LexBasic Proofs.LexStr Proofs.LexNext.
Local Open Scope string_scope.

Lemma lex_all_S f l :
  lex_all (S f) l =
  let '(t, l') := lex_next l in
  if is_final t then [(t, lstart l', lpos l')] else (t, lstart l', lpos l') :: lex_all f l'.
Proof. cbn [lex_all]. destruct (lex_next l) as [t l']. destruct t; reflexivity. Qed.

Lemma lex_all_Forall (I : lexst -> Prop) (P : tok * nat * nat -> Prop) :
  (forall l t l', I l -> lex_next l = (t, l') ->
     P (t, lstart l', lpos l') /\ (is_final t = false -> I l')) ->
  forall f l, I l -> Forall P (lex_all f l).
Proof.
  intros Hstep. induction f as [|f IH]; intros l Hl; [constructor|].
  rewrite lex_all_S. destruct (lex_next l) as [t l'] eqn:Hn.
  destruct (Hstep l t l' Hl Hn) as [HP HI].
  destruct (is_final t); constructor; [exact HP|constructor|exact HP|apply IH, HI; reflexivity].
Qed.

Definition Inv (s0 : string) (l : lexst) : Prop :=
  lrest l = str_drop (lpos l) s0 /\ llen l = String.length s0.

Lemma Inv_new s : Inv s (lex_new s).
Proof. split; reflexivity. Qed.

Lemma drop_nonempty_lt p s : str_drop p s <> "" -> p < String.length s.
Proof.
  intros H. destruct (Nat.lt_ge_cases p (String.length s)) as [L|L]; [exact L|].
  exfalso. apply H. apply str_drop_all. exact L.
Qed.

Lemma step_inv s0 l t l' : Inv s0 l -> lex_next l = (t, l') ->
  Inv s0 l' /\ lstart l' = lpos l /\ lpos l <= lpos l' /\
  (is_final t = false -> lpos l < lpos l' /\ lpos l < String.length s0) /\
  (forall w, t = TWord w -> w = substring_of s0 (lpos l) (lpos l')).
Proof.
  intros [I1 I2] H. destruct (lex_next_spec l t l' H) as (N1 & N2 & N3 & N4).
  destruct N3 as [(E1 & E2 & E3 & E4)|(A & P & _ & _)].
  - assert (Hlt : lpos l < String.length s0) by (apply drop_nonempty_lt; rewrite <- I1; exact E4).
    split; [|split; [exact N1|split; [lia|split]]].
    + split; [|congruence]. rewrite E2, E3, I2. symmetry. apply str_drop_all. lia.
    + intros Hf. destruct t; discriminate.
    + intros w ->. discriminate.
  - destruct A as [A1 A2].
    split; [|split; [exact N1|split; [exact A1|split]]].
    + split; [|congruence]. rewrite A2, I1, str_drop_drop. f_equal. lia.
    + intros Hf. destruct (P Hf) as [P1 P2]. split; [exact P1|].
      apply drop_nonempty_lt. rewrite <- I1. exact P2.
    + intros w Ew. destruct (N4 w Ew) as [X _]. rewrite X. unfold substring_of. rewrite I1. reflexivity.
Qed.

Lemma lex_all_shape s0 : forall fuel l, Inv s0 l -> String.length s0 - lpos l < fuel ->
  (exists pre t a b, lex_all fuel l = (pre ++ [(t, a, b)])%list /\ is_final t = true /\
                     Forall (fun x => is_final (fst (fst x)) = false) pre) /\
  tiles (lpos l) (lex_all fuel l).
Proof.
  induction fuel as [|f IH]; intros l HI Hf; [lia|].
  rewrite lex_all_S. destruct (lex_next l) as [t l'] eqn:Hn.
  destruct (step_inv s0 l t l' HI Hn) as (I' & S1 & S2 & S3 & _).
  destruct (is_final t) eqn:Et.
  - split.
    + exists [], t, (lstart l'), (lpos l'). split; [reflexivity|]. split; [exact Et|constructor].
    + cbn [tiles]. split; [exact S1|]. split; [exact S2|exact I].
  - destruct (S3 eq_refl) as [P1 P2].
    destruct (IH l' I') as ((pre & t1 & a & b & Q1 & Q2 & Q3) & T); [lia|].
    split.
    + exists ((t, lstart l', lpos l') :: pre), t1, a, b. rewrite Q1. split; [reflexivity|].
      split; [exact Q2|]. constructor; [exact Et|exact Q3].
    + cbn [tiles]. split; [exact S1|]. split; [exact S2|exact T].
Qed.

Definition tok_inv (s0 : string) (x : tok * nat * nat) : Prop :=
  let '(t, a, b) := x in
  (is_final t = false -> a < b) /\ (forall w, t = TWord w -> w = substring_of s0 a b).

Lemma lex_all_inv s0 fuel l : Inv s0 l -> Forall (tok_inv s0) (lex_all fuel l).
Proof.
  apply lex_all_Forall. clear l. intros l t l' HI Hn.
  destruct (step_inv s0 l t l' HI Hn) as (I' & S1 & _ & S3 & S4). split; [|intros _; exact I'].
  cbn [tok_inv]. rewrite S1. split; [intros Hf; apply S3, Hf|exact S4].
Qed.

Definition Good (s0 : string) (l : lexst) : Prop :=
  Inv s0 l /\ valid_go (lrest l) 0 = true /\ lpos l + String.length (lrest l) = llen l.

Lemma Good_new s : valid_utf8 s = true -> Good s (lex_new s).
Proof. intros Hv. split; [apply Inv_new|]. split; [exact Hv|reflexivity]. Qed.

Definition tok_good (s0 : string) (x : tok * nat * nat) : Prop :=
  let '(t, a, b) := x in
  (a <= b /\ b <= String.length s0) /\ (t = TEnd -> a = String.length s0) /\
  (forall w, t = TWord w -> no_ws w = true).

Lemma step_good s0 l t l' : Good s0 l -> lex_next l = (t, l') ->
  tok_good s0 (t, lstart l', lpos l') /\ (is_final t = false -> Good s0 l').
Proof.
  intros (HI & Hv & Hx) Hn.
  destruct (step_inv s0 l t l' HI Hn) as (I' & S1 & S2 & _).
  destruct (lex_next_spec l t l' Hn) as (_ & N2 & N3 & N4). pose proof HI as [_ I2].
  cbn [tok_good]. rewrite S1.
  destruct N3 as [(E1 & _ & E3 & _)|(_ & _ & Z & V)].
  - split; [|destruct t; discriminate]. split; [lia|]. split; [intros ->; discriminate|].
    intros w ->. discriminate.
  - destruct (V Hv) as [V1 V2]. apply advx_len in V1. split.
    + split; [lia|]. split.
      * intros Et. rewrite (Z Et) in Hx. cbn [String.length] in Hx. lia.
      * intros w Ew. apply (N4 w Ew), Hv.
    + intros Hf. split; [exact I'|]. split; [|lia]. apply V2. destruct t; try reflexivity; discriminate.
Qed.

Lemma lex_all_good s0 fuel l : Good s0 l -> Forall (tok_good s0) (lex_all fuel l).
Proof. apply lex_all_Forall. intros l0 t l'. apply step_good. Qed.

Lemma lex_tiles : forall s, tiles 0 (lex_string s).
Proof. intros s. apply (lex_all_shape s (S (String.length s)) (lex_new s) (Inv_new s)). cbn [lex_new lpos]. lia. Qed.

Lemma lex_string_inv s x : In x (lex_string s) -> tok_inv s x.
Proof. apply Forall_forall, lex_all_inv, Inv_new. Qed.

Lemma lex_string_good s : valid_utf8 s = true -> forall x, In x (lex_string s) -> tok_good s x.
Proof. intros Hv. apply Forall_forall, lex_all_good, Good_new, Hv. Qed.

Lemma tiles_spans : forall l p t a b, tiles p l -> In (t, a, b) l -> p <= a /\ a <= b.
Proof.
  induction l as [|[[t0 a0] b0] l IH]; intros p t a b HT Hin; [contradiction|].
  cbn [tiles] in HT. destruct HT as (E & Hle & HT'). destruct Hin as [E1|Hin].
  - injection E1 as -> -> ->. lia.
  - destruct (IH _ _ _ _ HT' Hin). lia.
Qed.

Lemma word_text_substring : forall s w a b,
  In (TWord w, a, b) (lex_string s) -> w = substring_of s a b.
Proof. intros s w a b Hin. exact (proj2 (lex_string_inv s _ Hin) w eq_refl). Qed.

(* the unrestricted statements are false for byte strings that are not UTF-8:
   a lone lead byte announces a character wider than the rest of the text *)
Theorem lex_reaches_end_counterexample :
  let s := String (ascii_of_N 195) "" in
  lex_string s = ([(TWord s, 0, 2)] ++ [(TEnd, 2, 2)])%list /\ String.length s = 1.
Proof. vm_compute. split; reflexivity. Qed.

Theorem word_text_counterexample :
  let s := String (ascii_of_N 195) " " in
  In (TWord s, 0, 2) (lex_string s) /\ no_ws s = false.
Proof. vm_compute. split; [left; reflexivity|reflexivity]. Qed.

Definition nonfinal (x : tok * nat * nat) : Prop := is_final (fst (fst x)) = false.

Lemma lex_next_shrinks l t l' : lex_next l = (t, l') -> is_final t = false ->
  String.length (lrest l') < String.length (lrest l).
Proof.
  intros H Hf. destruct (lex_next_spec l t l' H) as (_ & _ & N3 & _).
  destruct N3 as [(E1 & _)|(A & P & _ & _)]; [destruct t; discriminate|].
  destruct (P Hf) as [P1 P2]. destruct A as [A1 A2]. rewrite A2, str_drop_length.
  destruct (lrest l); [congruence|cbn [String.length]; lia].
Qed.

Lemma lex_all_fuel : forall f1 f2 l,
  String.length (lrest l) < f1 -> String.length (lrest l) < f2 -> lex_all f1 l = lex_all f2 l.
Proof.
  induction f1 as [|f1 IH]; intros f2 l H1 H2; [lia|].
  destruct f2 as [|f2]; [lia|]. rewrite !lex_all_S.
  destruct (lex_next l) as [t l'] eqn:Hn. destruct (is_final t) eqn:Et; [reflexivity|].
  pose proof (lex_next_shrinks l t l' Hn Et) as Hs. f_equal. apply IH; lia.
Qed.

(* ... nor on the recorded start of the previous token, which Lex::next never looks at *)
Lemma lex_all_from f r p st n : String.length r < f -> lex_all f (mklex r p st n) = lex_from r p n.
Proof.
  intros Hf. unfold lex_from.
  rewrite (lex_all_fuel f (S (String.length r))) by (cbn [lrest]; lia).
  rewrite !lex_all_S. reflexivity.
Qed.

Lemma lex_string_from s : lex_string s = lex_from s 0 (String.length s).
Proof. reflexivity. Qed.

Lemma lex_from_step r p n t r' p' st' n' :
  lex_next (mklex r p p n) = (t, mklex r' p' st' n') -> is_final t = false ->
  lex_from r p n = (t, st', p') :: lex_from r' p' n'.
Proof.
  intros H Hf. unfold lex_from at 1. rewrite lex_all_S, H, Hf. cbn [lstart lpos]. f_equal.
  apply lex_all_from. pose proof (lex_next_shrinks _ _ _ H Hf) as Hs. cbn [lrest] in Hs. lia.
Qed.

Lemma lex_from_final r p n t l' :
  lex_next (mklex r p p n) = (t, l') -> is_final t = true ->
  lex_from r p n = [(t, lstart l', lpos l')].
Proof. intros H Hf. unfold lex_from. rewrite lex_all_S, H, Hf. reflexivity. Qed.

Lemma lex_from_end p n : lex_from "" p n = [(TEnd, p, p)].
Proof. reflexivity. Qed.

Lemma lex_from_end_inv u p n e e' l : lex_from u p n = (TEnd, e, e') :: l -> u = "".
Proof.
  unfold lex_from. rewrite lex_all_S. destruct (lex_next (mklex u p p n)) as [t l'] eqn:Hn.
  intros H. assert (Et : t = TEnd) by (destruct (is_final t); injection H as -> _; reflexivity).
  destruct (lex_next_spec _ _ _ Hn) as (_ & _ & [(E1 & _)|(_ & _ & Z & _)] & _); [subst t; discriminate|].
  exact (Z Et).
Qed.

Lemma lex_from_cons_inv r p n x l : lex_from r p n = x :: l -> l <> [] ->
  exists t l', lex_next (mklex r p p n) = (t, l') /\ is_final t = false /\
               x = (t, lstart l', lpos l') /\ l = lex_from (lrest l') (lpos l') n.
Proof.
  intros H Hne. unfold lex_from in H. rewrite lex_all_S in H.
  destruct (lex_next (mklex r p p n)) as [t l'] eqn:Hn.
  destruct (is_final t) eqn:Ef; [injection H as <- <-; congruence|].
  injection H as <- <-. exists t, l'. split; [reflexivity|]. split; [exact Ef|]. split; [reflexivity|].
  destruct (lex_next_spec _ _ _ Hn) as (_ & N2 & _). cbn [llen] in N2.
  destruct l' as [r' p' st' n']. cbn [llen lrest lpos] in *. subst n'.
  apply lex_all_from. pose proof (lex_next_shrinks _ _ _ Hn Ef) as Hs. cbn [lrest] in Hs. lia.
Qed.

Lemma lex_string_one_token txt t : is_final t = false ->
  lex_next (lex_new txt) = (t, mklex "" (String.length txt) 0 (String.length txt)) ->
  lex_string txt = [(t, 0, String.length txt); (TEnd, String.length txt, String.length txt)].
Proof.
  intros Hf H. rewrite lex_string_from. rewrite (lex_from_step _ _ _ _ _ _ _ _ H Hf). reflexivity.
Qed.
