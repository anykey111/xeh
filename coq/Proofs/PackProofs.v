(* PackProofs.v: binary construction is the inverse of binary parsing (lemmas behind
   Props/C07.v). *)
From Xeh Require Import Model.Prelude Model.Bits Model.Codec Model.Cell Model.Lexer Model.Fmt
                        Model.Vm Model.Words.
From Xeh Require Import Proofs.BitsBasic Proofs.BitsMirror Proofs.BitsProofs
                        Proofs.CodecBasic Proofs.CodecProofs Proofs.VmStep Proofs.CursorDefs
                        Proofs.CursorProofs Proofs.CursorProgress Proofs.PackDefs.
From Coq Require Import ZifyBool ZifyNat ZifyN.
Local Notation length := List.length.

Lemma from_bytes_wf d : Forall (fun x => (x < 256)%N) d ->
  wf (from_bytes d) /\ clen (from_bytes d) = 8 * length d.
Proof.
  intros Hd. unfold from_bytes. split.
  - apply wf_mk; [lia|lia|exact Hd].
  - unfold clen. cbn [cstart cend]. lia.
Qed.

Lemma bytes_of_string_lt : forall t, Forall (fun x => (x < 256)%N) (bytes_of_string t).
Proof.
  induction t as [|c r IH]; [constructor|].
  change (bytes_of_string (String c r)) with (byte_of c :: bytes_of_string r).
  constructor; [|exact IH]. unfold byte_of. apply N_ascii_bounded.
Qed.

Lemma from_fbits_wf k o z : wf (from_fbits k o z) /\ clen (from_fbits k o z) = 8 * k.
Proof.
  unfold from_fbits.
  assert (Hlt : Forall (fun x => (x < 256)%N)
                  (match o with Big => Z_to_be_bytes k z | Little => rev (Z_to_be_bytes k z) end)).
  { apply Forall_forall. intros x Hx. destruct o; [apply in_rev in Hx|]; eapply Z_to_be_bytes_lt; eauto. }
  destruct (from_bytes_wf _ Hlt) as (Hw & Hl).
  split; [exact Hw|]. rewrite Hl. destruct o; rewrite ?rev_length, Z_to_be_bytes_length; reflexivity.
Qed.

Section PackFacts.
  Variable fo : fops.

  Lemma pack_field_wf f : field_ok f -> wf (pack_field fo f) /\ clen (pack_field fo f) = width f.
  Proof.
    destruct f as [w sg o v|o v|o v|b|t|l]; cbn [pack_field width field_ok]; intros Hok.
    - apply from_int_wf.
    - apply (from_fbits_wf 4).
    - apply (from_fbits_wf 8).
    - auto.
    - apply from_bytes_wf. apply bytes_of_string_lt.
    - apply from_bytes_wf. exact Hok.
  Qed.

  Lemma field_bits_length f : field_ok f -> length (field_bits fo f) = width f.
  Proof. intros H. unfold field_bits. rewrite abs_length. apply pack_field_wf. exact H. Qed.

  Lemma fields_bits_length fs : Forall field_ok fs -> length (fields_bits fo fs) = total_width fs.
  Proof.
    induction 1 as [|f r Hf Hr IH]; [reflexivity|].
    unfold fields_bits in *. cbn [flat_map total_width fold_right]. rewrite app_length, IH.
    rewrite field_bits_length by exact Hf. reflexivity.
  Qed.

  Lemma total_width_app a b : total_width (a ++ b) = total_width a + total_width b.
  Proof.
    induction a as [|f r IH]; [reflexivity|].
    change (total_width ((f :: r) ++ b)) with (width f + total_width (r ++ b)).
    change (total_width (f :: r)) with (width f + total_width r). lia.
  Qed.

  Lemma fields_bits_app a b : fields_bits fo (a ++ b) = (fields_bits fo a ++ fields_bits fo b)%list.
  Proof. unfold fields_bits. apply flat_map_app. Qed.

  Lemma pack_from : forall fs acc, Forall field_ok fs -> wf acc ->
    let r := fold_left (fun acc f => Bits.append false acc (pack_field fo f)) fs acc in
    wf r /\ abs r = (abs acc ++ fields_bits fo fs)%list.
  Proof.
    induction fs as [|f r IH]; intros acc Hok Hacc; cbv zeta; cbn [fold_left].
    - split; [exact Hacc|]. unfold fields_bits. cbn [flat_map]. rewrite app_nil_r. reflexivity.
    - inversion Hok as [|? ? Hf Hr]; subst.
      destruct (pack_field_wf f Hf) as (Hfw & _).
      destruct (append_spec false acc (pack_field fo f) Hacc Hfw) as (Hw1 & Ha1).
      destruct (IH _ Hr Hw1) as (Hw2 & Ha2). split; [exact Hw2|].
      rewrite Ha2, Ha1. unfold fields_bits. cbn [flat_map]. rewrite <- app_assoc. reflexivity.
  Qed.

  Lemma empty_wf : wf (mkcbs 0 0 []) /\ abs (mkcbs 0 0 []) = [].
  Proof. split; [apply wf_mk; [lia|cbn; lia|constructor]|reflexivity]. Qed.

  Theorem pack_spec fs : Forall field_ok fs ->
    wf (pack fo fs) /\ abs (pack fo fs) = fields_bits fo fs /\ clen (pack fo fs) = total_width fs.
  Proof.
    intros Hok. destruct empty_wf as (He & Ha).
    destruct (pack_from fs _ Hok He) as (Hw & Hab). rewrite Ha in Hab. cbn [app] in Hab.
    split; [exact Hw|]. split; [exact Hab|].
    rewrite <- abs_length. unfold pack. rewrite Hab. apply fields_bits_length. exact Hok.
  Qed.
End PackFacts.

Definition packed_post (s s' : state) (args : nat) (P : list cell -> cbs -> Prop) : Prop :=
  exists used rest b, ds s = used ++ rest /\ length used = args /\ P used b /\
                      ds s' = CBits b :: rest /\ heap s' = heap s /\ sim s s'.

Section PackWords.
  Variable fo : fops.
  Variable s : state.

  Lemma frame_popped pre c r s' :
    ds s = pre ++ c :: r -> st s s' r (heap s) -> fail_frame (S (length pre)) s s'.
  Proof.
    intros Hd Hs'. apply (frame_intro s _ s' r (pre ++ [c])); [exact Hs'| |].
    - rewrite Hd, <- app_assoc. reflexivity.
    - rewrite app_length. cbn [length]. lia.
  Qed.

  Lemma pack_int_gen n o s1 d pre (Q : unit -> state -> Prop) (U : Prop) :
    st s s1 d (heap s) -> ds s = pre ++ d -> ((pack_limit < n)%Z -> U) ->
    (forall c r v s', d = c :: r -> value c = CInt v -> (n <= pack_limit)%Z ->
                      st s s' (CBits (from_int v (Z.to_nat n) o) :: r) (heap s) -> Q tt s') ->
    wp (pack_int n o) s1 Q (EF s (S (length pre))) U.
  Proof.
    intros Hst Hpre Hn HQ. unfold pack_int. apply wp_bind. eapply wp_pop_data; eauto.
    - intros c r s2 -> Hs2. pose proof (frame_popped pre c r s2 Hpre Hs2) as Hfr.
      apply wp_bind. apply wp_m_xint; [|intros _; exact Hfr].
      intros v Hv. destruct (Z.ltb_spec pack_limit n); [apply wp_unsup; auto|].
      eapply wp_push_data; [exact Hs2| |intros _; exact Hfr]. intros _ s' Hs'. eapply HQ; eauto.
    - eapply (frame_intro s _ _ d pre); eauto.
  Qed.

  Lemma pack_float_gen n o s1 d pre (Q : unit -> state -> Prop) :
    st s s1 d (heap s) -> ds s = pre ++ d ->
    (forall c r v s', d = c :: r -> value c = CReal v -> n = 32%Z ->
                      st s s' (CBits (from_fbits 4 o (f_to_f32 fo v)) :: r) (heap s) -> Q tt s') ->
    (forall c r v s', d = c :: r -> value c = CReal v -> n = 64%Z ->
                      st s s' (CBits (from_fbits 8 o v) :: r) (heap s) -> Q tt s') ->
    wp (pack_float fo n o) s1 Q (EF s (S (length pre))) False.
  Proof.
    intros Hst Hpre HQ32 HQ64. unfold pack_float. apply wp_bind. eapply wp_pop_data; eauto.
    - intros c r s2 -> Hs2. pose proof (frame_popped pre c r s2 Hpre Hs2) as Hfr.
      apply wp_bind. apply wp_m_real; [|intros _; exact Hfr].
      intros v Hv. destruct (Z.eqb_spec n 32); [|destruct (Z.eqb_spec n 64); [|apply wp_fail; exact Hfr]];
        (eapply wp_push_data; [exact Hs2| |intros _; exact Hfr]; intros _ s' Hs'; eauto).
    - eapply (frame_intro s _ _ d pre); eauto.
  Qed.

  Hypothesis Hm : notmeta s.
  Hypothesis Hl : 6 <= length (heap s).

  (* int! uint!: value and width on the stack; widths beyond [pack_limit] bits are outside
     the model (allocation failure in the implementation) *)
  Lemma int_store_word :
    wp (with_size (fun n => with_order (pack_int n))) s
       (fun _ s' => exists cn c rest n v o, ds s = cn :: c :: rest /\ is_usize cn n /\
                    (n <= pack_limit)%Z /\ value c = CInt v /\ h_order (heap s) = Some o /\
                    ds s' = CBits (from_int v (Z.to_nat n) o) :: rest /\
                    heap s' = heap s /\ sim s s')
       (EF s 2)
       (exists cn rest n, ds s = cn :: rest /\ is_usize cn n /\ (pack_limit < n)%Z).
  Proof.
    eapply wp_with_size; [apply st_init| | |].
    - intros cn r n s2 Hd Hn Hs2. eapply wp_with_order; [exact Hs2|exact Hm|exact Hl|].
      intros o Ho. apply (pack_int_gen n o s2 r [cn]); [exact Hs2|exact Hd| |].
      + intros Hbig. exists cn, r, n. auto.
      + intros c r' v s' Hd' Hv Hle (Hd'' & Hh & Hs). exists cn, c, r', n, v, o.
        rewrite Hd, Hd'. auto 10.
    - eapply (frame_intro s 2 _ (ds s) []); eauto using st_init.
    - intros c r s2 k p Hd _ Hs2 _. eapply (frame_intro s 2 _ r [c]); eauto.
  Qed.

  Lemma float_store_word :
    wp (with_size (fun n => with_order (pack_float fo n))) s
       (fun _ s' => exists cn c rest n v o, ds s = cn :: c :: rest /\ is_usize cn n /\
                    value c = CReal v /\ h_order (heap s) = Some o /\
                    ((n = 32%Z /\ ds s' = CBits (from_fbits 4 o (f_to_f32 fo v)) :: rest) \/
                     (n = 64%Z /\ ds s' = CBits (from_fbits 8 o v) :: rest)) /\
                    heap s' = heap s /\ sim s s')
       (EF s 2) False.
  Proof.
    eapply wp_with_size; [apply st_init| | |].
    - intros cn r n s2 Hd Hn Hs2. eapply wp_with_order; [exact Hs2|exact Hm|exact Hl|].
      intros o Ho. apply (pack_float_gen n o s2 r [cn]); [exact Hs2|exact Hd| |];
        intros c r' v s' Hd' Hv Hnn (Hd'' & Hh & Hs); exists cn, c, r', n, v, o;
        rewrite Hd, Hd'; auto 10.
    - eapply (frame_intro s 2 _ (ds s) []); eauto using st_init.
    - intros c r s2 k p Hd _ Hs2 _. eapply (frame_intro s 2 _ r [c]); eauto.
  Qed.
End PackWords.

Lemma pack_int_ok s0 s1 r h v w o :
  st s0 s1 (CInt v :: r) h -> ds_len (cx s0) <= length r -> (Z.of_nat w <= pack_limit)%Z ->
  limit_reached (stack_limit s0) (length r) = false ->
  wp (pack_int (Z.of_nat w) o) s1 (fun _ s' => st s0 s' (CBits (from_int v w o) :: r) h) ENone False.
Proof.
  intros Hs1 Hmark Hw Hroom. unfold pack_int. apply wp_bind.
  eapply wp_pop_data_ok; [exact Hs1|cbn [length]; lia|]. intros s2 Hs2.
  apply wp_bind. apply wp_m_xint; [|intros Hn; exfalso; eapply Hn; reflexivity].
  intros z Hz. cbn [value] in Hz. injection Hz as <-.
  replace (pack_limit <? Z.of_nat w)%Z with false by lia. rewrite Nat2Z.id.
  eapply wp_push_data_ok; [exact Hs2|exact Hroom|]. auto.
Qed.

Lemma pack_float_ok fo s0 s1 r h v n o :
  st s0 s1 (CReal v :: r) h -> ds_len (cx s0) <= length r -> n = 32%Z \/ n = 64%Z ->
  limit_reached (stack_limit s0) (length r) = false ->
  wp (pack_float fo n o) s1
     (fun _ s' => st s0 s' (CBits (if (n =? 32)%Z then from_fbits 4 o (f_to_f32 fo v)
                                   else from_fbits 8 o v) :: r) h) ENone False.
Proof.
  intros Hs1 Hmark Hn Hroom. unfold pack_float. apply wp_bind.
  eapply wp_pop_data_ok; [exact Hs1|cbn [length]; lia|]. intros s2 Hs2.
  apply wp_bind. apply wp_m_real; [|intros Hno; exfalso; eapply Hno; reflexivity].
  intros z Hz. cbn [value] in Hz. injection Hz as <-.
  destruct Hn as [-> | ->]; cbn [Z.eqb Pos.eqb]; (eapply wp_push_data_ok; [exact Hs2|exact Hroom|]; auto).
Qed.

Lemma bcv_nil f acc : bitstr_concat_vec (S f) [] acc = (Ok acc, None).
Proof. reflexivity. Qed.

Lemma bcv_cons f x r acc :
  bitstr_concat_vec (S f) (x :: r) acc =
  match value x with
  | CInt i => if ((0 <=? i) && (i <=? 255))%Z
              then bitstr_concat_vec (S f) r (Bits.append false acc (from_bytes [Z.to_N i]))
              else (Err EOverflow, None)
  | CStr t => bitstr_concat_vec (S f) r (Bits.append false acc (from_bytes (bytes_of_string t)))
  | CBits b => bitstr_concat_vec (S f) r (Bits.append false acc b)
  | CVec v2 =>
    match bitstr_concat_vec f v2 (mkcbs 0 0 []) with
    | (Ok b2, _) => bitstr_concat_vec (S f) r (Bits.append false acc b2)
    | e => e
    end
  | other => (Err EType, Some other)
  end.
Proof. reflexivity. Qed.

Lemma concat_ints f : forall l acc, Forall (fun x => (x < 256)%N) l -> wf acc ->
  exists r, bitstr_concat_vec (S f) (map (fun x => CInt (Z.of_N x)) l) acc = (Ok r, None) /\
            wf r /\ abs r = (abs acc ++ flat_map byte_bits l)%list.
Proof.
  induction l as [|x l IH]; intros acc Hl Hacc.
  - exists acc. cbn [map flat_map]. rewrite bcv_nil, app_nil_r. auto.
  - inversion Hl as [|? ? Hx Hl']; subst. cbn [map]. rewrite bcv_cons. cbn [value].
    replace ((0 <=? Z.of_N x)%Z && (Z.of_N x <=? 255)%Z) with true by lia.
    rewrite N2Z.id.
    destruct (from_bytes_wf [x] ltac:(constructor; [exact Hx|constructor])) as (Hbw & _).
    destruct (append_spec false acc (from_bytes [x]) Hacc Hbw) as (Hw1 & Ha1).
    destruct (IH _ Hl' Hw1) as (r & Hr & Hrw & Hra). exists r. split; [exact Hr|]. split; [exact Hrw|].
    rewrite Hra, Ha1, abs_from_bytes. cbn [flat_map]. rewrite app_nil_r, <- app_assoc. reflexivity.
Qed.

Lemma append_cstart c t : cstart (Bits.append false c t) = 0.
Proof.
  unfold Bits.append, append_bits_mut, detach. cbn [andb].
  destruct (clen c =? 0); cbn [cstart]; destruct (_ && _); reflexivity.
Qed.

Lemma into_bitstr_run s c rest v p :
  ds s = c :: rest -> value c = CVec v -> bitstr_concat_vec 40 v (mkcbs 0 0 []) = (Ok p, None) ->
  ds_len (cx s) < length (ds s) -> limit_reached (stack_limit s) (length rest) = false ->
  exists s', w_into_bitstr s = ROk tt s' /\ ds s' = CBits p :: rest /\ heap s' = heap s /\ sim s s'.
Proof.
  intros Hd Hv Hp Hlen Hroom. apply wp_returns.
  unfold w_into_bitstr, into_bitstr. apply wp_bind. apply wp_bind.
  eapply (wp_pop_data_ok c rest s s (heap s)); [rewrite <- Hd; apply st_init|rewrite <- Hd; exact Hlen|].
  intros s1 Hs1. unfold bitstr_concat. rewrite Hv, Hp.
  apply wp_ret. eapply wp_push_data_ok; [exact Hs1|exact Hroom|]. auto.
Qed.

Section Concat.
  Variable fo : fops.

  Lemma concat_items f : forall fs acc, Forall field_ok fs -> wf acc ->
    exists r, bitstr_concat_vec (S (S f)) (map (field_item fo) fs) acc = (Ok r, None) /\
              wf r /\ abs r = (abs acc ++ fields_bits fo fs)%list /\ (cstart acc = 0 -> cstart r = 0).
  Proof.
    induction fs as [|x fs IH]; intros acc Hok Hacc.
    - exists acc. cbn [map]. rewrite bcv_nil. unfold fields_bits. cbn [flat_map]. rewrite app_nil_r. auto.
    - inversion Hok as [|? ? Hx Hfs]; subst. cbn [map]. rewrite bcv_cons.
      destruct (pack_field_wf fo x Hx) as (Hxw & _).
      assert (Hstep : forall b, wf b -> abs b = field_bits fo x ->
                exists r, bitstr_concat_vec (S (S f)) (map (field_item fo) fs) (Bits.append false acc b) = (Ok r, None) /\
                          wf r /\ abs r = (abs acc ++ fields_bits fo (x :: fs))%list /\
                          (cstart acc = 0 -> cstart r = 0)).
      { intros b Hb Hab. destruct (append_spec false acc b Hacc Hb) as (Hw1 & Ha1).
        destruct (IH _ Hfs Hw1) as (r & Hr & Hrw & Hra & Hrc). exists r. split; [exact Hr|]. split; [exact Hrw|].
        split; [|intros _; apply Hrc; apply append_cstart].
        rewrite Hra, Ha1, Hab. unfold fields_bits. cbn [flat_map]. rewrite <- app_assoc. reflexivity. }
      destruct x as [w sg o v|o v|o v|b|t|l]; cbn [field_item value].
      + apply Hstep; auto.
      + apply Hstep; auto.
      + apply Hstep; auto.
      + apply Hstep; auto.
      + apply Hstep; auto.
      + destruct empty_wf as (He & Hea).
        destruct (concat_ints f l _ Hx He) as (b2 & Hb2 & Hb2w & Hb2a). rewrite Hb2.
        apply Hstep; auto. rewrite Hb2a, Hea. cbn [app]. symmetry. apply abs_from_bytes.
  Qed.

  Lemma into_bitstr_fields s fs c rest :
    Forall field_ok fs ->
    ds s = c :: rest -> value c = CVec (map (field_item fo) fs) ->
    ds_len (cx s) < length (ds s) -> limit_reached (stack_limit s) (length rest) = false ->
    exists s' p, w_into_bitstr s = ROk tt s' /\
                 ds s' = CBits p :: rest /\ heap s' = heap s /\ sim s s' /\
                 wf p /\ abs p = fields_bits fo fs /\ clen p = total_width fs /\ cstart p = 0.
  Proof.
    intros Hok Hd Hv Hlen Hroom.
    destruct empty_wf as (He & Hea).
    destruct (concat_items 38 fs _ Hok He) as (p & Hp & Hpw & Hpa & Hpc).
    rewrite Hea in Hpa. cbn [app] in Hpa.
    destruct (into_bitstr_run s c rest _ p Hd Hv Hp Hlen Hroom) as (s' & Hrun & Hd' & Hh & Hs).
    exists s', p. split; [exact Hrun|]. split; [exact Hd'|]. split; [exact Hh|]. split; [exact Hs|].
    split; [exact Hpw|]. split; [exact Hpa|]. split; [|apply Hpc; reflexivity].
    rewrite <- abs_length, Hpa. apply fields_bits_length. exact Hok.
  Qed.
End Concat.

Lemma from_fbits_mod k o z : from_fbits k o (z mod 2 ^ Z.of_nat (8 * k)) = from_fbits k o z.
Proof. unfold from_fbits. rewrite Z_to_be_bytes_mod. reflexivity. Qed.

Lemma firstn_app_exact {A} (a b : list A) n : length a = n -> firstn n (a ++ b) = a.
Proof.
  intros <-. rewrite firstn_app, Nat.sub_diag, firstn_all. cbn [firstn]. apply app_nil_r.
Qed.

Lemma skipn_app_exact {A} (a b : list A) n : length a = n -> skipn n (a ++ b) = b.
Proof.
  intros <-. rewrite skipn_app, Nat.sub_diag, skipn_all. reflexivity.
Qed.

Lemma Forall2_len {A B} (R : A -> B -> Prop) l1 l2 : Forall2 R l1 l2 -> length l1 = length l2.
Proof. induction 1; cbn [length]; auto. Qed.

Lemma skipn_add {A} : forall a b (l : list A), skipn a (skipn b l) = skipn (b + a) l.
Proof.
  intros a b. revert a. induction b as [|b IH]; intros a l; [reflexivity|].
  destruct l as [|x l]; [rewrite !skipn_nil; reflexivity|]. cbn [skipn Nat.add]. apply IH.
Qed.

Lemma rest_of_advance inp off n :
  (Z.of_nat (cstart inp) <= off)%Z -> rest_of inp (off + Z.of_nat n) = skipn n (rest_of inp off).
Proof.
  intros Hr. unfold rest_of. rewrite skipn_add. f_equal. lia.
Qed.

Definition room (s : state) (k : nat) : Prop :=
  forall j, j < k -> limit_reached (stack_limit s) (length (ds s) + j) = false.

Lemma room_here s k : room s (S k) -> limit_reached (stack_limit s) (length (ds s)) = false.
Proof. intros H. rewrite <- (Nat.add_0_r (length (ds s))). apply H. lia. Qed.

Lemma room_step s s1 v k : room s (S k) -> sim s s1 -> ds s1 = v :: ds s -> room s1 k.
Proof.
  intros H Hs Hd j Hj. rewrite (sim_slim _ _ Hs), Hd. cbn [length].
  replace (S (length (ds s)) + j) with (length (ds s) + S j) by lia. apply H. lia.
Qed.

Lemma field_ok_of_rd fs : Forall field_rd_ok fs -> Forall field_ok fs.
Proof. apply Forall_impl. intros f H. apply H. Qed.

Section Parse.
  Variable fo : fops.

  Definition field_cell (f : field) (b : cbs) : cell :=
    match f with
    | FInt _ false o _ => uint_cell o b
    | FInt _ true o _ => int_cell o b
    | FF32 o _ => float_cell fo 32 o b
    | FF64 o _ => float_cell fo 64 o b
    | _ => CBits b
    end.

  Lemma field_cell_value f b :
    field_rd_ok f -> wf b -> abs b = field_bits fo f -> field_value fo f (field_cell f b).
  Proof.
    intros (Hok & Hrd) Hw Ha. unfold field_bits in Ha.
    destruct f as [w [|] o v|o v|o v|b0|t|l]; cbn [field_value field_cell pack_field] in *.
    - unfold int_cell, cint. cbn [with_tags value]. f_equal. apply roundtrip_signed; auto.
    - unfold uint_cell, cint. cbn [with_tags value]. f_equal. apply roundtrip_unsigned; auto. lia.
    - unfold float_cell. cbn [with_tags value Z.eqb Pos.eqb]. f_equal. f_equal. apply float_roundtrip.
      + change (Z.of_nat (8 * 4)) with 32%Z. apply Z.mod_pos_bound. reflexivity.
      + exact Hw.
      + change (2 ^ 32)%Z with (2 ^ Z.of_nat (8 * 4))%Z. rewrite from_fbits_mod. exact Ha.
    - unfold float_cell. cbn [with_tags value Z.eqb Pos.eqb]. f_equal. apply float_roundtrip.
      + change (Z.of_nat (8 * 8)) with 64%Z. apply Z.mod_pos_bound. reflexivity.
      + exact Hw.
      + change (2 ^ 64)%Z with (2 ^ Z.of_nat (8 * 8))%Z. rewrite from_fbits_mod. exact Ha.
    - eauto.
    - eauto.
    - eauto.
  Qed.

  Lemma read_field_ok sb s1 d inp off f tail :
    cursor sb inp off -> st sb s1 d (heap sb) -> field_rd_ok f ->
    rest_of inp off = (field_bits fo f ++ tail)%list ->
    limit_reached (stack_limit sb) (length d) = false ->
    exists s' v, read_field fo f s1 = ROk tt s' /\
                 after_read sb s' off (Z.of_nat (width f)) d v /\ field_value fo f v /\
                 (off + Z.of_nat (width f) <= Z.of_nat (cend inp))%Z /\
                 rest_of inp (off + Z.of_nat (width f)) = tail.
  Proof.
    intros Hcur Hst Hf Hrest Hroom. pose proof Hf as (Hok & Hrd).
    destruct (hcursor_range _ _ _ (proj2 Hcur)) as (Hr & _).
    pose proof (field_bits_length fo f Hok) as Hlen.
    assert (Hfit : (off + Z.of_nat (width f) <= Z.of_nat (cend inp))%Z).
    { pose proof (rest_of_length inp off Hr) as Hrl. rewrite Hrest, app_length, Hlen in Hrl. lia. }
    destruct (sub_spec inp off (Z.of_nat (width f)) (hcursor_wf _ _ _ (proj2 Hcur))
                       ltac:(lia) ltac:(lia) Hfit) as (Hsw & Hsa & Hsl).
    assert (Hslice : abs (sub inp off (Z.of_nat (width f))) = field_bits fo f).
    { rewrite Hsa, slice_bits_rest, Hrest, Nat2Z.id. apply firstn_app_exact. exact Hlen. }
    assert (Hres : exists bad k, bad = false /\
              read_result sb inp off s1 d (Z.of_nat (width f)) bad k
                          (field_cell f (sub inp off (Z.of_nat (width f)))) (read_field fo f s1)).
    { destruct f as [w [|] o v|o v|o v|b|t|l]; cbn [read_field field_cell width] in *; eexists _, _.
      - split; [|exact (read_signed_result Hcur _ o s1 d Hst)]. rewrite Hsl. lia.
      - split; [|exact (read_unsigned_result Hcur _ o s1 d Hst)]. rewrite Hsl. lia.
      - split; [|exact (read_float_result Hcur fo 32 o s1 d Hst)]. reflexivity.
      - split; [|exact (read_float_result Hcur fo 64 o s1 d Hst)]. reflexivity.
      - split; [|exact (read_bits_result Hcur _ s1 d Hst)]. reflexivity.
      - split; [|exact (read_bits_result Hcur _ s1 d Hst)]. reflexivity.
      - split; [|exact (read_bits_result Hcur _ s1 d Hst)]. reflexivity. }
    destruct Hres as (bad & k & Hb & Hres).
    destruct (read_result_ok Hres ltac:(lia) Hfit Hb Hroom) as (s' & Hrun & Hs').
    exists s', (field_cell f (sub inp off (Z.of_nat (width f)))). split; [exact Hrun|]. split; [exact Hs'|].
    split; [apply field_cell_value; assumption|]. split; [exact Hfit|].
    rewrite rest_of_advance by lia. rewrite Hrest. apply skipn_app_exact. exact Hlen.
  Qed.

  (* a sequence of reads, one per field: [step] is how one field is read ([read_field], or the
     phrase of source text), [P] what it needs beside the cursor and keeps, [H] how it leaves the heap *)
  Section Fields.
    Variables (step : field -> M unit) (run : list field -> M unit).
    Variables (P : state -> Prop) (H : list cell -> list cell -> Prop).
    Hypothesis run_nil : run [] = ret tt.
    Hypothesis run_cons : forall f r, run (f :: r) = (step f ;; run r).
    Hypothesis H_refl : forall h, H h h.
    Hypothesis H_trans : forall a b c, H a b -> H b c -> H a c.
    Hypothesis step_ok : forall s inp off f tail,
      cursor s inp off -> field_rd_ok f -> rest_of inp off = (field_bits fo f ++ tail)%list -> P s ->
      limit_reached (stack_limit s) (length (ds s)) = false ->
      exists s' v, step f s = ROk tt s' /\ ds s' = v :: ds s /\ sim s s' /\ field_value fo f v /\
                   cursor s' inp (off + Z.of_nat (width f)) /\
                   rest_of inp (off + Z.of_nat (width f)) = tail /\
                   h_stash (heap s') = h_stash (heap s) /\ H (heap s) (heap s') /\ P s'.

    Lemma parse_gen : forall fs s inp off tail,
      cursor s inp off -> Forall field_rd_ok fs ->
      rest_of inp off = (fields_bits fo fs ++ tail)%list -> P s -> room s (length fs) ->
      exists s' vals, run fs s = ROk tt s' /\
        ds s' = (rev vals ++ ds s)%list /\ Forall2 (field_value fo) fs vals /\
        cursor s' inp (off + Z.of_nat (total_width fs)) /\
        rest_of inp (off + Z.of_nat (total_width fs)) = tail /\
        sim s s' /\ h_stash (heap s') = h_stash (heap s) /\ H (heap s) (heap s').
    Proof.
      induction fs as [|f fs IH]; intros s inp off tail Hcur Hok Hrest HP Hroom.
      - exists s, []. rewrite run_nil. cbn [total_width fold_right rev app].
        replace (off + Z.of_nat 0)%Z with off by lia.
        split; [reflexivity|]. split; [reflexivity|]. split; [constructor|]. split; [exact Hcur|].
        split; [exact Hrest|]. split; [apply sim_refl|]. auto.
      - inversion Hok as [|? ? Hf Hfs]; subst.
        unfold fields_bits in Hrest. cbn [flat_map] in Hrest. rewrite <- app_assoc in Hrest.
        destruct (step_ok s inp off f _ Hcur Hf Hrest HP (room_here _ _ Hroom))
          as (s1 & v & Hrun1 & Hd1 & Hs1 & Hval & Hcur1 & Hrest1 & Hst1 & Hh1 & HP1).
        destruct (IH s1 inp _ tail Hcur1 Hfs Hrest1 HP1 (room_step _ _ _ _ Hroom Hs1 Hd1))
          as (s' & vals & Hrun & Hd' & Hvals & Hcur' & Hrest' & Hs' & Hst' & Hh').
        exists s', (v :: vals). rewrite run_cons. unfold bind at 1. rewrite Hrun1.
        change (total_width (f :: fs)) with (width f + total_width fs).
        replace (off + Z.of_nat (width f + total_width fs))%Z
          with (off + Z.of_nat (width f) + Z.of_nat (total_width fs))%Z by lia.
        split; [exact Hrun|].
        split; [rewrite Hd', Hd1; cbn [rev]; rewrite <- app_assoc; reflexivity|].
        split; [constructor; assumption|]. split; [exact Hcur'|]. split; [exact Hrest'|].
        split; [eapply sim_trans; eauto|]. split; [congruence|eauto].
    Qed.
  End Fields.

  (* parse_pack: the fields come back in order, whatever the bit alignment each starts at *)
  Theorem parse_fields : forall fs s inp off tail,
    cursor s inp off -> Forall (field_rd_ok) fs ->
    rest_of inp off = (fields_bits fo fs ++ tail)%list ->
    room s (length fs) ->
    exists s' vals, read_fields fo fs s = ROk tt s' /\
      ds s' = (rev vals ++ ds s)%list /\ Forall2 (field_value fo) fs vals /\
      cursor s' inp (off + Z.of_nat (total_width fs)) /\
      rest_of inp (off + Z.of_nat (total_width fs)) = tail /\
      sim s s' /\ h_stash (heap s') = h_stash (heap s) /\
      (forall a, a <> R_OFFSET -> nth_error (heap s') a = nth_error (heap s) a).
  Proof.
    intros fs s inp off tail Hcur Hok Hrest Hroom.
    apply (parse_gen (read_field fo) (read_fields fo) (fun _ => True)
             (fun h h' => forall a, a <> R_OFFSET -> nth_error h' a = nth_error h a)); auto.
    - intros a b c Hab Hbc x Hx. rewrite Hbc, Hab; auto.
    - clear. intros s inp off f tail Hcur Hf Hrest _ Hroom.
      destruct (read_field_ok s s (ds s) inp off f tail Hcur (st_init s) Hf Hrest Hroom)
        as (s' & v & Hrun & Hafter & Hval & Hfit & Hrest').
      pose proof (after_read_cursor s s' inp off _ _ _ Hcur (Zle_0_nat _) Hfit Hafter) as Hcur'.
      destruct Hafter as (Hd' & Hh' & Hs'). exists s', v. rewrite Hh'.
      split; [exact Hrun|]. split; [exact Hd'|]. split; [exact Hs'|]. split; [exact Hval|].
      split; [exact Hcur'|]. split; [exact Hrest'|]. split; [apply h_stash_set_offset|].
      split; [|exact I]. intros a Ha. apply nth_list_set_other. auto.
  Qed.
End Parse.

Lemma open_ok s inp off v c rest b :
  cursor s inp off -> h_stash (heap s) = Some v ->
  ds s = c :: rest -> value c = CBits b -> wf b -> (Z.of_nat (cend b) < two64)%Z ->
  ds_len (cx s) < length (ds s) ->
  exists s', w_open_bitstr s = ROk tt s' /\ ds s' = rest /\ sim s s' /\
             cursor s' b (Z.of_nat (cstart b)) /\
             exists e, h_stash (heap s') = Some (v ++ [e]) /\
                       entry_input e = Some inp /\ entry_offset e = Some off.
Proof.
  intros Hcur Hv Hd Hb Hbw Hbb Hlen. apply wp_returns. apply (wp_open s inp off Hcur v); [exact Hv| | |].
  - intros c0 rest0 b0 e s' Hd0 Hb0 He1 He2 (Hd' & Hh' & Hs').
    rewrite Hd in Hd0. injection Hd0 as <- <-. rewrite Hb in Hb0. injection Hb0 as <-.
    destruct (cursor_heap3 s s' inp off _ _ (v ++ [e]) b _ Hcur Hs' Hh' eq_refl eq_refl Hbw Hbb)
      as (Hcur' & Hst'); [destruct Hbw; lia|]. eauto 10.
  - lia.
  - intros c0 rest0 s1 Hd0 Hno _. rewrite Hd in Hd0. injection Hd0 as <- <-. exact (Hno b Hb).
Qed.

Lemma remain_ok s inp off :
  cursor s inp off -> limit_reached (stack_limit s) (length (ds s)) = false ->
  exists s', w_remain s = ROk tt s' /\
             ds s' = cint (Z.of_nat (cend inp) - off) :: ds s /\ heap s' = heap s /\ sim s s'.
Proof.
  intros Hcur Hroom. apply wp_returns. apply (wp_remain s inp off Hcur); [|congruence].
  intros _ s' Hs'. exact Hs'.
Qed.

Section Roundtrip.
  Variable fo : fops.

  Definition parse_back (fs : list field) : M unit :=
    w_open_bitstr ;; read_fields fo fs ;; w_remain.

  Lemma packed_cursor p fs : wf p -> abs p = fields_bits fo fs -> Forall field_ok fs ->
    rest_of p (Z.of_nat (cstart p)) = (fields_bits fo fs ++ [])%list /\
    (Z.of_nat (cstart p) + Z.of_nat (total_width fs) = Z.of_nat (cend p))%Z.
  Proof.
    intros (Hle & _) Hpa Hok. split.
    - unfold rest_of. rewrite Nat2Z.id, Nat.sub_diag. cbn [skipn]. rewrite app_nil_r. exact Hpa.
    - pose proof (fields_bits_length fo fs Hok) as Hlen. rewrite <- Hpa, abs_length in Hlen.
      unfold clen in Hlen. lia.
  Qed.

  Lemma roundtrip_gen (rd : M unit) fs s inp0 off0 v c rest p :
    (forall s1, cursor s1 p (Z.of_nat (cstart p)) -> sim s s1 -> ds s1 = rest ->
       exists s2 vals, rd s1 = ROk tt s2 /\ ds s2 = (rev vals ++ rest)%list /\
         Forall2 (field_value fo) fs vals /\ cursor s2 p (Z.of_nat (cend p)) /\
         sim s1 s2 /\ h_stash (heap s2) = h_stash (heap s1)) ->
    cursor s inp0 off0 -> h_stash (heap s) = Some v ->
    ds s = c :: rest -> value c = CBits p -> wf p -> (Z.of_nat (cend p) < two64)%Z ->
    ds_len (cx s) < length (ds s) ->
    limit_reached (stack_limit s) (length rest + length fs) = false ->
    exists s' vals e,
      (w_open_bitstr ;; rd ;; w_remain) s = ROk tt s' /\
      ds s' = (CInt 0 :: rev vals ++ rest)%list /\ Forall2 (field_value fo) fs vals /\
      cursor s' p (Z.of_nat (cend p)) /\
      h_stash (heap s') = Some (v ++ [e])%list /\
      entry_input e = Some inp0 /\ entry_offset e = Some off0.
  Proof.
    intros Hrd Hcur Hv Hd Hc Hpw Hpb Hlen Hroom.
    destruct (open_ok s inp0 off0 v c rest p Hcur Hv Hd Hc Hpw Hpb Hlen)
      as (s1 & Hrun1 & Hd1 & Hs1 & Hcur1 & e & Hst1 & He).
    destruct (Hrd s1 Hcur1 Hs1 Hd1) as (s2 & vals & Hrun2 & Hd2 & Hvals & Hcur2 & Hs2 & Hst2).
    destruct (remain_ok s2 p _ Hcur2) as (s3 & Hrun3 & Hd3 & Hh3 & Hs3).
    { rewrite (sim_slim _ _ Hs2), (sim_slim _ _ Hs1), Hd2, app_length, rev_length,
        <- (Forall2_len _ _ _ Hvals), Nat.add_comm. exact Hroom. }
    exists s3, vals, e. split; [unfold bind; rewrite Hrun1, Hrun2; exact Hrun3|].
    split; [rewrite Hd3, Hd2; unfold cint; f_equal; f_equal; lia|]. split; [exact Hvals|].
    split; [exact (cursor_same _ _ _ _ Hcur2 Hs3 Hh3)|]. rewrite Hh3, Hst2. auto.
  Qed.

  Theorem roundtrip : forall fs s inp0 off0 v c rest p,
    cursor s inp0 off0 -> h_stash (heap s) = Some v ->
    ds s = c :: rest -> value c = CBits p ->
    wf p -> (Z.of_nat (cend p) < two64)%Z -> abs p = fields_bits fo fs ->
    Forall field_rd_ok fs ->
    ds_len (cx s) < length (ds s) ->
    (forall j, j <= length fs -> limit_reached (stack_limit s) (length rest + j) = false) ->
    exists s' vals e,
      parse_back fs s = ROk tt s' /\
      ds s' = (CInt 0 :: rev vals ++ rest)%list /\ Forall2 (field_value fo) fs vals /\
      cursor s' p (Z.of_nat (cend p)) /\
      h_stash (heap s') = Some (v ++ [e])%list /\
      entry_input e = Some inp0 /\ entry_offset e = Some off0.
  Proof.
    intros fs s inp0 off0 v c rest p Hcur Hv Hd Hc Hpw Hpb Hpa Hok Hlen Hroom.
    apply (roundtrip_gen (read_fields fo fs) fs s inp0 off0 v c rest p); auto.
    intros s1 Hcur1 Hs1 Hd1.
    destruct (packed_cursor p fs Hpw Hpa (field_ok_of_rd fs Hok)) as (Hrest1 & Htw).
    destruct (parse_fields fo fs s1 p _ [] Hcur1 Hok Hrest1)
      as (s2 & vals & Hrun2 & Hd2 & Hvals & Hcur2 & _ & Hs2 & Hst2 & _).
    { intros j Hj. rewrite (sim_slim _ _ Hs1), Hd1. apply Hroom. lia. }
    rewrite Htw in Hcur2. rewrite Hd1 in Hd2. exists s2, vals. auto 10.
  Qed.
End Roundtrip.

Lemma cell_eqb_bits_nil o b : value o = CBits b -> cell_eqb o CNil = false.
Proof.
  destruct o; cbn [value]; try discriminate.
  - intros _. reflexivity.
  - intros ->. reflexivity.
Qed.

Lemma h_output_cells h ob : h_output h = Some ob ->
  exists c, nth_error h R_OUTPUT = Some c /\ value c = CBits ob.
Proof.
  unfold h_output. destruct (nth_error h R_OUTPUT) as [c|]; [|discriminate].
  destruct (value c) eqn:Ev; try discriminate. intros H. injection H as ->. eauto.
Qed.

Lemma h_outlen_cells h n : h_outlen h = Some n ->
  exists c, nth_error h R_OUTLEN = Some c /\ value c = CInt n.
Proof.
  unfold h_outlen. destruct (nth_error h R_OUTLEN) as [c|]; [|discriminate].
  destruct (value c) eqn:Ev; try discriminate. intros H. injection H as ->. eauto.
Qed.

Definition emit_heap (h : list cell) (n : Z) (ob : cbs) : list cell :=
  list_set (list_set h R_OUTLEN (cint n)) R_OUTPUT (CBits ob).

Lemma emit_ok s ob n c rest bs :
  emitting s ob n -> (n < two64)%Z ->
  ds s = c :: rest -> value c = CBits bs -> wf bs -> ds_len (cx s) < length (ds s) ->
  exists s', w_emit s = ROk tt s' /\ ds s' = rest /\ sim s s' /\
             heap s' = emit_heap (heap s) (n + Z.of_nat (clen bs)) (Bits.append false ob bs) /\
             emitting s' (Bits.append false ob bs) (n + Z.of_nat (clen bs)) /\
             abs (Bits.append false ob bs) = (abs ob ++ abs bs)%list.
Proof.
  intros (Hm & Hl & Hmark & Hob & Hobw & Hn & Hn0) Hn64 Hd Hc Hbw Hlen.
  destruct (h_output_cells _ _ Hob) as (co & Hco & Vco).
  destruct (h_outlen_cells _ _ Hn) as (cn & Hcn & Vcn).
  destruct (append_spec false ob bs Hobw Hbw) as (Haw & Haa).
  assert (Hrun : exists s', w_emit s = ROk tt s' /\
            st s s' rest (emit_heap (heap s) (n + Z.of_nat (clen bs)) (Bits.append false ob bs))).
  { apply wp_returns. unfold w_emit. apply wp_bind.
    eapply (wp_pop_data_ok c rest s s (heap s)); [rewrite <- Hd; apply st_init|rewrite <- Hd; exact Hlen|].
    intros s1 Hs1. apply wp_bind. apply wp_m_bits; [|intros Hno; exfalso; eapply Hno; eauto].
    intros b0 Hb0. rewrite Hc in Hb0. injection Hb0 as <-.
    apply wp_bind. eapply wp_get_var; eauto.
    apply wp_bind. apply wp_m_usize; [|intros Hno; exfalso; apply (Hno n); split; [exact Vcn|lia]].
    intros z (Hz & _). rewrite Vcn in Hz. injection Hz as <-.
    apply wp_bind. eapply wp_set_var; [exact Hs1|exact Hm|unfold R_OUTLEN; lia|]. intros s2 Hs2.
    apply wp_bind. eapply wp_get_var; eauto.
    { rewrite nth_list_set_other by (unfold R_OUTLEN, R_OUTPUT; lia). exact Hco. }
    rewrite (cell_eqb_bits_nil co ob Vco).
    apply wp_bind. apply wp_m_bits; [|intros Hno; exfalso; eapply Hno; eauto].
    intros ob0 Hob0. rewrite Vco in Hob0. injection Hob0 as <-.
    eapply wp_set_var; [exact Hs2|exact Hm|rewrite list_set_len; unfold R_OUTPUT; lia|]. auto. }
  destruct Hrun as (s' & Hrun & Hd' & Hh' & Hs').
  exists s'. split; [exact Hrun|]. split; [exact Hd'|]. split; [exact Hs'|]. split; [exact Hh'|].
  split; [|exact Haa].
  unfold emitting. split; [eapply sim_notmeta; eauto|]. rewrite Hh'. unfold emit_heap.
  rewrite !list_set_len. split; [exact Hl|]. split.
  - rewrite (sim_cx _ _ Hs'), Hd'. rewrite Hd in Hlen. cbn [length] in Hlen. lia.
  - split; [|split; [exact Haw|split; [|lia]]].
    + unfold h_output. rewrite nth_list_set_same by (rewrite list_set_len; unfold R_OUTPUT; lia). reflexivity.
    + unfold h_outlen. rewrite nth_list_set_other by (unfold R_OUTLEN, R_OUTPUT; lia).
      rewrite nth_list_set_same by (unfold R_OUTLEN; lia). reflexivity.
Qed.

Definition chunks_len (cs : list cbs) : nat := fold_right (fun c a => clen c + a) 0 cs.
Definition chunks_bits (cs : list cbs) : list bool := flat_map abs cs.

(* on arbitrary chunks: output grows by the concatenation, output-length by its length *)
Theorem emit_chunks : forall cs s ob n,
  emitting s ob n -> Forall wf cs -> (n + Z.of_nat (chunks_len cs) < two64)%Z ->
  limit_reached (stack_limit s) (length (ds s)) = false ->
  exists s' ob', emit_all cs s = ROk tt s' /\ ds s' = ds s /\ sim s s' /\
                 emitting s' ob' (n + Z.of_nat (chunks_len cs)) /\
                 abs ob' = (abs ob ++ chunks_bits cs)%list.
Proof.
  induction cs as [|c cs IH]; intros s ob n Hem Hwf Hn Hroom.
  - exists s, ob. cbn [emit_all chunks_len chunks_bits fold_right flat_map].
    rewrite app_nil_r. replace (n + Z.of_nat 0)%Z with n by lia.
    split; [reflexivity|]. split; [reflexivity|]. split; [apply sim_refl|]. auto.
  - inversion Hwf as [|? ? Hc Hcs]; subst.
    change (chunks_len (c :: cs)) with (clen c + chunks_len cs) in *.
    pose proof Hem as (Hm & Hl & Hmark & Hob & Hobw & Hon & Hn0).
    assert (Hpush : exists s1, push_data (CBits c) s = ROk tt s1 /\ st s s1 (CBits c :: ds s) (heap s)).
    { apply wp_returns. eapply wp_push_data_ok; [apply st_init|exact Hroom|]. auto. }
    destruct Hpush as (s1 & Hrun1 & Hd1 & Hh1 & Hs1).
    assert (Hem1 : emitting s1 ob n).
    { unfold emitting. rewrite Hh1, Hd1, (sim_cx _ _ Hs1). cbn [length].
      split; [eapply sim_notmeta; eauto|]. split; [exact Hl|]. split; [lia|]. auto. }
    destruct (emit_ok s1 ob n (CBits c) (ds s) c Hem1 ltac:(lia) Hd1 eq_refl Hc)
      as (s2 & Hrun2 & Hd2 & Hs2 & Hh2 & Hem2 & Hab2).
    { rewrite Hd1, (sim_cx _ _ Hs1). cbn [length]. lia. }
    assert (Hroom2 : limit_reached (stack_limit s2) (length (ds s2)) = false).
    { rewrite (sim_slim _ _ Hs2), (sim_slim _ _ Hs1), Hd2. exact Hroom. }
    destruct (IH s2 _ _ Hem2 Hcs ltac:(lia) Hroom2) as (s' & ob' & Hrun & Hd' & Hs' & Hem' & Hab').
    exists s', ob'. cbn [emit_all]. unfold bind at 1. rewrite Hrun1. unfold bind at 1. rewrite Hrun2.
    split; [exact Hrun|]. split; [congruence|].
    split; [eapply sim_trans; [exact Hs1|eapply sim_trans; eauto]|].
    split.
    + replace (n + Z.of_nat (clen c + chunks_len cs))%Z
        with (n + Z.of_nat (clen c) + Z.of_nat (chunks_len cs))%Z by lia. exact Hem'.
    + rewrite Hab', Hab2. unfold chunks_bits. cbn [flat_map]. rewrite <- app_assoc. reflexivity.
Qed.

Section EmitSplit.
  Variable fo : fops.

  Lemma chunks_of_fields : forall fss, Forall (Forall field_ok) fss ->
    Forall wf (map (pack fo) fss) /\
    chunks_bits (map (pack fo) fss) = fields_bits fo (List.concat fss) /\
    chunks_len (map (pack fo) fss) = total_width (List.concat fss).
  Proof.
    induction 1 as [|fs fss Hfs Hfss IH]; [repeat split; constructor|].
    destruct IH as (IH1 & IH2 & IH3). destruct (pack_spec fo fs Hfs) as (Hw & Ha & Hl).
    cbn [map List.concat]. split; [constructor; assumption|]. split.
    - unfold chunks_bits in *. cbn [flat_map]. rewrite IH2, Ha, fields_bits_app. reflexivity.
    - change (chunks_len (pack fo fs :: map (pack fo) fss))
        with (clen (pack fo fs) + chunks_len (map (pack fo) fss)).
      rewrite IH3, Hl, total_width_app. reflexivity.
  Qed.

  (* all splits of a field list across several emit calls: starting from an empty output,
     `output` denotes the packing of the whole list and `output-length` is its length *)
  Theorem emit_split : forall fss s ob,
    emitting s ob 0 -> abs ob = [] ->
    Forall (Forall field_ok) fss ->
    (Z.of_nat (total_width (List.concat fss)) < two64)%Z ->
    limit_reached (stack_limit s) (length (ds s)) = false ->
    exists s' ob', emit_all (map (pack fo) fss) s = ROk tt s' /\ ds s' = ds s /\
      h_output (heap s') = Some ob' /\ wf ob' /\
      abs ob' = abs (pack fo (List.concat fss)) /\
      h_outlen (heap s') = Some (Z.of_nat (clen ob')) /\
      clen ob' = total_width (List.concat fss).
  Proof.
    intros fss s ob Hem Hob Hok Hlen Hroom.
    destruct (chunks_of_fields fss Hok) as (Hwf & Hbits & Hclen).
    destruct (emit_chunks (map (pack fo) fss) s ob 0 Hem Hwf ltac:(rewrite Hclen; lia) Hroom)
      as (s' & ob' & Hrun & Hd' & _ & Hem' & Hab').
    assert (Hall : Forall field_ok (List.concat fss)).
    { apply Forall_concat. exact Hok. }
    destruct (pack_spec fo _ Hall) as (Hpw & Hpa & Hpl).
    rewrite Hob, Hbits in Hab'. cbn [app] in Hab'.
    assert (Hcl : clen ob' = total_width (List.concat fss)).
    { rewrite <- abs_length, Hab'. apply fields_bits_length. exact Hall. }
    destruct Hem' as (_ & _ & _ & Ho' & Hw' & Hn' & _).
    exists s', ob'. split; [exact Hrun|]. split; [exact Hd'|]. split; [exact Ho'|]. split; [exact Hw'|].
    split; [rewrite Hab', Hpa; reflexivity|]. split; [|exact Hcl].
    rewrite Hn', Hclen, Hcl. reflexivity.
  Qed.
End EmitSplit.
