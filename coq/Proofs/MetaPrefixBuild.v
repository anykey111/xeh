(* MetaPrefixBuild.v (C11): the frame [F2 cs di] (MetaPrefix.v) for the builder: every
   immediate word except those that open or close a context ([ctx_word]: #( #) ~) and the four
   words of the enum builder), user-defined immediate words and the pending-code runs leave code,
   debug map and dictionary below the marks of the meta context alone. *)
From Xeh Require Import Model.Prelude Model.Bits Model.Codec Model.Cell Model.Lexer Model.Fmt
                        Model.Vm Model.Words Model.Build.
From Xeh Require Import Proofs.VmFrame Proofs.VmLimits Proofs.NoPanic Proofs.NoPanicBuild Proofs.NoPanicFlow
                        Proofs.MetaBase Proofs.MetaPurge Proofs.MetaBuild Proofs.MetaPrefix.
Local Notation length := List.length.
Local Open Scope list_scope.
Local Open Scope string_scope.

Section Prims.
  Variable cs di : nat.

  Lemma fpp_code_emit op : fp (F2 cs di) (code_emit op).
  Proof.
    intros s P. cbn [F2 fr_pre fr_rel] in *.
    pose proof P as ([Hm W] & E1 & E2 & L1 & L2 & Hcd & Hup).
    pose proof (code_emit_cd op s Hcd) as Hcd'.
    (* the instruction is appended; its debug entry is written at or above the mark *)
    assert (G : forall g, firstn cs g = firstn cs (dbg s) ->
                cd_inv (set_code (set_dbg s g) (code s ++ [op])) ->
                R2 cs di s (set_code (set_dbg s g) (code s ++ [op]))).
    { intros g Eg Hg. apply R2_intro; try exact P; try reflexivity; try exact Hg; try exact Eg.
      - apply sealed_score; [exact W|reflexivity].
      - cbn [set_code set_dbg code]. rewrite firstn_app_le by exact L1. apply rpatch_refl.
      - cbn [set_code set_dbg code]. rewrite app_length. lia.
      - apply cpatch_refl. }
    unfold code_emit in *. cbv zeta in *. unfold cd_inv in Hcd.
    destruct (length (code s) <? length (dbg s))%nat.
    - apply G; [apply firstn_list_set_ge; exact L1|exact Hcd'].
    - destruct (length (code s) =? length (dbg s))%nat eqn:Ee; [|exact I].
      apply Nat.eqb_eq in Ee. apply G; [apply firstn_app_le; lia|exact Hcd'].
  Qed.

  Lemma fpp_backpatch pos op : cs <= pos -> fp (F2 cs di) (backpatch pos op).
  Proof.
    intros Hp s P. cbn [F2 fr_pre fr_rel] in *.
    pose proof P as ([Hm W] & E1 & E2 & L1 & L2 & Hcd & Hup).
    unfold backpatch. destruct (pos <? length (code s))%nat; [|exact I].
    cbn [res_all]. apply R2_intro; try exact P; try reflexivity.
    - apply sealed_score; [exact W|reflexivity].
    - cbn [set_code code]. rewrite firstn_list_set_ge by exact Hp. apply rpatch_refl.
    - cbn [set_code code]. rewrite list_set_length. lia.
    - apply cpatch_refl.
    - unfold cd_inv in *. cbn [set_code code dbg]. rewrite list_set_length. exact Hcd.
  Qed.

  Lemma fpp_backpatch_jump pos offs : cs <= pos -> fp (F2 cs di) (backpatch_jump pos offs).
  Proof.
    intros Hp s P. unfold backpatch_jump.
    destruct (nth_error (code s) pos) as [op|]; [|apply (fpa_fail (F2 cs di) unit EInternal None s P)].
    destruct op; try exact I; apply (fpp_backpatch pos _ Hp s P).
  Qed.

  Lemma fpp_dict_insert name e s : fpav (F2 cs di) (fun idx => di <= idx) s (dict_insert name e).
  Proof.
    intros P. cbn [F2 fr_pre fr_rel] in *.
    pose proof P as ([Hm W] & E1 & E2 & L1 & L2 & Hcd & Hup).
    unfold dict_insert. split; [exact L2|].
    apply R2_intro; try exact P; try reflexivity; try exact Hcd.
    - apply sealed_score; [exact W|reflexivity].
    - apply rpatch_refl.
    - cbn [set_dict dict]. rewrite firstn_app_le by exact L2. apply cpatch_refl.
    - cbn [set_dict dict]. rewrite app_length. lia.
  Qed.

  Lemma pending_push s f : fs_len (cx s) <= length (flows s) ->
    pending (set_flows s (f :: flows s)) = f :: pending s.
  Proof.
    intros H. unfold pending. cbn [set_flows flows cx length].
    replace (S (length (flows s)) - fs_len (cx s)) with (S (length (flows s) - fs_len (cx s))) by lia.
    reflexivity.
  Qed.

  Lemma fpp_push_flow f : fok cs di f -> fp (F2 cs di) (push_flow f).
  Proof.
    intros Hf s P. cbn [F2 fr_pre fr_rel] in *.
    pose proof P as ([Hm W] & E1 & E2 & L1 & L2 & Hcd & Hup).
    pose proof (fps_push_flow f s (conj Hm W)) as HS. cbn [SF fr_rel] in HS.
    unfold push_flow, modify in *. cbn [res_all] in *.
    apply (R2_flows cs di); try exact P; try reflexivity; try exact HS.
    unfold UP. rewrite pending_push by apply W. constructor; assumption.
  Qed.

  Definition popQ (o : option flow) : Prop :=
    match o with Some f => fok cs di f | None => True end.

  Lemma fpp_pop_flow s : fpav (F2 cs di) popQ s pop_flow.
  Proof.
    intros P. cbn [F2 fr_pre fr_rel] in *.
    pose proof P as ([Hm W] & E1 & E2 & L1 & L2 & Hcd & Hup).
    pose proof (fps_pop_flow s (conj Hm W)) as HS. cbn [SF fr_rel] in HS.
    unfold pop_flow in *. destruct (flows s) as [|f r] eqn:E; [split; [exact I|apply R2_refl; exact P]|].
    destruct (fs_len (cx s) <? length (f :: r))%nat eqn:El; [|split; [exact I|apply R2_refl; exact P]].
    cbn [res_all] in HS. apply Nat.ltb_lt in El. cbn [length] in El.
    assert (Ep : pending s = f :: pending (set_flows s r)).
    { unfold pending. cbn [set_flows flows cx]. rewrite E. cbn [length].
      replace (S (length r) - fs_len (cx s)) with (S (length r - fs_len (cx s))) by lia. reflexivity. }
    unfold UP in Hup. rewrite Ep in Hup. inversion Hup as [|? ? Hf Hr]; subst.
    split; [exact Hf|]. apply (R2_flows cs di); try exact P; try reflexivity; try exact HS. exact Hr.
  Qed.

  Lemma fpp_take s : fpav (F2 cs di) popQ s take_first_cond_flow.
  Proof.
    intros P. cbn [F2 fr_pre fr_rel] in *.
    pose proof P as ([Hm W] & E1 & E2 & L1 & L2 & Hcd & Hup).
    pose proof (fps_take s (conj Hm W)) as HS. cbn [SF fr_rel] in HS.
    unfold take_first_cond_flow in *. cbv zeta in *.
    destruct (take_cond (pending s)) as [[f act']|] eqn:E; [|split; [exact I|apply R2_refl; exact P]].
    cbn [res_all] in HS.
    destruct (take_cond_split _ _ _ E) as (a & b & Ea & ->).
    unfold UP in Hup. rewrite Ea in Hup. apply Forall_app in Hup. destruct Hup as [Ha Hb].
    inversion Hb as [|? ? Hf Hb']; subst.
    split; [exact Hf|]. apply (R2_flows cs di); try exact P; try reflexivity; try exact HS.
    rewrite skipn_pending by apply W. unfold UP, pending. cbn [set_flows flows cx].
    rewrite pending_app by apply W.
    apply Forall_app. split; assumption.
  Qed.

  Lemma set_fun_locals_fok : forall l ls, Forall (fok cs di) l -> Forall (fok cs di) (set_fun_locals l ls).
  Proof.
    induction l as [|f l IH]; intros ls H; [constructor|]. inversion H as [|? ? Hf Hl]; subst.
    destruct f; cbn [set_fun_locals]; constructor; try assumption; try (apply IH; assumption).
  Qed.

  Lemma R2_set_locals s ls : Pre2 cs di s ->
    R2 cs di s (set_flows s (set_fun_locals (pending s) ls ++ skipn (length (pending s)) (flows s))).
  Proof.
    intros P. pose proof P as ([Hm W] & E1 & E2 & L1 & L2 & Hcd & Hup).
    apply (R2_flows cs di); try exact P; try reflexivity.
    - apply sealed_set_locals. exact W.
    - rewrite skipn_pending by apply W. unfold UP, pending at 1. cbn [set_flows flows cx].
      rewrite pending_app by apply W.
      apply set_fun_locals_fok. exact Hup.
  Qed.

  (* dictionary updates *)
  Lemma R2_set_dict_ge s idx e' : Pre2 cs di s -> di <= idx ->
    R2 cs di s (set_dict s (list_set (dict s) idx e')).
  Proof.
    intros P Hi. pose proof P as ([Hm W] & E1 & E2 & L1 & L2 & Hcd & Hup).
    apply R2_intro; try exact P; try reflexivity; try exact Hcd.
    - apply sealed_set_dict. exact W.
    - apply rpatch_refl.
    - cbn [set_dict dict]. rewrite firstn_list_set_ge by exact Hi. apply cpatch_refl.
    - cbn [set_dict dict]. rewrite list_set_length. lia.
  Qed.

  Lemma R2_set_dict_const s pos e v : Pre2 cs di s ->
    nth_error (dict s) pos = Some e -> is_dconst e = true ->
    R2 cs di s (set_dict s (list_set (dict s) pos (mkdent (dname e) (DConst v)))).
  Proof.
    intros P E C. pose proof P as ([Hm W] & E1 & E2 & L1 & L2 & Hcd & Hup).
    apply R2_intro; try exact P; try reflexivity; try exact Hcd.
    - apply sealed_set_dict. exact W.
    - apply rpatch_refl.
    - cbn [set_dict dict]. apply cpatch_set; assumption.
    - cbn [set_dict dict]. rewrite list_set_length. lia.
  Qed.

  Lemma find_fun_fok : forall l d st ls, Forall (fok cs di) l -> find_fun l = Some (d, st, ls) -> di <= d.
  Proof.
    induction l as [|f l IH]; intros d st ls H E; [discriminate|].
    inversion H as [|? ? Hf Hl]; subst.
    destruct f; cbn [find_fun] in E; try (eapply IH; eassumption).
    injection E as <- <- <-. cbn [fok] in Hf. apply Hf.
  Qed.

  Lemma fpp_sf_core A (m : M A) : fp SF m -> corep m -> fp (F2 cs di) m.
  Proof. apply fpp_core. Qed.
End Prims.

Ltac fok_fin := cbn [popQ fok] in *; unfold code_origin in *; repeat split; lia.

#[export] Hint Extern 1 (fpa (F2 _ _) _ (run_m _ _)) => apply fpp_run_m : fpdb.
#[export] Hint Extern 1 (fpa (F2 _ _) _ (code_emit _)) => apply fpp_code_emit : fpdb.
#[export] Hint Extern 1 (fpa (F2 _ _) _ (backpatch _ _)) => apply fpp_backpatch; fok_fin : fpdb.
#[export] Hint Extern 1 (fpa (F2 _ _) _ (backpatch_jump _ _)) => apply fpp_backpatch_jump; fok_fin : fpdb.
#[export] Hint Extern 1 (fpa (F2 _ _) _ (push_flow _)) => apply fpp_push_flow; fok_fin : fpdb.
#[export] Hint Extern 1 (fpa (F2 _ _) _ (get_token _)) =>
  apply (fpp_core _ _ _ _ (fp_scorep _ _ (scorep_get_token _)) (corep_get_token _)) : fpdb.
#[export] Hint Extern 1 (fpa (F2 _ _) _ (next_name _)) =>
  apply (fpp_core _ _ _ _ (fp_scorep _ _ (scorep_next_name _)) (corep_next_name _)) : fpdb.
#[export] Hint Extern 1 (fpa (F2 _ _) _ (alloc_heap _)) =>
  apply (fpp_core _ _ _ _ (fp_alloc_heap _) (corep_alloc_heap _)) : fpdb.
#[export] Hint Extern 1 (fpa (F2 _ _) _ pop_data) => apply (fpp_wl _ _ _ _ wl_pop_data) : fpdb.
#[export] Hint Extern 1 (fpa (F2 _ _) _ (push_return _)) => apply (fpp_wl _ _ _ _ (wl_push_return _)) : fpdb.
#[export] Hint Extern 1 (fpa (F2 _ _) _ (set_ip _)) => apply (fpp_wl _ _ _ _ (wl_set_ip _)) : fpdb.

(* [fp_step], except that what is popped or inserted comes with its bound and that the parts of
   the precondition are at hand for the bounds on [code_origin] *)
Ltac fpp_step :=
  cbv beta zeta;
  first
    [ lazymatch goal with
      | |- fpa _ _ (bind get _) => apply fpa_get_bind; apply fpa_pre; intros (? & ? & ? & ? & ? & ? & ?)
      | |- fpa _ _ (bind pop_flow _) => eapply fpa_bindv; [ apply fpp_pop_flow | intros ? ? ]
      | |- fpa _ _ (bind take_first_cond_flow _) => eapply fpa_bindv; [ apply fpp_take | intros ? ? ]
      | |- fpa _ _ (bind (dict_insert _ _) _) => eapply fpa_bindv; [ apply fpp_dict_insert | intros ? ? ]
      end
    | fp_step ].

Ltac fpp_solve := repeat fpp_step.

Section Words2.
  Variable cs di : nat.
  Notation F := (F2 cs di).

  Lemma fpp_endcase_loop : forall fuel org s, fpa F s (endcase_loop fuel org).
  Proof.
    induction fuel as [|f IH]; intros org;
      change (fp F (endcase_loop (S f) org)) || change (fp F (endcase_loop 0 org));
      cbn [endcase_loop]; fpp_solve.
  Qed.

  Lemma fpp_repeat_loop : forall fuel s, fpa F s (repeat_loop fuel).
  Proof.
    induction fuel as [|f IH];
      change (fp F (repeat_loop (S f))) || change (fp F (repeat_loop 0));
      cbn [repeat_loop]; fpp_solve.
  Qed.

  Lemma fpp_loop_loop : forall fuel a b s, cs <= a -> fpa F s (loop_loop fuel a b).
  Proof.
    induction fuel as [|f IH]; intros a b s Ha; revert s;
      change (fp F (loop_loop (S f) a b)) || change (fp F (loop_loop 0 a b));
      cbn [loop_loop]; fpp_solve.
  Qed.
End Words2.
#[export] Hint Resolve fpp_endcase_loop fpp_repeat_loop : fpdb.
