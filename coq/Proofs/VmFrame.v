(* VmFrame.v: the predicate [wl] (a program over the logging primitives; the continuation after
   [get] does not read the reverse log), over which the limit and recording theorems are
   proved, as a consequence of [wprog] (WordProg.v), and the case analysis [far_spec] of
   [fetch_and_run]. *)
From Xeh Require Import Model.Prelude Model.Bits Model.Codec Model.Cell Model.Lexer Model.Fmt
                        Model.Vm Model.Words.
From Xeh Require Export Proofs.WordProg.
Local Notation length := List.length.

#[local] Arguments Z.add : simpl never.
#[local] Arguments Z.sub : simpl never.
#[local] Arguments Z.mul : simpl never.
#[local] Arguments Z.ltb : simpl never.
#[local] Arguments Z.leb : simpl never.
#[local] Arguments Z.eqb : simpl never.
#[local] Arguments Z.of_nat : simpl never.
#[local] Arguments Z.to_nat : simpl never.

Inductive wl : forall {A : Type}, M A -> Prop :=
| wl_ret : forall A (a : A), wl (ret a)
| wl_fail : forall A k p, wl (@fail A k p)
| wl_unsup : forall A, wl (@unsup A)
| wl_panic : forall A, wl (@panic A)
| wl_bind : forall A B (m : M A) (f : A -> M B), wl m -> (forall a, wl (f a)) -> wl (bind m f)
  (* reading the state: the continuation may use any field except the reverse log *)
| wl_get_bind : forall B (k : state -> M B),
    (forall s0, wl (k s0)) ->
    (forall s0 l s, k (set_rlog s0 l) s = k s0 s) ->
    wl (bind get k)
| wl_set_stopping : forall b, wl (modify (fun s => set_stopping s b))
| wl_push_data : forall c, wl (push_data c)
| wl_pop_data : wl pop_data
| wl_top_data : wl top_data
| wl_swap_data : wl swap_data
| wl_rot_data : wl rot_data
| wl_over_data : wl over_data
| wl_push_return : forall f, wl (push_return f)
| wl_pop_return : wl pop_return
| wl_top_frame : wl top_frame
| wl_push_loop : forall l, wl (push_loop l)
| wl_pop_loop : wl pop_loop
| wl_loop_next : wl loop_next
| wl_loop_set_items : forall c, wl (loop_set_items c)
| wl_push_special : forall p, wl (push_special p)
| wl_pop_special : wl pop_special
| wl_get_var : forall a, wl (get_var a)
| wl_set_var : forall a v, wl (set_var a v)
| wl_init_local : forall i v, wl (init_local i v)
| wl_set_ip : forall n, wl (set_ip n)
| wl_next_ip : wl next_ip
| wl_print : forall msg, wl (print msg).

Ltac wl_prim :=
  lazymatch goal with
  | |- wl (ret _) => apply wl_ret
  | |- wl (fail _ _) => apply wl_fail
  | |- wl unsup => apply wl_unsup
  | |- wl panic => apply wl_panic
  | |- wl (modify (fun s => set_stopping s _)) => apply wl_set_stopping
  | |- wl (push_data _) => apply wl_push_data
  | |- wl pop_data => apply wl_pop_data
  | |- wl top_data => apply wl_top_data
  | |- wl swap_data => apply wl_swap_data
  | |- wl rot_data => apply wl_rot_data
  | |- wl over_data => apply wl_over_data
  | |- wl (push_return _) => apply wl_push_return
  | |- wl pop_return => apply wl_pop_return
  | |- wl top_frame => apply wl_top_frame
  | |- wl (push_loop _) => apply wl_push_loop
  | |- wl pop_loop => apply wl_pop_loop
  | |- wl loop_next => apply wl_loop_next
  | |- wl (loop_set_items _) => apply wl_loop_set_items
  | |- wl (push_special _) => apply wl_push_special
  | |- wl pop_special => apply wl_pop_special
  | |- wl (get_var _) => apply wl_get_var
  | |- wl (set_var _ _) => apply wl_set_var
  | |- wl (init_local _ _) => apply wl_init_local
  | |- wl (set_ip _) => apply wl_set_ip
  | |- wl next_ip => apply wl_next_ip
  | |- wl (print _) => apply wl_print
  end.

Create HintDb wldb.

Ltac wl_step :=
  cbv beta zeta;
  first
    [ wl_prim
    | solve [ auto 2 with wldb nocore ]
    | lazymatch goal with
      | |- wl (bind get _) => apply wl_get_bind; [ intro | intros; reflexivity ]
      | |- wl (bind _ _) => apply wl_bind; [ | intro ]
      | |- wl (match ?x with _ => _ end) => destruct x
      | |- wl ?m => let h := head_of m in unfold h
      end ].

Ltac wl_solve := repeat wl_step.

Lemma wl_pop_n : forall n, wl (pop_n n).
Proof. induction n; cbn [pop_n]; wl_solve. Qed.
#[export] Hint Resolve wl_pop_n : wldb.

Lemma wl_push_all : forall l, wl (push_all l).
Proof. induction l; cbn [push_all]; wl_solve. Qed.
#[export] Hint Resolve wl_push_all : wldb.

Lemma wprog_wl c A (m : M A) : wprog c m -> wl m.
Proof.
  induction 1; try (constructor; auto; fail).
  apply wl_get_bind; [assumption|]. intros s0 l s.
  rewrite (view_determines _ k H1 (set_rlog s0 l) s0 eq_refl). reflexivity.
Qed.

Theorem native_wl : forall fo w f, native_fn fo w = Some f -> wl f.
Proof. intros fo w f H. exact (wprog_wl _ _ _ (native_wprog fo w f H)). Qed.

Lemma table_find_Forall : forall (P : M unit -> Prop) t name w,
  Forall (fun nw => P (snd nw)) t -> table_find t name = Some w -> P w.
Proof. intros P t name w. exact (table_find_row (fun _ => P) t name w). Qed.

Lemma wl_exec_op : forall (nf : natives),
  (forall w f, nf w = Some f -> wl f) ->
  forall ip0 op, wl (exec_op nf ip0 op).
Proof.
  intros nf Hnf ip0 op. destruct op; cbn [exec_op];
    try (wl_solve; fail).
  destruct (nf w) eqn:E; wl_solve. eapply Hnf; eauto.
Qed.

Definition mlim (s : state) (m : Z) : bool :=
  match insn_limit s with Some l => (l <=? m)%Z | None => false end.

Inductive far_spec (nf : natives) (s : state) : res unit -> Prop :=
| far_limit : mlim s (meter s) = true -> far_spec nf s (RErr ELimit None s)
| far_panic : mlim s (meter s) = false -> nth_error (code s) (ip s) = None -> far_spec nf s RPanic
| far_plain : forall op,
    mlim s (meter s) = false -> nth_error (code s) (ip s) = Some op ->
    (forall n, op <> OResolve n) ->
    far_spec nf s (exec_op nf (ip s) op (set_meter s (meter s + 1)%Z))
| far_unknown : forall name,
    mlim s (meter s) = false -> nth_error (code s) (ip s) = Some (OResolve name) ->
    dict_entry s name = None ->
    far_spec nf s (RErr EUnknown None (set_meter s (meter s + 1)%Z))
| far_res_limit : forall name e,
    mlim s (meter s) = false -> nth_error (code s) (ip s) = Some (OResolve name) ->
    dict_entry s name = Some e ->
    mlim s (meter s + 1)%Z = true ->
    far_spec nf s (RErr ELimit None
                     (set_code (set_meter s (meter s + 1)%Z) (list_set (code s) (ip s) (resolve_op e))))
| far_res : forall name e,
    mlim s (meter s) = false -> nth_error (code s) (ip s) = Some (OResolve name) ->
    dict_entry s name = Some e ->
    mlim s (meter s + 1)%Z = false ->
    far_spec nf s (exec_op nf (ip s) (resolve_op e)
                     (set_meter (set_code (set_meter s (meter s + 1)%Z)
                                          (list_set (code s) (ip s) (resolve_op e)))
                                (meter s + 1 + 1)%Z)).

Lemma meter_increase_eq : forall s,
  meter_increase s = if mlim s (meter s) then RErr ELimit None s
                     else ROk tt (set_meter s (meter s + 1)%Z).
Proof.
  intro s. unfold meter_increase, mlim. destruct (insn_limit s); reflexivity.
Qed.

Lemma far_spec_holds : forall nf s, far_spec nf s (fetch_and_run nf s).
Proof.
  intros nf s. unfold fetch_and_run. rewrite meter_increase_eq.
  destruct (mlim s (meter s)) eqn:E0.
  - apply far_limit; assumption.
  - change (code (set_meter s (meter s + 1)%Z)) with (code s).
    destruct (nth_error (code s) (ip s)) as [op|] eqn:E1.
    + destruct op; try (apply far_plain; [assumption | assumption | discriminate]).
      change (dict_entry (set_meter s (meter s + 1)%Z) name) with (dict_entry s name).
      destruct (dict_entry s name) as [e|] eqn:E2.
      * rewrite meter_increase_eq.
        change (mlim (set_code (set_meter s (meter s + 1)%Z) (list_set (code s) (ip s) (resolve_op e)))
                     (meter (set_code (set_meter s (meter s + 1)%Z) (list_set (code s) (ip s) (resolve_op e)))))
          with (mlim s (meter s + 1)%Z).
        destruct (mlim s (meter s + 1)%Z) eqn:E3.
        -- eapply far_res_limit; eassumption.
        -- eapply far_res; eassumption.
      * eapply far_unknown; eassumption.
    + apply far_panic; assumption.
Qed.
