(* StructNat.v: what native words can do to the control stacks.
   [wn fe] is the shape of every native word: a program over the data-stack, heap, special
   stack and output primitives; the only primitive that touches the loop stack is
   [loop_set_items], allowed when [fe = true]; nothing touches the return stack or the
   context marks.  Every word of [native_fn fo] is [wn true]; every word except
   "%foreach-next" is [wn false]. *)
From Xeh Require Import Model.Prelude Model.Bits Model.Codec Model.Cell Model.Lexer Model.Fmt
                        Model.Vm Model.Words Model.Struct Proofs.WordProg Proofs.VmFrame.
Local Notation length := List.length.
Local Open Scope string_scope.

#[local] Arguments Z.add : simpl never.
#[local] Arguments Z.sub : simpl never.
#[local] Arguments Z.mul : simpl never.
#[local] Arguments Z.ltb : simpl never.
#[local] Arguments Z.leb : simpl never.
#[local] Arguments Z.eqb : simpl never.
#[local] Arguments Z.of_nat : simpl never.
#[local] Arguments Z.to_nat : simpl never.

Inductive wn (fe : bool) : forall {A : Type}, M A -> Prop :=
| wn_ret : forall A (a : A), wn fe (ret a)
| wn_fail : forall A k p, wn fe (@fail A k p)
| wn_unsup : forall A, wn fe (@unsup A)
| wn_panic : forall A, wn fe (@panic A)
| wn_bind : forall A B (m : M A) (f : A -> M B), wn fe m -> (forall a, wn fe (f a)) -> wn fe (bind m f)
| wn_get_bind : forall B (k : state -> M B), (forall s0, wn fe (k s0)) -> wn fe (bind get k)
| wn_set_stopping : forall b, wn fe (modify (fun s => set_stopping s b))
| wn_push_data : forall c, wn fe (push_data c)
| wn_pop_data : wn fe pop_data
| wn_top_data : wn fe top_data
| wn_swap_data : wn fe swap_data
| wn_rot_data : wn fe rot_data
| wn_over_data : wn fe over_data
| wn_loop_set_items : forall c, fe = true -> wn fe (loop_set_items c)
| wn_push_special : forall p, wn fe (push_special p)
| wn_pop_special : wn fe pop_special
| wn_get_var : forall a, wn fe (get_var a)
| wn_set_var : forall a v, wn fe (set_var a v)
| wn_print : forall msg, wn fe (print msg).

(* the one word that writes a loop record *)
Definition foreach_next : string := "%foreach-next".
Definition may_set_items (w : string) : bool := String.eqb w foreach_next.

Lemma wn_weaken : forall A (m : M A), wn false m -> wn true m.
Proof.
  intros A m H. induction H; try (constructor; auto; fail).
Qed.

Lemma wprog_wn c A (m : M A) :
  c_frame c = false -> c_loop c = false -> c_ip c = false -> wprog c m -> wn (c_items c) m.
Proof. intros Hf Hl Hi H. induction H; try (constructor; auto; fail); congruence. Qed.

Lemma wn_pop_n : forall fe n, wn fe (pop_n n).
Proof.
  intros fe n.
  exact (wprog_wn (mkcaps false false fe false false false false) _ _ eq_refl eq_refl eq_refl (wp_pop_n _ n)).
Qed.

Lemma wn_push_all : forall fe l, wn fe (push_all l).
Proof.
  intros fe l.
  exact (wprog_wn (mkcaps false false fe false false false false) _ _ eq_refl eq_refl eq_refl (wp_push_all _ l)).
Qed.

Theorem native_wn : forall fo w f, native_fn fo w = Some f -> wn (may_set_items w) f.
Proof. intros fo w f H. exact (wprog_wn (caps_of w) _ _ eq_refl eq_refl eq_refl (native_wprog fo w f H)). Qed.

Corollary native_wn_true : forall fo w f, native_fn fo w = Some f -> wn true f.
Proof.
  intros fo w f H. pose proof (native_wn fo w f H) as W.
  destruct (may_set_items w); [ assumption | apply wn_weaken; assumption ].
Qed.

Corollary native_wn_false : forall fo w f,
  native_fn fo w = Some f -> w <> foreach_next -> wn false f.
Proof.
  intros fo w f H N. pose proof (native_wn fo w f H) as W.
  unfold may_set_items in W. destruct (String.eqb w foreach_next) eqn:E; [ | assumption ].
  apply String.eqb_eq in E. contradiction.
Qed.

(* the key of a loop record: what I / J / K and the loop instructions read of a counted loop *)
Definition lkey (l : loopr) : Z * Z := (l_start l, l_end l).

Definition keeps (fe : bool) (s s' : state) : Prop :=
  rs s' = rs s /\ cx s' = cx s /\
  map lkey (loops s') = map lkey (loops s) /\ (fe = false -> loops s' = loops s).

Lemma keeps_refl : forall fe s, keeps fe s s.
Proof. intros; repeat split; reflexivity. Qed.
Lemma keeps_trans : forall fe a b c, keeps fe a b -> keeps fe b c -> keeps fe a c.
Proof.
  intros fe a b c (H1 & H2 & H3 & H4) (G1 & G2 & G3 & G4). repeat split; try congruence.
  intro E. rewrite G4, H4; auto.
Qed.
Lemma keeps_weaken : forall s s', keeps false s s' -> keeps true s s'.
Proof. intros s s' (H1 & H2 & H3 & H4). repeat split; auto. Qed.

Lemma keeps_of_eq : forall fe s s',
  rs s' = rs s -> cx s' = cx s -> loops s' = loops s -> keeps fe s s'.
Proof. intros fe s s' H1 H2 H3. repeat split; auto. rewrite H3. reflexivity. Qed.

Lemma keeps_add_rstep : forall fe r s, keeps fe s (add_rstep r s).
Proof. intros. apply keeps_of_eq; unfold add_rstep; destruct (rlog s); reflexivity. Qed.

Definition rkeeps (fe : bool) {A} (s : state) (r : res A) : Prop :=
  match r with
  | ROk _ s' => keeps fe s s'
  | RErr _ _ s' => keeps fe s s'
  | _ => True
  end.

Ltac keeps_triv :=
  apply keeps_of_eq; cbn; unfold add_rstep;
  repeat match goal with |- context [rlog ?s] => destruct (rlog s) end; cbn; try reflexivity.

Lemma push_data_keeps : forall fe c s, rkeeps fe s (push_data c s).
Proof. intros. unfold push_data. destruct (limit_reached _ _); cbn; keeps_triv. Qed.
Lemma pop_data_keeps : forall fe s, rkeeps fe s (pop_data s).
Proof.
  intros. unfold pop_data. destruct (ds s); [ cbn; keeps_triv | ].
  destruct (Nat.ltb _ _); cbn; keeps_triv.
Qed.
Lemma top_data_keeps : forall fe s, rkeeps fe s (top_data s).
Proof.
  intros. unfold top_data. destruct (ds s); [ cbn; keeps_triv | ].
  destruct (Nat.ltb _ _); cbn; keeps_triv.
Qed.
Lemma swap_data_keeps : forall fe s, rkeeps fe s (swap_data s).
Proof.
  intros. unfold swap_data. destruct (ds s) as [| a [| b r]]; try (cbn; keeps_triv; fail).
  destruct (Nat.leb _ _); cbn; keeps_triv.
Qed.
Lemma rot_data_keeps : forall fe s, rkeeps fe s (rot_data s).
Proof.
  intros. unfold rot_data. destruct (ds s) as [| a [| b [| c r]]]; try (cbn; keeps_triv; fail).
  destruct (Nat.leb _ _); cbn; keeps_triv.
Qed.
Lemma over_data_keeps : forall fe s, rkeeps fe s (over_data s).
Proof.
  intros. unfold over_data. destruct (ds s) as [| a [| b r]]; try (cbn; keeps_triv; fail).
  destruct (Nat.leb _ _); [ | cbn; keeps_triv ].
  pose proof (push_data_keeps fe b (add_rstep ROverData s)) as H.
  destruct (push_data b (add_rstep ROverData s)); cbn in *; auto;
    (eapply keeps_trans; [ apply keeps_add_rstep | exact H ]).
Qed.
Lemma loop_set_items_keeps : forall c s, rkeeps true s (loop_set_items c s).
Proof.
  intros. unfold loop_set_items. destruct (loops s) as [| l r] eqn:E; [ cbn; keeps_triv | ].
  destruct (Nat.ltb _ _); [ | cbn; keeps_triv ].
  cbn. repeat split; try discriminate; unfold add_rstep; cbn;
    destruct (rlog s); cbn; rewrite ?E; reflexivity.
Qed.
Lemma push_special_keeps : forall fe p s, rkeeps fe s (push_special p s).
Proof. intros. unfold push_special. cbn. keeps_triv. Qed.
Lemma pop_special_keeps : forall fe s, rkeeps fe s (pop_special s).
Proof.
  intros. unfold pop_special. destruct (special s); [ cbn; keeps_triv | ].
  destruct (Nat.ltb _ _); cbn; keeps_triv.
Qed.
Lemma get_var_keeps : forall fe a s, rkeeps fe s (get_var a s).
Proof.
  intros. unfold get_var. destruct (mode_eqb _ _); [ cbn; keeps_triv | ].
  destruct (nth_error _ _); cbn; keeps_triv.
Qed.
Lemma set_var_keeps : forall fe a v s, rkeeps fe s (set_var a v s).
Proof.
  intros. unfold set_var. destruct (mode_eqb _ _); [ cbn; keeps_triv | ].
  destruct (nth_error _ _); cbn; keeps_triv.
Qed.

Theorem wn_keeps : forall fe A (m : M A), wn fe m -> forall s, rkeeps fe s (m s).
Proof.
  intros fe A m H. induction H; intro s;
    try (cbn; apply keeps_refl); try exact I;
    auto using push_data_keeps, pop_data_keeps, top_data_keeps, swap_data_keeps, rot_data_keeps,
               over_data_keeps, push_special_keeps, pop_special_keeps, get_var_keeps, set_var_keeps.
  - (* bind *)
    unfold bind. specialize (IHwn s). destruct (m s) as [a s1 | k p s1 | |]; cbn in *; auto.
    match goal with Hf : forall a s, rkeeps _ s (f a s) |- _ => specialize (Hf a s1) end.
    destruct (f a s1); cbn in *; auto; eapply keeps_trans; eauto.
  - (* get *)
    unfold bind, get. match goal with Hk : forall s0 s, rkeeps _ s (k s0 s) |- _ => apply Hk end.
  - (* set_stopping *)
    unfold modify. cbn. keeps_triv.
  - (* loop_set_items *)
    subst fe. apply loop_set_items_keeps.
  - unfold print. cbn. keeps_triv.
Qed.

Theorem native_keeps : forall fo w f s,
  native_fn fo w = Some f -> rkeeps (may_set_items w) s (f s).
Proof. intros fo w f s H. apply wn_keeps. eapply native_wn; eauto. Qed.
