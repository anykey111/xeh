(* NoPanicFlow.v (C08 f, second part): the builder never panics.

   Besides [code_emit] (NoPanicBuild.v) the builder has three panic outcomes: [backpatch]
   outside the code, [backpatch_jump] on an instruction that is not a jump, [i_def_end] on a
   dictionary entry that is not a function.  They are excluded by the invariant [BI]:

     - every entry of the flow stack points at instructions of its kind inside the code
       (jumps for if / else / while / break / of / endof / ':', any instruction for do),
       and at a function entry of the dictionary; no two entries share a position;
     - for every open context, the entries below its flow mark point below its code mark
       and its dictionary mark (so the truncations of context_close / build_unwind never
       cut under a live entry), and the flow marks of nested contexts are ordered.

   [BI] holds of the boot state, is kept by every API call, and from a state satisfying it
   eval / compile never return the panic outcome. *)
From Xeh Require Import Model.Prelude Model.Bits Model.Codec Model.Cell Model.Lexer Model.Fmt
                        Model.Vm Model.Words Model.Build.
From Xeh Require Import Model.Boot.
From Xeh Require Import Proofs.VmFrame Proofs.VmLimits Proofs.NoPanic Proofs.BuildUnwind Proofs.BuildShape
                        Proofs.DbgMapVm Proofs.DbgMapGen Proofs.NoPanicBuild.
From Coq Require Import Sorted.
Local Notation length := List.length.
Local Open Scope list_scope.

Lemma NoDup_app_iff {A} (a b : list A) :
  NoDup (a ++ b) <-> NoDup a /\ NoDup b /\ (forall x, In x a -> ~ In x b).
Proof.
  induction a as [|x a IH]; cbn [app].
  - split; [intros H; repeat split; [constructor|exact H|intros x []]|intros (_ & H & _); exact H].
  - rewrite !NoDup_cons_iff, IH. split.
    + intros (H1 & H2 & H3 & H4). repeat split; try assumption.
      * intros C. apply H1. apply in_or_app. left. exact C.
      * intros y [<-|Hy] C; [apply H1; apply in_or_app; right; exact C|exact (H4 y Hy C)].
    + intros ((H1 & H2) & H3 & H4). repeat split; try assumption.
      * intros C. apply in_app_or in C. destruct C as [C|C]; [exact (H1 C)|].
        exact (H4 x (or_introl eq_refl) C).
      * intros y Hy. apply H4. right. exact Hy.
Qed.

Lemma lastn_app {A} (n : nat) (a b : list A) : n <= length b -> lastn n (a ++ b) = lastn n b.
Proof.
  intros H. unfold lastn. rewrite app_length.
  replace (length a + length b - n) with (length a + (length b - n)) by lia.
  rewrite skipn_app. rewrite skipn_all2 by lia. cbn [app]. f_equal. lia.
Qed.

Lemma lastn_all {A} (n : nat) (l : list A) : length l <= n -> lastn n l = l.
Proof. intros H. unfold lastn. replace (length l - n) with 0 by lia. reflexivity. Qed.

Lemma lastn_length {A} (n : nat) (l : list A) : length (lastn n l) = Nat.min n (length l).
Proof. unfold lastn. rewrite skipn_length. lia. Qed.

Lemma lastn_split {A} (n : nat) (l : list A) : l = firstn (length l - n) l ++ lastn n l.
Proof. unfold lastn. symmetry. apply firstn_skipn. Qed.

Lemma lastn_lastn {A} (n m : nat) (l : list A) : n <= m -> lastn n (lastn m l) = lastn n l.
Proof.
  intros H. destruct (le_lt_dec (length l) m) as [Hl|Hl].
  - rewrite (lastn_all m l) by lia. reflexivity.
  - rewrite (lastn_split m l) at 2.
    rewrite lastn_app; [reflexivity|]. rewrite lastn_length. lia.
Qed.

Lemma nth_error_list_set_eq {A} : forall (l : list A) i v, i < length l ->
  nth_error (list_set l i v) i = Some v.
Proof.
  induction l as [|x l IH]; intros [|i] v H; cbn [length] in H; try lia; cbn [list_set nth_error]; auto.
  apply IH. lia.
Qed.

Lemma nth_error_list_set_neq {A} : forall (l : list A) i j v, i <> j ->
  nth_error (list_set l i v) j = nth_error l j.
Proof.
  induction l as [|x l IH]; intros [|i] [|j] v H; cbn [list_set nth_error]; auto; try lia.
Qed.

Lemma nth_error_firstn_lt {A} : forall (l : list A) n p, p < n ->
  nth_error (firstn n l) p = nth_error l p.
Proof.
  induction l as [|x l IH]; intros [|n] [|p] H; try lia; cbn [firstn nth_error]; auto.
  apply IH. lia.
Qed.

Definition is_jump (op : opcode) : bool :=
  match op with OJump _ | OJumpIf _ | OJumpIfNot _ | OCaseOf _ => true | _ => false end.

Definition is_dfun (e : dentry) : bool :=
  match dent e with DFun _ _ _ => true | _ => false end.

(* positions that will be backpatched as a jump / as any instruction; dictionary index *)
Definition fjumps (f : flow) : list nat :=
  match f with
  | FIf o | FElse o | FWhile o | FBreak o | FCaseOf o | FCaseEndOf o => [o]
  | FFun _ st _ => [st]
  | _ => []
  end.
Definition fother (f : flow) : list nat := match f with FDo o _ => [o] | _ => [] end.
Definition fpos (f : flow) : list nat := fjumps f ++ fother f.
Definition fdict (f : flow) : list nat := match f with FFun di _ _ => [di] | _ => [] end.

Definition jump_at (c : list opcode) (p : nat) : Prop :=
  exists op, nth_error c p = Some op /\ is_jump op = true.
Definition dfun_at (d : list dentry) (i : nat) : Prop :=
  exists e, nth_error d i = Some e /\ is_dfun e = true.

Definition FL (c : list opcode) (d : list dentry) (fl : list flow) : Prop :=
  NoDup (flat_map fpos fl) /\
  (forall p, In p (flat_map fjumps fl) -> jump_at c p) /\
  (forall p, In p (flat_map fother fl) -> p < length c) /\
  (forall i, In i (flat_map fdict fl) -> dfun_at d i).

Lemma in_fpos_cases f p : In p (fpos f) <-> In p (fjumps f) \/ In p (fother f).
Proof. unfold fpos. apply in_app_iff. Qed.

Lemma in_flat_fpos fl p :
  In p (flat_map fpos fl) <-> In p (flat_map fjumps fl) \/ In p (flat_map fother fl).
Proof.
  rewrite !in_flat_map. split.
  - intros (f & Hf & Hp). apply in_fpos_cases in Hp. destruct Hp; [left|right]; eauto.
  - intros [(f & Hf & Hp)|(f & Hf & Hp)]; exists f; (split; [exact Hf|]);
      apply in_fpos_cases; [left|right]; exact Hp.
Qed.

Lemma jump_at_lt c p : jump_at c p -> p < length c.
Proof. intros (op & H & _). apply nth_error_Some. rewrite H. discriminate. Qed.

Lemma FL_pos_lt c d fl p : FL c d fl -> In p (flat_map fpos fl) -> p < length c.
Proof.
  intros (_ & H2 & H3 & _) Hp. apply in_flat_fpos in Hp. destruct Hp as [Hp|Hp].
  - apply jump_at_lt. apply H2. exact Hp.
  - apply H3. exact Hp.
Qed.

Lemma FL_nil c d : FL c d [].
Proof. repeat split; cbn; try constructor; intros ? []. Qed.

Lemma jump_at_app c l p : jump_at c p -> jump_at (c ++ l) p.
Proof.
  intros (op & H & J). exists op. split; [|exact J].
  rewrite nth_error_app1; [exact H|]. apply nth_error_Some. rewrite H. discriminate.
Qed.

Lemma dfun_at_app d l i : dfun_at d i -> dfun_at (d ++ l) i.
Proof.
  intros (e & H & J). exists e. split; [|exact J].
  rewrite nth_error_app1; [exact H|]. apply nth_error_Some. rewrite H. discriminate.
Qed.

Lemma FL_app_code c d fl l : FL c d fl -> FL (c ++ l) d fl.
Proof.
  intros (H1 & H2 & H3 & H4). repeat split; try assumption.
  - intros p Hp. apply jump_at_app. apply H2. exact Hp.
  - intros p Hp. rewrite app_length. specialize (H3 p Hp). lia.
Qed.

Lemma FL_app_dict c d fl l : FL c d fl -> FL c (d ++ l) fl.
Proof.
  intros (H1 & H2 & H3 & H4). repeat split; try assumption.
  intros i Hi. apply dfun_at_app. apply H4. exact Hi.
Qed.

Lemma FL_push c d fl f :
  FL c d fl -> NoDup (fpos f) -> (forall p, In p (fpos f) -> ~ In p (flat_map fpos fl)) ->
  (forall p, In p (fjumps f) -> jump_at c p) -> (forall p, In p (fother f) -> p < length c) ->
  (forall i, In i (fdict f) -> dfun_at d i) ->
  FL c d (f :: fl).
Proof.
  intros (H1 & H2 & H3 & H4) N D J O F. unfold FL. cbn [flat_map]. repeat split.
  - apply NoDup_app_iff. repeat split; assumption.
  - intros p Hp. apply in_app_or in Hp. destruct Hp; auto.
  - intros p Hp. apply in_app_or in Hp. destruct Hp; auto.
  - intros i Hi. apply in_app_or in Hi. destruct Hi; auto.
Qed.

Lemma FL_push_plain c d fl f : FL c d fl -> fpos f = [] -> fdict f = [] -> FL c d (f :: fl).
Proof.
  intros H E1 E2. assert (E3 : fjumps f = [] /\ fother f = []).
  { unfold fpos in E1. apply app_eq_nil in E1. exact E1. }
  destruct E3 as [E3 E4]. apply FL_push; try exact H; rewrite ?E1, ?E2, ?E3, ?E4;
    try constructor; intros ? [].
Qed.

Lemma FL_remove c d a f b :
  FL c d (a ++ f :: b) ->
  FL c d (a ++ b) /\
  (forall p, In p (fjumps f) -> jump_at c p) /\ (forall p, In p (fother f) -> p < length c) /\
  (forall i, In i (fdict f) -> dfun_at d i) /\
  (forall p, In p (fpos f) -> ~ In p (flat_map fpos (a ++ b))).
Proof.
  intros (H1 & H2 & H3 & H4).
  rewrite !flat_map_app in *. cbn [flat_map] in *.
  assert (Inc : forall (g : flow -> list nat) x,
            In x (flat_map g a ++ flat_map g b) -> In x (flat_map g a ++ g f ++ flat_map g b)).
  { intros g x Hx. apply in_app_or in Hx. apply in_or_app.
    destruct Hx; [left; assumption|right; apply in_or_app; right; assumption]. }
  assert (Inf : forall (g : flow -> list nat) x, In x (g f) -> In x (flat_map g a ++ g f ++ flat_map g b)).
  { intros g x Hx. apply in_or_app. right. apply in_or_app. left. exact Hx. }
  apply NoDup_app_iff in H1. destruct H1 as (N1 & N2 & N3).
  apply NoDup_app_iff in N2. destruct N2 as (N4 & N5 & N6).
  split; [|split; [|split; [|split]]].
  - repeat split.
    + rewrite flat_map_app. apply NoDup_app_iff. repeat split; try assumption.
      intros x Hx C. apply (N3 x Hx). apply in_or_app. right. exact C.
    + intros p Hp. rewrite flat_map_app in Hp. apply H2, Inc, Hp.
    + intros p Hp. rewrite flat_map_app in Hp. apply H3, Inc, Hp.
    + intros i Hi. rewrite flat_map_app in Hi. apply H4, Inc, Hi.
  - intros p Hp. apply H2, Inf, Hp.
  - intros p Hp. apply H3, Inf, Hp.
  - intros i Hi. apply H4, Inf, Hi.
  - intros p Hp C. apply in_app_or in C. destruct C as [C|C].
    + apply (N3 p C). apply in_or_app. left. exact Hp.
    + exact (N6 p Hp C).
Qed.

Lemma FL_tail c d a b : FL c d (a ++ b) -> FL c d b.
Proof.
  induction a as [|f a IH]; cbn [app]; [auto|].
  intros H. apply IH. exact (proj1 (FL_remove c d [] f (a ++ b) H)).
Qed.

Lemma jump_at_set_other c p q op : p <> q -> jump_at c p -> jump_at (list_set c q op) p.
Proof.
  intros Hne (o & H & J). exists o. split; [|exact J].
  rewrite nth_error_list_set_neq by congruence. exact H.
Qed.

Lemma jump_at_patch c p q op : jump_at c p -> is_jump op = true -> jump_at (list_set c q op) p.
Proof.
  intros H J. destruct (Nat.eq_dec p q) as [->|Hne].
  - exists op. split; [|exact J]. apply nth_error_list_set_eq. eapply jump_at_lt; exact H.
  - apply jump_at_set_other; assumption.
Qed.

Lemma FL_patch_jump c d fl q op :
  FL c d fl -> is_jump op = true -> FL (list_set c q op) d fl.
Proof.
  intros (H1 & H2 & H3 & H4) J. repeat split; try assumption.
  - intros p Hp. apply jump_at_patch; [apply H2; exact Hp|exact J].
  - intros p Hp. rewrite list_set_length. apply H3. exact Hp.
Qed.

Lemma FL_patch_free c d fl q op :
  FL c d fl -> ~ In q (flat_map fjumps fl) -> FL (list_set c q op) d fl.
Proof.
  intros (H1 & H2 & H3 & H4) Hq. repeat split; try assumption.
  - intros p Hp. apply jump_at_set_other; [|apply H2; exact Hp]. intros ->. exact (Hq Hp).
  - intros p Hp. rewrite list_set_length. apply H3. exact Hp.
Qed.

(* a patched instruction that was not a jump (late binding) is not the target of an entry *)
Lemma FL_patch_nonjump c d fl q old op :
  FL c d fl -> nth_error c q = Some old -> is_jump old = false -> FL (list_set c q op) d fl.
Proof.
  intros H Hq Hj. apply FL_patch_free; [exact H|].
  intros C. destruct H as (_ & H2 & _). destruct (H2 q C) as (o & E & J). congruence.
Qed.

Lemma FL_firstn_code c d fl n :
  FL c d fl -> (forall p, In p (flat_map fpos fl) -> p < n) -> FL (firstn n c) d fl.
Proof.
  intros H Hn. pose proof H as (H1 & H2 & H3 & H4). repeat split; try assumption.
  - intros p Hp. destruct (H2 p Hp) as (o & E & J). exists o. split; [|exact J].
    assert (p < n) by (apply Hn, in_flat_fpos; left; exact Hp).
    rewrite nth_error_firstn_lt by assumption. exact E.
  - intros p Hp. rewrite firstn_length.
    assert (p < n) by (apply Hn, in_flat_fpos; right; exact Hp). specialize (H3 p Hp). lia.
Qed.

Lemma FL_dict_same c d d' fl :
  FL c d fl -> (forall i, In i (flat_map fdict fl) -> dfun_at d i -> dfun_at d' i) -> FL c d' fl.
Proof.
  intros (H1 & H2 & H3 & H4) Hd. repeat split; try assumption.
  intros i Hi. apply Hd; [exact Hi|apply H4; exact Hi].
Qed.

Lemma dfun_at_set d i j e' :
  dfun_at d i -> (forall e, nth_error d j = Some e -> is_dfun e = true -> is_dfun e' = true) ->
  dfun_at (list_set d j e') i.
Proof.
  intros (e & E & J) He. destruct (Nat.eq_dec j i) as [->|Hne].
  - exists e'. split; [|eapply He; eassumption]. apply nth_error_list_set_eq.
    apply nth_error_Some. rewrite E. discriminate.
  - exists e. split; [|exact J]. rewrite nth_error_list_set_neq by exact Hne. exact E.
Qed.

Lemma set_fun_locals_maps (g : flow -> list nat) :
  (forall d st l l', g (FFun d st l) = g (FFun d st l')) ->
  forall fl ls, flat_map g (set_fun_locals fl ls) = flat_map g fl.
Proof.
  intros Hg. induction fl as [|f fl IH]; intros ls; cbn [set_fun_locals flat_map]; [reflexivity|].
  destruct f; cbn [flat_map]; rewrite ?IH; try reflexivity. f_equal. apply Hg.
Qed.

Lemma set_fun_locals_length : forall fl ls, length (set_fun_locals fl ls) = length fl.
Proof.
  induction fl as [|f fl IH]; intros ls; cbn [set_fun_locals length]; [reflexivity|].
  destruct f; cbn [length]; rewrite ?IH; reflexivity.
Qed.

Lemma FL_set_fun_locals c d act rest ls :
  FL c d (act ++ rest) -> FL c d (set_fun_locals act ls ++ rest).
Proof.
  unfold FL. rewrite !flat_map_app.
  rewrite !(set_fun_locals_maps fpos), !(set_fun_locals_maps fjumps),
          !(set_fun_locals_maps fother), !(set_fun_locals_maps fdict) by reflexivity.
  auto.
Qed.

Definition CT (fl : list flow) (c : ctx) : Prop :=
  fs_len c <= length fl /\
  forall f, In f (lastn (fs_len c) fl) ->
    (forall p, In p (fpos f) -> p < cs_len c) /\ (forall i, In i (fdict f) -> i < di_len c).

Definition chain (cs : list ctx) : Prop :=
  StronglySorted (fun a b => fs_len b <= fs_len a) cs.

Definition BIf (c : list opcode) (d : list dentry) (fl : list flow) (cs : list ctx) : Prop :=
  FL c d fl /\ Forall (CT fl) cs /\ chain cs.

Definition BI (s : state) : Prop :=
  cd_inv s /\ BIf (code s) (dict s) (flows s) (cx s :: nested s).

Lemma chain_head_max c0 cs c : chain (c0 :: cs) -> In c (c0 :: cs) -> fs_len c <= fs_len c0.
Proof.
  intros H [<-|Hc]; [lia|]. apply StronglySorted_inv in H. destruct H as [_ H].
  rewrite Forall_forall in H. apply H. exact Hc.
Qed.

Lemma chain_tail c0 cs : chain (c0 :: cs) -> chain cs.
Proof. intros H. apply StronglySorted_inv in H. exact (proj1 H). Qed.

Lemma chain_cons c0 cs : chain cs -> (forall c, In c cs -> fs_len c <= fs_len c0) -> chain (c0 :: cs).
Proof. intros H1 H2. constructor; [exact H1|]. rewrite Forall_forall. exact H2. Qed.

Lemma CT_pending a a' rest c : CT (a ++ rest) c -> fs_len c <= length rest -> CT (a' ++ rest) c.
Proof.
  intros [H1 H2] Hl. split; [rewrite app_length; lia|].
  intros f Hf. apply H2. rewrite lastn_app in * by exact Hl. exact Hf.
Qed.

Lemma Forall_CT_pending a a' rest cs :
  Forall (CT (a ++ rest)) cs -> (forall c, In c cs -> fs_len c <= length rest) ->
  Forall (CT (a' ++ rest)) cs.
Proof.
  rewrite !Forall_forall. intros H Hl c Hc. eapply CT_pending; [apply H; exact Hc|apply Hl; exact Hc].
Qed.

Definition marks (c : ctx) : nat * nat * nat := (fs_len c, cs_len c, di_len c).

Lemma CT_marks fl c c' : marks c' = marks c -> CT fl c -> CT fl c'.
Proof.
  unfold marks, CT. intros E. injection E as -> -> ->. auto.
Qed.

Lemma flows_split s : fs_len (cx s) <= length (flows s) ->
  flows s = pending s ++ lastn (fs_len (cx s)) (flows s) /\
  length (lastn (fs_len (cx s)) (flows s)) = fs_len (cx s).
Proof.
  intros H. split; [apply lastn_split|]. rewrite lastn_length. lia.
Qed.

Lemma BI_marks_le s c : BI s -> In c (cx s :: nested s) ->
  fs_len c <= fs_len (cx s) /\ fs_len (cx s) <= length (flows s).
Proof.
  intros (_ & _ & HC & HS) Hc. split; [eapply chain_head_max; eassumption|].
  inversion HC as [|? ? [H _] _]; subst. exact H.
Qed.

Lemma BI_pending s s' a' :
  BI s -> cd_inv s' -> cx s' = cx s -> nested s' = nested s ->
  flows s' = a' ++ lastn (fs_len (cx s)) (flows s) ->
  FL (code s') (dict s') (flows s') -> BI s'.
Proof.
  intros HB Hcd Ecx Ene Efl HF. pose proof HB as (_ & _ & HC & HS).
  split; [exact Hcd|]. split; [exact HF|]. rewrite Ecx, Ene. split; [|exact HS].
  rewrite Efl.
  destruct (flows_split s) as [E1 E2]; [apply (BI_marks_le s (cx s) HB); left; reflexivity|].
  rewrite E1 in HC. eapply Forall_CT_pending; [exact HC|].
  intros c Hc. rewrite E2. apply (BI_marks_le s c HB Hc).
Qed.

Definition good {A} (r : res A) : Prop := r <> RPanic /\ res_all BI r.
Definition bip {A} (m : M A) : Prop := forall s, BI s -> good (m s).

Lemma good_ok {A} (a : A) s : BI s -> good (ROk a s).
Proof. intros H. split; [discriminate|exact H]. Qed.
Lemma good_err {A} k p s : BI s -> good (@RErr A k p s).
Proof. intros H. split; [discriminate|exact H]. Qed.
Lemma good_unsup {A} : good (@RUnsup A).
Proof. split; [discriminate|exact I]. Qed.

Lemma good_bind {A B} (m : M A) (f : A -> M B) s :
  good (m s) -> (forall a s1, m s = ROk a s1 -> BI s1 -> good (f a s1)) -> good (bind m f s).
Proof.
  intros [H1 H2] Hf. unfold bind. destruct (m s) as [a s1|k p s1| |] eqn:E; cbn [res_all] in H2.
  - apply Hf; [reflexivity|exact H2].
  - apply good_err. exact H2.
  - contradiction.
  - apply good_unsup.
Qed.

Lemma bip_bind {A B} (m : M A) (f : A -> M B) : bip m -> (forall a, bip (f a)) -> bip (bind m f).
Proof. intros Hm Hf s Hs. apply good_bind; [apply Hm; exact Hs|]. intros a s1 _ H1. apply Hf. exact H1. Qed.

Lemma bip_get_bind {B} (k : state -> M B) : (forall s0, BI s0 -> bip (k s0)) -> bip (bind get k).
Proof. intros H s Hs. unfold bind, get. apply H; exact Hs. Qed.

Lemma bip_ret A (a : A) : bip (ret a).
Proof. intros s H. apply good_ok. exact H. Qed.
Lemma bip_fail A k p : bip (@fail A k p).
Proof. intros s H. apply good_err. exact H. Qed.
Lemma bip_unsup A : bip (@unsup A).
Proof. intros s H. apply good_unsup. Qed.

Definition core (s : state) := (code s, dbg s, dict s, flows s, cx s, nested s).

Lemma BI_core s s' : core s' = core s -> BI s -> BI s'.
Proof.
  unfold core. intros E. injection E as E1 E2 E3 E4 E5 E6.
  unfold BI, cd_inv. rewrite E1, E2, E3, E4, E5, E6. auto.
Qed.

Definition corep {A} (m : M A) : Prop :=
  forall s, m s <> RPanic /\ res_all (fun s' => core s' = core s) (m s).

Lemma corep_bip {A} (m : M A) : corep m -> bip m.
Proof.
  intros H s Hs. destruct (H s) as [H1 H2]. split; [exact H1|].
  destruct (m s); cbn [res_all] in *; auto; eapply BI_core; eauto.
Qed.

Lemma corep_ret A (a : A) : corep (ret a).
Proof. intros s. split; [discriminate|reflexivity]. Qed.
Lemma corep_fail A k p : corep (@fail A k p).
Proof. intros s. split; [discriminate|reflexivity]. Qed.
Lemma corep_unsup A : corep (@unsup A).
Proof. intros s. split; [discriminate|exact I]. Qed.
Lemma corep_bind A B (m : M A) (f : A -> M B) : corep m -> (forall a, corep (f a)) -> corep (bind m f).
Proof.
  intros Hm Hf s. unfold bind. destruct (Hm s) as [H1 H2].
  destruct (m s) as [a s1|k p s1| |]; cbn [res_all] in *; try (split; [discriminate|auto]).
  - destruct (Hf a s1) as [H3 H4]. split; [exact H3|].
    destruct (f a s1); cbn [res_all] in *; auto; congruence.
  - contradiction.
Qed.
Lemma corep_get : corep get.
Proof. intros s. split; [discriminate|reflexivity]. Qed.

Definition P_fn {A} (m : M A) : Prop :=
  forall s, res_all (fun s' => flows s' = flows s /\ nested s' = nested s /\
                               marks (cx s') = marks (cx s)) (m s).

Lemma marks_noip c c' : ctx_noip c' = ctx_noip c -> marks c' = marks c.
Proof.
  intros H. unfold marks. rewrite (ctx_noip_fs _ _ H), (ctx_noip_cs _ _ H), (ctx_noip_di _ _ H). reflexivity.
Qed.

Lemma wl_fn : forall A (m : M A), wl m -> P_fn m.
Proof.
  intros A m H s. eapply res_all_impl; [|exact (wl_mframe A m H s)].
  intros s' ((_ & _ & _ & _ & _ & N & C) & _ & F). split; [exact F|]. split; [exact N|apply marks_noip; exact C].
Qed.

Lemma BI_frame s s' :
  BI s -> code s' = code s -> dbg s' = dbg s -> dict s' = dict s -> flows s' = flows s ->
  nested s' = nested s -> marks (cx s') = marks (cx s) -> BI s'.
Proof.
  intros (Hcd & HF & HC & HS) E1 E2 E3 E4 E5 E6.
  unfold BI, BIf, cd_inv. rewrite E1, E2, E3, E4, E5.
  split; [exact Hcd|]. split; [exact HF|].
  inversion HC as [|? ? H0 HC']; subst. split.
  - constructor; [eapply CT_marks; eassumption|exact HC'].
  - apply chain_cons; [eapply chain_tail; exact HS|].
    intros c Hc. unfold marks in E6. injection E6 as -> _ _.
    apply (chain_head_max _ _ c HS). right. exact Hc.
Qed.

Lemma BI_mframe s s' : mframe s s' -> BI s -> BI s'.
Proof.
  intros ((E1 & E2 & _ & _ & _ & E6 & E7) & E3 & E4) HB.
  apply (BI_frame s s' HB); try assumption. apply marks_noip. exact E7.
Qed.

Lemma wl_BI : forall A (m : M A), wl m -> forall s, BI s -> res_all BI (m s).
Proof.
  intros A m Hw s Hs. eapply res_all_impl; [|exact (wl_mframe A m Hw s)].
  intros s' F. exact (BI_mframe _ _ F Hs).
Qed.

Lemma BI_set_code s c' :
  BI s -> length c' = length (code s) -> FL c' (dict s) (flows s) -> BI (set_code s c').
Proof.
  intros (Hcd & HF & HC & HS) El HF'. split; [|split; [exact HF'|split; assumption]].
  unfold cd_inv in *. cbn [set_code code dbg]. lia.
Qed.

Lemma BI_patch_jump s q op : BI s -> is_jump op = true -> BI (set_code s (list_set (code s) q op)).
Proof.
  intros H J. apply BI_set_code; [exact H|apply list_set_length|].
  apply FL_patch_jump; [apply H|exact J].
Qed.

Lemma BI_patch_free s q op :
  BI s -> ~ In q (flat_map fjumps (flows s)) -> BI (set_code s (list_set (code s) q op)).
Proof.
  intros H J. apply BI_set_code; [exact H|apply list_set_length|].
  apply FL_patch_free; [apply H|exact J].
Qed.

Lemma BI_patch_nonjump s q old op :
  BI s -> nth_error (code s) q = Some old -> is_jump old = false ->
  BI (set_code s (list_set (code s) q op)).
Proof.
  intros H E J. apply BI_set_code; [exact H|apply list_set_length|].
  eapply FL_patch_nonjump; [apply H|exact E|exact J].
Qed.

Section Run.
  Variable fo : fops.

  (* "BI is kept from a to b" is a preorder that contains the machine's steps: the cell the
     machine patches held a [Resolve], which no flow entry points at *)
  Lemma BI_steps :
    let R (a b : state) := BI a -> BI b in
    (forall s, R s s) /\ (forall a b c, R a b -> R b c -> R a c) /\
    (forall s s', mframe s s' -> R s s') /\
    (forall s name e, nth_error (code s) (ip s) = Some (OResolve name) ->
       R s (set_code s (list_set (code s) (ip s) (resolve_op e)))).
  Proof.
    cbv zeta. split; [auto|]. split; [auto|]. split; [exact BI_mframe|].
    intros s name e Hn HB. eapply BI_patch_nonjump; [exact HB|exact Hn|reflexivity].
  Qed.

  Lemma far_BI : forall s, BI s -> res_all BI (fetch_and_run (native_fn fo) s).
  Proof.
    intros s Hs. destruct BI_steps as (A & B & C & D).
    eapply res_all_impl; [|exact (far_steps _ (native_wl fo) _ A B C D s)]. intros s' H. exact (H Hs).
  Qed.

  Lemma run_BI : forall fuel s, BI s ->
    match run (native_fn fo) fuel s with Some r => res_all BI r | None => True end.
  Proof.
    intros fuel s Hs. destruct BI_steps as (A & B & C & D).
    pose proof (run_steps _ (native_wl fo) _ A B C D fuel s) as H.
    destruct (run (native_fn fo) fuel s); [|exact I].
    eapply res_all_impl; [|exact H]. intros s' H'. exact (H' Hs).
  Qed.

  Lemma bip_run_m rf : bip (run_m fo rf).
  Proof.
    intros s Hs. unfold run_m, nf. pose proof (run_BI rf s Hs) as H.
    pose proof (run_no_panic fo rf s) as N.
    destruct (run (native_fn fo) rf s) as [r|]; [|apply good_unsup].
    split; [intros E; apply N; rewrite E; reflexivity|exact H].
  Qed.
End Run.

Lemma cd_of_BI s : BI s -> cd_inv s.
Proof. intros H. apply H. Qed.

Lemma BI_split s : BI s ->
  flows s = pending s ++ lastn (fs_len (cx s)) (flows s) /\
  skipn (length (pending s)) (flows s) = lastn (fs_len (cx s)) (flows s).
Proof.
  intros HB. pose proof (proj2 (BI_marks_le s (cx s) HB (or_introl eq_refl))) as L.
  split; [apply lastn_split|]. unfold lastn, pending. f_equal. rewrite firstn_length. lia.
Qed.

(* code_emit always succeeds where the debug map covers the code *)
Lemma code_emit_run op s : cd_inv s ->
  exists s1, code_emit op s = ROk tt s1 /\ code s1 = code s ++ [op] /\ dict s1 = dict s /\
             flows s1 = flows s /\ cx s1 = cx s /\ nested s1 = nested s /\ cd_inv s1.
Proof.
  intros H. pose proof (code_emit_cd op s H) as Hc. rewrite code_emit_eq in *.
  replace (length (code s) <=? length (dbg s))%nat with true in * by (symmetry; apply Nat.leb_le; exact H).
  eexists. split; [reflexivity|]. repeat split. exact Hc.
Qed.

Lemma emit_run_BI op s : BI s ->
  exists s1, code_emit op s = ROk tt s1 /\ BI s1 /\ code s1 = code s ++ [op] /\
             dict s1 = dict s /\ flows s1 = flows s /\ cx s1 = cx s /\ nested s1 = nested s.
Proof.
  intros HB. destruct (code_emit_run op s (cd_of_BI s HB)) as (s1 & E & E1 & E2 & E3 & E4 & E5 & Hcd).
  exists s1. split; [exact E|]. split; [|repeat split; assumption].
  pose proof HB as (_ & HF & HC & HS). unfold BI, BIf. rewrite E1, E2, E3, E4, E5.
  split; [exact Hcd|]. split; [apply FL_app_code; exact HF|split; assumption].
Qed.

Lemma bip_code_emit op : bip (code_emit op).
Proof. intros s HB. destruct (emit_run_BI op s HB) as (s1 & E & B & _). rewrite E. apply good_ok. exact B. Qed.

Lemma BI_push_plain s f : BI s -> fpos f = [] -> fdict f = [] -> BI (set_flows s (f :: flows s)).
Proof.
  intros HB E1 E2. destruct (BI_split s HB) as [S1 _].
  apply (BI_pending s _ (f :: pending s)); [exact HB|apply HB|reflexivity|reflexivity| |].
  - cbn [set_flows flows]. rewrite S1 at 1. reflexivity.
  - cbn [set_flows flows code dict]. apply FL_push_plain; [apply HB|exact E1|exact E2].
Qed.

Lemma bip_push_flow_plain f : fpos f = [] -> fdict f = [] -> bip (push_flow f).
Proof. intros E1 E2 s Hs. unfold push_flow, modify. apply good_ok. apply BI_push_plain; assumption. Qed.

(* what is known about an entry taken off the stack *)
Definition facts (f : flow) (c : list opcode) (d : list dentry) (fl : list flow) : Prop :=
  (forall p, In p (fjumps f) -> jump_at c p) /\ (forall p, In p (fother f) -> p < length c) /\
  (forall i, In i (fdict f) -> dfun_at d i) /\
  (forall p, In p (fpos f) -> ~ In p (flat_map fpos fl)).

Lemma BI_remove_pending s a f b :
  BI s -> pending s = a ++ f :: b ->
  BI (set_flows s (a ++ b ++ lastn (fs_len (cx s)) (flows s))) /\
  facts f (code s) (dict s) (a ++ b ++ lastn (fs_len (cx s)) (flows s)).
Proof.
  intros HB Ep. destruct (BI_split s HB) as [S1 _].
  set (rest := lastn (fs_len (cx s)) (flows s)) in *.
  assert (HF : FL (code s) (dict s) (a ++ f :: (b ++ rest))).
  { destruct HB as (_ & HF & _). rewrite S1, Ep in HF. rewrite <- app_assoc in HF. exact HF. }
  destruct (FL_remove _ _ _ _ _ HF) as (HF' & F1 & F2 & F3 & F4).
  split; [|repeat split; assumption].
  apply (BI_pending s _ (a ++ b)); [exact HB|apply HB|reflexivity|reflexivity| |].
  - cbn [set_flows flows]. rewrite app_assoc. reflexivity.
  - cbn [set_flows flows code dict]. exact HF'.
Qed.

Lemma pop_flow_spec s : BI s ->
  (pop_flow s = ROk None s) \/
  (exists f fl, flows s = f :: fl /\ pop_flow s = ROk (Some f) (set_flows s fl) /\
                BI (set_flows s fl) /\ facts f (code s) (dict s) fl).
Proof.
  intros HB. unfold pop_flow. destruct (flows s) as [|f fl] eqn:E; [left; reflexivity|].
  destruct (fs_len (cx s) <? length (f :: fl))%nat eqn:El; [|left; reflexivity].
  right. exists f, fl. split; [reflexivity|]. split; [reflexivity|].
  apply Nat.ltb_lt in El.
  assert (Ep : pending s = [] ++ f :: firstn (length fl - fs_len (cx s)) fl).
  { unfold pending. rewrite E. cbn [length] in *.
    replace (S (length fl) - fs_len (cx s)) with (S (length fl - fs_len (cx s))) by lia.
    reflexivity. }
  destruct (BI_remove_pending s _ _ _ HB Ep) as [B F]. cbn [app] in B, F.
  assert (Efl : firstn (length fl - fs_len (cx s)) fl ++ lastn (fs_len (cx s)) (flows s) = fl).
  { rewrite E. unfold lastn. cbn [length] in *.
    replace (S (length fl) - fs_len (cx s)) with (S (length fl - fs_len (cx s))) by lia.
    cbn [skipn]. apply firstn_skipn. }
  rewrite Efl in B, F. split; assumption.
Qed.

Lemma take_cond_split : forall l f l', take_cond l = Some (f, l') ->
  exists a b, l = a ++ f :: b /\ l' = a ++ b.
Proof.
  induction l as [|x l IH]; intros f l' H; cbn [take_cond] in H; [discriminate|].
  destruct x; try discriminate;
    try (injection H as <- <-; exists [], l; split; reflexivity).
  destruct (take_cond l) as [[g r']|] eqn:E; [|discriminate]. injection H as <- <-.
  destruct (IH _ _ eq_refl) as (a & b & -> & ->).
  exists (FBreak o :: a), b. split; reflexivity.
Qed.

Lemma take_cond_kind : forall l f l', take_cond l = Some (f, l') ->
  match f with FIf _ | FElse _ | FCase | FCaseOf _ | FCaseEndOf _ => True | _ => False end.
Proof.
  induction l as [|x l IH]; intros f l' H; cbn [take_cond] in H; [discriminate|].
  destruct x; try discriminate; try (injection H as <- <-; exact I).
  destruct (take_cond l) as [[g r']|] eqn:E; [|discriminate]. injection H as <- <-.
  eapply IH. reflexivity.
Qed.

Lemma take_spec s : BI s ->
  (take_first_cond_flow s = ROk None s) \/
  (exists f fl, take_first_cond_flow s = ROk (Some f) (set_flows s fl) /\
                BI (set_flows s fl) /\ facts f (code s) (dict s) fl).
Proof.
  intros HB. unfold take_first_cond_flow. cbv zeta.
  destruct (take_cond (pending s)) as [[f act']|] eqn:E; [|left; reflexivity].
  right. destruct (take_cond_split _ _ _ E) as (a & b & Ea & ->).
  destruct (BI_remove_pending s _ _ _ HB Ea) as [B F].
  rewrite (proj2 (BI_split s HB)). rewrite <- app_assoc. eexists _, _. split; [reflexivity|]. split; assumption.
Qed.

Lemma BI_pos_lt s p : BI s -> In p (flat_map fpos (flows s)) -> p < length (code s).
Proof. intros (_ & HF & _) Hp. eapply FL_pos_lt; eassumption. Qed.

Lemma jump_at_last c op : is_jump op = true -> jump_at (c ++ [op]) (length c).
Proof.
  intros J. exists op. split; [|exact J]. rewrite nth_error_app2 by lia.
  rewrite Nat.sub_diag. reflexivity.
Qed.

Lemma single_nodup (p : nat) : NoDup [p].
Proof. constructor; [intros []|constructor]. Qed.

Lemma FL_emit_push c d fl f op :
  FL c d fl -> NoDup (fpos f) -> (forall p, In p (fpos f) -> p = length c) ->
  (fjumps f <> [] -> is_jump op = true) -> (forall i, In i (fdict f) -> dfun_at d i) ->
  FL (c ++ [op]) d (f :: fl).
Proof.
  intros HF N P J D. apply FL_push; [apply FL_app_code; exact HF|exact N| | | |exact D].
  - intros p Hp C. rewrite (P p Hp) in C. pose proof (FL_pos_lt _ _ _ _ HF C). lia.
  - intros p Hp. rewrite (P p (proj2 (in_fpos_cases f p) (or_introl Hp))).
    apply jump_at_last. apply J. intros E. rewrite E in Hp. exact Hp.
  - intros p Hp. rewrite (P p (proj2 (in_fpos_cases f p) (or_intror Hp))).
    rewrite app_length. cbn [length]. lia.
Qed.

Lemma BI_push s f :
  BI s -> NoDup (fpos f) -> (forall p, In p (fpos f) -> ~ In p (flat_map fpos (flows s))) ->
  (forall p, In p (fjumps f) -> jump_at (code s) p) ->
  (forall p, In p (fother f) -> p < length (code s)) ->
  (forall i, In i (fdict f) -> dfun_at (dict s) i) ->
  BI (set_flows s (f :: flows s)).
Proof.
  intros HB N D J O F. destruct (BI_split s HB) as [S1 _].
  apply (BI_pending s _ (f :: pending s)); [exact HB|apply HB|reflexivity|reflexivity| |].
  - cbn [set_flows flows]. rewrite S1 at 1. reflexivity.
  - cbn [set_flows flows code dict]. apply FL_push; try assumption. apply HB.
Qed.

Lemma backpatch_jump_run org offs s : jump_at (code s) org ->
  exists op', is_jump op' = true /\
    backpatch_jump org offs s = ROk tt (set_code s (list_set (code s) org op')).
Proof.
  intros H. pose proof (jump_at_lt _ _ H) as Hl. destruct H as (op & E & J).
  unfold backpatch_jump. rewrite E.
  destruct op; try discriminate J; unfold backpatch;
    (replace (org <? length (code s))%nat with true by (symmetry; apply Nat.ltb_lt; exact Hl));
    eexists; (split; [|reflexivity]); reflexivity.
Qed.

Lemma backpatch_run org op s : org < length (code s) ->
  backpatch org op s = ROk tt (set_code s (list_set (code s) org op)).
Proof.
  intros H. unfold backpatch.
  replace (org <? length (code s))%nat with true by (symmetry; apply Nat.ltb_lt; exact H). reflexivity.
Qed.

Ltac bget := unfold bind at 1; unfold get at 1; cbv beta iota.
Ltac brun E := unfold bind at 1; rewrite E; cbv beta iota.

Lemma push_flow_eq f s : push_flow f s = ROk tt (set_flows s (f :: flows s)).
Proof. reflexivity. Qed.

Lemma dict_insert_eq name e s :
  dict_insert name e s = ROk (length (dict s)) (set_dict s (dict s ++ [mkdent name e])).
Proof. reflexivity. Qed.

Lemma BI_push_emit_fields s s2 f op :
  BI s -> code s2 = code s ++ [op] -> dict s2 = dict s -> flows s2 = f :: flows s ->
  cx s2 = cx s -> nested s2 = nested s -> cd_inv s2 ->
  fpos f = [length (code s)] -> fdict f = [] -> (fjumps f <> [] -> is_jump op = true) -> BI s2.
Proof.
  intros HB E1 E2 E3 E4 E5 Hcd P D J. destruct (BI_split s HB) as [S1 _].
  apply (BI_pending s _ (f :: pending s)); try assumption.
  - rewrite E3. rewrite S1 at 1. reflexivity.
  - rewrite E1, E2, E3. apply FL_emit_push; [apply HB|rewrite P; apply single_nodup| |exact J|].
    + rewrite P. intros p [<-|[]]. reflexivity.
    + rewrite D. intros i [].
Qed.

Lemma push_emit_run s f op :
  BI s -> fpos f = [length (code s)] -> fdict f = [] -> (fjumps f <> [] -> is_jump op = true) ->
  exists s2, code_emit op (set_flows s (f :: flows s)) = ROk tt s2 /\ BI s2 /\ code s2 = code s ++ [op].
Proof.
  intros HB P D J.
  destruct (code_emit_run op (set_flows s (f :: flows s)) (cd_of_BI s HB))
    as (s1 & E & E1 & E2 & E3 & E4 & E5 & Hcd).
  exists s1. split; [exact E|]. split; [|exact E1].
  apply (BI_push_emit_fields s s1 f op); assumption.
Qed.

Lemma good_push_emit s f op :
  BI s -> fpos f = [length (code s)] -> fdict f = [] -> (fjumps f <> [] -> is_jump op = true) ->
  good ((push_flow f ;; code_emit op) s).
Proof.
  intros HB P D J. destruct (push_emit_run s f op HB P D J) as (s2 & E & B & _).
  brun push_flow_eq. rewrite E. apply good_ok. exact B.
Qed.

Lemma good_emit_push s f op :
  BI s -> fpos f = [length (code s)] -> fdict f = [] -> (fjumps f <> [] -> is_jump op = true) ->
  good ((code_emit op ;; push_flow f) s).
Proof.
  intros HB P D J.
  destruct (code_emit_run op s (cd_of_BI s HB)) as (s1 & E & E1 & E2 & E3 & E4 & E5 & Hcd).
  brun E. rewrite push_flow_eq. apply good_ok.
  apply (BI_push_emit_fields s _ f op); cbn [set_flows code dict flows cx nested]; try assumption.
  rewrite E3. reflexivity.
Qed.

Lemma backpatch_jump_good org offs s : BI s -> jump_at (code s) org ->
  exists s1, backpatch_jump org offs s = ROk tt s1 /\ BI s1 /\
    flows s1 = flows s /\ dict s1 = dict s /\ cx s1 = cx s /\ nested s1 = nested s /\
    length (code s1) = length (code s) /\ (forall p, jump_at (code s) p -> jump_at (code s1) p).
Proof.
  intros HB HJ. destruct (backpatch_jump_run org offs s HJ) as (op' & J & E).
  eexists. split; [exact E|]. split; [apply BI_patch_jump; assumption|].
  cbn [set_code flows dict cx nested code]. repeat split.
  - apply list_set_length.
  - intros p Hp. apply jump_at_patch; assumption.
Qed.

Lemma BI_set_dict s d' :
  BI s -> (forall i, dfun_at (dict s) i -> dfun_at d' i) -> BI (set_dict s d').
Proof.
  intros (Hcd & HF & HC & HS) Hd. split; [exact Hcd|]. split; [|split; assumption].
  cbn [set_dict code dict flows]. eapply FL_dict_same; [exact HF|]. intros i _. apply Hd.
Qed.

Lemma bip_dict_insert name e : bip (dict_insert name e).
Proof.
  intros s HB. rewrite dict_insert_eq. apply good_ok. apply BI_set_dict; [exact HB|].
  intros i. apply dfun_at_app.
Qed.

Lemma bip_pop_flow : bip pop_flow.
Proof.
  intros s HB. destruct (pop_flow_spec s HB) as [E|(f & fl & _ & E & B & _)]; rewrite E;
    apply good_ok; assumption.
Qed.

Lemma bip_take : bip take_first_cond_flow.
Proof.
  intros s HB. destruct (take_spec s HB) as [E|(f & fl & E & B & _)]; rewrite E;
    apply good_ok; assumption.
Qed.

Lemma bip_context_open m : bip (context_open m).
Proof.
  intros s HB. unfold context_open. cbv zeta. apply good_ok.
  pose proof HB as (Hcd & HF & HC & HS).
  split; [exact Hcd|]. cbn [set_nested set_cx code dict flows cx nested].
  split; [exact HF|]. split.
  - constructor; [|exact HC]. split; [cbn [fs_len]; lia|]. cbn [fs_len cs_len di_len].
    intros f Hf. rewrite lastn_all in Hf by lia. split.
    + intros p Hp. unfold code_origin. eapply FL_pos_lt; [exact HF|].
      apply in_flat_map. exists f. split; assumption.
    + intros i Hi. destruct HF as (_ & _ & _ & H4).
      destruct (H4 i) as (e & E & _); [apply in_flat_map; exists f; split; assumption|].
      apply nth_error_Some. rewrite E. discriminate.
  - apply chain_cons; [exact HS|]. intros c Hc. cbn [fs_len].
    destruct (BI_marks_le s c HB Hc). lia.
Qed.

Lemma corep_pop_data : corep pop_data.
Proof.
  intros s. unfold pop_data. destruct (ds s); [split; [discriminate|reflexivity]|].
  destruct (_ <? _)%nat; (split; [discriminate|]); cbn [res_all]; [|reflexivity].
  unfold add_rstep. cbn [rlog set_ds]. destruct (rlog s); reflexivity.
Qed.

Lemma corep_pop_n : forall n, corep (pop_n n).
Proof.
  induction n; cbn [pop_n]; [apply corep_ret|].
  apply corep_bind; [apply corep_pop_data|intros _; exact IHn].
Qed.

Lemma corep_vec_collect p : corep (vec_collect_till_ptr p).
Proof.
  unfold vec_collect_till_ptr. apply corep_bind; [apply corep_get|]. intros s0. cbv zeta.
  destruct (_ <? _)%nat; [apply corep_fail|].
  apply corep_bind; [apply corep_pop_n|intros _; apply corep_ret].
Qed.

Lemma corep_join_str_vec sep v : corep (join_str_vec sep v).
Proof. unfold join_str_vec. destruct (join_cells 40 sep v); [apply corep_ret|apply corep_unsup]. Qed.

Lemma corep_alloc_heap v : corep (alloc_heap v).
Proof.
  intros s. unfold alloc_heap. destruct (mode_eqb _ _); [split; [discriminate|reflexivity]|].
  destruct (limit_reached _ _); (split; [discriminate|reflexivity]).
Qed.

Lemma corep_intern_source buf : corep (intern_source buf).
Proof. intros s. split; [discriminate|reflexivity]. Qed.

Lemma bkp_corep {A} (m : M A) : bkp m -> corep m.
Proof.
  intros H s. destruct (H s) as [N K]. split; [exact N|]. eapply res_all_impl; [|exact K].
  intros s' (A1 & A2 & A3 & A4 & A5 & A6 & A7). unfold core. congruence.
Qed.

Lemma corep_get_token pr : corep (get_token pr).
Proof. apply bkp_corep, get_token_bkp. Qed.

Lemma corep_next_name pr : corep (next_name pr).
Proof. apply bkp_corep, next_name_bkp. Qed.

Definition fr (s s' : state) : Prop :=
  flows s' = flows s /\ nested s' = nested s /\ marks (cx s') = marks (cx s) /\
  dict s' = dict s /\ length (code s') = length (code s).

Lemma fr_refl s : fr s s.
Proof. repeat split. Qed.
Lemma fr_trans a b c : fr a b -> fr b c -> fr a c.
Proof. unfold fr. intros (A1 & A2 & A3 & A4 & A5) (B1 & B2 & B3 & B4 & B5). repeat split; congruence. Qed.

Lemma run_m_fr fo rf s : res_all (fr s) (run_m fo rf s).
Proof.
  unfold run_m, nf.
  assert (H : match run (native_fn fo) rf s with Some r => res_all (fr s) r | None => True end).
  { apply (run_steps _ (native_wl fo) fr fr_refl fr_trans).
    - intros a b ((E1 & _ & _ & _ & _ & E6 & E7) & E3 & E4).
      repeat split; try assumption; [apply marks_noip; exact E7|rewrite E1; reflexivity].
    - intros a name e _. repeat split. cbn [set_code code]. apply list_set_length. }
  destruct (run (native_fn fo) rf s); [exact H|exact I].
Qed.

Lemma swap_remove_last_spec : forall l lst l',
  swap_remove_last l = Some (lst, l') -> l = l' ++ [lst].
Proof.
  induction l as [|x l IH]; intros lst l' H; cbn [swap_remove_last] in H; [discriminate|].
  destruct l as [|y l].
  - injection H as <- <-. reflexivity.
  - destruct (swap_remove_last (y :: l)) as [[z r]|] eqn:E; [|discriminate].
    injection H as <- <-. rewrite (IH _ _ eq_refl). reflexivity.
Qed.

Lemma purge_dict_below : forall fuel d i j, j < i ->
  nth_error (purge_dict fuel d i) j = nth_error d j.
Proof.
  induction fuel as [|f IH]; intros d i j Hj; cbn [purge_dict]; [reflexivity|].
  destruct (nth_error d i) as [e|] eqn:Ei; [|reflexivity].
  destruct (dent e); [apply IH; lia| |];
    (destruct (swap_remove_last d) as [[lst d']|] eqn:Es; [|reflexivity];
     apply swap_remove_last_spec in Es;
     assert (Hl : i < length d) by (apply nth_error_Some; rewrite Ei; discriminate);
     rewrite Es, app_length in Hl; cbn [length] in Hl;
     assert (E0 : nth_error d j = nth_error d' j) by (rewrite Es; apply nth_error_app1; lia);
     destruct (i =? length d')%nat;
     [rewrite IH by lia; symmetry; exact E0
     |rewrite IH by lia; rewrite nth_error_list_set_neq by lia; symmetry; exact E0]).
Qed.

Lemma chain_drop2 a b r : chain (a :: b :: r) -> chain (a :: r).
Proof.
  intros H. apply chain_cons; [eapply chain_tail, chain_tail; exact H|].
  intros c Hc. apply (chain_head_max _ _ c H). right. right. exact Hc.
Qed.

Lemma BI_set_nested_tail s prev rest :
  BI s -> nested s = prev :: rest -> BI (set_nested s rest).
Proof.
  intros (Hcd & HF & HC & HS) E. rewrite E in HC, HS.
  split; [exact Hcd|]. cbn [set_nested code dict flows cx nested]. split; [exact HF|]. split.
  - inversion HC as [|? ? H0 HC']; subst. inversion HC' as [|? ? H1 HC'']; subst.
    constructor; assumption.
  - eapply chain_drop2; exact HS.
Qed.

(* the popped context is put back after a run that failed (the run keeps flows, nesting and marks) *)
Lemma BI_put_back s s1 prev rest :
  BI s -> nested s = prev :: rest -> BI s1 -> flows s1 = flows s -> nested s1 = rest ->
  marks (cx s1) = marks (cx s) -> BI (set_nested s1 (prev :: nested s1)).
Proof.
  intros (_ & _ & HC & HS) E (Hcd1 & HF1 & HC1 & HS1) Ef En Em. rewrite E in HC, HS.
  split; [exact Hcd1|]. cbn [set_nested code dict flows cx nested]. split; [exact HF1|].
  rewrite En in *. inversion HC as [|? ? H0 HC']; subst. inversion HC' as [|? ? H1 HC'']; subst.
  inversion HC1 as [|? ? G0 G1]; subst. split.
  - constructor; [exact G0|]. constructor; [rewrite Ef; exact H1|exact G1].
  - apply chain_cons; [eapply chain_tail; exact HS|].
    intros c Hc. unfold marks in Em. injection Em as Em _ _. rewrite Em.
    apply (chain_head_max _ _ c HS). right. exact Hc.
Qed.

Lemma BI_leave s s4 prev prev' rest :
  BI s -> nested s = prev :: rest -> BI s4 -> flows s4 = flows s -> nested s4 = rest ->
  marks prev' = marks prev -> BI (set_cx s4 prev').
Proof.
  intros (_ & _ & HC & HS) E (Hcd & HF & HC4 & HS4) Ef En Em. rewrite E in HC, HS.
  split; [exact Hcd|]. cbn [set_cx code dict flows cx nested]. split; [exact HF|].
  rewrite Ef, En. inversion HC as [|? ? H0 HC']; subst. inversion HC' as [|? ? H1 HC'']; subst.
  split.
  - constructor; [eapply CT_marks; eassumption|exact HC''].
  - apply chain_cons; [eapply chain_tail, chain_tail; exact HS|].
    intros c Hc. unfold marks in Em. injection Em as -> _ _.
    apply (chain_head_max _ _ c (chain_tail _ _ HS)). right. exact Hc.
Qed.

Lemma no_pending_all s : BI s -> has_pending_flow s = false ->
  forall f, In f (flows s) ->
    (forall p, In p (fpos f) -> p < cs_len (cx s)) /\ (forall i, In i (fdict f) -> i < di_len (cx s)).
Proof.
  intros (_ & _ & HC & _) Hp f Hf. inversion HC as [|? ? [H0 H1] _]; subst.
  unfold has_pending_flow in Hp. apply Nat.ltb_ge in Hp.
  apply H1. rewrite lastn_all by lia. exact Hf.
Qed.

Lemma BI_emitted s s' : emitted s s' -> BI s -> BI s'.
Proof.
  induction 1 as [s|s v s1 s2 E _ IH|s op s1 s2 E _ IH]; intros HB; [exact HB| |]; apply IH.
  - pose proof (wl_BI _ _ wl_pop_data s HB) as X. rewrite E in X. exact X.
  - pose proof (proj2 (bip_code_emit op s HB)) as X. rewrite E in X. exact X.
Qed.

(* the truncation that ends a meta block: with nothing pending, every flow entry lies below
   the marks of the block *)
Lemma BI_close_cut s : BI s -> has_pending_flow s = false -> BI (close_cut s).
Proof.
  intros HB Hp. pose proof (no_pending_all s HB Hp) as All. pose proof HB as (Hcd & HF & HC & HS).
  split; [apply trunc_cd; exact Hcd|]. split; [|split; assumption].
  unfold close_cut. cbn [set_dict set_dbg set_code code dict flows].
  eapply FL_dict_same; [apply FL_firstn_code; [exact HF|]|].
  - intros p Hp2. apply in_flat_map in Hp2. destruct Hp2 as (f & Hf & Hpf). exact (proj1 (All f Hf) p Hpf).
  - intros i Hi (e & E & J). exists e. split; [|exact J]. rewrite purge_dict_below; [exact E|].
    apply in_flat_map in Hi. destruct Hi as (f & Hf & Hif). exact (proj2 (All f Hf) i Hif).
Qed.

Section Close2.
  Variable fo : fops.
  Variable rf : nat.

  Lemma context_close_good s :
    BI s -> (cmode (cx s) = MMeta -> has_pending_flow s = false) -> good (context_close fo rf s).
  Proof.
    intros HB Hp.
    assert (Run : forall prev rest, nested s = prev :: rest ->
              good (run_m fo rf (set_nested s rest)) /\
              res_all (fr (set_nested s rest)) (run_m fo rf (set_nested s rest))).
    { intros prev rest En. split; [|apply run_m_fr].
      apply bip_run_m. exact (BI_set_nested_tail s prev rest HB En). }
    assert (Ep : forall prev s1, marks (eval_prev prev s1) = marks prev).
    { intros prev s1. unfold eval_prev. destruct (mode_eqb _ _); reflexivity. }
    assert (Cut : forall prev rest s1 s4, nested s = prev :: rest -> cmode (cx s) = MMeta ->
              BI s1 -> fr (set_nested s rest) s1 -> emitted (close_cut s1) s4 ->
              BI s4 /\ flows s4 = flows s /\ nested s4 = rest).
    { intros prev rest s1 s4 En Em B1 (F1 & F2 & F3 & _) E4.
      destruct (emitted_frame _ _ E4) as (_ & G2 & _ & G4 & _).
      split; [|split; [rewrite G2; exact F1|rewrite G4; exact F2]].
      apply (BI_emitted _ _ E4). apply BI_close_cut; [exact B1|].
      unfold has_pending_flow in *. rewrite F1. unfold marks in F3. injection F3 as -> _ _. exact (Hp Em). }
    destruct (close_spec_holds fo rf s)
      as [En|prev rest En Em|prev rest u s1 En Em Er|prev rest k p s1 En Em Er|prev rest k p s1 En Em Er
         |prev rest u s1 s4 En Em Er E4|prev rest u s1 k p s4 En Em Er E4|prev rest u s1 s4 op En Em Er E4 P
         |prev rest En Er|];
      try (destruct (Run _ _ En) as [[N R] F]; rewrite Er in N, R, F; cbn [res_all] in R, F).
    - apply good_err. exact HB.
    - apply good_ok. apply (BI_leave s _ prev prev rest HB En (BI_set_nested_tail s prev rest HB En)); reflexivity.
    - apply good_ok. destruct F as (F1 & F2 & _). apply (BI_leave s s1 prev _ rest HB En R F1 F2). apply Ep.
    - apply good_err. destruct F as (F1 & F2 & _). apply (BI_leave s s1 prev _ rest HB En R F1 F2). apply Ep.
    - apply good_err. destruct F as (F1 & F2 & F3 & _). exact (BI_put_back s s1 prev rest HB En R F1 F2 F3).
    - apply good_ok. destruct (Cut _ _ _ _ En Em R F E4) as (B4 & G1 & G2).
      apply (BI_leave s s4 prev prev rest HB En B4 G1 G2). reflexivity.
    - apply good_err. exact (proj1 (Cut _ _ _ _ En Em R F E4)).
    - exfalso. apply (code_emit_no_panic op s4); [|exact P].
      exact (cd_of_BI _ (proj1 (Cut _ _ _ _ En Em R F E4))).
    - exfalso. apply N. reflexivity.
    - apply good_unsup.
  Qed.
End Close2.

Lemma BI_pop_ctx s prev rest :
  BI s -> nested s = prev :: rest -> BI (set_cx (set_nested s rest) prev).
Proof.
  intros (Hcd & HF & HC & HS) E. rewrite E in HC, HS.
  split; [exact Hcd|]. cbn [set_cx set_nested code dict flows cx nested]. split; [exact HF|].
  inversion HC as [|? ? H0 HC']; subst. split; [exact HC'|eapply chain_tail; exact HS].
Qed.

Lemma leave_contexts_BI : forall fuel depth s, BI s -> BI (leave_contexts fuel depth s).
Proof.
  induction fuel as [|f IH]; intros depth s HB; cbn [leave_contexts]; [exact HB|].
  destruct (S depth <? length (nested s))%nat; [|exact HB].
  destruct (nested s) as [|prev rest] eqn:E; [exact HB|].
  apply IH. apply BI_pop_ctx; assumption.
Qed.

Definition unwind_core (s : state) : state :=
  let c := cx s in
  set_dict (set_flows (set_dbg (set_code s (firstn (cs_len c) (code s))) (firstn (cs_len c) (dbg s)))
                      (lastn (fs_len c) (flows s)))
           (firstn (di_len c) (dict s)).

Lemma BI_unwind_core s : BI s -> BI (unwind_core s).
Proof.
  intros HB. pose proof HB as (Hcd & HF & HC & HS).
  inversion HC as [|? ? [L0 P0] HC']; subst.
  set (c := cx s) in *. set (fl' := lastn (fs_len c) (flows s)).
  assert (Lfl : length fl' = fs_len c) by (unfold fl'; rewrite lastn_length; lia).
  split; [|split; [|split]].
  - unfold unwind_core, cd_inv in *. cbn [set_dict set_flows set_dbg set_code code dbg].
    rewrite !firstn_length. lia.
  - unfold unwind_core. cbn [set_dict set_flows set_dbg set_code code dict flows]. fold c. fold fl'.
    assert (HF1 : FL (code s) (dict s) fl').
    { rewrite (lastn_split (fs_len c) (flows s)) in HF. eapply FL_tail. exact HF. }
    assert (Pos : forall f, In f fl' -> (forall p, In p (fpos f) -> p < cs_len c) /\
                                        (forall i, In i (fdict f) -> i < di_len c)) by exact P0.
    eapply FL_dict_same; [apply FL_firstn_code; [exact HF1|]|].
    + intros p Hp. apply in_flat_map in Hp. destruct Hp as (f & Hf & Hpf). exact (proj1 (Pos f Hf) p Hpf).
    + intros i Hi (e & E & J). exists e. split; [|exact J].
      rewrite nth_error_firstn_lt; [exact E|].
      apply in_flat_map in Hi. destruct Hi as (f & Hf & Hif). exact (proj2 (Pos f Hf) i Hif).
  - unfold unwind_core. cbn [set_dict set_flows set_dbg set_code flows cx nested]. fold c. fold fl'.
    constructor.
    + split; [lia|]. rewrite lastn_all by lia. exact P0.
    + rewrite Forall_forall in *. intros c' Hc'. destruct (HC' c' Hc') as [L1 P1].
      assert (fs_len c' <= fs_len c) by (apply (chain_head_max _ _ c' HS); right; exact Hc').
      split; [lia|]. unfold fl'. rewrite lastn_lastn by assumption. exact P1.
  - exact HS.
Qed.

Lemma build_unwind_BI depth inputs dsl heapl s : BI s -> BI (build_unwind depth inputs dsl heapl s).
Proof.
  intros HB. rewrite build_unwind_eq. cbv zeta.
  set (s1 := leave_contexts _ depth _).
  assert (B1 : BI s1).
  { apply leave_contexts_BI. eapply BI_core; [|exact HB]. reflexivity. }
  assert (B5 : BI (unwind_cut dsl heapl s1)).
  { eapply BI_core; [|exact (BI_unwind_core s1 B1)]. reflexivity. }
  destruct (nested (unwind_cut dsl heapl s1)) as [|prev rest] eqn:E; [exact B5|].
  destruct (depth <? length (prev :: rest))%nat; [|exact B5].
  apply BI_pop_ctx; assumption.
Qed.

Lemma good_bind_corep {A B} (m : M A) (f : A -> M B) s :
  corep m -> BI s -> (forall a s1, core s1 = core s -> BI s1 -> good (f a s1)) -> good (bind m f s).
Proof.
  intros Hm HB Hf. destruct (Hm s) as [N C]. apply good_bind.
  - apply (corep_bip m Hm). exact HB.
  - intros a s1 E B1. apply Hf; [|exact B1]. rewrite E in C. exact C.
Qed.

Lemma core_fields s s' : core s' = core s ->
  code s' = code s /\ dict s' = dict s /\ flows s' = flows s /\ cx s' = cx s /\ nested s' = nested s.
Proof. unfold core. intros E. injection E as E1 E2 E3 E4 E5 E6. repeat split; assumption. Qed.

Lemma bip_wl_np {A} (m : M A) : wl m -> np m -> bip m.
Proof. intros Hw Hn s HB. split; [apply Hn|apply wl_BI; assumption]. Qed.

Lemma bip_put s' : BI s' -> bip (put s').
Proof. intros H s _. apply good_ok. exact H. Qed.

Lemma facts_jump_notin f c d fl p :
  facts f c d fl -> In p (fpos f) -> ~ In p (flat_map fjumps fl).
Proof.
  intros (_ & _ & _ & FN) Hp C. apply (FN p Hp). apply in_flat_fpos. left. exact C.
Qed.

Lemma good_bpj org offs s : BI s -> jump_at (code s) org -> good (backpatch_jump org offs s).
Proof.
  intros HB J. destruct (backpatch_jump_good org offs s HB J) as (s1 & E & B & _).
  rewrite E. apply good_ok. exact B.
Qed.

Lemma good_bind_bpj {B} org offs (f : unit -> M B) s :
  BI s -> jump_at (code s) org -> (forall s1, BI s1 -> good (f tt s1)) ->
  good (bind (backpatch_jump org offs) f s).
Proof.
  intros HB J Hf. destruct (backpatch_jump_good org offs s HB J) as (s1 & E & B1 & _).
  unfold bind. rewrite E. apply Hf. exact B1.
Qed.

Ltac bip_prim :=
  lazymatch goal with
  | |- bip (ret _) => apply bip_ret
  | |- bip (fail _ _) => apply bip_fail
  | |- bip unsup => apply bip_unsup
  | |- bip (code_emit _) => apply bip_code_emit
  | |- bip pop_flow => apply bip_pop_flow
  | |- bip take_first_cond_flow => apply bip_take
  | |- bip (dict_insert _ _) => apply bip_dict_insert
  | |- bip (context_open _) => apply bip_context_open
  | |- bip (intern_source _) => apply corep_bip, corep_intern_source
  | |- bip (alloc_heap _) => apply corep_bip, corep_alloc_heap
  | |- bip (get_token _) => apply corep_bip, corep_get_token
  | |- bip (next_name _) => apply corep_bip, corep_next_name
  | |- bip pop_data => apply corep_bip, corep_pop_data
  | |- bip (vec_collect_till_ptr _) => apply corep_bip, corep_vec_collect
  | |- bip (join_str_vec _ _) => apply corep_bip, corep_join_str_vec
  | |- bip (run_m _ _) => apply bip_run_m
  | |- bip (push_return _) => apply bip_wl_np; [apply wl_push_return|apply np_push_return]
  | |- bip (set_ip _) => apply bip_wl_np; [apply wl_set_ip|apply np_set_ip]
  | |- bip (push_flow _) => apply bip_push_flow_plain; reflexivity
  end.

Create HintDb bipdb.

Ltac bip_step :=
  cbv beta zeta;
  first
    [ bip_prim
    | solve [ auto 2 with bipdb nocore ]
    | lazymatch goal with
      | |- bip (bind get _) => apply bip_get_bind; intros ? ?
      | |- bip (bind _ _) => apply bip_bind; [ | intro ]
      | |- bip (match ?x with _ => _ end) => destruct x eqn:?
      | |- bip (put _) => apply bip_put
      | |- bip ?m => let h := head_of m in unfold h
      end ].

Ltac bip_solve := repeat bip_step.

Lemma bip_i_if : bip i_if.
Proof.
  intros s HB. unfold i_if. bget. apply good_push_emit; [exact HB|reflexivity..].
Qed.

Lemma bip_i_of : bip i_of.
Proof.
  intros s HB. unfold i_of. bget. apply good_push_emit; [exact HB|reflexivity..].
Qed.

Lemma bip_i_while : bip i_while.
Proof.
  intros s HB. unfold i_while. bget. apply good_emit_push; [exact HB|reflexivity..].
Qed.

Lemma bip_i_do : bip i_do.
Proof.
  intros s HB. unfold i_do. bget.
  apply good_emit_push; [exact HB|reflexivity|reflexivity|intros C; exfalso; apply C; reflexivity].
Qed.

Lemma bip_i_break : bip i_break.
Proof.
  intros s HB. unfold i_break. bget.
  destruct (negb _); [apply good_err; exact HB|]. apply good_emit_push; [exact HB|reflexivity..].
Qed.

Lemma bip_i_else : bip i_else.
Proof.
  intros s HB. unfold i_else.
  destruct (take_spec s HB) as [E|(f & fl & E & B & (FJ & FO & FD & FN))]; brun E;
    [apply good_err; exact HB|].
  destruct f; try (apply good_err; exact B).
  set (s1 := set_flows s fl) in *.
  bget. brun push_flow_eq. unfold code_origin.
  destruct (push_emit_run s1 (FElse (length (code s1))) (OJump 0) B) as (s2 & E2 & B2 & C2);
    [reflexivity..|].
  brun E2. bget.
  assert (J : jump_at (code s2) o) by (rewrite C2; apply jump_at_app; apply FJ; left; reflexivity).
  apply good_bpj; assumption.
Qed.

Lemma bip_i_then : bip i_then.
Proof.
  intros s HB. unfold i_then.
  destruct (take_spec s HB) as [E|(f & fl & E & B & (FJ & FO & FD & FN))]; brun E;
    [apply good_err; exact HB|].
  destruct f; try (apply good_err; exact B); bget;
    (apply good_bpj; [exact B|apply FJ; left; reflexivity]).
Qed.

Lemma bip_endcase_loop : forall fuel org, bip (endcase_loop fuel org).
Proof.
  induction fuel as [|f IH]; intros org s HB; cbn [endcase_loop]; [apply good_unsup|].
  destruct (take_spec s HB) as [E|(g & fl & E & B & (FJ & FO & FD & FN))]; brun E;
    [apply good_err; exact HB|].
  destruct g; try (apply good_err; exact B).
  - apply good_ok. exact B.
  - apply good_bind_bpj; [exact B|apply FJ; left; reflexivity|].
    intros s3 B3. apply IH. exact B3.
Qed.

Lemma bip_i_endcase : bip i_endcase.
Proof. unfold i_endcase. apply bip_get_bind. intros s0 _. apply bip_endcase_loop. Qed.

Lemma bip_i_endof : bip i_endof.
Proof.
  intros s HB. unfold i_endof.
  destruct (take_spec s HB) as [E|(f & fl & E & B & (FJ & FO & FD & FN))]; brun E;
    [apply good_err; exact HB|].
  destruct f; try (apply good_err; exact B).
  set (s1 := set_flows s fl) in *. bget. cbv zeta. unfold code_origin.
  destruct (emit_run_BI (OJump 0) s1 B) as (s2 & E2 & B2 & C2 & D2 & F2 & X2 & N2).
  brun E2. bget.
  assert (J : jump_at (code s2) o) by (rewrite C2; apply jump_at_app; apply FJ; left; reflexivity).
  destruct (backpatch_jump_good o (jump_offset o (length (code s2))) s2 B2 J)
    as (s3 & E3 & B3 & F3 & _ & _ & _ & _ & JP). brun E3.
  rewrite push_flow_eq. apply good_ok.
  apply BI_push; [exact B3|apply single_nodup| | |intros p []|intros i []].
  - intros p [<-|[]] C. rewrite F3, F2 in C. pose proof (BI_pos_lt s1 _ B C). lia.
  - intros p [<-|[]]. apply JP. rewrite C2. apply jump_at_last. reflexivity.
Qed.

Lemma bip_repeat_loop : forall fuel, bip (repeat_loop fuel).
Proof.
  induction fuel as [|f IH]; intros s HB; cbn [repeat_loop]; [apply good_unsup|].
  destruct (pop_flow_spec s HB) as [E|(g & fl & Efl & E & B & (FJ & FO & FD & FN))]; brun E;
    [apply good_err; exact HB|].
  set (s1 := set_flows s fl) in *.
  destruct g; try (apply good_err; exact B).
  - (* FBegin *) bget. apply bip_code_emit. exact B.
  - (* FWhile *)
    destruct (pop_flow_spec s1 B) as [E2|(g2 & fl2 & Efl2 & E2 & B2 & _)]; brun E2;
      [apply good_err; exact B|].
    destruct g2; try (apply good_err; exact B2).
    bget.
    apply good_bind_bpj; [exact B2|apply FJ; left; reflexivity|].
    exact (bip_code_emit _).
  - (* FBreak *)
    bget.
    apply good_bind_bpj; [exact B|apply FJ; left; reflexivity|].
    intros s3 B3. apply IH. exact B3.
Qed.

Lemma bip_i_repeat : bip i_repeat.
Proof. unfold i_repeat. apply bip_get_bind. intros s0 _. apply bip_repeat_loop. Qed.

Lemma bip_i_open f w : fpos f = [] -> fdict f = [] -> bip (i_open f w).
Proof.
  intros E1 E2. unfold i_open, emit_native.
  apply bip_bind; [apply bip_push_flow_plain; assumption|intros _; apply bip_code_emit].
Qed.

Lemma bip_i_def_begin_named name : bip (i_def_begin_named name).
Proof.
  intros s HB. unfold i_def_begin_named. bget. cbv zeta. unfold code_origin.
  destruct (emit_run_BI (OJump 0) s HB) as (s1 & E1 & B1 & C1 & D1 & F1 & X1 & N1).
  brun E1. bget. brun dict_insert_eq. rewrite push_flow_eq. apply good_ok.
  set (e := mkdent name (DFun false (FInterp (length (code s1))) None)).
  assert (B2 : BI (set_dict s1 (dict s1 ++ [e]))).
  { apply BI_set_dict; [exact B1|]. intros i. apply dfun_at_app. }
  apply (BI_push (set_dict s1 (dict s1 ++ [e]))); [exact B2|apply single_nodup| | |intros p []|].
  - intros p [<-|[]] C. cbn [set_dict flows] in C. rewrite F1 in C.
    pose proof (BI_pos_lt s _ HB C). lia.
  - intros p [<-|[]]. cbn [set_dict code]. rewrite C1. apply jump_at_last. reflexivity.
  - intros i [<-|[]]. cbn [set_dict dict]. exists e. split; [|reflexivity].
    rewrite nth_error_app2 by lia. rewrite Nat.sub_diag. reflexivity.
Qed.

Lemma bip_i_def_end : bip i_def_end.
Proof.
  intros s HB. unfold i_def_end.
  destruct (pop_flow_spec s HB) as [E|(g & fl & Efl & E & B & (FJ & FO & FD & FN))]; brun E;
    [apply good_err; exact HB|].
  set (s1 := set_flows s fl) in *.
  destruct g; try (apply good_err; exact B).
  destruct (emit_run_BI ORet s1 B) as (s2 & E2 & B2 & C2 & D2 & F2 & X2 & N2).
  brun E2. bget. cbv zeta.
  destruct (FD dict_idx (or_introl eq_refl)) as (e & Ee & Je).
  assert (Ee2 : nth_error (dict s2) dict_idx = Some e) by (rewrite D2; exact Ee).
  rewrite Ee2. unfold set_dict_len. rewrite Ee2.
  unfold is_dfun in Je. destruct (dent e) eqn:Ed; try discriminate Je.
  unfold put at 1. unfold bind at 1. cbv beta iota.
  set (d' := list_set (dict s2) dict_idx _).
  assert (B3 : BI (set_dict s2 d')).
  { apply BI_set_dict; [exact B2|]. intros i Hi. apply dfun_at_set; [exact Hi|].
    intros e0 _ _. reflexivity. }
  assert (J : jump_at (code (set_dict s2 d')) start).
  { cbn [set_dict code]. rewrite C2. apply jump_at_app. apply FJ. left. reflexivity. }
  apply good_bpj; assumption.
Qed.

Lemma loop_loop_good loop_org stop_org : forall fuel s,
  BI s -> loop_org < length (code s) -> ~ In loop_org (flat_map fjumps (flows s)) ->
  good (loop_loop fuel loop_org stop_org s).
Proof.
  induction fuel as [|f IH]; intros s HB Hl Hn; cbn [loop_loop]; [apply good_unsup|].
  destruct (pop_flow_spec s HB) as [E|(g & fl & Efl & E & B & Fc)]; brun E;
    [apply good_err; exact HB|].
  pose proof Fc as (FJ & FO & FD & FN).
  set (s1 := set_flows s fl) in *.
  assert (Hn1 : ~ In loop_org (flat_map fjumps fl)).
  { intros C. apply Hn. rewrite Efl. cbn [flat_map]. apply in_or_app. right. exact C. }
  destruct g; try (apply good_err; exact B).
  - (* FBreak *)
    assert (Ho : o < length (code s1)) by (apply jump_at_lt, FJ; left; reflexivity).
    brun (backpatch_run o (OBreak (jump_offset o stop_org)) s1 Ho).
    apply IH.
    + apply BI_patch_free; [exact B|]. apply (facts_jump_notin _ _ _ _ _ Fc). left. reflexivity.
    + cbn [set_code code]. rewrite list_set_length. exact Hl.
    + exact Hn1.
  - (* FDo *)
    assert (Ho : for_org < length (code s1)) by (apply FO; left; reflexivity).
    brun (backpatch_run for_org (ODo (jump_offset for_org stop_org)) s1 Ho).
    set (s2 := set_code s1 _).
    assert (B2 : BI s2).
    { apply BI_patch_free; [exact B|]. apply (facts_jump_notin _ _ _ _ _ Fc). left. reflexivity. }
    assert (Hl2 : loop_org < length (code s2)) by (unfold s2; cbn [set_code code]; rewrite list_set_length; exact Hl).
    rewrite (backpatch_run loop_org _ s2 Hl2). apply good_ok.
    apply BI_patch_free; [exact B2|exact Hn1].
Qed.

Lemma bip_i_loop : bip i_loop.
Proof.
  intros s HB. unfold i_loop. bget. cbv zeta. unfold code_origin.
  destruct (emit_run_BI (OLoop 0) s HB) as (s1 & E1 & B1 & C1 & D1 & F1 & X1 & N1).
  brun E1. apply loop_loop_good; [exact B1| |].
  - rewrite C1, app_length. cbn [length]. lia.
  - rewrite F1. intros C. assert (In (length (code s)) (flat_map fpos (flows s))) by (apply in_flat_fpos; left; exact C).
    pose proof (BI_pos_lt s _ HB H). lia.
Qed.

Section Words.
  Variable fo : fops.
  Variable pr : string -> option Z.
  Variable rf : nat.

  Lemma bip_i_late : bip (i_late pr).
  Proof.
    intros s HB. unfold i_late. bget. cbv zeta. unfold code_origin.
    destruct (emit_run_BI (OJump 0) s HB) as (s1 & E1 & B1 & C1 & D1 & F1 & X1 & N1).
    brun E1. apply good_bind_corep; [apply corep_next_name|exact B1|].
    intros name s2 Cr B2. destruct (core_fields _ _ Cr) as (C2 & _).
    bget. destruct (emit_run_BI (OResolve name) s2 B2) as (s3 & E3 & B3 & C3 & _).
    brun E3. destruct (emit_run_BI ORet s3 B3) as (s4 & E4 & B4 & C4 & _).
    brun E4. bget.
    apply good_bind_bpj; [exact B4| |].
    - rewrite C4, C3, C2, C1. apply jump_at_app, jump_at_app, jump_at_last. reflexivity.
    - exact (bip_bind _ _ (bip_dict_insert _ _) (fun _ => bip_ret _ tt)).
  Qed.

  Lemma BI_set_dict_entry s i e' :
    BI s -> is_dfun e' = true \/ (forall e, nth_error (dict s) i = Some e -> is_dfun e = false) ->
    BI (set_dict s (list_set (dict s) i e')).
  Proof.
    intros HB H. apply BI_set_dict; [exact HB|]. intros j Hj. apply dfun_at_set; [exact Hj|].
    intros e Ee Je. destruct H as [H|H]; [exact H|]. rewrite (H e Ee) in Je. discriminate.
  Qed.

  Lemma bip_i_immediate : bip i_immediate.
  Proof.
    unfold i_immediate. bip_solve.
    apply BI_set_dict_entry; [assumption|]. left. reflexivity.
  Qed.

  Lemma bip_i_const : bip (i_const pr).
  Proof.
    unfold i_const. bip_solve.
    apply BI_set_dict_entry; [assumption|]. right.
    intros e0 E0. unfold is_dfun.
    match goal with
    | H1 : nth_error (dict ?s) ?p = Some ?e, H2 : dent ?e = DConst _ |- _ =>
      rewrite H1 in E0; injection E0 as <-; rewrite H2; reflexivity
    end.
  Qed.

  Lemma BI_set_locals s ls :
    BI s ->
    BI (set_flows s (set_fun_locals (pending s) ls ++ skipn (length (pending s)) (flows s))).
  Proof.
    intros HB. destruct (BI_split s HB) as [S1 Er]. rewrite Er.
    apply (BI_pending s _ (set_fun_locals (pending s) ls)); [exact HB|apply HB|reflexivity|reflexivity|reflexivity|].
    cbn [set_flows code dict flows]. apply FL_set_fun_locals. rewrite <- S1. apply HB.
  Qed.

  Lemma bip_build_local_variable name : bip (build_local_variable name).
  Proof.
    unfold build_local_variable. bip_solve. apply BI_set_locals. assumption.
  Qed.

  Lemma bip_build_global_variable name : bip (build_global_variable name).
  Proof. unfold build_global_variable. bip_solve. Qed.

  Lemma bip_i_nested_end : bip (i_nested_end fo rf).
  Proof.
    intros s HB. unfold i_nested_end. bget.
    destruct (negb _); [apply good_err; exact HB|].
    destruct (has_pending_flow s) eqn:Ep; [apply good_err; exact HB|].
    apply context_close_good; [exact HB|intros _; exact Ep].
  Qed.

  Lemma bip_i_nested_inject : bip (i_nested_inject fo rf).
  Proof.
    intros s HB. unfold i_nested_inject. bget.
    destruct (negb _); [apply good_err; exact HB|].
    destruct (has_pending_flow s) eqn:Ep; [apply good_err; exact HB|].
    apply good_bind_corep; [apply corep_vec_collect|exact HB|]. intros v s1 C1 B1.
    apply good_bind_corep; [apply corep_join_str_vec|exact B1|]. intros t s2 C2 B2.
    apply good_bind.
    - apply context_close_good; [exact B2|]. intros _.
      destruct (core_fields _ _ C2) as (_ & _ & F2 & X2 & _).
      destruct (core_fields _ _ C1) as (_ & _ & F1 & X1 & _).
      unfold has_pending_flow in *. rewrite F2, X2, F1, X1. exact Ep.
    - intros _ s3 _ B3. apply (corep_bip _ (corep_intern_source t)). exact B3.
  Qed.
End Words.

Section Let2.
  Variable pr : string -> option Z.

  Lemma bip_emit_native w : bip (emit_native w).
  Proof. unfold emit_native. apply bip_code_emit. Qed.
  Lemma bip_code_emit_value v : bip (code_emit_value v).
  Proof. unfold code_emit_value. apply bip_code_emit. Qed.
  Lemma bip_build_let_named w : bip (build_let_named w).
  Proof.
    unfold build_let_named. pose proof bip_build_local_variable. pose proof bip_build_global_variable.
    bip_solve.
  Qed.
  Lemma bip_build_let_in f : bip (build_let_in pr f).
  Proof.
    exact (build_let_in_closed pr (fun A => @bip A) bip_ret bip_fail bip_unsup (fun A B => @bip_bind A B)
             (corep_bip _ (corep_get_token pr)) bip_code_emit bip_build_let_named f).
  Qed.
End Let2.

Lemma lastn_cons_cases {A} (k : nat) (x : A) (r : list A) :
  lastn k (x :: r) = if (k <=? length r)%nat then lastn k r else x :: r.
Proof.
  unfold lastn. cbn [length]. destruct (k <=? length r)%nat eqn:E.
  - apply Nat.leb_le in E. replace (S (length r) - k) with (S (length r - k)) by lia. reflexivity.
  - apply Nat.leb_gt in E. replace (S (length r) - k) with 0 by lia. reflexivity.
Qed.

(* the fields of the enum entry on top of the flow stack change: it points at nothing *)
Lemma BI_enum_top s n f f' r :
  BI s -> flows s = FEnum n f :: r -> BI (set_flows s (FEnum n f' :: r)).
Proof.
  intros (Hcd & HF & HC & HS) E. split; [exact Hcd|].
  cbn [set_flows code dict flows cx nested]. rewrite E in HF, HC. split; [exact HF|]. split; [|exact HS].
  eapply Forall_impl; [|exact HC]. intros c [H1 H2]. split; [exact H1|].
  intros g Hg. rewrite lastn_cons_cases in Hg. specialize (H2 g). rewrite lastn_cons_cases in H2.
  destruct (fs_len c <=? length r)%nat; [exact (H2 Hg)|].
  destruct Hg as [<-|Hg]; [split; intros ? []|apply H2; right; exact Hg].
Qed.

Section Enum2.
  Variable fo : fops.
  Variable pr : string -> option Z.
  Variable rf : nat.

  Lemma bip_m_xint c : bip (m_xint c).
  Proof. unfold m_xint. destruct (value c); first [apply bip_ret|apply bip_fail]. Qed.

  Lemma bip_i_nested_begin : bip i_nested_begin.
  Proof. unfold i_nested_begin. apply bip_context_open. Qed.

  Lemma bip_def_immediate name nat : bip (def_immediate name nat).
  Proof. unfold def_immediate. bip_solve. Qed.

  Lemma bip_i_enum : bip (i_enum pr).
  Proof. pose proof bip_i_nested_begin. pose proof bip_def_immediate. unfold i_enum. bip_solve. Qed.

  Lemma bip_enum_add_field nm val : bip (enum_add_field nm val).
  Proof.
    unfold enum_add_field. apply bip_get_bind. intros s0 B0.
    destruct (flows s0) as [|f r] eqn:E; [apply bip_fail|].
    destruct f; try apply bip_fail.
    destruct (val fields) as [v|]; [|apply bip_fail].
    apply bip_bind; [apply bip_put; eapply BI_enum_top; eassumption|intros _].
    apply bip_bind; [apply bip_dict_insert|intros _]. apply bip_i_nested_begin.
  Qed.

  Lemma bip_i_enum_field : bip (i_enum_field fo pr rf).
  Proof.
    pose proof (bip_i_nested_end fo rf). pose proof bip_enum_add_field.
    unfold i_enum_field. bip_solve.
  Qed.

  Lemma bip_i_enum_field_set : bip (i_enum_field_set fo pr rf).
  Proof.
    pose proof (bip_i_nested_end fo rf). pose proof bip_enum_add_field. pose proof bip_m_xint.
    unfold i_enum_field_set. bip_solve.
  Qed.

  Lemma bip_i_endenum : bip (i_endenum fo rf).
  Proof. pose proof (bip_i_nested_end fo rf). unfold i_endenum. bip_solve. Qed.
End Enum2.

Section Top2.
  Variable fo : fops.
  Variable pr : string -> option Z.
  Variable rf : nat.

  Lemma bip_immediate_fn : forall fuel name w, immediate_fn fo pr rf fuel name = Some w -> bip w.
  Proof.
    intros fuel name w H. unfold immediate_fn in H. cbv zeta in H.
    eapply table_find_Forall with (P := fun m => bip m); [|exact H].
    pose proof (bip_build_let_in pr fuel) as HL.
    pose proof bip_emit_native as HE. pose proof bip_code_emit_value as HV.
    pose proof bip_i_if. pose proof bip_i_else. pose proof bip_i_then. pose proof bip_i_of.
    pose proof bip_i_endof. pose proof bip_i_endcase. pose proof bip_i_while. pose proof bip_i_break.
    pose proof bip_i_repeat. pose proof bip_i_def_end. pose proof (bip_i_late pr).
    pose proof bip_i_immediate. pose proof (bip_i_const pr). pose proof bip_i_do. pose proof bip_i_loop.
    pose proof (bip_i_nested_end fo rf). pose proof (bip_i_nested_inject fo rf).
    pose proof bip_i_def_begin_named. pose proof bip_build_local_variable.
    pose proof bip_build_global_variable.
    pose proof (bip_i_enum pr). pose proof (bip_i_enum_field fo pr rf).
    pose proof (bip_i_enum_field_set fo pr rf). pose proof (bip_i_endenum fo rf).
    repeat (apply Forall_cons;
            [ cbn [snd]; first [ apply bip_i_open; reflexivity | bip_solve ] | ]).
    apply Forall_nil.
  Qed.

  Lemma bip_run_immediate fuel f : bip (run_immediate fo pr rf fuel f).
  Proof.
    unfold run_immediate. destruct f as [x|name].
    - bip_solve.
    - destruct (immediate_fn fo pr rf fuel name) as [w|] eqn:E; [|apply bip_unsup].
      eapply bip_immediate_fn. exact E.
  Qed.

  Lemma bip_build_word fuel name : bip (build_word fo pr rf fuel name).
  Proof. pose proof (bip_run_immediate fuel). unfold build_word. bip_solve. Qed.

  Lemma bip_build1 : forall fuel depth, bip (build1 fo pr rf fuel depth).
  Proof.
    induction fuel as [|f IH]; intros depth; cbn [build1]; [apply bip_unsup|].
    pose proof (bip_build_word f). pose proof bip_code_emit_value. bip_solve.
  Qed.

  Theorem build_from_source_good : forall fuel src m s,
    BI s -> good (build_from_source fo pr rf fuel src m s).
  Proof.
    intros fuel src m s HB. unfold build_from_source. cbv zeta.
    assert (H1 : bip (context_open m ;; intern_source src)).
    { apply bip_bind; [apply bip_context_open|intros _; apply corep_bip, corep_intern_source]. }
    destruct (H1 s HB) as [N1 R1].
    destruct ((context_open m ;; intern_source src) s) as [u s1|k p s1| |]; cbn [res_all] in R1;
      [|apply good_err; exact R1|contradiction|apply good_unsup].
    destruct (bip_build1 fuel (length (nested s1)) s1 R1) as [N2 R2].
    destruct (build1 fo pr rf fuel (length (nested s1)) s1) as [u2 s2|k p s2| |] eqn:Eb; cbn [res_all] in R2.
    - (* build1 returns normally only with no control structure pending *)
      apply context_close_good; [exact R2|]. intros _. exact (proj2 (proj2 (build1_ok_end _ _ _ _ _ _ _ _ Eb))).
    - apply good_err. apply build_unwind_BI. exact R2.
    - contradiction.
    - apply good_unsup.
  Qed.

  Theorem eval_good : forall fuel src s, BI s -> good (eval fo pr rf fuel src s).
  Proof. intros. apply build_from_source_good. assumption. Qed.

  Theorem compile_good : forall fuel src s, BI s -> good (compile fo pr rf fuel src s).
  Proof. intros. apply build_from_source_good. assumption. Qed.
End Top2.

Theorem rnext_BI : forall s, BI s -> res_all BI (rnext s).
Proof.
  intros s HB. eapply res_all_impl; [|apply rnext_mframe]. intros s' F. exact (BI_mframe _ _ F HB).
Qed.

Lemma BI_boot : BI boot.
Proof.
  split; [unfold cd_inv; cbn; lia|]. cbn [boot code dict flows cx nested].
  split; [apply FL_nil|]. split.
  - constructor; [|constructor]. split; [cbn; lia|]. intros f Hf. cbn in Hf. contradiction.
  - constructor; [constructor|constructor].
Qed.

Section Api2.
  Variable fo : fops.
  Variable pr : string -> option Z.

  Theorem api_BI : forall s, api_reach fo pr s -> BI s.
  Proof.
    apply api_reach_closed.
    - exact BI_boot.
    - intros rf bf src s HB. exact (proj2 (eval_good fo pr rf bf src s HB)).
    - intros rf bf src s HB. exact (proj2 (compile_good fo pr rf bf src s HB)).
    - intros s HB. unfold next. destruct (is_running s); [apply far_BI; exact HB|exact HB].
    - intros fuel s HB. apply run_BI. exact HB.
    - exact rnext_BI.
    - intros s i h k HB. eapply BI_core; [|exact HB]. reflexivity.
    - intros s l HB. eapply BI_core; [|exact HB]. reflexivity.
  Qed.

End Api2.

(* the invariant is an inductive invariant of the API (stated without naming it) *)
Theorem builder_invariant_exists : forall fo pr, exists Inv : state -> Prop,
  Inv boot /\
  (forall s rf bf src, Inv s ->
     eval fo pr rf bf src s <> RPanic /\ res_all Inv (eval fo pr rf bf src s) /\
     compile fo pr rf bf src s <> RPanic /\ res_all Inv (compile fo pr rf bf src s)) /\
  (forall s, Inv s -> res_all Inv (next (native_fn fo) s)) /\
  (forall s fuel, Inv s -> match run (native_fn fo) fuel s with Some r => res_all Inv r | None => True end) /\
  (forall s, Inv s -> res_all Inv (rnext s)).
Proof.
  intros fo pr. exists BI. split; [exact BI_boot|]. split; [|split; [|split]].
  - intros s rf bf src HB.
    destruct (eval_good fo pr rf bf src s HB) as [A B].
    destruct (compile_good fo pr rf bf src s HB) as [C D]. repeat split; assumption.
  - intros s HB. unfold next. destruct (is_running s); [apply far_BI; exact HB|exact HB].
  - intros s fuel HB. apply run_BI. exact HB.
  - intros s HB. apply rnext_BI. exact HB.
Qed.
