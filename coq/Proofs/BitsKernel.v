(* Byte-level kernels of the bit-string mirror, characterised through N.testbit
   by finite sweeps over bytes, plus arithmetic facts about [bits_to_N]. *)
From Xeh Require Import Model.Prelude Model.Bits.
From Coq Require Import ZifyBool ZifyNat ZifyN.
Local Ltac Zify.zify_post_hook ::= Z.div_mod_to_equations.

Definition bytes : list N := map N.of_nat (seq 0 256).

Lemma in_bytes x : (x < 256)%N -> In x bytes.
Proof.
  intros H. unfold bytes. apply in_map_iff. exists (N.to_nat x). split; [lia|].
  apply in_seq. lia.
Qed.

Lemma sweep_byte (P : N -> bool) :
  forallb P bytes = true -> forall x, (x < 256)%N -> P x = true.
Proof. intros H x Hx. rewrite forallb_forall in H. apply H, in_bytes, Hx. Qed.

Lemma sweep_nat n (P : nat -> bool) :
  forallb P (seq 0 n) = true -> forall k, k < n -> P k = true.
Proof. intros H k Hk. rewrite forallb_forall in H. apply H, in_seq. lia. Qed.

Lemma sweep_bool (P : bool -> bool) :
  forallb P [true; false] = true -> forall b, P b = true.
Proof.
  intros H b. cbn [forallb] in H. apply andb_prop in H. destruct H as [H1 H2].
  apply andb_prop in H2. destruct H2 as [H2 _]. destruct b; assumption.
Qed.

(* bit [k] of a byte, counted from the most significant bit *)
Definition tb (x : N) (k : nat) : bool := N.testbit x (N.of_nat (7 - k)).

Definition bstep (acc : N) (b : bool) : N := (2 * acc + (if b then 1 else 0))%N.

Lemma bits_to_N_fold l : bits_to_N l = fold_left bstep l 0%N.
Proof. reflexivity. Qed.

Lemma pow2_S n : (2 ^ N.of_nat (S n) = 2 * 2 ^ N.of_nat n)%N.
Proof. rewrite Nat2N.inj_succ, N.pow_succ_r'. reflexivity. Qed.

Lemma pow2_pos n : (0 < 2 ^ n)%N.
Proof. apply N.neq_0_lt_0, N.pow_nonzero. discriminate. Qed.

Lemma fold_bstep_acc l : forall acc,
  fold_left bstep l acc = (acc * 2 ^ N.of_nat (length l) + fold_left bstep l 0)%N.
Proof.
  induction l as [|b l IH]; intros acc; cbn [fold_left length].
  - change (N.of_nat 0) with 0%N. rewrite N.pow_0_r. lia.
  - rewrite IH. rewrite (IH (bstep 0 b)). rewrite pow2_S.
    unfold bstep. destruct b; lia.
Qed.

Lemma bits_to_N_nil : bits_to_N [] = 0%N.
Proof. reflexivity. Qed.

Lemma bits_to_N_cons b l :
  bits_to_N (b :: l) = (b2n b * 2 ^ N.of_nat (length l) + bits_to_N l)%N.
Proof.
  rewrite !bits_to_N_fold. cbn [fold_left]. rewrite fold_bstep_acc.
  unfold bstep, b2n. destruct b; lia.
Qed.

Lemma bits_to_N_app a b :
  bits_to_N (a ++ b) = (bits_to_N a * 2 ^ N.of_nat (length b) + bits_to_N b)%N.
Proof.
  rewrite !bits_to_N_fold. rewrite fold_left_app. apply fold_bstep_acc.
Qed.

Lemma bits_to_N_lt l : (bits_to_N l < 2 ^ N.of_nat (length l))%N.
Proof.
  induction l as [|b l IH].
  - rewrite bits_to_N_nil. cbn [length]. change (N.of_nat 0) with 0%N.
    rewrite N.pow_0_r. lia.
  - rewrite bits_to_N_cons. cbn [length]. rewrite pow2_S.
    pose proof (pow2_pos (N.of_nat (length l))) as HP.
    unfold b2n. destruct b; lia.
Qed.

Lemma bits_to_N_inj : forall a b,
  length a = length b -> bits_to_N a = bits_to_N b -> a = b.
Proof.
  induction a as [|x a IH]; intros [|y b] Hl He; cbn [length] in Hl; try discriminate.
  - reflexivity.
  - injection Hl as Hl. rewrite !bits_to_N_cons in He. rewrite <- Hl in He.
    pose proof (bits_to_N_lt a) as Ha. pose proof (bits_to_N_lt b) as Hb.
    rewrite <- Hl in Hb.
    pose proof (pow2_pos (N.of_nat (length a))) as HP.
    set (P := (2 ^ N.of_nat (length a))%N) in *.
    assert (x = y /\ bits_to_N a = bits_to_N b) as [-> E].
    { unfold b2n in He. destruct x, y; split; try reflexivity; lia. }
    f_equal. apply IH; assumption.
Qed.

Lemma lor_shiftl_add v w n :
  (w < 2 ^ n)%N -> N.lor (N.shiftl v n) w = (v * 2 ^ n + w)%N.
Proof.
  intros Hw.
  assert (Hland : N.land (N.shiftl v n) w = 0%N).
  { apply N.bits_inj. intros k. rewrite N.land_spec, N.bits_0.
    destruct (N.lt_ge_cases k n) as [Hk|Hk].
    - rewrite N.shiftl_spec_low by assumption. reflexivity.
    - destruct (N.eq_dec w 0) as [->|Hnz].
      + rewrite N.bits_0. apply andb_false_r.
      + rewrite (N.bits_above_log2 w k).
        * apply andb_false_r.
        * apply N.lt_le_trans with n; [|assumption].
          apply N.log2_lt_pow2; [lia|assumption]. }
  rewrite <- N.lxor_lor by assumption.
  rewrite <- N.add_nocarry_lxor by assumption.
  rewrite N.shiftl_mul_pow2. reflexivity.
Qed.

Lemma land_255_lt a : (N.land a 255 < 256)%N.
Proof.
  change 255%N with (N.ones 8). rewrite N.land_ones.
  apply N.mod_lt. discriminate.
Qed.

Definition k_cut (x : N) (sb len : nat) : bool :=
  if len <=? 8 - sb
  then N.eqb (N.land (N.shiftr x (N.of_nat (8 - (sb + len)))) (bit_mask len))
             (bits_to_N (map (tb x) (seq sb len)))
  else true.

Lemma k_cut_all :
  forallb (fun x => forallb (fun sb => forallb (fun len => k_cut x sb len) (seq 0 9)) (seq 0 8)) bytes = true.
Proof. vm_compute. reflexivity. Qed.

Lemma cut_kernel x sb len : (x < 256)%N -> sb < 8 -> len <= 8 - sb ->
  N.land (N.shiftr x (N.of_nat (8 - (sb + len)))) (bit_mask len)
  = bits_to_N (map (tb x) (seq sb len)).
Proof.
  intros Hx Hs Hl.
  pose proof (sweep_nat _ _ (sweep_nat _ _ (sweep_byte _ k_cut_all x Hx) sb Hs) len ltac:(lia)) as H.
  unfold k_cut in H. replace (len <=? 8 - sb) with true in H by lia.
  apply N.eqb_eq. exact H.
Qed.

Lemma cut_bits_spec x s e : (x < 256)%N ->
  cut_bits x s e =
  (bits_to_N (map (tb x) (seq (s mod 8) (Nat.min (e - s) (8 - s mod 8)))),
   Nat.min (e - s) (8 - s mod 8)).
Proof.
  intros Hx. unfold cut_bits. cbv zeta. f_equal.
  apply cut_kernel; [assumption|lia|lia].
Qed.

(* a byte is the value of its eight bits *)
Lemma k_byte_all :
  forallb (fun x => N.eqb (bits_to_N (map (tb x) (seq 0 8))) x) bytes = true.
Proof. vm_compute. reflexivity. Qed.

Lemma bits_to_N_tb x : (x < 256)%N -> bits_to_N (map (tb x) (seq 0 8)) = x.
Proof. intros Hx. apply N.eqb_eq. exact (sweep_byte _ k_byte_all x Hx). Qed.

Lemma k_bitat_all :
  forallb (fun x => forallb (fun k =>
     N.eqb (N.land (N.shiftr x (N.of_nat (7 - k))) 1) (b2n (tb x k))) (seq 0 8)) bytes = true.
Proof. vm_compute. reflexivity. Qed.

Lemma bitat_kernel x k : (x < 256)%N -> k < 8 ->
  N.land (N.shiftr x (N.of_nat (7 - k))) 1 = b2n (tb x k).
Proof.
  intros Hx Hk. apply N.eqb_eq. exact (sweep_nat _ _ (sweep_byte _ k_bitat_all x Hx) k Hk).
Qed.

(* the shape in which the sweeps below state that [x] is a byte whose bit [j] is [g j] *)
Lemma byte_with_bits (x : N) (g : nat -> bool) :
  N.ltb x 256 && forallb (fun j => Bool.eqb (tb x j) (g j)) (seq 0 8) = true ->
  (x < 256)%N /\ forall j, j < 8 -> tb x j = g j.
Proof.
  intros H. apply andb_prop in H. destruct H as [H1 H2]. split; [apply N.ltb_lt, H1|].
  intros j Hj. apply eqb_prop. exact (sweep_nat _ _ H2 j Hj).
Qed.

(* or one bit into a byte *)
Lemma k_or_all :
  forallb (fun y => forallb (fun b => forallb (fun s =>
     N.ltb (N.lor y (N.shiftl (b2n b) (N.of_nat (7 - s)))) 256 &&
     forallb (fun j =>
       Bool.eqb (tb (N.lor y (N.shiftl (b2n b) (N.of_nat (7 - s)))) j)
                (tb y j || (b && (j =? s)))) (seq 0 8)) (seq 0 8)) [true; false]) bytes = true.
Proof. vm_compute. reflexivity. Qed.

Lemma or_kernel y b s : (y < 256)%N -> s < 8 ->
  (N.lor y (N.shiftl (b2n b) (N.of_nat (7 - s))) < 256)%N /\
  forall j, j < 8 ->
    tb (N.lor y (N.shiftl (b2n b) (N.of_nat (7 - s)))) j = (tb y j || (b && (j =? s))).
Proof.
  intros Hy Hs. apply byte_with_bits.
  exact (sweep_nat _ _ (sweep_bool _ (sweep_byte _ k_or_all y Hy) b) s Hs).
Qed.

(* xor one bit of a byte *)
Lemma k_xor_all :
  forallb (fun y => forallb (fun s =>
     N.ltb (N.lxor y (N.shiftl 1 (N.of_nat (7 - s)))) 256 &&
     forallb (fun j =>
       Bool.eqb (tb (N.lxor y (N.shiftl 1 (N.of_nat (7 - s)))) j)
                (xorb (tb y j) (j =? s))) (seq 0 8)) (seq 0 8)) bytes = true.
Proof. vm_compute. reflexivity. Qed.

Lemma xor_kernel y s : (y < 256)%N -> s < 8 ->
  (N.lxor y (N.shiftl 1 (N.of_nat (7 - s))) < 256)%N /\
  forall j, j < 8 ->
    tb (N.lxor y (N.shiftl 1 (N.of_nat (7 - s)))) j = xorb (tb y j) (j =? s).
Proof.
  intros Hy Hs. apply byte_with_bits. exact (sweep_nat _ _ (sweep_byte _ k_xor_all y Hy) s Hs).
Qed.

(* clear the bits after position r of a byte *)
Lemma k_trim_all :
  forallb (fun y => forallb (fun r =>
     N.ltb (N.land y (N.land (N.shiftl 255 (N.of_nat (8 - r))) 255)) 256 &&
     forallb (fun j =>
       Bool.eqb (tb (N.land y (N.land (N.shiftl 255 (N.of_nat (8 - r))) 255)) j)
                (tb y j && (j <? r))) (seq 0 8)) (seq 0 8)) bytes = true.
Proof. vm_compute. reflexivity. Qed.

Lemma trim_kernel y r : (y < 256)%N -> r < 8 ->
  (N.land y (N.land (N.shiftl 255 (N.of_nat (8 - r))) 255) < 256)%N /\
  forall j, j < 8 ->
    tb (N.land y (N.land (N.shiftl 255 (N.of_nat (8 - r))) 255)) j = (tb y j && (j <? r)).
Proof.
  intros Hy Hr. apply byte_with_bits. exact (sweep_nat _ _ (sweep_byte _ k_trim_all y Hy) r Hr).
Qed.

(* BitvecBuilder: first bit of a fresh byte *)
Lemma k_push_all :
  forallb (fun b => forallb (fun j =>
     Bool.eqb (tb (N.land (N.shiftl (b2n b) 7) 255) j) (b && (j =? 0))) (seq 0 8)) [true; false] = true.
Proof. vm_compute. reflexivity. Qed.

Lemma push_kernel b j : j < 8 ->
  tb (N.land (N.shiftl (b2n b) 7) 255) j = (b && (j =? 0)).
Proof. intros Hj. apply eqb_prop. exact (sweep_nat _ _ (sweep_bool _ k_push_all b) j Hj). Qed.

(* from_hex: high and low nibble *)
Definition nibbles : list N := map N.of_nat (seq 0 16).

Lemma sweep_nibble (P : N -> bool) :
  forallb P nibbles = true -> forall x, (x < 16)%N -> P x = true.
Proof.
  intros H x Hx. rewrite forallb_forall in H. apply H.
  unfold nibbles. apply in_map_iff. exists (N.to_nat x). split; [lia|].
  apply in_seq. lia.
Qed.

Lemma k_hexhi_all :
  forallb (fun v => forallb (fun j =>
     Bool.eqb (tb (N.land (N.shiftl v 4) 255) j)
              ((j <? 4) && nth j (nibble_bits v) false)) (seq 0 8)) nibbles = true.
Proof. vm_compute. reflexivity. Qed.

Lemma hexhi_kernel v j : (v < 16)%N -> j < 8 ->
  tb (N.land (N.shiftl v 4) 255) j = ((j <? 4) && nth j (nibble_bits v) false).
Proof.
  intros Hv Hj. apply eqb_prop. exact (sweep_nat _ _ (sweep_nibble _ k_hexhi_all v Hv) j Hj).
Qed.

Lemma k_hexlo_all :
  forallb (fun y => forallb (fun v =>
     N.ltb (N.lor y v) 256 &&
     forallb (fun j =>
       Bool.eqb (tb (N.lor y v) j)
                (tb y j || ((4 <=? j) && nth (j - 4) (nibble_bits v) false))) (seq 0 8)) nibbles) bytes = true.
Proof. vm_compute. reflexivity. Qed.

Lemma hexlo_kernel y v : (y < 256)%N -> (v < 16)%N ->
  (N.lor y v < 256)%N /\
  forall j, j < 8 ->
    tb (N.lor y v) j = (tb y j || ((4 <=? j) && nth (j - 4) (nibble_bits v) false)).
Proof.
  intros Hy Hv. apply byte_with_bits. exact (sweep_nibble _ (sweep_byte _ k_hexlo_all y Hy) v Hv).
Qed.

(* detach: a group of at most 8 bits, left-aligned in its byte *)

Definition pack (g : list bool) : N :=
  N.land (N.shiftl (bits_to_N g) (N.of_nat (8 - length g))) 255.

Fixpoint all_lists (n : nat) : list (list bool) :=
  match n with
  | O => [[]]
  | S m => map (cons true) (all_lists m) ++ map (cons false) (all_lists m)
  end.

Lemma in_all_lists : forall g, In g (all_lists (length g)).
Proof.
  induction g as [|b g IH]; cbn [length all_lists].
  - left. reflexivity.
  - apply in_or_app. destruct b; [left|right]; apply in_map; exact IH.
Qed.

Lemma k_pack_all :
  forallb (fun n => forallb (fun g => forallb (fun j =>
     Bool.eqb (tb (pack g) j) (nth j g false)) (seq 0 8)) (all_lists n)) (seq 0 9) = true.
Proof. vm_compute. reflexivity. Qed.

Lemma pack_kernel g j : length g <= 8 -> j < 8 -> tb (pack g) j = nth j g false.
Proof.
  intros Hg Hj. pose proof (sweep_nat _ _ k_pack_all (length g) ltac:(lia)) as H. cbv beta in H.
  rewrite forallb_forall in H. apply eqb_prop.
  exact (sweep_nat _ _ (H g (in_all_lists g)) j Hj).
Qed.

Lemma pack_lt g : (pack g < 256)%N.
Proof. apply land_255_lt. Qed.
