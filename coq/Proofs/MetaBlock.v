(* MetaBlock.v (C11): token steps of the builder, their classification inside a meta context
   (same context / open a nested block / close the block), and what a whole block
   "#( ... #)" does to the state it was opened in. *)
From Xeh Require Import Model.Prelude Model.Bits Model.Codec Model.Cell Model.Lexer Model.Fmt
                        Model.Vm Model.Words Model.Build.
From Xeh Require Import Proofs.VmFrame Proofs.VmLimits Proofs.NoPanic Proofs.NoPanicBuild Proofs.NoPanicFlow
                        Proofs.UnwindFrame Proofs.MetaBase Proofs.MetaPurge Proofs.MetaBuild Proofs.MetaClose
                        Proofs.MetaPrefix Proofs.MetaPrefixBuild Proofs.MetaPrefixWords.
Local Notation length := List.length.
Local Open Scope string_scope.
Local Open Scope list_scope.

Lemma cpatch_firstn n d d' : cpatch d d' -> cpatch (firstn n d) (firstn n d').
Proof.
  intros [L H]. split; [rewrite !firstn_length, L; reflexivity|]. intros i.
  destruct (Nat.lt_ge_cases i n) as [Hi|Hi].
  - rewrite !nth_error_firstn_lt by exact Hi. apply H.
  - left. rewrite !nth_error_firstn_ge by exact Hi. reflexivity.
Qed.

Lemma rpatch_app c c' l : rpatch c c' -> rpatch (c ++ l) (c' ++ l).
Proof.
  intros [L H]. split; [rewrite !app_length, L; reflexivity|]. intros i.
  destruct (Nat.lt_ge_cases i (length c)) as [Hi|Hi].
  - rewrite (nth_error_app1 c' l) by lia. rewrite (nth_error_app1 c l) by lia. apply H.
  - left. rewrite (nth_error_app2 c' l) by lia. rewrite (nth_error_app2 c l) by lia. rewrite L. reflexivity.
Qed.

Lemma firstn_firstn_le {A} (l : list A) n m : n <= m -> firstn n (firstn m l) = firstn n l.
Proof. intros H. rewrite firstn_firstn. f_equal. lia. Qed.

Lemma keeps_lastn {A} n (l l' : list A) : keeps n l l' -> keeps n l (lastn n l').
Proof.
  intros [H1 H2]. split; [rewrite lastn_length; lia|]. rewrite lastn_lastn by lia. exact H2.
Qed.

Section Steps.
  Variable fo : fops.
  Variable pr : string -> option Z.
  Variable rf : nat.

  Definition pre_run : M unit :=
    let* s := get in
    if mode_eqb (cmode (cx s)) MMeta && negb (has_pending_flow s) then run_m fo rf else ret tt.

  Definition tok_act (f : nat) (t : btok) : M unit :=
    match t with
    | BEnd => ret tt
    | BLit v => code_emit_value v
    | BWord name =>
      let* s' := get in
      match top_function_flow s' with
      | Some (_, _, ls) =>
        match rposition ls name 0 None with
        | Some i => code_emit (OLoadLocal i)
        | None => build_word fo pr rf f name
        end
      | None => build_word fo pr rf f name
      end
    end.

  Definition build_end (d : nat) : M unit :=
    let* s' := get in
    if negb (length (nested s') =? d)%nat then fail EContext None
    else if has_pending_flow s' then fail EFlow None
    else ret tt.

  (* build1 is the iteration of: run pending code (meta mode), read a token, act on it *)
  Lemma build1_S f d s :
    build1 fo pr rf (S f) d s =
    (pre_run ;;
     let* t := get_token pr in
     match t with
     | BEnd => build_end d
     | _ => tok_act f t ;; build1 fo pr rf f d
     end) s.
  Proof.
    cbn [build1]. unfold pre_run, bind, get.
    destruct ((if mode_eqb (cmode (cx s)) MMeta && negb (has_pending_flow s) then run_m fo rf else ret tt) s)
      as [u s1|k p s1| |]; try reflexivity.
    destruct (get_token pr s1) as [[|w|c] s2|k p s2| |]; try reflexivity.
    unfold tok_act, bind, get.
    destruct (top_function_flow s2) as [[[di st] ls]|]; [|reflexivity].
    destruct (rposition ls w 0 None); reflexivity.
  Qed.

  (* the token is a word of the enum builder (as the dictionary of s resolves it).  Such a
     token performs two or three context operations at once (`enum`: open, open; a field word:
     close, open; `endenum`: close, close) and is NOT a token step in the sense of [tstep]: the
     block theorems of this file and of MetaSeg / MetaInline / MetaCompile2 are about sources
     whose tokens are not enum words; `enum ... endenum` itself is the subject of
     EnumGenMain.v. *)
  Definition enum_tok (s : state) (t : btok) : bool :=
    match t with
    | BWord name =>
      match dict_entry s name with
      | Some (DFun true (FNative w) _) => enum_native w
      | _ => false
      end
    | _ => false
    end.

  Definition tstep (f : nat) (s s' : state) : Prop :=
    exists s1 t s2, pre_run s = ROk tt s1 /\ get_token pr s1 = ROk t s2 /\ t <> BEnd /\
                    enum_tok s2 t = false /\ tok_act f t s2 = ROk tt s'.

  Definition interned (txt : string) (s : state) : state :=
    set_input (set_sources s (sources s ++ [txt])) (mkinlex (length (sources s)) (lex_new txt) :: input s).

  (* the context is closed: possibly after popping the block's values for ~) *)
  Definition closes (cs di : nat) (s s' : state) : Prop :=
    exists s3 s4, R2 cs di s s3 /\ has_pending_flow s3 = false /\
                  context_close fo rf s3 = ROk tt s4 /\
                  (s' = s4 \/ exists txt, s' = interned txt s4).

  Definition cls (cs di : nat) (m : M unit) : Prop :=
    forall s s', Pre2 cs di s -> m s = ROk tt s' ->
      R2 cs di s s' \/ s' = opened s \/ closes cs di s s'.

  Lemma cls_fp cs di m : fp (F2 cs di) m -> cls cs di m.
  Proof.
    intros H s s' P E. specialize (H s P). rewrite E in H. left. exact H.
  Qed.

  Lemma cls_nested_begin cs di : cls cs di i_nested_begin.
  Proof.
    intros s s' P E. unfold i_nested_begin in E. rewrite context_open_meta in E.
    injection E as <-. right. left. reflexivity.
  Qed.

  Lemma cls_nested_end cs di : cls cs di (i_nested_end fo rf).
  Proof.
    intros s s' P E. unfold i_nested_end, bind, get in E.
    destruct (negb (mode_eqb (cmode (cx s)) MMeta)); [discriminate|].
    destruct (has_pending_flow s) eqn:Ep; [discriminate|].
    right. right. exists s, s'. split; [apply R2_refl; exact P|].
    split; [exact Ep|]. split; [exact E|]. left. reflexivity.
  Qed.

  Lemma cls_nested_inject cs di : cls cs di (i_nested_inject fo rf).
  Proof.
    intros s s' P E. unfold i_nested_inject in E. unfold bind at 1 in E. unfold get at 1 in E.
    destruct (negb (mode_eqb (cmode (cx s)) MMeta)); [discriminate|].
    destruct (has_pending_flow s) eqn:Ep; [discriminate|].
    unfold bind at 1 in E.
    assert (Hw : wl (vec_collect_till_ptr (ds_len (cx s)))) by wl_solve.
    pose proof (fpp_wl cs di _ _ Hw s P) as H1. cbn [F2 fr_rel] in H1.
    pose proof (wl_frame _ _ Hw s) as F1.
    destruct (vec_collect_till_ptr (ds_len (cx s)) s) as [v s3|? ? ?| |]; try discriminate.
    cbn [res_all] in H1, F1.
    unfold bind at 1 in E. unfold join_str_vec in E.
    destruct (join_cells 40 (Some " ") v) as [txt|]; [|discriminate].
    unfold ret at 1 in E. unfold bind in E.
    destruct (context_close fo rf s3) as [[] s4|? ? ?| |] eqn:Ec; try discriminate.
    unfold intern_source in E. injection E as <-.
    right. right. exists s3, s4. split; [exact H1|]. split.
    - destruct F1 as (_ & _ & Fl & _ & _ & _ & _ & _ & _ & _ & Ex & _).
      unfold has_pending_flow in *. rewrite Fl, Ex. exact Ep.
    - split; [exact Ec|]. right. exists txt. reflexivity.
  Qed.

  (* a successful [build_word] compiled one instruction, ran a user-defined immediate word,
     or ran an immediate word of the table *)
  Lemma build_word_ok f name s s' : build_word fo pr rf f name s = ROk tt s' ->
    (exists op, code_emit op s = ROk tt s') \/
    (exists x len, dict_entry s name = Some (DFun true (FInterp x) len) /\
                   run_immediate fo pr rf f (FInterp x) s = ROk tt s') \/
    (exists n w len, dict_entry s name = Some (DFun true (FNative n) len) /\
                     immediate_fn fo pr rf f n = Some w /\ w s = ROk tt s').
  Proof.
    intros E. unfold build_word, bind, get in E.
    destruct (dict_entry s name) as [[c|a|[|] [x|n] len]|]; try discriminate;
      try (left; eexists; exact E).
    - right. left. exists x, len. split; [reflexivity|exact E].
    - right. right. unfold run_immediate in E.
      destruct (immediate_fn fo pr rf f n) as [w|] eqn:Ei; [|discriminate].
      exists n, w, len. split; [reflexivity|]. split; [exact Ei|exact E].
  Qed.

  Lemma tok_act_ok f t s s' : tok_act f t s = ROk tt s' ->
    (t = BEnd /\ s' = s) \/ (exists op, code_emit op s = ROk tt s') \/
    (exists name, t = BWord name /\ build_word fo pr rf f name s = ROk tt s').
  Proof.
    intros E. destruct t as [|name|v]; cbn [tok_act] in E.
    - left. injection E as <-. split; reflexivity.
    - right. unfold bind, get in E.
      destruct (top_function_flow s) as [[[d st] ls]|]; [destruct (rposition ls name 0 None)|].
      + left. eexists. exact E.
      + right. exists name. split; [reflexivity|exact E].
      + right. exists name. split; [reflexivity|exact E].
    - right. left. eexists. exact E.
  Qed.

  Lemma ctx_word_cases n : ctx_word n = true -> n = "#(" \/ n = "#)" \/ n = "~)" \/ enum_native n = true.
  Proof.
    unfold ctx_word. intros H. apply orb_true_iff in H. destruct H as [H|H]; [|auto].
    apply orb_true_iff in H. destruct H as [H|H].
    - apply orb_true_iff in H. destruct H as [H|H]; apply String.eqb_eq in H; auto.
    - apply String.eqb_eq in H. auto.
  Qed.

  (* the three bracket words of the table *)
  Lemma immediate_fn_ctx fuel n w :
    immediate_fn fo pr rf fuel n = Some w -> ctx_word n = true -> enum_native n = false ->
    (n = "#(" /\ w = i_nested_begin) \/ (n = "#)" /\ w = i_nested_end fo rf) \/
    (n = "~)" /\ w = i_nested_inject fo rf).
  Proof.
    intros H Hc Hn. destruct (ctx_word_cases n Hc) as [ -> | [ -> | [ -> | C ] ] ]; [| | |congruence].
    - change (Some i_nested_begin = Some w) in H. injection H as <-. auto.
    - change (Some (i_nested_end fo rf) = Some w) in H. injection H as <-. auto.
    - change (Some (i_nested_inject fo rf) = Some w) in H. injection H as <-. auto.
  Qed.

  Lemma cls_build_word cs di f name s s' : enum_tok s (BWord name) = false ->
    Pre2 cs di s -> build_word fo pr rf f name s = ROk tt s' ->
    R2 cs di s s' \/ s' = opened s \/ closes cs di s s'.
  Proof.
    intros Hn P E. cbn [enum_tok] in Hn.
    destruct (build_word_ok f name s s' E)
      as [(op & Eo)|[(x & len & Ed & Er)|(n & w & len & Ed & Ei & Ew)]].
    - exact (cls_fp _ _ _ (fpp_code_emit cs di op) s s' P Eo).
    - exact (cls_fp _ _ _ (fpp_run_interp cs di fo pr rf f x) s s' P Er).
    - rewrite Ed in Hn. destruct (ctx_word n) eqn:Ec.
      + destruct (immediate_fn_ctx f n w Ei Ec Hn) as [[_ ->]|[[_ ->]|[_ ->]]].
        * exact (cls_nested_begin cs di s s' P Ew).
        * exact (cls_nested_end cs di s s' P Ew).
        * exact (cls_nested_inject cs di s s' P Ew).
      + exact (cls_fp _ _ _ (fpp_immediate_fn cs di fo pr rf f n w Ei Ec) s s' P Ew).
  Qed.

  Lemma cls_tok_act cs di f t s s' : enum_tok s t = false ->
    Pre2 cs di s -> tok_act f t s = ROk tt s' ->
    R2 cs di s s' \/ s' = opened s \/ closes cs di s s'.
  Proof.
    intros Hn P E. destruct (tok_act_ok f t s s' E) as [[_ ->]|[(op & Eo)|(name & -> & Eb)]].
    - left. apply R2_refl. exact P.
    - exact (cls_fp _ _ _ (fpp_code_emit cs di op) s s' P Eo).
    - exact (cls_build_word cs di f name s s' Hn P Eb).
  Qed.

  Lemma fpp_pre_run cs di : fp (F2 cs di) pre_run.
  Proof. unfold pre_run. fpp_solve. Qed.

  Theorem tstep_cls cs di f s s' : Pre2 cs di s -> tstep f s s' ->
    R2 cs di s s' \/ (exists s2, R2 cs di s s2 /\ s' = opened s2) \/ closes cs di s s'.
  Proof.
    intros P (s1 & t & s2 & E1 & E2 & Ht & Hn & E3).
    pose proof (fpp_pre_run cs di s P) as H1. rewrite E1 in H1. cbn [res_all F2 fr_rel] in H1.
    pose proof (R2_keep _ _ _ _ P H1) as P1.
    pose proof (fpp_core cs di _ _ (fp_scorep _ _ (scorep_get_token pr)) (corep_get_token pr) s1 P1) as H2.
    rewrite E2 in H2. cbn [res_all F2 fr_rel] in H2.
    pose proof (R2_trans _ _ _ _ _ H1 H2) as H12.
    pose proof (R2_keep _ _ _ _ P H12) as P2.
    destruct (cls_tok_act cs di f t s2 s' Hn P2 E3) as [H|[H|(s3 & s4 & A & B & C & D)]].
    - left. eapply R2_trans; eassumption.
    - right. left. exists s2. split; assumption.
    - right. right. exists s3, s4. split; [eapply R2_trans; eassumption|]. repeat split; assumption.
  Qed.
End Steps.

(* the state inside a freshly opened block, without the context-stack push *)
Definition inner (t : state) : state := set_cx t (open_ctx t).

Lemma opened_inner t : opened t = set_nested (inner t) (cx t :: nested t).
Proof. reflexivity. Qed.

Lemma Pre2_set_nested cs di s r : Pre2 cs di s -> Pre2 cs di (set_nested s r).
Proof. intros H. exact H. Qed.

Lemma R2_unnest cs di a b r : R2 cs di a b -> R2 cs di (set_nested a r) (set_nested b r).
Proof.
  intros ((A1 & A2 & A3) & B). split; [|exact B]. split; [exact A1|]. split; [reflexivity|exact A3].
Qed.

Lemma Pre2_inner t : wfm t -> cd_inv t -> Pre2 (length (code t)) (length (dict t)) (inner t).
Proof.
  intros W Hcd. split; [split; [reflexivity|apply (opened_wfm t W)]|].
  repeat split; try reflexivity; try exact Hcd; try (cbn; lia).
  unfold UP, pending, inner, open_ctx. cbn [set_cx flows cx fs_len]. rewrite Nat.sub_diag. constructor.
Qed.

Lemma Pre2_opened t : wfm t -> cd_inv t -> Pre2 (length (code t)) (length (dict t)) (opened t).
Proof. intros W Hcd. apply (Pre2_inner t W Hcd). Qed.

Section Block.
  Variable fo : fops.
  Variable rf : nat.

  (* closing a meta context whose state satisfies the frame's precondition, by the outcome of
     the pending code *)
  Lemma close_from_pre cs di s prev rest :
    Pre2 cs di s -> nested s = prev :: rest ->
    match run_m fo rf (set_nested s rest) with
    | ROk _ s1 => context_close fo rf s = ROk tt (close_state s1 prev) /\
                  R2 cs di (set_nested s rest) s1
    | RErr k p s1 => context_close fo rf s = RErr k p (set_nested s1 (prev :: rest))
    | RPanic => context_close fo rf s = RPanic
    | RUnsup => context_close fo rf s = RUnsup
    end.
  Proof.
    intros P En. pose proof (context_close_meta_run fo rf s prev rest En (proj1 (proj1 P))) as H.
    pose proof (fpp_run_m fo cs di rf (set_nested s rest) (Pre2_set_nested _ _ _ _ P)) as H1.
    pose proof (run_m_fr fo rf (set_nested s rest)) as Fr.
    destruct (run_m fo rf (set_nested s rest)) as [[] s1|k p s1| |]; try exact H.
    - cbn [res_all F2 fr_rel] in H1. split; [|exact H1]. apply H.
      pose proof (R2_keep _ _ _ _ (Pre2_set_nested _ _ _ rest P) H1) as ([_ W1] & E1 & E2 & L1 & L2 & Hcd1 & _).
      unfold closable. rewrite E1, E2. repeat split; try assumption. apply W1.
    - rewrite H. destruct Fr as (_ & N1 & _). cbn [set_nested nested] in N1. rewrite N1. reflexivity.
  Qed.

  (* closing: the machine state the close is computed from *)
  Lemma block_close t w t' :
    wfm t -> cd_inv t ->
    R2 (length (code t)) (length (dict t)) (opened t) w -> has_pending_flow w = false ->
    context_close fo rf w = ROk tt t' ->
    exists w1, R2 (length (code t)) (length (dict t)) (inner t) w1 /\ flows w1 = flows t /\
               t' = close_state w1 (cx t).
  Proof.
    intros W Hcd H Hp Ec.
    pose proof (R2_keep _ _ _ _ (Pre2_opened t W Hcd) H) as Pw.
    assert (En : nested w = cx t :: nested t) by (destruct H as ((_ & N & _) & _); exact N).
    pose proof (close_from_pre _ _ w _ _ Pw En) as C.
    pose proof (run_m_fr fo rf (set_nested w (nested t))) as Fr.
    destruct (run_m fo rf (set_nested w (nested t))) as [[] w1|? ? ?| |];
      try (rewrite C in Ec; discriminate).
    destruct C as [C H1]. rewrite C in Ec. injection Ec as <-.
    pose proof (R2_unnest _ _ _ _ (nested t) H) as H0.
    change (set_nested (opened t) (nested t)) with (inner t) in H0.
    exists w1. split; [exact (R2_trans _ _ _ _ _ H0 H1)|]. split; [|reflexivity].
    (* nothing is pending in w, and the flow stack of t is kept below the mark *)
    destruct Fr as (Fl & _). cbn [set_nested flows] in Fl. rewrite Fl.
    pose proof H as ((_ & _ & Em & _ & _ & _ & _ & K) & _).
    change (fs_len (cx (opened t))) with (length (flows t)) in K. change (flows (opened t)) with (flows t) in K.
    destruct (keeps_all _ _ K) as (a & Ea).
    unfold has_pending_flow in Hp. apply Nat.ltb_ge in Hp.
    destruct (cmarks_fields _ _ Em) as (_ & _ & _ & F4 & _).
    change (fs_len (cx (opened t))) with (length (flows t)) in F4.
    rewrite F4, Ea, app_length in Hp. destruct a; [exact Ea|cbn [length] in Hp; lia].
  Qed.

  (* what the closed state is, relative to the state the block was opened in *)
  Theorem block_spec t w1 :
    wfm t -> cd_inv t ->
    R2 (length (code t)) (length (dict t)) (inner t) w1 -> flows w1 = flows t ->
    let t' := close_state w1 (cx t) in
    let n := ds_len (open_ctx t) in
    let res := if emit_flag w1 (cx t) then results w1 else [] in
    cx t' = cx t /\ nested t' = nested t /\ heap t' = heap t /\ flows t' = flows t /\
    (exists c', rpatch (code t) c' /\ code t' = c' ++ map load_value_opcode res) /\
    (exists d', cpatch (dict t) d' /\ dict t' = d' ++ purge_all (skipn (length (dict t)) (dict w1))) /\
    dbg t' = firstn (length (code t)) (dbg t) ++ repeat (loc_of w1) (length res) /\
    keeps n (ds t) (ds w1) /\
    ds t' = (if emit_flag w1 (cx t) then lastn n (ds t) else ds w1) /\
    keeps (length (rs t)) (rs t) (rs t') /\ keeps (length (loops t)) (loops t) (loops t') /\
    keeps (length (special t)) (special t) (special t') /\
    emit_flag w1 (cx t) = negb (mode_eqb (cmode (cx t)) MMeta) || building_fun t (cx t).
  Proof.
    intros W Hcd H Fl t' n res.
    (* the fields of [inner t] are those of t, and its marks are the lengths of t's stacks *)
    pose proof H as ((Hh & Hn & Hm & Kd & Kr & Kl & Ks & _) & Rc & Rd & Eg & _).
    destruct (cmarks_fields _ _ Hm) as (M1 & M2 & _ & _ & _ & _ & M7 & _).
    change (ds_len (cx w1) = n) in M1. change (cs_len (cx w1) = length (code t)) in M2.
    change (di_len (cx w1) = length (dict t)) in M7.
    rewrite firstn_all in Rc, Rd.
    destruct (close_rest w1 (cx t)) as (Q1 & Q2 & Q3 & Q4 & _).
    subst t'. rewrite close_cx, close_nested, close_heap, close_code, close_dict, close_dbg, close_ds, Q1, Q2, Q3, Q4.
    rewrite M1, M2, M7, Eg.
    split; [reflexivity|]. split; [exact Hn|]. split; [exact Hh|]. split; [exact Fl|].
    split; [exists (firstn (length (code t)) (code w1)); split; [exact Rc|reflexivity]|].
    split; [exists (firstn (length (dict t)) (dict w1)); split; [exact Rd|reflexivity]|].
    split; [reflexivity|]. split; [exact Kd|].
    split; [destruct (emit_flag w1 (cx t)); [apply Kd|reflexivity]|].
    split; [exact Kr|]. split; [exact Kl|]. split; [exact Ks|].
    unfold emit_flag, building_fun. rewrite Fl. reflexivity.
  Qed.

  (* when the enclosing context is not a meta context the results are compiled and the data
     stack is what it was *)
  Corollary block_spec_outside t w1 :
    wfm t -> cd_inv t -> cmode (cx t) <> MMeta ->
    R2 (length (code t)) (length (dict t)) (inner t) w1 -> flows w1 = flows t ->
    let t' := close_state w1 (cx t) in
    cx t' = cx t /\ nested t' = nested t /\ heap t' = heap t /\ flows t' = flows t /\ ds t' = ds t /\
    (exists c', rpatch (code t) c' /\ code t' = c' ++ map load_value_opcode (results w1)) /\
    (exists d', cpatch (dict t) d' /\ dict t' = d' ++ purge_all (skipn (length (dict t)) (dict w1))) /\
    dbg t' = firstn (length (code t)) (dbg t) ++ repeat (loc_of w1) (length (results w1)) /\
    keeps (length (rs t)) (rs t) (rs t') /\ keeps (length (loops t)) (loops t) (loops t') /\
    keeps (length (special t)) (special t) (special t').
  Proof.
    intros W Hcd Hm H Fl t'.
    destruct (block_spec t w1 W Hcd H Fl) as (B1 & B2 & B3 & B4 & Bc & Bd & Eg & _ & Eds & Kr & Kl & Ks & Ef).
    assert (Em : emit_flag w1 (cx t) = true).
    { rewrite Ef. destruct (cmode (cx t)); try reflexivity. contradiction Hm. reflexivity. }
    rewrite Em in *. rewrite (open_ctx_ds_outside t Hm), lastn_all in Eds by lia.
    split; [exact B1|]. split; [exact B2|]. split; [exact B3|]. split; [exact B4|]. split; [exact Eds|].
    split; [exact Bc|]. split; [exact Bd|]. split; [exact Eg|]. split; [exact Kr|]. split; assumption.
  Qed.

  (* seen from an enclosing meta context a whole block is one more same-context step *)
  Theorem block_R2 cs di t w1 :
    Pre2 cs di t ->
    R2 (length (code t)) (length (dict t)) (inner t) w1 -> flows w1 = flows t ->
    R2 cs di t (close_state w1 (cx t)).
  Proof.
    intros P H Fl. pose proof P as ([Hm W] & E1 & E2 & L1 & L2 & Hcd & Hup).
    destruct (block_spec t w1 W Hcd H Fl)
      as (B1 & B2 & B3 & B4 & (c' & Rc & Ec) & (d' & Rd & Ed) & Eg & Kd & Eds & Kr & Kl & Ks & _).
    set (t' := close_state w1 (cx t)) in *.
    rewrite (open_ctx_ds_meta t Hm) in *.
    destruct W as (W1 & W2 & W3 & W4 & W5).
    assert (Lc' : length c' = length (code t)) by apply Rc.
    assert (Ld' : length d' = length (dict t)) by apply Rd.
    assert (Sl : sealed t t').
    { unfold sealed. rewrite B1, B2, B3, B4. repeat split; try reflexivity; try assumption.
      - rewrite Eds. destruct (emit_flag w1 (cx t)); [rewrite lastn_length; lia|apply Kd].
      - rewrite Eds. destruct (emit_flag w1 (cx t)); [apply lastn_lastn; lia|apply Kd].
      - apply (keeps_le _ _ _ _ W2 Kr). lia.
      - apply (keeps_le _ _ _ _ W2 Kr). lia.
      - apply (keeps_le _ _ _ _ W3 Kl). lia.
      - apply (keeps_le _ _ _ _ W3 Kl). lia.
      - apply (keeps_le _ _ _ _ W4 Ks). lia.
      - apply (keeps_le _ _ _ _ W4 Ks). lia. }
    unfold R2. split; [exact Sl|].
    split; [|split; [|split; [|split; [|split; [|split]]]]].
    - rewrite Ec. rewrite firstn_app_le by lia. apply rpatch_firstn. exact Rc.
    - rewrite Ed. rewrite firstn_app_le by lia. apply cpatch_firstn. exact Rd.
    - rewrite Eg. unfold cd_inv in Hcd.
      rewrite firstn_app_le by (rewrite firstn_length; lia). apply firstn_firstn_le. exact L1.
    - rewrite Ec, app_length. lia.
    - rewrite Ed, app_length. lia.
    - unfold cd_inv in *. rewrite Ec, Eg, !app_length, map_length, repeat_length, firstn_length. lia.
    - unfold UP. rewrite (pending_eq t t'); [exact Hup|exact B4|rewrite B1; reflexivity].
  Qed.
End Block.
