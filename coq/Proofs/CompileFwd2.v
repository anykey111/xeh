(* CompileFwd2.v: the simulation, part 2: do ... loop, case ... endcase, and the induction on
   the evaluator's fuel. *)
From Xeh Require Import Model.Prelude Model.Bits Model.Codec Model.Cell Model.Lexer Model.Fmt
                        Model.Vm Model.Words Model.Struct
                        Proofs.VmFrame Proofs.StructBase Proofs.CompileSim Proofs.CompileLayout Proofs.CompileStep
                        Proofs.CompileEval Proofs.CompileBwdStep Proofs.CompileFwd.
Local Notation length := List.length.

#[local] Arguments Z.add : simpl never.
#[local] Arguments Z.sub : simpl never.
#[local] Arguments Z.mul : simpl never.
#[local] Arguments Z.ltb : simpl never.
#[local] Arguments Z.leb : simpl never.
#[local] Arguments Z.eqb : simpl never.
#[local] Arguments Z.of_nat : simpl never.
#[local] Arguments Z.to_nat : simpl never.

Section Fwd2.
  Variable fo : fops.
  Variable funs : list (nat * list stmt).
  Variable faddr : nat -> nat.
  Variable c : list opcode.
  Variable W : nat.
  Variable U : Prop.
  Notation nf := (native_fn fo).
  Notation Qb := (Qb fo funs faddr c W U).
  Notation Qs := (Qs fo funs faddr c W U).
  Notation Qs_at := (Qs_at fo funs faddr c W U).

  Hypothesis placed : funs_placed funs faddr c.
  Hypothesis closed : funs_callee U funs.
  Hypothesis W_pos : 1 <= W.
  Hypothesis W_body : forall g body, fun_body funs g = Some body -> wt_block body <= W.

  (* the region is the whole statement [org, endp); the budget is bounded by what the body may
     spend and by the number of trips that are left: every trip is at least one machine step *)
  Lemma do_loopq : forall f b0 pl org bc endp K,
    Qb f -> wf_b b0 -> cg_b (callee U funs) b0 ->
    code_at c (S org) (lay_block faddr b0 (S org) (BLoop endp)) ->
    nth_error c (S org + size_block b0) = Some (OLoop (- Z.of_nat (size_block b0))%Z) ->
    endp = org + size_block b0 + 2 ->
    forall k B t s, B <= f - wt_block b0 -> B <= W * k ->
                    mach c s -> ip s = S org -> rskeys s = K -> sim t s ->
                    okq nf c W U (inreg K org endp) s endp bc B (do_iter (sblock fo funs f b0) pl k t).
  Proof.
    intros f b0 pl org bc endp K HB Wf Cl Cb Cl0 Eend.
    induction k as [|k IH]; intros B t s HB1 HB2 M Hip HK Hsim.
    { apply okq_out_small. lia. }
    rewrite do_iter_S.
    eapply okq_bind.
    - eapply okq_sub; [apply (HB b0 (S org) (BLoop endp) t s); try assumption; intro; discriminate|reg_sub|lia|reflexivity].
    - intros t3 s3 M3 I3 S3 K3. rewrite <- I3 in Cl0.
      eapply step_run_mq; [apply par_loop_next|exact S3|exact M3|reg_here|exact Cl0|discriminate|intro; reflexivity|].
      intros more t4 s4 Em S4 A4 F. destruct more; cbv beta iota in F |- *.
      + eapply okq_goto; [reg_here|exact A4|exact S4|exact F|]. intros s5 M5 I5 S5 K5.
        rewrite jt_back in I5 by lia.
        apply IH; try assumption; try lia; try congruence.
      + eapply cont_run_mq; [apply par_pop_loop|exact M3|exact Cl0|reg_here|exact S4|exact A4|exact F|].
        intros l t5 s5 E5 S5 A5 F5. cbv beta in F5 |- *.
        eapply okq_next; [reg_here|exact A5|exact S5|exact F5|]. intros s6 M6 I6 S6 K6.
        apply okq_done_here; [eassumption|eassumption|lia].
    - intros t3 s3 HR3 M3 C3 _ S3 K3. cbn [brk_op] in C3.
      eapply step_run_mq; [apply par_pop_loop|exact S3|exact M3|exact HR3|exact C3|discriminate|intro; reflexivity|].
      intros l t4 s4 Em S4 A4 F. cbv beta in F.
      eapply okq_goto; [exact HR3|exact A4|exact S4|exact F|]. intros s5 M5 I5 S5 K5.
      rewrite jt_rel in I5.
      apply okq_done_here; [eassumption|eassumption|exact I5].
  Qed.

  Lemma caseq_Do : forall f p b0 pl, Qb f -> Qs_at (S f) (SDo p b0 pl).
  Proof.
    intros f p b0 pl HB org bc t s Wf Cl B C M Hip Hsim. rewrite sstmt_SDo.
    rewrite lay_SDo in C. apply code_at_app in C. destruct C as [C0 C2].
    apply code_at_cons in C0. destruct C0 as [C0 C1].
    cbn [length] in C2. rewrite lay_block_length in C2. apply code_at_one in C2.
    rewrite size_SDo, wt_SDo. inversion Wf; subst. inversion Cl; subst.
    eapply step_run_mq; [apply par_do_init|exact Hsim|exact M|reg_here|exact C0|discriminate|intro; reflexivity|].
    intros l t1 s1 Em S1 A1 F. cbv beta in F |- *.
    destruct (l_end l <=? l_start l)%Z.
    - eapply okq_goto; [reg_here|exact A1|exact S1|exact F|]. intros s2 M2 I2 S2 K2.
      rewrite jt_fwd in I2.
      apply okq_done_here; [eassumption|eassumption|lia].
    - eapply cont_run_mq; [apply par_push_loop|exact M|exact C0|reg_here|exact S1|exact A1|exact F|].
      intros u t2 s2 E2 S2 A2 F2. cbv beta in F2 |- *.
      eapply okq_next; [reg_here|exact A2|exact S2|exact F2|]. intros s3 M3 I3 S3 K3.
      replace (ip s + (1 + size_block b0 + 1)) with (ip s + size_block b0 + 2) by lia.
      eapply (do_loopq f b0 pl (ip s) bc (ip s + size_block b0 + 2) (rskeys s)); try assumption; try reflexivity; try lia.
      + replace (S (ip s) + size_block b0) with (ip s + S (size_block b0)) by lia. exact C2.
      + (* the trips: f of them *)
        pose proof (Nat.mul_le_mono_r 1 W f W_pos) as Hmul. lia.
  Qed.

  Lemma case_arms_okq : forall f d bc endp K lo,
    Qb f -> wf_b d -> cg_b (callee U funs) d -> brk_ok bc d ->
    forall arms B o t s,
      B <= f - wt_block d -> wf_a arms -> cg_a (callee U funs) arms -> brk_ok_a bc arms ->
      code_at c o (lay_arms faddr bc endp arms d o) ->
      endp = o + size_arms arms + size_block d ->
      B <= f - wt_arms arms -> lo <= o ->
      mach c s -> ip s = o -> rskeys s = K -> sim t s ->
      okq nf c W U (inreg K lo endp) s endp bc B (case_go (sblock fo funs f) d arms t).
  Proof.
    intros f d bc endp K lo HB Wd Cld Bd.
    induction arms as [|[[pre pof] body] r IH]; intros B o t s HBd Wa Cla Ba C E HBa Hlo M Hip HK Hsim.
    - rewrite case_go_nil. cbn [lay_arms size_arms] in *.
      eapply okq_sub; [apply (HB d o bc t s); assumption|reg_sub|lia|lia].
    - rewrite case_go_cons. cbn [lay_arms] in C. cbv zeta in C. cbn [wt_arms size_arms] in *.
      apply code_at_app in C. destruct C as [Cpre C]. rewrite lay_block_length in C.
      apply code_at_app in C. destruct C as [Cof Cj]. cbn [length] in Cj. rewrite lay_block_length in Cj.
      apply code_at_cons in Cof. destruct Cof as [Cof Cbody].
      apply code_at_cons in Cj. destruct Cj as [Cj Crest].
      inversion Wa; subst. inversion Cla; subst.
      assert (Bpre : brk_ok bc pre) by (intro E0; specialize (Ba E0); inversion Ba; assumption).
      assert (Bbody : brk_ok bc body) by (intro E0; specialize (Ba E0); inversion Ba; assumption).
      assert (Br : brk_ok_a bc r) by (intro E0; specialize (Ba E0); inversion Ba; assumption).
      set (endp := ip s + (size_block pre + 1 + size_block body + 1 + size_arms r) + size_block d) in *.
      eapply okq_bind;
        [eapply okq_sub; [apply (HB pre (ip s) bc t s); try assumption; reflexivity|unfold endp; reg_sub|lia|reflexivity]
        | |intros t1 s1 HR1 M1 C1 Bn S1 _; apply okq_broke_here; assumption].
      intros t1 s1 M1 I1 S1 K1.
      rewrite <- I1 in Cof.
      eapply step_run_mq; [apply par_m_of|exact S1|exact M1|unfold endp; reg_here|exact Cof|discriminate|intro; apply exec_caseof|].
      intros eq t2 s2 Em S2 A2 F. destruct eq; cbv beta iota in F |- *.
      + eapply cont_run_mq; [apply par_pop_data|exact M1|exact Cof|unfold endp; reg_here|exact S2|exact A2|exact F|].
        intros v t3 s3 E3 S3 A3 F3. cbv beta in F3 |- *.
        eapply okq_next; [unfold endp; reg_here|exact A3|exact S3|exact F3|]. intros s4 M4 I4 S4 K4.
        replace (ip s + size_block pre + S (size_block body)) with (S (ip s + size_block pre) + size_block body) in Cj by lia.
        eapply okq_then_jump; [|exact Cj|apply jt_rel|].
        * eapply okq_sub; [apply (HB body (S (ip s + size_block pre)) bc t3 s4); try assumption; lia|unfold endp; reg_sub|lia|reflexivity].
        * intros s5 I5 K5. unfold endp. reg_here.
      + eapply okq_goto; [unfold endp; reg_here|exact A2|exact S2|exact F|]. intros s3 M3 I3 S3 K3.
        rewrite jt_fwd in I3.
        replace (S (ip s + size_block pre + S (size_block body)))
          with (S (S (ip s + size_block pre) + size_block body)) in Crest by lia.
        apply (IH (B - W) (S (S (ip s + size_block pre) + size_block body)) t2 s3); try assumption; try lia.
        congruence.
  Qed.

  Lemma caseq_Case : forall f arms d, Qb f -> Qs_at (S f) (SCase arms d).
  Proof.
    intros f arms d HB org bc t s Wf Cl B C M Hip Hsim. rewrite sstmt_SCase.
    rewrite lay_SCase in C. inversion Wf; subst. inversion Cl; subst.
    assert (Ba : brk_ok_a bc arms) by (intro E0; specialize (B E0); inversion B; assumption).
    assert (Bd : brk_ok bc d) by (intro E0; specialize (B E0); inversion B; assumption).
    rewrite wt_SCase.
    eapply case_arms_okq; try eassumption; try reflexivity; try lia.
    rewrite size_SCase. lia.
  Qed.

  Lemma stmtq_step : forall f, Qb f -> Qs f -> Qs (S f).
  Proof.
    intros f HB HS x. destruct x.
    - apply caseq_cell with (m := push_data c0) (p := p) (op := load_value_opcode c0);
        [reflexivity|apply load_value_not_resolve|apply par_push_data|intros; apply exec_load_value|reflexivity].
    - apply caseq_Prim; assumption.
    - apply caseq_Call; assumption.
    - eapply caseq_cell; [reflexivity|discriminate|apply par_load|intros; apply exec_load|reflexivity].
    - eapply caseq_cell; [reflexivity|discriminate|apply par_store|intros; apply exec_store|reflexivity].
    - eapply caseq_cell; [reflexivity|discriminate|apply par_m_locget|intros; apply exec_loadlocal|reflexivity].
    - eapply caseq_cell; [reflexivity|discriminate|apply par_initlocal|intros; apply exec_initlocal|reflexivity].
    - apply caseq_If; assumption.
    - apply caseq_IfE; assumption.
    - apply caseq_Case; assumption.
    - apply caseq_Until; assumption.
    - apply caseq_Repeat; assumption.
    - apply caseq_While; assumption.
    - apply caseq_Do; assumption.
    - apply caseq_Break; assumption.
    - apply caseq_Def; assumption.
  Qed.

  Theorem fwdq_all : forall f, Qb f /\ Qs f.
  Proof.
    induction f as [|f [HB HS]].
    - split.
      + intros b org bc t s _ _ _ _ _ _ _. cbn [sblock]. apply okq_out_small. lia.
      + intros x org bc t s _ _ _ _ _ _ _. cbn [sstmt]. apply okq_out_small. lia.
    - split.
      + apply blockq_step; assumption.
      + apply stmtq_step; assumption.
  Qed.
End Fwd2.
