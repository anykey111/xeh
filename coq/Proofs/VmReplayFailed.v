(* VmReplayFailed.v: runs that END IN A FAILED STEP can be rewound and replayed (C02).

   n successful steps lead from s to sn; the next step fails (RErr) and leaves the machine in sf.
   - if the failed step logged changes before failing (log_len sn < log_len sf) the first
     backward step undoes exactly those partial changes (VmRev.rnext_undoes_failed_step_weak);
   - if it logged nothing, sf IS sn up to the meter and the captured output (failed_step_no_log);
   in both cases [failed_back sn sf + k] backward steps from sf reach the state of the original
   run at position n - k, and stepping forward again from there reproduces the k steps and then
   the same failure (same error kind, same payload, related state). *)
From Xeh Require Import Model.Prelude Model.Bits Model.Codec Model.Cell Model.Lexer Model.Fmt Model.Vm Model.Words.
From Xeh Require Import Proofs.VmFrame Proofs.VmFetch Proofs.VmLimits Proofs.VmRevBase Proofs.VmRevWords Proofs.VmRev
                        Proofs.VmReplayBase Proofs.VmReplayWords Proofs.VmReplay.
Local Notation length := List.length.

#[local] Arguments Z.add : simpl never.
#[local] Arguments Z.sub : simpl never.
#[local] Arguments Z.mul : simpl never.
#[local] Arguments Z.ltb : simpl never.
#[local] Arguments Z.leb : simpl never.
#[local] Arguments Z.eqb : simpl never.
#[local] Arguments Z.of_nat : simpl never.
#[local] Arguments Z.to_nat : simpl never.

(* number of backward steps that undo the failed step itself: 1 if it logged something *)
Definition failed_back (sn sf : state) : nat := if log_len sn <? log_len sf then 1 else 0.

Lemma rnexts_add i : forall j s,
  rnexts (i + j) s = match rnexts i s with Some t => rnexts j t | None => None end.
Proof.
  induction i; intros j s; cbn [rnexts Nat.add]; auto.
  destruct (rnext s) as [[] s1| | |]; auto.
Qed.

Section Failed.
  Variable fo : fops.
  Local Notation nf := (native_fn fo).

  (* a failed step that logged nothing changed nothing (but the meter, the output, and possibly the
     about-to-stop flag) *)
  Lemma failed_step_no_log : forall s k p s',
    recording s = true -> wf_marks s -> not_resolve s ->
    fetch_and_run nf s = RErr k p s' -> log_len s' <= log_len s ->
    stopping s' = stopping s ->
    eq_rev s' s.
  Proof.
    intros s k p s' Hr Hw Hn H Hlen Hstop.
    pose proof (far_shape nf s (nf_rev fo) Hr Hw Hn) as Hs. rewrite H in Hs.
    destruct Hs as [->|(l0 & es & A1 & A2 & A3 & A4 & A5 & A6)]; [apply eq_rev_refl|].
    change (rlog (tick s)) with (rlog s) in A1.
    unfold log_len in Hlen. rewrite A1, A2, app_length in Hlen.
    destruct es as [|r es]; [|cbn in Hlen; lia].
    specialize (A6 (out s') (rlog s') (stopping s')). rewrite norm_self in A6.
    cbn [undo_list] in A6. injection A6 as A6.
    rewrite A6. cbn [app] in A2. rewrite A2, Hstop.
    unfold eq_rev, erase_mo, norm, tick. destruct s; cbn in *; subst; reflexivity.
  Qed.

  (* both cases: [failed_back] backward steps undo the failed step *)
  Theorem failed_step_undone : forall s k p s',
    recording s = true -> log_ok s -> wf_marks s -> not_resolve s ->
    fetch_and_run nf s = RErr k p s' -> stopping s' = stopping s ->
    exists s'', rnexts (failed_back s s') s' = Some s'' /\ eq_rev s'' s.
  Proof.
    intros s k p s' Hr Hl Hw Hn H Hstop. unfold failed_back.
    destruct (log_len s <? log_len s') eqn:E.
    - apply Nat.ltb_lt in E.
      destruct (rnext_undoes_failed_step_weak fo s k p s' Hr Hl Hw Hn H E Hstop) as (s'' & Hx & He).
      exists s''. cbn [rnexts]. rewrite Hx. auto.
    - apply Nat.ltb_ge in E. exists s'. cbn [rnexts]. split; auto.
      eapply failed_step_no_log; eauto.
  Qed.

  Theorem rewind_failed : forall n k s sn e p sf,
    recording s = true -> log_ok s -> wf_marks s ->
    (forall m sm, m <= n -> steps nf m s = Some sm -> not_resolve sm) ->
    steps nf n s = Some sn ->
    fetch_and_run nf sn = RErr e p sf -> stopping sf = stopping sn ->
    k <= n ->
    exists s' sm, rnexts (failed_back sn sf + k) sf = Some s' /\
                  steps nf (n - k) s = Some sm /\ eq_rev s' sm.
  Proof.
    intros n k s sn e p sf Hr Hl Hw Hn Hs Hf Hstop Hk.
    destruct (steps_invariants fo n s sn Hr Hl Hw Hs) as (Ir & Il & Iw).
    assert (Inr : not_resolve sn) by (apply (Hn n); auto).
    destruct (failed_step_undone sn e p sf Ir Il Iw Inr Hf Hstop) as (s'' & Hx & He).
    assert (Hn' : forall m sm, m < n -> steps nf m s = Some sm -> not_resolve sm).
    { intros m sm Hm. apply Hn. lia. }
    destruct (rewind fo n k s sn Hr Hl Hw Hn' Hs Hk) as (t & sm & R1 & R2 & R3).
    destruct (rnexts_eq_rev k sn s'' t (eq_rev_sym _ _ He) R1) as (t' & R1' & R3').
    exists t', sm. rewrite rnexts_add, Hx. repeat split; auto.
    eapply eq_rev_trans; [apply eq_rev_sym; eauto | eauto].
  Qed.

  (* THE COMBINED THEOREM.  A run of n successful steps followed by a failing step, rewound from
     the failed state by failed_back + k backward steps (k <= n), then stepped forward k times:
     the machine is again in the state before the failing step, and the next step fails again
     with the same error kind and payload in a state related to sf.  The meter is not rewound,
     so the replay needs room for k + 1 metered instructions counted from sf (which also says
     that the original failure was not the instruction limit itself). *)
  Theorem rewind_replay_failed : forall n k s sn e p sf,
    recording s = true -> log_ok s -> wf_marks s ->
    (forall m sm, m <= n -> steps nf m s = Some sm -> not_resolve sm) ->
    steps nf n s = Some sn ->
    fetch_and_run nf sn = RErr e p sf -> stopping sf = stopping sn ->
    k <= n -> meter_ok (Z.of_nat k + 1) sf ->
    exists s' sm b' sf',
      rnexts (failed_back sn sf + k) sf = Some s' /\
      steps nf (n - k) s = Some sm /\ eq_rev s' sm /\
      steps nf k s' = Some b' /\ eq_rev b' sn /\
      fetch_and_run nf b' = RErr e p sf' /\ eq_rev sf' sf.
  Proof.
    intros n k s sn e p sf Hr Hl Hw Hn Hs Hf Hstop Hk Hm.
    destruct (rewind_failed n k s sn e p sf Hr Hl Hw Hn Hs Hf Hstop Hk) as (s' & sm & A & B & C).
    assert (Inr : not_resolve sn) by (apply (Hn n); auto).
    destruct (far_step_rel nf (native_wl fo) sn _ sf Hf eq_refl) as (F1 & _ & _ & _ & _ & F3 & _).
    unfold ticks in F3. rewrite (proj1 (not_resolve_at sn) Inr) in F3.
    destruct (rnexts_meter_out _ _ _ A) as [M1 _].
    (* the limit is the same everywhere *)
    assert (L1 : insn_limit sm = insn_limit s) by (eapply steps_insn_limit; eauto).
    assert (L2 : insn_limit sn = insn_limit s) by (eapply steps_insn_limit; eauto).
    assert (L3 : insn_limit s' = insn_limit sf).
    { rewrite (f_equal insn_limit C : insn_limit s' = insn_limit sm). congruence. }
    (* the k steps from sm to sn *)
    assert (Hk' : steps nf k sm = Some sn).
    { replace n with ((n - k) + k) in Hs by lia. rewrite steps_add, B in Hs. exact Hs. }
    assert (Hnk : forall i ai, i < k -> steps nf i sm = Some ai -> not_resolve ai).
    { intros i ai Hi Hsi. apply (Hn ((n - k) + i)); [lia|]. rewrite steps_add, B. exact Hsi. }
    destruct (replay_steps_nr_meter fo k sm s' sn (eq_rev_sym _ _ C)) as (b' & S1 & S2 & S3 & S4); auto.
    { eapply meter_ok_transfer; [exact Hm | exact L3 | lia]. }
    assert (Ma : meter_ok 1 sn).
    { eapply meter_ok_transfer; [exact Hm | congruence | lia]. }
    assert (Mb : meter_ok 1 b').
    { eapply meter_ok_transfer; [exact Hm | congruence | lia]. }
    pose proof (step_congruence_nr fo sn b' S2 Inr Ma Mb) as G.
    rewrite Hf in G. unfold res_rel_cases in G.
    destruct (fetch_and_run nf b') as [|e' p' t| |] eqn:Eb; try contradiction.
    destruct G as (<- & <- & G).
    exists s', sm, b', t. repeat split; auto using eq_rev_sym.
  Qed.

  (* no Resolve instruction in the code, no instruction limit, the failing word is not [exit] *)
  Theorem rewind_replay_failed_plain : forall n k s sn e p sf,
    recording s = true -> log_ok s -> wf_marks s -> resolve_freeb s = true -> insn_limit s = None ->
    steps nf n s = Some sn ->
    fetch_and_run nf sn = RErr e p sf ->
    nth_error (code sn) (ip sn) <> Some (ONative "exit") ->
    k <= n ->
    exists s' sm b' sf',
      rnexts (failed_back sn sf + k) sf = Some s' /\
      steps nf (n - k) s = Some sm /\ eq_rev s' sm /\
      steps nf k s' = Some b' /\ eq_rev b' sn /\
      fetch_and_run nf b' = RErr e p sf' /\ eq_rev sf' sf.
  Proof.
    intros n k s sn e p sf Hr Hl Hw Hf Hlim Hs Hfail Hne Hk.
    assert (Hn : forall m sm, m <= n -> steps nf m s = Some sm -> not_resolve sm).
    { intros m sm _ Hm. eapply resolve_free_steps; eauto. apply resolve_freeb_ok. exact Hf. }
    assert (Inr : not_resolve sn) by (apply (Hn n); auto).
    eapply rewind_replay_failed; eauto.
    - eapply failed_step_stopping_noexit; eauto.
    - apply meter_ok_nolimit.
      destruct (far_step_rel nf (native_wl fo) sn _ sf Hfail eq_refl) as (F1 & _).
      rewrite F1, (steps_insn_limit fo n s sn Hs). exact Hlim.
  Qed.

  (* after the failed step has been undone the machine can be moved freely along the run again:
     any interleaving of forward and backward moves within positions 0..n (VmReplay.walk_tracks) *)
  Theorem walk_after_failed : forall n s sn e p sf s0 w q,
    recording s = true -> log_ok s -> wf_marks s ->
    (forall m sm, m <= n -> steps nf m s = Some sm -> not_resolve sm) ->
    steps nf n s = Some sn ->
    fetch_and_run nf sn = RErr e p sf -> stopping sf = stopping sn ->
    rnexts (failed_back sn sf) sf = Some s0 ->
    meter_ok (Z.of_nat (fwd_count w)) s0 ->
    walk_pos n w n = Some q ->
    exists cur sq, walk nf w s0 = Some cur /\ steps nf q s = Some sq /\ eq_rev cur sq /\
                   recording cur = true /\ log_ok cur /\ wf_marks cur.
  Proof.
    intros n s sn e p sf s0 w q Hr Hl Hw Hn Hs Hf Hstop H0 Hm Hq.
    destruct (steps_invariants fo n s sn Hr Hl Hw Hs) as (Ir & Il & Iw).
    assert (Inr : not_resolve sn) by (apply (Hn n); auto).
    destruct (failed_step_undone sn e p sf Ir Il Iw Inr Hf Hstop) as (s'' & Hx & He).
    rewrite H0 in Hx. injection Hx as <-.
    assert (Hn' : forall m sm, m < n -> steps nf m s = Some sm -> not_resolve sm).
    { intros m sm Hlt. apply Hn. lia. }
    eapply (walk_tracks fo n s sn Hr Hl Hw Hn' Hs w n q sn s0); auto.
  Qed.
End Failed.
