(* MetaPrefix.v (C11): what is below the code mark and the dictionary mark of a meta context
   stays what it was.

   Inside a meta context with code mark cs and dictionary mark di
     - the code below cs changes only where a late-bound call (OResolve) is resolved in
       place by the machine ([rpatch]);
     - the dictionary below di changes only where `const` overwrites the value of an existing
       constant ([cpatch]);
     - the debug map below cs does not change;
   because every pending control structure of the context points at or above the marks
   ([UP], an invariant), and everything else appends.  The frame [F2 cs di] packages this
   with [sealed]; it holds for every builder program except the three context words. *)
From Xeh Require Import Model.Prelude Model.Bits Model.Codec Model.Cell Model.Lexer Model.Fmt
                        Model.Vm Model.Words Model.Build.
From Xeh Require Import Proofs.VmFrame Proofs.VmLimits Proofs.NoPanic Proofs.NoPanicBuild Proofs.NoPanicFlow
                        Proofs.UnwindFrame Proofs.MetaBase Proofs.MetaPurge Proofs.MetaBuild.
Local Notation length := List.length.
Local Open Scope list_scope.
Local Open Scope string_scope.

Lemma firstn_app_le {A} n (l r : list A) : n <= length l -> firstn n (l ++ r) = firstn n l.
Proof.
  intros H. rewrite firstn_app. replace (n - length l) with 0 by lia.
  cbn [firstn]. apply app_nil_r.
Qed.

Lemma firstn_list_set_ge {A} : forall n (l : list A) i v, n <= i -> firstn n (list_set l i v) = firstn n l.
Proof.
  induction n as [|n IH]; intros l i v H; [reflexivity|].
  destruct l as [|x l]; [reflexivity|]. destruct i as [|i]; [lia|].
  cbn [list_set firstn]. f_equal. apply IH. lia.
Qed.

Lemma nth_error_firstn_ge {A} n (l : list A) i : n <= i -> nth_error (firstn n l) i = None.
Proof. intros H. apply nth_error_None. rewrite firstn_length. lia. Qed.

Lemma nth_error_ext' {A} : forall (l l' : list A), (forall i, nth_error l i = nth_error l' i) -> l = l'.
Proof.
  induction l as [|x l IH]; intros [|y l'] H; try reflexivity;
    try (specialize (H 0); discriminate H).
  pose proof (H 0) as H0. cbn [nth_error] in H0. injection H0 as ->. f_equal.
  apply IH. intros i. exact (H (S i)).
Qed.

(* the two ways the prefixes may change *)
Definition rpatch (c c' : list opcode) : Prop :=
  length c' = length c /\
  forall i, nth_error c' i = nth_error c i \/ exists name, nth_error c i = Some (OResolve name).

Definition cpatch (d d' : list dentry) : Prop :=
  length d' = length d /\
  forall i, nth_error d' i = nth_error d i \/
            exists e e', nth_error d i = Some e /\ nth_error d' i = Some e' /\
                         dname e' = dname e /\ is_dconst e = true /\ is_dconst e' = true.

Lemma rpatch_refl c : rpatch c c.
Proof. split; [reflexivity|]. intros i. left. reflexivity. Qed.

Lemma rpatch_trans a b c : rpatch a b -> rpatch b c -> rpatch a c.
Proof.
  intros [L1 H1] [L2 H2]. split; [congruence|]. intros i.
  destruct (H2 i) as [E2|(n & E2)]; destruct (H1 i) as [E1|(m & E1)].
  - left. congruence.
  - right. exists m. exact E1.
  - right. exists n. congruence.
  - right. exists m. exact E1.
Qed.

Lemma cpatch_refl d : cpatch d d.
Proof. split; [reflexivity|]. intros i. left. reflexivity. Qed.

Lemma cpatch_trans a b c : cpatch a b -> cpatch b c -> cpatch a c.
Proof.
  intros [L1 H1] [L2 H2]. split; [congruence|]. intros i.
  destruct (H2 i) as [E2|(e2 & e2' & A2 & B2 & N2 & C2 & D2)];
    destruct (H1 i) as [E1|(e1 & e1' & A1 & B1 & N1 & C1 & D1)].
  - left. congruence.
  - right. exists e1, e1'. repeat split; try assumption. congruence.
  - right. exists e2, e2'. repeat split; try assumption. congruence.
  - right. exists e1, e2'. rewrite B1 in A2. injection A2 as <-.
    repeat split; try assumption. congruence.
Qed.

(* without late-bound calls the code is literally unchanged *)
Definition no_resolve (c : list opcode) : Prop := forall i name, nth_error c i <> Some (OResolve name).

Lemma rpatch_no_resolve c c' : no_resolve c -> rpatch c c' -> c' = c.
Proof.
  intros N [L H]. apply nth_error_ext'. intros i.
  destruct (H i) as [E|(name & E)]; [exact E|]. exfalso. exact (N i name E).
Qed.

Lemma cpatch_set d di pos e v :
  nth_error d pos = Some e -> is_dconst e = true ->
  cpatch (firstn di d) (firstn di (list_set d pos (mkdent (dname e) (DConst v)))).
Proof.
  intros E C. split; [rewrite !firstn_length, list_set_length; reflexivity|]. intros i.
  destruct (Nat.lt_ge_cases i di) as [Hi|Hi].
  - rewrite !nth_error_firstn_lt by exact Hi.
    destruct (Nat.eq_dec pos i) as [->|Hne].
    + right. exists e, (mkdent (dname e) (DConst v)). repeat split; try assumption.
      apply nth_error_list_set_eq. apply nth_error_Some. rewrite E. discriminate.
    + left. apply nth_error_list_set_neq. exact Hne.
  - left. rewrite !nth_error_firstn_ge by exact Hi. reflexivity.
Qed.

(* pending structures point at or above the marks *)
Definition fok (cs di : nat) (f : flow) : Prop :=
  match f with
  | FIf o | FElse o | FWhile o | FBreak o | FCaseOf o | FCaseEndOf o => cs <= o
  | FFun d st _ => cs <= st /\ di <= d
  | FDo o _ => cs <= o
  | _ => True
  end.

Definition UP (cs di : nat) (s : state) : Prop := Forall (fok cs di) (pending s).

Lemma pending_eq s s' : flows s' = flows s -> fs_len (cx s') = fs_len (cx s) -> pending s' = pending s.
Proof. unfold pending. intros -> ->. reflexivity. Qed.

Lemma pending_app s a : fs_len (cx s) <= length (flows s) ->
  firstn (length (a ++ lastn (fs_len (cx s)) (flows s)) - fs_len (cx s)) (a ++ lastn (fs_len (cx s)) (flows s)) = a.
Proof.
  intros H. rewrite app_length, lastn_length.
  replace (length a + Nat.min (fs_len (cx s)) (length (flows s)) - fs_len (cx s)) with (length a) by lia.
  rewrite firstn_app_le by lia. apply firstn_all.
Qed.

Definition Pre2 (cs di : nat) (s : state) : Prop :=
  mpre s /\ cs_len (cx s) = cs /\ di_len (cx s) = di /\ cs <= length (code s) /\ di <= length (dict s) /\
  cd_inv s /\ UP cs di s.

Definition R2 (cs di : nat) (s s' : state) : Prop :=
  sealed s s' /\ rpatch (firstn cs (code s)) (firstn cs (code s')) /\
  cpatch (firstn di (dict s)) (firstn di (dict s')) /\ firstn cs (dbg s') = firstn cs (dbg s) /\
  cs <= length (code s') /\ di <= length (dict s') /\ cd_inv s' /\ UP cs di s'.

Lemma R2_refl cs di s : Pre2 cs di s -> R2 cs di s s.
Proof.
  intros ([Hm W] & E1 & E2 & L1 & L2 & Hcd & Hup).
  repeat split; try assumption; try reflexivity; try apply sealed_refl; try assumption;
    try (intros i; left; reflexivity).
Qed.

Lemma R2_trans cs di a b c : R2 cs di a b -> R2 cs di b c -> R2 cs di a c.
Proof.
  intros (A1 & A2 & A3 & A4 & A5 & A6 & A7 & A8) (B1 & B2 & B3 & B4 & B5 & B6 & B7 & B8).
  split; [eapply sealed_trans; eassumption|]. split; [eapply rpatch_trans; eassumption|].
  split; [eapply cpatch_trans; eassumption|]. split; [congruence|]. repeat split; assumption.
Qed.

Lemma R2_keep cs di a b : Pre2 cs di a -> R2 cs di a b -> Pre2 cs di b.
Proof.
  intros (Hm & E1 & E2 & L1 & L2 & Hcd & Hup) (A1 & A2 & A3 & A4 & A5 & A6 & A7 & A8).
  pose proof A1 as (_ & _ & Em & _). destruct (cmarks_fields _ _ Em) as (_ & F2 & _ & _ & _ & _ & F7 & _).
  split; [eapply sealed_mpre; eassumption|]. repeat split; try assumption; congruence.
Qed.

Definition F2 (cs di : nat) : frame :=
  mkFrame (Pre2 cs di) (R2 cs di) (R2_refl cs di) (R2_trans cs di) (R2_keep cs di).

(* building the relation from its parts *)
Lemma R2_intro cs di s s' :
  Pre2 cs di s -> sealed s s' -> flows s' = flows s ->
  rpatch (firstn cs (code s)) (firstn cs (code s')) -> length (code s) <= length (code s') ->
  cpatch (firstn di (dict s)) (firstn di (dict s')) -> length (dict s) <= length (dict s') ->
  firstn cs (dbg s') = firstn cs (dbg s) -> cd_inv s' -> R2 cs di s s'.
Proof.
  intros (Hm & E1 & E2 & L1 & L2 & Hcd & Hup) S Ef Rc Lc Rd Ld Ed Hcd'.
  repeat split; try assumption; try apply S; try apply Rc; try apply Rd; try lia.
  unfold UP. rewrite (pending_eq s s'); [exact Hup|exact Ef|].
  destruct S as (_ & _ & Em & _). destruct (cmarks_fields _ _ Em) as (_ & _ & _ & F4 & _). exact F4.
Qed.

(* code, debug map and dictionary as they were *)
Lemma R2_flows cs di s s' :
  Pre2 cs di s -> sealed s s' -> code s' = code s -> dict s' = dict s -> dbg s' = dbg s ->
  UP cs di s' -> R2 cs di s s'.
Proof.
  intros (Hm & E1 & E2 & L1 & L2 & Hcd & Hup) HS C D G U.
  unfold R2. rewrite C, D, G. repeat split; try assumption; try apply HS; try lia;
    try (intros i; left; reflexivity).
  unfold cd_inv in *. rewrite C, G. exact Hcd.
Qed.

(* and the flow stack too *)
Lemma R2_same cs di s s' :
  Pre2 cs di s -> sealed s s' -> code s' = code s -> dict s' = dict s -> dbg s' = dbg s ->
  flows s' = flows s -> R2 cs di s s'.
Proof.
  intros P S C D G Fl. apply R2_flows; try assumption.
  unfold UP. rewrite (pending_eq s s' Fl); [apply P|].
  destruct S as (_ & _ & Em & _). destruct (cmarks_fields _ _ Em) as (_ & _ & _ & F4 & _). exact F4.
Qed.

Lemma R2_core cs di s s' : Pre2 cs di s -> sealed s s' -> core s' = core s -> R2 cs di s s'.
Proof.
  intros P S C. destruct (core_fields _ _ C) as (C1 & C2 & C3 & _).
  unfold core in C. injection C as _ Cd _ _ _ _. apply R2_same; assumption.
Qed.

Lemma fpp_core cs di A (m : M A) : fp SF m -> corep m -> fp (F2 cs di) m.
Proof.
  intros Hs Hc s P. cbn [F2 fr_pre fr_rel] in *. specialize (Hs s (proj1 P)). cbn [SF fr_rel] in Hs.
  destruct (Hc s) as [_ C].
  destruct (m s); cbn [res_all] in *; auto; apply R2_core; assumption.
Qed.

(* running code changes the code only where a late-bound call is resolved ([code_keep],
   UnwindFrame.v), and nothing else the frame speaks of *)
Lemma code_keep_rpatch c c' : code_keep c c' -> rpatch c c'.
Proof.
  intros [L K]. split; [exact L|]. intros i. destruct (nth_error c i) as [op|] eqn:E.
  - destruct op; try (left; apply K; [exact E|reflexivity]). right. eexists. reflexivity.
  - left. apply nth_error_None. rewrite L. apply nth_error_None. exact E.
Qed.

Lemma rpatch_firstn n c c' : rpatch c c' -> rpatch (firstn n c) (firstn n c').
Proof.
  intros [L H]. split; [rewrite !firstn_length, L; reflexivity|]. intros i.
  destruct (Nat.lt_ge_cases i n) as [Hi|Hi].
  - rewrite !nth_error_firstn_lt by exact Hi. apply H.
  - left. rewrite !nth_error_firstn_ge by exact Hi. reflexivity.
Qed.

Lemma frame_R2 cs di s s' : Pre2 cs di s -> frame_rel s s' -> R2 cs di s s'.
Proof.
  intros P F. pose proof (frame_sealed s s' (proj1 P) F) as S.
  destruct F as (Ed & Eg & Fl & _ & _ & _ & _ & _ & _ & _ & _ & _ & _ & _ & _ & _ & _ & Ck & _).
  pose proof (proj1 Ck) as Lc.
  apply R2_intro; try assumption; rewrite ?Ed, ?Eg, ?Lc; try reflexivity.
  - apply rpatch_firstn, code_keep_rpatch, Ck.
  - apply cpatch_refl.
  - destruct P as (_ & _ & _ & _ & _ & Hcd & _). unfold cd_inv in *. rewrite Lc, Eg. exact Hcd.
Qed.

Lemma R2_of_frame {A} cs di s (r : res A) : Pre2 cs di s -> res_all (frame_rel s) r -> res_all (R2 cs di s) r.
Proof. intros P H. destruct r; cbn [res_all] in *; auto; apply frame_R2; assumption. Qed.

Lemma fpp_wl cs di A (m : M A) : wl m -> fp (F2 cs di) m.
Proof. intros Hw s P. exact (R2_of_frame cs di s _ P (wl_frame A m Hw s)). Qed.

Lemma fpp_run_m fo cs di rf : fp (F2 cs di) (run_m fo rf).
Proof.
  intros s P. unfold run_m, nf. pose proof (run_frame_native fo rf s) as H.
  destruct (run (native_fn fo) rf s); [exact (R2_of_frame cs di s _ P H)|exact I].
Qed.
