(* VmLimitsRunSummary.v (C14): the statements of Props/C14_run.v that are more than a line or two
   away from the lemmas of the VmLimitsRun files. *)
From Xeh Require Import Model.Prelude Model.Bits Model.Codec Model.Cell Model.Lexer Model.Fmt
                        Model.Vm Model.Words Model.Struct Model.Build Model.Boot.
From Xeh Require Import Proofs.VmFrame Proofs.VmFetch Proofs.VmLimits Proofs.VmDrive Proofs.StructNat Proofs.UnwindLists Proofs.UnwindFrame
                        Proofs.UnwindWitness
                        Proofs.VmLimitsRunBase Proofs.VmLimitsRunStep Proofs.VmLimitsRunFail
                        Proofs.VmLimitsRunRun Proofs.VmLimitsRunBuild Proofs.VmLimitsRunQuiet.
Local Notation length := List.length.
Local Open Scope string_scope.

#[local] Arguments Z.add : simpl never.
#[local] Arguments Z.sub : simpl never.
#[local] Arguments Z.mul : simpl never.
#[local] Arguments Z.ltb : simpl never.
#[local] Arguments Z.leb : simpl never.
#[local] Arguments Z.eqb : simpl never.
#[local] Arguments Z.of_nat : simpl never.
#[local] Arguments Z.to_nat : simpl never.

Lemma not_limit_is_elimit {A} (r : res A) : (forall p x, r <> RErr ELimit p x) -> is_elimit r = false.
Proof.
  intros H. destruct r as [a s|k p s| |]; try reflexivity. destruct k; try reflexivity.
  exfalso. eapply H. reflexivity.
Qed.

Lemma is_elimit_not_limit {A} (r : res A) : is_elimit r = false -> forall p x, r <> RErr ELimit p x.
Proof. intros H p x ->. discriminate H. Qed.

Lemma lim_le_of (a b : option Z) :
  (forall S', b = Some S' -> exists S, a = Some S /\ (S <= S')%Z) -> lim_le a b.
Proof.
  intros H. unfold lim_le. destruct b as [y|]; [|exact I].
  destruct (H y eq_refl) as (x & -> & Hle). exact Hle.
Qed.

Lemma room_le_of s mt i :
  (forall N', i = Some N' -> exists N, insn_limit s = Some N /\ (N - meter s <= N' - mt)%Z) -> room_le s mt i.
Proof.
  intros H. unfold room_le. destruct i as [N'|]; [|exact I].
  destruct (H N' eq_refl) as (N & -> & Hle). exact Hle.
Qed.

Theorem limit_failure_cause_x : forall fo s p s',
  fetch_and_run (native_fn fo) s = RErr ELimit p s' ->
  p = None /\
  ((exists N, insn_limit s = Some N /\ (N <= meter s)%Z /\ s' = s) \/
   (exists N name e,
      insn_limit s = Some N /\ (meter s + 1 = N)%Z /\
      nth_error (code s) (ip s) = Some (OResolve name) /\ dict_entry s name = Some e /\
      s' = set_code (set_meter s (meter s + 1)%Z) (list_set (code s) (ip s) (resolve_op e))) \/
   (exists S, stack_limit s = Some S /\ (S <= Z.of_nat (length (ds s')))%Z /\
              (forall N, insn_limit s = Some N -> (meter s < N)%Z) /\
              (meter s' = meter s + 1 \/ meter s' = meter s + 2)%Z)).
Proof.
  intros fo s p s' H. destruct (far_limit_cause _ (native_wlx fo) s p s' H) as [Hp LC].
  split; [exact Hp|].
  destruct LC as [N EN Hle ->|N name e EN Hm E1 E2 ->|S ES Hle E0 Hm].
  - left. exists N. auto.
  - right. left. exists N, name, e. auto.
  - right. right. exists S. repeat split; try assumption.
    + intros N EN. unfold mlim in E0. rewrite EN in E0. apply Z.leb_gt. exact E0.
    + rewrite Hm. unfold ticks. destruct (at_resolve s); auto.
Qed.

Theorem limit_failure_frame_x : forall fo s p s',
  fetch_and_run (native_fn fo) s = RErr ELimit p s' ->
  dict s' = dict s /\ dbg s' = dbg s /\ sources s' = sources s /\ input s' = input s /\
  flows s' = flows s /\ nested s' = nested s /\ last_tok s' = last_tok s /\
  insn_limit s' = insn_limit s /\ heap_limit s' = heap_limit s /\ stack_limit s' = stack_limit s /\
  cx s' = cx s /\ rs s' = rs s /\ loops s' = loops s /\
  heap s' = heap s /\ out s' = out s /\ stopping s' = stopping s /\
  length (code s') = length (code s) /\
  (forall i op, nth_error (code s) i = Some op -> (forall n, op <> OResolve n) -> nth_error (code s') i = Some op) /\
  (meter s <= meter s' <= meter s + 2)%Z /\
  (forall h u, ds s = (u ++ h)%list -> length h <= ds_len (cx s) -> exists u', ds s' = (u' ++ h)%list) /\
  (forall h u, special s = (u ++ h)%list -> length h <= ss_ptr (cx s) -> exists u', special s' = (u' ++ h)%list) /\
  (rlog s' = None <-> rlog s = None).
Proof.
  intros fo s p s' H.
  destruct (limit_failure_rs_cx fo s p s' H) as [K1 K2].
  destruct (limit_failure_hol fo s p s' H) as (B1 & B2 & B3 & B4).
  destruct (far_step_rel _ (native_wl fo) s _ s' H eq_refl) as (_ & _ & _ & _ & _ & HM & _).
  pose proof (ticks_range s).
  pose proof (far_frame _ (native_wl fo) s) as FR. rewrite H in FR. cbn [res_all] in FR.
  destruct FR as (A1 & A2 & A3 & A4 & A5 & A6 & A7 & A8 & A9 & A10 & _ & _ & _ & F14 & _ & _ & F17 & [CK1 CK2] & F19).
  repeat split; try assumption; try lia; try apply F19.
  - intros i op Hi Hn. apply CK2; [exact Hi|]. destruct op; try reflexivity. exfalso. eapply Hn. reflexivity.
  - intros h u E Hl. apply F14; [exists u; exact E|exact Hl].
  - intros h u E Hl. apply F17; [exists u; exact E|exact Hl].
Qed.

Theorem failed_step_unchanged_refuted :
  ~ (forall fo s p s', fetch_and_run (native_fn fo) s = RErr ELimit p s' ->
       ds s' = ds s /\ special s' = special s).
Proof.
  intros H.
  destruct vec_end_not_rolled_back as (_ & _ & _ & _ & _ & _ & _ & Hsp & (s' & Hf & _ & Hs') & _).
  destruct (H wit_fo w1_before None s' Hf) as [_ E]. rewrite Hs', Hsp in E. discriminate E.
Qed.

Theorem failed_step_operands_refuted :
  ~ (forall fo s p s', fetch_and_run (native_fn fo) s = RErr ELimit p s' -> ds s' = ds s).
Proof.
  intros H.
  set (s := wit_state (compile wit_fo wit_pr wit_rf wit_fuel "+" w2_s0)).
  assert (E : exists s', fetch_and_run (native_fn wit_fo) s = RErr ELimit None s' /\ ds s' = [CInt 3; CInt 2; CInt 1]).
  { eexists. split; [vm_compute; reflexivity|reflexivity]. }
  destruct E as (s' & Hf & Hd). specialize (H wit_fo s None s' Hf). rewrite Hd in H.
  vm_compute in H. discriminate H.
Qed.

Lemma relim_meter_unlimited s x :
  relim (meter s + (meter x - meter s))%Z None None None x = unlimited x.
Proof. rewrite unlimited_relim. f_equal. lia. Qed.

Theorem step_on_unlimited : forall fo s r,
  fetch_and_run (native_fn fo) s = r -> (forall p x, r <> RErr ELimit p x) ->
  fetch_and_run (native_fn fo) (set_limits s None None None) = res_map (fun x => set_limits x None None None) r.
Proof.
  intros fo s r H Hne. subst r.
  change (set_limits s None None None) with (unlimited s). rewrite unlimited_relim.
  rewrite (far_relim _ (native_wlx fo) s (meter s) None None None I I (not_limit_is_elimit _ Hne)).
  destruct (fetch_and_run (native_fn fo) s); cbn [res_map]; try reflexivity; f_equal; apply relim_meter_unlimited.
Qed.

(* the failed instruction left the state unchanged up to meter / limits / resolution *)
Lemma cause_unchanged : forall fo s p s',
  fetch_and_run (native_fn fo) s = RErr ELimit p s' ->
  (stack_limit s = None \/
   (exists op, nth_error (code s) (ip s) = Some op /\ push_only op = true) \/
   (exists N, insn_limit s = Some N /\ (N <= meter s)%Z)) ->
  unchanged_failure s s'.
Proof.
  intros fo s p s' H [Hs|[(op & Hop & Hc)|(N & EN & Hle)]].
  - destruct (far_limit_cause _ (native_wlx fo) s p s' H) as [_ LC]. apply limit_cause_unchanged; assumption.
  - left. destruct (push_only_failure_unchanged fo s op p s' H Hop Hc) as [-> | ->]; reflexivity.
  - left. rewrite (insn_limit_is_error (native_fn fo) s N EN Hle) in H. injection H as _ <-. reflexivity.
Qed.

Theorem recover_steps_x : forall fo n s0 sn p se,
  steps (native_fn fo) n s0 = Some sn ->
  fetch_and_run (native_fn fo) sn = RErr ELimit p se ->
  (stack_limit s0 = None \/
   (exists op, nth_error (code sn) (ip sn) = Some op /\ push_only op = true) \/
   (exists N, insn_limit sn = Some N /\ (N <= meter sn)%Z)) ->
  forall mt i h k fuel r,
    run (native_fn fo) fuel (set_limits (set_meter se mt) i h k) = Some r ->
    (forall q x, r <> RErr ELimit q x) ->
    exists sn' r', steps (native_fn fo) n (set_limits s0 None None None) = Some sn' /\
                   run (native_fn fo) fuel sn' = Some r' /\
                   res_map erase_lim r' = res_map erase_lim r.
Proof.
  intros fo n s0 sn p se Hs Hf Hc mt i h k fuel r Hr Hne.
  assert (Hu : unchanged_failure sn se).
  { eapply cause_unchanged; [exact Hf|]. destruct Hc as [Hc|Hc]; [left|right; exact Hc].
    destruct (steps_bounded _ (native_wlx fo) n s0 sn Hs) as (_ & _ & B3 & _). congruence. }
  exact (recover_steps _ (native_wlx fo) n s0 sn p se Hs Hf Hu mt i h k fuel r Hr (not_limit_is_elimit _ Hne)).
Qed.

Lemma erase_lim_eq_fields a b : erase_lim a = erase_lim b ->
  dict a = dict b /\ heap a = heap b /\ code a = code b /\ ds a = ds b /\ rs a = rs b /\
  loops a = loops b /\ special a = special b /\ cx a = cx b /\ out a = out b /\ rlog a = rlog b /\
  flows a = flows b /\ nested a = nested b /\ stopping a = stopping b.
Proof.
  intros E. repeat split; match goal with |- ?f a = ?f b => exact (f_equal f E) end.
Qed.

Theorem steps_bounds_x : forall fo n s0 sn,
  steps (native_fn fo) n s0 = Some sn ->
  insn_limit sn = insn_limit s0 /\ heap_limit sn = heap_limit s0 /\ stack_limit sn = stack_limit s0 /\
  length (heap sn) = length (heap s0) /\
  (forall N, insn_limit s0 = Some N -> (meter s0 <= N)%Z -> (meter sn <= N)%Z) /\
  (forall S, stack_limit s0 = Some S -> length (ds sn) <= Nat.max (Z.to_nat S) (length (ds s0))).
Proof.
  intros fo n s0 sn H. destruct (steps_bounded _ (native_wlx fo) n s0 sn H) as (A1 & A2 & A3 & A4 & A5 & A6 & A7).
  repeat split; assumption.
Qed.

Theorem run_at_most_N : forall fo fuel s N,
  insn_limit s = Some N -> meter s = 0%Z -> (0 <= N)%Z ->
  (forall s', run (native_fn fo) fuel s = Some (ROk tt s') ->
     exists n, steps (native_fn fo) n s = Some s' /\ (Z.of_nat n <= N)%Z) /\
  (forall k p se, run (native_fn fo) fuel s = Some (RErr k p se) ->
     exists n sn, steps (native_fn fo) n s = Some sn /\ fetch_and_run (native_fn fo) sn = RErr k p se /\
                  (Z.of_nat n <= N)%Z).
Proof.
  intros fo fuel s N HL Hm HN. split.
  - intros s' H. destruct (run_ok_steps _ fuel s s' H) as (n & _ & Hs & _).
    exists n. split; [exact Hs|]. eapply (at_most_N_steps fo); eauto.
  - intros k p se H. destruct (run_err_steps _ fuel s k p se H) as (n & sn & _ & Hs & _ & Hf).
    exists n, sn. split; [exact Hs|]. split; [exact Hf|]. eapply (at_most_N_steps fo); eauto.
Qed.

Theorem meter_step : forall fo s s',
  fetch_and_run (native_fn fo) s = ROk tt s' ->
  meter s' = (meter s + (match nth_error (code s) (ip s) with Some (OResolve _) => 2 | _ => 1 end))%Z.
Proof.
  intros fo s s' H. pose proof (far_lim _ (native_wl fo) s) as L. rewrite H in L. destruct L as [_ ->].
  unfold ticks, at_resolve. destruct (nth_error (code s) (ip s)) as [[]|]; reflexivity.
Qed.

Theorem meter_steps : forall fo n s sn,
  steps (native_fn fo) n s = Some sn ->
  (meter s + Z.of_nat n <= meter sn <= meter s + 2 * Z.of_nat n)%Z /\
  (Forall (fun op => forall name, op <> OResolve name) (code s) -> meter sn = (meter s + Z.of_nat n)%Z).
Proof.
  intros fo n s sn H. split; [apply (steps_meter_range _ (native_wlx fo)); exact H|].
  intros Hn. apply (steps_meter_exact _ (native_wlx fo) n s sn H).
  unfold no_resolve. eapply Forall_impl; [|exact Hn].
  intros op Hop. destruct op; try reflexivity. exfalso. eapply Hop. reflexivity.
Qed.

Theorem meter_run : forall fo fuel s s',
  run (native_fn fo) fuel s = Some (ROk tt s') ->
  exists n, n < fuel /\ steps (native_fn fo) n s = Some s' /\ is_running s' = false /\
    (meter s + Z.of_nat n <= meter s' <= meter s + 2 * Z.of_nat n)%Z /\
    (Forall (fun op => forall name, op <> OResolve name) (code s) -> meter s' = (meter s + Z.of_nat n)%Z).
Proof.
  intros fo fuel s s' H. destruct (run_ok_steps _ fuel s s' H) as (n & Hn & Hs & Hr).
  exists n. destruct (meter_steps fo n s s' Hs) as [[A1 A2] B]. repeat split; assumption.
Qed.

Theorem run_m_bounds_x : forall fo rf s r s',
  run_m fo rf s = r -> res_state r = Some s' ->
  insn_limit s' = insn_limit s /\ heap_limit s' = heap_limit s /\ stack_limit s' = stack_limit s /\
  length (heap s') = length (heap s) /\ (meter s <= meter s')%Z /\
  (forall N, insn_limit s = Some N -> (meter s <= N)%Z -> (meter s' <= N)%Z) /\
  (forall S, stack_limit s = Some S -> length (ds s') <= Nat.max (Z.to_nat S) (length (ds s))) /\
  ds_len (cx s') = ds_len (cx s) /\
  (forall S, stack_limit s = Some S ->
     data_depth s' <= Nat.max (Z.to_nat S - ds_len (cx s)) (data_depth s)).
Proof.
  intros fo rf s r s' H Hr. unfold run_m, nf in H.
  destruct (run (native_fn fo) rf s) as [r0|] eqn:E; [|subst r; discriminate Hr]. subst r0.
  destruct (run_bounded _ (native_wlx fo) rf s r s' E Hr) as (A1 & A2 & A3 & A4 & A5 & A6 & A7).
  pose proof (run_ds_len fo rf s r s' E Hr) as Ek.
  repeat split; try assumption.
  intros S ES. destruct (run_visible_bound fo rf s r s' S E Hr ES) as [_ B]. exact B.
Qed.

(* with room for two fetches and either no stack limit or a push-only instruction below the
   stack limit, the instruction does not fail with a limit error *)
Theorem raised_limits_no_failure : forall fo t p x,
  (forall N, insn_limit t = Some N -> (meter t + 2 <= N)%Z) ->
  (stack_limit t = None \/
   exists op S, nth_error (code t) (ip t) = Some op /\ push_only op = true /\
                stack_limit t = Some S /\ (Z.of_nat (length (ds t)) < S)%Z) ->
  fetch_and_run (native_fn fo) t <> RErr ELimit p x.
Proof.
  intros fo t p x Hi Hs H.
  destruct (limit_failure_cause_x fo t p x H) as [_ [(N & EN & Hle & _)|[(N & name & e & EN & Hm & _)|(S & ES & Hle & _)]]].
  - specialize (Hi N EN). lia.
  - specialize (Hi N EN). lia.
  - destruct Hs as [Hs|(op & S' & Hop & Hc & ES' & Hlt)]; [congruence|].
    destruct (push_only_failure_unchanged fo t op p x H Hop Hc) as [-> | ->].
    + rewrite ES in ES'. injection ES' as <-. lia.
    + rewrite ES in ES'. injection ES' as <-. cbn [set_meter ds] in Hle. lia.
Qed.

Theorem meter_exactly_once_refuted :
  ~ (forall fo s s', fetch_and_run (native_fn fo) s = ROk tt s' -> meter s' = (meter s + 1)%Z).
Proof.
  intros H.
  set (s0 := wit_state (compile wit_fo wit_pr wit_rf wit_fuel "late foo : bar foo ; : foo 5 ; bar" boot)).
  assert (E : exists s s', steps (native_fn wit_fo) 5 s0 = Some s /\
                           fetch_and_run (native_fn wit_fo) s = ROk tt s' /\ meter s = 5%Z /\ meter s' = 7%Z).
  { eexists. eexists. split; [vm_compute; reflexivity|]. split; [vm_compute; reflexivity|]. split; reflexivity. }
  destruct E as (s & s' & _ & Hf & M1 & M2). specialize (H wit_fo s s' Hf). rewrite M1, M2 in H. discriminate H.
Qed.

