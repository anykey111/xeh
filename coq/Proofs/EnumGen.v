(* EnumGen.v (C11, `enum Name : f1 : f2 ... : fn endenum`, all field lists).

   LEVEL.  The theorems are about the immediate words themselves, in the order in which build1
   invokes them for such a source: [i_enum], then n times [i_enum_field], then [i_endenum]
   (= [enum_seq n]); the only thing abstracted is the reader: the hypotheses [reads] and
   [feeds_fields] say that the pending input yields the word Name and then ": f1 ... : fn endenum"
   when [next_name] / [get_token] are called on it (whatever the rest of the state is).
   [next_name_indep] shows that [next_name] depends on the pending input and the last-token
   record only, so they can be checked on a skeleton state by computation (EnumGenEx.v, on the
   boot state with real text). *)
From Xeh Require Import Model.Prelude Model.Bits Model.Codec Model.Cell Model.Lexer Model.Fmt
                        Model.Vm Model.Words Model.Build Model.Boot.
From Xeh Require Import Proofs.VmFrame Proofs.NoPanicBuild Proofs.MetaPurge.
Local Notation length := List.length.
Local Open Scope string_scope.
Local Open Scope list_scope.

#[local] Arguments Z.add : simpl never.
#[local] Arguments Z.of_nat : simpl never.

(* the reader sees the pending input and the last-token record only *)
Definition tk_upd (t r : state) : state := set_last_tok (set_input t (input r)) (last_tok r).
Definition tk_skel (i : list inlex) (l : option tokref) : state := set_last_tok (set_input boot i) l.
Definition rmap {A} (t : state) (r : res A) : res A :=
  match r with
  | ROk a s => ROk a (tk_upd t s)
  | RErr k p s => RErr k p (tk_upd t s)
  | RPanic => RPanic
  | RUnsup => RUnsup
  end.

Section Reader.
  Variable pr : string -> option Z.

  Lemma next_token_rel : forall fuel t u, input u = input t -> last_tok u = last_tok t ->
    next_token pr fuel t = rmap t (next_token pr fuel u).
  Proof.
    induction fuel as [|f IH]; intros t u E El; cbn [next_token]; [reflexivity|].
    rewrite E. destruct (input t) as [|il rest] eqn:Ei.
    - cbn [rmap]. unfold tk_upd. rewrite E, El.
      destruct t; cbn in *; subst; reflexivity.
    - cbv zeta. destruct (lex_next_nonws _ _) as [tk l'].
      destruct tk; try reflexivity;
        try (cbn [rmap]; unfold tk_upd; cbn [set_last_tok set_input input last_tok]; reflexivity).
      + (* end of this lexer: go on with the one below *)
        match goal with |- next_token pr f ?a = rmap t (next_token pr f ?b) =>
          rewrite (IH a b eq_refl eq_refl) end.
        match goal with |- context [next_token pr f ?b] => destruct (next_token pr f b) end;
          cbn [rmap]; unfold tk_upd; cbn [set_last_tok set_input input last_tok]; reflexivity.
      + destruct (pr text); cbn [rmap]; unfold tk_upd; cbn [set_last_tok set_input input last_tok]; reflexivity.
  Qed.

  Theorem next_name_indep t :
    next_name pr t = rmap t (next_name pr (tk_skel (input t) (last_tok t))).
  Proof.
    unfold next_name. cbv zeta. unfold get_token, tok_fuel.
    change (input (tk_skel (input t) (last_tok t))) with (input t).
    change (last_tok (tk_skel (input t) (last_tok t))) with (last_tok t).
    rewrite (next_token_rel (S (length (input t))) t (tk_skel (input t) (last_tok t)) eq_refl eq_refl).
    destruct (next_token pr (S (length (input t))) (tk_skel (input t) (last_tok t))) as [tk s1|k p s1| |];
      cbn [rmap]; try reflexivity.
    destruct tk; cbn [rmap]; try reflexivity; destruct (last_tok t); reflexivity.
  Qed.

  (* reading one name from the pending input (i, l) leaves (i', l') *)
  Definition reads (i : list inlex) (l : option tokref) (w : string) (i' : list inlex) (l' : option tokref) : Prop :=
    forall t, input t = i -> last_tok t = l -> next_name pr t = ROk w (set_last_tok (set_input t i') l').

  Theorem get_token_indep t :
    get_token pr t = rmap t (get_token pr (tk_skel (input t) (last_tok t))).
  Proof.
    unfold get_token, tok_fuel.
    change (input (tk_skel (input t) (last_tok t))) with (input t).
    apply next_token_rel; reflexivity.
  Qed.

  (* reading the keyword token kw (what build1 does before it invokes the immediate word) *)
  Definition tokreads (i : list inlex) (l : option tokref) (kw : string) (i' : list inlex) (l' : option tokref) : Prop :=
    forall t, input t = i -> last_tok t = l -> get_token pr t = ROk (BWord kw) (set_last_tok (set_input t i') l').

  Lemma tokreads_skel i l kw i' l' :
    get_token pr (tk_skel i l) = ROk (BWord kw) (tk_skel i' l') -> tokreads i l kw i' l'.
  Proof.
    intros H t Ei El. rewrite get_token_indep, Ei, El, H. reflexivity.
  Qed.

  (* the text after `enum Name`:  ": f1 : f2 ... : fn endenum" *)
  Inductive feeds_fields : list inlex -> option tokref -> list string -> list inlex -> option tokref -> Prop :=
  | ff_end i l i2 l2 : tokreads i l "endenum" i2 l2 -> feeds_fields i l [] i2 l2
  | ff_field i l f fs i0 l0 i1 l1 i2 l2 :
      tokreads i l ":" i0 l0 -> reads i0 l0 f i1 l1 -> feeds_fields i1 l1 fs i2 l2 ->
      feeds_fields i l (f :: fs) i2 l2.

  (* checkable form *)
  Lemma reads_skel i l w i' l' :
    next_name pr (tk_skel i l) = ROk w (tk_skel i' l') -> reads i l w i' l'.
  Proof.
    intros H t Ei El. rewrite next_name_indep, Ei, El, H. reflexivity.
  Qed.
End Reader.

Definition field_imm (name nat : string) : dentry := mkdent name (DFun true (FNative nat) None).
Definition enum_imms : list dentry := [field_imm ":" "%enum-field"; field_imm "=" "%enum-field-set"].
Definition const_of (f : string * Z) : dentry := mkdent (fst f) (DConst (CInt (snd f))).

(* the order in which the constants are left: swap_remove puts the last two in the places of
   the two field words *)
Definition enum_order {A} (cs : list A) : list A :=
  match rev cs with
  | [] => []
  | [c] => [c]
  | cn :: cn1 :: r => cn :: cn1 :: rev r
  end.

Lemma purge_enum cs : Forall (fun e => is_dconst e = true) cs ->
  purge_all (enum_imms ++ cs) = enum_order cs.
Proof.
  intros F. unfold purge_all, enum_imms, enum_order. cbn [app length purge_list is_dconst field_imm dent].
  destruct cs as [|c0 cs0] eqn:Ecs; [reflexivity|]. rewrite <- Ecs in *.
  assert (Hne : cs <> []) by (rewrite Ecs; discriminate).
  destruct (exists_last Hne) as (cs1 & cn & E1). rewrite E1 in *. clear Ecs Hne c0 cs0.
  rewrite rev_app_distr. cbn [rev app].
  apply Forall_app in F. destruct F as [F1 Fn]. inversion Fn as [|? ? Hcn _]; subst.
  change (field_imm "=" "%enum-field-set" :: cs1 ++ [cn]) with ((field_imm "=" "%enum-field-set" :: cs1) ++ [cn]).
  rewrite last_last, removelast_last. rewrite app_length. cbn [length].
  replace (length cs1 + 1) with (S (length cs1)) by lia. cbn [purge_list]. rewrite Hcn.
  destruct cs1 as [|c0 cs0] eqn:Ecs; [reflexivity|]. rewrite <- Ecs in *.
  assert (Hne : cs1 <> []) by (rewrite Ecs; discriminate).
  destruct (exists_last Hne) as (cs2 & cn1 & E2). rewrite E2 in *. clear Ecs Hne c0 cs0.
  rewrite rev_app_distr. cbn [rev app]. rewrite rev_involutive.
  rewrite app_length. cbn [length]. replace (length cs2 + 1) with (S (length cs2)) by lia.
  cbn [purge_list is_dconst field_imm dent].
  apply Forall_app in F1. destruct F1 as [F2 Fn1]. inversion Fn1 as [|? ? Hcn1 _]; subst.
  rewrite !last_last, !removelast_last, Hcn1. do 2 f_equal. apply purge_list_consts. exact F2.
Qed.
