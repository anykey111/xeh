(* CursorInv.v: C06 (b) (c) for the parsing words other than open-bitstr / close-bitstr, from one
   fact about their table: a word that returns has popped and pushed cells and moved at most the
   offset, inside the input; a word that fails has left a frame.  Hence each keeps the cursor
   invariant in every outcome and leaves the input and the stash alone. *)
From Xeh Require Import Model.Prelude Model.Bits Model.Codec Model.Cell Model.Lexer Model.Fmt
                        Model.Vm Model.Words.
From Xeh Require Import Proofs.VmStep Proofs.CursorDefs Proofs.CursorProofs Proofs.CursorWords
                        Proofs.CursorTable.
From Coq Require Import ZifyBool ZifyNat ZifyN.
Local Notation length := List.length.

Definition plain_step (s s' : state) : Prop :=
  cur_inv s' /\ h_input (heap s') = h_input (heap s) /\ h_stash (heap s') = h_stash (heap s).

Definition inv_plain (f : M unit) : Prop :=
  forall s, cur_inv s -> behaves (f s) (plain_step s) (fun _ => plain_step s).

Lemma cursor_unique s i1 o1 i2 o2 : cursor s i1 o1 -> cursor s i2 o2 -> i1 = i2 /\ o1 = o2.
Proof.
  intros (_ & _ & Hi1 & Ho1 & _) (_ & _ & Hi2 & Ho2 & _). split; congruence.
Qed.

Lemma h_input_set_offset h c : h_input (list_set h R_OFFSET c) = h_input h.
Proof. unfold h_input. rewrite nth_list_set_other by (unfold R_OFFSET, R_INPUT; lia). reflexivity. Qed.

(* the state in which such a word returns: [args] were popped and [new] pushed, the bit-strings
   among [new] are fine, and the only heap cell that may differ is the offset *)
Definition plain_post (s : state) (inp : cbs) (s' : state) : Prop :=
  sim s s' /\
  (exists args new rest, ds s = args ++ rest /\ ds s' = new ++ rest /\ Forall cell_ok new) /\
  (heap s' = heap s \/
   exists pos, heap s' = list_set (heap s) R_OFFSET (cint pos) /\
               (Z.of_nat (cstart inp) <= pos <= Z.of_nat (cend inp))%Z).

Definition plain_ok (f : M unit) : Prop :=
  forall s inp off, cursor s inp off -> behaves (f s) (plain_post s inp) (fun _ => fail_frame 1 s).

Lemma fail_frame_post ar s inp s' : fail_frame ar s s' -> plain_post s inp s'.
Proof.
  intros (Hh & Hs & args & Ha & _). split; [exact Hs|]. split; [|left; exact Hh].
  exists args, [], (ds s'). split; [exact Ha|]. split; [reflexivity|constructor].
Qed.

Lemma plain_post_step s inp off s' :
  cur_inv s -> cursor s inp off -> plain_post s inp s' -> plain_step s s'.
Proof.
  intros (_ & (v & Hv & Hvok) & Hds) (Hm & Hc) (Hs & (args & new & rest & Ha & Hd' & Hnew) & Hh).
  assert (Hds' : Forall cell_ok (ds s')).
  { rewrite Hd'. rewrite Ha in Hds. apply Forall_app in Hds. apply Forall_app. tauto. }
  pose proof (sim_notmeta _ _ Hs Hm) as Hm'.
  unfold plain_step, cur_inv, cursor. destruct Hh as [Hh | (pos & Hh & Hp)]; rewrite Hh.
  - split; [|split; reflexivity]. split; [exists inp, off; auto|]. split; [eauto|exact Hds'].
  - rewrite h_input_set_offset, h_stash_set_offset. split; [|split; reflexivity].
    split; [exists inp, pos; split; [exact Hm'|apply (hcursor_set_offset _ _ off); assumption]|].
    split; [eauto|exact Hds'].
Qed.

Lemma frame_step ar s s' : cur_inv s -> fail_frame ar s s' -> plain_step s s'.
Proof.
  intros Hinv Hf. pose proof Hinv as ((inp & off & Hcur) & _).
  apply (plain_post_step s inp off s' Hinv Hcur), (fail_frame_post ar), Hf.
Qed.

Lemma plain_ok_inv f : plain_ok f -> inv_plain f.
Proof.
  intros H s Hinv. pose proof Hinv as ((inp & off & Hcur) & _).
  eapply behaves_conseq; [apply (H s inp off Hcur)| |].
  - intros s'. apply (plain_post_step s inp off); assumption.
  - intros k s'. apply (frame_step 1 s s' Hinv).
Qed.

Section Plain.
  Variables (s : state) (inp : cbs) (off : Z).
  Hypothesis Hcur : cursor s inp off.

  Lemma post_of_done s' n rest v args :
    read_done s s' inp off n rest v -> ds s = args ++ rest -> cell_ok v -> plain_post s inp s'.
  Proof.
    intros (Hn & Hfit & Hd & Hh & Hs) Ha Hv. split; [exact Hs|]. split.
    - exists args, [v], rest. split; [exact Ha|]. split; [exact Hd|]. constructor; [exact Hv|constructor].
    - right. exists (off + n)%Z. split; [exact Hh|].
      destruct Hcur as (_ & _ & _ & _ & _ & _ & ?). lia.
  Qed.

  Lemma post_of_bits s' n rest args :
    bits_read s s' inp off n rest -> ds s = args ++ rest -> plain_post s inp s'.
  Proof.
    intros (b & Hd & _ & _ & _ & ->) Ha. eapply post_of_done; eauto.
    destruct Hd as (Hn & Hfit & _). intros b Hb. cbn [value] in Hb. injection Hb as <-.
    destruct Hcur as (_ & _ & _ & _ & Hw & Hbd & Hr).
    destruct (sub_spec inp off n Hw ltac:(lia) Hn Hfit) as (Hsw & _). split; [exact Hsw|].
    unfold sub. cbn [cend]. lia.
  Qed.

  Lemma post_of_num s' n rest o x args :
    num_read s s' inp off n rest o x -> ds s = args ++ rest -> plain_post s inp s'.
  Proof.
    intros (v & Hd & _ & Hv & _) Ha. eapply post_of_done; eauto. intros b Hb. congruence.
  Qed.

  Lemma post_of_real s' n rest o x args :
    real_read s s' inp off n rest o x -> ds s = args ++ rest -> plain_post s inp s'.
  Proof.
    intros (v & Hd & _ & Hv & _) Ha. eapply post_of_done; eauto. intros b Hb. congruence.
  Qed.
End Plain.

(* a reader by width and order, in the three forms of the table *)
Definition plain_forms (rd : Z -> order -> M unit) : Prop :=
  (forall n o, plain_ok (rd n o)) /\ (forall n, plain_ok (with_order (rd n))) /\
  plain_ok (with_size (fun n => with_order (rd n))).

Lemma plain_of_gens rd (P : state -> cbs -> Z -> Z -> order -> list cell -> state -> Prop) :
  (forall s inp off, cursor s inp off -> gen s rd (P s inp off)) ->
  (forall s inp off n o d s' args, cursor s inp off -> P s inp off n o d s' -> ds s = args ++ d ->
                                   plain_post s inp s') ->
  plain_forms rd.
Proof.
  intros Hg HP. split; [|split].
  - intros n o s inp off Hcur. eapply behaves_conseq; [apply (plain_of_gen s _ _ (Hg s inp off Hcur))| |].
    + intros s' H. apply (HP s inp off n o (ds s) s' [] Hcur H). reflexivity.
    + intros k s'. apply fail_frame_mono. lia.
  - intros n s inp off Hcur. eapply behaves_conseq; [apply (cur_of_gen s inp off Hcur _ _ (Hg s inp off Hcur))| |].
    + intros s' (o & _ & H). apply (HP s inp off n o (ds s) s' [] Hcur H). reflexivity.
    + intros k s'. apply fail_frame_mono. lia.
  - intros s inp off Hcur. eapply behaves_conseq; [apply (sized_of_gen s inp off Hcur _ _ (Hg s inp off Hcur))| |].
    + intros s' (c & rest & n & Hd & _ & o & _ & H). apply (HP s inp off n o rest s' [c] Hcur H). exact Hd.
    + auto.
Qed.

Lemma plain_unsigned : plain_forms read_unsigned.
Proof.
  apply (plain_of_gens read_unsigned uint_post unsigned_gen).
  intros s inp off n o d s' args Hcur (_ & H). apply (post_of_num s inp off Hcur _ _ _ _ _ _ H).
Qed.

Lemma plain_signed : plain_forms read_signed.
Proof.
  apply (plain_of_gens read_signed int_post signed_gen).
  intros s inp off n o d s' args Hcur (_ & H). apply (post_of_num s inp off Hcur _ _ _ _ _ _ H).
Qed.

Lemma plain_float fo : plain_forms (read_float fo).
Proof.
  apply (plain_of_gens (read_float fo) (fun s inp off => float_post s inp off fo)
                       (fun s inp off H => float_gen s inp off H fo)).
  intros s inp off n o d s' args Hcur (pat & _ & H). apply (post_of_real s inp off Hcur _ _ _ _ _ _ H).
Qed.

(* bits and bytes: the count [f n] of bits read is computed from the popped size *)
Lemma plain_bits f :
  (forall s inp off, cursor s inp off ->
     behaves (with_size (fun n => read_bits (f n)) s)
       (fun s' => exists c rest n, ds s = c :: rest /\ is_usize c n /\ bits_read s s' inp off (f n) rest)
       (fun _ => fail_frame 1 s)) ->
  plain_ok (with_size (fun n => read_bits (f n))).
Proof.
  intros H s inp off Hcur. eapply behaves_conseq; [apply (H s inp off Hcur)| |auto].
  intros s' (c & rest & n & Hd & _ & Hb). apply (post_of_bits s inp off Hcur _ _ _ [c] Hb Hd).
Qed.

Lemma plain_magic : plain_ok w_magic.
Proof.
  intros s inp off Hcur. eapply behaves_conseq; [apply (magic_word' s inp off Hcur)| |auto].
  intros s' (c & rest & pat & Hd & _ & Hb & _). apply (post_of_bits s inp off Hcur _ _ _ [c] Hb Hd).
Qed.

Lemma plain_nulbytestr : plain_ok w_nulbytestr.
Proof.
  intros s inp off Hcur. eapply behaves_conseq; [apply (nulbytestr_word' s inp off Hcur)| |].
  - intros s' Hb. apply (post_of_bits s inp off Hcur _ _ _ [] Hb). reflexivity.
  - intros k s'. apply fail_frame_mono. lia.
Qed.

Lemma plain_cstr : plain_ok w_cstr.
Proof.
  intros s inp off Hcur. apply wp_behaves. eapply wp_conseq; [apply (cstr_word s inp off Hcur)| |auto|auto].
  - cbv zeta. intros _ s' (Hb & _). apply (post_of_done s inp off Hcur _ _ _ _ [] Hb); [reflexivity|].
    intros b Hb'. discriminate Hb'.
  - intros k p s'. apply fail_frame_mono. lia.
Qed.

Lemma plain_seek : plain_ok w_seek.
Proof.
  intros s inp off Hcur. apply wp_behaves. eapply wp_conseq; [apply (seek_word s inp off Hcur)| |auto|auto].
  intros _ s' (c & rest & n & Hd & _ & Hin & Hd' & Hh & Hs & _). split; [exact Hs|]. split; [|right; eauto].
  exists [c], [], rest. split; [exact Hd|]. split; [exact Hd'|constructor].
Qed.

Lemma plain_remain : plain_ok w_remain.
Proof.
  intros s inp off Hcur. apply wp_behaves. apply (wp_remain s inp off Hcur).
  - intros _ s' (Hd & Hh & Hs). split; [exact Hs|]. split; [|left; exact Hh].
    exists [], [cint (Z.of_nat (cend inp) - off)], (ds s). split; [reflexivity|]. split; [exact Hd|].
    constructor; [intros b Hb; discriminate Hb|constructor].
  - intros _. apply (frame_intro s 1 s (ds s) []); auto using st_init.
Qed.

Lemma plain_find : plain_ok w_find.
Proof.
  intros s inp off Hcur. apply wp_behaves. eapply wp_conseq; [apply (find_word s inp off Hcur)| |auto|auto].
  intros _ s' (c & rest & pat & r & Hd & _ & Hd' & Hh & Hs & Hres). split; [exact Hs|]. split; [|left; exact Hh].
  exists [c], [r], rest. split; [exact Hd|]. split; [exact Hd'|]. constructor; [|constructor].
  intros b Hb. destruct Hres as [-> | (p & -> & _)]; discriminate Hb.
Qed.

Lemma plain_table_ok : forall fo, Forall (fun nw => plain_ok (snd nw)) (plain_table fo).
Proof.
  intro fo.
  destruct plain_unsigned as (Hu & Hu' & Hu''), plain_signed as (Hi & Hi' & Hi''),
           (plain_float fo) as (Hf & Hf' & Hf'').
  pose proof (plain_bits (fun n => n) bits_word) as Hbits.
  pose proof (plain_bits (fun n => (n * 8)%Z) bytes_word) as Hbytes.
  unfold plain_table. repeat (apply Forall_cons; [cbn [snd]|]); [..|apply Forall_nil];
    auto using plain_magic, plain_nulbytestr, plain_cstr, plain_seek, plain_remain, plain_find.
Qed.

Lemma inv_plain_table : forall fo, Forall (fun nw => inv_plain (snd nw)) (plain_table fo).
Proof.
  intro fo. eapply Forall_impl; [|apply plain_table_ok]. intros nw. apply plain_ok_inv.
Qed.
