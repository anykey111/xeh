(* C15, continuation: `endenum` and the drive mode (finding E3).

   `endenum` first closes the block it is in and then refuses to go on when the data stack of
   the context it returned to is not empty.  When that context is the source's own (an
   `endenum` without `enum`, inside a meta block) its data-stack mark depends on the drive mode
   (compile hides the caller's stack, eval does not: D33), so with a value on the stack eval
   reports "enum data stack contains unused elements" and compile "unbalanced enum".  The watch
   [calls_bad] reports this situation ([enum_close_bad]); the statement of
   C15_eval_is_compile_run is textually unchanged. *)
From Xeh Require Import Model.Prelude Model.Bits Model.Codec Model.Cell Model.Lexer Model.Fmt
                        Model.Vm Model.Words Model.Build Model.Boot.
From Xeh Require Import Proofs.VmLimits Proofs.NoPanicBuild Proofs.UnwindLists Proofs.UnwindFrame Proofs.UnwindInv
                        Proofs.UnwindBuild Proofs.UnwindMain Proofs.UnwindWitness
                        Proofs.MetaBase Proofs.MetaPurge Proofs.MetaBuild Proofs.MetaClose Proofs.MetaPrefix
                        Proofs.MetaBlock Proofs.MetaSeg Proofs.MetaInline Proofs.MetaFindings Proofs.EnumWitness.
Local Notation length := List.length.
Local Open Scope string_scope.
Local Open Scope list_scope.
Theorem C15_endenum_mode_refuted :
  ds e3_s = [CInt 7] /\
  (exists s, eval wit_fo wit_pr wit_rf wit_fuel e3_src e3_s = RErr EMsg None s) /\
  (exists s, compile wit_fo wit_pr wit_rf wit_fuel e3_src e3_s = RErr EFlow None s) /\
  calls_bad wit_fo wit_pr wit_rf 0 wit_fuel
            (length (nested (wit_opened e3_src e3_s))) (wit_opened e3_src e3_s) = true.
Proof.
  vm_compute. repeat split; try reflexivity; eexists; reflexivity.
Qed.
Check C15_endenum_mode_refuted :
  ds e3_s = [CInt 7] /\
  (exists s, eval wit_fo wit_pr wit_rf wit_fuel e3_src e3_s = RErr EMsg None s) /\
  (exists s, compile wit_fo wit_pr wit_rf wit_fuel e3_src e3_s = RErr EFlow None s) /\
  calls_bad wit_fo wit_pr wit_rf 0 wit_fuel
            (length (nested (wit_opened e3_src e3_s))) (wit_opened e3_src e3_s) = true.
