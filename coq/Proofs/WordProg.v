(* WordProg.v: what native words are made of.

   A native word is a program over the logging primitives of Vm.v: it reaches the machine
   through the data stack, the special stack, variables and the captured output, and reads
   the state only through the data stack, the loop stack and the two marks [ds_len] and
   [ls_len] of the current context.  Four things are reserved to one or two words each -
   the stop flag ("exit"), [over_data] ("over"), writing a loop record ("%foreach-next"), the
   stash cell ("open-bitstr", "close-bitstr") - and the control primitives (frames and their
   locals, loop records, ip) belong to [exec_op] alone; [caps] says which of these a program
   may use.  No word contains [panic], and none fails with the limit error except through
   [push_data]: there is no constructor for the first, and [wp_fail] excludes the second.

   [native_wprog] walks the table of words once.  A property of all words is then proved by
   induction on [wprog]: one case per primitive, and the reserved cases come with the
   capability as a hypothesis. *)
From Xeh Require Import Model.Prelude Model.Bits Model.Codec Model.Cell Model.Lexer Model.Fmt
                        Model.Vm Model.Words.
Local Notation length := List.length.
Local Open Scope string_scope.

Record caps := mkcaps {
  c_stop : bool; c_over : bool; c_items : bool; c_stash : bool;
  c_frame : bool; c_loop : bool; c_ip : bool }.

Definition caps_of (w : string) : caps :=
  mkcaps (String.eqb w "exit") (String.eqb w "over") (String.eqb w "%foreach-next")
         (String.eqb w "open-bitstr" || String.eqb w "close-bitstr") false false false.

Definition all_caps : caps := mkcaps true true true true true true true.

Definition caps_le (c c' : caps) : Prop :=
  (c_stop c = true -> c_stop c' = true) /\ (c_over c = true -> c_over c' = true) /\
  (c_items c = true -> c_items c' = true) /\ (c_stash c = true -> c_stash c' = true) /\
  (c_frame c = true -> c_frame c' = true) /\ (c_loop c = true -> c_loop c' = true) /\
  (c_ip c = true -> c_ip c' = true).

(* [s1] with what a word may read taken from [s0]: a continuation [k] after [get] reads no more
   when [k (with_view s1 s0) = k s0], which conversion decides *)
Definition with_view (s1 s0 : state) : state :=
  let c1 := cx s1 in
  set_cx (set_loops (set_ds s1 (ds s0)) (loops s0))
         (mkctx (ds_len (cx s0)) (cs_len c1) (rs_len c1) (fs_len c1) (ls_len (cx s0)) (ss_ptr c1)
                (di_len c1) (cip c1) (cmode c1)).

Inductive wprog (c : caps) : forall {A : Type}, M A -> Prop :=
| wp_ret : forall A (a : A), wprog c (ret a)
| wp_fail : forall A k p, k <> ELimit -> wprog c (@fail A k p)
| wp_unsup : forall A, wprog c (@unsup A)
| wp_bind : forall A B (m : M A) (f : A -> M B), wprog c m -> (forall a, wprog c (f a)) -> wprog c (bind m f)
| wp_get_bind : forall B (k : state -> M B),
    (forall s0, wprog c (k s0)) -> (forall s1 s0, k (with_view s1 s0) = k s0) -> wprog c (bind get k)
| wp_set_stopping : forall b, c_stop c = true -> wprog c (modify (fun s => set_stopping s b))
| wp_push_data : forall x, wprog c (push_data x)
| wp_pop_data : wprog c pop_data
| wp_top_data : wprog c top_data
| wp_swap_data : wprog c swap_data
| wp_rot_data : wprog c rot_data
| wp_over_data : c_over c = true -> wprog c over_data
| wp_loop_set_items : forall x, c_items c = true -> wprog c (loop_set_items x)
| wp_push_special : forall p, wprog c (push_special p)
| wp_pop_special : wprog c pop_special
| wp_get_var : forall a, wprog c (get_var a)
| wp_set_var : forall a v, negb (a =? R_STASH)%nat || c_stash c = true -> wprog c (set_var a v)
| wp_print : forall msg, wprog c (print msg)
| wp_push_return : forall f, c_frame c = true -> wprog c (push_return f)
| wp_pop_return : c_frame c = true -> wprog c pop_return
| wp_top_frame : c_frame c = true -> wprog c top_frame
| wp_push_loop : forall l, c_loop c = true -> wprog c (push_loop l)
| wp_pop_loop : c_loop c = true -> wprog c pop_loop
| wp_loop_next : c_loop c = true -> wprog c loop_next
| wp_init_local : forall i v, c_frame c = true -> wprog c (init_local i v)
| wp_set_ip : forall n, c_ip c = true -> wprog c (set_ip n)
| wp_next_ip : c_ip c = true -> wprog c next_ip.

Lemma wprog_mono c c' A (m : M A) : caps_le c c' -> wprog c m -> wprog c' m.
Proof.
  intros (L1 & L2 & L3 & L4 & L5 & L6 & L7) H. induction H; try (constructor; auto; fail).
  apply wp_set_var. destruct (negb (a =? R_STASH)%nat); [reflexivity|]. exact (L4 H).
Qed.

Lemma caps_le_all c : caps_le c all_caps.
Proof. repeat split. Qed.

(* a continuation that passes the test of [wp_get_bind] depends on the view alone *)
Definition view (s : state) := (ds s, loops s, ds_len (cx s), ls_len (cx s)).

Lemma view_determines B (k : state -> B) :
  (forall s1 s0, k (with_view s1 s0) = k s0) -> forall a b, view a = view b -> k a = k b.
Proof.
  intros H a b E. rewrite <- (H b a), <- (H b b). f_equal. unfold with_view.
  injection E as -> -> -> ->. reflexivity.
Qed.

Ltac head_of t := lazymatch t with ?f _ => head_of f | _ => t end.

Ltac wp_prim :=
  lazymatch goal with
  | |- wprog _ (ret _) => apply wp_ret
  | |- wprog _ (fail _ _) => apply wp_fail; discriminate
  | |- wprog _ unsup => apply wp_unsup
  | |- wprog _ (modify (fun s => set_stopping s _)) => apply wp_set_stopping; reflexivity
  | |- wprog _ (push_data _) => apply wp_push_data
  | |- wprog _ pop_data => apply wp_pop_data
  | |- wprog _ top_data => apply wp_top_data
  | |- wprog _ swap_data => apply wp_swap_data
  | |- wprog _ rot_data => apply wp_rot_data
  | |- wprog _ over_data => apply wp_over_data; reflexivity
  | |- wprog _ (loop_set_items _) => apply wp_loop_set_items; reflexivity
  | |- wprog _ (push_special _) => apply wp_push_special
  | |- wprog _ pop_special => apply wp_pop_special
  | |- wprog _ (get_var _) => apply wp_get_var
  | |- wprog _ (set_var _ _) => apply wp_set_var; first [ reflexivity | apply Bool.orb_true_r ]
  | |- wprog _ (print _) => apply wp_print
  | |- wprog _ (push_return _) => apply wp_push_return; reflexivity
  | |- wprog _ pop_return => apply wp_pop_return; reflexivity
  | |- wprog _ top_frame => apply wp_top_frame; reflexivity
  | |- wprog _ (push_loop _) => apply wp_push_loop; reflexivity
  | |- wprog _ pop_loop => apply wp_pop_loop; reflexivity
  | |- wprog _ loop_next => apply wp_loop_next; reflexivity
  | |- wprog _ (init_local _ _) => apply wp_init_local; reflexivity
  | |- wprog _ (set_ip _) => apply wp_set_ip; reflexivity
  | |- wprog _ next_ip => apply wp_next_ip; reflexivity
  end.

Create HintDb wpdb.

(* one step: a primitive, a known sub-program, or else open the head of the term *)
Ltac wp_step :=
  cbv beta zeta;
  first
    [ wp_prim
    | solve [ auto 2 with wpdb nocore ]
    | lazymatch goal with
      | |- wprog _ (bind get _) => apply wp_get_bind; [ intro | intros; reflexivity ]
      | |- wprog _ (bind _ _) => apply wp_bind; [ | intro ]
      | |- wprog _ (match ?x with _ => _ end) => destruct x
      | |- wprog _ ?m => let h := head_of m in unfold h
      end ].

Ltac wp_solve := repeat wp_step.

Lemma wp_pop_n c n : wprog c (pop_n n).
Proof. induction n; cbn [pop_n]; wp_solve. Qed.
#[export] Hint Resolve wp_pop_n : wpdb.

Lemma wp_push_all c l : wprog c (push_all l).
Proof. induction l; cbn [push_all]; wp_solve. Qed.
#[export] Hint Resolve wp_push_all : wpdb.

(* the only [fail] whose kind is computed: >bitstr reports EOverflow or EType *)
Lemma bitstr_concat_vec_kind : forall fuel v acc k p,
  bitstr_concat_vec fuel v acc = (Err k, p) -> k = EOverflow \/ k = EType.
Proof.
  induction fuel as [|f IH]; intros v acc k p H; cbn [bitstr_concat_vec] in H; [discriminate|].
  revert acc H. induction v as [|x r IHv]; intros acc H; [discriminate|].
  cbv beta iota fix in H. fold bitstr_concat_vec in H.
  destruct (value x) eqn:Ev; try (injection H as <- _; auto; fail).
  - destruct ((0 <=? _)%Z && (_ <=? 255)%Z); [ apply IHv in H; exact H | injection H as <- _; auto ].
  - apply IHv in H; exact H.
  - destruct (bitstr_concat_vec f _ _) as [[b2|k2|] p2] eqn:E2; cbv beta iota in H.
    + apply IHv in H; exact H.
    + injection H as <- _. eapply IH; eauto.
    + discriminate.
  - apply IHv in H; exact H.
Qed.

Lemma wp_bitstr_concat c x : wprog c (bitstr_concat x).
Proof.
  unfold bitstr_concat.
  destruct (value x); try (unfold type_not_supported; wp_solve; fail).
  destruct (bitstr_concat_vec 40 _ _) as [[b|k|] p] eqn:E; try (wp_solve; fail).
  apply wp_fail. apply bitstr_concat_vec_kind in E. destruct E as [-> | ->]; discriminate.
Qed.
#[export] Hint Resolve wp_bitstr_concat : wpdb.

Lemma wp_word_table fo : Forall (fun nw => wprog (caps_of (fst nw)) (snd nw)) (word_table fo).
Proof.
  (* the capabilities are computed from the names first, so that the rows no longer carry strings *)
  apply (proj1 (Forall_map (fun nw => (caps_of (fst nw), snd nw)) (fun cw => wprog (fst cw) (snd cw))
                           (word_table fo))).
  cbv [map fst snd word_table caps_of orb String.eqb Ascii.eqb Bool.eqb].
  repeat (apply Forall_cons; [ cbn [fst snd]; wp_solve | ]).
  apply Forall_nil.
Qed.

Lemma table_find_row (P : string -> M unit -> Prop) t name w :
  Forall (fun nw => P (fst nw) (snd nw)) t -> table_find t name = Some w -> P name w.
Proof.
  induction 1 as [|[n x] r H1 _ IH]; cbn [table_find]; [discriminate|].
  destruct (String.eqb n name) eqn:E; [|exact IH].
  intros [= <-]. apply String.eqb_eq in E. subst. exact H1.
Qed.

(* the uN/iN/fN words: a reader or a packer of a fixed size, the byte order fixed by the name or
   taken from the machine *)
Inductive sized_shape (fo : fops) : M unit -> Prop :=
| ss_read_unsigned n o : sized_shape fo (read_unsigned n o)
| ss_read_signed n o : sized_shape fo (read_signed n o)
| ss_read_float n o : sized_shape fo (read_float fo n o)
| ss_pack_int n o : sized_shape fo (pack_int n o)
| ss_pack_float n o : sized_shape fo (pack_float fo n o)
| ss_with_order f : (forall o, sized_shape fo (f o)) -> sized_shape fo (with_order f).
#[export] Hint Constructors sized_shape : core.

Lemma sized_word_shape : forall fo name w, sized_word fo name = Some w -> sized_shape fo w.
Proof.
  intros fo name w.
  (* [sized_word] tries its local function [go] (the integer words) at four sizes and [gof] (the
     float words) at two: keep them folded and go through the name tests of each once *)
  cbv delta [sized_word]. cbv beta. cbv zeta.
  match goal with |- context [match ?g "8"%string 8%Z with _ => _ end] => set (go := g) end.
  match goal with
  | |- context [match ?g "32"%string 32%Z with Some _ => _ | None => ?g "64"%string 64%Z end] => set (gof := g)
  end.
  assert (G : forall k n x, go k n = Some x -> sized_shape fo x).
  { intros k n x. unfold go. cbv beta.
    repeat match goal with |- context [if ?b then _ else _] => destruct b; [intros [= <-]; auto |] end.
    discriminate. }
  assert (F : forall k n x, gof k n = Some x -> sized_shape fo x).
  { intros k n x. unfold gof.
    repeat match goal with |- context [if ?b then _ else _] => destruct b; [intros [= <-]; auto |] end.
    discriminate. }
  clearbody go gof.
  repeat match goal with
         | |- context [match go ?k ?n with _ => _ end] =>
           let E := fresh in destruct (go k n) eqn:E; [intros [= <-]; exact (G _ _ _ E) | clear E]
         end.
  destruct (gof "32"%string 32%Z) eqn:E; [intros [= <-]; exact (F _ _ _ E) | apply F].
Qed.

(* these use no reserved capability *)
Lemma wp_sized_word c fo name w : sized_word fo name = Some w -> wprog c w.
Proof. intros H. apply sized_word_shape in H. induction H; wp_solve. Qed.

Theorem native_wprog fo w f : native_fn fo w = Some f -> wprog (caps_of w) f.
Proof.
  unfold native_fn. destruct (table_find (word_table fo) w) eqn:E.
  - intros [= <-]. exact (table_find_row (fun n m => wprog (caps_of n) m) _ _ _ (wp_word_table fo) E).
  - apply (wp_sized_word _ fo).
Qed.

Lemma exec_op_wprog (nf : natives) :
  (forall w f, nf w = Some f -> wprog all_caps f) -> forall ip0 op, wprog all_caps (exec_op nf ip0 op).
Proof.
  intros Hnf ip0 op. destruct op; cbn [exec_op]; try (wp_solve; fail).
  destruct (nf w) eqn:E; wp_solve. eapply Hnf; eauto.
Qed.

Corollary native_wprog_all fo w f : native_fn fo w = Some f -> wprog all_caps f.
Proof. intros H. exact (wprog_mono _ _ _ _ (caps_le_all _) (native_wprog fo w f H)). Qed.
