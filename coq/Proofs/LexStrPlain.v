(* String literals at the level of Lex::next and lex_string: a written literal, the print/read round
   trip, unterminated and unknown-escape errors; a literal without escapes denotes exactly its text. *)
From Xeh Require Import Model.Prelude Model.Cell Model.Lexer Model.Fmt.
From Xeh Require Import Proofs.LexLoc Proofs.LexBasic Proofs.LexStr Proofs.LexNext Proofs.LexAll.
Local Open Scope string_scope.

Lemma lex_next_string l curly qo items qc rest :
  is_opener curly qo -> is_closer curly qc -> forallb (sitem_ok curly) items = true ->
  lrest l = qo ++ sitems_text items ++ qc ++ rest ->
  let p' := lpos l + String.length qo + String.length (sitems_text items) + String.length qc in
  lex_next l = (if next_is_ws_or_end rest then TLit (CStr (sitems_value items))
                else TErr PExpectWs (lpos l) p',
                mklex rest p' (lpos l) (llen l)).
Proof.
  intros Ho Hc Hok Hl p'. rewrite (lex_next_opener l curly qo _ Ho Hl).
  rewrite lex_str_items; [|exact Hok|exact Hc|lia]. cbv zeta. cbn [append].
  destruct (next_is_ws_or_end rest); reflexivity.
Qed.

Lemma lex_next_string_unterminated l curly qo items :
  is_opener curly qo -> forallb (sitem_ok curly) items = true -> lrest l = qo ++ sitems_text items ->
  let p' := lpos l + String.length qo + String.length (sitems_text items) in
  lex_next l = (TErr PUntermStr p' (llen l), mklex "" p' (lpos l) (llen l)).
Proof.
  intros Ho Hok Hl p'. rewrite (lex_next_opener l curly qo _ Ho Hl).
  rewrite lex_str_unterminated; [|exact Hok|lia]. reflexivity.
Qed.

Lemma lex_next_printed_string l s b rest : fmt_str_body s = Some b ->
  lrest l = dq ++ b ++ dq ++ rest ->
  let p' := lpos l + String.length b + 2 in
  lex_next l = (if next_is_ws_or_end rest then TLit (CStr s) else TErr PExpectWs (lpos l) p',
                mklex rest p' (lpos l) (llen l)).
Proof.
  intros H Hl p'. destruct (fmt_str_body_items s b H false) as (I1 & I2 & I3).
  rewrite <- I2 in Hl.
  rewrite (lex_next_string l false dq (print_items s) dq rest eq_refl (or_introl eq_refl) I1 Hl).
  cbv zeta. rewrite I2, I3. subst p'. change (String.length dq) with 1.
  replace (lpos l + 1 + String.length b + 1) with (lpos l + String.length b + 2) by lia. reflexivity.
Qed.

Lemma print_read_str_then : forall s b rest, fmt_str_body s = Some b ->
  next_is_ws_or_end rest = true ->
  let txt := dq ++ b ++ dq in
  lex_string (txt ++ rest) =
  (TLit (CStr s), 0, String.length txt) :: lex_from rest (String.length txt) (String.length (txt ++ rest)).
Proof.
  intros s b rest H Hr txt. rewrite lex_string_from.
  assert (Hl : lrest (mklex (txt ++ rest) 0 0 (String.length (txt ++ rest))) = dq ++ b ++ dq ++ rest).
  { cbn [lrest]. subst txt. rewrite !app_assoc_s. reflexivity. }
  pose proof (lex_next_printed_string _ s b rest H Hl) as Hn. cbv zeta in Hn. rewrite Hr in Hn.
  cbn [lpos llen Nat.add] in Hn.
  assert (El : String.length txt = String.length b + 2).
  { subst txt. rewrite !app_length_s. change (String.length dq) with 1. lia. }
  rewrite El. exact (lex_from_step _ _ _ _ _ _ _ _ Hn eq_refl).
Qed.

(* Every valid UTF-8 body that contains no backslash, no straight quote and - only when the literal
   was opened by a curly quote - no closing curly quote is a written body whose value is itself. *)

Fixpoint plain_text (curly : bool) (s : string) : bool :=
  match s with
  | "" => true
  | String c r =>
    negb (byte_of c =? 92)%N && negb (byte_of c =? 34)%N && negb (curly && starts_rdq s) && plain_text curly r
  end.

(* the items of a text without escapes: three-byte groups at E2, single bytes elsewhere *)
Fixpoint text_items (s : string) : list sitem :=
  match s with
  | "" => []
  | String c r =>
    if (byte_of c =? 226)%N then
      match r with
      | String c1 (String c2 r') => SE2 c1 c2 :: text_items r'
      | _ => SByte c :: text_items r
      end
    else SByte c :: text_items r
  end.

Lemma text_items_spec : forall curly n s need, String.length s <= n ->
  valid_go s need = true -> plain_text curly s = true ->
  forallb (sitem_ok curly) (text_items s) = true /\ sitems_text (text_items s) = s /\ sitems_value (text_items s) = s.
Proof.
  intros curly. induction n as [|n IH]; intros s need Hn Hv Hp.
  - destruct s; [repeat split|cbn [String.length] in Hn; lia].
  - destruct s as [|c r]; [repeat split|]. cbn [String.length] in Hn. apply le_S_n in Hn.
    cbn [plain_text] in Hp. apply andb_prop in Hp. destruct Hp as [Hp Hpr].
    apply andb_prop in Hp. destruct Hp as [Hp H3]. apply andb_prop in Hp. destruct Hp as [H1 H2].
    cbn [text_items]. destruct (byte_of c =? 226)%N eqn:E.
    + (* a three-byte character: one item *)
      destruct (valid_e2 c r need Hv E) as (-> & c1 & c2 & r' & -> & C1 & C2 & Hv').
      cbn [plain_text] in Hpr. apply andb_prop in Hpr. destruct Hpr as [_ Hpr].
      cbn [plain_text] in Hpr. apply andb_prop in Hpr. destruct Hpr as [_ Hpr].
      cbn [String.length] in Hn.
      destruct (IH r' 0 (Nat.lt_le_incl _ _ (Nat.lt_le_incl _ _ Hn)) Hv' Hpr) as (I1 & I2 & I3).
      cbn [forallb sitem_ok sitems_text sitems_value sitem_text sitem_value append]. rewrite I1, I2, I3.
      rewrite (cont_plain c1 C1), (cont_plain c2 C2). cbn [andb].
      cbn [starts_rdq] in H3. rewrite E in H3. cbn [andb] in H3. rewrite H3.
      apply byte_eqb in E. subst c. repeat split.
    + destruct (valid_go_tail c r need Hv) as [k Hk].
      destruct (IH r k Hn Hk Hpr) as (I1 & I2 & I3).
      cbn [forallb sitem_ok sitems_text sitems_value sitem_text sitem_value append]. rewrite I1, I2, I3.
      repeat split. unfold plain_byte. cbv zeta. rewrite E, H1, H2. reflexivity.
Qed.

Lemma text_items_ok curly s : valid_utf8 s = true -> plain_text curly s = true ->
  forallb (sitem_ok curly) (text_items s) = true /\ sitems_text (text_items s) = s /\ sitems_value (text_items s) = s.
Proof. intros Hv Hp. exact (text_items_spec curly (String.length s) s 0 (le_n _) Hv Hp). Qed.

Lemma lex_next_plain_string l curly qo s qc rest :
  is_opener curly qo -> is_closer curly qc -> valid_utf8 s = true -> plain_text curly s = true ->
  lrest l = qo ++ s ++ qc ++ rest ->
  let p' := lpos l + String.length qo + String.length s + String.length qc in
  lex_next l = (if next_is_ws_or_end rest then TLit (CStr s) else TErr PExpectWs (lpos l) p',
                mklex rest p' (lpos l) (llen l)).
Proof.
  intros Ho Hc Hv Hp Hl p'. destruct (text_items_ok curly s Hv Hp) as (I1 & I2 & I3).
  rewrite <- I2 in Hl. rewrite (lex_next_string l curly qo (text_items s) qc rest Ho Hc I1 Hl).
  cbv zeta. rewrite I2, I3. reflexivity.
Qed.

Lemma lex_string_plain_string s : valid_utf8 s = true -> plain_text false s = true ->
  let txt := dq ++ s ++ dq in
  lex_string txt = [(TLit (CStr s), 0, String.length txt); (TEnd, String.length txt, String.length txt)].
Proof.
  intros Hv Hp txt. apply lex_string_one_token; [reflexivity|].
  assert (Hl : lrest (lex_new txt) = dq ++ s ++ dq ++ "") by reflexivity.
  rewrite (lex_next_plain_string (lex_new txt) false dq s dq "" eq_refl (or_introl eq_refl) Hv Hp Hl).
  cbv zeta. unfold lex_new. cbn [next_is_ws_or_end lpos llen]. f_equal. f_equal.
  subst txt. rewrite !app_length_s. lia.
Qed.

(* no backslash and no straight quote: the only condition on the body of a straight-opened
   literal without escapes; curly quotes of either kind (any number of them) are allowed *)
Fixpoint no_backslash_no_quote (s : string) : bool :=
  match s with
  | "" => true
  | String c r => negb (byte_of c =? 92)%N && negb (byte_of c =? 34)%N && no_backslash_no_quote r
  end.

Lemma plain_text_straight : forall s, plain_text false s = no_backslash_no_quote s.
Proof.
  induction s as [|c r IH]; [reflexivity|]. cbn [plain_text no_backslash_no_quote andb negb].
  rewrite IH, andb_true_r. reflexivity.
Qed.

Lemma plain_text_curly_straight : forall s, plain_text true s = true -> plain_text false s = true.
Proof.
  induction s as [|c r IH]; [reflexivity|]. cbn [plain_text andb negb]. intros H.
  apply andb_prop in H. destruct H as [H Hr]. apply andb_prop in H. destruct H as [H _].
  rewrite H, (IH Hr). reflexivity.
Qed.

Lemma no_backslash_no_quote_app a b :
  no_backslash_no_quote (a ++ b) = no_backslash_no_quote a && no_backslash_no_quote b.
Proof.
  induction a as [|c a IH]; [reflexivity|]. cbn [append no_backslash_no_quote]. rewrite IH.
  rewrite !andb_assoc. reflexivity.
Qed.

Lemma valid_utf8_app a b : valid_utf8 a = true -> valid_utf8 b = true -> valid_utf8 (a ++ b) = true.
Proof. unfold valid_utf8. intros Ha Hb. rewrite (valid_go_app a 0 b Ha). exact Hb. Qed.

(* a straight-opened literal whose only closing quote is a curly one is unterminated *)
Lemma lex_string_straight_curly_close s : valid_utf8 s = true -> no_backslash_no_quote s = true ->
  let txt := dq ++ s ++ rdq in
  lex_string txt = [(TErr PUntermStr (String.length txt) (String.length txt), 0, String.length txt)].
Proof.
  intros Hv Hp txt.
  assert (Hv' : valid_utf8 (s ++ rdq) = true) by (apply valid_utf8_app; [exact Hv|reflexivity]).
  assert (Hp' : plain_text false (s ++ rdq) = true).
  { rewrite plain_text_straight, no_backslash_no_quote_app, Hp. reflexivity. }
  destruct (text_items_ok false (s ++ rdq) Hv' Hp') as (I1 & I2 & I3).
  assert (Hl : lrest (lex_new txt) = dq ++ sitems_text (text_items (s ++ rdq))) by (rewrite I2; reflexivity).
  pose proof (lex_next_string_unterminated (lex_new txt) false dq _ eq_refl I1 Hl) as Hn.
  cbv zeta in Hn. rewrite I2 in Hn. unfold lex_new in Hn. cbn [lpos llen] in Hn.
  change (0 + String.length dq + String.length (s ++ rdq)) with (String.length txt) in Hn.
  rewrite lex_string_from, (lex_from_final txt 0 (String.length txt) _ _ Hn eq_refl). reflexivity.
Qed.

Definition rdq_item : sitem := SE2 (ascii_of_N 128) (ascii_of_N 157).

Lemma rdq_item_spec :
  sitem_text rdq_item = rdq /\ sitem_value rdq_item = rdq /\
  sitem_ok false rdq_item = true /\ sitem_ok true rdq_item = false /\
  (forall i, sitem_ok true i = true -> sitem_ok false i = true) /\
  (forall i, sitem_ok false i = true -> i <> rdq_item -> sitem_ok true i = true).
Proof.
  split; [reflexivity|]. split; [reflexivity|]. split; [reflexivity|]. split; [reflexivity|]. split.
  - intros [c|c1 c2|c]; cbn [sitem_ok andb negb]; auto.
    intros H. apply andb_prop in H. destruct H as [H _]. rewrite H. reflexivity.
  - intros [c|c1 c2|c]; cbn [sitem_ok andb negb]; auto.
    intros H Hne. rewrite andb_true_r in H. rewrite H. cbn [andb].
    destruct ((byte_of c1 =? 128)%N && (byte_of c2 =? 157)%N) eqn:E; [|reflexivity].
    exfalso. apply Hne. apply andb_prop in E. destruct E as [E1 E2].
    apply byte_eqb in E1. apply byte_eqb in E2. subst c1 c2. reflexivity.
Qed.

Lemma no_backslash_no_quote_spec : forall s,
  no_backslash_no_quote s = true <->
  (forall i c, String.get i s = Some c -> c <> "\"%char /\ c <> """"%char).
Proof.
  induction s as [|c r IH]; cbn [no_backslash_no_quote].
  - split; [intros _ i x H; destruct i; discriminate|reflexivity].
  - split.
    + intros H. apply andb_prop in H. destruct H as [H Hr]. apply andb_prop in H. destruct H as [H1 H2].
      intros i x Hg. destruct i as [|i]; cbn [String.get] in Hg.
      * injection Hg as <-. split; intros ->; discriminate.
      * exact (proj1 IH Hr i x Hg).
    + intros H. apply andb_true_intro. split; [apply andb_true_intro; split|].
      * destruct (byte_of c =? 92)%N eqn:E; [|reflexivity].
        apply byte_eqb in E. destruct (H 0 c eq_refl) as [A _]. exfalso. apply A. exact E.
      * destruct (byte_of c =? 34)%N eqn:E; [|reflexivity].
        apply byte_eqb in E. destruct (H 0 c eq_refl) as [_ A]. exfalso. apply A. exact E.
      * apply (proj2 IH). intros i x Hg. exact (H (S i) x Hg).
Qed.
