(* UnwindLists.v (C10): list facts used by the unwinding proofs: prefixes kept by appending,
   by updates above the prefix and by truncations; suffixes kept by stack operations above a
   mark; [lastn]; [purge_dict]; [take_cond]. *)
From Xeh Require Import Model.Prelude Model.Bits Model.Codec Model.Cell Model.Lexer Model.Fmt
                        Model.Vm Model.Words Model.Build.
From Xeh Require Import Proofs.VmFrame Proofs.VmLimits.
Local Notation length := List.length.

Definition prefix_of {A} (p l : list A) : Prop := exists e, l = p ++ e.
Definition suffix_of {A} (p l : list A) : Prop := exists v, l = v ++ p.

Lemma prefix_refl {A} (l : list A) : prefix_of l l.
Proof. exists []. rewrite app_nil_r. reflexivity. Qed.

Lemma prefix_length {A} (p l : list A) : prefix_of p l -> length p <= length l.
Proof. intros [e ->]. rewrite app_length. lia. Qed.

Lemma prefix_app {A} (p l x : list A) : prefix_of p l -> prefix_of p (l ++ x).
Proof. intros [e ->]. exists (e ++ x). rewrite app_assoc. reflexivity. Qed.

Lemma list_set_app_r {A} (p e : list A) i v :
  length p <= i -> list_set (p ++ e) i v = p ++ list_set e (i - length p) v.
Proof.
  revert i. induction p as [|x p IH]; intros i H; cbn [app length] in *.
  - rewrite Nat.sub_0_r. reflexivity.
  - destruct i as [|i]; [lia|]. cbn [list_set Nat.sub]. rewrite IH by lia. reflexivity.
Qed.

Lemma prefix_list_set {A} (p l : list A) i v :
  prefix_of p l -> length p <= i -> prefix_of p (list_set l i v).
Proof. intros [e ->] H. rewrite list_set_app_r by exact H. eexists. reflexivity. Qed.

Lemma prefix_firstn {A} (p l : list A) n :
  prefix_of p l -> length p <= n -> prefix_of p (firstn n l).
Proof.
  intros [e ->] H. rewrite firstn_app.
  rewrite firstn_all2 by exact H. eexists. reflexivity.
Qed.

Lemma prefix_firstn_eq {A} (p l : list A) : prefix_of p l -> firstn (length p) l = p.
Proof.
  intros [e ->]. rewrite firstn_app, Nat.sub_diag, firstn_all. cbn [firstn]. apply app_nil_r.
Qed.

Lemma prefix_removelast {A} (p d : list A) x :
  prefix_of p (d ++ [x]) -> length p <= length d -> prefix_of p d.
Proof.
  intros [e E] H. exists (firstn (length d - length p) e).
  assert (F : firstn (length d) (d ++ [x]) = d).
  { rewrite firstn_app, Nat.sub_diag, firstn_all. cbn [firstn]. apply app_nil_r. }
  rewrite <- F at 1. rewrite E. rewrite firstn_app. rewrite firstn_all2 by exact H. reflexivity.
Qed.

Lemma prefix_nth {A} (p l : list A) i : prefix_of p l -> i < length p -> nth_error l i = nth_error p i.
Proof. intros [e ->] H. apply nth_error_app1. exact H. Qed.

Lemma nth_error_ext_len {A} (l l' : list A) :
  length l' = length l -> (forall i x, nth_error l i = Some x -> nth_error l' i = Some x) -> l' = l.
Proof.
  revert l'. induction l as [|a l IH]; intros l' HL H; destruct l' as [|a' l']; cbn [length] in HL; try lia.
  - reflexivity.
  - f_equal.
    + specialize (H 0 a eq_refl). cbn in H. congruence.
    + apply IH; [lia|]. intros i x Hx. apply (H (S i) x). exact Hx.
Qed.

Lemma Forall_firstn {A} (P : A -> Prop) : forall n l, Forall P l -> Forall P (firstn n l).
Proof.
  induction n as [|n IH]; intros l H; cbn [firstn]; [constructor|].
  destruct l; [constructor|]. inversion H; subst. constructor; auto.
Qed.

Lemma Forall_skipn {A} (P : A -> Prop) : forall n l, Forall P l -> Forall P (skipn n l).
Proof.
  induction n as [|n IH]; intros l H; cbn [skipn]; [exact H|].
  destruct l; [constructor|]. inversion H; subst. auto.
Qed.

Lemma suffix_refl {A} (l : list A) : suffix_of l l.
Proof. exists []. reflexivity. Qed.

Lemma suffix_length {A} (p l : list A) : suffix_of p l -> length p <= length l.
Proof. intros [e ->]. rewrite app_length. lia. Qed.

Lemma suffix_cons {A} (h : list A) c r : suffix_of h r -> suffix_of h (c :: r).
Proof. intros [v ->]. exists (c :: v). reflexivity. Qed.

Lemma suffix_app {A} (h x r : list A) : suffix_of h r -> suffix_of h (x ++ r).
Proof. intros [v ->]. exists (x ++ v). rewrite app_assoc. reflexivity. Qed.

Lemma suffix_tail {A} (h : list A) c r : suffix_of h (c :: r) -> length h <= length r -> suffix_of h r.
Proof.
  intros [v E] H. destruct v as [|c' v]; cbn [app] in E.
  - subst h. cbn [length] in H. lia.
  - injection E as _ ->. exists v. reflexivity.
Qed.

Lemma suffix_skipn {A} (h l : list A) n :
  suffix_of h l -> n + length h <= length l -> suffix_of h (skipn n l).
Proof.
  intros [v ->] H. rewrite app_length in H. rewrite skipn_app.
  replace (n - length v) with 0 by lia. cbn [skipn]. eexists. reflexivity.
Qed.

Lemma lastn_length_eq {A} (h l : list A) : suffix_of h l -> lastn (length h) l = h.
Proof.
  intros [v ->]. unfold lastn. rewrite app_length.
  replace (length v + length h - length h) with (length v) by lia.
  rewrite skipn_app, Nat.sub_diag, skipn_all. reflexivity.
Qed.

Lemma lastn_suffix {A} (h l : list A) n :
  suffix_of h l -> length h <= n -> suffix_of h (lastn n l).
Proof.
  intros Hs H. unfold lastn. apply suffix_skipn; [exact Hs|].
  pose proof (suffix_length _ _ Hs). lia.
Qed.

Lemma lastn_0 {A} (l : list A) : lastn 0 l = [].
Proof. unfold lastn. rewrite Nat.sub_0_r. apply skipn_all. Qed.

Lemma swap_remove_last_spec : forall l lst l', swap_remove_last l = Some (lst, l') -> l = l' ++ [lst].
Proof.
  induction l as [|x r IH]; intros lst l' H; cbn [swap_remove_last] in H; [discriminate|].
  destruct r as [|y r'].
  - injection H as <- <-. reflexivity.
  - destruct (swap_remove_last (y :: r')) as [[lst0 r0]|] eqn:E; [|discriminate].
    injection H as <- <-. rewrite (IH _ _ eq_refl). reflexivity.
Qed.

(* swap_remove(i) above a prefix: the last element takes the place of element i *)
Lemma swap_remove_prefix {A} (p d' : list A) i lst :
  prefix_of p (d' ++ [lst]) -> length p <= i -> i <= length d' ->
  prefix_of p (if (i =? length d')%nat then d' else list_set d' i lst).
Proof.
  intros Hp Hi Hlt. assert (Hd : prefix_of p d') by (eapply prefix_removelast; [exact Hp|lia]).
  destruct (i =? length d')%nat; [exact Hd|apply prefix_list_set; assumption].
Qed.

Lemma purge_dict_prefix : forall fuel p d i,
  prefix_of p d -> length p <= i -> prefix_of p (purge_dict fuel d i).
Proof.
  induction fuel as [|f IH]; intros p d i Hp Hi; cbn [purge_dict]; [exact Hp|].
  destruct (nth_error d i) as [e|] eqn:En; [|exact Hp].
  assert (Hlt : i < length d) by (apply nth_error_Some; congruence).
  destruct (dent e); [apply IH; [exact Hp|lia]| |];
    (destruct (swap_remove_last d) as [[lst d']|] eqn:Es; [|exact Hp];
     apply swap_remove_last_spec in Es; subst d; rewrite app_length in Hlt; cbn [length] in Hlt;
     assert (K : prefix_of p (if (i =? length d')%nat then d' else list_set d' i lst))
       by (apply swap_remove_prefix; [exact Hp|exact Hi|lia]);
     destruct (i =? length d')%nat; apply IH; assumption).
Qed.

Lemma take_cond_Forall (P : flow -> Prop) : forall l f l',
  take_cond l = Some (f, l') -> Forall P l -> P f /\ Forall P l' /\ length l = S (length l').
Proof.
  induction l as [|x r IH]; intros f l' H HF; cbn [take_cond] in H; [discriminate|].
  inversion HF as [|? ? Hx Hr]; subst.
  destruct x; try discriminate;
    try (injection H as <- <-; repeat split; assumption).
  destruct (take_cond r) as [[g r']|] eqn:E; [|discriminate].
  injection H as <- <-. destruct (IH _ _ eq_refl Hr) as (A & B & C).
  repeat split; [exact A|constructor; assumption|cbn [length]; lia].
Qed.

Lemma set_fun_locals_Forall (P : flow -> Prop) ls :
  (forall d st l0, P (FFun d st l0) -> P (FFun d st ls)) ->
  forall l, Forall P l -> Forall P (set_fun_locals l ls) /\ length (set_fun_locals l ls) = length l.
Proof.
  intros HP. induction l as [|x r IH]; intros HF; cbn [set_fun_locals]; [split; [constructor|reflexivity]|].
  inversion HF as [|? ? Hx Hr]; subst. destruct (IH Hr) as [A B].
  destruct x; cbn [length]; (split; [constructor; eauto|congruence]).
Qed.

Lemma find_fun_Forall (P : flow -> Prop) : forall l d st ls,
  find_fun l = Some (d, st, ls) -> Forall P l -> P (FFun d st ls).
Proof.
  induction l as [|x r IH]; intros d st ls H HF; cbn [find_fun] in H; [discriminate|].
  inversion HF as [|? ? Hx Hr]; subst.
  destruct x; try (eapply IH; eassumption).
  injection H as <- <- <-. exact Hx.
Qed.
