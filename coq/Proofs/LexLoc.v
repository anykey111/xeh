(* token_location: exact characterisation of the mirror against the byte-walk
   specification, the UTF-8 validity predicate, and the corrected C17(a) statement. *)
From Xeh Require Import Model.Prelude Model.Cell Model.Lexer.
From Coq Require Import ZifyBool ZifyNat ZifyN.
Local Open Scope string_scope.

(* structural UTF-8 validity: every lead byte is followed by exactly the number of
   continuation bytes its width announces, and no continuation byte stands alone.
   (Real UTF-8 is stricter: every Rust [str] satisfies this predicate.) *)
Fixpoint valid_go (s : string) (need : nat) : bool :=
  match s with
  | "" => Nat.eqb need 0
  | String c r =>
    match need with
    | O => negb (is_cont c) && valid_go r (utf8_width c - 1)
    | S k => is_cont c && valid_go r k
    end
  end.
Definition valid_utf8 (s : string) : bool := valid_go s 0.

(* the end of the last character as the char_indices loop sees it: position of
   the last non-continuation byte plus the width its lead byte announces *)
Fixpoint lce_go (s : string) (i acc : nat) : nat :=
  match s with
  | "" => acc
  | String c r => lce_go r (S i) (if is_cont c then acc else i + utf8_width c)
  end.
Definition last_char_end (s : string) : nat := lce_go s 0 1.

Lemma utf8_width_pos c : 1 <= utf8_width c.
Proof. unfold utf8_width. repeat match goal with |- context [if ?b then _ else _] => destruct b end; lia. Qed.

Lemma nl_width c : is_nl c = true -> utf8_width c = 1.
Proof.
  unfold is_nl, utf8_width. intros H.
  destruct (byte_of c <? 128)%N eqn:E; [reflexivity|]. lia.
Qed.

Lemma nl_not_cont c : is_nl c = true -> is_cont c = false.
Proof. unfold is_nl, is_cont. intros H. lia. Qed.

Lemma sls_go_ge : forall s i p acc, p <= i -> spec_line_start_go s i p acc = acc.
Proof.
  intros [|c r] i p acc H; cbn [spec_line_start_go]; [reflexivity|].
  replace (i <? p)%nat with false by lia. reflexivity.
Qed.

Lemma sls_go_range : forall s i p acc,
  spec_line_start_go s i p acc = acc \/ S i <= spec_line_start_go s i p acc.
Proof.
  induction s as [|c r IH]; intros i p acc; cbn [spec_line_start_go]; [left; reflexivity|].
  destruct (i <? p)%nat; [|left; reflexivity].
  destruct (is_nl c).
  - right. destruct (IH (S i) p (S i)) as [E|E]; lia.
  - destruct (IH (S i) p acc) as [E|E]; [left; assumption|right; lia].
Qed.

Lemma chars_go_ge : forall s i a p, p <= i -> spec_chars_go s i a p = 0.
Proof.
  induction s as [|c r IH]; intros i a p H; cbn [spec_chars_go]; [reflexivity|].
  rewrite IH by lia. replace (i <? p)%nat with false by lia.
  rewrite andb_false_r. reflexivity.
Qed.

Lemma spec_line_0 s : spec_line s 0 = 0.
Proof. destruct s; reflexivity. Qed.

Lemma spec_line_cons c r i p : i < p ->
  spec_line (String c r) (p - i) = (if (byte_of c =? 10)%N then 1 else 0) + spec_line r (p - S i).
Proof. intros H. replace (p - i) with (S (p - S i)) by lia. reflexivity. Qed.

Lemma tup4 {A B C D} (a a' : A) (b b' : B) (c c' : C) (d d' : D) :
  a = a' -> b = b' -> c = c' -> d = d' -> (a, b, c, d) = (a', b', c', d').
Proof. intros -> -> -> ->. reflexivity. Qed.

Lemma tokloc_go_spec : forall s i p start endp line col,
  start <= i -> start <= p ->
  tokloc_go s i p start endp line col =
  (line + spec_line s (p - i),
   (if (spec_line_start_go s i p start =? start)%nat then col else 0)
     + spec_chars_go s i (spec_line_start_go s i p start) p,
   spec_line_start_go s i p start,
   if (spec_line_end_go s i p <? i + String.length s)%nat
   then spec_line_end_go s i p else lce_go s i endp).
Proof.
  induction s as [|c r IH]; intros i p start endp line col Hi Hp.
  - cbn [tokloc_go spec_line_start_go spec_chars_go spec_line_end_go lce_go String.length].
    rewrite Nat.eqb_refl. replace (i <? i + 0)%nat with false by lia.
    destruct (p - i); cbn [spec_line]; rewrite !Nat.add_0_r; reflexivity.
  - cbn [tokloc_go]. cbv zeta.
    change ((128 <=? byte_of c)%N && (byte_of c <? 192)%N) with (is_cont c).
    change ((byte_of c =? 10)%N || (byte_of c =? 13)%N) with (is_nl c).
    cbn [spec_line_start_go spec_chars_go spec_line_end_go lce_go String.length].
    replace (i + S (String.length r)) with (S i + String.length r) by lia.
    destruct (is_cont c) eqn:Ec.
    + (* continuation byte *)
      assert (En : is_nl c = false).
      { destruct (is_nl c) eqn:En; [|reflexivity]. apply nl_not_cont in En. congruence. }
      rewrite En, andb_false_r. cbn [negb]. rewrite andb_false_r.
      rewrite IH by lia.
      destruct (i <? p)%nat eqn:Eip.
      * rewrite spec_line_cons by lia.
        replace (byte_of c =? 10)%N with false by (unfold is_cont in Ec; lia).
        reflexivity.
      * rewrite !sls_go_ge by lia.
        replace (p - i) with 0 by lia. replace (p - S i) with 0 by lia.
        rewrite !spec_line_0. reflexivity.
    + cbn [negb]. rewrite andb_true_r.
      destruct (is_nl c) eqn:En.
      * (* line break *)
        rewrite (nl_width c En). replace (i + 1) with (S i) by lia.
        replace (start <=? p)%nat with true by lia. cbn [andb]. rewrite andb_true_r.
        replace (p <? S i)%nat with (p <=? i)%nat by lia.
        destruct (p <=? i)%nat eqn:Epi.
        -- replace (i <? p)%nat with false by lia.
           replace (p - i) with 0 by lia. rewrite spec_line_0, Nat.eqb_refl.
           rewrite andb_false_r, chars_go_ge by lia.
           replace (i <? S i + String.length r)%nat with true by lia.
           apply tup4; lia.
        -- replace (i <? p)%nat with true by lia.
           rewrite IH by lia. rewrite spec_line_cons by lia. rewrite ?andb_true_r.
           destruct (sls_go_range r (S i) p (S i)) as [E|E].
           ++ rewrite E, Nat.eqb_refl.
              replace (S i =? start)%nat with false by lia.
              replace (S i <=? i)%nat with false by lia. cbn [andb].
              apply tup4; [| |reflexivity|reflexivity].
              ** destruct (byte_of c =? 10)%N; lia.
              ** reflexivity.
           ++ set (st := spec_line_start_go r (S i) p (S i)) in *.
              replace (st =? start)%nat with false by lia.
              replace (st <=? i)%nat with false by lia. cbn [andb].
              apply tup4; [| |reflexivity|reflexivity].
              ** destruct (byte_of c =? 10)%N; lia.
              ** destruct (st =? S i)%nat; reflexivity.
      * (* ordinary lead byte *)
        rewrite andb_false_r. rewrite IH by lia.
        replace (byte_of c =? 10)%N with false by (unfold is_nl in En; lia).
        destruct (i <? p)%nat eqn:Eip.
        -- rewrite spec_line_cons by lia.
           replace (byte_of c =? 10)%N with false by (unfold is_nl in En; lia).
           destruct (sls_go_range r (S i) p start) as [E|E].
           ++ rewrite E, Nat.eqb_refl.
              replace (start <=? i)%nat with true by lia. cbn [andb].
              apply tup4; lia.
           ++ set (st := spec_line_start_go r (S i) p start) in *.
              replace (st =? start)%nat with false by lia.
              replace (st <=? i)%nat with false by lia. cbn [andb].
              reflexivity.
        -- rewrite !sls_go_ge by lia. rewrite Nat.eqb_refl, andb_false_r.
           replace (p - i) with 0 by lia. replace (p - S i) with 0 by lia.
           rewrite !spec_line_0. reflexivity.
Qed.

Theorem token_location_exact : forall s p,
  token_location s p =
  (spec_line s p, spec_col s p, spec_line_start s p,
   if (spec_line_end s p <? String.length s)%nat then spec_line_end s p else last_char_end s).
Proof.
  intros s p. unfold token_location. rewrite tokloc_go_spec by lia.
  rewrite Nat.sub_0_r. unfold spec_col, spec_line_start, spec_line_end, last_char_end.
  cbn [Nat.add]. destruct (spec_line_start_go s 0 p 0 =? 0)%nat; reflexivity.
Qed.

Lemma sle_go_le : forall s i p, spec_line_end_go s i p <= i + String.length s.
Proof.
  induction s as [|c r IH]; intros i p; cbn [spec_line_end_go String.length]; [lia|].
  destruct ((p <=? i)%nat && is_nl c); [lia|]. specialize (IH (S i) p). lia.
Qed.

(* the statement of C17(a) holds for (s, p) exactly when the line of p is closed by a line
   break or the last character of the text ends where the text ends *)
Theorem token_location_spec_iff : forall s p,
  token_location s p = (spec_line s p, spec_col s p, spec_line_start s p, spec_line_end s p)
  <-> (spec_line_end s p < String.length s \/ last_char_end s = String.length s).
Proof.
  intros s p. rewrite token_location_exact.
  pose proof (sle_go_le s 0 p) as Hle. fold (spec_line_end s p) in Hle. cbn [Nat.add] in Hle.
  destruct (spec_line_end s p <? String.length s)%nat eqn:E.
  - split; [intros _; left; lia|reflexivity].
  - split.
    + intros H. right. injection H as H. lia.
    + intros [H|H]; [lia|]. rewrite H. f_equal. lia.
Qed.

Lemma lce_go_valid : forall s i need,
  valid_go s need = true -> lce_go s i (i + need) = i + String.length s.
Proof.
  induction s as [|c r IH]; intros i need H; cbn [valid_go lce_go String.length] in *.
  - apply Nat.eqb_eq in H. lia.
  - destruct need as [|k].
    + apply andb_prop in H. destruct H as [H1 H2].
      destruct (is_cont c); [discriminate|].
      pose proof (utf8_width_pos c).
      replace (i + utf8_width c) with (S i + (utf8_width c - 1)) by lia.
      rewrite IH by assumption. lia.
    + apply andb_prop in H. destruct H as [H1 H2]. rewrite H1.
      replace (i + S k) with (S i + k) by lia. rewrite IH by assumption. lia.
Qed.

Lemma last_char_end_valid s : s <> "" -> valid_utf8 s = true -> last_char_end s = String.length s.
Proof.
  intros Hs Hv. destruct s as [|c r]; [congruence|].
  unfold last_char_end, valid_utf8 in *. cbn [valid_go lce_go String.length] in *.
  apply andb_prop in Hv. destruct Hv as [H1 H2].
  destruct (is_cont c); [discriminate|].
  pose proof (utf8_width_pos c).
  replace (0 + utf8_width c) with (1 + (utf8_width c - 1)) by lia.
  rewrite lce_go_valid by assumption. lia.
Qed.

(* corrected C17(a): the stated equation for valid UTF-8 texts (every Rust str) *)
Theorem token_location_spec_weak : forall s p,
  valid_utf8 s = true -> s <> EmptyString -> p <= String.length s ->
  token_location s p = (spec_line s p, spec_col s p, spec_line_start s p, spec_line_end s p).
Proof.
  intros s p Hv Hs _. apply token_location_spec_iff. right.
  apply last_char_end_valid; assumption.
Qed.

(* the unrestricted statement is false: a lone lead byte *)
Theorem token_location_spec_counterexample :
  let s := String (ascii_of_N 195) "" in
  s <> EmptyString /\ 0 <= String.length s /\
  token_location s 0 <> (spec_line s 0, spec_col s 0, spec_line_start s 0, spec_line_end s 0).
Proof. cbv zeta. split; [discriminate|]. split; [lia|]. vm_compute. discriminate. Qed.
