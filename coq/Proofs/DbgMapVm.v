(* DbgMapVm.v (C17): what the machine does to the fields the error location is computed from.

   [frm s s']: code, debug map, sources, input lexers, last token, nested contexts are the
   same and the current context differs at most in its instruction pointer.  Every program
   built from the logging primitives ([wl], hence every native word and [exec_op]) relates
   its start and end state by [frm] (and keeps the dictionary and the flow stack: [mframe]).
   The only other change a machine step makes is the in-place patch of the late-bound cell
   at ip; [vmrel] is the closure of frame steps and in-place patches (of any cell: all that
   is used of a patch is that it keeps the length of the code).

   No native word touches the instruction pointer ([kcx]: the whole current context is
   kept), and [exec_op] moves it only as its last action, which cannot fail; so a failing
   [fetch_and_run] leaves [ip] at the failing instruction ([far_err_ip]). *)
From Xeh Require Import Model.Prelude Model.Bits Model.Codec Model.Cell Model.Lexer Model.Fmt
                        Model.Vm Model.Words.
From Xeh Require Import Proofs.VmFrame Proofs.VmLimits.

Definition ctx_noip (c : ctx) : ctx :=
  mkctx (ds_len c) (cs_len c) (rs_len c) (fs_len c) (ls_len c) (ss_ptr c) (di_len c) 0 (cmode c).

Definition frm (s s' : state) : Prop :=
  code s' = code s /\ dbg s' = dbg s /\ sources s' = sources s /\ input s' = input s /\
  last_tok s' = last_tok s /\ nested s' = nested s /\ ctx_noip (cx s') = ctx_noip (cx s).

Lemma frm_refl s : frm s s.
Proof. repeat split. Qed.

Lemma frm_trans a b c : frm a b -> frm b c -> frm a c.
Proof.
  intros (A1 & A2 & A3 & A4 & A5 & A6 & A7) (B1 & B2 & B3 & B4 & B5 & B6 & B7).
  repeat split; congruence.
Qed.

Lemma ctx_noip_mode c c' : ctx_noip c' = ctx_noip c -> cmode c' = cmode c.
Proof. intros H. apply (f_equal cmode) in H. exact H. Qed.
Lemma ctx_noip_cs c c' : ctx_noip c' = ctx_noip c -> cs_len c' = cs_len c.
Proof. intros H. apply (f_equal cs_len) in H. exact H. Qed.
Lemma ctx_noip_ds c c' : ctx_noip c' = ctx_noip c -> ds_len c' = ds_len c.
Proof. intros H. apply (f_equal ds_len) in H. exact H. Qed.
Lemma ctx_noip_di c c' : ctx_noip c' = ctx_noip c -> di_len c' = di_len c.
Proof. intros H. apply (f_equal di_len) in H. exact H. Qed.
Lemma ctx_noip_fs c c' : ctx_noip c' = ctx_noip c -> fs_len c' = fs_len c.
Proof. intros H. apply (f_equal fs_len) in H. exact H. Qed.

Definition P_frm {A} (m : M A) : Prop := forall s, res_all (frm s) (m s).

(* [frm] and, besides, the dictionary and the flow stack, which no machine step writes *)
Definition mframe (s s' : state) : Prop := frm s s' /\ dict s' = dict s /\ flows s' = flows s.

Lemma mframe_refl s : mframe s s.
Proof. split; [apply frm_refl|split; reflexivity]. Qed.

Lemma mframe_trans a b c : mframe a b -> mframe b c -> mframe a c.
Proof.
  intros (A1 & A2 & A3) (B1 & B2 & B3). split; [eapply frm_trans; eassumption|split; congruence].
Qed.

Lemma res_all_impl {A} (P Q : state -> Prop) (r : res A) :
  (forall s, P s -> Q s) -> res_all P r -> res_all Q r.
Proof. intros H. destruct r; cbn [res_all]; auto. Qed.

Ltac mframe_prim :=
  let s := fresh "s" in
  intro s; destruct_state s;
  cbv [push_data pop_data top_data swap_data rot_data over_data push_return pop_return top_frame
       push_loop pop_loop loop_next loop_set_items push_special pop_special get_var set_var
       init_local set_ip next_ip print modify ret fail unsup panic
       add_rstep limit_reached data_depth ip set_ip_raw
       set_ds set_rs set_loops set_special set_heap set_cx set_rlog set_out set_stopping
       dict heap code dbg sources input ds rs flows loops special cx nested meter insn_limit
       heap_limit stack_limit rlog out last_tok stopping];
  break_matches;
  cbv [res_all]; try exact I;
  cbv [mframe frm ctx_noip dict heap code dbg sources input ds rs flows loops special cx nested meter
       insn_limit heap_limit stack_limit rlog out last_tok stopping
       ds_len cs_len rs_len fs_len ls_len ss_ptr di_len cip cmode];
  repeat split; reflexivity.

Lemma wl_mframe : forall A (m : M A), wl m -> forall s, res_all (mframe s) (m s).
Proof.
  induction 1; try (mframe_prim; fail).
  - intro s. unfold bind. specialize (IHwl s).
    destruct (m s) as [a s1 | k p s1 | |]; cbn [res_all] in *; auto.
    specialize (H1 a s1). destruct (f a s1); cbn [res_all] in *; auto;
      eapply mframe_trans; eauto.
  - intro s. unfold bind, get. apply H0.
Qed.

Lemma wl_frm : forall A (m : M A), wl m -> P_frm m.
Proof. intros A m H s. eapply res_all_impl; [|exact (wl_mframe A m H s)]. intros s' F. exact (proj1 F). Qed.

Inductive vmrel : state -> state -> Prop :=
| vmrel_frm : forall s s', frm s s' -> vmrel s s'
| vmrel_patch : forall s i op, vmrel s (set_code s (list_set (code s) i op))
| vmrel_trans : forall a b c, vmrel a b -> vmrel b c -> vmrel a c.

Lemma vmrel_refl s : vmrel s s.
Proof. apply vmrel_frm, frm_refl. Qed.

Lemma vmrel_keeps : forall s s', vmrel s s' ->
  length (code s') = length (code s) /\ dbg s' = dbg s /\ sources s' = sources s /\
  input s' = input s /\ last_tok s' = last_tok s /\ nested s' = nested s /\
  ctx_noip (cx s') = ctx_noip (cx s).
Proof.
  induction 1 as [s s' (A1 & A2 & A3 & A4 & A5 & A6 & A7) | s i op | a b c _ IH1 _ IH2].
  - rewrite A1. repeat split; assumption.
  - cbn [set_code code dbg sources input last_tok nested cx]. rewrite list_set_length. repeat split.
  - destruct IH1 as (A1 & A2 & A3 & A4 & A5 & A6 & A7). destruct IH2 as (B1 & B2 & B3 & B4 & B5 & B6 & B7).
    repeat split; congruence.
Qed.

Lemma mframe_set_meter s z : mframe s (set_meter s z).
Proof. repeat split. Qed.

(* one instruction and [run] stay inside any preorder that contains the frame steps
   and the patch of the late-bound cell at ip *)
Section Steps.
  Variable nf : natives.
  Hypothesis Hnf : forall w f, nf w = Some f -> wl f.
  Variable R : state -> state -> Prop.
  Hypothesis R_refl : forall s, R s s.
  Hypothesis R_trans : forall a b c, R a b -> R b c -> R a c.
  Hypothesis R_frame : forall s s', mframe s s' -> R s s'.
  Hypothesis R_patch : forall s name e, nth_error (code s) (ip s) = Some (OResolve name) ->
    R s (set_code s (list_set (code s) (ip s) (resolve_op e))).

  Lemma far_steps : forall s, res_all (R s) (fetch_and_run nf s).
  Proof.
    intros s. pose proof (far_spec_holds nf s) as FS.
    assert (X : forall s1 i o, R s s1 -> res_all (R s) (exec_op nf i o s1)).
    { intros s1 i o H1. eapply res_all_impl; [|apply (wl_mframe _ _ (wl_exec_op nf Hnf i o))].
      intros s2 F. exact (R_trans _ _ _ H1 (R_frame _ _ F)). }
    assert (P : forall name e z, nth_error (code s) (ip s) = Some (OResolve name) ->
                  R s (set_meter (set_code (set_meter s (meter s + 1)%Z)
                                           (list_set (code s) (ip s) (resolve_op e))) z)).
    { intros name e z Hn. eapply R_trans; [apply (R_patch s name e Hn)|]. apply R_frame. repeat split. }
    inversion FS as [ | | op Hm Hn Hr Hx | name Hm Hn Hd | name e Hm Hn Hd Hm2 | name e Hm Hn Hd Hm2 Hx ];
      cbn [res_all]; try exact I.
    - apply R_refl.
    - apply X. apply R_frame, mframe_set_meter.
    - apply R_frame, mframe_set_meter.
    - apply (P name e (meter s + 1)%Z Hn).
    - apply X. apply (P name e _ Hn).
  Qed.

  Lemma run_steps : forall fuel s,
    match run nf fuel s with Some r => res_all (R s) r | None => True end.
  Proof.
    induction fuel as [|f IH]; intros s; cbn [run]; [exact I|].
    destruct (is_running s); [|apply R_refl].
    pose proof (far_steps s) as H.
    destruct (fetch_and_run nf s) as [u s1|k p s1| |]; cbn [res_all] in *; try exact I; try exact H.
    specialize (IH s1). destruct (run nf f s1) as [r|]; [|exact I].
    eapply res_all_impl; [|exact IH]. intros s2 H2. eapply R_trans; eassumption.
  Qed.
End Steps.

Section WithTable.
  Variable nf : natives.
  Hypothesis Hnf : forall w f, nf w = Some f -> wl f.

  Lemma exec_op_frm : forall ip0 op s, res_all (frm s) (exec_op nf ip0 op s).
  Proof. intros. apply wl_frm. apply wl_exec_op. exact Hnf. Qed.

  Lemma far_vmrel : forall s, res_all (vmrel s) (fetch_and_run nf s).
  Proof.
    apply (far_steps nf Hnf vmrel vmrel_refl vmrel_trans); [intros s s' F; apply vmrel_frm, F|].
    intros s name e _. apply vmrel_patch.
  Qed.

  Lemma run_vmrel : forall fuel s,
    match run nf fuel s with Some r => res_all (vmrel s) r | None => True end.
  Proof.
    apply (run_steps nf Hnf vmrel vmrel_refl vmrel_trans); [intros s s' F; apply vmrel_frm, F|].
    intros s name e _. apply vmrel_patch.
  Qed.

  Lemma next_vmrel : forall s, res_all (vmrel s) (next nf s).
  Proof. intros s. unfold next. destruct (is_running s); [apply far_vmrel|apply vmrel_refl]. Qed.
End WithTable.

Lemma mframe_add_rstep r s : mframe s (add_rstep r s).
Proof. unfold add_rstep. destruct (rlog s); repeat split. Qed.

Lemma reverse_changes_mframe : forall r s, res_all (mframe s) (reverse_changes r s).
Proof.
  intros r s. destruct r; unfold reverse_changes;
    try (repeat match goal with
                | |- context [match ?x with _ => _ end] => destruct x
                end; cbn [res_all]; try exact I; repeat split; fail).
  pose proof (wl_mframe _ _ wl_pop_data s) as H1.
  destruct (pop_data s); cbn [res_all] in *; auto.
Qed.

Lemma log_pop_mframe s r s' : log_pop s = Some (r, s') -> mframe s s'.
Proof.
  unfold log_pop. destruct (rlog s) as [[|r0 l]|]; try discriminate.
  intros E. injection E as <- <-. repeat split.
Qed.

Lemma rnext_loop_mframe : forall fuel s, res_all (mframe s) (rnext_loop fuel s).
Proof.
  induction fuel as [|f IH]; intros s; cbn [rnext_loop]; [apply mframe_refl|].
  destruct (log_pop s) as [[r s']|] eqn:E; [|apply mframe_refl].
  pose proof (log_pop_mframe _ _ _ E) as H'.
  assert (G : forall r0, res_all (mframe s) (match reverse_changes r0 s' with
                                             | ROk _ s'' => rnext_loop f s''
                                             | e => e
                                             end)).
  { intros r0. pose proof (reverse_changes_mframe r0 s') as H1.
    destruct (reverse_changes r0 s') as [u s2|k p s2| |]; cbn [res_all] in *; auto.
    - specialize (IH s2). destruct (rnext_loop f s2); cbn [res_all] in *; auto;
        (eapply mframe_trans; [exact H'|eapply mframe_trans; eassumption]).
    - eapply mframe_trans; eassumption. }
  destruct r; try apply G.
  cbn [res_all]. eapply mframe_trans; [exact H'|apply mframe_add_rstep].
Qed.

Theorem rnext_mframe : forall s, res_all (mframe s) (rnext s).
Proof.
  intros s. unfold rnext. destruct (log_pop s) as [[r s']|] eqn:E; [|apply rnext_loop_mframe].
  pose proof (log_pop_mframe _ _ _ E) as H'.
  pose proof (reverse_changes_mframe r s') as H1.
  destruct (reverse_changes r s') as [u s2|k p s2| |]; cbn [res_all] in *; auto.
  - pose proof (rnext_loop_mframe (S (log_len s2)) s2) as H2.
    destruct (rnext_loop (S (log_len s2)) s2); cbn [res_all] in *; auto;
      (eapply mframe_trans; [exact H'|eapply mframe_trans; eassumption]).
  - eapply mframe_trans; eassumption.
Qed.

Theorem rnext_frm : forall s, res_all (frm s) (rnext s).
Proof. intros s. eapply res_all_impl; [|apply rnext_mframe]. intros s' F. exact (proj1 F). Qed.

Lemma rnext_vmrel s : res_all (vmrel s) (rnext s).
Proof. eapply res_all_impl; [|apply rnext_frm]. apply vmrel_frm. Qed.

Lemma machine_vmrel (P : state -> Prop) fo s : (forall s', vmrel s s' -> P s') ->
  res_all P (fetch_and_run (native_fn fo) s) /\
  res_all P (next (native_fn fo) s) /\
  (forall fuel, match run (native_fn fo) fuel s with Some r => res_all P r | None => True end) /\
  res_all P (rnext s).
Proof.
  intros H. split; [|split; [|split]].
  - eapply res_all_impl; [exact H|apply far_vmrel, native_wl].
  - eapply res_all_impl; [exact H|apply next_vmrel, native_wl].
  - intros fuel. pose proof (run_vmrel (native_fn fo) (native_wl fo) fuel s) as V.
    destruct (run (native_fn fo) fuel s); [|exact I]. eapply res_all_impl; [exact H|exact V].
  - eapply res_all_impl; [exact H|apply rnext_vmrel].
Qed.

Definition kcx {A} (m : M A) : Prop := forall s, res_all (fun s' => cx s' = cx s) (m s).

Lemma kcx_bind A B (m : M A) (f : A -> M B) : kcx m -> (forall a, kcx (f a)) -> kcx (bind m f).
Proof.
  intros Hm Hf s. unfold bind. specialize (Hm s).
  destruct (m s) as [a s1|k p s1| |]; cbn [res_all] in *; auto.
  specialize (Hf a s1). destruct (f a s1); cbn [res_all] in *; auto; congruence.
Qed.

Ltac kcx_prim :=
  let s := fresh "s" in
  intro s; destruct_state s;
  cbv [push_data pop_data top_data swap_data rot_data over_data push_return pop_return top_frame
       push_loop pop_loop loop_next loop_set_items push_special pop_special get_var set_var
       init_local print modify ret fail unsup
       add_rstep limit_reached data_depth
       set_ds set_rs set_loops set_special set_heap set_cx set_rlog set_out set_stopping
       dict heap code dbg sources input ds rs flows loops special cx nested meter insn_limit
       heap_limit stack_limit rlog out last_tok stopping];
  break_matches;
  cbv [res_all cx]; try exact I; reflexivity.

(* every primitive but [set_ip] and [next_ip] *)
Lemma wprog_kcx c A (m : M A) : c_ip c = false -> wprog c m -> kcx m.
Proof.
  intros Hc H. induction H; try congruence; try (kcx_prim; fail).
  - apply kcx_bind; assumption.
  - intro s. unfold bind, get. apply H0.
Qed.

Definition noip_caps : caps := mkcaps true true true true true true false.

Ltac kcx_solve := apply (wprog_kcx noip_caps); [ reflexivity | wp_solve ].

Lemma kcx_pop_n : forall n, kcx (pop_n n).
Proof. intro n. kcx_solve. Qed.

Lemma kcx_push_all : forall l, kcx (push_all l).
Proof. intro l. kcx_solve. Qed.

Theorem native_kcx : forall fo w f, native_fn fo w = Some f -> kcx f.
Proof. intros fo w f H. exact (wprog_kcx (caps_of w) _ _ eq_refl (native_wprog fo w f H)). Qed.

Definition eip {A} (m : M A) : Prop :=
  forall s, match m s with RErr _ _ s' => ip s' = ip s | _ => True end.

Lemma kcx_eip A (m : M A) : kcx m -> eip m.
Proof.
  intros H s. specialize (H s). destruct (m s); cbn [res_all] in *; auto.
  unfold ip. rewrite H. reflexivity.
Qed.

Lemma eip_bind A B (m : M A) (f : A -> M B) : kcx m -> (forall a, eip (f a)) -> eip (bind m f).
Proof.
  intros Hm Hf s. unfold bind. specialize (Hm s).
  destruct (m s) as [a s1|k p s1| |]; cbn [res_all] in *; auto.
  - specialize (Hf a s1). destruct (f a s1); auto. unfold ip in *. rewrite Hf, Hm. reflexivity.
  - unfold ip. rewrite Hm. reflexivity.
Qed.

Lemma eip_set_ip n : eip (set_ip n).
Proof. intros s. exact I. Qed.
Lemma eip_next_ip : eip next_ip.
Proof. intros s. exact I. Qed.
Lemma eip_fail A k p : eip (@fail A k p).
Proof. intros s. reflexivity. Qed.
Lemma eip_unsup A : eip (@unsup A).
Proof. intros s. exact I. Qed.

Ltac eip_step :=
  cbv beta zeta;
  first
    [ apply eip_set_ip
    | apply eip_next_ip
    | apply eip_fail
    | apply eip_unsup
    | lazymatch goal with
      | |- eip (bind _ _) => apply eip_bind; [ kcx_solve | intro ]
      | |- eip (match ?x with _ => _ end) => destruct x
      end ].

Lemma eip_exec_op fo ip0 op : eip (exec_op (native_fn fo) ip0 op).
Proof.
  destruct op; cbn [exec_op]; try (repeat eip_step; fail).
  destruct (native_fn fo w) eqn:E; [|apply eip_unsup].
  apply eip_bind; [exact (native_kcx fo w _ E)|intro; apply eip_next_ip].
Qed.

Theorem far_err_ip : forall fo s k p s',
  fetch_and_run (native_fn fo) s = RErr k p s' -> ip s' = ip s.
Proof.
  intros fo s k p s' H. pose proof (far_spec_holds (native_fn fo) s) as FS. rewrite H in FS.
  inversion FS as [ Hm | | op Hm Hn Hr Hx | name Hm Hn Hd | name e Hm Hn Hd Hm2 | name e Hm Hn Hd Hm2 Hx ];
    subst; try reflexivity.
  - pose proof (eip_exec_op fo (ip s) op (set_meter s (meter s + 1)%Z)) as X.
    first [rewrite Hx in X | rewrite <- Hx in X]. exact X.
  - pose proof (eip_exec_op fo (ip s) (resolve_op e)
                 (set_meter (set_code (set_meter s (meter s + 1)%Z)
                                      (list_set (code s) (ip s) (resolve_op e))) (meter s + 1 + 1)%Z)) as X.
    first [rewrite Hx in X | rewrite <- Hx in X]. exact X.
Qed.

(* a failing [run] failed in one instruction step, taken from a running state reached by
   successful steps; ip stays at that instruction *)
Theorem run_err_step : forall nf fuel s k p s',
  run nf fuel s = Some (RErr k p s') ->
  exists n s1, steps nf n s = Some s1 /\ is_running s1 = true /\ fetch_and_run nf s1 = RErr k p s'.
Proof.
  intros nf. induction fuel as [|f IH]; intros s k p s' H; cbn [run] in H; [discriminate|].
  destruct (is_running s) eqn:Er; [|discriminate].
  destruct (fetch_and_run nf s) as [u s1|k1 p1 s1| |] eqn:E; try discriminate.
  - destruct (IH _ _ _ _ H) as (n & s2 & H1 & H2 & H3).
    exists (S n), s2. cbn [steps]. rewrite E. auto.
  - injection H as <- <- <-. exists 0, s. cbn [steps]. auto.
Qed.
