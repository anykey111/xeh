(* VmLimitsRunQuiet.v (C14): in every native word the writes to the heap, to the output, to the
   stopping flag and to the loop stack come AFTER the last push.  Hence an instruction that
   fails with a limit error leaves these four exactly as they were: only the data stack, the
   special stack, the reverse log, the meter and the resolution of a [late] cell can differ. *)
From Xeh Require Import Model.Prelude Model.Bits Model.Codec Model.Cell Model.Lexer Model.Fmt
                        Model.Vm Model.Words Model.Struct Model.Build Model.Boot.
From Xeh Require Import Proofs.VmPrim Proofs.VmFrame Proofs.VmLimits Proofs.VmLimitsRunBase Proofs.VmLimitsRunStep
                        Proofs.VmLimitsRunFail.
Local Notation length := List.length.

#[local] Arguments Z.add : simpl never.
#[local] Arguments Z.sub : simpl never.
#[local] Arguments Z.mul : simpl never.
#[local] Arguments Z.ltb : simpl never.
#[local] Arguments Z.leb : simpl never.
#[local] Arguments Z.eqb : simpl never.
#[local] Arguments Z.of_nat : simpl never.
#[local] Arguments Z.to_nat : simpl never.

Definition hol (s : state) := (heap s, out s, stopping s, loops s).

(* programs that never write these fields *)
Definition P_pure {A} (m : M A) : Prop := forall s, res_all (fun s' => hol s' = hol s) (m s).
(* programs whose limit failures leave these fields alone *)
Definition P_q {A} (m : M A) : Prop := forall s p s', m s = RErr ELimit p s' -> hol s' = hol s.

Lemma q_of_nolim A (m : M A) : P_nolim m -> P_q m.
Proof. intros H s p s' E. exfalso. eapply H. exact E. Qed.
Lemma q_of_pure A (m : M A) : P_pure m -> P_q m.
Proof. intros H s p s' E. specialize (H s). rewrite E in H. exact H. Qed.
Lemma q_bind A B (m : M A) (f : A -> M B) : P_pure m -> (forall a, P_q (f a)) -> P_q (bind m f).
Proof.
  intros Hm Hf s p s' E. unfold bind in E. specialize (Hm s).
  destruct (m s) as [a s1|k q s1| |]; try discriminate; cbn [res_all] in Hm.
  - rewrite <- Hm. eapply Hf. exact E.
  - injection E as _ _ <-. exact Hm.
Qed.
Lemma q_get_bind B (k : state -> M B) : (forall s0, P_q (k s0)) -> P_q (bind get k).
Proof. intros H s p s' E. unfold bind, get in E. eapply H. exact E. Qed.

Lemma pure_ret A (a : A) : P_pure (ret a).
Proof. intros s. reflexivity. Qed.
Lemma pure_fail A k p : P_pure (@fail A k p).
Proof. intros s. reflexivity. Qed.
Lemma pure_unsup A : P_pure (@unsup A).
Proof. intros s. exact I. Qed.
Lemma pure_bind A B (m : M A) (f : A -> M B) : P_pure m -> (forall a, P_pure (f a)) -> P_pure (bind m f).
Proof.
  intros Hm Hf s. unfold bind. specialize (Hm s).
  destruct (m s) as [a s1|k q s1| |]; cbn [res_all] in *; auto.
  specialize (Hf a s1). destruct (f a s1); cbn [res_all] in *; auto; congruence.
Qed.
Lemma pure_get_bind B (k : state -> M B) : (forall s0, P_pure (k s0)) -> P_pure (bind get k).
Proof. intros H s. unfold bind, get. apply H. Qed.

(* the fields a program may work on without writing any of the four *)
Definition pure_field (o : option fld) : bool :=
  match o with None | Some FDs | Some FSpecial => true | _ => false end.

Lemma did_hol o s s' : did o s s' -> pure_field o = true -> hol s' = hol s.
Proof.
  intros H Ho. pose proof (did_shell _ _ _ H) as E. destruct (did_others _ _ _ H) as (_ & _ & L & _ & Hp & _).
  unfold hol. rewrite L, Hp by (intros ->; discriminate Ho).
  rewrite (f_equal out E : out s' = out s), (f_equal stopping E : stopping s' = stopping s). reflexivity.
Qed.

Lemma pure_runs o A (m : M A) : runs o m -> pure_field o = true -> P_pure m.
Proof.
  intros H Ho s. specialize (H s). destruct (m s); cbn [res_all]; try exact I.
  - exact (did_hol _ _ _ H Ho).
  - destruct H as (-> & _). reflexivity.
Qed.

Lemma pure_push_data c : P_pure (push_data c).
Proof.
  intros s. pose proof (push_data_did c s) as H. destruct (push_data c s); cbn [res_all]; try exact I.
  - exact (did_hol _ _ _ H eq_refl).
  - destruct H as (-> & _). reflexivity.
Qed.

Lemma pure_over_data : P_pure over_data.
Proof.
  intros s. destruct (over_data_eq s) as [->|[b ->]]; [reflexivity|].
  pose proof (pure_push_data b (add_rstep ROverData s)) as H.
  assert (E : hol (add_rstep ROverData s) = hol s) by (destruct (add_rstep_log ROverData s) as [l ->]; reflexivity).
  destruct (push_data b _); cbn [res_all] in *; congruence.
Qed.

Create HintDb puredb.

Ltac pure_step :=
  cbv beta zeta;
  first
    [ apply pure_ret | apply pure_fail | apply pure_unsup
    | (eapply pure_runs; [apply prim_runs; constructor|reflexivity])
    | apply pure_push_data | apply pure_over_data
    | solve [ auto 2 with puredb nocore ]
    | lazymatch goal with
      | |- P_pure (bind get _) => apply pure_get_bind; intro
      | |- P_pure (bind _ _) => apply pure_bind; [ | intro ]
      | |- P_pure (match ?x with _ => _ end) => destruct x
      | |- P_pure (set_var _ _) => fail
      | |- P_pure (print _) => fail
      | |- P_pure (loop_set_items _) => fail
      | |- P_pure (modify _) => fail
      | |- P_pure ?m => let h := head_of m in unfold h
      end ].
Ltac pure_solve := repeat pure_step.
Ltac nolim_solve := repeat nolim_step.

Lemma pure_pop_n : forall n, P_pure (pop_n n).
Proof. induction n; cbn [pop_n]; pure_solve. Qed.
#[export] Hint Resolve pure_pop_n : puredb.
Lemma pure_push_all : forall l, P_pure (push_all l).
Proof. induction l; cbn [push_all]; pure_solve. Qed.
#[export] Hint Resolve pure_push_all : puredb.
Lemma nolim_pop_n : forall n, P_nolim (pop_n n).
Proof. induction n; cbn [pop_n]; nolim_solve. Qed.
#[export] Hint Resolve nolim_pop_n : nolimdb.

Lemma nolim_bitstr_concat : forall c, P_nolim (bitstr_concat c).
Proof.
  intro c. unfold bitstr_concat.
  destruct (value c); try (unfold type_not_supported; nolim_solve; fail).
  destruct (bitstr_concat_vec 40 _ _) as [[b|k|] p] eqn:E; try (nolim_solve; fail).
  apply nolim_fail. apply bitstr_concat_vec_kind in E. destruct E as [-> | ->]; discriminate.
Qed.
#[export] Hint Resolve nolim_bitstr_concat : nolimdb.

(* One pass along the program: while the part already passed is pure, go on; at the first part
   that writes, the rest must be free of pushes. *)
Ltac q_solve :=
  cbv beta zeta;
  lazymatch goal with
  | |- P_q (bind get _) => apply q_get_bind; intro; q_solve
  | |- P_q (bind _ _) =>
    first [ apply q_bind; [ solve [ pure_solve ] | intro; q_solve ]
          | solve [ apply q_of_nolim; nolim_solve ] ]
  | |- P_q (match ?x with _ => _ end) => destruct x; q_solve
  | |- P_q ?m =>
    first [ solve [ apply q_of_pure; pure_step ]
          | solve [ apply q_of_nolim; nolim_step ]
          | let h := head_of m in unfold h; q_solve ]
  end.

Lemma q_word_table : forall fo, Forall (fun nw => P_q (snd nw)) (word_table fo).
Proof.
  intro fo. unfold word_table.
  repeat (apply Forall_cons; [ cbn [snd]; q_solve | ]).
  apply Forall_nil.
Qed.

(* the uN / iN / fN families are built from five readers and writers *)
Lemma q_sized_word : forall fo name w, sized_word fo name = Some w -> P_q w.
Proof.
  intros fo name w H.
  assert (Q1 : forall n o, P_q (read_unsigned n o)) by (intros; q_solve).
  assert (Q2 : forall n o, P_q (read_signed n o)) by (intros; q_solve).
  assert (Q3 : forall n o, P_q (read_float fo n o)) by (intros; q_solve).
  assert (Q4 : forall n o, P_q (pack_int n o)) by (intros; q_solve).
  assert (Q5 : forall n o, P_q (pack_float fo n o)) by (intros; q_solve).
  assert (QO : forall f, (forall o, P_q (f o)) -> P_q (with_order f))
    by (intros f Hf; unfold with_order; apply q_bind; [pure_solve|exact Hf]).
  unfold sized_word in H. cbv beta zeta in H.
  repeat match type of H with
         | context [if ?b then _ else _] =>
           destruct b; cbv beta iota in H; [ injection H as <-; auto | ]
         end.
  discriminate.
Qed.

Theorem native_q : forall fo w f, native_fn fo w = Some f -> P_q f.
Proof.
  intros fo w f H. unfold native_fn in H.
  destruct (table_find (word_table fo) w) eqn:E.
  - injection H as <-. exact (table_find_row (fun _ m => P_q m) _ _ _ (q_word_table fo) E).
  - eapply q_sized_word; eauto.
Qed.

Theorem limit_failure_hol : forall fo s p s',
  fetch_and_run (native_fn fo) s = RErr ELimit p s' ->
  heap s' = heap s /\ out s' = out s /\ stopping s' = stopping s /\ loops s' = loops s.
Proof.
  intros fo s p s' H.
  assert (G : hol s' = hol s).
  { apply (limit_failure_keeps fo (fun s s' => hol s' = hol s)) with (5 := H); auto.
    intros w f s0 p0 s0' E Ef. exact (native_q fo w f E _ _ _ Ef). }
  unfold hol in G. injection G as G1 G2 G3 G4. auto.
Qed.
