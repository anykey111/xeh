(* Completeness of the literal grammars: every text after an opening bar / an opening quote falls
   under exactly one of the cases the literal theorems describe. *)
From Xeh Require Import Model.Prelude Model.Cell Model.Lexer Model.Fmt.
From Xeh Require Import Proofs.LexLoc Proofs.LexBasic Proofs.LexNum Proofs.LexStr Proofs.LexMoreBits.
Local Open Scope string_scope.

Lemma hex_digit_char c x : hex_digit c = Some x -> (x < 16)%N /\ exists up, digit_char up x = c.
Proof.
  unfold hex_digit. destruct (digit_val c) as [v|] eqn:E; [|discriminate].
  destruct (v <? 16)%N eqn:L; [|discriminate]. intros H. injection H as <-.
  split; [lia|]. exact (proj2 (digit_val_inv c v E)).
Qed.

Lemma bits_decompose : forall s, exists items, forallb bitem_ok items = true /\
  ((exists rest, s = bitems_text items ++ "|" ++ rest) \/
   s = bitems_text items \/
   (exists c more, bits_bad_char c = true /\ s = bitems_text items ++ String c more)).
Proof.
  induction s as [|c r IH].
  - exists []. split; [reflexivity|]. right. left. reflexivity.
  - destruct IH as (items & Hok & Hcase).
    assert (Ext : forall i, bitem_ok i = true -> bitem_char i = c ->
              exists items0, forallb bitem_ok items0 = true /\
                ((exists rest, String c r = bitems_text items0 ++ "|" ++ rest) \/
                 String c r = bitems_text items0 \/
                 (exists c0 more, bits_bad_char c0 = true /\ String c r = bitems_text items0 ++ String c0 more))).
    { intros i Hi Hc. exists (i :: items). cbn [forallb bitems_text]. rewrite Hi, Hok, Hc. split; [reflexivity|].
      destruct Hcase as [(rest & ->)|[->|(c0 & more & Hb & ->)]].
      - left. exists rest. reflexivity.
      - right. left. reflexivity.
      - right. right. exists c0, more. split; [exact Hb|reflexivity]. }
    destruct (hex_digit c) as [x|] eqn:Eh.
    { destruct (hex_digit_char c x Eh) as (Hx & up & Hup).
      apply (Ext (BHex up x)); [cbn [bitem_ok]; lia|exact Hup]. }
    destruct (is_ws c) eqn:Ew; [apply (Ext (BSpace c)); [exact Ew|reflexivity]|].
    destruct (byte_of c =? 46)%N eqn:E1.
    { apply (Ext BDot); [reflexivity|]. apply byte_eqb in E1. subst c. reflexivity. }
    destruct (byte_of c =? 120)%N eqn:E2.
    { apply (Ext BX); [reflexivity|]. apply byte_eqb in E2. subst c. reflexivity. }
    exists []. split; [reflexivity|]. cbn [bitems_text append].
    destruct (byte_of c =? 124)%N eqn:E3.
    + left. exists r. apply byte_eqb in E3. subst c. reflexivity.
    + right. right. exists c, r. split; [|reflexivity].
      unfold bits_bad_char. rewrite Eh, Ew, E1, E2, E3. reflexivity.
Qed.

(* how a string body can stop; [curly]: the literal was opened by a curly quote *)
Inductive str_tail (curly : bool) : string -> Prop :=
| tail_close q rest : is_closer curly q -> str_tail curly (q ++ rest)
| tail_end : str_tail curly ""
| tail_backslash_end : str_tail curly "\"
| tail_bad_escape r c2 r2 :
    take_char r = Some (c2, r2) -> (forall c, escape_value c <> None -> c2 <> String c "") ->
    str_tail curly (String "\" r).

Lemma str_decompose : forall curly n s need, String.length s <= n -> valid_go s need = true ->
  exists items tl, forallb (sitem_ok curly) items = true /\ s = sitems_text items ++ tl /\ str_tail curly tl.
Proof.
  intros curly. induction n as [|n IH]; intros s need Hn Hv.
  - destruct s; [|cbn [String.length] in Hn; lia]. exists [], "". repeat split. constructor.
  - destruct s as [|c r]; [exists [], ""; repeat split; constructor|]. cbn [String.length] in Hn.
    assert (Ext : forall i s' k, String c r = sitem_text i ++ s' -> sitem_ok curly i = true ->
              valid_go s' k = true ->
              exists items tl, forallb (sitem_ok curly) items = true /\ String c r = sitems_text items ++ tl /\ str_tail curly tl).
    { intros i s' k E Hi Hk. destruct (IH s' k) as (items & tl & I1 & I2 & I3); [|exact Hk|].
      - apply (f_equal String.length) in E. rewrite app_length_s in E. cbn [String.length] in E.
        destruct i; cbn [sitem_text String.length] in E; lia.
      - exists (i :: items), tl. cbn [forallb sitems_text]. rewrite Hi, I1. split; [reflexivity|].
        split; [|exact I3]. rewrite E, I2, app_assoc_s. reflexivity. }
    clear IH Hn.
    cbn [valid_go] in Hv.
    destruct need as [|k].
    2:{ (* inside a character: a continuation byte *)
        apply andb_prop in Hv. destruct Hv as [Hc Hv].
        apply (Ext (SByte c) r k eq_refl (cont_plain c Hc) Hv). }
    apply andb_prop in Hv. destruct Hv as [Hnc Hv].
    destruct (byte_of c =? 92)%N eqn:E92.
    { (* backslash *)
      apply byte_eqb in E92. subst c.
      change (utf8_width (ascii_of_N 92) - 1) with 0 in Hv.
      destruct r as [|x r'].
      - exists [], "\". repeat split. constructor.
      - destruct (escape_value x) as [v|] eqn:Ex.
        + pose proof (escape_ascii x v Ex) as Hx. destruct (ascii_width x Hx) as [Wx Cx].
          cbn [valid_go] in Hv. rewrite Cx, Wx in Hv. cbn [negb andb Nat.sub] in Hv.
          apply (Ext (SEsc x) r' 0 eq_refl); [cbn [sitem_ok]; rewrite Ex; reflexivity|exact Hv].
        + exists [], (String (ascii_of_N 92) (String x r')). split; [reflexivity|]. split; [reflexivity|].
          change (ascii_of_N 92) with "\"%char.
          destruct (take_char (String x r')) as [[c2 r2]|] eqn:Et; [|discriminate].
          apply (tail_bad_escape curly (String x r') c2 r2 Et).
          intros c0 Hc0 E. subst c2. unfold take_char in Et.
          pose proof (utf8_width_pos x) as Hw. destruct (utf8_width x) as [|w]; [lia|].
          cbn [str_take] in Et. injection Et as E1 _ _. subst c0. congruence. }
    destruct (byte_of c =? 34)%N eqn:E34.
    { apply byte_eqb in E34. subst c.
      exists [], (String (ascii_of_N 34) r). split; [reflexivity|]. split; [reflexivity|].
      apply (tail_close curly (String """" "") r). left. reflexivity. }
    destruct (byte_of c =? 226)%N eqn:E226.
    2:{ apply (Ext (SByte c) r (utf8_width c - 1) eq_refl); [|exact Hv].
        cbn [sitem_ok]. unfold plain_byte. cbv zeta. rewrite E92, E34, E226. reflexivity. }
    (* lead byte E2: a three-byte character *)
    assert (Hv0 : valid_go (String c r) 0 = true) by (cbn [valid_go]; rewrite Hnc, Hv; reflexivity).
    destruct (valid_e2 c r 0 Hv0 E226) as (_ & c1 & c2 & r' & -> & C1 & C2 & Hv').
    apply byte_eqb in E226. subst c.
    destruct (curly && ((byte_of c1 =? 128)%N && (byte_of c2 =? 157)%N)) eqn:Erdq.
    + (* the closing curly quote, in a curly-opened literal *)
      apply andb_prop in Erdq. destruct Erdq as [Rc Erdq].
      apply andb_prop in Erdq. destruct Erdq as [R1 R2].
      apply byte_eqb in R1. apply byte_eqb in R2. subst c1 c2.
      exists [], (rdq ++ r'). split; [reflexivity|]. split; [reflexivity|].
      apply tail_close. right. split; [exact Rc|reflexivity].
    + apply (Ext (SE2 c1 c2) r' 0 eq_refl); [|exact Hv'].
      cbn [sitem_ok]. rewrite (cont_plain c1 C1), (cont_plain c2 C2), Erdq. reflexivity.
Qed.

Lemma str_tail_spec curly tl : str_tail curly tl <->
  ((exists q rest, is_closer curly q /\ tl = q ++ rest) \/ tl = "" \/ tl = "\" \/
   (exists r c2 r2, tl = String "\" r /\ take_char r = Some (c2, r2) /\
                    forall c, escape_value c <> None -> c2 <> String c "")).
Proof.
  split.
  - intros H. destruct H as [q rest Hq| | |r c2 r2 Ht Hc].
    + left. exists q, rest. auto.
    + right. left. reflexivity.
    + right. right. left. reflexivity.
    + right. right. right. exists r, c2, r2. auto.
  - intros [(q & rest & Hq & ->)|[->|[->|(r & c2 & r2 & -> & Ht & Hc)]]].
    + apply tail_close. exact Hq.
    + apply tail_end.
    + apply tail_backslash_end.
    + eapply tail_bad_escape; eassumption.
Qed.
