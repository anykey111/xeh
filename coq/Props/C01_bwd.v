(* C01 (converse direction) - divergence is preserved and termination is reflected by the
   compiler: the clause "a loop that structurally never terminates never falls through", in
   general.  Property theorems only; each is proved by a lemma of Proofs/Compile*.v, directly or
   as a short corollary.

   Props/C01.v proves the FORWARD simulation: when the structural evaluator returns
   [SDone] / [SBroke] / [SFail], the machine running the jump-resolved layout reaches the
   corresponding state.  It says nothing when the evaluator is out of fuel.  Here:

   1. QUANTITATIVE LEMMA.  The evaluator's fuel is a bound on the DEPTH of the evaluation; it is
      spent (a) by descending into the tree that is being executed (one unit per statement, per
      list cell, per nesting level: at most [wt_block b] in total at any moment, plus
      [wt_block body] for the body of every call that is being entered), and (b) by loop trips
      and calls.  Every unit of kind (b) corresponds to at least one machine step (the closing
      Jump / JumpIfNot / Loop instruction of the loop, the Call instruction).  Hence: if
      [sblock fo funs fuel b t = SOut] the machine makes at least
      (fuel - wt_block b) / call_weight funs steps, every one of them successful, and every
      state on the way is INSIDE the region of the block ([inreg]): in the activation that
      entered the block the instruction pointer is in [org, org + size_block b) - in
      particular not at the cell behind the block -, or the return stack is deeper (a function
      called from the block is running).  [call_weight funs] = 1 + the weight of the heaviest
      function body.
   2. DIVERGENCE.  If the evaluator is out of fuel for EVERY fuel, the machine runs forever
      inside the region: it never falls through, never fails; at program / source level [run]
      returns [None] for every run fuel.
   3. TERMINATION REFLECTION.  If after n steps the machine has left the region or has stopped,
      the evaluator returns a result with fuel [wt_block b + call_weight funs * (n + 2)]; by the
      traced forward simulation and determinism of [steps] the result is the one the machine
      exhibits: [SDone] with the related state at the first exit, [SFail] with the same error.
   4. For every source the parser accepts: [run] ends normally / fails / never returns exactly
      when [seval_source] is [SDone] / [SFail] for some fuel / [SOut] for every fuel, with
      [sim]-related states ([C01_source_run_converse], [C01_source_run_iff]).

   All constructs are covered (if, if-else, case, begin-until, begin-repeat, begin-while-repeat,
   do-loop, break, calls, recursion, definitions); nothing is left [_partial].

   Vocabulary (Proofs/CompileBwdStep.v, CompileBwdProg.v; spelled out by the [_is] theorems):
   - [inreg K lo hi s]: [s] is inside the region [lo, hi) entered with return-stack keys [K].
   - [wt_stmt] / [wt_block] / [wt_arms]: the syntactic weight of a tree; [call_weight funs].
   - [agreesq nf R W s endp bc B r]: [agrees] of Props/C01.v with the trace: every state before
     the final one is in [R]; [SOut]: the machine makes every number m of steps with
     W * (m + 1) <= B inside [R]; [SUnsup]: the machine reaches, inside [R], an instruction that
     exists and returns a panic / unsupported result.
   - [cl_s funs x] / [cl_b funs l]: every call of the tree has a body in [funs];
     [funs_closed funs]: so do the calls in the function bodies; [prog_closed funs l]: both.
     Without it the evaluator answers [SUnsup] for a call while the machine jumps to an
     unrelated address.  EVERY program returned by the parser is closed
     ([C01_parsed_program_closed]), so the source-level theorems have no such hypothesis.
     A word that is not native needs no hypothesis: the machine answers [RUnsup] as well.
   - [run_reflects fo funs t l r]: the result [r] of [run] is the evaluator's, for some fuel.

   Hypotheses that restrict the theorems: as in Props/C01.v (recording off, no instruction
   limit, layout in place, functions placed, well-formedness), plus closedness at the block /
   program level. *)
From Xeh Require Import Model.Prelude Model.Bits Model.Cell Model.Lexer Model.Vm Model.Words Model.Struct Model.Boot.
From Xeh Require Import Proofs.CompileSim Proofs.CompileLayout Proofs.CompileStep Proofs.CompileEval
                        Proofs.CompileFwd Proofs.CompileFwd2 Proofs.CompileProg Proofs.CompileMain
                        Proofs.CompileBwdStep Proofs.CompileBwdProg
                        Proofs.CompileBwdParse Proofs.CompileBwdMain.
From Xeh Require Proofs.StructNonterm.
Local Notation length := List.length.

Theorem C01_inreg_is : forall K lo hi s,
  inreg K lo hi s <->
  ((rskeys s = K /\ lo <= ip s < hi) \/ (exists pre, pre <> [] /\ rskeys s = pre ++ K)).
Proof. intros. apply iff_refl. Qed.
Check C01_inreg_is : forall K lo hi s,
  inreg K lo hi s <->
  ((rskeys s = K /\ lo <= ip s < hi) \/ (exists pre, pre <> [] /\ rskeys s = pre ++ K)).

(* a state inside the region, in the activation that entered it, is not at the exit address *)
Theorem C01_region_excludes_exit : forall K lo hi s,
  inreg K lo hi s -> rskeys s = K -> lo <= ip s < hi.
Proof. exact inreg_not_exit. Qed.
Check C01_region_excludes_exit : forall K lo hi s,
  inreg K lo hi s -> rskeys s = K -> lo <= ip s < hi.

Theorem C01_agreesq_is : forall nf R W s endp bc B r,
  agreesq nf R W s endp bc B r <->
  match r with
  | SDone t' =>
    exists n s', steps nf n s = Some s' /\
                 (forall m, m < n -> exists sm, steps nf m s = Some sm /\ R sm) /\
                 ip s' = endp /\ sim t' s' /\
                 code s' = code s /\ rlog s' = None /\ insn_limit s' = None /\ rskeys s' = rskeys s
  | SBroke t' =>
    exists n s', steps nf n s = Some s' /\
                 (forall m, m <= n -> exists sm, steps nf m s = Some sm /\ R sm) /\
                 nth_error (code s) (ip s') = Some (brk_op (ip s') bc) /\ bc <> BNone /\ sim t' s' /\
                 code s' = code s /\ rlog s' = None /\ insn_limit s' = None /\ rskeys s' = rskeys s
  | SFail k pl _ t' =>
    exists n sN s', steps nf n s = Some sN /\
                    (forall m, m <= n -> exists sm, steps nf m s = Some sm /\ R sm) /\
                    insn_limit sN = None /\ fetch_and_run nf sN = RErr k pl s' /\ sim t' s'
  | SOut => forall m, W * S m <= B -> exists sm, steps nf m s = Some sm /\ R sm
  | SUnsup =>
    exists n sN, steps nf n s = Some sN /\
                 (forall m, m <= n -> exists sm, steps nf m s = Some sm /\ R sm) /\
                 is_running sN = true /\
                 (fetch_and_run nf sN = RPanic \/ fetch_and_run nf sN = RUnsup)
  end.
Proof. intros. apply iff_refl. Qed.
Check C01_agreesq_is : forall nf R W s endp bc B r,
  agreesq nf R W s endp bc B r <->
  match r with
  | SDone t' =>
    exists n s', steps nf n s = Some s' /\
                 (forall m, m < n -> exists sm, steps nf m s = Some sm /\ R sm) /\
                 ip s' = endp /\ sim t' s' /\
                 code s' = code s /\ rlog s' = None /\ insn_limit s' = None /\ rskeys s' = rskeys s
  | SBroke t' =>
    exists n s', steps nf n s = Some s' /\
                 (forall m, m <= n -> exists sm, steps nf m s = Some sm /\ R sm) /\
                 nth_error (code s) (ip s') = Some (brk_op (ip s') bc) /\ bc <> BNone /\ sim t' s' /\
                 code s' = code s /\ rlog s' = None /\ insn_limit s' = None /\ rskeys s' = rskeys s
  | SFail k pl _ t' =>
    exists n sN s', steps nf n s = Some sN /\
                    (forall m, m <= n -> exists sm, steps nf m s = Some sm /\ R sm) /\
                    insn_limit sN = None /\ fetch_and_run nf sN = RErr k pl s' /\ sim t' s'
  | SOut => forall m, W * S m <= B -> exists sm, steps nf m s = Some sm /\ R sm
  | SUnsup =>
    exists n sN, steps nf n s = Some sN /\
                 (forall m, m <= n -> exists sm, steps nf m s = Some sm /\ R sm) /\
                 is_running sN = true /\
                 (fetch_and_run nf sN = RPanic \/ fetch_and_run nf sN = RUnsup)
  end.

Theorem C01_wt_block_is : forall l,
  wt_block l = match l with [] => 1 | x :: r => 1 + wt_stmt x + wt_block r end.
Proof. intro l. destruct l; reflexivity. Qed.
Check C01_wt_block_is : forall l,
  wt_block l = match l with [] => 1 | x :: r => 1 + wt_stmt x + wt_block r end.

Theorem C01_wt_stmt_is : forall x,
  wt_stmt x =
  match x with
  | SIf _ t => 1 + wt_block t
  | SIfE _ t e => 1 + wt_block t + wt_block e
  | SCase arms d => 1 + wt_arms arms + wt_block d
  | SUntil b _ => 1 + wt_block b
  | SRepeat b => 1 + wt_block b
  | SWhile c _ b => 1 + wt_block c + wt_block b
  | SDo _ b _ => 1 + wt_block b
  | _ => 1
  end.
Proof. intro x. destruct x; reflexivity. Qed.
Check C01_wt_stmt_is : forall x,
  wt_stmt x =
  match x with
  | SIf _ t => 1 + wt_block t
  | SIfE _ t e => 1 + wt_block t + wt_block e
  | SCase arms d => 1 + wt_arms arms + wt_block d
  | SUntil b _ => 1 + wt_block b
  | SRepeat b => 1 + wt_block b
  | SWhile c _ b => 1 + wt_block c + wt_block b
  | SDo _ b _ => 1 + wt_block b
  | _ => 1
  end.

Theorem C01_wt_arms_is : forall l,
  wt_arms l = match l with [] => 0 | (pre, _, body) :: r => wt_block pre + wt_block body + wt_arms r end.
Proof. intro l. destruct l as [|[[pre p] body] r]; reflexivity. Qed.
Check C01_wt_arms_is : forall l,
  wt_arms l = match l with [] => 0 | (pre, _, body) :: r => wt_block pre + wt_block body + wt_arms r end.

Theorem C01_call_weight_is : forall fs,
  (forall g body, fun_body fs g = Some body -> wt_block body < call_weight fs) /\
  1 <= call_weight fs /\
  call_weight fs = S (fold_right (fun gb a => Nat.max (wt_block (snd gb)) a) 0 fs).
Proof.
  intro fs. split; [|split].
  - intros g body H. pose proof (max_body_ge fs g body H). unfold call_weight. lia.
  - apply call_weight_pos.
  - unfold call_weight. f_equal. induction fs as [|[k b] r IH]; [reflexivity|]. cbn [max_body fold_right snd]. rewrite IH. reflexivity.
Qed.
Check C01_call_weight_is : forall fs,
  (forall g body, fun_body fs g = Some body -> wt_block body < call_weight fs) /\
  1 <= call_weight fs /\
  call_weight fs = S (fold_right (fun gb a => Nat.max (wt_block (snd gb)) a) 0 fs).

Theorem C01_closed_is : forall funs,
  (forall x, cl_s funs x <->
     match x with
     | SCall g _ => fun_body funs g <> None
     | SIf _ t => cl_b funs t
     | SIfE _ t e => cl_b funs t /\ cl_b funs e
     | SCase arms d => cl_a funs arms /\ cl_b funs d
     | SUntil b _ => cl_b funs b
     | SRepeat b => cl_b funs b
     | SWhile c _ b => cl_b funs c /\ cl_b funs b
     | SDo _ b _ => cl_b funs b
     | _ => True
     end) /\
  (forall l, cl_b funs l <-> match l with [] => True | x :: r => cl_s funs x /\ cl_b funs r end) /\
  (forall a, cl_a funs a <->
     match a with [] => True | (pre, _, body) :: r => cl_b funs pre /\ cl_b funs body /\ cl_a funs r end).
Proof. exact cl_is. Qed.
Check C01_closed_is : forall funs,
  (forall x, cl_s funs x <->
     match x with
     | SCall g _ => fun_body funs g <> None
     | SIf _ t => cl_b funs t
     | SIfE _ t e => cl_b funs t /\ cl_b funs e
     | SCase arms d => cl_a funs arms /\ cl_b funs d
     | SUntil b _ => cl_b funs b
     | SRepeat b => cl_b funs b
     | SWhile c _ b => cl_b funs c /\ cl_b funs b
     | SDo _ b _ => cl_b funs b
     | _ => True
     end) /\
  (forall l, cl_b funs l <-> match l with [] => True | x :: r => cl_s funs x /\ cl_b funs r end) /\
  (forall a, cl_a funs a <->
     match a with [] => True | (pre, _, body) :: r => cl_b funs pre /\ cl_b funs body /\ cl_a funs r end).

Theorem C01_funs_closed_is : forall funs,
  funs_closed funs <-> (forall g body, fun_body funs g = Some body -> cl_b funs body).
Proof. intros. apply iff_refl. Qed.
Check C01_funs_closed_is : forall funs,
  funs_closed funs <-> (forall g body, fun_body funs g = Some body -> cl_b funs body).

Theorem C01_prog_closed_is : forall funs l, prog_closed funs l <-> (cl_b funs l /\ funs_closed funs).
Proof. intros. apply iff_refl. Qed.
Check C01_prog_closed_is : forall funs l, prog_closed funs l <-> (cl_b funs l /\ funs_closed funs).

Theorem C01_run_reflects_is : forall fo funs t l r,
  run_reflects fo funs t l r <->
  match r with
  | ROk _ s' => exists fuel t', sblock fo funs fuel l t = SDone t' /\ sim t' s'
  | RErr kd pl s' => exists fuel p t', sblock fo funs fuel l t = SFail kd pl p t' /\ sim t' s'
  | RPanic => exists fuel, sblock fo funs fuel l t = SUnsup
  | RUnsup => exists fuel, sblock fo funs fuel l t = SUnsup
  end.
Proof. intros. apply iff_refl. Qed.
Check C01_run_reflects_is : forall fo funs t l r,
  run_reflects fo funs t l r <->
  match r with
  | ROk _ s' => exists fuel t', sblock fo funs fuel l t = SDone t' /\ sim t' s'
  | RErr kd pl s' => exists fuel p t', sblock fo funs fuel l t = SFail kd pl p t' /\ sim t' s'
  | RPanic => exists fuel, sblock fo funs fuel l t = SUnsup
  | RUnsup => exists fuel, sblock fo funs fuel l t = SUnsup
  end.

(* blocks and statements: every nesting, every break context
   the forward simulation with the trace: every machine state before the final one is inside
   the region of the tree; out of fuel = many steps inside; SUnsup = stuck inside *)
Theorem C01_block_simulation_traced : forall fo funs faddr fuel b org bc t s,
  funs_placed funs faddr (code s) -> funs_closed funs -> wf_b b -> cl_b funs b -> brk_ok bc b ->
  firstn (size_block b) (skipn org (code s)) = lay_block faddr b org bc ->
  rlog s = None -> insn_limit s = None -> ip s = org -> sim t s ->
  agreesq (native_fn fo) (inreg (rskeys s) org (org + size_block b)) (call_weight funs) s
          (org + size_block b) bc (fuel - wt_block b) (sblock fo funs fuel b t).
Proof. exact fwdq_block. Qed.
Check C01_block_simulation_traced : forall fo funs faddr fuel b org bc t s,
  funs_placed funs faddr (code s) -> funs_closed funs -> wf_b b -> cl_b funs b -> brk_ok bc b ->
  firstn (size_block b) (skipn org (code s)) = lay_block faddr b org bc ->
  rlog s = None -> insn_limit s = None -> ip s = org -> sim t s ->
  agreesq (native_fn fo) (inreg (rskeys s) org (org + size_block b)) (call_weight funs) s
          (org + size_block b) bc (fuel - wt_block b) (sblock fo funs fuel b t).

Theorem C01_stmt_simulation_traced : forall fo funs faddr fuel x org bc t s,
  funs_placed funs faddr (code s) -> funs_closed funs -> wf_s x -> cl_s funs x -> brk_ok_s bc x ->
  firstn (size_stmt x) (skipn org (code s)) = lay_stmt faddr x org bc ->
  rlog s = None -> insn_limit s = None -> ip s = org -> sim t s ->
  agreesq (native_fn fo) (inreg (rskeys s) org (org + size_stmt x)) (call_weight funs) s
          (org + size_stmt x) bc (fuel - wt_stmt x) (sstmt fo funs fuel x t).
Proof. exact fwdq_stmt. Qed.
Check C01_stmt_simulation_traced : forall fo funs faddr fuel x org bc t s,
  funs_placed funs faddr (code s) -> funs_closed funs -> wf_s x -> cl_s funs x -> brk_ok_s bc x ->
  firstn (size_stmt x) (skipn org (code s)) = lay_stmt faddr x org bc ->
  rlog s = None -> insn_limit s = None -> ip s = org -> sim t s ->
  agreesq (native_fn fo) (inreg (rskeys s) org (org + size_stmt x)) (call_weight funs) s
          (org + size_stmt x) bc (fuel - wt_stmt x) (sstmt fo funs fuel x t).

(* 1. the quantitative lemma: an evaluator that is out of fuel has spent at most [wt_block b] units
   on the descent and at most [call_weight funs] units per machine step, so the machine makes
   (fuel - wt_block b) / call_weight funs steps without leaving the code of the block (in the
   activation that entered it) and without failing *)
Theorem C01_block_out_of_fuel_steps : forall fo funs faddr fuel b org bc t s,
  funs_placed funs faddr (code s) -> funs_closed funs -> wf_b b -> cl_b funs b -> brk_ok bc b ->
  firstn (size_block b) (skipn org (code s)) = lay_block faddr b org bc ->
  rlog s = None -> insn_limit s = None -> ip s = org -> sim t s ->
  sblock fo funs fuel b t = SOut ->
  forall m, wt_block b + call_weight funs * S m <= fuel ->
    exists sm, steps (native_fn fo) m s = Some sm /\ inreg (rskeys s) org (org + size_block b) sm.
Proof.
  intros fo funs faddr fuel b org bc t s P Cf Wf Cl B C Hl Hi Hip Hs.
  apply agreesq_out_steps with (r := fun fuel => sblock fo funs fuel b t) (endp := org + size_block b) (bc := bc).
  intro. eapply fwdq_block; eassumption.
Qed.
Check C01_block_out_of_fuel_steps : forall fo funs faddr fuel b org bc t s,
  funs_placed funs faddr (code s) -> funs_closed funs -> wf_b b -> cl_b funs b -> brk_ok bc b ->
  firstn (size_block b) (skipn org (code s)) = lay_block faddr b org bc ->
  rlog s = None -> insn_limit s = None -> ip s = org -> sim t s ->
  sblock fo funs fuel b t = SOut ->
  forall m, wt_block b + call_weight funs * S m <= fuel ->
    exists sm, steps (native_fn fo) m s = Some sm /\ inreg (rskeys s) org (org + size_block b) sm.

Theorem C01_block_out_of_fuel_steps_quotient : forall fo funs faddr fuel b org bc t s,
  funs_placed funs faddr (code s) -> funs_closed funs -> wf_b b -> cl_b funs b -> brk_ok bc b ->
  firstn (size_block b) (skipn org (code s)) = lay_block faddr b org bc ->
  rlog s = None -> insn_limit s = None -> ip s = org -> sim t s ->
  sblock fo funs fuel b t = SOut ->
  forall m, m < (fuel - wt_block b) / call_weight funs ->
    exists sm, steps (native_fn fo) m s = Some sm /\ inreg (rskeys s) org (org + size_block b) sm.
Proof.
  intros fo funs faddr fuel b org bc t s P Cf Wf Cl B C Hl Hi Hip Hs.
  apply agreesq_out_steps_div with (r := fun fuel => sblock fo funs fuel b t) (endp := org + size_block b) (bc := bc);
    [intro; eapply fwdq_block; eassumption|apply call_weight_pos].
Qed.
Check C01_block_out_of_fuel_steps_quotient : forall fo funs faddr fuel b org bc t s,
  funs_placed funs faddr (code s) -> funs_closed funs -> wf_b b -> cl_b funs b -> brk_ok bc b ->
  firstn (size_block b) (skipn org (code s)) = lay_block faddr b org bc ->
  rlog s = None -> insn_limit s = None -> ip s = org -> sim t s ->
  sblock fo funs fuel b t = SOut ->
  forall m, m < (fuel - wt_block b) / call_weight funs ->
    exists sm, steps (native_fn fo) m s = Some sm /\ inreg (rskeys s) org (org + size_block b) sm.

(* 2. divergence: structurally never terminates => the machine runs forever inside the code of
   the block: every step succeeds, and whenever the return stack is at the entry depth the
   instruction pointer is strictly before the cell behind the block (it never falls through) *)
Theorem C01_block_divergence : forall fo funs faddr b org bc t s,
  funs_placed funs faddr (code s) -> funs_closed funs -> wf_b b -> cl_b funs b -> brk_ok bc b ->
  firstn (size_block b) (skipn org (code s)) = lay_block faddr b org bc ->
  rlog s = None -> insn_limit s = None -> ip s = org -> sim t s ->
  (forall fuel, sblock fo funs fuel b t = SOut) ->
  forall n, exists sn s', steps (native_fn fo) n s = Some sn /\
                          inreg (rskeys s) org (org + size_block b) sn /\
                          fetch_and_run (native_fn fo) sn = ROk tt s' /\
                          (rskeys sn = rskeys s -> org <= ip sn < org + size_block b).
Proof.
  intros fo funs faddr b org bc t s P Cf Wf Cl B C Hl Hi Hip Hs.
  apply agreesq_diverges with (W := call_weight funs) (w := wt_block b) (r := fun fuel => sblock fo funs fuel b t)
                              (endp := org + size_block b) (bc := bc); [intro; eapply fwdq_block; eassumption|apply call_weight_pos].
Qed.
Check C01_block_divergence : forall fo funs faddr b org bc t s,
  funs_placed funs faddr (code s) -> funs_closed funs -> wf_b b -> cl_b funs b -> brk_ok bc b ->
  firstn (size_block b) (skipn org (code s)) = lay_block faddr b org bc ->
  rlog s = None -> insn_limit s = None -> ip s = org -> sim t s ->
  (forall fuel, sblock fo funs fuel b t = SOut) ->
  forall n, exists sn s', steps (native_fn fo) n s = Some sn /\
                          inreg (rskeys s) org (org + size_block b) sn /\
                          fetch_and_run (native_fn fo) sn = ROk tt s' /\
                          (rskeys sn = rskeys s -> org <= ip sn < org + size_block b).

(* the same for one statement - in particular for a loop (begin-repeat, begin-until,
   begin-while-repeat, do-loop): a loop that structurally never terminates never falls through *)
Theorem C01_stmt_out_of_fuel_steps : forall fo funs faddr fuel x org bc t s,
  funs_placed funs faddr (code s) -> funs_closed funs -> wf_s x -> cl_s funs x -> brk_ok_s bc x ->
  firstn (size_stmt x) (skipn org (code s)) = lay_stmt faddr x org bc ->
  rlog s = None -> insn_limit s = None -> ip s = org -> sim t s ->
  sstmt fo funs fuel x t = SOut ->
  forall m, wt_stmt x + call_weight funs * S m <= fuel ->
    exists sm, steps (native_fn fo) m s = Some sm /\ inreg (rskeys s) org (org + size_stmt x) sm.
Proof.
  intros fo funs faddr fuel x org bc t s P Cf Wf Cl B C Hl Hi Hip Hs.
  apply agreesq_out_steps with (r := fun fuel => sstmt fo funs fuel x t) (endp := org + size_stmt x) (bc := bc).
  intro. eapply fwdq_stmt; eassumption.
Qed.
Check C01_stmt_out_of_fuel_steps : forall fo funs faddr fuel x org bc t s,
  funs_placed funs faddr (code s) -> funs_closed funs -> wf_s x -> cl_s funs x -> brk_ok_s bc x ->
  firstn (size_stmt x) (skipn org (code s)) = lay_stmt faddr x org bc ->
  rlog s = None -> insn_limit s = None -> ip s = org -> sim t s ->
  sstmt fo funs fuel x t = SOut ->
  forall m, wt_stmt x + call_weight funs * S m <= fuel ->
    exists sm, steps (native_fn fo) m s = Some sm /\ inreg (rskeys s) org (org + size_stmt x) sm.

Theorem C01_stmt_divergence : forall fo funs faddr x org bc t s,
  funs_placed funs faddr (code s) -> funs_closed funs -> wf_s x -> cl_s funs x -> brk_ok_s bc x ->
  firstn (size_stmt x) (skipn org (code s)) = lay_stmt faddr x org bc ->
  rlog s = None -> insn_limit s = None -> ip s = org -> sim t s ->
  (forall fuel, sstmt fo funs fuel x t = SOut) ->
  forall n, exists sn s', steps (native_fn fo) n s = Some sn /\
                          inreg (rskeys s) org (org + size_stmt x) sn /\
                          fetch_and_run (native_fn fo) sn = ROk tt s' /\
                          (rskeys sn = rskeys s -> org <= ip sn < org + size_stmt x).
Proof.
  intros fo funs faddr x org bc t s P Cf Wf Cl B C Hl Hi Hip Hs.
  apply agreesq_diverges with (W := call_weight funs) (w := wt_stmt x) (r := fun fuel => sstmt fo funs fuel x t)
                              (endp := org + size_stmt x) (bc := bc); [intro; eapply fwdq_stmt; eassumption|apply call_weight_pos].
Qed.
Check C01_stmt_divergence : forall fo funs faddr x org bc t s,
  funs_placed funs faddr (code s) -> funs_closed funs -> wf_s x -> cl_s funs x -> brk_ok_s bc x ->
  firstn (size_stmt x) (skipn org (code s)) = lay_stmt faddr x org bc ->
  rlog s = None -> insn_limit s = None -> ip s = org -> sim t s ->
  (forall fuel, sstmt fo funs fuel x t = SOut) ->
  forall n, exists sn s', steps (native_fn fo) n s = Some sn /\
                          inreg (rskeys s) org (org + size_stmt x) sn /\
                          fetch_and_run (native_fn fo) sn = ROk tt s' /\
                          (rskeys sn = rskeys s -> org <= ip sn < org + size_stmt x).

(* 3. termination reflection: within n steps the machine has left the region or stopped => the
   evaluator returns a result, with an explicit fuel (and [C01_block_simulation_traced] says
   that the result is what the machine exhibits) *)
Theorem C01_block_termination_reflected : forall fo funs faddr b org bc t s n sn,
  funs_placed funs faddr (code s) -> funs_closed funs -> wf_b b -> cl_b funs b -> brk_ok bc b ->
  firstn (size_block b) (skipn org (code s)) = lay_block faddr b org bc ->
  rlog s = None -> insn_limit s = None -> ip s = org -> sim t s ->
  steps (native_fn fo) n s = Some sn ->
  (~ inreg (rskeys s) org (org + size_block b) sn \/
   (forall s', fetch_and_run (native_fn fo) sn <> ROk tt s')) ->
  sblock fo funs (wt_block b + call_weight funs * S (S n)) b t <> SOut.
Proof.
  intros fo funs faddr b org bc t s n sn P Cf Wf Cl B C Hl Hi Hip Hs.
  apply agreesq_terminates with (r := fun fuel => sblock fo funs fuel b t) (endp := org + size_block b) (bc := bc);
    [intro; eapply fwdq_block; eassumption|apply call_weight_pos].
Qed.
Check C01_block_termination_reflected : forall fo funs faddr b org bc t s n sn,
  funs_placed funs faddr (code s) -> funs_closed funs -> wf_b b -> cl_b funs b -> brk_ok bc b ->
  firstn (size_block b) (skipn org (code s)) = lay_block faddr b org bc ->
  rlog s = None -> insn_limit s = None -> ip s = org -> sim t s ->
  steps (native_fn fo) n s = Some sn ->
  (~ inreg (rskeys s) org (org + size_block b) sn \/
   (forall s', fetch_and_run (native_fn fo) sn <> ROk tt s')) ->
  sblock fo funs (wt_block b + call_weight funs * S (S n)) b t <> SOut.

(* the machine has left the region: the evaluator ran the block to its end ([sm] is the first
   state outside: the cell behind the block, entry depth, related state) or stopped at a `break`
   of the enclosing loop ([sm] stands at the break instruction) *)
Theorem C01_block_leaves_converse : forall fo funs faddr b org bc t s n sn,
  funs_placed funs faddr (code s) -> funs_closed funs -> wf_b b -> cl_b funs b -> brk_ok bc b ->
  firstn (size_block b) (skipn org (code s)) = lay_block faddr b org bc ->
  rlog s = None -> insn_limit s = None -> ip s = org -> sim t s ->
  steps (native_fn fo) n s = Some sn -> ~ inreg (rskeys s) org (org + size_block b) sn ->
  exists fuel m sm, m <= n /\ steps (native_fn fo) m s = Some sm /\
    (forall k, k < m -> exists sk, steps (native_fn fo) k s = Some sk /\
                                   inreg (rskeys s) org (org + size_block b) sk) /\
    match sblock fo funs fuel b t with
    | SDone t' => ip sm = org + size_block b /\ sim t' sm /\ rskeys sm = rskeys s
    | SBroke t' => m < n /\ inreg (rskeys s) org (org + size_block b) sm /\
                   nth_error (code s) (ip sm) = Some (brk_op (ip sm) bc) /\ bc <> BNone /\
                   sim t' sm /\ rskeys sm = rskeys s
    | _ => False
    end.
Proof.
  intros fo funs faddr b org bc t s n sn P Cf Wf Cl B C Hl Hi Hip Hs.
  apply agreesq_leaves with (W := call_weight funs) (w := wt_block b) (r := fun fuel => sblock fo funs fuel b t)
                            (endp := org + size_block b) (bc := bc); [intro; eapply fwdq_block; eassumption|apply call_weight_pos].
Qed.
Check C01_block_leaves_converse : forall fo funs faddr b org bc t s n sn,
  funs_placed funs faddr (code s) -> funs_closed funs -> wf_b b -> cl_b funs b -> brk_ok bc b ->
  firstn (size_block b) (skipn org (code s)) = lay_block faddr b org bc ->
  rlog s = None -> insn_limit s = None -> ip s = org -> sim t s ->
  steps (native_fn fo) n s = Some sn -> ~ inreg (rskeys s) org (org + size_block b) sn ->
  exists fuel m sm, m <= n /\ steps (native_fn fo) m s = Some sm /\
    (forall k, k < m -> exists sk, steps (native_fn fo) k s = Some sk /\
                                   inreg (rskeys s) org (org + size_block b) sk) /\
    match sblock fo funs fuel b t with
    | SDone t' => ip sm = org + size_block b /\ sim t' sm /\ rskeys sm = rskeys s
    | SBroke t' => m < n /\ inreg (rskeys s) org (org + size_block b) sm /\
                   nth_error (code s) (ip sm) = Some (brk_op (ip sm) bc) /\ bc <> BNone /\
                   sim t' sm /\ rskeys sm = rskeys s
    | _ => False
    end.

(* no enclosing loop: the first arrival at the cell behind the block, at the entry depth, is the
   evaluator's final state *)
Theorem C01_block_done_converse : forall fo funs faddr b org t s n sn,
  funs_placed funs faddr (code s) -> funs_closed funs -> wf_b b -> cl_b funs b -> nb_b b ->
  firstn (size_block b) (skipn org (code s)) = lay_block faddr b org BNone ->
  rlog s = None -> insn_limit s = None -> ip s = org -> sim t s ->
  steps (native_fn fo) n s = Some sn -> ip sn = org + size_block b -> rskeys sn = rskeys s ->
  (forall k sk, k < n -> steps (native_fn fo) k s = Some sk ->
                ~ (ip sk = org + size_block b /\ rskeys sk = rskeys s)) ->
  exists fuel t', sblock fo funs fuel b t = SDone t' /\ sim t' sn.
Proof.
  intros fo funs faddr b org t s n sn P Cf Wf Cl N C Hl Hi Hip Hs.
  apply agreesq_done_converse with (K := rskeys s) (lo := org) (hi := org + size_block b) (W := call_weight funs)
                                   (w := wt_block b) (bc := BNone) (r := fun fuel => sblock fo funs fuel b t);
    [intro; eapply fwdq_block; eauto; intro; exact N|apply call_weight_pos|reflexivity|reflexivity|reflexivity].
Qed.
Check C01_block_done_converse : forall fo funs faddr b org t s n sn,
  funs_placed funs faddr (code s) -> funs_closed funs -> wf_b b -> cl_b funs b -> nb_b b ->
  firstn (size_block b) (skipn org (code s)) = lay_block faddr b org BNone ->
  rlog s = None -> insn_limit s = None -> ip s = org -> sim t s ->
  steps (native_fn fo) n s = Some sn -> ip sn = org + size_block b -> rskeys sn = rskeys s ->
  (forall k sk, k < n -> steps (native_fn fo) k s = Some sk ->
                ~ (ip sk = org + size_block b /\ rskeys sk = rskeys s)) ->
  exists fuel t', sblock fo funs fuel b t = SDone t' /\ sim t' sn.

(* no enclosing loop: a machine that fails before it has left the region fails like the evaluator *)
Theorem C01_block_fail_converse : forall fo funs faddr b org t s n sn k pl s',
  funs_placed funs faddr (code s) -> funs_closed funs -> wf_b b -> cl_b funs b -> nb_b b ->
  firstn (size_block b) (skipn org (code s)) = lay_block faddr b org BNone ->
  rlog s = None -> insn_limit s = None -> ip s = org -> sim t s ->
  steps (native_fn fo) n s = Some sn -> fetch_and_run (native_fn fo) sn = RErr k pl s' ->
  (forall m sm, m <= n -> steps (native_fn fo) m s = Some sm ->
                inreg (rskeys s) org (org + size_block b) sm) ->
  exists fuel p t', sblock fo funs fuel b t = SFail k pl p t' /\ sim t' s'.
Proof.
  intros fo funs faddr b org t s n sn k pl s' P Cf Wf Cl N C Hl Hi Hip Hs.
  apply agreesq_fail_converse with (endp := org + size_block b) (W := call_weight funs)
                                   (w := wt_block b) (bc := BNone) (r := fun fuel => sblock fo funs fuel b t);
    [intro; eapply fwdq_block; eauto; intro; exact N|apply call_weight_pos|reflexivity|reflexivity|reflexivity].
Qed.
Check C01_block_fail_converse : forall fo funs faddr b org t s n sn k pl s',
  funs_placed funs faddr (code s) -> funs_closed funs -> wf_b b -> cl_b funs b -> nb_b b ->
  firstn (size_block b) (skipn org (code s)) = lay_block faddr b org BNone ->
  rlog s = None -> insn_limit s = None -> ip s = org -> sim t s ->
  steps (native_fn fo) n s = Some sn -> fetch_and_run (native_fn fo) sn = RErr k pl s' ->
  (forall m sm, m <= n -> steps (native_fn fo) m s = Some sm ->
                inreg (rskeys s) org (org + size_block b) sm) ->
  exists fuel p t', sblock fo funs fuel b t = SFail k pl p t' /\ sim t' s'.

Theorem C01_program_simulation_traced : forall fo funs l org prog fuel t s,
  layout_program funs l org = Some prog -> prog_wf funs l -> prog_closed funs l ->
  firstn (length prog) (skipn org (code s)) = prog ->
  rlog s = None -> insn_limit s = None -> ip s = org -> sim t s ->
  agreesq (native_fn fo) (inreg (rskeys s) org (org + length prog)) (call_weight funs) s
          (org + length prog) BNone (fuel - wt_block l) (sblock fo funs fuel l t).
Proof. exact fwdq_program. Qed.
Check C01_program_simulation_traced : forall fo funs l org prog fuel t s,
  layout_program funs l org = Some prog -> prog_wf funs l -> prog_closed funs l ->
  firstn (length prog) (skipn org (code s)) = prog ->
  rlog s = None -> insn_limit s = None -> ip s = org -> sim t s ->
  agreesq (native_fn fo) (inreg (rskeys s) org (org + length prog)) (call_weight funs) s
          (org + length prog) BNone (fuel - wt_block l) (sblock fo funs fuel l t).

Theorem C01_program_out_of_fuel_steps : forall fo funs l org prog fuel t s,
  layout_program funs l org = Some prog -> prog_wf funs l -> prog_closed funs l ->
  firstn (length prog) (skipn org (code s)) = prog ->
  rlog s = None -> insn_limit s = None -> ip s = org -> sim t s ->
  sblock fo funs fuel l t = SOut ->
  forall m, wt_block l + call_weight funs * S m <= fuel ->
    exists sm, steps (native_fn fo) m s = Some sm /\ inreg (rskeys s) org (org + length prog) sm.
Proof. exact program_out_steps. Qed.
Check C01_program_out_of_fuel_steps : forall fo funs l org prog fuel t s,
  layout_program funs l org = Some prog -> prog_wf funs l -> prog_closed funs l ->
  firstn (length prog) (skipn org (code s)) = prog ->
  rlog s = None -> insn_limit s = None -> ip s = org -> sim t s ->
  sblock fo funs fuel l t = SOut ->
  forall m, wt_block l + call_weight funs * S m <= fuel ->
    exists sm, steps (native_fn fo) m s = Some sm /\ inreg (rskeys s) org (org + length prog) sm.

Theorem C01_program_divergence : forall fo funs l org prog t s,
  layout_program funs l org = Some prog -> prog_wf funs l -> prog_closed funs l ->
  firstn (length prog) (skipn org (code s)) = prog ->
  rlog s = None -> insn_limit s = None -> ip s = org -> sim t s ->
  (forall fuel, sblock fo funs fuel l t = SOut) ->
  forall n, exists sn s', steps (native_fn fo) n s = Some sn /\
                          inreg (rskeys s) org (org + length prog) sn /\
                          fetch_and_run (native_fn fo) sn = ROk tt s' /\
                          (rskeys sn = rskeys s -> org <= ip sn < org + length prog).
Proof. exact program_diverges. Qed.
Check C01_program_divergence : forall fo funs l org prog t s,
  layout_program funs l org = Some prog -> prog_wf funs l -> prog_closed funs l ->
  firstn (length prog) (skipn org (code s)) = prog ->
  rlog s = None -> insn_limit s = None -> ip s = org -> sim t s ->
  (forall fuel, sblock fo funs fuel l t = SOut) ->
  forall n, exists sn s', steps (native_fn fo) n s = Some sn /\
                          inreg (rskeys s) org (org + length prog) sn /\
                          fetch_and_run (native_fn fo) sn = ROk tt s' /\
                          (rskeys sn = rskeys s -> org <= ip sn < org + length prog).

(* the program is the tail of the code vector: the evaluator answers SUnsup => [run] stops on a panic / unsupported result *)
Theorem C01_program_unsup_run : forall fo funs l org prog fuel t s,
  layout_program funs l org = Some prog -> prog_wf funs l -> prog_closed funs l ->
  skipn org (code s) = prog ->
  rlog s = None -> insn_limit s = None -> ip s = org -> sim t s ->
  sblock fo funs fuel l t = SUnsup ->
  exists N r, (r = RPanic \/ r = RUnsup) /\ forall k, N < k -> run (native_fn fo) k s = Some r.
Proof. exact program_run_unsup. Qed.
Check C01_program_unsup_run : forall fo funs l org prog fuel t s,
  layout_program funs l org = Some prog -> prog_wf funs l -> prog_closed funs l ->
  skipn org (code s) = prog ->
  rlog s = None -> insn_limit s = None -> ip s = org -> sim t s ->
  sblock fo funs fuel l t = SUnsup ->
  exists N r, (r = RPanic \/ r = RUnsup) /\ forall k, N < k -> run (native_fn fo) k s = Some r.

(* the evaluator is out of fuel for every fuel => [run] never returns, whatever its fuel *)
Theorem C01_program_divergence_run : forall fo funs l org prog t s,
  layout_program funs l org = Some prog -> prog_wf funs l -> prog_closed funs l ->
  skipn org (code s) = prog ->
  rlog s = None -> insn_limit s = None -> ip s = org -> sim t s ->
  (forall fuel, sblock fo funs fuel l t = SOut) ->
  forall rf, run (native_fn fo) rf s = None.
Proof. exact program_run_diverges. Qed.
Check C01_program_divergence_run : forall fo funs l org prog t s,
  layout_program funs l org = Some prog -> prog_wf funs l -> prog_closed funs l ->
  skipn org (code s) = prog ->
  rlog s = None -> insn_limit s = None -> ip s = org -> sim t s ->
  (forall fuel, sblock fo funs fuel l t = SOut) ->
  forall rf, run (native_fn fo) rf s = None.

(* [run] returns with fuel k => the evaluator returns a result with an explicit fuel *)
Theorem C01_program_run_termination_reflected : forall fo funs l org prog t s k r,
  layout_program funs l org = Some prog -> prog_wf funs l -> prog_closed funs l ->
  skipn org (code s) = prog ->
  rlog s = None -> insn_limit s = None -> ip s = org -> sim t s ->
  run (native_fn fo) k s = Some r ->
  sblock fo funs (wt_block l + call_weight funs * S k) l t <> SOut.
Proof. exact program_run_terminates. Qed.
Check C01_program_run_termination_reflected : forall fo funs l org prog t s k r,
  layout_program funs l org = Some prog -> prog_wf funs l -> prog_closed funs l ->
  skipn org (code s) = prog ->
  rlog s = None -> insn_limit s = None -> ip s = org -> sim t s ->
  run (native_fn fo) k s = Some r ->
  sblock fo funs (wt_block l + call_weight funs * S k) l t <> SOut.

(* the converse of C01_program_run: whatever [run] returns is the evaluator's result for some fuel *)
Theorem C01_program_run_converse : forall fo funs l org prog t s k r,
  layout_program funs l org = Some prog -> prog_wf funs l -> prog_closed funs l ->
  skipn org (code s) = prog ->
  rlog s = None -> insn_limit s = None -> ip s = org -> sim t s ->
  run (native_fn fo) k s = Some r -> run_reflects fo funs t l r.
Proof. exact program_run_converse. Qed.
Check C01_program_run_converse : forall fo funs l org prog t s k r,
  layout_program funs l org = Some prog -> prog_wf funs l -> prog_closed funs l ->
  skipn org (code s) = prog ->
  rlog s = None -> insn_limit s = None -> ip s = org -> sim t s ->
  run (native_fn fo) k s = Some r -> run_reflects fo funs t l r.

(* termination, failure and divergence are the same on both sides *)
Theorem C01_program_run_iff : forall fo funs l org prog t s,
  layout_program funs l org = Some prog -> prog_wf funs l -> prog_closed funs l ->
  skipn org (code s) = prog ->
  rlog s = None -> insn_limit s = None -> ip s = org -> sim t s ->
  ((exists k s', run (native_fn fo) k s = Some (ROk tt s')) <->
   (exists fuel t', sblock fo funs fuel l t = SDone t')) /\
  ((exists k kd pl s', run (native_fn fo) k s = Some (RErr kd pl s')) <->
   (exists fuel kd pl p t', sblock fo funs fuel l t = SFail kd pl p t')) /\
  ((forall k, run (native_fn fo) k s = None) <-> (forall fuel, sblock fo funs fuel l t = SOut)).
Proof. exact program_run_iff. Qed.
Check C01_program_run_iff : forall fo funs l org prog t s,
  layout_program funs l org = Some prog -> prog_wf funs l -> prog_closed funs l ->
  skipn org (code s) = prog ->
  rlog s = None -> insn_limit s = None -> ip s = org -> sim t s ->
  ((exists k s', run (native_fn fo) k s = Some (ROk tt s')) <->
   (exists fuel t', sblock fo funs fuel l t = SDone t')) /\
  ((exists k kd pl s', run (native_fn fo) k s = Some (RErr kd pl s')) <->
   (exists fuel kd pl p t', sblock fo funs fuel l t = SFail kd pl p t')) /\
  ((forall k, run (native_fn fo) k s = None) <-> (forall fuel, sblock fo funs fuel l t = SOut)).

(* every source: the parser only returns closed programs
   (so the source-level theorems have neither a well-formedness nor a closedness hypothesis) *)
Theorem C01_parsed_program_closed : forall fo pr src heap0 l funs n,
  parse_source fo pr src heap0 = Some (l, funs, n) -> prog_closed funs l.
Proof. exact parse_prog_closed. Qed.
Check C01_parsed_program_closed : forall fo pr src heap0 l funs n,
  parse_source fo pr src heap0 = Some (l, funs, n) -> prog_closed funs l.

Theorem C01_source_simulation_traced : forall fo pr src org prog fuel t0 s l funs n,
  parse_source fo pr src (length (heap t0)) = Some (l, funs, n) ->
  layout_program funs l org = Some prog ->
  firstn (length prog) (skipn org (code s)) = prog ->
  rlog s = None -> insn_limit s = None -> ip s = org ->
  sim (set_heap t0 (heap t0 ++ repeat CNil (n - length (heap t0)))) s ->
  exists r, seval_source fo pr fuel src t0 = CRun r /\
            agreesq (native_fn fo) (inreg (rskeys s) org (org + length prog)) (call_weight funs) s
                    (org + length prog) BNone (fuel - wt_block l) r.
Proof.
  intros fo pr src org prog fuel t0 s l funs n HP HL C Hl Hi Hip Hs.
  destruct (source_wf fo pr _ _ _ _ _ _ _ HP HL) as [HW HC].
  rewrite (CompileParse3.seval_source_is fo pr fuel src t0 l funs n HP). eexists. split; [reflexivity|].
  eapply fwdq_program; eauto.
Qed.
Check C01_source_simulation_traced : forall fo pr src org prog fuel t0 s l funs n,
  parse_source fo pr src (length (heap t0)) = Some (l, funs, n) ->
  layout_program funs l org = Some prog ->
  firstn (length prog) (skipn org (code s)) = prog ->
  rlog s = None -> insn_limit s = None -> ip s = org ->
  sim (set_heap t0 (heap t0 ++ repeat CNil (n - length (heap t0)))) s ->
  exists r, seval_source fo pr fuel src t0 = CRun r /\
            agreesq (native_fn fo) (inreg (rskeys s) org (org + length prog)) (call_weight funs) s
                    (org + length prog) BNone (fuel - wt_block l) r.

Theorem C01_source_out_of_fuel_steps : forall fo pr src org prog fuel t0 s l funs n,
  parse_source fo pr src (length (heap t0)) = Some (l, funs, n) ->
  layout_program funs l org = Some prog ->
  firstn (length prog) (skipn org (code s)) = prog ->
  rlog s = None -> insn_limit s = None -> ip s = org ->
  sim (set_heap t0 (heap t0 ++ repeat CNil (n - length (heap t0)))) s ->
  seval_source fo pr fuel src t0 = CRun SOut ->
  forall m, wt_block l + call_weight funs * S m <= fuel ->
    exists sm, steps (native_fn fo) m s = Some sm /\ inreg (rskeys s) org (org + length prog) sm.
Proof.
  intros fo pr src org prog fuel t0 s l funs n HP HL C Hl Hi Hip Hs E m Hm.
  destruct (source_wf fo pr _ _ _ _ _ _ _ HP HL) as [HW HC].
  rewrite (CompileParse3.seval_source_is fo pr fuel src t0 l funs n HP) in E. injection E as E.
  eapply program_out_steps; eauto.
Qed.
Check C01_source_out_of_fuel_steps : forall fo pr src org prog fuel t0 s l funs n,
  parse_source fo pr src (length (heap t0)) = Some (l, funs, n) ->
  layout_program funs l org = Some prog ->
  firstn (length prog) (skipn org (code s)) = prog ->
  rlog s = None -> insn_limit s = None -> ip s = org ->
  sim (set_heap t0 (heap t0 ++ repeat CNil (n - length (heap t0)))) s ->
  seval_source fo pr fuel src t0 = CRun SOut ->
  forall m, wt_block l + call_weight funs * S m <= fuel ->
    exists sm, steps (native_fn fo) m s = Some sm /\ inreg (rskeys s) org (org + length prog) sm.

Theorem C01_source_divergence : forall fo pr src org prog t0 s l funs n,
  parse_source fo pr src (length (heap t0)) = Some (l, funs, n) ->
  layout_program funs l org = Some prog ->
  firstn (length prog) (skipn org (code s)) = prog ->
  rlog s = None -> insn_limit s = None -> ip s = org ->
  sim (set_heap t0 (heap t0 ++ repeat CNil (n - length (heap t0)))) s ->
  (forall fuel, seval_source fo pr fuel src t0 = CRun SOut) ->
  forall k, exists sk s', steps (native_fn fo) k s = Some sk /\
                          inreg (rskeys s) org (org + length prog) sk /\
                          fetch_and_run (native_fn fo) sk = ROk tt s' /\
                          (rskeys sk = rskeys s -> org <= ip sk < org + length prog).
Proof.
  intros fo pr src org prog t0 s l funs n HP HL C Hl Hi Hip Hs E k.
  destruct (source_wf fo pr _ _ _ _ _ _ _ HP HL) as [HW HC].
  eapply program_diverges; eauto.
  intro fuel. specialize (E fuel). rewrite (CompileParse3.seval_source_is fo pr fuel src t0 l funs n HP) in E. injection E as E. exact E.
Qed.
Check C01_source_divergence : forall fo pr src org prog t0 s l funs n,
  parse_source fo pr src (length (heap t0)) = Some (l, funs, n) ->
  layout_program funs l org = Some prog ->
  firstn (length prog) (skipn org (code s)) = prog ->
  rlog s = None -> insn_limit s = None -> ip s = org ->
  sim (set_heap t0 (heap t0 ++ repeat CNil (n - length (heap t0)))) s ->
  (forall fuel, seval_source fo pr fuel src t0 = CRun SOut) ->
  forall k, exists sk s', steps (native_fn fo) k s = Some sk /\
                          inreg (rskeys s) org (org + length prog) sk /\
                          fetch_and_run (native_fn fo) sk = ROk tt s' /\
                          (rskeys sk = rskeys s -> org <= ip sk < org + length prog).

(* the converse of C01_source_run *)
Theorem C01_source_run_converse : forall fo pr src org prog t0 s l funs n k r,
  parse_source fo pr src (length (heap t0)) = Some (l, funs, n) ->
  layout_program funs l org = Some prog ->
  skipn org (code s) = prog ->
  rlog s = None -> insn_limit s = None -> ip s = org ->
  sim (set_heap t0 (heap t0 ++ repeat CNil (n - length (heap t0)))) s ->
  run (native_fn fo) k s = Some r ->
  match r with
  | ROk _ s' => exists fuel t', seval_source fo pr fuel src t0 = CRun (SDone t') /\ sim t' s'
  | RErr kd pl s' => exists fuel p t', seval_source fo pr fuel src t0 = CRun (SFail kd pl p t') /\ sim t' s'
  | RPanic => exists fuel, seval_source fo pr fuel src t0 = CRun SUnsup
  | RUnsup => exists fuel, seval_source fo pr fuel src t0 = CRun SUnsup
  end.
Proof. exact source_run_converse. Qed.
Check C01_source_run_converse : forall fo pr src org prog t0 s l funs n k r,
  parse_source fo pr src (length (heap t0)) = Some (l, funs, n) ->
  layout_program funs l org = Some prog ->
  skipn org (code s) = prog ->
  rlog s = None -> insn_limit s = None -> ip s = org ->
  sim (set_heap t0 (heap t0 ++ repeat CNil (n - length (heap t0)))) s ->
  run (native_fn fo) k s = Some r ->
  match r with
  | ROk _ s' => exists fuel t', seval_source fo pr fuel src t0 = CRun (SDone t') /\ sim t' s'
  | RErr kd pl s' => exists fuel p t', seval_source fo pr fuel src t0 = CRun (SFail kd pl p t') /\ sim t' s'
  | RPanic => exists fuel, seval_source fo pr fuel src t0 = CRun SUnsup
  | RUnsup => exists fuel, seval_source fo pr fuel src t0 = CRun SUnsup
  end.

Theorem C01_source_run_termination_reflected : forall fo pr src org prog t0 s l funs n k r,
  parse_source fo pr src (length (heap t0)) = Some (l, funs, n) ->
  layout_program funs l org = Some prog ->
  skipn org (code s) = prog ->
  rlog s = None -> insn_limit s = None -> ip s = org ->
  sim (set_heap t0 (heap t0 ++ repeat CNil (n - length (heap t0)))) s ->
  run (native_fn fo) k s = Some r ->
  seval_source fo pr (wt_block l + call_weight funs * S k) src t0 <> CRun SOut.
Proof.
  intros fo pr src org prog t0 s l funs n k r HP HL C Hl Hi Hip Hs Hr E.
  destruct (source_wf fo pr _ _ _ _ _ _ _ HP HL) as [HW HC].
  rewrite (CompileParse3.seval_source_is fo pr _ src t0 l funs n HP) in E. injection E as E.
  eapply program_run_terminates; eauto.
Qed.
Check C01_source_run_termination_reflected : forall fo pr src org prog t0 s l funs n k r,
  parse_source fo pr src (length (heap t0)) = Some (l, funs, n) ->
  layout_program funs l org = Some prog ->
  skipn org (code s) = prog ->
  rlog s = None -> insn_limit s = None -> ip s = org ->
  sim (set_heap t0 (heap t0 ++ repeat CNil (n - length (heap t0)))) s ->
  run (native_fn fo) k s = Some r ->
  seval_source fo pr (wt_block l + call_weight funs * S k) src t0 <> CRun SOut.

(* for every source the parser accepts: [run] ends normally / fails / never returns exactly when the structural evaluation does *)
Theorem C01_source_run_iff : forall fo pr src org prog t0 s l funs n,
  parse_source fo pr src (length (heap t0)) = Some (l, funs, n) ->
  layout_program funs l org = Some prog ->
  skipn org (code s) = prog ->
  rlog s = None -> insn_limit s = None -> ip s = org ->
  sim (set_heap t0 (heap t0 ++ repeat CNil (n - length (heap t0)))) s ->
  ((exists k s', run (native_fn fo) k s = Some (ROk tt s')) <->
   (exists fuel t', seval_source fo pr fuel src t0 = CRun (SDone t'))) /\
  ((exists k kd pl s', run (native_fn fo) k s = Some (RErr kd pl s')) <->
   (exists fuel kd pl p t', seval_source fo pr fuel src t0 = CRun (SFail kd pl p t'))) /\
  ((forall k, run (native_fn fo) k s = None) <-> (forall fuel, seval_source fo pr fuel src t0 = CRun SOut)).
Proof. exact source_run_iff. Qed.
Check C01_source_run_iff : forall fo pr src org prog t0 s l funs n,
  parse_source fo pr src (length (heap t0)) = Some (l, funs, n) ->
  layout_program funs l org = Some prog ->
  skipn org (code s) = prog ->
  rlog s = None -> insn_limit s = None -> ip s = org ->
  sim (set_heap t0 (heap t0 ++ repeat CNil (n - length (heap t0)))) s ->
  ((exists k s', run (native_fn fo) k s = Some (ROk tt s')) <->
   (exists fuel t', seval_source fo pr fuel src t0 = CRun (SDone t'))) /\
  ((exists k kd pl s', run (native_fn fo) k s = Some (RErr kd pl s')) <->
   (exists fuel kd pl p t', seval_source fo pr fuel src t0 = CRun (SFail kd pl p t'))) /\
  ((forall k, run (native_fn fo) k s = None) <-> (forall fuel, seval_source fo pr fuel src t0 = CRun SOut)).
Local Open Scope string_scope.
Definition exq_fo : fops := fops_with Z.add Z.sub Z.mul Z.div Z.rem Z.min Z.max.
Definition exq_pr : string -> option Z := fun _ => None.

(* A. a definition whose body is an infinite loop, called from the top level *)
Definition exq_srcA : string := ": spin begin 1 drop repeat ; 7 spin 8".
Definition exq_parsedA := Eval vm_compute in parse_source exq_fo exq_pr exq_srcA (length boot_heap).
Definition exq_lA := Eval vm_compute in match exq_parsedA with Some (l, _, _) => l | None => [] end.
Definition exq_fA := Eval vm_compute in match exq_parsedA with Some (_, f, _) => f | None => [] end.
Definition exq_progA := Eval vm_compute in match layout_program exq_fA exq_lA 0 with Some p => p | None => [] end.
Definition exq_sA : state := set_code boot exq_progA.

(* the hypotheses of the source-level theorems hold ... *)
Example C01_divergence_hypotheses :
  parse_source exq_fo exq_pr exq_srcA (length (heap exq_sA)) = Some (exq_lA, exq_fA, 6) /\
  layout_program exq_fA exq_lA 0 = Some exq_progA /\
  skipn 0 (code exq_sA) = exq_progA /\ firstn (length exq_progA) (skipn 0 (code exq_sA)) = exq_progA /\
  rlog exq_sA = None /\ insn_limit exq_sA = None /\ ip exq_sA = 0 /\
  sim (set_heap exq_sA (heap exq_sA ++ repeat CNil (6 - length (heap exq_sA)))) exq_sA /\
  length exq_progA = 8 /\ wt_block exq_lA = 9 /\ call_weight exq_fA = 9.
Proof. repeat (split; [vm_compute; reflexivity|]). vm_compute; reflexivity. Qed.

(* ... the evaluator is out of fuel with fuel 60, the machine is still inside after 1000 steps
   (in the loop of `spin`, one activation deep), and [run] has not returned *)
Example C01_divergence_example :
  seval_source exq_fo exq_pr 60 exq_srcA exq_sA = CRun SOut /\
  (exists sn, steps (native_fn exq_fo) 1000 exq_sA = Some sn /\
              inreg (rskeys exq_sA) 0 (0 + length exq_progA) sn /\
              ip sn = 2 /\ rskeys sn = [(1, 7)%nat]) /\
  run (native_fn exq_fo) 1000 exq_sA = None.
Proof.
  split; [vm_compute; reflexivity|]. split; [|vm_compute; reflexivity].
  exists (match steps (native_fn exq_fo) 1000 exq_sA with Some s => s | None => boot end).
  split; [vm_compute; reflexivity|]. split; [|vm_compute; split; reflexivity].
  right. exists [(1, 7)%nat]. split; [discriminate|vm_compute; reflexivity].
Qed.

(* the quantitative theorem applied: fuel 60 guarantees (60 - 9) / 9 = 5 steps inside *)
Example C01_out_of_fuel_example :
  exists sm, steps (native_fn exq_fo) 4 exq_sA = Some sm /\ inreg (rskeys exq_sA) 0 (0 + length exq_progA) sm.
Proof.
  eapply C01_source_out_of_fuel_steps with (pr := exq_pr) (src := exq_srcA) (fuel := 60) (t0 := exq_sA)
                                           (l := exq_lA) (funs := exq_fA) (n := 6);
    try (vm_compute; reflexivity).
  vm_compute. lia.
Qed.

(* B. a terminating loop that calls a definition: [run] returns, and the evaluator returns the
   related state with the fuel given by C01_source_run_termination_reflected: 17 + 6 * 41 *)
Definition exq_srcB : string := ": inc 1 + ; 0 begin dup 3 < while inc repeat".
Definition exq_parsedB := Eval vm_compute in parse_source exq_fo exq_pr exq_srcB (length boot_heap).
Definition exq_lB := Eval vm_compute in match exq_parsedB with Some (l, _, _) => l | None => [] end.
Definition exq_fB := Eval vm_compute in match exq_parsedB with Some (_, f, _) => f | None => [] end.
Definition exq_progB := Eval vm_compute in match layout_program exq_fB exq_lB 0 with Some p => p | None => [] end.
Definition exq_sB : state := set_code boot exq_progB.

Example C01_termination_reflected_example :
  parse_source exq_fo exq_pr exq_srcB (length (heap exq_sB)) = Some (exq_lB, exq_fB, 6) /\
  layout_program exq_fB exq_lB 0 = Some exq_progB /\ skipn 0 (code exq_sB) = exq_progB /\
  rlog exq_sB = None /\ insn_limit exq_sB = None /\ ip exq_sB = 0 /\
  sim (set_heap exq_sB (heap exq_sB ++ repeat CNil (6 - length (heap exq_sB)))) exq_sB /\
  wt_block exq_lB + call_weight exq_fB * S 40 = 263 /\
  exists s' t',
    run (native_fn exq_fo) 40 exq_sB = Some (ROk tt s') /\
    seval_source exq_fo exq_pr 263 exq_srcB exq_sB = CRun (SDone t') /\
    sim t' s' /\ ds s' = [CInt 3] /\ ip s' = 11.
Proof.
  repeat (split; [vm_compute; reflexivity|]).
  (* the witnesses are named by what computes them: an evaluated state in the proof term would be
     traversed again at every conjunct *)
  exists (match run (native_fn exq_fo) 40 exq_sB with Some (ROk _ s) => s | _ => boot end).
  exists (match seval_source exq_fo exq_pr 263 exq_srcB exq_sB with CRun (SDone t) => t | _ => boot end).
  repeat (split; [vm_compute; reflexivity|]). vm_compute; reflexivity.
Qed.

(* the converse theorem applied to it *)
Example C01_source_run_converse_example :
  forall s', run (native_fn exq_fo) 40 exq_sB = Some (ROk tt s') ->
  exists fuel t', seval_source exq_fo exq_pr fuel exq_srcB exq_sB = CRun (SDone t') /\ sim t' s'.
Proof.
  intros s' H.
  exact (C01_source_run_converse exq_fo exq_pr exq_srcB 0 exq_progB exq_sB exq_sB exq_lB exq_fB 6 40 (ROk tt s')
           ltac:(vm_compute; reflexivity) ltac:(vm_compute; reflexivity) ltac:(vm_compute; reflexivity)
           eq_refl eq_refl eq_refl ltac:(vm_compute; reflexivity) H).
Qed.

(* C. the hypotheses of the block-level theorems: a block laid out in the middle of a code
   vector (a cell follows it), no functions; the machine leaves it after 26 steps, at the cell
   behind it, with the evaluator's final state *)
Definition exq_blk := Eval vm_compute in
  match parse_source exq_fo exq_pr "0 begin dup 3 < while 1 + repeat" (length boot_heap) with
  | Some (l, _, _) => l | None => [] end.
Definition exq_sC : state := set_code boot (lay_block (fun _ => 0) exq_blk 0 BNone ++ [OLoadNil]).

Example C01_block_converse_hypotheses :
  funs_placed [] (fun _ => 0) (code exq_sC) /\ funs_closed [] /\
  wf_b exq_blk /\ cl_b [] exq_blk /\ nb_b exq_blk /\ brk_ok BNone exq_blk /\
  firstn (size_block exq_blk) (skipn 0 (code exq_sC)) = lay_block (fun _ => 0) exq_blk 0 BNone /\
  rlog exq_sC = None /\ insn_limit exq_sC = None /\ ip exq_sC = 0 /\ sim exq_sC exq_sC /\
  size_block exq_blk = 8 /\ length (code exq_sC) = 9 /\
  exists sn, steps (native_fn exq_fo) 26 exq_sC = Some sn /\
             ip sn = 0 + size_block exq_blk /\ rskeys sn = rskeys exq_sC /\
             ~ inreg (rskeys exq_sC) 0 (0 + size_block exq_blk) sn /\ ds sn = [CInt 3] /\
             exists t', sblock exq_fo [] 40 exq_blk exq_sC = SDone t' /\ sim t' sn.
Proof.
  split; [intros g body H; discriminate|]. split; [intros g body H; discriminate|].
  split; [repeat constructor|]. split; [unfold cl_b; repeat constructor|].
  assert (N : nb_b exq_blk) by repeat constructor.
  split; [exact N|]. split; [intros _; exact N|].
  repeat (split; [vm_compute; reflexivity|]).
  exists (match steps (native_fn exq_fo) 26 exq_sC with Some s => s | None => boot end).
  do 3 (split; [vm_compute; reflexivity|]).
  split.
  - intros [[_ H]|(pre & Hne & E)].
    + vm_compute in H. lia.
    + vm_compute in E. destruct pre; [contradiction|discriminate].
  - split; [vm_compute; reflexivity|].
    exists (match sblock exq_fo [] 40 exq_blk exq_sC with SDone t => t | _ => boot end).
    split; vm_compute; reflexivity.
Qed.

(* D. divergence, for every fuel: `begin 1 drop repeat` followed by a cell.  The evaluator is
   out of fuel for EVERY fuel (C01_repeat_diverges of Props/C01_struct.v), all the hypotheses of
   C01_block_divergence hold, hence the machine runs forever inside the three cells of the loop *)
Definition exq_loop : list stmt := [SLit (CInt 1) (6, 7)%nat; SPrim "drop" (8, 12)%nat].
Definition exq_blkD : list stmt := [SRepeat exq_loop].
Definition exq_sD : state := set_code boot (lay_block (fun _ => 0) exq_blkD 0 BNone ++ [OLoadNil]).

Example C01_block_divergence_hypotheses :
  (forall fuel, sblock exq_fo [] fuel exq_blkD exq_sD = SOut) /\
  funs_placed [] (fun _ => 0) (code exq_sD) /\ funs_closed [] /\
  wf_b exq_blkD /\ cl_b [] exq_blkD /\ brk_ok BNone exq_blkD /\
  firstn (size_block exq_blkD) (skipn 0 (code exq_sD)) = lay_block (fun _ => 0) exq_blkD 0 BNone /\
  rlog exq_sD = None /\ insn_limit exq_sD = None /\ ip exq_sD = 0 /\ sim exq_sD exq_sD /\
  size_block exq_blkD = 3 /\ length (code exq_sD) = 4.
Proof.
  split.
  - intro fuel. destruct fuel as [|f]; [reflexivity|]. unfold exq_blkD. rewrite StructBase.sblock_cons.
    rewrite (StructNonterm.repeat_diverges exq_fo [] exq_loop (fun s => s = exq_sD)); [reflexivity| |reflexivity].
    intros f0 s ->. destruct f0 as [|[|[|f0]]]; try (left; reflexivity).
    right. eexists. split; [vm_compute; reflexivity|reflexivity].
  - split; [intros g body H; discriminate|]. split; [intros g body H; discriminate|].
    split; [repeat constructor|]. split; [unfold cl_b; repeat constructor|].
    split; [intros _; repeat constructor|].
    repeat (split; [vm_compute; reflexivity|]). vm_compute; reflexivity.
Qed.

Example C01_block_divergence_example :
  forall n, exists sn s', steps (native_fn exq_fo) n exq_sD = Some sn /\
                          inreg (rskeys exq_sD) 0 (0 + size_block exq_blkD) sn /\
                          fetch_and_run (native_fn exq_fo) sn = ROk tt s' /\
                          (rskeys sn = rskeys exq_sD -> 0 <= ip sn < 0 + size_block exq_blkD).
Proof.
  destruct C01_block_divergence_hypotheses as (H0 & H1 & H2 & H3 & H4 & H5 & H6 & H7 & H8 & H9 & H10 & _).
  exact (C01_block_divergence exq_fo [] (fun _ => 0) exq_blkD 0 BNone exq_sD exq_sD H1 H2 H3 H4 H5 H6 H7 H8 H9 H10 H0).
Qed.
