(* TagFresh.v: freshly computed results carry no tags (C13 fresh_untagged).

   For an arbitrary set T of cells, [tg T c] says that every tag wrapper inside c (inside its
   tag maps too) belongs to T.  Every word of the table that is not a [tag_maker] preserves "every
   tag wrapper held by the machine belongs to T": it creates no tag wrapper - each tag wrapper in
   an output cell (or an error payload) is a tag wrapper that was already there.  With T
   empty: a machine that holds no tags computes results without tags. *)
From Xeh Require Import Model.Prelude Model.Bits Model.Codec Model.Cell Model.Lexer Model.Fmt
                        Model.Vm Model.BaseN Model.Words Proofs.BitsProofs Proofs.CellProofs Proofs.CollProofs
                        Proofs.CollVec Proofs.TagProofs Proofs.WordProg.
From Coq Require Import Sorting.Sorted ZifyBool ZifyNat ZifyN.
Local Notation length := List.length.

Definition tgl (T : cell -> Prop) (c : cell) : Prop := match c with CTag _ _ => T c | _ => True end.
Definition tg (T : cell -> Prop) : cell -> Prop := deepT (tgl T).
Definition tg2 (T : cell -> Prop) (kv : cell * cell) : Prop := tg T (fst kv) /\ tg T (snd kv).
Definition tgo (T : cell -> Prop) (p : option cell) : Prop := match p with Some c => tg T c | None => True end.

Definition tg_state (T : cell -> Prop) (s : state) : Prop :=
  Forall (tg T) (ds s) /\ Forall (tg T) (heap s) /\ Forall (fun l => tg T (l_items l)) (loops s).

Definition inv {A} (T : cell -> Prop) (R : A -> Prop) (m : M A) : Prop :=
  forall s, tg_state T s ->
  match m s with
  | ROk a s' => R a /\ tg_state T s'
  | RErr _ p s' => tgo T p /\ tg_state T s'
  | _ => True
  end.

Section Fresh.
  Variable T : cell -> Prop.

  Lemma tg_vec : forall l, tg T (CVec l) <-> Forall (tg T) l.
  Proof. intro l. unfold tg. rewrite deepT_vec. cbn. tauto. Qed.
  Lemma tg_map : forall m, tg T (CMap m) <-> Forall (tg2 T) m.
  Proof. intro m. unfold tg. rewrite deepT_map. cbn. unfold deepT2, tg2. tauto. Qed.
  Lemma tg_value : forall c, tg T c -> tg T (value c).
  Proof. intros c H. destruct c; cbn [value]; auto. apply deepT_tag in H. apply H. Qed.
  Lemma tg_tags : forall c, tg T c -> tg T (match tags_of c with Some t => CMap t | None => CNil end).
  Proof.
    intros c H. destruct c; cbn [tags_of]; try (split; exact I).
    apply deepT_tag in H. destruct H as (_ & H & _). apply deepT_map. split; [exact I | exact H].
  Qed.
  Lemma tg_nil : tg T CNil.               Proof. split; exact I. Qed.
  Lemma tg_flag : forall b, tg T (CFlag b). Proof. split; exact I. Qed.
  Lemma tg_cflag : forall b, tg T (cflag b). Proof. split; exact I. Qed.
  Lemma tg_int : forall b, tg T (CInt b). Proof. split; exact I. Qed.
  Lemma tg_cint : forall b, tg T (cint b). Proof. split; exact I. Qed.
  Lemma tg_cnat : forall b, tg T (cnat b). Proof. split; exact I. Qed.
  Lemma tg_real : forall b, tg T (CReal b). Proof. split; exact I. Qed.
  Lemma tg_str : forall b, tg T (CStr b). Proof. split; exact I. Qed.
  Lemma tg_bits : forall b, tg T (CBits b). Proof. split; exact I. Qed.
  Lemma tg_vec_intro : forall l, Forall (tg T) l -> tg T (CVec l). Proof. intro. apply tg_vec. Qed.
  Lemma tg_map_intro : forall l, Forall (tg2 T) l -> tg T (CMap l). Proof. intro. apply tg_map. Qed.

  Lemma tgs_add_rstep : forall r s, tg_state T (add_rstep r s) <-> tg_state T s.
  Proof. intros. unfold tg_state, add_rstep. destruct (rlog s); reflexivity. Qed.
  Lemma tgs_set_ds : forall s d, tg_state T s -> Forall (tg T) d -> tg_state T (set_ds s d).
  Proof. intros s d (A & B & C) D. repeat split; assumption. Qed.
  Lemma tgs_set_heap : forall s d, tg_state T s -> Forall (tg T) d -> tg_state T (set_heap s d).
  Proof. intros s d (A & B & C) D. repeat split; assumption. Qed.
  Lemma tgs_set_loops : forall s d, tg_state T s -> Forall (fun l => tg T (l_items l)) d -> tg_state T (set_loops s d).
  Proof. intros s d (A & B & C) D. repeat split; assumption. Qed.

  Lemma inv_ret : forall A (R : A -> Prop) a, R a -> inv T R (ret a).
  Proof. intros A R a H s Hs. cbn. auto. Qed.
  Lemma inv_ret_true : forall A (a : A), inv T (fun _ => True) (ret a).
  Proof. intros. apply inv_ret. exact I. Qed.
  Lemma inv_fail : forall A (R : A -> Prop) k p, tgo T p -> inv T R (fail k p).
  Proof. intros A R k p H s Hs. cbn. auto. Qed.
  Lemma inv_unsup : forall A (R : A -> Prop), inv T R unsup. Proof. intros A R s Hs. exact I. Qed.
  Lemma inv_panic : forall A (R : A -> Prop), inv T R panic. Proof. intros A R s Hs. exact I. Qed.
  Lemma inv_bind : forall A B (RA : A -> Prop) (RB : B -> Prop) m f,
    inv T RA m -> (forall a, RA a -> inv T RB (f a)) -> inv T RB (bind m f).
  Proof.
    intros A B RA RB m f Hm Hf s Hs. unfold bind. specialize (Hm s Hs).
    destruct (m s); auto. destruct Hm. apply Hf; assumption.
  Qed.
  Lemma inv_get_bind : forall B (R : B -> Prop) (k : state -> M B),
    (forall s0, tg_state T s0 -> inv T R (k s0)) -> inv T R (bind get k).
  Proof. intros B R k H s Hs. unfold bind, get. apply H; assumption. Qed.

  Ltac ifs := repeat match goal with |- context [if ?b then _ else _] => destruct b end.
  Ltac errc := try (split; [exact I | assumption]).

  Lemma inv_pop_data : inv T (tg T) pop_data.
  Proof.
    intros s Hs. unfold pop_data. destruct (ds s) as [| c r] eqn:E; ifs; errc.
    destruct Hs as (A & B & C). rewrite E in A. inversion A; subst. split; auto.
    apply tgs_add_rstep. apply tgs_set_ds; auto. repeat split; auto. rewrite E. assumption.
  Qed.
  Lemma inv_top_data : inv T (tg T) top_data.
  Proof.
    intros s Hs. unfold top_data. destruct (ds s) as [| c r] eqn:E; ifs; errc.
    destruct Hs as (A & B & C). rewrite E in A. inversion A; subst. split; auto.
    repeat split; auto. rewrite E. assumption.
  Qed.
  Lemma inv_push_data : forall c, tg T c -> inv T (fun _ => True) (push_data c).
  Proof.
    intros c Hc s Hs. unfold push_data. ifs; errc.
    split; auto. apply tgs_set_ds; [apply tgs_add_rstep; assumption|]. constructor; auto. apply Hs.
  Qed.
  Lemma inv_dup_data : inv T (fun _ => True) dup_data.
  Proof. unfold dup_data. eapply inv_bind; [apply inv_top_data|]. intros. apply inv_push_data. assumption. Qed.
  Lemma inv_swap_data : inv T (fun _ => True) swap_data.
  Proof.
    intros s Hs. unfold swap_data. destruct (ds s) as [| a [| b r]] eqn:E; ifs; errc. split; auto.
    destruct Hs as (A & B & C). rewrite E in A. inversion A as [| ? ? A1 A2]; subst. inversion A2; subst.
    apply tgs_set_ds; [apply tgs_add_rstep; repeat split; auto; rewrite E; auto|]. repeat constructor; auto.
  Qed.
  Lemma inv_rot_data : inv T (fun _ => True) rot_data.
  Proof.
    intros s Hs. unfold rot_data. destruct (ds s) as [| a [| b [| c r]]] eqn:E; ifs; errc. split; auto.
    destruct Hs as (A & B & C). rewrite E in A. inversion A as [| ? ? A1 A2]; subst.
    inversion A2 as [| ? ? A3 A4]; subst. inversion A4; subst.
    apply tgs_set_ds; [apply tgs_add_rstep; repeat split; auto; rewrite E; auto|]. repeat constructor; auto.
  Qed.
  Lemma inv_over_data : inv T (fun _ => True) over_data.
  Proof.
    intros s Hs. unfold over_data. destruct (ds s) as [| a [| b r]] eqn:E; try (split; [exact I | assumption]).
    destruct (2 <=? data_depth s); [| split; [exact I | assumption]].
    apply inv_push_data; [| apply tgs_add_rstep; assumption].
    destruct Hs as (A & _). rewrite E in A. inversion A as [| ? ? A1 A2]; subst. inversion A2; subst. assumption.
  Qed.
  Lemma inv_push_special : forall p, inv T (fun _ => True) (push_special p).
  Proof. intros p s Hs. unfold push_special. split; auto. apply (proj2 (tgs_add_rstep RPopSpecial s)) in Hs. exact Hs. Qed.
  Lemma inv_pop_special : inv T (fun _ => True) pop_special.
  Proof.
    intros s Hs. unfold pop_special. destruct (special s) as [| p r]; ifs; try (split; [exact I | assumption]).
    split; [exact I|]. apply tgs_add_rstep. exact Hs.
  Qed.
  Lemma inv_get_var : forall a, inv T (tg T) (get_var a).
  Proof.
    intros a s Hs. unfold get_var. destruct (mode_eqb _ _); errc.
    destruct (nth_error (heap s) a) eqn:E; errc. split; auto.
    destruct Hs as (_ & B & _). rewrite Forall_forall in B. apply B. eapply nth_error_In; eassumption.
  Qed.
  Lemma inv_set_var : forall a v, tg T v -> inv T (fun _ => True) (set_var a v).
  Proof.
    intros a v Hv s Hs. unfold set_var. destruct (mode_eqb _ _); errc.
    destruct (nth_error (heap s) a) eqn:E; errc. split; auto.
    apply tgs_add_rstep. apply tgs_set_heap; auto. apply Forall_list_set; auto. apply Hs.
  Qed.
  Lemma inv_print : forall msg, inv T (fun _ => True) (print msg).
  Proof. intros msg s Hs. unfold print. split; auto. Qed.
  Lemma inv_set_stopping : forall b, inv T (fun _ => True) (modify (fun s => set_stopping s b)).
  Proof. intros b s Hs. unfold modify. split; auto. Qed.
  Lemma inv_loop_set_items : forall c, tg T c -> inv T (fun _ => True) (loop_set_items c).
  Proof.
    intros c Hc s Hs. unfold loop_set_items. destruct (loops s) as [| l r] eqn:E; ifs; errc. split; auto.
    apply tgs_add_rstep. apply tgs_set_loops; auto.
    destruct Hs as (_ & _ & C). rewrite E in C. inversion C; subst. constructor; auto.
  Qed.

  Ltac acc H :=
    let V := fresh "V" in pose proof (tg_value _ H) as V; revert V;
    match type of H with tg _ ?c => generalize (value c) end; intros x V;
    destruct x; try (apply inv_ret_true); try (apply inv_fail; cbn; auto).
  Lemma inv_m_xint : forall c, tg T c -> inv T (fun _ => True) (m_xint c).
  Proof. intros c H. unfold m_xint. acc H. Qed.
  Lemma inv_m_real : forall c, tg T c -> inv T (fun _ => True) (m_real c).
  Proof. intros c H. unfold m_real. acc H. Qed.
  Lemma inv_m_str : forall c, tg T c -> inv T (fun _ => True) (m_str c).
  Proof. intros c H. unfold m_str. acc H. Qed.
  Lemma inv_m_bits : forall c, tg T c -> inv T (fun _ => True) (m_bits c).
  Proof. intros c H. unfold m_bits. acc H. Qed.
  Lemma inv_m_bool : forall c, tg T c -> inv T (fun _ => True) (m_bool c).
  Proof. intros c H. unfold m_bool. acc H. Qed.
  Lemma inv_m_cond : forall c, tg T c -> inv T (fun _ => True) (m_cond c).
  Proof. intros c H. unfold m_cond. acc H. Qed.
  Lemma inv_m_isize : forall c, tg T c -> inv T (fun _ => True) (m_isize c).
  Proof. intros c H. unfold m_isize. acc H. destruct (in_isize z); [apply inv_ret_true | apply inv_fail; exact I]. Qed.
  Lemma inv_m_usize : forall c, tg T c -> inv T (fun _ => True) (m_usize c).
  Proof.
    intros c H. unfold m_usize. acc H. destruct (z <? 0)%Z; [apply inv_fail; exact H|].
    destruct (in_usize z); [apply inv_ret_true | apply inv_fail; exact I].
  Qed.
  Lemma inv_m_vec : forall c, tg T c -> inv T (Forall (tg T)) (m_vec c).
  Proof.
    intros c H. unfold m_vec. pose proof (tg_value _ H) as V. revert V. generalize (value c). intros x V.
    destruct x; try (apply inv_fail; cbn; auto). apply inv_ret. apply tg_vec. assumption.
  Qed.
  Lemma inv_m_map : forall c, tg T c -> inv T (Forall (tg2 T)) (m_map c).
  Proof.
    intros c H. unfold m_map. pose proof (tg_value _ H) as V. revert V. generalize (value c). intros x V.
    destruct x; try (apply inv_fail; cbn; auto). apply inv_ret. apply tg_map. assumption.
  Qed.

  Lemma tg_find : forall m k, Forall (tg2 T) m -> tgo T (assoc_find m k).
  Proof.
    intros m k H. destruct (assoc_find m k) eqn:E; cbn; auto.
    apply assoc_find_in in E. destruct E as (k' & I & _). rewrite Forall_forall in H. apply (H _ I).
  Qed.
  Lemma tg_find_default : forall m k, Forall (tg2 T) m -> tg T (match assoc_find m k with Some x => x | None => CNil end).
  Proof. intros m k H. pose proof (tg_find m k H) as F. destruct (assoc_find m k); auto. apply tg_nil. Qed.
  Lemma tg_insert : forall m k v, Forall (tg2 T) m -> tg T k -> tg T v -> Forall (tg2 T) (assoc_insert m k v).
  Proof.
    intros m k v Hm Hk Hv. rewrite Forall_forall in *. intros p Hp.
    apply (ginsert_in cell_cmp m k v) in Hp. destruct Hp as [->|Hp]; auto. split; assumption.
  Qed.
  Lemma tg_remove : forall m k, Forall (tg2 T) m -> Forall (tg2 T) (assoc_remove m k).
  Proof. intros m k Hm. rewrite Forall_forall in *. intros p Hp. apply (gremove_in cell_cmp m k) in Hp. auto. Qed.
  Lemma tg_pairs_insert : forall l m, Forall (tg T) l -> Forall (tg2 T) m -> Forall (tg2 T) (pairs_insert l m).
  Proof.
    fix IH 1. intros [| v [| k r]] m Hl Hm; cbn [pairs_insert]; auto.
    inversion Hl as [| ? ? A1 A2]; subst. inversion A2; subst. apply IH; auto. apply tg_insert; auto.
  Qed.
  Lemma tg_sort : forall l, Forall (tg T) l -> Forall (tg T) (sort_cells l).
  Proof. apply sort_cells_Forall. Qed.
  Lemma tg_rev : forall l, Forall (tg T) l -> Forall (tg T) (rev l).
  Proof. intros. apply Forall_rev. assumption. Qed.
  Lemma tg_app : forall a b, Forall (tg T) a -> Forall (tg T) b -> Forall (tg T) (a ++ b).
  Proof. intros. apply Forall_app. auto. Qed.
  Lemma tg_firstn : forall n l, Forall (tg T) l -> Forall (tg T) (firstn n l).
  Proof. intros n l. apply Forall_incl, incl_firstn. Qed.
  Lemma tg_skipn : forall n l, Forall (tg T) l -> Forall (tg T) (skipn n l).
  Proof. intros n l. apply Forall_incl, incl_skipn. Qed.
  Lemma tg_slice : forall l a b, Forall (tg T) l -> Forall (tg T) (slice_list l a b).
  Proof. intros. unfold slice_list. apply tg_firstn, tg_skipn. assumption. Qed.
  Lemma tg_cons : forall x l, tg T x -> Forall (tg T) l -> Forall (tg T) (x :: l).
  Proof. intros. constructor; assumption. Qed.
  Lemma tg_lnil : Forall (tg T) []. Proof. constructor. Qed.
  Lemma tg_nth : forall l i x, Forall (tg T) l -> nth_error l i = Some x -> tg T x.
  Proof. intros l i x H E. rewrite Forall_forall in H. apply H. eapply nth_error_In; eassumption. Qed.
  Lemma tg2_nth : forall l i k v, Forall (tg2 T) l -> nth_error l i = Some (k, v) -> tg T k /\ tg T v.
  Proof. intros l i k v H E. rewrite Forall_forall in H. apply (H (k, v)). eapply nth_error_In; eassumption. Qed.
End Fresh.

Create HintDb tgdb.
#[export] Hint Resolve tg_nil tg_flag tg_cflag tg_int tg_cint tg_cnat tg_real tg_str tg_bits tg_vec_intro tg_map_intro
  tg_value tg_find_default tg_insert tg_remove tg_pairs_insert tg_sort tg_rev tg_app tg_firstn tg_skipn tg_slice
  tg_cons tg_lnil : tgdb.

Create HintDb invdb.
#[export] Hint Constants Opaque : invdb.
#[export] Hint Resolve inv_pop_data inv_top_data inv_dup_data inv_swap_data inv_rot_data inv_over_data
  inv_push_special inv_pop_special inv_get_var inv_print inv_set_stopping inv_unsup inv_panic inv_ret_true
  inv_m_xint inv_m_real inv_m_str inv_m_bits inv_m_vec inv_m_map inv_m_isize inv_m_bool inv_m_cond inv_m_usize
  : invdb.

Ltac inv_pure := first [ solve [ auto 7 with tgdb nocore ] | exact I | idtac ].

(* destruct [value c] keeping what is known about its components *)
Ltac by_tg H :=
  let V := fresh "V" in
  pose proof (tg_value _ _ H) as V; revert V;
  match type of H with tg _ ?c => generalize (value c) end;
  let x := fresh "x" in intros x V; destruct x; cbv beta iota;
  try (apply tg_vec in V); try (apply tg_map in V).

Ltac inv_go :=
  cbv beta zeta;
  lazymatch goal with
  | |- inv _ _ (ret _) => first [ apply inv_ret_true | apply inv_ret; inv_pure ]
  | |- inv _ _ (fail _ _) => apply inv_fail; cbn [tgo]; first [ exact I | solve [ auto 5 with tgdb nocore ] | idtac ]
  | |- inv _ _ unsup => apply inv_unsup
  | |- inv _ _ panic => apply inv_panic
  | |- inv _ _ (push_data _) => apply inv_push_data; inv_pure
  | |- inv _ _ (set_var _ _) => apply inv_set_var; inv_pure
  | |- inv _ _ (loop_set_items _) => apply inv_loop_set_items; inv_pure
  | |- inv _ _ (bind get _) => idtac
  | |- inv _ _ (bind _ _) =>
    eapply inv_bind;
    [ inv_go
    | let a := fresh "a" in let Ha := fresh "Ha" in intros a Ha; inv_go ]
  | |- inv _ _ (match value ?c with _ => _ end) =>
    lazymatch goal with
    | H : tg _ c |- _ => by_tg H; inv_go
    | _ => idtac
    end
  | |- inv _ _ (match nth_error ?l ?i with _ => _ end) =>
    let E := fresh "E" in
    lazymatch goal with
    | H : Forall (tg _) l |- _ =>
      destruct (nth_error l i) eqn:E; [ apply (tg_nth _ _ _ _ H) in E | ]; inv_go
    | H : Forall (tg2 _) l |- _ =>
      destruct (nth_error l i) as [[? ?]|] eqn:E; [ apply (tg2_nth _ _ _ _ _ H) in E; destruct E | ]; inv_go
    | _ => idtac
    end
  | |- inv _ _ (match assoc_find ?m ?k with _ => _ end) =>
    lazymatch goal with
    | H : Forall (tg2 _) m |- _ =>
      let F := fresh "F" in
      pose proof (tg_find _ m k H) as F; destruct (assoc_find m k); cbn [tgo] in F; inv_go
    | _ => idtac
    end
  | |- inv _ _ (if ?b then _ else _) => destruct b; inv_go
  | |- inv _ _ (match ?x with _ => _ end) => destruct x; inv_go
  | |- inv _ _ ?m =>
    first [ solve [ eauto 3 with invdb nocore ]
          | let h := head_of m in tryif unfold h then inv_go else idtac ]
  end.

Notation invw T w := (inv T (fun _ => True) w).

Section FreshWords.
  Variable T : cell -> Prop.

  Lemma tg_get_tag : forall c k, tg T c -> tgo T (get_tag c k).
  Proof.
    intros c k H. unfold get_tag. pose proof (tg_tags T c H) as G.
    destruct (tags_of c); cbn [tgo]; auto. apply tg_map in G. apply tg_find. assumption.
  Qed.
  Lemma tg_get_tag_default : forall c k d, tg T c -> tg T d -> tg T (match get_tag c k with Some x => x | None => d end).
  Proof. intros c k d H Hd. pose proof (tg_get_tag c k H) as G. destruct (get_tag c k); auto. Qed.

  Lemma inv_vector_get : forall v i, Forall (tg T) v -> inv T (tg T) (vector_get v i).
  Proof.
    intros v i H. unfold vector_get. destruct (relative_index (length v) i); [| apply inv_fail; exact I].
    destruct (nth_error v n) eqn:E; [| apply inv_fail; exact I]. apply inv_ret. eapply tg_nth; eassumption.
  Qed.
  Lemma inv_push_all : forall v, Forall (tg T) v -> invw T (push_all v).
  Proof.
    induction 1; cbn [push_all]; [apply inv_ret_true|].
    eapply inv_bind; [apply inv_push_data; assumption|]. intros; assumption.
  Qed.
  Lemma inv_pop_n : forall n, invw T (pop_n n).
  Proof. induction n; cbn [pop_n]; [apply inv_ret_true|]. eapply inv_bind; [apply inv_pop_data|]. intros; assumption. Qed.
  Lemma inv_vec_collect : forall ptr, inv T (Forall (tg T)) (vec_collect_till_ptr ptr).
  Proof.
    intro ptr. unfold vec_collect_till_ptr. apply inv_get_bind. intros s0 H0. cbv zeta.
    destruct (length (ds s0) <? ptr); [apply inv_fail; exact I|].
    eapply inv_bind; [apply inv_pop_n|]. intros _ _. apply inv_ret. apply tg_rev, tg_firstn, H0.
  Qed.
  Lemma inv_map_collect : forall ptr, inv T (Forall (tg2 T)) (map_collect_till_ptr ptr).
  Proof.
    intro ptr. unfold map_collect_till_ptr. apply inv_get_bind. intros s0 H0. cbv zeta.
    destruct (length (ds s0) <? ptr); [apply inv_fail; exact I|].
    destruct (negb _); [apply inv_fail; exact I|].
    eapply inv_bind; [apply inv_pop_n|]. intros _ _. apply inv_ret.
    apply tg_pairs_insert; [apply tg_rev, tg_firstn, H0 | constructor].
  Qed.
End FreshWords.
#[export] Hint Resolve inv_vector_get inv_push_all inv_pop_n inv_vec_collect inv_map_collect : invdb.
#[export] Hint Resolve tg_tags tg_get_tag_default : tgdb.

Section FreshWords2.
  Variable fo : fops.
  Variable T : cell -> Prop.

  Lemma inv_w_collect : invw T w_collect.
  Proof.
    unfold w_collect. eapply inv_bind; [apply inv_pop_data|]. intros c Hc.
    eapply inv_bind; [apply inv_m_usize; assumption|]. intros n _.
    apply inv_get_bind. intros s0 H0. inv_go.
  Qed.
  Lemma inv_w_depth : invw T w_depth.
  Proof. unfold w_depth. apply inv_get_bind. intros. inv_go. Qed.
  Lemma inv_w_vec_begin : invw T w_vec_begin.
  Proof. unfold w_vec_begin. apply inv_get_bind. intros. inv_go. Qed.
  Lemma inv_w_display_stack : invw T w_display_stack.
  Proof. unfold w_display_stack. apply inv_get_bind. intros. inv_go. Qed.
  Lemma inv_w_decode : forall d, invw T (w_decode d).
  Proof. intro d. unfold w_decode. apply inv_get_bind. intros. inv_go. Qed.

  Lemma active_loops_tg : forall s, tg_state T s -> Forall (fun l => tg T (l_items l)) (active_loops s).
  Proof.
    intros s (_ & _ & H). unfold active_loops. revert H. apply Forall_incl, incl_firstn.
  Qed.
  Lemma inv_w_counter : forall n, invw T (w_counter n).
  Proof.
    intro n. unfold w_counter. apply inv_get_bind. intros s0 H0.
    destruct (nth_error (active_loops s0) n) as [l|] eqn:E; [| inv_go].
    assert (Hl : tg T (l_items l)).
    { pose proof (active_loops_tg _ H0) as F. rewrite Forall_forall in F. apply F. eapply nth_error_In; eassumption. }
    inv_go.
  Qed.
  Lemma inv_w_foreach_next : invw T w_foreach_next.
  Proof. unfold w_foreach_next. apply inv_get_bind. intros s0 H0. inv_go. Qed.

  Lemma bcv_tg : forall f v acc, Forall (tg T) v -> tgo T (snd (bitstr_concat_vec f v acc)).
  Proof.
    induction f as [| f IHf]; intros v acc H; [exact I|].
    revert acc. induction H as [| x r Hx Hr IHv]; intro acc; [exact I|].
    cbn [bitstr_concat_vec]. pose proof (tg_value T x Hx) as V. revert V. generalize (value x). intros y V.
    destruct y; try exact V; try apply IHv.
    - destruct ((0 <=? z) && (z <=? 255))%Z; [apply IHv | exact I].
    - apply tg_vec in V. specialize (IHf l (mkcbs 0 0 []) V).
      destruct (bitstr_concat_vec f l (mkcbs 0 0 [])) as [o p]. cbn [snd] in IHf.
      destruct o; [apply IHv | exact IHf | exact IHf].
  Qed.
  Lemma inv_bitstr_concat : forall c, tg T c -> invw T (bitstr_concat c).
  Proof.
    intros c H. unfold bitstr_concat. by_tg H; try (inv_go; fail).
    pose proof (bcv_tg 40 l (mkcbs 0 0 []) V) as P.
    destruct (bitstr_concat_vec 40 l (mkcbs 0 0 [])) as [o p]. cbn [snd] in P.
    destruct o; [apply inv_ret_true | apply inv_fail; assumption | apply inv_unsup].
  Qed.
  Lemma inv_w_close_bitstr : invw T w_close_bitstr.
  Proof.
    unfold w_close_bitstr. eapply inv_bind; [apply inv_get_var|]. intros st Hst.
    eapply inv_bind; [apply inv_m_vec; assumption|]. intros v Hv.
    apply tg_rev in Hv. destruct (rev v) as [| last r]; [apply inv_fail; exact I|].
    inversion Hv; subst. inv_go.
  Qed.
End FreshWords2.
#[export] Hint Resolve inv_w_close_bitstr inv_w_collect inv_w_depth inv_w_vec_begin inv_w_display_stack inv_w_decode inv_w_counter
  inv_w_foreach_next inv_bitstr_concat : invdb.

Definition tag_makers : list string :=
  ["with-tags"; "insert-tag"; "remove-tag"; "%tagmap-end"; "%fmt-base"; "%fmt-prefix"; "%fmt-tags"; "%fmt-upcase";
   "open-bitstr"; "float"; "int"; "uint"]%string.
Definition tag_maker (w : string) : bool := existsb (String.eqb w) tag_makers.

Lemma inv_word_table : forall fo,
  Forall (fun nw => tag_maker (fst nw) = true \/ forall T, invw T (snd nw)) (word_table fo).
Proof.
  intro fo.
  (* the names are evaluated away before the rows are gone through, as in [wp_word_table] *)
  apply (proj1 (Forall_map (fun nw => (tag_maker (fst nw), snd nw))
                           (fun bw => fst bw = true \/ forall T, invw T (snd bw)) (word_table fo))).
  cbv [map fst snd word_table tag_maker tag_makers existsb orb andb String.eqb Ascii.eqb Bool.eqb].
  repeat (apply Forall_cons; [ first [ left; reflexivity | right; cbn [snd]; intro; solve [ inv_go ] ] | ]).
  apply Forall_nil.
Qed.

Theorem fresh_untagged : forall fo w f T s,
  table_find (word_table fo) w = Some f -> tag_maker w = false -> tg_state T s ->
  match f s with
  | ROk _ s' => tg_state T s'
  | RErr _ p s' => tgo T p /\ tg_state T s'
  | _ => True
  end.
Proof.
  intros fo w f T s H Hm Hs.
  assert (I : invw T f).
  { destruct (table_find_row (fun n x => tag_maker n = true \/ forall T, invw T x) _ _ _ (inv_word_table fo) H)
      as [M | I]; [congruence | apply I]. }
  specialize (I s Hs). destruct (f s); auto. apply I.
Qed.

(* the packing words of the sized families create no tags either *)
Theorem fresh_pack_words : forall fo T n o, invw T (pack_int n o) /\ invw T (pack_float fo n o).
Proof. intros. split; inv_go. Qed.

Definition no_tags : cell -> Prop := tg (fun _ => False).
Definition no_tags_state : state -> Prop := tg_state (fun _ => False).

Lemma no_tags_strip : forall c, no_tags c -> strip c = c.
Proof.
  induction c using cell_ind'; intro Hc; cbn [strip]; auto.
  - apply tg_vec in Hc. f_equal. rewrite Forall_forall in *.
    rewrite <- (map_id l) at 2. apply map_ext_in. intros a Ha. apply H; [assumption | apply Hc; assumption].
  - apply tg_map in Hc. f_equal. rewrite Forall_forall in *.
    rewrite <- (map_id m) at 2. apply map_ext_in. intros [k v] Hkv.
    destruct (H _ Hkv) as [H1 H2], (Hc _ Hkv) as [C1 C2]. cbn [fst snd] in *.
    rewrite (H1 C1), (H2 C2). reflexivity.
  - destruct Hc as [[] _].
Qed.

(* provenance: every tag wrapper of the output is a component of a cell the machine held *)
Definition comp (x d : cell) : Prop :=
  match d with
  | CVec l => In x l
  | CMap m => exists kv, In kv m /\ (x = fst kv \/ x = snd kv)
  | CTag t v => x = v \/ exists kv, In kv t /\ (x = fst kv \/ x = snd kv)
  | _ => False
  end.
Inductive subcell : cell -> cell -> Prop :=
| sub_refl : forall c, subcell c c
| sub_step : forall x y d, comp x y -> subcell y d -> subcell x d.

Lemma subcell_deep : forall d0 d, subcell d d0 -> deepT (fun x => subcell x d0) d.
Proof.
  intros d0. induction d using cell_ind'; intro Hd; try (split; [assumption | exact I]).
  - apply deepT_vec. split; auto. rewrite Forall_forall in *. intros x Hx. apply H; auto.
    eapply sub_step; [| exact Hd]. exact Hx.
  - apply deepT_map. split; auto. rewrite Forall_forall in *. intros kv Hkv. destruct (H _ Hkv) as [H1 H2].
    split; [apply H1 | apply H2]; (eapply sub_step; [| exact Hd]); exists kv; auto.
  - apply deepT_tag. split; auto. split.
    + rewrite Forall_forall in *. intros kv Hkv. destruct (H _ Hkv) as [H1 H2].
      split; [apply H1 | apply H2]; (eapply sub_step; [| exact Hd]); right; exists kv; auto.
    + apply IHd. eapply sub_step; [| exact Hd]. left. reflexivity.
Qed.

Lemma deepT_impl : forall (P Q : cell -> Prop), (forall c, P c -> Q c) -> forall c, deepT P c -> deepT Q c.
Proof.
  intros P Q HPQ. induction c using cell_ind'; try (intros [H1 H2]; split; auto; fail).
  - rewrite !deepT_vec. intros [H1 H2]. split; auto. rewrite Forall_forall in *. auto.
  - rewrite !deepT_map. intros [H1 H2]. split; auto.
    rewrite Forall_forall in *. intros kv Hkv. destruct (H _ Hkv), (H2 _ Hkv). split; auto.
  - rewrite !deepT_tag. intros (H1 & H2 & H3). split; auto. split; auto.
    rewrite Forall_forall in *. intros kv Hkv. destruct (H _ Hkv), (H2 _ Hkv). split; auto.
Qed.

Definition state_cells (s : state) : list cell := ds s ++ heap s ++ map l_items (loops s).
Definition came_from (s : state) (x : cell) : Prop := exists d, In d (state_cells s) /\ subcell x d.

Lemma came_from_self : forall s, tg_state (came_from s) s.
Proof.
  intro s.
  assert (A : forall d, In d (state_cells s) -> tg (came_from s) d).
  { intros d Hd. eapply deepT_impl; [| apply (subcell_deep d d (sub_refl d))].
    intros c Hc. destruct c; cbn; auto. exists d. auto. }
  unfold tg_state, state_cells in *. repeat split; apply Forall_forall; intros x Hx; apply A.
  - apply in_or_app. auto.
  - apply in_or_app. right. apply in_or_app. auto.
  - apply in_or_app. right. apply in_or_app. right. apply in_map. assumption.
Qed.

(* the words left out do build tag wrappers *)
Example with_tags_makes_a_tag :
  let s := mkstate [] [] [] [] [] [] [CMap []; CInt 1] [] [] [] [] (mkctx 0 0 0 0 0 0 0 0 MEval) [] 0%Z
                   None None None None EmptyString None false in
  match w_with_tags s with ROk _ s' => ds s' = [CTag [] (CInt 1)] | _ => False end.
Proof. vm_compute. reflexivity. Qed.
