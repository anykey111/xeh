(* CompileBwdMain.v: closedness spelled out, and the converse theorems for every source the
   parser accepts. *)
From Xeh Require Import Model.Prelude Model.Bits Model.Codec Model.Cell Model.Lexer Model.Fmt
                        Model.Vm Model.Words Model.Struct
                        Proofs.VmFrame Proofs.VmDrive Proofs.CompileSim Proofs.CompileLayout Proofs.CompileStep
                        Proofs.CompileEval Proofs.CompileFwd Proofs.CompileFwd2 Proofs.CompileProg
                        Proofs.CompileParse Proofs.CompileParse2 Proofs.CompileParse3 Proofs.CompileMain
                        Proofs.CompileBwdStep Proofs.CompileBwdProg
                        Proofs.CompileBwdParse.
Local Notation length := List.length.

#[local] Arguments Z.add : simpl never.
#[local] Arguments Z.of_nat : simpl never.
#[local] Arguments Z.to_nat : simpl never.

Lemma cl_is : forall funs,
  (forall x, cl_s funs x <->
     match x with
     | SCall g _ => fun_body funs g <> None
     | SIf _ t => cl_b funs t
     | SIfE _ t e => cl_b funs t /\ cl_b funs e
     | SCase arms d => cl_a funs arms /\ cl_b funs d
     | SUntil b _ => cl_b funs b
     | SRepeat b => cl_b funs b
     | SWhile c _ b => cl_b funs c /\ cl_b funs b
     | SDo _ b _ => cl_b funs b
     | _ => True
     end) /\
  (forall l, cl_b funs l <-> match l with [] => True | x :: r => cl_s funs x /\ cl_b funs r end) /\
  (forall a, cl_a funs a <->
     match a with [] => True | (pre, _, body) :: r => cl_b funs pre /\ cl_b funs body /\ cl_a funs r end).
Proof.
  intro funs. unfold cl_s, cl_b, cl_a. split; [|split].
  - intro x. split.
    + intro H. inversion H; subst; auto.
    + intro H. destruct x; try constructor; try tauto.
  - intro l. split.
    + intro H. inversion H; subst; auto.
    + intro H. destruct l; [constructor|]. destruct H. constructor; assumption.
  - intro a. split.
    + intro H. inversion H; subst; auto.
    + intro H. destruct a as [|[[pre p] body] r]; [constructor|]. destruct H as (H1 & H2 & H3). constructor; assumption.
Qed.

Section Source.
  Variable fo : fops.
  Variable pr : string -> option Z.
  Notation nf := (native_fn fo).

  Lemma source_wf : forall src heap0 org prog l funs n,
    parse_source fo pr src heap0 = Some (l, funs, n) ->
    layout_program funs l org = Some prog ->
    prog_wf funs l /\ prog_closed funs l.
  Proof.
    intros src heap0 org prog l funs n HP HL. split.
    - eapply parse_prog_wf; [exact HP|]. eapply layout_well_placed; exact HL.
    - eapply parse_prog_closed; exact HP.
  Qed.

  Theorem source_run_converse : forall src org prog t0 s l funs n k r,
    parse_source fo pr src (length (heap t0)) = Some (l, funs, n) ->
    layout_program funs l org = Some prog ->
    skipn org (code s) = prog ->
    rlog s = None -> insn_limit s = None -> ip s = org ->
    sim (set_heap t0 (heap t0 ++ repeat CNil (n - length (heap t0)))) s ->
    run nf k s = Some r ->
    match r with
    | ROk _ s' => exists fuel t', seval_source fo pr fuel src t0 = CRun (SDone t') /\ sim t' s'
    | RErr kd pl s' => exists fuel p t', seval_source fo pr fuel src t0 = CRun (SFail kd pl p t') /\ sim t' s'
    | RPanic => exists fuel, seval_source fo pr fuel src t0 = CRun SUnsup
    | RUnsup => exists fuel, seval_source fo pr fuel src t0 = CRun SUnsup
    end.
  Proof.
    intros src org prog t0 s l funs n k r HP HL C Hl Hi Hip Hs Hr.
    destruct (source_wf _ _ _ _ _ _ _ HP HL) as [HW HC].
    pose proof (program_run_converse fo funs l org prog _ s k r HL HW HC C Hl Hi Hip Hs Hr) as H.
    destruct r as [u s'|kd pl s'| |]; cbn [run_reflects] in H.
    - destruct H as (fuel & t' & E & S'). exists fuel, t'. rewrite (seval_source_is fo pr fuel src t0 l funs n HP), E. auto.
    - destruct H as (fuel & p & t' & E & S'). exists fuel, p, t'. rewrite (seval_source_is fo pr fuel src t0 l funs n HP), E. auto.
    - destruct H as (fuel & E). exists fuel. rewrite (seval_source_is fo pr fuel src t0 l funs n HP), E. reflexivity.
    - destruct H as (fuel & E). exists fuel. rewrite (seval_source_is fo pr fuel src t0 l funs n HP), E. reflexivity.
  Qed.

  Theorem source_run_iff : forall src org prog t0 s l funs n,
    parse_source fo pr src (length (heap t0)) = Some (l, funs, n) ->
    layout_program funs l org = Some prog ->
    skipn org (code s) = prog ->
    rlog s = None -> insn_limit s = None -> ip s = org ->
    sim (set_heap t0 (heap t0 ++ repeat CNil (n - length (heap t0)))) s ->
    ((exists k s', run nf k s = Some (ROk tt s')) <->
     (exists fuel t', seval_source fo pr fuel src t0 = CRun (SDone t'))) /\
    ((exists k kd pl s', run nf k s = Some (RErr kd pl s')) <->
     (exists fuel kd pl p t', seval_source fo pr fuel src t0 = CRun (SFail kd pl p t'))) /\
    ((forall k, run nf k s = None) <-> (forall fuel, seval_source fo pr fuel src t0 = CRun SOut)).
  Proof.
    intros src org prog t0 s l funs n HP HL C Hl Hi Hip Hs.
    destruct (source_wf _ _ _ _ _ _ _ HP HL) as [HW HC].
    destruct (program_run_iff fo funs l org prog _ s HL HW HC C Hl Hi Hip Hs) as (A1 & A2 & A3).
    assert (Q : forall fuel r, seval_source fo pr fuel src t0 = CRun r <->
                               sblock fo funs fuel l (set_heap t0 (heap t0 ++ repeat CNil (n - length (heap t0)))) = r).
    { intros fuel r. rewrite (seval_source_is fo pr fuel src t0 l funs n HP). split; [intro E; injection E; auto|congruence]. }
    split; [|split].
    - rewrite A1. split; intros (fuel & t' & E); exists fuel, t'; apply Q; exact E.
    - rewrite A2. split; intros (fuel & kd & pl & p & t' & E); exists fuel, kd, pl, p, t'; apply Q; exact E.
    - rewrite A3. split; intros E fuel; apply Q; apply E.
  Qed.
End Source.
