(* CodecProofs.v: the number codecs of Codec.v meet their specification. *)
From Xeh Require Import Model.Prelude Model.Bits Model.Codec Proofs.BitsBasic Proofs.BitsProofs
  Proofs.CodecBasic.
From Coq Require Import ZifyBool ZifyNat ZifyN.

Local Open Scope Z_scope.

Lemma to_uint_spec : forall o c, wf c -> (clen c <= 128)%nat -> to_uint o c = spec_uint o (abs c).
Proof.
  intros o c Hwf Hlen. unfold to_uint, spec_uint. rewrite (iter8_spec c Hwf).
  pose proof (abs_length c) as HL.
  destruct o.
  - rewrite le_fold.
    + lia.
    + change (2 ^ Z.of_nat 0) with 1. lia.
    + lia.
  - rewrite (be_fold _ 0 0).
    + lia.
    + lia.
    + change (2 ^ 0) with 1. lia.
    + lia.
Qed.

Lemma spec_uint_bound o l : 0 <= spec_uint o l < 2 ^ Z.of_nat (length l).
Proof.
  destruct o; cbn [spec_uint].
  - pose proof (le_groups_bound l 0) as H.
    change (2 ^ Z.of_nat 0) with 1 in H. rewrite Z.add_0_l in H. lia.
  - apply bitsZ_bound.
Qed.

Lemma testbit_top u n : 0 <= n -> 0 <= u < 2 ^ (n + 1) -> Z.testbit u n = negb (u <? 2 ^ n).
Proof.
  intros Hn Hu. rewrite Z.pow_add_r, Z.pow_1_r in Hu by lia.
  destruct (Z.ltb_spec u (2 ^ n)); cbn [negb].
  - rewrite <- (Z.mod_small u (2 ^ n)) by lia. apply Z.mod_pow2_bits_high. lia.
  - apply Z.testbit_true; [lia|].
    replace (u / 2 ^ n) with 1; [reflexivity|].
    apply Z.div_unique with (u - 2 ^ n); lia.
Qed.

Lemma to_int_spec : forall o c, wf c -> (clen c <= 128)%nat -> to_int o c = spec_int o (abs c).
Proof.
  intros o c Hwf Hlen. unfold to_int, spec_int. rewrite to_uint_spec by assumption.
  rewrite abs_length. pose proof (spec_uint_bound o (abs c)) as Hb. rewrite abs_length in Hb.
  set (u := spec_uint o (abs c)) in *. set (w := clen c) in *. clearbody u w.
  cbv zeta. unfold sext.
  destruct (w =? 0)%nat eqn:E0; [reflexivity|].
  apply Nat.eqb_neq in E0.
  destruct (w =? 128)%nat eqn:E128.
  - apply Nat.eqb_eq in E128. subst w. unfold of_u128, wrap128.
    change (Z.of_nat 128) with 128 in *. change (Z.of_nat (128 - 1)) with 127.
    fold two128 in Hb |- *. fold two127. rewrite Z.mod_small by lia. reflexivity.
  - apply Nat.eqb_neq in E128.
    replace (Z.of_nat w) with (Z.of_nat (w - 1) + 1) in Hb by lia.
    rewrite testbit_top by lia.
    destruct (Z.ltb_spec u (2 ^ Z.of_nat (w - 1))) as [Hlt|Hge]; cbn [negb]; [reflexivity|].
    replace (Z.of_nat (w - 1) + 1) with (Z.of_nat w) in Hb by lia.
    replace (2 ^ Z.of_nat w - 1) with (Z.ones (Z.of_nat w)) by (rewrite Z.ones_equiv; lia).
    rewrite Z.land_ones by lia.
    assert (H128 : two128 = 2 ^ (128 - Z.of_nat w) * 2 ^ Z.of_nat w).
    { unfold two128. rewrite <- Z.pow_add_r by lia. f_equal. lia. }
    replace (two128 - 1 - u)
      with (2 ^ Z.of_nat w - 1 - u + (2 ^ (128 - Z.of_nat w) - 1) * 2 ^ Z.of_nat w)
      by (rewrite H128; ring).
    rewrite Z_mod_plus_full. rewrite Z.mod_small by lia. lia.
Qed.

Lemma shl8_lt x k : (shl8 x k < 256)%N.
Proof. apply BitsKernel.land_255_lt. Qed.

Lemma from_int_be_len v : forall f i, (i <= f)%nat -> (i <= 8 * length (from_int_be v f i))%nat.
Proof.
  induction f as [|f IH]; intros i Hi; [lia|].
  cbn [from_int_be]. destruct (Nat.eqb_spec i 0) as [->|Hne]; [lia|].
  cbn [length]. specialize (IH (i - Nat.min i 8)%nat ltac:(lia)). lia.
Qed.

Lemma from_int_be_bytes v : forall f i, Forall (fun x => (x < 256)%N) (from_int_be v f i).
Proof.
  induction f as [|f IH]; intros i; cbn [from_int_be]; [constructor|].
  destruct (i =? 0)%nat; constructor; [apply shl8_lt|apply IH].
Qed.

Lemma from_int_le_len v w : forall f i, (w - i <= f)%nat ->
  (w - i <= 8 * length (from_int_le v w f i))%nat.
Proof.
  induction f as [|f IH]; intros i Hi; [lia|].
  cbn [from_int_le]. destruct (Nat.leb_spec w i) as [Hle|Hlt]; [lia|].
  cbn [length]. specialize (IH (i + Nat.min (w - i) 8)%nat ltac:(lia)). lia.
Qed.

Lemma from_int_le_bytes v w : forall f i, Forall (fun x => (x < 256)%N) (from_int_le v w f i).
Proof.
  induction f as [|f IH]; intros i; cbn [from_int_le]; [constructor|].
  destruct (w <=? i)%nat; constructor; [apply shl8_lt|apply IH].
Qed.

Lemma from_int_wf : forall v w o, wf (from_int v w o) /\ clen (from_int v w o) = w.
Proof.
  intros v w o. split; [|unfold clen, from_int; cbn [cend cstart]; lia].
  unfold wf, from_int; cbn [cstart cend cdata]. split; [lia|]. destruct o.
  - split; [|apply from_int_le_bytes].
    pose proof (from_int_le_len v w w 0%nat ltac:(lia)). lia.
  - split; [|apply from_int_be_bytes].
    apply from_int_be_len. lia.
Qed.

Lemma mod_mod_pow z n m : 0 <= n <= m -> (z mod 2 ^ m) mod 2 ^ n = z mod 2 ^ n.
Proof.
  intros H. replace m with (n + (m - n)) by lia. rewrite Z.pow_add_r by lia.
  assert (0 < 2 ^ n) by (apply Z.pow_pos_nonneg; lia).
  assert (0 < 2 ^ (m - n)) by (apply Z.pow_pos_nonneg; lia).
  rewrite Z.rem_mul_r by lia. rewrite (Z.mul_comm (2 ^ n)), Z_mod_plus_full.
  apply Z.mod_mod. lia.
Qed.

Lemma u8_of_lt z : (u8_of z < 256)%N.
Proof. unfold u8_of. pose proof (Z.mod_pos_bound z 256 ltac:(lia)). lia. Qed.

Lemma u8_of_Z z : Z.of_N (u8_of z) = z mod 256.
Proof. unfold u8_of. pose proof (Z.mod_pos_bound z 256 ltac:(lia)). lia. Qed.

Lemma u8_kernel z n : (n <= 8)%nat ->
  bitsZ (firstn n (byte_bits (shl8 (u8_of z) (8 - n)))) = z mod 2 ^ Z.of_nat n.
Proof.
  intros Hn. unfold bitsZ. rewrite shl_kernel by (auto using u8_of_lt).
  rewrite N2Z.inj_mod, N2Z.inj_pow, nat_N_Z, u8_of_Z.
  change (Z.of_N 2) with 2. change 256 with (2 ^ 8). apply mod_mod_pow. lia.
Qed.

Lemma be_abs v : forall f i, (i <= f)%nat -> (i <= 128)%nat ->
  bitsZ (abs (mkcbs 0 i (from_int_be v f i))) = v mod 2 ^ Z.of_nat i.
Proof.
  induction f as [|f IH]; intros i Hf Hi.
  - replace i with 0%nat by lia. cbn [from_int_be]. rewrite abs0_nil.
    rewrite bitsZ_nil. change (2 ^ Z.of_nat 0) with 1. now rewrite Z.mod_1_r.
  - cbn [from_int_be]. destruct (Nat.eqb_spec i 0) as [->|Hne].
    + rewrite abs0_nil, bitsZ_nil. change (2 ^ Z.of_nat 0) with 1. now rewrite Z.mod_1_r.
    + set (n := Nat.min i 8).
      assert (Hn : (1 <= n <= 8)%nat) by lia.
      rewrite Nat.mod_small by lia.
      rewrite abs0_cons. fold n. rewrite bitsZ_app.
      rewrite u8_kernel by lia. rewrite abs_length. unfold clen; cbn [cstart cend].
      replace (i - 8 - 0)%nat with (i - n)%nat by lia.
      replace (i - 8)%nat with (i - n)%nat by lia.
      rewrite IH by lia.
      rewrite Z.shiftr_div_pow2 by lia.
      replace (Z.of_nat i) with (Z.of_nat (i - n) + Z.of_nat n) by lia.
      rewrite Z.pow_add_r by lia.
      assert (0 < 2 ^ Z.of_nat (i - n)) by (apply Z.pow_pos_nonneg; lia).
      assert (0 < 2 ^ Z.of_nat n) by (apply Z.pow_pos_nonneg; lia).
      rewrite (Z.rem_mul_r v) by lia. ring.
Qed.

Lemma le_abs v w : (w <= 128)%nat -> forall f i sh, (w - i <= f)%nat ->
  le_groups (chunk8 (abs (mkcbs 0 (w - i) (from_int_le v w f i)))) sh
  = ((v / 2 ^ Z.of_nat i) mod 2 ^ Z.of_nat (w - i)) * 2 ^ Z.of_nat sh.
Proof.
  intros Hw. induction f as [|f IH]; intros i sh Hf.
  - replace (w - i)%nat with 0%nat by lia. cbn [from_int_le]. rewrite abs0_nil.
    cbn [chunk8 chunks8 length le_groups]. change (2 ^ Z.of_nat 0) with 1. now rewrite Z.mod_1_r.
  - cbn [from_int_le]. destruct (Nat.leb_spec w i) as [Hle|Hlt].
    + replace (w - i)%nat with 0%nat by lia. rewrite abs0_nil.
      cbn [chunk8 chunks8 length le_groups]. change (2 ^ Z.of_nat 0) with 1. now rewrite Z.mod_1_r.
    + set (n := Nat.min (w - i) 8).
      assert (Hn : (1 <= n <= 8)%nat) by lia.
      rewrite Nat.mod_small by lia.
      rewrite abs0_cons. fold n.
      replace (w - i - 8)%nat with (w - (i + n))%nat by lia.
      set (g := firstn n _). set (r := abs _).
      assert (Hg : length g = n).
      { unfold g. rewrite firstn_length, byte_bits_length. lia. }
      assert (Hr : length r = (w - (i + n))%nat).
      { unfold r. rewrite abs_length. unfold clen; cbn [cstart cend]. lia. }
      rewrite chunk8_cons.
      * cbn [le_groups]. unfold r. rewrite IH by lia.
        unfold g. rewrite u8_kernel by lia. fold g. rewrite Hg.
        rewrite Z.shiftr_div_pow2 by lia.
        replace (Z.of_nat (w - i)) with (Z.of_nat n + Z.of_nat (w - (i + n))) by lia.
        rewrite !Nat2Z.inj_add. rewrite !Z.pow_add_r by lia.
        assert (0 < 2 ^ Z.of_nat i) by (apply Z.pow_pos_nonneg; lia).
        assert (0 < 2 ^ Z.of_nat n) by (apply Z.pow_pos_nonneg; lia).
        assert (0 < 2 ^ Z.of_nat (w - (i + n))) by (apply Z.pow_pos_nonneg; lia).
        rewrite (Z.rem_mul_r (v / 2 ^ Z.of_nat i)) by lia.
        rewrite Z.div_div by lia. ring.
      * intros E. rewrite E in Hg. cbn in Hg. lia.
      * lia.
      * destruct (Nat.eq_dec n 8) as [E8|N8]; [left; lia|right].
        apply length_zero_iff_nil. lia.
Qed.

Lemma from_int_value o v w : (w <= 128)%nat ->
  spec_uint o (abs (from_int v w o)) = v mod 2 ^ Z.of_nat w.
Proof.
  intros Hw. unfold from_int. destruct o; cbn [spec_uint].
  - pose proof (le_abs v w Hw w 0%nat 0%nat ltac:(lia)) as H.
    rewrite Nat.sub_0_r in H. rewrite H.
    change (2 ^ Z.of_nat 0) with 1. rewrite Z.div_1_r. lia.
  - apply be_abs; lia.
Qed.

Lemma roundtrip_unsigned : forall o v w d, (1 <= w <= 128)%nat -> wf d ->
  abs d = abs (from_int v w o) -> to_uint o d = (v mod 2 ^ Z.of_nat w)%Z.
Proof.
  intros o v w d Hw Hwf Habs.
  assert (Hlen : clen d = w).
  { rewrite <- (abs_length d), Habs, abs_length. apply from_int_wf. }
  rewrite to_uint_spec by (auto; lia). rewrite Habs. apply from_int_value. lia.
Qed.

Lemma roundtrip_signed : forall o v w d, (1 <= w <= 128)%nat -> wf d ->
  abs d = abs (from_int v w o) -> to_int o d = sext w (v mod 2 ^ Z.of_nat w)%Z.
Proof.
  intros o v w d Hw Hwf Habs.
  assert (Hlen : clen d = w).
  { rewrite <- (abs_length d), Habs, abs_length. apply from_int_wf. }
  rewrite to_int_spec by (auto; lia). unfold spec_int.
  rewrite abs_length, Hlen. rewrite Habs. rewrite from_int_value by lia. reflexivity.
Qed.

Local Ltac Zify.zify_post_hook ::= Z.div_mod_to_equations.

Lemma pow2_pos n : 0 <= n -> 0 < 2 ^ n.
Proof. intros. apply Z.pow_pos_nonneg; lia. Qed.

Lemma Z_to_be_bytes_length : forall k z, length (Z_to_be_bytes k z) = k.
Proof.
  induction k as [|k IH]; intros z; [reflexivity|].
  cbn [Z_to_be_bytes]. rewrite app_length, IH. cbn [length]. lia.
Qed.

Lemma Z_to_be_bytes_lt : forall k z x, In x (Z_to_be_bytes k z) -> (x < 256)%N.
Proof.
  induction k as [|k IH]; intros z x Hin; [destruct Hin|].
  cbn [Z_to_be_bytes] in Hin. apply in_app_or in Hin. destruct Hin as [Hin|[<-|[]]].
  - eapply IH; eauto.
  - apply u8_of_lt.
Qed.

Lemma u8_of_mod z m : 8 <= m -> u8_of (z mod 2 ^ m) = u8_of z.
Proof.
  intros Hm. unfold u8_of. f_equal. change 256 with (2 ^ 8). apply mod_mod_pow. lia.
Qed.

Lemma mod_pow_div256 z m : 0 <= m -> (z mod 2 ^ (8 + m)) / 256 = (z / 256) mod 2 ^ m.
Proof.
  intros Hm. rewrite Z.pow_add_r by lia. change (2 ^ 8) with 256.
  pose proof (pow2_pos m Hm).
  rewrite Z.rem_mul_r by lia.
  rewrite (Z.mul_comm 256), Z.div_add by lia.
  rewrite Z.div_small by (apply Z.mod_pos_bound; lia). lia.
Qed.

Lemma Z_to_be_bytes_mod : forall k z,
  Z_to_be_bytes k (z mod 2 ^ Z.of_nat (8 * k)) = Z_to_be_bytes k z.
Proof.
  induction k as [|k IH]; intros z; [reflexivity|].
  cbn [Z_to_be_bytes].
  replace (Z.of_nat (8 * S k)) with (8 + Z.of_nat (8 * k)) by lia.
  rewrite mod_pow_div256 by lia. rewrite IH.
  rewrite u8_of_mod by lia. reflexivity.
Qed.

Lemma Z_to_be_bytes_cons : forall j z,
  Z_to_be_bytes (S j) z = u8_of (z / 2 ^ Z.of_nat (8 * j)) :: Z_to_be_bytes j z.
Proof.
  induction j as [|j IH]; intros z.
  - cbn [Z_to_be_bytes app]. change (2 ^ Z.of_nat (8 * 0)) with 1. now rewrite Z.div_1_r.
  - change (Z_to_be_bytes (S (S j)) z) with (Z_to_be_bytes (S j) (z / 256) ++ [u8_of z]).
    rewrite IH. cbn [app]. f_equal.
    f_equal. rewrite Z.div_div by (try apply pow2_pos; lia).
    f_equal. replace (Z.of_nat (8 * S j)) with (8 + Z.of_nat (8 * j)) by lia.
    now rewrite Z.pow_add_r by lia.
Qed.

Lemma shl8_0 x : (x < 256)%N -> shl8 x 0 = x.
Proof.
  intros Hx. unfold shl8. change (N.of_nat 0) with 0%N. rewrite N.shiftl_0_r.
  change 255%N with (N.ones 8). rewrite N.land_ones. apply N.mod_small. exact Hx.
Qed.

Lemma from_int_be_bytes_eq v : forall j f, (j <= 16)%nat -> (8 * j <= f)%nat ->
  from_int_be v f (8 * j) = Z_to_be_bytes j v.
Proof.
  induction j as [|j IH]; intros f Hj Hf.
  - change (8 * 0)%nat with 0%nat. destruct f; reflexivity.
  - destruct f as [|f]; [lia|]. cbn [from_int_be].
    destruct (Nat.eqb_spec (8 * S j) 0) as [E|_]; [lia|].
    replace (Nat.min (8 * S j) 8) with 8%nat by lia.
    replace (8 * S j - 8)%nat with (8 * j)%nat by lia.
    rewrite Nat.mod_small by lia. change (8 - 8)%nat with 0%nat.
    rewrite shl8_0 by apply u8_of_lt.
    rewrite IH by lia. rewrite Z_to_be_bytes_cons.
    rewrite Z.shiftr_div_pow2 by lia. reflexivity.
Qed.

Lemma from_int_le_bytes_eq v k : (k <= 16)%nat -> forall m j f,
  (j + m = k)%nat -> (8 * m <= f)%nat ->
  from_int_le v (8 * k) f (8 * j) = rev (Z_to_be_bytes m (v / 2 ^ Z.of_nat (8 * j))).
Proof.
  intros Hk. induction m as [|m IH]; intros j f Hjm Hf.
  - cbn [Z_to_be_bytes rev]. destruct f; cbn [from_int_le]; [reflexivity|].
    destruct (Nat.leb_spec (8 * k) (8 * j)); [reflexivity|lia].
  - destruct f as [|f]; [lia|]. cbn [from_int_le].
    destruct (Nat.leb_spec (8 * k) (8 * j)) as [E|_]; [lia|].
    replace (Nat.min (8 * k - 8 * j) 8) with 8%nat by lia.
    replace (8 * j + 8)%nat with (8 * S j)%nat by lia.
    rewrite Nat.mod_small by lia. change (8 - 8)%nat with 0%nat.
    rewrite shl8_0 by apply u8_of_lt.
    rewrite IH by lia. cbn [Z_to_be_bytes]. rewrite rev_app_distr. cbn [rev app].
    rewrite Z.shiftr_div_pow2 by lia. f_equal. f_equal. f_equal.
    rewrite Z.div_div by (try apply pow2_pos; lia). f_equal.
    replace (Z.of_nat (8 * S j)) with (Z.of_nat (8 * j) + 8) by lia.
    now rewrite Z.pow_add_r by lia.
Qed.

Lemma to_bytes_aligned k d : length d = k -> to_bytes (mkcbs 0 (8 * k) d) = Some d.
Proof.
  intros Hd. unfold to_bytes, slice, is_u8_slice, is_bytestr, bytes_of, clen, ubi.
  cbn [cstart cend cdata].
  change (0 mod 8)%nat with 0%nat. change (0 / 8)%nat with 0%nat.
  assert (E1 : ((8 * k - 0) mod 8 = 0)%nat) by lia.
  assert (E2 : ((8 * k) mod 8 = 0)%nat) by lia.
  assert (E3 : ((8 * k) / 8 = k)%nat) by lia.
  rewrite E1, E2, E3. cbn [Nat.eqb Nat.ltb Nat.leb andb skipn].
  rewrite Nat.add_0_r, Nat.sub_0_r. rewrite firstn_all2 by lia. reflexivity.
Qed.

Lemma layout_spec : forall o v k, (k <= 16)%nat ->
  to_bytes (from_int v (8 * k) o) =
  Some (match o with Big => be_layout k v | Little => le_layout k v end).
Proof.
  intros o v k Hk. unfold from_int, le_layout, be_layout. rewrite Z_to_be_bytes_mod.
  destruct o.
  - pose proof (from_int_le_bytes_eq v k Hk k 0%nat (8 * k)%nat ltac:(lia) ltac:(lia)) as H.
    change (8 * 0)%nat with 0%nat in H. change (2 ^ Z.of_nat 0) with 1 in H.
    rewrite Z.div_1_r in H. rewrite H.
    apply to_bytes_aligned. now rewrite rev_length, Z_to_be_bytes_length.
  - rewrite from_int_be_bytes_eq by lia.
    apply to_bytes_aligned. apply Z_to_be_bytes_length.
Qed.

Lemma abs_from_bytes : forall d, abs (from_bytes d) = flat_map byte_bits d.
Proof.
  unfold from_bytes. induction d as [|x r IH]; [reflexivity|].
  rewrite abs0_cons. cbn [flat_map].
  replace (Nat.min (8 * length (x :: r)) 8) with 8%nat by (cbn [length]; lia).
  replace (8 * length (x :: r) - 8)%nat with (8 * length r)%nat by (cbn [length]; lia).
  rewrite IH. rewrite firstn_all2 by (rewrite byte_bits_length; lia). reflexivity.
Qed.

Lemma chunk8_flat_bytes : forall d, chunk8 (flat_map byte_bits d) = map byte_bits d.
Proof.
  induction d as [|x r IH]; [reflexivity|].
  cbn [flat_map map]. rewrite chunk8_app by apply byte_bits_length. now rewrite IH.
Qed.

Lemma iter8_bytes d bs : wf d -> abs d = abs (from_bytes bs) ->
  (forall x, In x bs -> (x < 256)%N) -> map fst (iter8 d) = bs.
Proof.
  intros Hwf Habs Hlt. rewrite iter8_spec by exact Hwf.
  rewrite Habs, abs_from_bytes, chunk8_flat_bytes. rewrite !map_map.
  rewrite <- (map_id bs) at 2. apply map_ext_in. intros x Hx.
  cbn [grp fst]. apply BitsKernel.bits_to_N_tb. auto.
Qed.

Lemma take_pad_all : forall k l, length l = k -> take_pad k l = l.
Proof.
  induction k as [|k IH]; intros l Hl; destruct l as [|x r]; try discriminate; [reflexivity|].
  cbn [take_pad]. f_equal. apply IH. cbn [length] in Hl. lia.
Qed.

Lemma be_bytes_to_Z_snoc l b : be_bytes_to_Z (l ++ [b]) = be_bytes_to_Z l * 256 + Z.of_N b.
Proof. unfold be_bytes_to_Z. rewrite fold_left_app. reflexivity. Qed.

Lemma be_bytes_roundtrip : forall k z,
  be_bytes_to_Z (Z_to_be_bytes k z) = z mod 2 ^ Z.of_nat (8 * k).
Proof.
  induction k as [|k IH]; intros z.
  - cbn [Z_to_be_bytes]. change (2 ^ Z.of_nat (8 * 0)) with 1. now rewrite Z.mod_1_r.
  - cbn [Z_to_be_bytes]. rewrite be_bytes_to_Z_snoc, IH, u8_of_Z.
    replace (Z.of_nat (8 * S k)) with (8 + Z.of_nat (8 * k)) by lia.
    rewrite Z.pow_add_r by lia. change (2 ^ 8) with 256.
    pose proof (pow2_pos (Z.of_nat (8 * k)) ltac:(lia)).
    rewrite (Z.rem_mul_r z) by lia. ring.
Qed.

Lemma float_roundtrip : forall k o pat d, (0 <= pat < 2 ^ Z.of_nat (8 * k))%Z -> wf d ->
  abs d = abs (from_fbits k o pat) -> to_fbits k o d = pat.
Proof.
  intros k o pat d Hpat Hwf Habs. unfold to_fbits, from_fbits in *.
  destruct o.
  - rewrite (iter8_bytes d (rev (Z_to_be_bytes k pat))); auto.
    + rewrite take_pad_all by (now rewrite rev_length, Z_to_be_bytes_length).
      rewrite rev_involutive, be_bytes_roundtrip. apply Z.mod_small. exact Hpat.
    + intros x Hx. apply in_rev in Hx. eapply Z_to_be_bytes_lt; eauto.
  - rewrite (iter8_bytes d (Z_to_be_bytes k pat)); auto.
    + rewrite take_pad_all by apply Z_to_be_bytes_length.
      rewrite be_bytes_roundtrip. apply Z.mod_small. exact Hpat.
    + intros x Hx. eapply Z_to_be_bytes_lt; eauto.
Qed.
