(* MetaNIWords.v (C11): [comm] (MetaNI.v) for every native word except `.s`, for the opcodes
   and for one machine step. *)
From Xeh Require Import Model.Prelude Model.Bits Model.Codec Model.Cell Model.Lexer Model.Fmt
                        Model.Vm Model.Words Model.Build.
From Xeh Require Import Proofs.VmFrame Proofs.VmLimits Proofs.NoPanic Proofs.NoPanicBuild Proofs.NoPanicFlow
                        Proofs.WordProg Proofs.MetaBase Proofs.MetaNI.
Local Notation length := List.length.
Local Open Scope string_scope.
Local Open Scope list_scope.

#[local] Arguments Z.add : simpl never.
#[local] Arguments Z.sub : simpl never.
#[local] Arguments Z.mul : simpl never.
#[local] Arguments Z.ltb : simpl never.
#[local] Arguments Z.leb : simpl never.
#[local] Arguments Z.eqb : simpl never.
#[local] Arguments Z.of_nat : simpl never.
#[local] Arguments Z.to_nat : simpl never.

Ltac cm_prim :=
  lazymatch goal with
  | |- comm _ (ret _) => apply comm_ret
  | |- comm _ (fail _ _) => apply comm_fail
  | |- comm _ unsup => apply comm_unsup
  | |- comm _ panic => apply comm_panic
  | |- comm _ (modify (fun s => set_stopping s _)) => apply comm_set_stopping
  | |- comm _ (push_data _) => apply comm_push_data
  | |- comm _ pop_data => apply comm_pop_data
  | |- comm _ top_data => apply comm_top_data
  | |- comm _ swap_data => apply comm_swap_data
  | |- comm _ rot_data => apply comm_rot_data
  | |- comm _ over_data => apply comm_over_data
  | |- comm _ (push_return _) => apply comm_push_return
  | |- comm _ pop_return => apply comm_pop_return
  | |- comm _ top_frame => apply comm_top_frame
  | |- comm _ (push_loop _) => apply comm_push_loop
  | |- comm _ pop_loop => apply comm_pop_loop
  | |- comm _ loop_next => apply comm_loop_next
  | |- comm _ (loop_set_items _) => apply comm_loop_set_items
  | |- comm _ (push_special _) => apply comm_push_special
  | |- comm _ pop_special => apply comm_pop_special
  | |- comm _ (get_var _) => apply comm_get_var
  | |- comm _ (set_var _ _) => apply comm_set_var
  | |- comm _ (init_local _ _) => apply comm_init_local
  | |- comm _ (set_ip _) => apply comm_set_ip
  | |- comm _ next_ip => apply comm_next_ip
  | |- comm _ (print _) => apply comm_print
  end.

Create HintDb cmdb.

Ltac cm_step :=
  cbv beta zeta;
  first
    [ cm_prim
    | solve [ auto 2 with cmdb nocore ]
    | lazymatch goal with
      | |- comm _ (bind get _) =>
        apply comm_get_bind;
        [ intros ? ?; cbv beta;
          first [ reflexivity
                | rewrite ?sw_length, ?depth_sw by assumption; reflexivity ]
        | intro ]
      | |- comm _ (bind _ _) => apply comm_bind; [ | intro ]
      | |- comm _ (match ?x with _ => _ end) => destruct x
      | |- comm _ ?m => let h := head_of m in unfold h
      end ].

Ltac cm_solve := repeat cm_step.

Section Words.
  Variable h' : list cell.

  Lemma comm_pop_n : forall k, comm h' (pop_n k).
  Proof. induction k; cbn [pop_n]; cm_solve. Qed.

  Lemma comm_push_all : forall l, comm h' (push_all l).
  Proof. induction l; cbn [push_all]; cm_solve. Qed.

  (* popping more cells than are visible fails *)
  Lemma pop_n_under : forall k s, wfd h' s -> length (ds s) - length h' < k ->
    forall a s', pop_n k s <> ROk a s'.
  Proof.
    induction k as [|k IH]; intros s W Hk a s' E; [lia|].
    cbn [pop_n] in E. unfold bind in E.
    destruct (comm_pop_data h' s W) as [_ W1].
    unfold pop_data in *. destruct W as [Wn Wl].
    destruct (ds s) as [|c r] eqn:Ed; [discriminate|].
    destruct (ds_len (cx s) <? length (c :: r))%nat eqn:El; [|discriminate].
    cbn [res_all] in W1. apply Nat.ltb_lt in El.
    eapply (IH _ W1); [|exact E].
    rewrite ds_add_rstep. cbn [set_ds ds]. cbn [length] in *. lia.
  Qed.

  Lemma comm_collect_aux A (k : nat) (f : state -> A) :
    (forall s, wfd h' s -> k <= length (ds s) - length h' -> f (sw h' s) = f s) ->
    forall s, wfd h' s ->
      (pop_n k ;; ret (f (sw h' s))) (sw h' s) = res_map (sw h') ((pop_n k ;; ret (f s)) s) /\
      res_all (wfd h') ((pop_n k ;; ret (f s)) s).
  Proof.
    intros Hf s W. destruct (le_lt_dec k (length (ds s) - length h')) as [Hk|Hk].
    - rewrite (Hf s W Hk).
      exact (comm_bind h' _ _ _ _ (comm_pop_n k) (fun _ => comm_ret h' _ (f s)) s W).
    - destruct (comm_pop_n k s W) as [E1 W1]. unfold bind. rewrite E1.
      pose proof (pop_n_under k s W Hk) as N.
      destruct (pop_n k s) as [a s1|? ? s1| |]; cbn [res_map res_all] in *;
        try (split; [reflexivity|assumption]).
      exfalso. eapply N. reflexivity.
  Qed.

  Lemma firstn_sw s k : wfd h' s -> k <= length (ds s) - length h' ->
    firstn k (ds (sw h' s)) = firstn k (ds s).
  Proof.
    intros W Hk. destruct (wfd_split h' s W) as (v & h & E & H).
    rewrite (sw_eq h' s v h E H). cbn [set_ds ds]. rewrite E.
    assert (Hv : k <= length v) by (rewrite E, app_length, H in Hk; lia).
    rewrite !firstn_app. replace (k - length v) with 0 by lia. cbn [firstn]. reflexivity.
  Qed.

  Lemma comm_vec_collect ptr : comm h' (vec_collect_till_ptr ptr).
  Proof.
    intros s W. unfold vec_collect_till_ptr. unfold bind at 1 3 5. unfold get. cbv zeta.
    rewrite (sw_length h' s W).
    destruct (length (ds s) <? ptr)%nat; [split; [reflexivity|exact W]|].
    apply (comm_collect_aux _ (length (ds s) - ptr)
             (fun t => rev (firstn (length (ds s) - ptr) (ds t)))); [|exact W].
    intros t Wt Hk. rewrite (firstn_sw t _ Wt Hk). reflexivity.
  Qed.

  Lemma comm_map_collect ptr : comm h' (map_collect_till_ptr ptr).
  Proof.
    intros s W. unfold map_collect_till_ptr. unfold bind at 1 3 5. unfold get. cbv zeta.
    rewrite (sw_length h' s W).
    destruct (length (ds s) <? ptr)%nat; [split; [reflexivity|exact W]|].
    destruct (negb _); [split; [reflexivity|exact W]|].
    apply (comm_collect_aux _ (length (ds s) - ptr)
             (fun t => pairs_insert (rev (firstn (length (ds s) - ptr) (ds t))) [])); [|exact W].
    intros t Wt Hk. rewrite (firstn_sw t _ Wt Hk). reflexivity.
  Qed.
End Words.

#[export] Hint Resolve comm_pop_n comm_push_all comm_vec_collect comm_map_collect : cmdb.

Section Table.
  Variable h' : list cell.

  Lemma comm_word_table fo :
    Forall (fun nw => String.eqb (fst nw) ".s" = false -> comm h' (snd nw)) (word_table fo).
  Proof.
    (* the names are compared first, so that the rows no longer carry strings *)
    apply (proj1 (Forall_map (fun nw => (String.eqb (fst nw) ".s", snd nw))
                             (fun bw => fst bw = false -> comm h' (snd bw)) (word_table fo))).
    cbv [map fst snd word_table String.eqb Ascii.eqb Bool.eqb].
    repeat (apply Forall_cons;
            [ cbn [fst snd]; intros Hne; first [ discriminate Hne | cm_solve ] | ]).
    apply Forall_nil.
  Qed.

  Lemma comm_sized_word : forall fo name w, sized_word fo name = Some w -> comm h' w.
  Proof.
    intros fo name w H. unfold sized_word in H. cbv beta zeta in H.
    repeat match type of H with
           | context [if ?b then _ else _] =>
             destruct b; cbv beta iota in H;
             [ injection H as <-; cm_solve | ]
           end.
    discriminate.
  Qed.

  (* every native word but `.s` *)
  Theorem native_comm : forall fo w f, native_fn fo w = Some f -> w <> ".s" -> comm h' f.
  Proof.
    intros fo w f H Hne. unfold native_fn in H.
    destruct (table_find (word_table fo) w) eqn:E.
    - injection H as <-.
      apply (table_find_row (fun n m => String.eqb n ".s" = false -> comm h' m) _ _ _ (comm_word_table fo) E).
      apply String.eqb_neq. exact Hne.
    - eapply comm_sized_word; eauto.
  Qed.

  Lemma comm_exec_op : forall (nf : natives),
    (forall w f, nf w = Some f -> w <> ".s" -> comm h' f) ->
    forall ip0 op, op <> ONative ".s" -> comm h' (exec_op nf ip0 op).
  Proof.
    intros nf Hnf ip0 op Hop. destruct op; cbn [exec_op]; try (cm_solve; fail).
    destruct (nf w) eqn:E; cm_solve. eapply Hnf; [exact E|]. intros ->. apply Hop. reflexivity.
  Qed.
End Table.

Lemma far_plain_eq nf s op :
  nth_error (code s) (ip s) = Some op -> (forall n, op <> OResolve n) ->
  fetch_and_run nf s =
  if mlim s (meter s) then RErr ELimit None s
  else exec_op nf (ip s) op (set_meter s (meter s + 1)%Z).
Proof.
  intros En Hr. unfold fetch_and_run. rewrite meter_increase_eq.
  destruct (mlim s (meter s)); [reflexivity|].
  change (code (set_meter s (meter s + 1)%Z)) with (code s). rewrite En.
  destruct op; try reflexivity. exfalso. eapply Hr. reflexivity.
Qed.

Lemma far_resolve_eq nf s name :
  nth_error (code s) (ip s) = Some (OResolve name) ->
  fetch_and_run nf s =
  if mlim s (meter s) then RErr ELimit None s
  else match dict_entry s name with
       | None => RErr EUnknown None (set_meter s (meter s + 1)%Z)
       | Some e =>
         let s2 := set_code (set_meter s (meter s + 1)%Z) (list_set (code s) (ip s) (resolve_op e)) in
         if mlim s (meter s + 1)%Z then RErr ELimit None s2
         else exec_op nf (ip s) (resolve_op e) (set_meter s2 (meter s + 1 + 1)%Z)
       end.
Proof.
  intros En. unfold fetch_and_run. rewrite meter_increase_eq.
  destruct (mlim s (meter s)); [reflexivity|].
  change (code (set_meter s (meter s + 1)%Z)) with (code s). rewrite En.
  change (dict_entry (set_meter s (meter s + 1)%Z) name) with (dict_entry s name).
  destruct (dict_entry s name) as [e|]; [|reflexivity].
  rewrite meter_increase_eq. cbv zeta.
  change (mlim (set_code (set_meter s (meter s + 1)%Z) (list_set (code s) (ip s) (resolve_op e)))
               (meter (set_code (set_meter s (meter s + 1)%Z) (list_set (code s) (ip s) (resolve_op e)))))
    with (mlim s (meter s + 1)%Z).
  destruct (mlim s (meter s + 1)%Z); reflexivity.
Qed.

Lemma far_none_eq nf s :
  nth_error (code s) (ip s) = None ->
  fetch_and_run nf s = if mlim s (meter s) then RErr ELimit None s else RPanic.
Proof.
  intros En. unfold fetch_and_run. rewrite meter_increase_eq.
  destruct (mlim s (meter s)); [reflexivity|].
  change (code (set_meter s (meter s + 1)%Z)) with (code s). rewrite En. reflexivity.
Qed.

Section Step.
  Variable h' : list cell.
  Variable fo : fops.

  (* the next instruction is a call of `.s` (possibly through a late-bound name) *)
  Definition shows_stack (s : state) : Prop :=
    nth_error (code s) (ip s) = Some (ONative ".s") \/
    exists name e, nth_error (code s) (ip s) = Some (OResolve name) /\
                   dict_entry s name = Some e /\ resolve_op e = ONative ".s".

  Lemma wfd_same s t : ds t = ds s -> cx t = cx s -> wfd h' s -> wfd h' t.
  Proof. unfold wfd. intros -> ->. auto. Qed.

  Theorem far_comm s : wfd h' s -> ~ shows_stack s ->
    fetch_and_run (native_fn fo) (sw h' s) = res_map (sw h') (fetch_and_run (native_fn fo) s) /\
    res_all (wfd h') (fetch_and_run (native_fn fo) s).
  Proof.
    intros W Hns.
    assert (Hx : forall op t, op <> ONative ".s" -> wfd h' t ->
              exec_op (native_fn fo) (ip s) op (sw h' t) = res_map (sw h') (exec_op (native_fn fo) (ip s) op t) /\
              res_all (wfd h') (exec_op (native_fn fo) (ip s) op t)).
    { intros op t Hop Wt. apply comm_exec_op; [|exact Hop|exact Wt].
      intros w f Hf Hw. eapply native_comm; eassumption. }
    destruct (nth_error (code s) (ip s)) as [op|] eqn:En.
    - assert (En' : nth_error (code (sw h' s)) (ip (sw h' s)) = Some op) by exact En.
      destruct (match op with OResolve _ => true | _ => false end) eqn:Er.
      + destruct op; try discriminate Er.
        rewrite (far_resolve_eq _ (sw h' s) name En'), (far_resolve_eq _ s name En).
        change (mlim (sw h' s) (meter (sw h' s))) with (mlim s (meter s)).
        destruct (mlim s (meter s)); [split; [reflexivity|exact W]|].
        change (dict_entry (sw h' s) name) with (dict_entry s name).
        destruct (dict_entry s name) as [e|] eqn:Ed; [|split; [reflexivity|exact W]].
        cbv zeta. change (mlim (sw h' s) (meter (sw h' s) + 1)%Z) with (mlim s (meter s + 1)%Z).
        destruct (mlim s (meter s + 1)%Z); [split; [reflexivity|exact W]|].
        refine (Hx (resolve_op e)
                  (set_meter (set_code (set_meter s (meter s + 1)%Z) (list_set (code s) (ip s) (resolve_op e)))
                             (meter s + 1 + 1)%Z) _ _).
        * intros C. apply Hns. right. exists name, e. repeat split; assumption.
        * eapply wfd_same; [| |exact W]; reflexivity.
      + assert (Hr : forall n0, op <> OResolve n0) by (intros n0 ->; discriminate Er).
        rewrite (far_plain_eq _ (sw h' s) op En' Hr), (far_plain_eq _ s op En Hr).
        change (mlim (sw h' s) (meter (sw h' s))) with (mlim s (meter s)).
        destruct (mlim s (meter s)); [split; [reflexivity|exact W]|].
        refine (Hx op (set_meter s (meter s + 1)%Z) _ _).
        * intros ->. apply Hns. left. exact En.
        * eapply wfd_same; [| |exact W]; reflexivity.
    - assert (En' : nth_error (code (sw h' s)) (ip (sw h' s)) = None) by exact En.
      rewrite (far_none_eq _ (sw h' s) En'), (far_none_eq _ s En).
      change (mlim (sw h' s) (meter (sw h' s))) with (mlim s (meter s)).
      destruct (mlim s (meter s)); split; try reflexivity; try exact W; exact I.
  Qed.

  (* `.s` itself: what it prints contains the hidden cells *)
  Lemma display_stack_out s txt : format_all (ds s) = Some txt ->
    w_display_stack s = ROk tt (set_out s (String.append (out s) txt)).
  Proof. intros E. unfold w_display_stack, bind, get. rewrite E. reflexivity. Qed.
End Step.

(* whole runs on code without `.s` and without late-bound calls *)
Definition quiet_code (c : list opcode) : Prop :=
  forall i, nth_error c i <> Some (ONative ".s") /\ forall name, nth_error c i <> Some (OResolve name).

Section Run.
  Variable h' : list cell.
  Variable fo : fops.

  Lemma quiet_not_shows s : quiet_code (code s) -> ~ shows_stack s.
  Proof.
    intros Q [E|(name & e & E & _)]; destruct (Q (ip s)) as [Q1 Q2]; [exact (Q1 E)|exact (Q2 name E)].
  Qed.

  Lemma far_quiet_code s : quiet_code (code s) ->
    res_all (fun s' => code s' = code s) (fetch_and_run (native_fn fo) s).
  Proof.
    intros Q. pose proof (far_spec_holds (native_fn fo) s) as FS.
    inversion FS as [ | | op Hm Hn Hr Hx | name Hm Hn Hd Hx | name e Hm Hn Hd Hm2 Hx | name e Hm Hn Hd Hm2 Hx ];
      cbn [res_all]; try exact I; try reflexivity;
      try (exfalso; exact (proj2 (Q (ip s)) name Hn)).
    pose proof (wl_lim _ _ (wl_exec_op _ (native_wl fo) (ip s) op) (set_meter s (meter s + 1)%Z)) as H.
    destruct (exec_op (native_fn fo) (ip s) op (set_meter s (meter s + 1)%Z)); cbn [res_all] in *; auto;
      destruct H as (_ & _ & _ & _ & _ & Hc & _); exact Hc.
  Qed.

  Theorem run_comm : forall fuel s, wfd h' s -> quiet_code (code s) ->
    run (native_fn fo) fuel (sw h' s) =
    match run (native_fn fo) fuel s with Some r => Some (res_map (sw h') r) | None => None end.
  Proof.
    induction fuel as [|f IH]; intros s W Q; cbn [run]; [reflexivity|].
    change (is_running (sw h' s)) with (is_running s).
    destruct (is_running s); [|reflexivity].
    destruct (far_comm h' fo s W (quiet_not_shows s Q)) as [E W1]. rewrite E.
    pose proof (far_quiet_code s Q) as C1.
    destruct (fetch_and_run (native_fn fo) s) as [u s1|k p s1| |]; cbn [res_map res_all] in *; try reflexivity.
    apply IH; [exact W1|rewrite C1; exact Q].
  Qed.
End Run.
