(* VmReplayBase.v: forward execution respects [eq_rev] (C02, replay half).
   [rel_ok m]: [eq_rev]-related inputs give related results.  It is proved for every
   primitive of Vm.v, closed under [bind] and under reading the state with [get] as long
   as the continuation looks at neither the instruction meter nor the captured output. *)
From Xeh Require Import Model.Prelude Model.Bits Model.Codec Model.Cell Model.Lexer Model.Fmt Model.Vm Model.Words.
From Xeh Require Import Proofs.VmPrim Proofs.VmFrame Proofs.VmRevBase Proofs.VmRevWords Proofs.VmRev.
Local Notation length := List.length.

#[local] Arguments Z.add : simpl never.
#[local] Arguments Z.sub : simpl never.
#[local] Arguments Z.mul : simpl never.
#[local] Arguments Z.ltb : simpl never.
#[local] Arguments Z.leb : simpl never.
#[local] Arguments Z.eqb : simpl never.
#[local] Arguments Z.of_nat : simpl never.
#[local] Arguments Z.to_nat : simpl never.

(* what [eq_rev] hides: exactly the meter and the captured output *)
Definition same_machine (a b : state) : Prop :=
  ip a = ip b /\ ds a = ds b /\ rs a = rs b /\ loops a = loops b /\ special a = special b /\
  heap a = heap b /\ code a = code b /\ dict a = dict b /\ cx a = cx b /\ nested a = nested b /\
  flows a = flows b /\ rlog a = rlog b /\ input a = input b /\ sources a = sources b /\
  dbg a = dbg b /\ last_tok a = last_tok b /\ stopping a = stopping b /\
  insn_limit a = insn_limit b /\ heap_limit a = heap_limit b /\ stack_limit a = stack_limit b.

Lemma eq_rev_same_machine a b : eq_rev a b <-> same_machine a b.
Proof.
  unfold eq_rev, same_machine. split.
  - intro H. repeat split; match goal with |- ?f a = ?f b => exact (f_equal f H) end.
  - destruct a, b. unfold ip, erase_mo. cbn.
    intros (H1 & H2 & H3 & H4 & H5 & H6 & H7 & H8 & H9 & H10 & H11 & H12 & H13 & H14 & H15 & H16 & H17 & H18 & H19 & H20).
    subst. reflexivity.
Qed.

Lemma eq_rev_mo a b : eq_rev a b -> b = mo (meter b) (out b) a.
Proof.
  unfold eq_rev, erase_mo, mo. destruct a, b; cbn. intro H. injection H; intros; subst. reflexivity.
Qed.

Lemma eq_rev_mo_l z o s : eq_rev (mo z o s) s.
Proof. reflexivity. Qed.

(* the invariants of reverse stepping do not look at the hidden fields *)
Lemma eq_rev_invariants a b : eq_rev a b ->
  recording a = true /\ log_ok a /\ wf_marks a -> recording b = true /\ log_ok b /\ wf_marks b.
Proof. intros E H. rewrite (eq_rev_mo _ _ E). exact H. Qed.
Lemma eq_rev_not_resolve a b : eq_rev a b -> not_resolve a -> not_resolve b.
Proof. intros E H. rewrite (eq_rev_mo _ _ E). exact H. Qed.

Definition res_rel {A} (r1 r2 : res A) : Prop := res_map erase_mo r1 = res_map erase_mo r2.

(* the explicit reading of [res_rel] *)
Definition res_rel_cases {A} (r1 r2 : res A) : Prop :=
  match r1, r2 with
  | ROk x s, ROk y t => x = y /\ eq_rev s t
  | RErr k p s, RErr k' p' t => k = k' /\ p = p' /\ eq_rev s t
  | RPanic, RPanic => True
  | RUnsup, RUnsup => True
  | _, _ => False
  end.

Lemma res_rel_iff {A} (r1 r2 : res A) : res_rel r1 r2 <-> res_rel_cases r1 r2.
Proof.
  unfold res_rel, res_rel_cases, eq_rev.
  destruct r1, r2; cbn [res_map]; split; intro H; try discriminate H; try contradiction; try exact I;
    try reflexivity.
  - split; congruence.
  - destruct H as [H1 H2]; congruence.
  - repeat split; congruence.
  - destruct H as (H1 & H2 & H3); congruence.
Qed.

Lemma res_rel_refl {A} (r : res A) : res_rel r r.
Proof. reflexivity. Qed.
Lemma res_rel_sym {A} (r1 r2 : res A) : res_rel r1 r2 -> res_rel r2 r1.
Proof. unfold res_rel; auto. Qed.
Lemma res_rel_trans {A} (r1 r2 r3 : res A) : res_rel r1 r2 -> res_rel r2 r3 -> res_rel r1 r3.
Proof. unfold res_rel; congruence. Qed.

Definition rel_ok {A} (m : M A) : Prop := forall a b, eq_rev a b -> res_rel (m a) (m b).

(* a program that commutes with setting the meter and the output *)
Definition mo_comm {A} (p : M A) : Prop := forall z o s, p (mo z o s) = res_map (mo z o) (p s).

Lemma rel_of_comm {A} (p : M A) : mo_comm p -> rel_ok p.
Proof.
  intros H a b E. rewrite (eq_rev_mo _ _ E). rewrite H. unfold res_rel.
  destruct (p a); reflexivity.
Qed.

Lemma rel_bind {A B} (m : M A) (f : A -> M B) :
  rel_ok m -> (forall x, rel_ok (f x)) -> rel_ok (bind m f).
Proof.
  intros Hm Hf a b E. unfold bind. specialize (Hm a b E). unfold res_rel in Hm.
  destruct (m a) as [x s1|k p s1| |], (m b) as [y s2|k' p' s2| |]; cbn [res_map] in Hm; try discriminate.
  - assert (Hx : x = y) by congruence. assert (Hs : erase_mo s1 = erase_mo s2) by congruence.
    subst y. apply Hf. exact Hs.
  - unfold res_rel. cbn [res_map]. congruence.
  - reflexivity.
  - reflexivity.
Qed.

(* reading the state: the continuation may use any field except the meter and the output *)
Lemma rel_get_bind {B} (k : state -> M B) :
  (forall s0, rel_ok (k s0)) ->
  (forall s0 z o s, k (mo z o s0) s = k s0 s) ->
  rel_ok (bind get k).
Proof.
  intros H1 H2 a b E. unfold bind, get.
  replace (k b b) with (k a b).
  - apply H1; auto.
  - rewrite <- (H2 a (meter b) (out b) b), <- (eq_rev_mo _ _ E). reflexivity.
Qed.

Lemma rel_ret {A} (x : A) : rel_ok (ret x).
Proof. intros a b E. unfold res_rel, ret. cbn. f_equal. exact E. Qed.
Lemma rel_fail {A} k p : rel_ok (@fail A k p).
Proof. intros a b E. unfold res_rel, fail. cbn. f_equal. exact E. Qed.
Lemma rel_unsup {A} : rel_ok (@unsup A).
Proof. intros a b E. reflexivity. Qed.

(* [print] changes the output, which the relation ignores *)
Lemma rel_print msg : rel_ok (print msg).
Proof.
  intros a b E. unfold res_rel, print. cbn [res_map]. f_equal.
  change (erase_mo (set_out a (out a ++ msg))) with (erase_mo a).
  change (erase_mo (set_out b (out b ++ msg))) with (erase_mo b). exact E.
Qed.

Lemma wprog_rel c A (m : M A) : wprog c m -> rel_ok m.
Proof.
  induction 1;
    try (apply rel_of_comm; intros z o s; eapply (prim_unread _ (unread_mo z o) (logs_through_mo z o));
         constructor; fail).
  - apply rel_ret.
  - apply rel_fail.
  - apply rel_unsup.
  - apply rel_bind; assumption.
  - apply rel_get_bind; [assumption|]. intros s0 z o s.
    rewrite (view_determines _ k H1 (mo z o s0) s0 eq_refl). reflexivity.
  - apply rel_of_comm. intros z o s. reflexivity.
  - apply rel_of_comm. intros z o s.
    apply (push_data_unread _ (unread_mo z o) (logs_through_mo z o)). reflexivity.
  - apply rel_of_comm. intros z o s.
    apply (over_data_unread _ (unread_mo z o) (logs_through_mo z o)). reflexivity.
  - apply rel_print.
Qed.

Lemma rel_pop_n : forall n, rel_ok (pop_n n).
Proof. intros n. exact (wprog_rel all_caps _ _ (wp_pop_n _ n)). Qed.

Lemma rel_push_all : forall l, rel_ok (push_all l).
Proof. intros l. exact (wprog_rel all_caps _ _ (wp_push_all _ l)). Qed.
