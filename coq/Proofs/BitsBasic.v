From Xeh Require Import Model.Prelude Model.Bits.

Lemma abs_length c : length (abs c) = clen c.
Proof. unfold abs. now rewrite map_length, seq_length. Qed.
