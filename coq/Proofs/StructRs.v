(* StructRs.v: where a `break` can come from, and return-stack hygiene.
   * a block without a break at its own level never stops at a break (functions included,
     when no function body has a break at its own level);
   * a block leaves the return stack as it found it up to the locals of the current frame
     (which `local` writes); exactly as it found it when it declares no local;
   * a call leaves the return stack - hence the caller's locals - exactly as it found it. *)
From Xeh Require Import Model.Prelude Model.Bits Model.Codec Model.Cell Model.Lexer Model.Fmt
                        Model.Vm Model.Words Model.Struct
                        Proofs.VmFrame Proofs.StructBase Proofs.StructNat Proofs.StructInv Proofs.StructLoops.
Local Notation length := List.length.

Definition never_broke (r : sres) : Prop := forall s', r <> SBroke s'.

Lemma never_broke_none : forall r, fin r = None -> never_broke r.
Proof. intros r E s' ->. discriminate E. Qed.
Lemma never_broke_done : forall s, never_broke (SDone s).
Proof. intros s s' E. discriminate E. Qed.

Definition nb_run_m := run_m_cases never_broke never_broke_none.
Definition nb_on_res := on_res_cases never_broke never_broke_none.

Lemma nb_simple : forall A (m : M A) p s, never_broke (run_m m p s (fun _ s' => SDone s')).
Proof. intros. apply nb_run_m. intros. apply never_broke_done. Qed.

Lemma do_iter_never_broke : forall body pl k s, never_broke (do_iter body pl k s).
Proof.
  intros body pl. induction k as [| k IH]; intro s; [ apply never_broke_none; reflexivity | ].
  rewrite do_iter_S. apply nb_on_res; intros s3 _.
  - apply nb_run_m. intros [] s4 _; [ apply IH | apply nb_simple ].
  - apply nb_simple.
Qed.

Definition catches (x : stmt) : bool :=
  match x with SRepeat _ | SWhile _ _ _ | SDo _ _ _ => true | _ => false end.

Lemma loop_never_broke : forall fo funs f x s, catches x = true -> never_broke (sstmt fo funs f x s).
Proof.
  intros fo funs. induction f as [| f IH]; intros x s C; [ apply never_broke_none; reflexivity | ].
  destruct x; try discriminate C; sstmt_unfold.
  - apply nb_on_res; intros s1 _; [ apply IH; reflexivity | apply never_broke_done ].
  - apply nb_on_res; intros s1 _; [ | apply never_broke_done ].
    apply nb_run_m. intros [] s2 _; [ | apply never_broke_done ].
    apply nb_on_res; intros s3 _; [ apply IH; reflexivity | apply never_broke_done ].
  - apply nb_run_m. intros l s1 _. destruct (l_end l <=? l_start l)%Z; [ apply never_broke_done | ].
    apply nb_run_m. intros _ s2 _. apply do_iter_never_broke.
Qed.

Section NoBreak.
  Variable fo : fops.
  Variable funs : list (nat * list stmt).
  Hypothesis Hnb : funs_nobreak funs.
  Notation sblock := (sblock fo funs).
  Notation sstmt := (sstmt fo funs).

  Lemma case_go_nobreak : forall blk d,
    (forall l s, has_own_break_block l = false -> never_broke (blk l s)) ->
    has_own_break_block d = false ->
    forall arms s, has_own_break_arms arms = false -> never_broke (case_go blk d arms s).
  Proof.
    intros blk d Hblk Hd. induction arms as [| [[pre pof] body] r IH]; intros s Ha.
    - rewrite case_go_nil. apply Hblk. exact Hd.
    - rewrite case_go_cons. cbn [has_own_break_arms] in Ha.
      apply orb_false_elim in Ha as [Ha Hr]. apply orb_false_elim in Ha as [Hp Hbd].
      apply nb_on_res; intros s1 E; [ | rewrite <- E; apply Hblk; exact Hp ].
      apply nb_run_m. intros [] s2 _; [ | apply IH; exact Hr ].
      apply nb_run_m. intros _ s3 _. apply Hblk. exact Hbd.
  Qed.

  Lemma nobreak_both : forall f,
    (forall b s, has_own_break_block b = false -> never_broke (sblock f b s)) /\
    (forall x s, has_own_break x = false -> never_broke (sstmt f x s)).
  Proof.
    induction f as [| f [IHb IHs]].
    - split; intros; apply never_broke_none; reflexivity.
    - split.
      { intros [| x r] s Hok.
        - rewrite sblock_nil. apply never_broke_done.
        - rewrite sblock_cons. cbn [has_own_break_block] in Hok. apply orb_false_elim in Hok as [Hx Hr].
          apply nb_on_res; intros s1 E; [ apply IHb; exact Hr | rewrite <- E; apply IHs; exact Hx ]. }
      intros x s Hok.
      destruct x; try (apply loop_never_broke; reflexivity); sstmt_unfold; try apply nb_simple.
      + destruct (native_fn fo w); [ apply nb_simple | apply never_broke_none; reflexivity ].
      + destruct (fun_body funs f0) as [body |] eqn:Eb; [ | apply never_broke_none; reflexivity ].
        apply nb_run_m. intros _ s1 _. apply nb_on_res; intros s2 E; [ apply nb_simple | ].
        rewrite <- E. apply IHb. exact (Hnb f0 body Eb).
      + rewrite has_own_break_SIf in Hok.
        apply nb_run_m. intros [] s1 _; [ apply IHb; exact Hok | apply never_broke_done ].
      + rewrite has_own_break_SIfE in Hok. apply orb_false_elim in Hok as [Ht He].
        apply nb_run_m. intros [] s1 _; apply IHb; assumption.
      + rewrite has_own_break_SCase in Hok. apply orb_false_elim in Hok as [Ha Hd].
        apply case_go_nobreak; assumption.
      + pose proof Hok as Hb. rewrite has_own_break_SUntil in Hb.
        apply nb_on_res; intros s1 E; [ | rewrite <- E; apply IHb; exact Hb ].
        apply nb_run_m. intros [] s2 _; [ apply never_broke_done | apply IHs; exact Hok ].
      + discriminate Hok.
      + apply never_broke_done.
  Qed.

  Theorem nobreak_block : forall f b s s', has_own_break_block b = false -> sblock f b s <> SBroke s'.
  Proof. intros f b s s' H. apply (proj1 (nobreak_both f)). exact H. Qed.
  Theorem nobreak_stmt : forall f x s s', has_own_break x = false -> sstmt f x s <> SBroke s'.
  Proof. intros f x s s' H. apply (proj2 (nobreak_both f)). exact H. Qed.

  Corollary repeat_never_broke : forall f b s s', sstmt f (SRepeat b) s <> SBroke s'.
  Proof using Hnb. intros. apply loop_never_broke. reflexivity. Qed.
  Corollary while_never_broke : forall f c p b s s', sstmt f (SWhile c p b) s <> SBroke s'.
  Proof using Hnb. intros. apply loop_never_broke. reflexivity. Qed.
  Corollary do_never_broke : forall f p b pl s s', sstmt f (SDo p b pl) s <> SBroke s'.
  Proof using Hnb. intros. apply loop_never_broke. reflexivity. Qed.
End NoBreak.

Definition rs_sim (a b : list frame) : Prop :=
  match a, b with
  | [], [] => True
  | f :: r, f' :: r' => r' = r /\ fn_addr f' = fn_addr f /\ return_to f' = return_to f
  | _, _ => False
  end.

Lemma rs_sim_refl : forall a, rs_sim a a.
Proof. destruct a; cbn; auto. Qed.
Lemma rs_sim_trans : forall a b c, rs_sim a b -> rs_sim b c -> rs_sim a c.
Proof.
  intros [| f r] [| f' r'] [| f'' r''] H G; cbn in *; try contradiction; auto.
  destruct H as (H1 & H2 & H3), G as (G1 & G2 & G3). repeat split; congruence.
Qed.
Lemma rs_sim_eq : forall a b, a = b -> rs_sim a b.
Proof. intros; subst; apply rs_sim_refl. Qed.
Lemma rs_sim_length : forall a b, rs_sim a b -> length b = length a.
Proof. intros [| f r] [| f' r'] H; cbn in *; try contradiction; auto. destruct H as (-> & _). reflexivity. Qed.
Lemma rs_sim_tl : forall a b, rs_sim a b -> tl b = tl a.
Proof. intros [| f r] [| f' r'] H; cbn in *; try contradiction; auto. tauto. Qed.

Definition rkeeps2 (s s' : state) : Prop := cx s' = cx s /\ rs_sim (rs s) (rs s').
Definition rkeeps3 (s s' : state) : Prop := cx s' = cx s /\ rs s' = rs s.

Lemma rkeeps2_refl : forall s, rkeeps2 s s.
Proof. intro; split; [ reflexivity | apply rs_sim_refl ]. Qed.
Lemma rkeeps2_trans : forall a b c, rkeeps2 a b -> rkeeps2 b c -> rkeeps2 a c.
Proof. intros a b c [H1 H2] [G1 G2]. split; [ congruence | eapply rs_sim_trans; eauto ]. Qed.
Lemma rkeeps3_refl : forall s, rkeeps3 s s.
Proof. intro; split; reflexivity. Qed.
Lemma rkeeps3_trans : forall a b c, rkeeps3 a b -> rkeeps3 b c -> rkeeps3 a c.
Proof. intros a b c [H1 H2] [G1 G2]. split; congruence. Qed.
Lemma rkeeps3_2 : forall s s', rkeeps3 s s' -> rkeeps2 s s'.
Proof. intros s s' [H1 H2]. split; [ assumption | apply rs_sim_eq; auto ]. Qed.
Lemma keeps_rkeeps3 : forall fe s s', keeps fe s s' -> rkeeps3 s s'.
Proof. intros fe s s' (H1 & H2 & _). split; assumption. Qed.

Definition ok_any (x : stmt) : bool := true.
Definition ok_nolocal (x : stmt) : bool := match x with SLocSet _ _ => false | _ => true end.

(* the block declares no local at its own level (callees may) *)
Definition no_local_block : list stmt -> bool := all_block ok_nolocal.
Definition no_local_stmt : stmt -> bool := all_stmt ok_nolocal.

Lemma ok_any_all : (forall x, all_stmt ok_any x = true) /\ (forall l, all_block ok_any l = true).
Proof. apply all_stmt_true. reflexivity. Qed.

Section Rs.
  Variable fo : fops.
  Variable funs : list (nat * list stmt).
  Hypothesis Hnb : funs_nobreak funs.
  Notation sblock := (sblock fo funs).
  Notation sstmt := (sstmt fo funs).

  Lemma rs_prim : forall w m s s', native_fn fo w = Some m -> m s = ROk tt s' -> rkeeps3 s s'.
  Proof.
    intros w m s s' En E. pose proof (native_keeps fo w m s En) as K. rewrite E in K.
    eapply keeps_rkeeps3; exact K.
  Qed.

  Lemma rs_do : forall (R : state -> state -> Prop),
    (forall a b c, R a b -> R b c -> R a c) -> (forall s s', rkeeps3 s s' -> R s s') ->
    forall (body : state -> sres) pl l k s1 s2,
      (forall s, post (R s) (body s)) ->
      push_loop l s1 = ROk tt s2 -> post (R s1) (do_iter body pl k s2).
  Proof.
    intros R Rt R3 body pl l k s1 s2 Hbody E2 s' E'. apply push_loop_ok in E2 as (_ & C2 & R2).
    destruct (do_iter_ends R Rt body pl Hbody) with (k := k) (s := s2) (s' := s') as (s4 & l4 & R4 & P);
      [ | exact E' | ].
    - intros s m s0 E. apply loop_next_ok in E as (C & Rs & _). apply R3. split; assumption.
    - apply pop_loop_ok in P as (_ & C & Rs).
      eapply Rt; [ apply R3; split; eassumption | ]. eapply Rt; [ exact R4 | ]. apply R3. split; assumption.
  Qed.

  Lemma rs_call_gen : forall f g p s,
    (forall body s, fun_body funs g = Some body -> post (rkeeps2 s) (sblock f body s)) ->
    post (rkeeps3 s) (sstmt (S f) (SCall g p) s).
  Proof.
    intros f g p s IH. rewrite sstmt_SCall.
    destruct (fun_body funs g) as [body |] eqn:Eb; [ | apply post_none; reflexivity ].
    apply run_m_cases; [ apply post_none | ]. intros [] s1 E1.
    apply push_return_ok in E1 as (_ & C1 & R1).
    apply on_res_cases; [ apply post_none | | ]; intros s2 E.
    - apply run_m_cases; [ apply post_none | ]. intros fr s3 E3.
      apply pop_return_ok in E3 as (_ & C3 & R3).
      destruct (IH body s1 eq_refl s2) as [C2 S2]; [ rewrite E; reflexivity | ].
      rewrite R1, R3 in S2. cbn in S2. destruct S2 as (S2 & _).
      eapply post_here; [ reflexivity | ]. split; congruence.
    - exfalso. eapply (nobreak_block fo funs Hnb); [ exact (Hnb g body Eb) | exact E ].
  Qed.

  Lemma rs_locset2 : forall i v s s', init_local i v s = ROk tt s' -> rkeeps2 s s'.
  Proof.
    intros i v s s' E. apply init_local_ok in E as (_ & C & f & r & E1 & E2).
    split; [ assumption | ]. rewrite E1, E2. cbn. auto.
  Qed.

  Lemma rs_hygiene : forall f,
    (forall b s, all_block ok_any b = true -> post (rkeeps2 s) (sblock f b s)) /\
    (forall x s, all_stmt ok_any x = true -> post (rkeeps2 s) (sstmt f x s)).
  Proof.
    apply gen_both.
    - apply rkeeps2_refl.
    - apply rkeeps2_trans.
    - intros s s' K. apply rkeeps3_2. eapply keeps_rkeeps3; eauto.
    - intros w p m s s' _ En E. apply rkeeps3_2. eapply rs_prim; eauto.
    - intros i p v s s' _ E. eapply rs_locset2; eauto.
    - intros f g p s _ IH s' E. apply rkeeps3_2. apply (rs_call_gen f g p s); [ | exact E ].
      intros body s1 _. apply IH. apply ok_any_all.
    - apply rs_do; [ apply rkeeps2_trans | apply rkeeps3_2 ].
  Qed.

  Theorem rs_hygiene_block : forall f b s s', fin (sblock f b s) = Some s' -> rkeeps2 s s'.
  Proof. intros f b s s'. apply (proj1 (rs_hygiene f)). apply ok_any_all. Qed.

  Theorem rs_hygiene_stmt : forall f x s s', fin (sstmt f x s) = Some s' -> rkeeps2 s s'.
  Proof. intros f x s s'. apply (proj2 (rs_hygiene f)). apply ok_any_all. Qed.

  Lemma rs_exact : forall f,
    (forall b s, no_local_block b = true -> post (rkeeps3 s) (sblock f b s)) /\
    (forall x s, no_local_stmt x = true -> post (rkeeps3 s) (sstmt f x s)).
  Proof.
    apply gen_both.
    - apply rkeeps3_refl.
    - apply rkeeps3_trans.
    - intros s s' K. eapply keeps_rkeeps3; eauto.
    - intros w p m s s' _ En E. eapply rs_prim; eauto.
    - intros i p v s s' Hok _. discriminate.
    - intros f g p s _ _. apply rs_call_gen. intros body s1 _ s2. apply rs_hygiene_block.
    - apply rs_do; [ apply rkeeps3_trans | auto ].
  Qed.

  Theorem rs_exact_block : forall f b s s',
    no_local_block b = true -> fin (sblock f b s) = Some s' -> rkeeps3 s s'.
  Proof. intros f b s s' H. apply (proj1 (rs_exact f)). exact H. Qed.

  Theorem rs_exact_stmt : forall f x s s',
    no_local_stmt x = true -> fin (sstmt f x s) = Some s' -> rkeeps3 s s'.
  Proof. intros f x s s' H. apply (proj2 (rs_exact f)). exact H. Qed.
End Rs.
