(* C15 (six ways) - evaluating a source in one call, compiling it and running it, or compiling
   it and single-stepping it to the end, each with reverse recording on or off, all produce the
   same result, error, stack, variables and output.

   Recording on = [rlog s = Some l] for ANY log content l; recording off = [rlog s = None].
   [erase_log s] (= set_rlog s None) maps every recording-on state to its recording-off twin, so
   "the run on s, log dropped afterwards, is the run on erase_log s" covers recording on (with
   any history in the log) against recording off.  The equalities are on the whole result: value,
   error kind, error payload and every field of the final state (data stack, heap = variables,
   captured output, code, dictionary, contexts, meter ...) other than the log itself.

   1. recording is transparent for every API call: eval, compile (this file), next, run
      (Props/C15.v), set_limits; switching recording (set_rlog) is invisible after erase_log.
      No hypothesis on the source or the state: meta blocks and user-defined immediate words
      run at build time through the same [run] and are covered.
   2. compile then single steps = compile ;; run (every source, every state).
   3. eval = compile ;; run is Props/C15_evalrun.v (idle top-level state, no user-defined
      immediate word invoked while building - needed, see C15_user_immediate_refuted there).
   4. C15_six_way chains them.  No function of the model was found that looks at the log to
      decide anything but what to log (rnext, the reverse step, is not part of this property). *)
From Xeh Require Import Model.Prelude Model.Bits Model.Cell Model.Lexer Model.Vm Model.Words Model.Build Model.Boot.
From Xeh Require Import Proofs.VmLimits Proofs.UnwindMain Proofs.UnwindSimMain
                        Proofs.BuildLog Proofs.BuildLogMain Proofs.BuildLogSix.

(* ---------- 1. recording is transparent for the build phase ---------- *)
Theorem C15_recording_transparent_eval : forall fo pr rf fuel src s,
  res_map erase_log (eval fo pr rf fuel src s) = eval fo pr rf fuel src (erase_log s).
Proof. exact recording_transparent_eval. Qed.
Check C15_recording_transparent_eval : forall fo pr rf fuel src s,
  res_map erase_log (eval fo pr rf fuel src s) = eval fo pr rf fuel src (erase_log s).

Theorem C15_recording_transparent_compile : forall fo pr rf fuel src s,
  res_map erase_log (compile fo pr rf fuel src s) = compile fo pr rf fuel src (erase_log s).
Proof. exact recording_transparent_compile. Qed.
Check C15_recording_transparent_compile : forall fo pr rf fuel src s,
  res_map erase_log (compile fo pr rf fuel src s) = compile fo pr rf fuel src (erase_log s).

Theorem C15_recording_transparent_compile_run : forall fo pr rf fuel src s,
  res_map erase_log ((compile fo pr rf fuel src ;; run_m fo rf) s) =
  (compile fo pr rf fuel src ;; run_m fo rf) (erase_log s).
Proof. exact recording_transparent_compile_run. Qed.
Check C15_recording_transparent_compile_run : forall fo pr rf fuel src s,
  res_map erase_log ((compile fo pr rf fuel src ;; run_m fo rf) s) =
  (compile fo pr rf fuel src ;; run_m fo rf) (erase_log s).

(* the remaining API calls *)
Theorem C15_recording_transparent_next : forall fo s,
  res_map erase_log (next (native_fn fo) s) = next (native_fn fo) (erase_log s).
Proof.
  intros fo s. unfold next. change (is_running (erase_log s)) with (is_running s).
  destruct (is_running s); [apply VmDrive.recording_transparent|reflexivity].
Qed.
Check C15_recording_transparent_next : forall fo s,
  res_map erase_log (next (native_fn fo) s) = next (native_fn fo) (erase_log s).

Theorem C15_recording_transparent_steps : forall fo n s,
  steps (native_fn fo) n (erase_log s) = option_map erase_log (steps (native_fn fo) n s).
Proof. exact steps_erase. Qed.
Check C15_recording_transparent_steps : forall fo n s,
  steps (native_fn fo) n (erase_log s) = option_map erase_log (steps (native_fn fo) n s).

Theorem C15_recording_transparent_set_limits : forall s i h k,
  erase_log (set_limits s i h k) = set_limits (erase_log s) i h k.
Proof. reflexivity. Qed.
Check C15_recording_transparent_set_limits : forall s i h k,
  erase_log (set_limits s i h k) = set_limits (erase_log s) i h k.

Theorem C15_recording_switch_invisible : forall s l, erase_log (set_rlog s l) = erase_log s.
Proof. reflexivity. Qed.
Check C15_recording_switch_invisible : forall s l, erase_log (set_rlog s l) = erase_log s.

(* ---------- 2. compile, then single steps ---------- *)
(* n successful steps from the compiled state reach a stopped machine: that state is what
   compile ;; run returns (n < rf: run is given enough fuel for the n steps) *)
Theorem C15_compile_step_stops : forall fo pr rf fuel src s sc n sn,
  compile fo pr rf fuel src s = ROk tt sc ->
  steps (native_fn fo) n sc = Some sn -> is_running sn = false -> n < rf ->
  (compile fo pr rf fuel src ;; run_m fo rf) s = ROk tt sn.
Proof.
  intros fo pr rf fuel src s sc n sn Hc Hs Hr Hn. apply compile_step_is_compile_run.
  eapply compile_stepped_stops; eassumption.
Qed.
Check C15_compile_step_stops : forall fo pr rf fuel src s sc n sn,
  compile fo pr rf fuel src s = ROk tt sc ->
  steps (native_fn fo) n sc = Some sn -> is_running sn = false -> n < rf ->
  (compile fo pr rf fuel src ;; run_m fo rf) s = ROk tt sn.

(* n successful steps, the machine still runs and the next step does not succeed (error or
   panic): compile ;; run returns exactly what that step returned *)
Theorem C15_compile_step_fails : forall fo pr rf fuel src s sc n sn,
  compile fo pr rf fuel src s = ROk tt sc ->
  steps (native_fn fo) n sc = Some sn -> is_running sn = true ->
  (forall u s', fetch_and_run (native_fn fo) sn <> ROk u s') -> n < rf ->
  (compile fo pr rf fuel src ;; run_m fo rf) s = fetch_and_run (native_fn fo) sn.
Proof.
  intros fo pr rf fuel src s sc n sn Hc Hs Hr Hf Hn. apply compile_step_is_compile_run.
  unfold compile_stepped. rewrite Hc. exists n. split; [exact Hn|].
  exists sn. split; [exact Hs|]. right. split; [exact Hr|]. split; [reflexivity|exact Hf].
Qed.
Check C15_compile_step_fails : forall fo pr rf fuel src s sc n sn,
  compile fo pr rf fuel src s = ROk tt sc ->
  steps (native_fn fo) n sc = Some sn -> is_running sn = true ->
  (forall u s', fetch_and_run (native_fn fo) sn <> ROk u s') -> n < rf ->
  (compile fo pr rf fuel src ;; run_m fo rf) s = fetch_and_run (native_fn fo) sn.

(* a source rejected by compile: nothing is stepped or run *)
Theorem C15_compile_rejected : forall fo pr rf fuel src s k p se,
  compile fo pr rf fuel src s = RErr k p se ->
  (compile fo pr rf fuel src ;; run_m fo rf) s = RErr k p se.
Proof. intros fo pr rf fuel src s k p se H. unfold bind. rewrite H. reflexivity. Qed.
Check C15_compile_rejected : forall fo pr rf fuel src s k p se,
  compile fo pr rf fuel src s = RErr k p se ->
  (compile fo pr rf fuel src ;; run_m fo rf) s = RErr k p se.

(* [stepped nf n s r]: r is the outcome of single stepping s to the end in n successful steps;
   [compile_stepped ... s r]: r is the outcome of compile followed by single steps (fewer
   than rf of them).  The two definitions, unfolded: *)
Theorem C15_stepped_def : forall nf n s r,
  stepped nf n s r <->
  exists sn, steps nf n s = Some sn /\
    ((is_running sn = false /\ r = ROk tt sn) \/
     (is_running sn = true /\ r = fetch_and_run nf sn /\ forall u s', r <> ROk u s')).
Proof. intros. reflexivity. Qed.
Check C15_stepped_def : forall nf n s r,
  stepped nf n s r <->
  exists sn, steps nf n s = Some sn /\
    ((is_running sn = false /\ r = ROk tt sn) \/
     (is_running sn = true /\ r = fetch_and_run nf sn /\ forall u s', r <> ROk u s')).

Theorem C15_compile_stepped_def : forall fo pr rf fuel src s r,
  compile_stepped fo pr rf fuel src s r <->
  match compile fo pr rf fuel src s with
  | ROk _ sc => exists n, n < rf /\ stepped (native_fn fo) n sc r
  | e => r = e
  end.
Proof. intros. reflexivity. Qed.
Check C15_compile_stepped_def : forall fo pr rf fuel src s r,
  compile_stepped fo pr rf fuel src s r <->
  match compile fo pr rf fuel src s with
  | ROk _ sc => exists n, n < rf /\ stepped (native_fn fo) n sc r
  | e => r = e
  end.

(* run and stepping, both directions: the outcome of n < fuel steps is what run returns, and
   whatever run returns (i.e. unless it is out of fuel) is the outcome of some n < fuel steps *)
Theorem C15_stepping_is_run : forall nf n s r fuel,
  stepped nf n s r -> n < fuel -> run nf fuel s = Some r.
Proof. exact stepping_is_run. Qed.
Check C15_stepping_is_run : forall nf n s r fuel,
  stepped nf n s r -> n < fuel -> run nf fuel s = Some r.

Theorem C15_run_is_stepped : forall nf fuel s r,
  run nf fuel s = Some r -> exists n, n < fuel /\ stepped nf n s r.
Proof. exact run_is_stepped. Qed.
Check C15_run_is_stepped : forall nf fuel s r,
  run nf fuel s = Some r -> exists n, n < fuel /\ stepped nf n s r.

Theorem C15_compile_step_is_compile_run : forall fo pr rf fuel src s r,
  compile_stepped fo pr rf fuel src s r -> (compile fo pr rf fuel src ;; run_m fo rf) s = r.
Proof. exact compile_step_is_compile_run. Qed.
Check C15_compile_step_is_compile_run : forall fo pr rf fuel src s r,
  compile_stepped fo pr rf fuel src s r -> (compile fo pr rf fuel src ;; run_m fo rf) s = r.

(* the stepping outcome exists whenever the run of the compiled code is not out of fuel *)
Theorem C15_compile_run_is_compile_step : forall fo pr rf fuel src s,
  (forall sc, compile fo pr rf fuel src s = ROk tt sc -> run (native_fn fo) rf sc <> None) ->
  compile_stepped fo pr rf fuel src s ((compile fo pr rf fuel src ;; run_m fo rf) s).
Proof. exact compile_run_is_compile_step. Qed.
Check C15_compile_run_is_compile_step : forall fo pr rf fuel src s,
  (forall sc, compile fo pr rf fuel src s = ROk tt sc -> run (native_fn fo) rf sc <> None) ->
  compile_stepped fo pr rf fuel src s ((compile fo pr rf fuel src ;; run_m fo rf) s).

Theorem C15_compile_stepped_recording : forall fo pr rf fuel src s r,
  compile_stepped fo pr rf fuel src s r ->
  compile_stepped fo pr rf fuel src (erase_log s) (res_map erase_log r).
Proof. exact compile_stepped_erase. Qed.
Check C15_compile_stepped_recording : forall fo pr rf fuel src s r,
  compile_stepped fo pr rf fuel src s r ->
  compile_stepped fo pr rf fuel src (erase_log s) (res_map erase_log r).

(* ---------- 4. the six ways ---------- *)
(* s: an idle top-level state with recording on (any log) or off; erase_log s: its recording-off
   twin.  E = eval on s.  compile ;; run on s and compile-then-step on s (outcome r) are E;
   eval, compile ;; run and compile-then-step (outcome r') on erase_log s are E with the log
   dropped.  Hypotheses: exactly those of C15_eval_is_compile_run. *)
Theorem C15_six_way : forall fo pr rf fuel src s s1,
  (nested s = [] /\ cmode (cx s) = MEval /\ ip s = length (code s) /\
   rs_len (cx s) = length (rs s) /\ ls_len (cx s) = length (loops s) /\
   ss_ptr (cx s) = length (special s)) ->
  (context_open MEval ;; intern_source src) s = ROk tt s1 ->
  calls_bad fo pr rf 0 fuel (length (nested s1)) s1 = false ->
  forall r r',
    compile_stepped fo pr rf fuel src s r ->
    compile_stepped fo pr rf fuel src (erase_log s) r' ->
    let E := eval fo pr rf fuel src s in
    (compile fo pr rf fuel src ;; run_m fo rf) s = E /\
    r = E /\
    eval fo pr rf fuel src (erase_log s) = res_map erase_log E /\
    (compile fo pr rf fuel src ;; run_m fo rf) (erase_log s) = res_map erase_log E /\
    r' = res_map erase_log E.
Proof. exact six_way. Qed.
Check C15_six_way : forall fo pr rf fuel src s s1,
  (nested s = [] /\ cmode (cx s) = MEval /\ ip s = length (code s) /\
   rs_len (cx s) = length (rs s) /\ ls_len (cx s) = length (loops s) /\
   ss_ptr (cx s) = length (special s)) ->
  (context_open MEval ;; intern_source src) s = ROk tt s1 ->
  calls_bad fo pr rf 0 fuel (length (nested s1)) s1 = false ->
  forall r r',
    compile_stepped fo pr rf fuel src s r ->
    compile_stepped fo pr rf fuel src (erase_log s) r' ->
    let E := eval fo pr rf fuel src s in
    (compile fo pr rf fuel src ;; run_m fo rf) s = E /\
    r = E /\
    eval fo pr rf fuel src (erase_log s) = res_map erase_log E /\
    (compile fo pr rf fuel src ;; run_m fo rf) (erase_log s) = res_map erase_log E /\
    r' = res_map erase_log E.

(* the hypotheses of C15_six_way do not see the log: they hold of the recording-off twin
   exactly when they hold of the recording state *)
Theorem C15_six_way_hyps_recording : forall fo pr rf fuel src s s1,
  (context_open MEval ;; intern_source src) s = ROk tt s1 ->
  (context_open MEval ;; intern_source src) (erase_log s) = ROk tt (erase_log s1) /\
  (idle_top (erase_log s) <-> idle_top s) /\
  calls_bad fo pr rf 0 fuel (length (nested (erase_log s1))) (erase_log s1) =
  calls_bad fo pr rf 0 fuel (length (nested s1)) s1.
Proof. exact six_way_hyps_erase. Qed.
Check C15_six_way_hyps_recording : forall fo pr rf fuel src s s1,
  (context_open MEval ;; intern_source src) s = ROk tt s1 ->
  (context_open MEval ;; intern_source src) (erase_log s) = ROk tt (erase_log s1) /\
  (idle_top (erase_log s) <-> idle_top s) /\
  calls_bad fo pr rf 0 fuel (length (nested (erase_log s1))) (erase_log s1) =
  calls_bad fo pr rf 0 fuel (length (nested s1)) s1.

(* ---------- non-vacuity ---------- *)
Local Open Scope string_scope.
Definition c15w_zf (a b : Z) : Z := 0%Z.
Definition c15w_fo : fops := fops_with c15w_zf c15w_zf c15w_zf c15w_zf c15w_zf c15w_zf c15w_zf.
Definition c15w_pr : string -> option Z := fun _ => None.
(* (notations, not definitions: the examples below are then literally about eval / compile) *)
Local Notation c15w_eval src s := (eval c15w_fo c15w_pr 1000 1000 src s).
Local Notation c15w_compile src s := (compile c15w_fo c15w_pr 1000 1000 src s).
Local Notation c15w_compile_run src s :=
  ((compile c15w_fo c15w_pr 1000 1000 src ;; run_m c15w_fo 1000) s).
Definition c15w_state (r : res unit) : state := match r with ROk _ s => s | RErr _ _ s => s | _ => boot end.
Definition c15w_err (r : res unit) : option ekind := match r with RErr k _ _ => Some k | _ => None end.
Definition c15w_idle_b (s : state) : bool :=
  match nested s with [] => true | _ => false end && mode_eqb (cmode (cx s)) MEval &&
  (ip s =? length (code s))%nat && (rs_len (cx s) =? length (rs s))%nat &&
  (ls_len (cx s) =? length (loops s))%nat && (ss_ptr (cx s) =? length (special s))%nat.
Definition c15w_watch (src : string) (s : state) : bool :=
  let s1 := c15w_state ((context_open MEval ;; intern_source src) s) in
  calls_bad c15w_fo c15w_pr 1000 0 1000 (length (nested s1)) s1.
Definition c15w_log_len (s : state) : nat := match rlog s with Some l => length l | None => 0 end.

(* the boot state with recording switched on (empty log); its recording-off twin is boot *)
Definition c15w_on : state := set_rlog boot (Some []).
(* a definition, a variable, a loop, a meta block *)
Definition c15w_src : string := ": sq dup * ; 7 var v 3 0 do I sq loop #( 1 2 + #) v".
(* a definition that fails at run time *)
Definition c15w_src_fail : string := ": f 1 0 / ; 5 f".

(* the hypotheses of C15_six_way hold of the recording state and the source; the source
   succeeds; the recording side has logged 70 entries, erase_log s is boot *)
Example C15_ex_six_hyps :
  c15w_idle_b c15w_on = true /\ c15w_watch c15w_src c15w_on = false /\
  erase_log c15w_on = boot /\
  c15w_err (c15w_eval c15w_src c15w_on) = None /\
  ds (c15w_state (c15w_eval c15w_src c15w_on)) = [CInt 7; CInt 3; CInt 4; CInt 1; CInt 0] /\
  c15w_log_len (c15w_state (c15w_eval c15w_src c15w_on)) = 70 /\
  c15w_log_len (c15w_state (c15w_eval c15w_src boot)) = 0.
Proof. do 6 (split; [vm_compute; reflexivity|]). vm_compute; reflexivity. Qed.

(* recording on against recording off, computed: eval, compile, compile ;; run *)
Example C15_ex_six_recording :
  res_map erase_log (c15w_eval c15w_src c15w_on) = c15w_eval c15w_src boot /\
  res_map erase_log (c15w_compile c15w_src c15w_on) = c15w_compile c15w_src boot /\
  res_map erase_log (c15w_compile_run c15w_src c15w_on) = c15w_compile_run c15w_src boot /\
  c15w_eval c15w_src c15w_on = c15w_compile_run c15w_src c15w_on /\
  c15w_log_len (c15w_state (c15w_compile c15w_src c15w_on)) = 9.
Proof. do 4 (split; [vm_compute; reflexivity|]). vm_compute; reflexivity. Qed.

(* compile, then 26 single steps stop the machine in the state eval returns - recording on
   and recording off *)
Example C15_ex_six_steps :
  (exists sc sn, c15w_compile c15w_src c15w_on = ROk tt sc /\
     steps (native_fn c15w_fo) 26 sc = Some sn /\ is_running sn = false /\
     c15w_eval c15w_src c15w_on = ROk tt sn) /\
  (exists sc sn, c15w_compile c15w_src boot = ROk tt sc /\
     steps (native_fn c15w_fo) 26 sc = Some sn /\ is_running sn = false /\
     c15w_eval c15w_src boot = ROk tt sn).
Proof.
  split.
  - exists (c15w_state (c15w_compile c15w_src c15w_on)), (c15w_state (c15w_eval c15w_src c15w_on)).
    do 3 (split; [vm_compute; reflexivity|]). vm_compute; reflexivity.
  - exists (c15w_state (c15w_compile c15w_src boot)), (c15w_state (c15w_eval c15w_src boot)).
    do 3 (split; [vm_compute; reflexivity|]). vm_compute; reflexivity.
Qed.

(* hence the premises [compile_stepped] of C15_six_way are satisfiable *)
Example C15_ex_six_stepped :
  exists r r', r = c15w_eval c15w_src c15w_on /\ r' = c15w_eval c15w_src boot /\
    compile_stepped c15w_fo c15w_pr 1000 1000 c15w_src c15w_on r /\
    compile_stepped c15w_fo c15w_pr 1000 1000 c15w_src boot r'.
Proof.
  destruct C15_ex_six_steps as [(sc & sn & Hc & Hs & Hr & He) (sc' & sn' & Hc' & Hs' & Hr' & He')].
  exists (ROk tt sn), (ROk tt sn').
  split; [symmetry; exact He|]. split; [symmetry; exact He'|].
  assert (Hlt : 26 < 1000) by (apply Nat.ltb_lt; reflexivity).
  split; [exact (compile_stepped_stops _ _ _ _ _ _ _ _ _ Hc Hs Hr Hlt)
         | exact (compile_stepped_stops _ _ _ _ _ _ _ _ _ Hc' Hs' Hr' Hlt)].
Qed.

(* a failing run: 5 steps succeed, the 6th divides by zero; eval, compile ;; run and the
   failing step return the same error and state, with recording on and off *)
Example C15_ex_six_fail :
  c15w_idle_b c15w_on = true /\ c15w_watch c15w_src_fail c15w_on = false /\
  c15w_err (c15w_eval c15w_src_fail c15w_on) = Some EDivZero /\
  (exists sc sn, c15w_compile c15w_src_fail c15w_on = ROk tt sc /\
     steps (native_fn c15w_fo) 5 sc = Some sn /\ is_running sn = true /\
     fetch_and_run (native_fn c15w_fo) sn = c15w_eval c15w_src_fail c15w_on) /\
  c15w_compile_run c15w_src_fail c15w_on = c15w_eval c15w_src_fail c15w_on /\
  res_map erase_log (c15w_eval c15w_src_fail c15w_on) = c15w_eval c15w_src_fail boot /\
  c15w_log_len (c15w_state (c15w_eval c15w_src_fail c15w_on)) = 11.
Proof.
  do 3 (split; [vm_compute; reflexivity|]). split.
  - exists (c15w_state (c15w_compile c15w_src_fail c15w_on)).
    exists (c15w_state (match steps (native_fn c15w_fo) 5 (c15w_state (c15w_compile c15w_src_fail c15w_on)) with
                        | Some sn => ROk tt sn | None => RPanic end)).
    do 3 (split; [vm_compute; reflexivity|]). vm_compute; reflexivity.
  - do 2 (split; [vm_compute; reflexivity|]). vm_compute; reflexivity.
Qed.
