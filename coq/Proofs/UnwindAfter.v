(* UnwindAfter.v (C10): how a successful build ends and the shape of the state it leaves; a
   source evaluated later starts running at its own first instruction, whatever a previous
   line left behind (run-time failures included). *)
From Xeh Require Import Model.Prelude Model.Bits Model.Codec Model.Cell Model.Lexer Model.Fmt
                        Model.Vm Model.Words Model.Build.
From Xeh Require Import Proofs.VmFrame Proofs.VmLimits Proofs.NoPanic Proofs.NoPanicBuild
                        Proofs.BuildUnwind Proofs.UnwindLists Proofs.UnwindFrame Proofs.UnwindInv Proofs.UnwindBuild
                        Proofs.UnwindMain.
Local Notation length := List.length.

Section Exit.
  Variable fo : fops.
  Variable pr : string -> option Z.
  Variable rf : nat.

  Lemma next_token_end : forall fuel s s', next_token pr fuel s = ROk BEnd s' -> input s' = [].
  Proof.
    induction fuel as [|f IH]; intros s s' H; cbn [next_token] in H; [discriminate|].
    destruct (input s) as [|il rest] eqn:Ei; [injection H as <-; exact Ei|]. cbv zeta in H.
    destruct (lex_next_nonws _ _) as [tk l']. destruct tk; try discriminate.
    - eapply IH; eauto.
    - destruct (pr text); discriminate.
  Qed.

  Lemma build1_ok_exit : forall fuel depth s s', build1 fo pr rf fuel depth s = ROk tt s' ->
    length (nested s') = depth /\ has_pending_flow s' = false /\ input s' = [].
  Proof.
    induction fuel as [|f IH]; intros depth s s' H; cbn [build1] in H; [discriminate|].
    unfold bind at 1 in H. unfold get in H. unfold bind at 1 in H.
    destruct ((if mode_eqb (cmode (cx s)) MMeta && negb (has_pending_flow s)
               then run_m fo rf else ret tt) s) as [u t0|k p t0| |]; try discriminate.
    unfold bind at 1 in H.
    destruct (get_token pr t0) as [tk t1|k p t1| |] eqn:Et; try discriminate.
    destruct tk as [|name|v].
    - unfold bind, get in H.
      destruct (length (nested t1) =? depth)%nat eqn:E1; cbn [negb] in H; [|discriminate].
      destruct (has_pending_flow t1) eqn:E2; [discriminate|]. injection H as <-.
      apply Nat.eqb_eq in E1. repeat split; try assumption.
      unfold get_token in Et. eapply next_token_end; eauto.
    - unfold bind at 1 in H. unfold get in H.
      assert (W : forall P : M unit, (P ;; build1 fo pr rf f depth) t1 = ROk tt s' ->
                  length (nested s') = depth /\ has_pending_flow s' = false /\ input s' = []).
      { intros P HP. unfold bind in HP. destruct (P t1) as [u1 t2|k p t2| |]; try discriminate.
        eapply IH; eauto. }
      destruct (top_function_flow t1) as [[[idx st] ls]|]; [|eapply W; eauto].
      destruct (rposition ls name 0 None); eapply W; eauto.
    - unfold bind in H. destruct (code_emit_value v t1) as [u1 t2|k p t2| |]; try discriminate.
      eapply IH; eauto.
  Qed.
End Exit.

Lemma mode_not_meta m : m = MEval \/ m = MCompile -> m <> MMeta.
Proof. intros [-> | ->]; discriminate. Qed.

Section Later.
  Variable fo : fops.
  Variable pr : string -> option Z.
  Variable rf : nat.
  Variable b : state.
  Hypothesis Hwf : build_wf b.

  (* the state in which a successfully built source is closed: the context opened for the
     source is current and untouched - in particular its ip is the first instruction
     compiled for this source - and the old code is still a prefix of the code *)
  Theorem build_ok_shape m fuel src s1 s2 : m <> MMeta ->
    (context_open m ;; intern_source src) b = ROk tt s1 ->
    build1 fo pr rf fuel (length (nested s1)) s1 = ROk tt s2 ->
    calls_bad fo pr rf (length (dict b)) fuel (length (nested s1)) s1 = false ->
    binv b m s2 /\ cx s2 = tmp_ctx b m /\ nested s2 = cx b :: nested b /\ input s2 = [] /\
    flows s2 = flows b /\ prefix_of (code b) (code s2).
  Proof.
    intros Hm E1 E2 CB. destruct Hwf as (Hin & Hdl & Hnr).
    pose proof (build_binv fo pr rf b m Hdl Hm fuel src s1 E1 CB) as X.
    rewrite E2 in X. cbn [res_all] in X. split; [exact X|].
    destruct (build1_ok_exit fo pr rf _ _ _ _ E2) as (X1 & X2 & X3).
    rewrite (proj2 (binv_start b m Hdl src s1 E1)) in X1.
    destruct X as [[ms [E F]] B].
    assert (Ems : ms = []).
    { apply (f_equal (@length ctx)) in E. rewrite app_length in E. cbn [length] in E.
      destruct ms; [reflexivity|cbn [length] in E; lia]. }
    subst ms. cbn [app] in E. injection E as Ec En.
    destruct (bi_flows b s2 B) as [new [H7 _]].
    assert (Enew : new = []).
    { unfold has_pending_flow in X2. apply Nat.ltb_ge in X2. rewrite Ec in X2.
      cbn [tmp_ctx fs_len] in X2. rewrite H7, app_length in X2.
      destruct new; [reflexivity|cbn [length] in X2; lia]. }
    subst new. repeat split; try assumption. exact (kprefix_prefix _ _ Hnr (bi_code b s2 B)).
  Qed.

  (* in particular the run that closes an evaluated source starts at the first instruction
     compiled for that source, not where an earlier line stopped or failed *)
  Theorem eval_runs_own_code fuel src s1 s2 :
    (context_open MEval ;; intern_source src) b = ROk tt s1 ->
    build1 fo pr rf fuel (length (nested s1)) s1 = ROk tt s2 ->
    calls_bad fo pr rf (length (dict b)) fuel (length (nested s1)) s1 = false ->
    let s0 := set_nested s2 (nested b) in
    ip s0 = length (code b) /\ firstn (length (code b)) (code s0) = code b /\
    eval fo pr rf fuel src b =
      match run_m fo rf s0 with
      | ROk _ s3 => ROk tt (set_cx s3 (if mode_eqb (cmode (cx b)) MEval then set_ctx_ip (cx b) (ip s3) else cx b))
      | RErr k p s3 => RErr k p (set_cx s3 (if mode_eqb (cmode (cx b)) MEval then set_ctx_ip (cx b) (ip s3) else cx b))
      | RPanic => RPanic
      | RUnsup => RUnsup
      end.
  Proof.
    intros E1 E2 CB.
    destruct (build_ok_shape MEval fuel src s1 s2 ltac:(discriminate) E1 E2 CB) as (_ & Sc & Sn & _ & _ & Sp).
    cbv zeta. split; [|split].
    - unfold ip. st_simpl. rewrite Sc. reflexivity.
    - st_simpl. apply prefix_firstn_eq. exact Sp.
    - unfold eval, build_from_source. cbv zeta. rewrite E1, E2, context_close_eq, Sn, Sc.
      cbn [tmp_ctx cmode]. destruct (run_m fo rf (set_nested s2 (nested b))) as [[] s3| | |]; reflexivity.
  Qed.

  (* a source that fails at RUN time (inside the run that closes an evaluated source) leaves
     the nesting, the input, the flow stack and the outer context (up to its ip, which stays
     at the failing instruction) as they were; the code and the dictionary have only grown *)
  Theorem eval_runtime_failure_shape fuel src s1 s2 k p s3 :
    (context_open MEval ;; intern_source src) b = ROk tt s1 ->
    build1 fo pr rf fuel (length (nested s1)) s1 = ROk tt s2 ->
    calls_bad fo pr rf (length (dict b)) fuel (length (nested s1)) s1 = false ->
    run_m fo rf (set_nested s2 (nested b)) = RErr k p s3 ->
    exists s', eval fo pr rf fuel src b = RErr k p s' /\
      nested s' = nested b /\ input s' = [] /\ flows s' = flows b /\
      cx s' = (if mode_eqb (cmode (cx b)) MEval then set_ctx_ip (cx b) (ip s3) else cx b) /\
      prefix_of (code b) (code s') /\ prefix_of (dict b) (dict s') /\
      length (dbg s') = length (code s').
  Proof.
    intros E1 E2 CB ER.
    destruct (eval_runs_own_code fuel src s1 s2 E1 E2 CB) as (_ & _ & EB).
    cbv zeta in EB. rewrite ER in EB.
    destruct (build_ok_shape MEval fuel src s1 s2 ltac:(discriminate) E1 E2 CB) as ([_ B] & _ & _ & Si & Sf & Sp).
    pose proof (run_m_frame fo rf (set_nested s2 (nested b))) as FR. rewrite ER in FR. cbn [res_all] in FR.
    eexists. split; [exact EB|]. cbn [set_cx nested input flows cx code dict dbg].
    rewrite (fr_nested _ _ FR), (fr_input _ _ FR), (fr_flows _ _ FR), (fr_dict _ _ FR), (fr_dbg _ _ FR).
    cbn [set_nested nested input flows dict dbg]. repeat split; try assumption.
    - eapply code_keep_prefix; [apply Hwf|exact Sp|exact (fr_code _ _ FR)].
    - apply B.
    - rewrite (proj1 (fr_code _ _ FR)). apply B.
  Qed.
End Later.
