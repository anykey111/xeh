(* DbgMapStmts.v (C17): what backpatching does to the fields the error location is computed
   from. *)
From Xeh Require Import Model.Prelude Model.Bits Model.Codec Model.Cell Model.Lexer Model.Fmt
                        Model.Vm Model.Words Model.Build Model.Boot.
From Xeh Require Import Proofs.VmFrame Proofs.VmLimits Proofs.DbgMapVm Proofs.DbgMapGen
                        Proofs.DbgMapAlign Proofs.DbgMapRun.

Lemma backpatch_keeps : forall pos op s,
  match backpatch pos op s with
  | ROk _ s' => dbg s' = dbg s /\ code s' = list_set (code s) pos op /\
                length (code s') = length (code s) /\ sources s' = sources s /\ last_tok s' = last_tok s
  | RErr _ _ _ => False
  | _ => True
  end.
Proof.
  intros pos op s. unfold backpatch. destruct (pos <? length (code s))%nat; [|exact I].
  cbn [set_code code dbg sources last_tok]. rewrite list_set_length. repeat split.
Qed.

Lemma backpatch_jump_keeps : forall pos offs s,
  res_all (fun s' => dbg s' = dbg s /\ length (code s') = length (code s) /\
                     sources s' = sources s /\ last_tok s' = last_tok s)
          (backpatch_jump pos offs s).
Proof.
  intros pos offs s. unfold backpatch_jump.
  destruct (nth_error (code s) pos) as [op|]; [|cbn [res_all]; repeat split].
  destruct op; try exact I;
    match goal with |- res_all _ (backpatch ?p ?o s) =>
      pose proof (backpatch_keeps p o s) as H; destruct (backpatch p o s); cbn [res_all]; try exact I;
      [destruct H as (A & _ & B & C & D); auto|contradiction]
    end.
Qed.
