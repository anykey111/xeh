(* CompileMain.v: consequences of the simulation for loops and for [run]. *)
From Xeh Require Import Model.Prelude Model.Bits Model.Codec Model.Cell Model.Lexer Model.Fmt
                        Model.Vm Model.Words Model.Struct
                        Proofs.VmFrame Proofs.VmDrive Proofs.CompileSim Proofs.CompileLayout Proofs.CompileStep
                        Proofs.CompileEval Proofs.CompileFwd Proofs.CompileFwd2 Proofs.CompileProg
                        Proofs.CompileLoop Proofs.CompileRegion
                        Proofs.CompileParse Proofs.CompileParse2 Proofs.CompileParse3.
Local Notation length := List.length.

#[local] Arguments Z.add : simpl never.
#[local] Arguments Z.of_nat : simpl never.
#[local] Arguments Z.to_nat : simpl never.

Section Main.
  Variable fo : fops.
  Variable funs : list (nat * list stmt).
  Notation nf := (native_fn fo).

  Theorem loop_stmt : forall faddr fuel x org bc t s,
    (exists p b pl, x = SDo p b pl) \/ (exists b, x = SRepeat b) \/ (exists c p b, x = SWhile c p b) ->
    funs_placed funs faddr (code s) -> wf_s x ->
    firstn (size_stmt x) (skipn org (code s)) = lay_stmt faddr x org bc ->
    rlog s = None -> insn_limit s = None -> ip s = org -> sim t s ->
    match sstmt fo funs fuel x t with
    | SDone t' =>
      exists n s', steps nf n s = Some s' /\ ip s' = org + size_stmt x /\ sim t' s' /\ rskeys s' = rskeys s
    | SBroke _ => False
    | SFail k pl _ t' =>
      exists n sN s', steps nf n s = Some sN /\ fetch_and_run nf sN = RErr k pl s' /\ sim t' s'
    | SOut => True
    | SUnsup => True
    end.
  Proof.
    intros faddr fuel x org bc t s Hx P W C Hl Hi Hip Hs.
    assert (B : brk_ok_s bc x).
    { intros _. destruct Hx as [(p & b & pl & ->)|[(b & ->)|(c0 & p & b & ->)]]; constructor. }
    pose proof (fwd_stmt fo funs faddr fuel x org bc t s P W B C Hl Hi Hip Hs) as H.
    pose proof (loops_no_broke fo funs fuel x t) as Hnb.
    destruct (sstmt fo funs fuel x t) as [t'|t'|k pl p t'| |]; cbn [agrees] in H; auto.
    - destruct H as (n & s' & H1 & H2 & H3 & _ & _ & _ & H7). exists n, s'. auto.
    - eapply Hnb; eauto.
    - destruct H as (n & sN & s' & H1 & _ & H2 & H3). exists n, sN, s'. auto.
  Qed.

  Theorem repeat_no_fall_through : forall faddr b org bc s,
    nb_b b ->
    firstn (size_stmt (SRepeat b)) (skipn org (code s)) = lay_stmt faddr (SRepeat b) org bc ->
    rlog s = None -> ip s = org ->
    forall n sn, steps nf n s = Some sn -> length (rs sn) = length (rs s) ->
                 org <= ip sn < org + size_stmt (SRepeat b).
  Proof.
    intros faddr b org bc s N C Hl Hip n sn Hn Hd.
    assert (H : org <= ip sn <= org + size_block b).
    { eapply (repeat_never_exits nf faddr b org bc s); eauto.
      - intros w f Hw. eapply native_par; eauto.
      - apply code_at_slice. rewrite lay_stmt_length. exact C.
      - lia. }
    rewrite size_SRepeat. lia.
  Qed.

  Lemma run_mono : forall k k' s r, run nf k s = Some r -> k <= k' -> run nf k' s = Some r.
  Proof.
    induction k as [|k IH]; intros k' s r H Hle; [discriminate|].
    destruct k' as [|k']; [lia|]. cbn [run] in *.
    destruct (is_running s); [|exact H].
    destruct (fetch_and_run nf s) as [u s1| | |]; try exact H. apply IH; [exact H|lia].
  Qed.

  Lemma run_eventually : forall k s r N r',
    run nf k s = Some r -> (forall k', N < k' -> run nf k' s = Some r') -> r = r'.
  Proof.
    intros k s r N r' Hr HN. pose proof (HN (S (N + k)) ltac:(lia)) as H1.
    pose proof (run_mono k (S (N + k)) s r Hr ltac:(lia)) as H2. congruence.
  Qed.

  Theorem run_converse : forall l org prog fuel t s k r,
    layout_program funs l org = Some prog -> prog_wf funs l ->
    skipn org (code s) = prog ->
    rlog s = None -> insn_limit s = None -> ip s = org -> sim t s ->
    run nf k s = Some r ->
    match sblock fo funs fuel l t with
    | SDone t' => exists s', r = ROk tt s' /\ sim t' s'
    | SFail kd pl _ t' => exists s', r = RErr kd pl s' /\ sim t' s'
    | _ => True
    end.
  Proof.
    intros l org prog fuel t s k r HL HW C Hl Hi Hip Hs Hr.
    pose proof (fwd_program_run fo funs l org prog fuel t s HL HW C Hl Hi Hip Hs) as H.
    destruct (sblock fo funs fuel l t) as [t'|t'|kd pl p t'| |]; cbn [run_agrees] in H; auto.
    - destruct H as (N & s' & HN & S'). exists s'. split; [eapply run_eventually; eauto|exact S'].
    - destruct H as (N & s' & HN & S'). exists s'. split; [eapply run_eventually; eauto|exact S'].
  Qed.
End Main.
