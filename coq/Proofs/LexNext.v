(* Lex::next in stages, its equations by the first bytes of the text, and what one call does to
   the lexer state. *)
From Xeh Require Import Model.Prelude Model.Bits Model.Cell Model.Lexer.
From Xeh Require Import Proofs.LexLoc Proofs.LexBasic Proofs.LexNum Proofs.LexStr Proofs.LexMoreNum Proofs.LexMoreCmt.
Local Open Scope string_scope.

Definition num_stage1 (c : ascii) (r1 : string) (p1 : nat) : option ascii * string * string * nat :=
  if is_digit c then (Some c, String c "", r1, p1)
  else if (byte_of c =? 45)%N || (byte_of c =? 43)%N then
    match r1 with
    | String c2 r1' => if is_digit c2 then (Some c2, String c (String c2 ""), r1', S p1)
                       else (None, "", r1, p1)
    | "" => (None, "", r1, p1)
    end
  else (None, "", r1, p1).

Definition is0_of (np : option ascii) : bool :=
  match np with Some d => (byte_of d =? 48)%N | None => false end.

Definition numeric_of (np : option ascii) : bool :=
  match np with Some _ => true | None => false end.

Definition num_stage2 (is0 : bool) (tmp0 r2 : string) (p2 : nat) : option N * string * string * nat :=
  if is0 then
    match r2 with
    | String c3 r2' =>
      if (byte_of c3 =? 98)%N then (Some 2%N, str_pop tmp0, r2', S p2)
      else if (byte_of c3 =? 120)%N then (Some 16%N, str_pop tmp0, r2', S p2)
      else if (byte_of c3 =? 111)%N then (Some 8%N, str_pop tmp0, r2', S p2)
      else (None, tmp0, r2, p2)
    | "" => (None, tmp0, r2, p2)
    end
  else (None, tmp0, r2, p2).

(* what Lex::next does with a non-numeric text once it has been scanned *)
Definition word_tail (l : lexst) (text rest : string) (p4 : nat) : tok * lexst :=
  if String.eqb text "\" then
    let '(r5, n5) := skip_line rest 0 in (TComment, mklex r5 (p4 + n5) (lpos l) (llen l))
  else if String.eqb text "\(" then
    match skip_mlc (S (String.length rest)) rest p4 with
    | Some (r5, p5) => (TComment, mklex r5 p5 (lpos l) (llen l))
    | None => (TErr PUntermComment (lpos l) (llen l), mklex "" (llen l) (lpos l) (llen l))
    end
  else (TWord text, mklex rest p4 (lpos l) (llen l)).

Definition word_finish (l : lexst) (np : option ascii) (radix : option N) (tmp1 r3 : string) (p3 : nat)
  : tok * lexst :=
  let start := lpos l in
  let fin (t : tok) (rest : string) (pos : nat) := (t, mklex rest pos start (llen l)) in
  let '(r4, n4, tmp, has_dot) := scan_word r3 0 (numeric_of np) tmp1 false in
  let p4 := p3 + n4 in
  if negb (numeric_of np) then word_tail l (str_take (p4 - start) (lrest l)) r4 p4
  else if has_dot then
    match radix with
    | Some _ => fin (TErr PFloat start p4) r4 p4
    | None => fin (TReal tmp) r4 p4
    end
  else
    let rdx := match radix with Some x => x | None => if is0_of np then 16%N else 10%N end in
    match int_from_str_radix tmp rdx with
    | Some v => fin (TLit (CInt v)) r4 p4
    | None => fin (TErr PInt start p4) r4 p4
    end.

Definition lex_word (l : lexst) (c : ascii) : tok * lexst :=
  let start := lpos l in
  let w := utf8_width c in
  let r1 := str_drop w (lrest l) in
  let p1 := start + w in
  let '(np, tmp0, r2, p2) := num_stage1 c r1 p1 in
  let '(radix, tmp1, r3, p3) := num_stage2 (is0_of np) tmp0 r2 p2 in
  word_finish l np radix tmp1 r3 p3.

(* a scanner's result as the result of Lex::next *)
Definition fin3 (l : lexst) (x : tok * string * nat) : tok * lexst :=
  let '(t, rest, pos) := x in (t, mklex rest pos (lpos l) (llen l)).

(* the definition, with the word branch folded into the stages above *)
Lemma lex_next_unfold l :
  lex_next l =
  let '(r0, nws) := skip_ws (lrest l) 0 in
  if (0 <? nws)%nat then (TWs, mklex r0 (lpos l + nws) (lpos l) (llen l))
  else
    match lrest l with
    | "" => (TEnd, mklex "" (lpos l) (lpos l) (llen l))
    | String c r =>
      if (byte_of c =? 34)%N then
        fin3 l (lex_str false (S (String.length r)) r (S (lpos l)) "" (lpos l) (llen l))
      else if starts_ldq (lrest l) then
        let r3 := str_drop 3 (lrest l) in
        fin3 l (lex_str true (S (String.length r3)) r3 (lpos l + 3) "" (lpos l) (llen l))
      else if (byte_of c =? 124)%N then fin3 l (lex_bits r (S (lpos l)) bvb_empty (llen l))
      else lex_word l c
    end.
Proof. reflexivity. Qed.

Lemma lex_next_ws l w rest : w <> "" -> all_ws w = true -> next_not_ws rest = true ->
  lrest l = w ++ rest ->
  lex_next l = (TWs, mklex rest (lpos l + String.length w) (lpos l) (llen l)).
Proof.
  intros Hne Hw Hr Hl. rewrite lex_next_unfold, Hl.
  rewrite skip_ws_run by assumption. cbn [Nat.add].
  destruct w as [|c w]; [congruence|]. reflexivity.
Qed.

Lemma lex_next_end l : lrest l = "" -> lex_next l = (TEnd, mklex "" (lpos l) (lpos l) (llen l)).
Proof. intros Hl. rewrite lex_next_unfold, Hl. reflexivity. Qed.

Lemma lex_next_dispatch l c r : lrest l = String c r -> is_ws c = false ->
  lex_next l =
  if (byte_of c =? 34)%N then
    fin3 l (lex_str false (S (String.length r)) r (S (lpos l)) "" (lpos l) (llen l))
  else if starts_ldq (String c r) then
    let r3 := str_drop 3 (String c r) in
    fin3 l (lex_str true (S (String.length r3)) r3 (lpos l + 3) "" (lpos l) (llen l))
  else if (byte_of c =? 124)%N then fin3 l (lex_bits r (S (lpos l)) bvb_empty (llen l))
  else lex_word l c.
Proof. intros Hl Hc. rewrite lex_next_unfold, Hl. cbn [skip_ws]. rewrite Hc. reflexivity. Qed.

Lemma lex_next_opener l curly qo r : is_opener curly qo -> lrest l = qo ++ r ->
  lex_next l = fin3 l (lex_str curly (S (String.length r)) r (lpos l + String.length qo) "" (lpos l) (llen l)).
Proof.
  intros -> Hl. destruct curly; unfold ldq in Hl; cbn [append] in Hl; rewrite (lex_next_dispatch l _ _ Hl eq_refl).
  - reflexivity.
  - cbn [String.length]. rewrite Nat.add_1_r. reflexivity.
Qed.

Lemma lex_next_bar l r : lrest l = String "|" r ->
  lex_next l = fin3 l (lex_bits r (S (lpos l)) bvb_empty (llen l)).
Proof. intros Hl. rewrite (lex_next_dispatch l _ _ Hl eq_refl), (starts_ldq_false "|" r eq_refl). reflexivity. Qed.

Lemma starts_ldq_valid s : starts_ldq s = true -> vsuf s -> valid_go (str_drop 3 s) 0 = true.
Proof.
  intros H [need Hv]. apply starts_ldq_iff in H. destruct H as [r ->].
  destruct need; cbn in Hv |- *; [exact Hv|discriminate].
Qed.

Lemma lex_next_other l c r : lrest l = String c r -> is_ws c = false ->
  (byte_of c =? 34)%N = false -> starts_ldq (String c r) = false -> (byte_of c =? 124)%N = false ->
  lex_next l = lex_word l c.
Proof. intros Hl Hc H1 H2 H3. rewrite (lex_next_dispatch l c r Hl Hc), H1, H2, H3. reflexivity. Qed.

(* these are all the cases *)
Inductive lex_head (s : string) : Prop :=
| head_ws w rest : s = w ++ rest -> w <> "" -> all_ws w = true -> next_not_ws rest = true -> lex_head s
| head_end : s = "" -> lex_head s
| head_quote curly qo r : is_opener curly qo -> s = qo ++ r -> lex_head s
| head_bar r : s = String "|" r -> lex_head s
| head_other c r : s = String c r -> is_ws c = false ->
    (byte_of c =? 34)%N = false -> starts_ldq (String c r) = false -> (byte_of c =? 124)%N = false -> lex_head s.

Lemma lex_head_all s : lex_head s.
Proof.
  destruct (ws_split s) as (w & rest & E & Hw & Hr).
  destruct w as [|c0 w0]; [|apply (head_ws s _ rest E); [discriminate|assumption|assumption]].
  cbn [append] in E. subst rest. destruct s as [|c r]; [apply head_end; reflexivity|].
  cbn [next_not_ws] in Hr. apply negb_true_iff in Hr.
  destruct (byte_of c =? 34)%N eqn:E1.
  { apply byte_eqb in E1. subst c. apply (head_quote _ false _ r eq_refl). reflexivity. }
  destruct (starts_ldq (String c r)) eqn:E2.
  { apply starts_ldq_iff in E2. destruct E2 as [r' E2]. exact (head_quote _ true _ r' eq_refl E2). }
  destruct (byte_of c =? 124)%N eqn:E3; [apply byte_eqb in E3; subst c; apply (head_bar _ r); reflexivity|].
  apply (head_other _ c r); auto.
Qed.

Lemma num_stage1_spec c r1 p1 np tmp0 r2 p2 :
  num_stage1 c r1 p1 = (np, tmp0, r2, p2) ->
  advx r1 p1 r2 p2 /\ (np = None -> r2 = r1 /\ p2 = p1).
Proof.
  unfold num_stage1. intros H.
  destruct (is_digit c).
  { injection H as <- <- <- <-. split; [apply advx_refl|discriminate]. }
  destruct ((byte_of c =? 45)%N || (byte_of c =? 43)%N).
  2:{ injection H as <- <- <- <-. split; [apply advx_refl|auto]. }
  destruct r1 as [|c2 r1'].
  { injection H as <- <- <- <-. split; [apply advx_refl|auto]. }
  destruct (is_digit c2).
  - injection H as <- <- <- <-. split; [|discriminate].
    eapply advx_cons; [apply advx_refl|reflexivity].
  - injection H as <- <- <- <-. split; [apply advx_refl|auto].
Qed.

(* after a leading zero a radix marker is dropped from the text and the zero from the cleaned text *)
Lemma num_stage2_eq is0 tmp0 r2 p2 :
  num_stage2 is0 tmp0 r2 p2 =
  match (if is0 then radix_mark r2 else None) with
  | Some x => (Some x, str_pop tmp0, str_drop 1 r2, S p2)
  | None => (None, tmp0, r2, p2)
  end.
Proof.
  unfold num_stage2, radix_mark. destruct is0; [|reflexivity]. destruct r2 as [|c3 r2']; [reflexivity|].
  destruct (byte_of c3 =? 98)%N; [reflexivity|]. destruct (byte_of c3 =? 120)%N; [reflexivity|].
  destruct (byte_of c3 =? 111)%N; reflexivity.
Qed.

Lemma num_stage2_spec is0 tmp0 r2 p2 radix tmp1 r3 p3 :
  num_stage2 is0 tmp0 r2 p2 = (radix, tmp1, r3, p3) ->
  advx r2 p2 r3 p3 /\ (is0 = false -> r3 = r2 /\ p3 = p2).
Proof.
  rewrite num_stage2_eq. destruct is0; [destruct (radix_mark r2) eqn:Em|]; intros H; injection H as <- <- <- <-.
  - split; [|discriminate]. destruct r2; [discriminate Em|]. eapply advx_cons; [apply advx_refl|reflexivity].
  - split; [apply advx_refl|discriminate].
  - split; [apply advx_refl|auto].
Qed.

Lemma word_finish_eq l np radix tmp1 body rest p3 :
  no_ws body = true -> next_is_ws_or_end rest = true ->
  word_finish l np radix tmp1 (body ++ rest) p3 =
  let p4 := p3 + String.length body in
  match np with
  | Some c0 => (numeric_tok (lpos l) p4 c0 radix (tmp1 ++ strip_us body) (has_dot body),
                mklex rest p4 (lpos l) (llen l))
  | None => word_tail l (str_take (p4 - lpos l) (lrest l)) rest p4
  end.
Proof.
  intros Hb Hr. unfold word_finish. cbv zeta. rewrite scan_word_run by assumption. cbn [Nat.add orb].
  destruct np as [c0|]; cbn [numeric_of negb is0_of andb]; [|reflexivity].
  unfold numeric_tok. destruct (has_dot body); [destruct radix; reflexivity|].
  destruct (int_from_str_radix _ _); reflexivity.
Qed.

(* what the tail of the word branch returns when it starts at (r, p): the state after an
   unterminated comment, or a suffix of r *)
Definition tail_ok (l : lexst) (r : string) (p : nat) (t : tok) (l' : lexst) : Prop :=
  lstart l' = lpos l /\ llen l' = llen l /\ t <> TEnd /\
  ((is_err t = true /\ lrest l' = "" /\ lpos l' = llen l) \/
   (advx r p (lrest l') (lpos l') /\ (is_err t = false -> vsuf r -> valid_go (lrest l') 0 = true))).

Lemma tail_ok_advx l r0 p0 r p t l' : advx r0 p0 r p -> tail_ok l r p t l' -> tail_ok l r0 p0 t l'.
Proof.
  intros A (H1 & H2 & H3 & H4). split; [exact H1|]. split; [exact H2|]. split; [exact H3|].
  destruct H4 as [H4|[B1 B2]]; [left; exact H4|right]. split; [eapply advx_trans; eassumption|].
  intros Ht Hv. apply B2; [exact Ht|]. eapply vsuf_advx; eassumption.
Qed.

Lemma tail_ok_here l rest pos t : t <> TEnd -> bnd rest = true ->
  tail_ok l rest pos t (mklex rest pos (lpos l) (llen l)).
Proof.
  intros Ht Hb. split; [reflexivity|]. split; [reflexivity|]. split; [exact Ht|]. right.
  split; [apply advx_refl|]. intros _ Hv. apply valid_of_bnd; assumption.
Qed.

Lemma word_tail_spec l text rest p4 t l' : next_is_ws_or_end rest = true ->
  word_tail l text rest p4 = (t, l') ->
  tail_ok l rest p4 t l' /\ (forall w, t = TWord w -> w = text /\ lpos l' = p4).
Proof.
  intros Hr. unfold word_tail.
  destruct (String.eqb text "\").
  { destruct (line_split rest) as (cm & r5 & -> & Hc & Hn). rewrite skip_line_run by assumption.
    intros E. injection E as <- <-. split; [|discriminate].
    eapply tail_ok_advx; [apply (advx_app cm r5 p4)|]. cbn [Nat.add].
    apply tail_ok_here; [discriminate|apply nl_or_end_bnd; exact Hn]. }
  destruct (String.eqb text "\(").
  { rewrite skip_mlc_spec_exact by lia.
    destruct (mlc_result rest p4) as [[r5 p5]|] eqn:Em; intros E; injection E as <- <-; (split; [|discriminate]).
    - destruct (mlc_result_spec _ _ _ _ Em) as [M1 M2].
      split; [reflexivity|]. split; [reflexivity|]. split; [discriminate|]. right. split; [exact M1|].
      intros _. exact M2.
    - split; [reflexivity|]. split; [reflexivity|]. split; [discriminate|]. left. auto. }
  intros E. injection E as <- <-. split.
  - apply tail_ok_here; [discriminate|apply ws_or_end_bnd; exact Hr].
  - intros w Ew. injection Ew as <-. auto.
Qed.

Lemma word_finish_spec l np radix tmp1 r3 p3 t l' :
  word_finish l np radix tmp1 r3 p3 = (t, l') ->
  tail_ok l r3 p3 t l' /\
  (forall w, t = TWord w ->
     np = None /\ exists body rest, r3 = body ++ rest /\ no_ws body = true /\
                  lpos l' = p3 + String.length body /\ w = str_take (lpos l' - lpos l) (lrest l)).
Proof.
  destruct (word_split r3) as (body & rest & -> & Hb & Hr). rewrite word_finish_eq by assumption. cbv zeta.
  pose proof (advx_app body rest p3) as A.
  destruct np as [c0|].
  - intros E. injection E as <- <-. split.
    + eapply tail_ok_advx; [exact A|]. apply tail_ok_here; [|apply ws_or_end_bnd; exact Hr].
      unfold numeric_tok. destruct (has_dot body); [destruct radix; discriminate|].
      destruct (int_from_str_radix _ _); discriminate.
    + intros w Ew. exfalso. revert Ew. unfold numeric_tok. destruct (has_dot body); [destruct radix; discriminate|].
      destruct (int_from_str_radix _ _); discriminate.
  - intros E. destruct (word_tail_spec _ _ _ _ _ _ Hr E) as [T W]. split.
    + eapply tail_ok_advx; eassumption.
    + intros w Ew. destruct (W w Ew) as [W1 W2]. split; [reflexivity|]. exists body, rest.
      rewrite W2. repeat split; [exact Hb|exact W1].
Qed.

Lemma hex_digit_ascii c x : hex_digit c = Some x -> (byte_of c < 128)%N.
Proof.
  unfold hex_digit. destruct (digit_val c) as [v|] eqn:E; [|discriminate]. intros _.
  destruct (digit_val_inv c v E) as (Hv & up & <-).
  pose proof (digit_char_range up v Hv) as H. cbv zeta in H. lia.
Qed.

(* the bits a character between the bars contributes; None: the scan stops at it *)
Definition bits_of (c : ascii) : option (list N) :=
  match hex_digit c with
  | Some x => Some (nibble_N x)
  | None => if is_ws c then Some [] else if (byte_of c =? 46)%N then Some [0%N]
            else if (byte_of c =? 120)%N then Some [1%N] else None
  end.

Lemma lex_bits_cons c r pos b endpos :
  lex_bits (String c r) pos b endpos =
  match bits_of c with
  | Some l => lex_bits r (S pos) (fold_left append_bit l b) endpos
  | None => if (byte_of c =? 124)%N then (TLit (CBits (bvb_finish b)), r, S pos)
            else (TErr PBits pos endpos, str_drop (utf8_width c) (String c r), pos + utf8_width c)
  end.
Proof.
  cbn [lex_bits]. unfold bits_of. destruct (hex_digit c); [reflexivity|]. destruct (is_ws c); [reflexivity|].
  destruct (byte_of c =? 46)%N; [reflexivity|]. destruct (byte_of c =? 120)%N; reflexivity.
Qed.

Lemma bits_of_ascii c l : bits_of c = Some l -> (byte_of c < 128)%N.
Proof.
  unfold bits_of. destruct (hex_digit c) eqn:Eh; [intros _; eapply hex_digit_ascii; exact Eh|].
  destruct (is_ws c) eqn:Ew; [intros _; apply ws_ascii; exact Ew|].
  destruct (byte_of c =? 46)%N eqn:E1; [lia|]. destruct (byte_of c =? 120)%N eqn:E2; [lia|discriminate].
Qed.

(* it returns a suffix of its text; the position can overshoot only when the offending character
   of a malformed literal is cut short by the end of an invalid text *)
Lemma lex_bits_spec : forall s pos b endpos t s' pos',
  lex_bits s pos b endpos = (t, s', pos') ->
  lit_or_err t = true /\ adv s pos s' pos' /\
  (valid_go s 0 = true -> advx s pos s' pos' /\ (is_err t = false -> valid_go s' 0 = true)).
Proof.
  induction s as [|c r IH]; intros pos b endpos t s' pos' H.
  { injection H as <- <- <-. split; [reflexivity|]. split; [apply adv_refl|].
    intros _. split; [apply advx_refl|discriminate]. }
  rewrite lex_bits_cons in H. destruct (bits_of c) as [l|] eqn:Eb.
  - pose proof (bits_of_ascii c l Eb) as Ha. destruct (IH _ _ _ _ _ _ H) as (B0 & B1 & B2). split; [exact B0|].
    split; [eapply adv_cons; [exact B1|reflexivity]|].
    intros Hv. destruct (B2 (valid_ascii_tail c r (vsuf_of_valid _ Hv) Ha)) as [B3 B4].
    split; [eapply advx_cons; [exact B3|reflexivity]|exact B4].
  - destruct (byte_of c =? 124)%N eqn:E3; injection H as <- <- <-; (split; [reflexivity|]).
    + split; [eapply adv_cons; [apply adv_refl|reflexivity]|].
      intros Hv. split; [eapply advx_cons; [apply advx_refl|reflexivity]|].
      intros _. apply (valid_ascii_tail c r (vsuf_of_valid _ Hv)). lia.
    + split; [apply adv_drop|]. intros Hv. split; [|discriminate]. apply advx_drop. apply (valid_first_char c r Hv).
Qed.

(* either the jump to the end of the text after an unterminated comment, or: the position moves
   forward over the text, strictly unless the token is final; in a valid text by exactly the bytes
   passed, and a token that is not an error ends at a character boundary *)
Definition step_ok (l : lexst) (t : tok) (l' : lexst) : Prop :=
  (is_err t = true /\ lrest l' = "" /\ lpos l' = llen l /\ lrest l <> "") \/
  (adv (lrest l) (lpos l) (lrest l') (lpos l') /\
   (is_final t = false -> lpos l < lpos l' /\ lrest l <> "") /\
   (t = TEnd -> lrest l = "") /\
   (valid_go (lrest l) 0 = true ->
      advx (lrest l) (lpos l) (lrest l') (lpos l') /\ (is_err t = false -> valid_go (lrest l') 0 = true))).

Lemma step_ok_past l q r t rest pos : lrest l = q ++ r -> q <> "" -> t <> TEnd ->
  adv r (lpos l + String.length q) rest pos ->
  (valid_go (q ++ r) 0 = true ->
     advx r (lpos l + String.length q) rest pos /\ (is_err t = false -> valid_go rest 0 = true)) ->
  step_ok l t (mklex rest pos (lpos l) (llen l)).
Proof.
  intros Hl Hq Ht Ha Hx. right. cbn [lrest lpos]. rewrite Hl.
  pose proof (advx_app q r (lpos l)) as Aq.
  assert (0 < String.length q) by (destruct q; [congruence|cbn [String.length]; lia]).
  split; [eapply adv_trans; [apply advx_adv; exact Aq|exact Ha]|]. split; [|split].
  - intros _. destruct Ha as [Ha _]. split; [lia|]. destruct q; [congruence|discriminate].
  - intros E. contradiction.
  - intros Hv. destruct (Hx Hv) as [X1 X2]. split; [eapply advx_trans; eassumption|exact X2].
Qed.

Lemma lit_or_err_not_end t : lit_or_err t = true -> t <> TEnd /\ forall w, t <> TWord w.
Proof. destruct t; try discriminate; intros _; split; discriminate. Qed.

Lemma lex_word_spec l c r t l' : lrest l = String c r -> lex_word l c = (t, l') ->
  lstart l' = lpos l /\ llen l' = llen l /\ step_ok l t l' /\
  (forall w, t = TWord w -> w = str_take (lpos l' - lpos l) (lrest l) /\
             (valid_go (lrest l) 0 = true -> is_ws c = false -> no_ws w = true)).
Proof.
  intros Hl. unfold lex_word. cbv zeta.
  destruct (num_stage1 c (str_drop (utf8_width c) (lrest l)) (lpos l + utf8_width c))
    as [[[np tmp0] r2] p2] eqn:E1.
  destruct (num_stage2 (is0_of np) tmp0 r2 p2) as [[[radix tmp1] r3] p3] eqn:E2.
  destruct (num_stage1_spec _ _ _ _ _ _ _ E1) as [A1 N1].
  destruct (num_stage2_spec _ _ _ _ _ _ _ _ E2) as [A2 N2].
  intros H. destruct (word_finish_spec _ _ _ _ _ _ _ _ H) as [T W].
  pose proof (utf8_width_pos c) as Hw.
  set (w := utf8_width c) in *. set (r1 := str_drop w (lrest l)) in *.
  destruct (tail_ok_advx l r1 (lpos l + w) r3 p3 t l' (advx_trans _ _ _ _ _ _ A1 A2) T) as (F1 & F2 & F3 & F4).
  split; [exact F1|]. split; [exact F2|]. split.
  - destruct F4 as [(G1 & G2 & G3)|(G1 & G2)].
    + left. repeat split; try assumption. rewrite Hl. discriminate.
    + right. split; [|split; [|split]].
      * eapply adv_trans; [apply (adv_drop (lrest l) (lpos l) w)|]. apply advx_adv. exact G1.
      * intros _. split; [|rewrite Hl; discriminate]. destruct G1 as (k & _ & K & _). lia.
      * intros Et. contradiction.
      * intros Hv. rewrite Hl in Hv. destruct (valid_first_char c r Hv) as (V1 & V2 & _).
        rewrite <- Hl in V1, V2. fold w in V1, V2. fold r1 in V2. split.
        -- eapply advx_trans; [apply (advx_drop (lrest l) (lpos l) w V1)|exact G1].
        -- intros Et. apply G2; [exact Et|]. apply vsuf_of_valid. exact V2.
  - intros x Ex. destruct (W x Ex) as (Hnp & body & rest & Er & Hb & M2 & M3).
    destruct (N1 Hnp) as [-> ->]. subst np. destruct (N2 eq_refl) as [-> ->].
    split; [exact M3|].
    intros Hv Hc. rewrite M3, M2, <- Nat.add_assoc, Nat.add_comm, Nat.add_sub.
    rewrite str_take_add, no_ws_app. fold r1. rewrite Er, str_take_app_length, Hb, andb_true_r.
    rewrite Hl in Hv |- *. destruct (valid_first_char c r Hv) as (_ & _ & V3). apply V3. exact Hc.
Qed.

Lemma lex_next_spec l t l' : lex_next l = (t, l') ->
  lstart l' = lpos l /\ llen l' = llen l /\ step_ok l t l' /\
  (forall w, t = TWord w -> w = str_take (lpos l' - lpos l) (lrest l) /\
             (valid_go (lrest l) 0 = true -> no_ws w = true)).
Proof.
  (* the shape shared by the three literal scanners, which start after the opening q *)
  assert (Lit : forall q r x, lrest l = q ++ r -> q <> "" ->
            (valid_go (q ++ r) 0 = true -> valid_go r 0 = true) ->
            (forall t0 rest pos, x = (t0, rest, pos) ->
               lit_or_err t0 = true /\ adv r (lpos l + String.length q) rest pos /\
               (valid_go r 0 = true ->
                advx r (lpos l + String.length q) rest pos /\ (is_err t0 = false -> valid_go rest 0 = true))) ->
            fin3 l x = (t, l') ->
            lstart l' = lpos l /\ llen l' = llen l /\ step_ok l t l' /\
            (forall w, t = TWord w -> w = str_take (lpos l' - lpos l) (lrest l) /\
                       (valid_go (lrest l) 0 = true -> no_ws w = true))).
  { intros q r [[t0 rest] pos] Hl Hq Hvq Hx E. destruct (Hx _ _ _ eq_refl) as (K & A & X).
    destruct (lit_or_err_not_end _ K) as [T1 T2]. cbn [fin3] in E. injection E as <- <-.
    split; [reflexivity|]. split; [reflexivity|]. split.
    - apply (step_ok_past l q r); try assumption. intros Hv. apply X, Hvq, Hv.
    - intros w Ew. exfalso. exact (T2 w Ew). }
  destruct (lex_head_all (lrest l)) as [w rest E Hne Hw Hr|E|curly qo r Ho E|r E|c r E Hc H1 H2 H3].
  - rewrite (lex_next_ws l w rest Hne Hw Hr E). intros H. injection H as <- <-.
    split; [reflexivity|]. split; [reflexivity|]. split; [|discriminate].
    apply (step_ok_past l w rest); [exact E|exact Hne|discriminate|apply adv_refl|].
    intros Hv. split; [apply advx_refl|]. intros _. rewrite <- (all_ws_valid w rest Hw). exact Hv.
  - rewrite (lex_next_end l E). intros H. injection H as <- <-.
    split; [reflexivity|]. split; [reflexivity|]. split; [|discriminate].
    right. cbn [lrest lpos]. rewrite E. split; [apply adv_refl|]. split; [discriminate|]. split; [reflexivity|].
    intros _. split; [apply advx_refl|reflexivity].
  - rewrite (lex_next_opener l curly qo r Ho E).
    assert (Hq : qo <> "" /\ valid_go qo 0 = true) by (rewrite Ho; destruct curly; (split; [discriminate|reflexivity])).
    apply (Lit qo r); [exact E|apply Hq| |].
    + intros Hv. rewrite <- (valid_go_app qo 0 r (proj2 Hq)). exact Hv.
    + intros t0 rest pos Es. destruct (lex_str_spec _ _ _ _ _ _ _ _ _ _ Es) as (S1 & S2 & S3).
      split; [exact S2|]. split; [apply advx_adv; exact S1|]. intros Hv. split; [exact S1|].
      intros Ht. apply S3; [exact Ht|apply vsuf_of_valid; exact Hv].
  - rewrite (lex_next_bar l r E). apply (Lit (String "|" "") r); [exact E|discriminate| |].
    + intros Hv. apply (valid_ascii_tail "|" r (vsuf_of_valid _ Hv)). reflexivity.
    + intros t0 rest pos Es. replace (lpos l + String.length (String "|" "")) with (S (lpos l)) by (cbn [String.length]; lia).
      exact (lex_bits_spec _ _ _ _ _ _ _ Es).
  - rewrite (lex_next_other l c r E Hc H1 H2 H3). intros H.
    destruct (lex_word_spec l c r t l' E H) as (W1 & W2 & W3 & W4).
    split; [exact W1|]. split; [exact W2|]. split; [exact W3|].
    intros w Ew. destruct (W4 w Ew) as [X1 X2]. split; [exact X1|]. intros Hv. apply X2; assumption.
Qed.
