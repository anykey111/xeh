(* Locality of the lexer: a token that ends inside a text does not depend on what follows the
   text, provided whitespace (or nothing) follows.  Consequence: the tokens of a ++ X are those
   of a followed by those of X, and blank material between two texts is transparent in context. *)
From Xeh Require Import Model.Prelude Model.Cell Model.Lexer.
From Xeh Require Import Proofs.LexLoc Proofs.LexBasic Proofs.LexStr Proofs.LexMoreNum Proofs.LexMoreCmt Proofs.LexNext Proofs.LexAll Proofs.LexMoreShift.
Local Open Scope string_scope.

Section Local.
  Variable X : string.
  Hypothesis HX : next_is_ws_or_end X = true.

  Lemma nwe_app r : next_is_ws_or_end r = true -> next_is_ws_or_end (r ++ X) = true.
  Proof. destruct r as [|c r]; [intros _; exact HX|]. cbn [append next_is_ws_or_end]. auto. Qed.

  (* X does not complete a three-byte quote: its first byte would be whitespace *)
  Lemma starts3_app a b c s : (32 < a)%N -> (32 < b)%N -> (32 < c)%N ->
    let starts s := match s with
                    | String x (String y (String z _)) => (byte_of x =? a)%N && (byte_of y =? b)%N && (byte_of z =? c)%N
                    | _ => false
                    end in
    starts (s ++ X) = starts s.
  Proof.
    intros Ha Hb Hc. cbv zeta.
    destruct s as [|x [|y [|z r]]]; cbn [append]; try reflexivity;
      (destruct X as [|x0 X']; [reflexivity|]); cbn [next_is_ws_or_end] in HX.
    - destruct X' as [|x1 [|x2 X'']]; try reflexivity. rewrite (ws_not x0 a HX Ha). reflexivity.
    - destruct X' as [|x1 X'']; try reflexivity. rewrite (ws_not x0 b HX Hb), andb_false_r. reflexivity.
    - rewrite (ws_not x0 c HX Hc), andb_false_r. reflexivity.
  Qed.

  Lemma starts_rdq_app s : starts_rdq (s ++ X) = starts_rdq s.
  Proof. apply (starts3_app 226 128 157); lia. Qed.

  Lemma starts_ldq_app s : starts_ldq (s ++ X) = starts_ldq s.
  Proof. apply (starts3_app 226 128 156); lia. Qed.

  (* a step that goes on or closes the literal is the same step with X behind the text *)
  Lemma str_next_app curly s :
    match str_next curly s with
    | SCont _ _ | SClose _ => str_next curly (s ++ X) = str_next curly s
    | _ => True
    end.
  Proof.
    destruct s as [|c r]; [exact I|]. cbn [append str_next]. destruct (byte_of c =? 92)%N.
    - destruct (take_char r) as [[c2 r2]|] eqn:Et; [|exact I]. destruct (esc_text c2) as [Y|] eqn:Ee; [|exact I].
      destruct (take_char_esc r c2 r2 Y Et Ee) as (c0 & -> & -> & Ha).
      cbn [append]. rewrite (take_char_ascii c0 (r2 ++ X) Ha), Ee. reflexivity.
    - destruct (byte_of c =? 34)%N; [reflexivity|].
      change (String c (r ++ X)) with (String c r ++ X). rewrite starts_rdq_app.
      destruct (curly && starts_rdq (String c r)); reflexivity.
  Qed.

  Lemma lex_str_app : forall curly f f' s pos tmp start e1 e2 v s' p',
    lex_str curly f s pos tmp start e1 = (TLit v, s', p') -> String.length (s ++ X) < f' ->
    lex_str curly f' (s ++ X) pos tmp start e2 = (TLit v, s' ++ X, p').
  Proof.
    intros curly. induction f as [|f IH]; intros f' s pos tmp start e1 e2 v s' p' H Hf; [discriminate|].
    destruct f' as [|f']; [lia|]. rewrite lex_str_step in H. rewrite lex_str_step.
    pose proof (str_next_app curly s) as A. pose proof (str_next_spec curly s) as N.
    destruct (str_next curly s) as [k Y|k|k|k]; try discriminate H; rewrite A, str_drop_app by apply N.
    - eapply IH; [exact H|]. rewrite app_length_s, str_drop_length in *. lia.
    - cbv zeta in *. destruct (next_is_ws_or_end (str_drop k s)) eqn:E; [|discriminate].
      injection H as <- <- <-. rewrite (nwe_app _ E). reflexivity.
  Qed.

  Lemma lex_bits_app : forall s pos b e1 e2 v s' p',
    lex_bits s pos b e1 = (TLit v, s', p') -> lex_bits (s ++ X) pos b e2 = (TLit v, s' ++ X, p').
  Proof.
    induction s as [|c r IH]; intros pos b e1 e2 v s' p' H; [discriminate|].
    rewrite lex_bits_cons in H. cbn [append]. rewrite lex_bits_cons.
    destruct (bits_of c); [eapply IH; exact H|]. destruct (byte_of c =? 124)%N; [|discriminate].
    injection H as <- <- <-. reflexivity.
  Qed.

  Lemma closes_here_app s : s <> "" -> closes_here (s ++ X) = closes_here s.
  Proof.
    intros Hne. destruct s as [|c [|c1 [|c2 [|c3 r]]]]; [congruence| | | |]; cbn [append closes_here].
    - destruct X as [|x0 [|x1 X']]; try reflexivity. cbn [next_is_ws_or_end] in HX.
      rewrite (ws_not x0 92 HX) by lia. rewrite andb_false_r. reflexivity.
    - destruct X as [|x0 X']; try reflexivity. cbn [next_is_ws_or_end] in HX.
      rewrite (ws_not x0 41 HX) by lia. rewrite andb_false_r. reflexivity.
    - rewrite HX. reflexivity.
    - reflexivity.
  Qed.

  Lemma first_close_app : forall s i, first_close s = Some i -> first_close (s ++ X) = Some i.
  Proof.
    induction s as [|c r IH]; intros i H; [discriminate|].
    cbn [first_close] in H. cbn [append first_close].
    change (String c (r ++ X)) with (String c r ++ X). rewrite closes_here_app by discriminate.
    destruct (closes_here (String c r)); [exact H|].
    destruct (first_close r) as [k|] eqn:Ek; [|discriminate]. rewrite (IH k eq_refl). exact H.
  Qed.

  Lemma num_stage1_app c r1 p1 np tmp0 r2 p2 :
    num_stage1 c r1 p1 = (np, tmp0, r2, p2) -> num_stage1 c (r1 ++ X) p1 = (np, tmp0, r2 ++ X, p2).
  Proof.
    unfold num_stage1. destruct (is_digit c); [intros H; injection H as <- <- <- <-; reflexivity|].
    destruct ((byte_of c =? 45)%N || (byte_of c =? 43)%N); [|intros H; injection H as <- <- <- <-; reflexivity].
    destruct r1 as [|c2 r1'].
    - intros H. injection H as <- <- <- <-. cbn [append].
      destruct X as [|x0 X']; [reflexivity|]. cbn [next_is_ws_or_end] in HX. apply ws_byte in HX.
      replace (is_digit x0) with false by (unfold is_digit; lia). reflexivity.
    - cbn [append]. destruct (is_digit c2); intros H; injection H as <- <- <- <-; reflexivity.
  Qed.

  Lemma radix_mark_app r : radix_mark (r ++ X) = radix_mark r.
  Proof.
    destruct r as [|c r]; [|reflexivity]. destruct X as [|x0 X']; [reflexivity|].
    cbn [append radix_mark next_is_ws_or_end] in *. rewrite !(ws_not x0 _ HX) by lia. reflexivity.
  Qed.

  Lemma num_stage2_app is0 tmp0 r2 p2 radix tmp1 r3 p3 :
    num_stage2 is0 tmp0 r2 p2 = (radix, tmp1, r3, p3) ->
    num_stage2 is0 tmp0 (r2 ++ X) p2 = (radix, tmp1, r3 ++ X, p3).
  Proof.
    rewrite !num_stage2_eq, radix_mark_app.
    destruct (if is0 then radix_mark r2 else None) eqn:Em; intros H; injection H as <- <- <- <-; [|reflexivity].
    destruct r2; [destruct is0; discriminate Em|reflexivity].
  Qed.

  (* a comment that ends exactly where the text ends is the one token that X can change: a line
     comment would run on into X, and so would the search for a closing marker *)
  Lemma word_tail_app u p stA nA stB nB text rest p4 t lA' :
    next_is_ws_or_end rest = true ->
    word_tail (mklex u p stA nA) text rest p4 = (t, lA') -> is_final t = false ->
    ~ (lrest lA' = "" /\ is_blank_tok t = true) ->
    word_tail (mklex (u ++ X) p stB nB) text (rest ++ X) p4 = (t, mklex (lrest lA' ++ X) (lpos lA') p nB).
  Proof.
    intros Hr. unfold word_tail. cbn [lpos llen].
    destruct (String.eqb text "\").
    { destruct (line_split rest) as (cm & r5 & -> & Hc & Hn). rewrite (skip_line_run cm r5 0 Hc Hn).
      intros H _ Hnb. injection H as <- <-. cbn [lrest lpos] in *.
      destruct r5 as [|c5 r5']; [exfalso; apply Hnb; auto|].
      rewrite app_assoc_s, (skip_line_run cm (String c5 r5' ++ X) 0 Hc Hn). reflexivity. }
    destruct (String.eqb text "\(").
    { rewrite !skip_mlc_spec_exact by (rewrite ?app_length_s; lia). unfold mlc_result.
      destruct (first_close rest) as [i|] eqn:Ei; [|intros H Hf; injection H as <- <-; discriminate].
      intros H Hf Hnb. injection H as <- <-. cbn [lrest lpos] in *.
      rewrite (first_close_app rest i Ei).
      assert (Hi : i + 4 < String.length rest).
      { destruct (Nat.lt_ge_cases (i + 4) (String.length rest)) as [L|L]; [exact L|].
        exfalso. apply Hnb. split; [apply str_drop_all; exact L|reflexivity]. }
      rewrite str_drop_app by lia. rewrite app_length_s, !Nat.min_l by lia. reflexivity. }
    intros H _ _. injection H as <- <-. reflexivity.
  Qed.

  Lemma word_finish_app u p stA nA stB nB np radix tmp1 r3 p3 t lA' :
    advx u p r3 p3 ->
    word_finish (mklex u p stA nA) np radix tmp1 r3 p3 = (t, lA') -> is_final t = false ->
    ~ (lrest lA' = "" /\ is_blank_tok t = true) ->
    word_finish (mklex (u ++ X) p stB nB) np radix tmp1 (r3 ++ X) p3 =
    (t, mklex (lrest lA' ++ X) (lpos lA') p nB).
  Proof.
    intros (k0 & K0 & -> & ->). pose proof (str_drop_length k0 u) as L.
    destruct (word_split (str_drop k0 u)) as (body & rest & E & Hb & Hr). rewrite E in *.
    rewrite app_length_s in L. rewrite app_assoc_s, !word_finish_eq by (try apply nwe_app; assumption).
    cbv zeta. cbn [lpos lrest llen]. destruct np as [c0|].
    - intros H _ _. injection H as <- <-. reflexivity.
    - rewrite str_take_app by lia. apply word_tail_app. exact Hr.
  Qed.

  Lemma lex_word_app c r p stA nA stB nB t lA' :
    valid_go (String c r) 0 = true ->
    lex_word (mklex (String c r) p stA nA) c = (t, lA') -> is_final t = false ->
    ~ (lrest lA' = "" /\ is_blank_tok t = true) ->
    lex_word (mklex (String c r ++ X) p stB nB) c = (t, mklex (lrest lA' ++ X) (lpos lA') p nB).
  Proof.
    intros Hv. unfold lex_word. cbv zeta. cbn [lpos lrest].
    destruct (valid_first_char c r Hv) as (V1 & _ & _).
    rewrite str_drop_app by exact V1.
    destruct (num_stage1 c (str_drop (utf8_width c) (String c r)) (p + utf8_width c))
      as [[[np tmp0] r2] p2] eqn:E1.
    rewrite (num_stage1_app _ _ _ _ _ _ _ E1).
    destruct (num_stage2 (is0_of np) tmp0 r2 p2) as [[[radix tmp1] r3] p3] eqn:E2.
    rewrite (num_stage2_app _ _ _ _ _ _ _ _ E2).
    destruct (num_stage1_spec _ _ _ _ _ _ _ E1) as [A1 _].
    destruct (num_stage2_spec _ _ _ _ _ _ _ _ E2) as [A2 _].
    apply word_finish_app.
    eapply advx_trans; [apply (advx_drop (String c r) p (utf8_width c) V1)|].
    eapply advx_trans; eassumption.
  Qed.

  Lemma lex_next_app u p stA nA stB nB t lA' :
    valid_go u 0 = true ->
    lex_next (mklex u p stA nA) = (t, lA') -> is_final t = false ->
    ~ (lrest lA' = "" /\ is_blank_tok t = true) ->
    lex_next (mklex (u ++ X) p stB nB) = (t, mklex (lrest lA' ++ X) (lpos lA') p nB).
  Proof.
    intros Hv.
    assert (Lit : forall x y, (forall v s' p', x = (TLit v, s', p') -> y = (TLit v, s' ++ X, p')) ->
              lit_or_err (fst (fst x)) = true ->
              fin3 (mklex u p stA nA) x = (t, lA') -> is_final t = false ->
              ~ (lrest lA' = "" /\ is_blank_tok t = true) ->
              fin3 (mklex (u ++ X) p stB nB) y = (t, mklex (lrest lA' ++ X) (lpos lA') p nB)).
    { intros [[t0 rest] pos] y Hy Hk H Hf _. cbn [fin3 lpos llen fst] in *. injection H as <- <-.
      destruct t0; try discriminate. rewrite (Hy _ _ _ eq_refl). reflexivity. }
    destruct (lex_head_all u) as [w rest E Hne Hw Hr|E|curly qo r Ho E|r E|c r E Hc H1 H2 H3]; subst u.
    - rewrite (lex_next_ws (mklex (w ++ rest) p stA nA) w rest Hne Hw Hr eq_refl).
      intros H _ Hnb. injection H as <- <-. cbn [lrest lpos] in *.
      destruct rest as [|c0 rest']; [exfalso; apply Hnb; auto|].
      apply (lex_next_ws (mklex ((w ++ String c0 rest') ++ X) p stB nB) w (String c0 rest' ++ X) Hne Hw Hr).
      apply app_assoc_s.
    - rewrite (lex_next_end (mklex "" p stA nA) eq_refl). intros H Hf. injection H as <- <-. discriminate.
    - rewrite (lex_next_opener (mklex (qo ++ r) p stA nA) curly qo r Ho eq_refl).
      rewrite (lex_next_opener (mklex ((qo ++ r) ++ X) p stB nB) curly qo (r ++ X) Ho (app_assoc_s qo r X)).
      cbn [lpos llen]. apply Lit.
      + intros v s' p' Es. apply (lex_str_app _ _ _ _ _ _ _ _ nB _ _ _ Es). lia.
      + destruct (lex_str _ _ _ _ _ _ _) as [[t0 s'] p'] eqn:Es. exact (proj1 (proj2 (lex_str_spec _ _ _ _ _ _ _ _ _ _ Es))).
    - rewrite (lex_next_bar (mklex (String "|" r) p stA nA) r eq_refl).
      rewrite (lex_next_bar (mklex (String "|" r ++ X) p stB nB) (r ++ X) eq_refl). cbn [lpos llen].
      apply Lit.
      + intros v s' p' Es. apply (lex_bits_app _ _ _ _ nB _ _ _ Es).
      + destruct (lex_bits _ _ _ _) as [[t0 s'] p'] eqn:Es. exact (proj1 (lex_bits_spec _ _ _ _ _ _ _ Es)).
    - rewrite (lex_next_other (mklex (String c r) p stA nA) c r eq_refl Hc H1 H2 H3).
      rewrite (lex_next_other (mklex (String c r ++ X) p stB nB) c (r ++ X) eq_refl Hc H1); [|rewrite <- H2|exact H3].
      + apply lex_word_app. exact Hv.
      + apply (starts_ldq_app (String c r)).
  Qed.
End Local.

Definition last_significant (pre : list (tok * nat * nat)) : Prop :=
  forall pre' x, pre = (pre' ++ [x])%list -> is_blank_tok (fst (fst x)) = false.

Lemma last_significant_tail x pre : pre <> [] -> last_significant (x :: pre) -> last_significant pre.
Proof. intros Hne H pre' y E. apply (H (x :: pre') y). rewrite E. reflexivity. Qed.

Lemma prefix_stable X : next_is_ws_or_end X = true ->
  forall pre u p nA nB e e', valid_go u 0 = true ->
  lex_from u p nA = (pre ++ [(TEnd, e, e')])%list -> last_significant pre ->
  lex_from (u ++ X) p nB = (pre ++ lex_from X (p + String.length u) nB)%list.
Proof.
  intros HX. induction pre as [|x pre IH]; intros u p nA nB e e' Hv H Hls.
  - (* the first token is the end: u is empty *)
    rewrite (lex_from_end_inv _ _ _ _ _ _ H). cbn [app append String.length]. rewrite Nat.add_0_r. reflexivity.
  - cbn [app] in H.
    destruct (lex_from_cons_inv u p nA x _ H) as (t & lA' & Hn & Ef & -> & Hl).
    { destruct pre; discriminate. }
    destruct (lex_next_spec _ _ _ Hn) as (N1 & _ & N3 & _). cbn [lpos lrest] in N1, N3.
    destruct N3 as [(E1 & _)|(_ & _ & _ & V)]; [destruct t; discriminate|].
    destruct (V Hv) as [V1 V2]. cbn [lrest lpos] in V1. apply advx_len in V1.
    assert (Hnb : ~ (lrest lA' = "" /\ is_blank_tok t = true)).
    { intros [R B]. rewrite R, lex_from_end in Hl. destruct pre as [|y pre]; [|destruct pre; discriminate].
      specialize (Hls [] (t, lstart lA', lpos lA') eq_refl). cbn [fst] in Hls. congruence. }
    pose proof (lex_next_app X HX u p p nA p nB t lA' Hv Hn Ef Hnb) as HB.
    rewrite (lex_from_step _ _ _ _ _ _ _ _ HB Ef). cbn [app]. rewrite N1. f_equal.
    rewrite (IH (lrest lA') (lpos lA') nA nB e e'); [f_equal; f_equal; clear - V1; lia| |symmetry; exact Hl|].
    + apply V2. destruct t; try reflexivity; discriminate.
    + destruct pre as [|y pre]; [intros [|? ?] ? E; discriminate|].
      eapply last_significant_tail; [discriminate|exact Hls].
Qed.

Lemma significant_app a b : significant (a ++ b) = (significant a ++ significant b)%list.
Proof. unfold significant. apply filter_app. Qed.

(* TRANSPARENCY IN CONTEXT.  a: a valid UTF-8 text that lexes to its end without error and whose
   last token is significant; g: blank material; b: any text.  The significant tokens of
   a ++ g ++ b are those of a, followed by those of b moved behind a and g. *)
Lemma blank_transparent_in_context a g b pre e e' :
  valid_utf8 a = true -> lex_string a = (pre ++ [(TEnd, e, e')])%list -> last_significant pre ->
  next_is_ws_or_end (g ++ b) = true -> blank g b ->
  significant (lex_string (a ++ g ++ b)) =
  (significant pre ++ map (shift_span (String.length a + String.length g)) (significant (lex_string b)))%list.
Proof.
  intros Hv Ha Hls Hw Hb. rewrite lex_string_from in Ha.
  rewrite lex_string_from.
  rewrite (prefix_stable (g ++ b) Hw pre a 0 (String.length a)
             (String.length (a ++ g ++ b)) e e' Hv Ha Hls).
  rewrite significant_app. f_equal. cbn [Nat.add].
  rewrite (blank_transparent g b Hb). rewrite <- significant_shift. f_equal.
  rewrite lex_string_from.
  rewrite <- (lex_from_shift (String.length a + String.length g) b 0 (String.length b)).
  cbn [Nat.add]. f_equal. rewrite !app_length_s. lia.
Qed.

