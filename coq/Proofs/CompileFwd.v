(* CompileFwd.v: the simulation, construct by construct, for the predicate [okq]
   (CompileBwdStep.v): when the evaluator returns a result the machine reaches the corresponding
   state, every intermediate machine state is inside the region of the tree, an evaluator that
   runs out of fuel corresponds to a machine that makes many steps inside, and an evaluator that
   answers [SUnsup] to a machine that gets stuck.
   Part 1: blocks, one-cell statements, calls, if / if-else, begin-until, begin-repeat,
   begin-while-repeat. *)
From Xeh Require Import Model.Prelude Model.Bits Model.Codec Model.Cell Model.Lexer Model.Fmt
                        Model.Vm Model.Words Model.Struct
                        Proofs.VmFrame Proofs.StructBase Proofs.CompileSim Proofs.CompileLayout Proofs.CompileStep
                        Proofs.CompileEval Proofs.CompileBwdStep.
Local Notation length := List.length.

#[local] Arguments Z.add : simpl never.
#[local] Arguments Z.sub : simpl never.
#[local] Arguments Z.mul : simpl never.
#[local] Arguments Z.ltb : simpl never.
#[local] Arguments Z.leb : simpl never.
#[local] Arguments Z.eqb : simpl never.
#[local] Arguments Z.of_nat : simpl never.
#[local] Arguments Z.to_nat : simpl never.

Section Fwd.
  Variable fo : fops.
  Variable funs : list (nat * list stmt).
  Variable faddr : nat -> nat.
  Variable c : list opcode.
  Variable W : nat.
  Variable U : Prop.
  Notation nf := (native_fn fo).

  (* every function of the program is laid out at its address, followed by Ret; its body is
     well formed and has no pending break (`;` refuses one) *)
  Definition funs_placed : Prop :=
    forall g body, fun_body funs g = Some body ->
      code_at c (faddr g) (lay_block faddr body (faddr g) BNone ++ [ORet]) /\ wf_b body /\ nb_b body.

  Definition Qb_at (f : nat) (b : list stmt) : Prop :=
    forall org bc t s,
      wf_b b -> cg_b (callee U funs) b -> brk_ok bc b -> code_at c org (lay_block faddr b org bc) ->
      mach c s -> ip s = org -> sim t s ->
      okq nf c W U (inreg (rskeys s) org (org + size_block b)) s (org + size_block b) bc
          (f - wt_block b) (sblock fo funs f b t).
  Definition Qs_at (f : nat) (x : stmt) : Prop :=
    forall org bc t s,
      wf_s x -> cg_s (callee U funs) x -> brk_ok_s bc x -> code_at c org (lay_stmt faddr x org bc) ->
      mach c s -> ip s = org -> sim t s ->
      okq nf c W U (inreg (rskeys s) org (org + size_stmt x)) s (org + size_stmt x) bc
          (f - wt_stmt x) (sstmt fo funs f x t).
  Definition Qb (f : nat) : Prop := forall b, Qb_at f b.
  Definition Qs (f : nat) : Prop := forall x, Qs_at f x.

  Lemma caseq_cell : forall f x op (m : M unit) p,
    (forall org bc, lay_stmt faddr x org bc = [op]) -> (forall n, op <> OResolve n) -> par m ->
    (forall ip0 s1, exec_op nf ip0 op s1 = bind m (fun _ => next_ip) s1) ->
    (forall t, sstmt fo funs (S f) x t = run_m m p t (fun _ t' => SDone t')) ->
    Qs_at (S f) x.
  Proof.
    intros f x op m p Hlay Hop Hm Hex Hev org bc t s Wf Cl B C M Hip Hsim.
    rewrite Hev. rewrite Hlay in C. apply code_at_one in C. subst org.
    replace (size_stmt x) with 1 by (rewrite <- (lay_stmt_length faddr x 0 BNone), Hlay; reflexivity).
    eapply simple_stmtq; eauto. reg_here.
  Qed.

  Lemma caseq_Prim : forall f w p, Qs_at (S f) (SPrim w p).
  Proof.
    intros f w p. destruct (native_fn fo w) as [m|] eqn:E.
    - apply caseq_cell with (op := ONative w) (m := m) (p := p);
        [reflexivity|discriminate|eapply native_par; exact E| |]; intros; cbn [exec_op sstmt]; rewrite E; reflexivity.
    - (* not a native word: the machine answers "unsupported" too *)
      intros org bc t s Wf Cl B C M Hip Hsim. rewrite sstmt_SPrim, E.
      cbn [lay_stmt] in C. apply code_at_one in C. subst org. change (size_stmt (SPrim w p)) with 1.
      eapply okq_stuck; [exact M|reg_here|exact C|]. right.
      destruct M as [Mc Ml Mi].
      rewrite (fetch_plain nf s (ONative w) Mi) by (rewrite ?Mc; assumption || discriminate).
      cbn [exec_op]. rewrite E. reflexivity.
  Qed.

  Hypothesis placed : funs_placed.
  Hypothesis closed : funs_callee U funs.
  Hypothesis W_pos : 1 <= W.
  Hypothesis W_body : forall g body, fun_body funs g = Some body -> wt_block body <= W.

  Lemma blockq_step : forall f, Qs f -> Qb f -> Qb (S f).
  Proof.
    intros f HS HB b org bc t s Wf Cl B C M Hip Hsim.
    destruct b as [|x r].
    - rewrite sblock_nil. apply okq_done_here; [assumption|assumption|cbn [size_block]; lia].
    - rewrite sblock_cons. cbn [lay_block size_block wt_block] in *.
      apply code_at_app in C. destruct C as [Cx Cr]. rewrite lay_stmt_length in Cr.
      inversion Wf as [|x' r' Wx Wr]; subst x' r'. inversion Cl as [|x' r' Clx Clr]; subst x' r'.
      assert (Bx : brk_ok_s bc x) by (intro E; specialize (B E); inversion B; assumption).
      assert (Br : brk_ok bc r) by (intro E; specialize (B E); inversion B; assumption).
      eapply okq_bind.
      + eapply okq_sub; [apply (HS x org bc t s); assumption|reg_sub|lia|reflexivity].
      + intros t1 s1 M1 I1 S1 K1.
        eapply okq_sub; [apply (HB r (org + size_stmt x) bc t1 s1); assumption|reg_sub|lia|lia].
      + intros t1 s1 HR1 M1 C1 Bn S1 _. apply okq_broke_here; assumption.
  Qed.

  Lemma caseq_Def : forall f g, Qs_at (S f) (SDef g).
  Proof.
    intros f g org bc t s Wf Cl B C M Hip Hsim. rewrite sstmt_SDef.
    apply okq_done_here; [assumption|assumption|change (size_stmt (SDef g)) with 0; lia].
  Qed.

  Lemma caseq_Break : forall f, Qs_at (S f) SBreak.
  Proof.
    intros f org bc t s Wf Cl B C M Hip Hsim. rewrite sstmt_SBreak.
    rewrite lay_SBreak in C. apply code_at_one in C. subst org.
    change (size_stmt SBreak) with 1.
    cbn [okq]. exists s. split; [apply treach_refl|]. split; [reg_here|]. split; [exact M|]. split; [exact C|].
    split; [|split; [exact Hsim|reflexivity]].
    intro E. specialize (B E). inversion B.
  Qed.

  Lemma caseq_Call : forall f g p, Qb f -> Qs_at (S f) (SCall g p).
  Proof.
    intros f g p HB org bc t s Wf Cl B C M Hip Hsim. rewrite sstmt_SCall.
    cbn [lay_stmt] in C. apply code_at_one in C. subst org.
    change (size_stmt (SCall g p)) with 1. change (wt_stmt (SCall g p)) with 1.
    destruct (fun_body funs g) as [body|] eqn:Eg.
    2: { (* no body: the tree is not closed *)
         intro u. inversion Cl as [| |g' p' Hg| | | | | | | | | | | | |]; subst. contradiction (Hg u). }
    destruct (placed g body Eg) as (Cg & Wg & Ng).
    pose proof (W_body g body Eg) as HWb.
    set (R := inreg (rskeys s) (ip s) (ip s + 1)).
    assert (HRs : R s) by (unfold R; reg_here).
    destruct (call_to nf c s t (faddr g) M Hsim C) as (t1 & s1 & Ep & F & M1 & I1 & S1 & K1).
    unfold run_m at 1. rewrite Ep.
    apply code_at_app in Cg. destruct Cg as [Cb Cr]. rewrite lay_block_length in Cr. apply code_at_one in Cr.
    pose proof (HB body (faddr g) BNone t1 s1 Wg (closed g body Eg) (fun _ => Ng) Cb M1 I1 S1) as H.
    eapply okq_sub with (R' := R) (B := f - wt_block body) in H;
      [|intros x Hx; rewrite K1 in Hx; unfold R; eapply inreg_deeper; exact Hx|lia|reflexivity].
    destruct (sblock fo funs f body t1) as [t2|t2|k pl p' t2| |]; cbn [on_res].
    - cbn [okq] in H. destruct H as (s2 & R2 & M2 & I2 & S2 & K2).
      rewrite <- I2 in Cr. rewrite K1 in K2.
      assert (HR2 : R s2) by (unfold R; eapply inreg_deeper_here; exact K2).
      pose proof (ret_to nf c s2 t2 _ _ _ M2 S2 Cr K2) as H3.
      unfold run_m. destruct (pop_return t2) as [fr t3|k pl t3| |]; cbn [okq]; try contradiction.
      + destruct H3 as (s3 & F3 & M3 & I3 & S3 & K3). exists s3.
        split; [eapply treach_step; [exact HRs|exact F|eapply treach_trans; [exact R2|eapply treach_one; [exact HR2|exact F3]]]|].
        split; [exact M3|]. split; [lia|]. split; [exact S3|exact K3].
      + destruct H3 as (s3 & F3 & S3). exists s2, s3.
        split; [eapply treach_step; [exact HRs|exact F|exact R2]|]. auto.
    - cbn [okq] in H. destruct H as (s2 & _ & _ & _ & _ & Hne & _). contradiction Hne. reflexivity.
    - cbn [okq] in H |- *. destruct H as (sN & s' & RN & HRN & MN & FN & SN). exists sN, s'.
      split; [eapply treach_step; [exact HRs|exact F|exact RN]|]. auto.
    - cbn [okq] in H |- *. intros N HN. destruct N as [|N]; [apply stays_0|].
      eapply stays_step; [exact HRs|exact F|]. apply H. rewrite Nat.mul_succ_r in HN. lia.
    - cbn [okq] in H |- *. intro u. destruct (H u) as (sN & RN & HRN & St). exists sN.
      split; [eapply treach_step; [exact HRs|exact F|exact RN]|]. auto.
  Qed.

  Lemma caseq_If : forall f p t0, Qb f -> Qs_at (S f) (SIf p t0).
  Proof.
    intros f p t0 HB org bc t s Wf Cl B C M Hip Hsim. rewrite sstmt_SIf.
    rewrite lay_SIf in C. apply code_at_cons in C. destruct C as [C0 C1].
    rewrite size_SIf, wt_SIf. inversion Wf; subst. inversion Cl; subst.
    assert (Bt : brk_ok bc t0) by (intro E; specialize (B E); inversion B; assumption).
    eapply step_run_mq; [apply par_m_test|exact Hsim|exact M|reg_here|exact C0|discriminate|intro; apply exec_jumpifnot|].
    intros b t1 s1 Em S1 A1 F. destruct b; cbn [negb] in F.
    - eapply okq_next; [reg_here|exact A1|exact S1|exact F|]. intros s2 M2 I2 S2 K2.
      eapply okq_sub; [apply (HB t0 (S (ip s)) bc t1 s2); assumption|reg_sub|lia|lia].
    - eapply okq_goto; [reg_here|exact A1|exact S1|exact F|]. intros s2 M2 I2 S2 K2.
      apply okq_done_here; [eassumption|eassumption|rewrite I2, jt_fwd; lia].
  Qed.

  Lemma caseq_IfE : forall f p t0 e0, Qb f -> Qs_at (S f) (SIfE p t0 e0).
  Proof.
    intros f p t0 e0 HB org bc t s Wf Cl B C M Hip Hsim. rewrite sstmt_SIfE.
    rewrite lay_SIfE in C. apply code_at_app in C. destruct C as [C0 C2].
    apply code_at_cons in C0. destruct C0 as [C0 C1].
    cbn [length] in C2. rewrite lay_block_length in C2.
    apply code_at_cons in C2. destruct C2 as [C2 C3].
    rewrite size_SIfE, wt_SIfE. inversion Wf; subst. inversion Cl; subst.
    assert (Bt : brk_ok bc t0) by (intro E; specialize (B E); inversion B; assumption).
    assert (Be : brk_ok bc e0) by (intro E; specialize (B E); inversion B; assumption).
    eapply step_run_mq; [apply par_m_test|exact Hsim|exact M|reg_here|exact C0|discriminate|intro; apply exec_jumpifnot|].
    intros b t1 s1 Em S1 A1 F. destruct b; cbn [negb] in F.
    - eapply okq_next; [reg_here|exact A1|exact S1|exact F|]. intros s2 M2 I2 S2 K2.
      eapply okq_then_jump with (e := ip s + S (size_block t0)); [|exact C2|rewrite jt_fwd; lia|].
      + eapply okq_sub; [apply (HB t0 (S (ip s)) bc t1 s2); assumption|reg_sub|lia|lia].
      + intros s3 I3 K3. reg_here.
    - eapply okq_goto; [reg_here|exact A1|exact S1|exact F|]. intros s2 M2 I2 S2 K2.
      rewrite jt_fwd in I2.
      replace (S (ip s + S (size_block t0))) with (ip s + 2 + size_block t0) in C3 by lia.
      eapply okq_sub; [apply (HB e0 (ip s + 2 + size_block t0) bc t1 s2); try assumption; lia|reg_sub|lia|lia].
  Qed.

  Lemma caseq_Until : forall f b0 p, Qb f -> Qs f -> Qs_at (S f) (SUntil b0 p).
  Proof.
    intros f b0 p HB HS org bc t s Wf Cl B C M Hip Hsim. rewrite sstmt_SUntil.
    pose proof C as Call.
    rewrite lay_SUntil in C. apply code_at_app in C. destruct C as [C0 C1].
    rewrite lay_block_length in C1. apply code_at_one in C1.
    rewrite size_SUntil, wt_SUntil. inversion Wf; subst. inversion Cl; subst.
    eapply okq_bind.
    - eapply okq_sub; [apply (HB b0 (ip s) BNone t s); try assumption; try reflexivity; intro; assumption|reg_sub|lia|reflexivity].
    - intros t1 s1 M1 I1 S1 K1. rewrite <- I1 in C1.
      eapply step_run_mq; [apply par_m_test|exact S1|exact M1|reg_here|exact C1|discriminate|intro; apply exec_jumpifnot|].
      intros b t2 s2 Em S2 A2 F. destruct b; cbn [negb] in F.
      + eapply okq_next; [reg_here|exact A2|exact S2|exact F|]. intros s3 M3 I3 S3 K3.
        apply okq_done_here; [eassumption|eassumption|lia].
      + eapply okq_goto; [reg_here|exact A2|exact S2|exact F|]. intros s3 M3 I3 S3 K3.
        rewrite jt_back in I3 by lia.
        eapply okq_sub; [apply (HS (SUntil b0 p) (ip s) bc t2 s3); try assumption; lia| | |];
          rewrite ?size_SUntil, ?wt_SUntil; [reg_sub|lia|reflexivity].
    - intros t1 s1 _ _ _ Hne. contradiction Hne. reflexivity.
  Qed.

  Lemma caseq_Repeat : forall f b0, Qb f -> Qs f -> Qs_at (S f) (SRepeat b0).
  Proof.
    intros f b0 HB HS org bc t s Wf Cl B C M Hip Hsim. rewrite sstmt_SRepeat.
    pose proof C as Call.
    rewrite lay_SRepeat in C. apply code_at_app in C. destruct C as [C0 C1].
    rewrite lay_block_length in C1. apply code_at_one in C1.
    rewrite size_SRepeat, wt_SRepeat. inversion Wf; subst. inversion Cl; subst.
    eapply okq_bind.
    - eapply okq_sub; [apply (HB b0 (ip s) (BJump (ip s + size_block b0 + 1)) t s); try assumption; try reflexivity; intro; discriminate
                      |reg_sub|lia|reflexivity].
    - intros t1 s1 M1 I1 S1 K1. rewrite <- I1 in C1.
      destruct (jump_to nf c s1 t1 _ M1 S1 C1) as (s2 & F & M2 & I2 & S2 & K2).
      eapply okq_step; [reg_here|exact F|exact K2|].
      rewrite jt_back in I2 by lia.
      eapply okq_sub; [apply (HS (SRepeat b0) (ip s) bc t1 s2); try assumption; lia| | |];
        rewrite ?size_SRepeat, ?wt_SRepeat; [reg_sub|lia|reflexivity].
    - intros t1 s1 HR1 M1 C2 _ S1 K1. cbn [brk_op] in C2.
      destruct (jump_to nf c s1 t1 _ M1 S1 C2) as (s2 & F & M2 & I2 & S2 & K2).
      eapply okq_step0; [exact HR1|exact F|exact K2|].
      rewrite jt_rel in I2.
      apply okq_done_here; [eassumption|eassumption|lia].
  Qed.

  Lemma caseq_While : forall f c0 p b0, Qb f -> Qs f -> Qs_at (S f) (SWhile c0 p b0).
  Proof.
    intros f c0 p b0 HB HS org bc t s Wf Cl B C M Hip Hsim. rewrite sstmt_SWhile.
    pose proof C as Call.
    rewrite lay_SWhile in C. cbv zeta in C.
    apply code_at_app in C. destruct C as [C0 C1]. rewrite lay_block_length in C1.
    apply code_at_app in C1. destruct C1 as [C1 C3]. cbn [length] in C3. rewrite lay_block_length in C3.
    apply code_at_cons in C1. destruct C1 as [C1 C2]. apply code_at_one in C3.
    rewrite size_SWhile, wt_SWhile. inversion Wf; subst. inversion Cl; subst.
    set (endp := ip s + size_block c0 + 1 + size_block b0 + 1) in *.
    set (R := inreg (rskeys s) (ip s) (ip s + (size_block c0 + 1 + size_block b0 + 1))).
    assert (Hbrk : forall t1 s1, R s1 -> mach c s1 -> nth_error c (ip s1) = Some (brk_op (ip s1) (BJump endp)) ->
                                 BJump endp <> BNone -> sim t1 s1 -> rskeys s1 = rskeys s ->
                                 okq nf c W U R s1 endp bc (S f - (1 + wt_block c0 + wt_block b0)) (SDone t1)).
    { (* a `break` in the condition or in the body: the jump to the end *)
      intros t1 s1 HR1 M1 C4 _ S1 K1. cbn [brk_op] in C4.
      destruct (jump_to nf c s1 t1 _ M1 S1 C4) as (s2 & F & M2 & I2 & S2 & K2).
      eapply okq_step0; [exact HR1|exact F|exact K2|].
      rewrite jt_rel in I2. apply okq_done_here; assumption. }
    replace (ip s + (size_block c0 + 1 + size_block b0 + 1)) with endp by (unfold endp; lia).
    eapply okq_bind; [| |exact Hbrk].
    - eapply okq_sub; [apply (HB c0 (ip s) (BJump endp) t s); try assumption; try reflexivity; intro; discriminate
                      |unfold R; reg_sub|lia|reflexivity].
    - intros t1 s1 M1 I1 S1 K1. rewrite <- I1 in C1.
      eapply step_run_mq; [apply par_m_test|exact S1|exact M1|unfold R; reg_here|exact C1|discriminate|intro; apply exec_jumpifnot|].
      intros go t2 s2 Em S2 A2 F. destruct go; cbn [negb] in F.
      + eapply okq_next; [unfold R; reg_here|exact A2|exact S2|exact F|]. intros s3 M3 I3 S3 K3.
        replace (S (ip s + size_block c0)) with (ip s + size_block c0 + 1) in C2 by lia.
        eapply okq_bind.
        * eapply okq_sub; [apply (HB b0 (ip s + size_block c0 + 1) (BJump endp) t2 s3); try assumption; try lia; intro; discriminate
                          |unfold R; reg_sub|lia|reflexivity].
        * intros t3 s4 M4 I4 S4 K4.
          replace (ip s + size_block c0 + S (size_block b0)) with (ip s4) in C3 by lia.
          destruct (jump_to nf c s4 t3 _ M4 S4 C3) as (s5 & F5 & M5 & I5 & S5 & K5).
          eapply okq_step; [unfold R; reg_here|exact F5|exact K5|].
          rewrite jt_back in I5 by lia.
          eapply okq_sub; [apply (HS (SWhile c0 p b0) (ip s) bc t3 s5); try assumption; lia| | |];
            rewrite ?size_SWhile, ?wt_SWhile; [unfold R; reg_sub|lia|unfold endp; lia].
        * intros t3 s4 HR4 M4 C4 Bn S4 K4. apply Hbrk; try assumption. congruence.
      + eapply okq_goto; [unfold R; reg_here|exact A2|exact S2|exact F|]. intros s3 M3 I3 S3 K3.
        rewrite jt_fwd in I3.
        apply okq_done_here; [eassumption|eassumption|unfold endp; lia].
  Qed.
End Fwd.
