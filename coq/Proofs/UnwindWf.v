(* UnwindWf.v (C10): the state hypotheses of the restoration theorem hold in every state an
   embedding program can reach through the API, except for the absence of unresolved [late]
   stubs: the debug map is exactly as long as the code (DbgMapAlign.v) and no input is
   pending. *)
From Xeh Require Import Model.Prelude Model.Bits Model.Codec Model.Cell Model.Lexer Model.Fmt
                        Model.Vm Model.Words Model.Build Model.Boot.
From Xeh Require Import Proofs.VmFrame Proofs.VmLimits Proofs.DbgMapVm Proofs.DbgMapGen Proofs.DbgMapAlign
                        Proofs.NoPanic Proofs.NoPanicBuild Proofs.BuildUnwind
                        Proofs.UnwindLists Proofs.UnwindFrame Proofs.UnwindInv Proofs.UnwindBuild
                        Proofs.UnwindMain Proofs.UnwindAfter.
Local Notation length := List.length.

(* the alignment invariant of DbgMapAlign.v, read from the code side *)
Definition ce_inv (s : state) : Prop := length (code s) = length (dbg s).

Definition cep {A} (m : M A) : Prop := forall s, ce_inv s -> res_all ce_inv (m s).

Lemma cep_al A (m : M A) : gp al al m -> cep m.
Proof.
  intros H s Hs. specialize (H s (eq_sym Hs)).
  destruct (m s); cbn [res_all]; try exact I; symmetry; exact H.
Qed.

Lemma set_cx_ce : forall s c, ce_inv s -> ce_inv (set_cx s c).
Proof. intros s c H. exact H. Qed.

Lemma cep_endcase_loop : forall fuel org, cep (endcase_loop fuel org).
Proof. intros. apply cep_al, (gp_endcase_loop al al al (fun _ h => h) (fun _ h => h) al_vm). Qed.

Lemma cep_repeat_loop : forall fuel, cep (repeat_loop fuel).
Proof. intros. apply cep_al, (gp_repeat_loop al al al (fun _ h => h) (fun _ h => h) al_vm (code_emit_lenrel (fun a b => b = a) len_rel_al)). Qed.

Lemma cep_loop_loop : forall fuel a b, cep (loop_loop fuel a b).
Proof. intros. apply cep_al, (gp_loop_loop al al al (fun _ h => h) (fun _ h => h) al_vm). Qed.

Definition no_input (s : state) : Prop := input s = [].

Section Input.
  Variable fo : fops.
  Variable pr : string -> option Z.
  Variable rf : nat.

  Lemma context_close_input s : res_all (fun s' => input s' = input s) (context_close fo rf s).
  Proof.
    rewrite context_close_eq. destruct (nested s) as [|prev rest]; [reflexivity|].
    pose proof (run_m_frame fo rf (set_nested s rest)) as FR.
    destruct (cmode (cx s)); [reflexivity| |];
      destruct (run_m fo rf (set_nested s rest)) as [u s1|k p s1| |]; cbn [res_all res_map] in *; auto;
      try exact (fr_input _ _ FR).
    unfold close_meta_tail, bind, modify, get.
    destruct (close_reemits prev (close_cut s1)); [|exact (fr_input _ _ FR)].
    pose proof (emit_results_keeps (S (length (ds (close_cut s1)))) (close_cut s1)) as Y.
    destruct (emit_results _ (close_cut s1)); cbn [res_all] in *; auto; [|contradiction].
    transitivity (input s1); [apply Y|exact (fr_input _ _ FR)].
  Qed.

  Theorem build_from_source_no_input fuel src m s : no_input s ->
    res_all no_input (build_from_source fo pr rf fuel src m s).
  Proof.
    unfold no_input. intros Hin. unfold build_from_source. cbv zeta.
    destruct ((context_open m ;; intern_source src) s) as [u s1|k p s1| |] eqn:E1; cbn [res_all]; auto.
    - destruct (build1 fo pr rf fuel (length (nested s1)) s1) as [u2 s2|k p s2| |] eqn:E2; cbn [res_all]; auto.
      + destruct u2. destruct (build1_ok_exit fo pr rf _ _ _ _ E2) as (_ & _ & Ei).
        pose proof (context_close_input s2) as X.
        destruct (context_close fo rf s2); cbn [res_all] in *; auto; congruence.
      + rewrite build_unwind_input, Hin. apply lastn_0.
    - unfold bind, context_open, intern_source in E1. discriminate.
  Qed.
End Input.

Lemma vmrel_input s s' : vmrel s s' -> input s' = input s.
Proof. intros H. apply (vmrel_keeps _ _ H). Qed.

(* in every state reachable through the API the debug map is as long as the code and no
   input is pending: the two hypotheses of the restoration theorem that do not restrict the
   history *)
Theorem api_wf : forall fo pr s, api_reach fo pr s -> length (dbg s) = length (code s) /\ input s = [].
Proof.
  intros fo pr s H. split; [exact (api_lenrel fo pr (fun a b => b = a) len_rel_al eq_refl s H)|].
  change (no_input s). apply H; clear s H.
  - reflexivity.
  - intros s rf bf src s' Hs E.
    exact (res_state_all _ _ _ (build_from_source_no_input fo pr rf bf src MEval s Hs) E).
  - intros s rf bf src s' Hs E.
    exact (res_state_all _ _ _ (build_from_source_no_input fo pr rf bf src MCompile s Hs) E).
  - intros s s' Hs E. pose proof (next_vmrel _ (native_wl fo) s) as V.
    unfold no_input. rewrite (vmrel_input _ _ (res_state_all _ _ _ V E)). exact Hs.
  - intros s fuel r s' Hs E1 E2. pose proof (run_vmrel _ (native_wl fo) fuel s) as V. rewrite E1 in V.
    unfold no_input. rewrite (vmrel_input _ _ (res_state_all _ _ _ V E2)). exact Hs.
  - intros s s' Hs E. pose proof (res_state_all _ _ _ (rnext_frm s) E) as (_ & _ & _ & Ei & _).
    unfold no_input. rewrite Ei. exact Hs.
  - intros s i h k Hs. exact Hs.
  - intros s l Hs. exact Hs.
Qed.
