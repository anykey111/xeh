(* BaseNWords.v: the encode / decode words of base_ext.rs (C18 at the word level):
   the decoders never fail (they push nil or the decoded bit-string), the encoders accept
   what >bitstr accepts when it is a whole number of bytes, and encode-then-decode
   returns the bits it was given. *)
From Xeh Require Import Model.Prelude Model.Bits Model.Codec Model.Cell Model.Lexer Model.Fmt
                        Model.Vm Model.BaseN Model.Words.
From Xeh Require Import Proofs.BitsBasic Proofs.BitsKernel Proofs.BitsLists Proofs.BitsMirror Proofs.BitsProofs.
From Xeh Require Import Proofs.BaseNKernel Proofs.BaseNProofs Proofs.WordRun.
From Coq Require Import ZifyBool ZifyNat ZifyN.
Local Ltac Zify.zify_post_hook ::= Z.div_mod_to_equations.
Local Notation length := List.length.

Lemma bytes_of_string_codes l : Forall (fun c => (c < 256)%N) l ->
  bytes_of_string (string_of_codes l) = l.
Proof.
  induction 1 as [|c l Hc _ IH]; [reflexivity|].
  unfold string_of_codes in *. cbn [fold_right bytes_of_string].
  unfold byte_of. rewrite N_ascii_embedding by assumption. f_equal. exact IH.
Qed.

Definition text_lt (l : list N) : Prop := Forall (fun c => (c < 256)%N) l.

Lemma b32_decode_text a l out : b32_decode a l = Some out -> text_lt l.
Proof.
  unfold b32_decode. destruct (forallb (fun c => (c <? 128)%N) l) eqn:E; [|discriminate].
  intros _. apply Forall_forall. intros c Hc. rewrite forallb_forall in E.
  specialize (E c Hc). apply N.ltb_lt in E. lia.
Qed.

Lemma b64_alphabet_lt : Forall (fun c => (c < 128)%N) b64_alphabet.
Proof. apply Forall_forall. intros c Hc. apply N.ltb_lt. revert c Hc. apply forallb_forall. reflexivity. Qed.

Lemma z85_letters_lt : Forall (fun c => (c < 128)%N) z85_letters.
Proof. apply Forall_forall. intros c Hc. apply N.ltb_lt. revert c Hc. apply forallb_forall. reflexivity. Qed.

Lemma b64_decode_text l out : b64_decode l = Some out -> text_lt l.
Proof.
  intros H. apply Forall_forall. intros c Hc.
  destruct (N.eq_dec c 61) as [->|Hne]; [lia|].
  destruct (in_dec N.eq_dec c b64_alphabet) as [Hin|Hnin].
  - pose proof b64_alphabet_lt as L. rewrite Forall_forall in L. specialize (L c Hin). lia.
  - rewrite (b64_invalid l c Hc Hnin Hne) in H. discriminate.
Qed.

Lemma z85_decode_text l out : z85_decode l = Some out -> text_lt l.
Proof.
  intros H. apply Forall_forall. intros c Hc.
  destruct (in_dec N.eq_dec c z85_letters) as [Hin|Hnin].
  - pose proof z85_letters_lt as L. rewrite Forall_forall in L. specialize (L c Hin). lia.
  - rewrite (z85_invalid l c Hc Hnin) in H. discriminate.
Qed.

Definition codec_ok (enc : list N -> list N) (dec : list N -> option (list N)) : Prop :=
  (forall d, Forall (fun x => (x < 256)%N) d -> dec (enc d) = Some d) /\
  (forall l out, dec l = Some out -> text_lt l).

Lemma codec_ok_table enc dec :
  In (enc, dec) [ (b32_encode Rfc4648, b32_decode Rfc4648); (b32_encode Crockford, b32_decode Crockford);
                  (b64_encode, b64_decode); (z85_encode, z85_decode) ] ->
  codec_ok enc dec.
Proof.
  intros H. cbn [In] in H.
  destruct H as [H|[H|[H|[H|[]]]]]; injection H as <- <-; split.
  - apply b32_round. - apply b32_decode_text.
  - apply b32_round. - apply b32_decode_text.
  - apply b64_round. - apply b64_decode_text.
  - apply z85_round. - apply z85_decode_text.
Qed.

Lemma bytestr_none_iff c : bytestr c = None <-> clen c mod 8 <> 0.
Proof.
  unfold bytestr, slice, is_u8_slice, is_bytestr.
  destruct (clen c mod 8 =? 0) eqn:E.
  - rewrite Bool.andb_true_r. destruct (cstart c mod 8 =? 0); split; try discriminate; intros; lia.
  - rewrite Bool.andb_false_r. split; [intros _; lia|reflexivity].
Qed.

Lemma bytestr_some c : clen c mod 8 = 0 -> exists bytes, bytestr c = Some bytes.
Proof.
  intros H. destruct (bytestr c) as [b|] eqn:E; [eauto|].
  apply bytestr_none_iff in E. contradiction.
Qed.

Lemma bytes_of_bits_lt l : Forall (fun x => (x < 256)%N) (map bits_to_N (chunk8 l)).
Proof.
  apply Forall_forall. intros x Hx. apply in_map_iff in Hx. destruct Hx as (g & <- & Hg).
  pose proof (chunks8_len_le8 (length l) l) as L. rewrite Forall_forall in L.
  specialize (L g Hg). pose proof (bits_to_N_lt g) as B.
  assert (2 ^ N.of_nat (length g) <= 2 ^ 8)%N by (apply N.pow_le_mono_r; lia).
  change (2 ^ 8)%N with 256%N in *. lia.
Qed.

Lemma from_bytes_wf d : Forall (fun x => (x < 256)%N) d -> wf (from_bytes d).
Proof. intros H. unfold from_bytes. apply wf_mk; [lia|lia|exact H]. Qed.

Lemma chunks8_length_exact {A} : forall fuel (l : list A),
  length l <= fuel -> length l mod 8 = 0 -> 8 * length (chunks8 fuel l) = length l.
Proof.
  induction fuel as [|fuel IH]; intros l Hl Hm.
  - destruct l; [reflexivity|cbn [length] in Hl; lia].
  - destruct l as [|x l]; [reflexivity|].
    rewrite chunks8_cons by discriminate. cbn [length].
    specialize (IH (skipn 8 (x :: l))). rewrite skipn_length in IH.
    cbn [length] in *. lia.
Qed.

Lemma abs_from_bytes_chunks l : length l mod 8 = 0 ->
  abs (from_bytes (map bits_to_N (chunk8 l))) = l.
Proof.
  intros Hm. set (d := map bits_to_N (chunk8 l)).
  assert (Hd : Forall (fun x => (x < 256)%N) d) by apply bytes_of_bits_lt.
  pose proof (from_bytes_wf d Hd) as Hw.
  assert (Hs : is_u8_slice (from_bytes d) = true).
  { unfold is_u8_slice, is_bytestr, clen, from_bytes. cbn [cstart cend].
    replace (0 mod 8) with 0 by reflexivity. cbn [Nat.eqb andb].
    apply Nat.eqb_eq. lia. }
  pose proof (bytes_of_spec (from_bytes d) Hw Hs) as E.
  assert (Eb : bytes_of (from_bytes d) = d).
  { unfold bytes_of, from_bytes. cbn [cstart cend cdata].
    replace (0 / 8) with 0 by reflexivity. cbn [skipn]. rewrite Nat.sub_0_r.
    apply firstn_all2. destruct (ubi_spec (8 * length d)) as [(? & ? & ->)|(? & ? & ?)]; lia. }
  rewrite Eb in E. unfold d in E at 1.
  assert (Hlen : length (abs (from_bytes d)) = length l).
  { rewrite abs_length. unfold clen, from_bytes. cbn [cstart cend]. rewrite Nat.sub_0_r.
    unfold d. rewrite map_length. unfold chunk8. apply chunks8_length_exact; [lia|assumption]. }
  symmetry. apply chunk8_inj_grp. apply map_grp_split; [exact E|].
  unfold chunk8. rewrite Hlen. apply chunks8_lengths. symmetry. exact Hlen.
Qed.

Definition decoded (dec : list N -> option (list N)) (c : cell) : cell :=
  match value c with
  | CStr t => match dec (bytes_of_string t) with Some b => CBits (from_bytes b) | None => CNil end
  | _ => CNil
  end.

Lemma w_decode_cell dec s c rest : ds s = c :: rest -> ds_len (cx s) <= length rest ->
  w_decode dec s = push_data (decoded dec c) (set_ds (with_log [RPushData c] s) rest).
Proof.
  intros Hd Hm. unfold w_decode. unfold bind at 1, get.
  replace (ds_len (cx s) <? length (ds s)) with true
    by (symmetry; apply Nat.ltb_lt; rewrite Hd; cbn [List.length]; lia).
  rewrite (run_pop1 _ s c rest Hd Hm). unfold decoded.
  destruct (value c); try reflexivity. destruct (dec (bytes_of_string s0)); reflexivity.
Qed.

Lemma w_decode_empty dec s : length (ds s) <= ds_len (cx s) -> w_decode dec s = push_data CNil s.
Proof.
  intros H. unfold w_decode. unfold bind at 1, get.
  replace (ds_len (cx s) <? length (ds s)) with false; [reflexivity|].
  symmetry. apply Nat.ltb_ge. assumption.
Qed.

(* whatever is on the stack, a decoder pushes nil or a bit-string of decoded bytes *)
Theorem w_decode_total dec s :
  exists c s1, w_decode dec s = push_data c s1 /\
               (c = CNil \/ exists t b, dec (bytes_of_string t) = Some b /\ c = CBits (from_bytes b)).
Proof.
  destruct (Nat.le_gt_cases (length (ds s)) (ds_len (cx s))) as [L|L].
  - exists CNil, s. split; [apply w_decode_empty; assumption|left; reflexivity].
  - destruct (ds s) as [|c rest] eqn:Hd; [cbn [List.length] in L; lia|].
    exists (decoded dec c), (set_ds (with_log [RPushData c] s) rest). split.
    + apply w_decode_cell; [assumption|cbn [List.length] in L; lia].
    + unfold decoded. destruct (value c); try (left; reflexivity).
      destruct (dec (bytes_of_string s0)) eqn:E; [right; eauto|left; reflexivity].
Qed.

Theorem w_decode_run dec s c rest :
  ds s = c :: rest -> ds_len (cx s) <= length rest ->
  limit_reached (stack_limit s) (length rest) = false ->
  w_decode dec s = ROk tt (set_ds (with_log [RPopData; RPushData c] s) (decoded dec c :: rest)).
Proof.
  intros Hd Hm Hl. rewrite (w_decode_cell dec s c rest Hd Hm). apply run_push. assumption.
Qed.

(* invalid text decodes to nil *)
Theorem decoded_invalid c t ch :
  value c = CStr t -> In ch (bytes_of_string t) ->
  (~ b32_accepts Rfc4648 ch -> decoded (b32_decode Rfc4648) c = CNil) /\
  (~ b32_accepts Crockford ch -> decoded (b32_decode Crockford) c = CNil) /\
  (~ In ch b64_alphabet -> ch <> 61%N -> decoded b64_decode c = CNil) /\
  (~ In ch z85_letters -> decoded z85_decode c = CNil).
Proof.
  intros Hv Hin. unfold decoded. rewrite Hv. repeat split.
  - intros H. rewrite (b32_invalid _ _ _ Hin H). reflexivity.
  - intros H. rewrite (b32_invalid _ _ _ Hin H). reflexivity.
  - intros H1 H2. rewrite (b64_invalid _ _ Hin H1 H2). reflexivity.
  - intros H. rewrite (z85_invalid _ _ Hin H). reflexivity.
Qed.

Lemma w_encode_spec enc s :
  w_encode enc s =
  match into_bitstr s with
  | ROk bs s1 => match bytestr bs with
                 | None => RErr EToBytestr None s1
                 | Some bytes => push_data (CStr (string_of_codes (enc bytes))) s1
                 end
  | RErr k p s1 => RErr k p s1
  | RPanic => RPanic
  | RUnsup => RUnsup
  end.
Proof.
  unfold w_encode, bind. destruct (into_bitstr s) as [bs s1| | |]; try reflexivity.
  destruct (bytestr bs); reflexivity.
Qed.

Lemma w_into_bitstr_spec s :
  w_into_bitstr s =
  match into_bitstr s with
  | ROk bs s1 => push_data (CBits bs) s1
  | RErr k p s1 => RErr k p s1
  | RPanic => RPanic
  | RUnsup => RUnsup
  end.
Proof. unfold w_into_bitstr, bind. destruct (into_bitstr s); reflexivity. Qed.

(* the full case analysis: same failures as >bitstr, plus the whole-bytes requirement *)
Theorem w_encode_domain enc s :
  match into_bitstr s with
  | ROk bs s1 =>
    if clen bs mod 8 =? 0
    then exists bytes, bytestr bs = Some bytes /\
                       (wf bs -> bytes = map bits_to_N (chunk8 (abs bs))) /\
                       w_encode enc s = push_data (CStr (string_of_codes (enc bytes))) s1
    else w_encode enc s = RErr EToBytestr None s1
  | RErr k p s1 => w_encode enc s = RErr k p s1
  | RPanic => w_encode enc s = RPanic
  | RUnsup => w_encode enc s = RUnsup
  end.
Proof.
  rewrite (w_encode_spec enc s). destruct (into_bitstr s) as [bs s1| | |]; try reflexivity.
  destruct (clen bs mod 8 =? 0) eqn:E.
  - apply Nat.eqb_eq in E. destruct (bytestr_some bs E) as (bytes & Hb).
    exists bytes. rewrite Hb. repeat split.
    intros Hw. rewrite (bytestr_spec bs Hw) in Hb.
    replace (clen bs mod 8 =? 0) with true in Hb by (symmetry; apply Nat.eqb_eq; assumption).
    injection Hb as <-. reflexivity.
  - apply Nat.eqb_neq in E. apply bytestr_none_iff in E. rewrite E. reflexivity.
Qed.

(* the encode word succeeds exactly when >bitstr succeeds with a whole number of bytes *)
Theorem w_encode_accepts enc s :
  (exists s', w_encode enc s = ROk tt s') <->
  (exists s', w_into_bitstr s = ROk tt s') /\
  (exists bs s1, into_bitstr s = ROk bs s1 /\ clen bs mod 8 = 0).
Proof.
  rewrite w_encode_spec, w_into_bitstr_spec.
  destruct (into_bitstr s) as [bs s1|k p s1| |].
  - destruct (bytestr bs) as [bytes|] eqn:Eb.
    + assert (Hm : clen bs mod 8 = 0).
      { destruct (Nat.eq_dec (clen bs mod 8) 0) as [E|E]; [assumption|].
        apply bytestr_none_iff in E. congruence. }
      unfold push_data. destruct (limit_reached (stack_limit s1) (length (ds s1))).
      * split; [intros (s' & H); discriminate|intros ((s' & H) & _); discriminate].
      * split; intros _; [split; eauto|eauto].
    + apply bytestr_none_iff in Eb. split.
      * intros (s' & H). discriminate.
      * intros (_ & bs' & s1' & H & Hm). injection H as <- <-. contradiction.
  - split; [intros (s' & H); discriminate|intros ((s' & H) & _); discriminate].
  - split; [intros (s' & H); discriminate|intros ((s' & H) & _); discriminate].
  - split; [intros (s' & H); discriminate|intros ((s' & H) & _); discriminate].
Qed.

Lemma bitstr_concat_state c s : 
  match bitstr_concat c s with
  | ROk bs s1 => s1 = s /\ forall s2, bitstr_concat c s2 = ROk bs s2
  | RErr k p s1 => s1 = s /\ forall s2, bitstr_concat c s2 = RErr k p s2
  | RPanic => forall s2, bitstr_concat c s2 = RPanic
  | RUnsup => forall s2, bitstr_concat c s2 = RUnsup
  end.
Proof.
  unfold bitstr_concat, type_not_supported, ret, fail, unsup.
  destruct (value c); try (split; [reflexivity|intros; reflexivity]).
  destruct (bitstr_concat_vec 40 l {| cstart := 0; cend := 0; cdata := [] |}) as [[b|k|] p];
    try (split; [reflexivity|intros; reflexivity]).
  intros; reflexivity.
Qed.

Lemma into_bitstr_run s c rest : ds s = c :: rest -> ds_len (cx s) <= length rest ->
  into_bitstr s = bitstr_concat c (set_ds (with_log [RPushData c] s) rest).
Proof. intros Hd Hm. unfold into_bitstr. apply (run_pop1 _ s c rest Hd Hm). Qed.

Theorem w_encode_run enc s c rest bs :
  ds s = c :: rest -> ds_len (cx s) <= length rest ->
  limit_reached (stack_limit s) (length rest) = false ->
  (forall s0, bitstr_concat c s0 = ROk bs s0) -> wf bs -> clen bs mod 8 = 0 ->
  w_encode enc s
  = ROk tt (set_ds (with_log [RPopData; RPushData c] s)
                   (CStr (string_of_codes (enc (map bits_to_N (chunk8 (abs bs))))) :: rest)).
Proof.
  intros Hd Hm Hl Hc Hw Hb.
  pose proof (w_encode_domain enc s) as D.
  rewrite (into_bitstr_run s c rest Hd Hm), Hc in D.
  replace (clen bs mod 8 =? 0) with true in D by (symmetry; apply Nat.eqb_eq; assumption).
  destruct D as (bytes & _ & Hbytes & ->). rewrite (Hbytes Hw).
  apply run_push. assumption.
Qed.

Lemma bitstr_concat_bits c b : value c = CBits b -> forall s0, bitstr_concat c s0 = ROk b s0.
Proof. intros H s0. unfold bitstr_concat. rewrite H. reflexivity. Qed.

Lemma bitstr_concat_str c t : value c = CStr t ->
  forall s0, bitstr_concat c s0 = ROk (from_bytes (bytes_of_string t)) s0.
Proof. intros H s0. unfold bitstr_concat. rewrite H. reflexivity. Qed.

Theorem word_round enc dec s c rest bs :
  codec_ok enc dec ->
  ds s = c :: rest -> ds_len (cx s) <= length rest ->
  limit_reached (stack_limit s) (length rest) = false ->
  (forall s0, bitstr_concat c s0 = ROk bs s0) -> wf bs -> clen bs mod 8 = 0 ->
  let bytes := map bits_to_N (chunk8 (abs bs)) in
  (w_encode enc ;; w_decode dec) s
  = ROk tt (set_ds (with_log [RPopData; RPushData (CStr (string_of_codes (enc bytes))); RPopData; RPushData c] s)
                   (CBits (from_bytes bytes) :: rest))
  /\ wf (from_bytes bytes) /\ abs (from_bytes bytes) = abs bs.
Proof.
  intros [Hround Htext] Hd Hm Hl Hc Hw Hb bytes.
  assert (Hbytes : Forall (fun x => (x < 256)%N) bytes) by apply bytes_of_bits_lt.
  split; [|split].
  - unfold bind. rewrite (w_encode_run enc s c rest bs Hd Hm Hl Hc Hw Hb). fold bytes.
    set (txt := CStr (string_of_codes (enc bytes))).
    set (s1 := set_ds (with_log [RPopData; RPushData c] s) (txt :: rest)).
    assert (Hd1 : ds s1 = txt :: rest) by (unfold s1; apply set_ds_fields).
    assert (Hm1 : ds_len (cx s1) <= length rest).
    { unfold s1. destruct (set_ds_fields (with_log [RPopData; RPushData c] s) (txt :: rest)) as (_ & -> & _).
      destruct (with_log_fields [RPopData; RPushData c] s) as (_ & -> & _). assumption. }
    assert (Hl1 : limit_reached (stack_limit s1) (length rest) = false).
    { unfold s1. destruct (set_ds_fields (with_log [RPopData; RPushData c] s) (txt :: rest)) as (_ & _ & -> & _).
      destruct (with_log_fields [RPopData; RPushData c] s) as (_ & _ & -> & _). assumption. }
    rewrite (w_decode_run dec s1 txt rest Hd1 Hm1 Hl1). f_equal.
    assert (Edec : decoded dec txt = CBits (from_bytes bytes)).
    { unfold decoded, txt. cbn [value].
      rewrite bytes_of_string_codes by (apply (Htext _ bytes); apply Hround; assumption).
      rewrite Hround by assumption. reflexivity. }
    rewrite Edec. unfold s1. destruct_state s. destruct rl0; state_crush.
  - apply from_bytes_wf. assumption.
  - apply abs_from_bytes_chunks. rewrite abs_length. assumption.
Qed.

Fixpoint cell_bits_wf (c : cell) : Prop :=
  match c with
  | CBits b => wf b
  | CVec l => (fix all (l : list cell) : Prop :=
                 match l with [] => True | x :: r => cell_bits_wf x /\ all r end) l
  | CTag _ v => cell_bits_wf v
  | _ => True
  end.

Definition cells_bits_wf (l : list cell) : Prop := cell_bits_wf (CVec l).

Lemma cell_bits_wf_value c : cell_bits_wf c -> cell_bits_wf (value c).
Proof. destruct c; cbn [value cell_bits_wf]; auto. Qed.

Lemma bytes_of_string_lt t : Forall (fun x => (x < 256)%N) (bytes_of_string t).
Proof.
  induction t as [|c t IH]; cbn [bytes_of_string]; constructor; [|exact IH].
  unfold byte_of. apply N_ascii_bounded.
Qed.

Lemma bitstr_concat_vec_wf : forall fuel v acc,
  wf acc -> cells_bits_wf v ->
  match bitstr_concat_vec fuel v acc with (Ok b, _) => wf b | _ => True end.
Proof.
  induction fuel as [|f IH]; intros v acc Hacc Hv; [exact I|].
  cbn [bitstr_concat_vec]. revert acc Hacc Hv.
  induction v as [|x r IHr]; intros acc Hacc Hv; [exact Hacc|].
  destruct Hv as [Hx Hr]. apply cell_bits_wf_value in Hx.
  destruct (value x) eqn:Ev; try exact I.
  - destruct ((0 <=? z) && (z <=? 255))%Z eqn:Ez; [|exact I].
    apply IHr; [|exact Hr]. apply append_spec; [exact Hacc|].
    apply from_bytes_wf. constructor; [lia|constructor].
  - apply IHr; [|exact Hr]. apply append_spec; [exact Hacc|].
    apply from_bytes_wf. apply bytes_of_string_lt.
  - pose proof (IH l (mkcbs 0 0 []) ltac:(apply wf_mk; [lia|cbn; lia|constructor]) Hx) as H2.
    destruct (bitstr_concat_vec f l (mkcbs 0 0 [])) as [[b2|k|] p2]; try exact I.
    apply IHr; [|exact Hr]. apply append_spec; assumption.
  - apply IHr; [|exact Hr]. apply append_spec; [exact Hacc|exact Hx].
Qed.

Theorem bitstr_concat_wf c s bs s' :
  cell_bits_wf c -> bitstr_concat c s = ROk bs s' -> wf bs /\ s' = s.
Proof.
  intros Hc H. apply cell_bits_wf_value in Hc. unfold bitstr_concat in H.
  destruct (value c) eqn:Ev; try discriminate.
  - injection H as <- <-. split; [|reflexivity]. apply from_bytes_wf. apply bytes_of_string_lt.
  - pose proof (bitstr_concat_vec_wf 40 l (mkcbs 0 0 []) ltac:(apply wf_mk; [lia|cbn; lia|constructor]) Hc) as W.
    destruct (bitstr_concat_vec 40 l (mkcbs 0 0 [])) as [[b|k|] p]; try discriminate.
    injection H as <- <-. auto.
  - injection H as <- <-. auto.
Qed.

(* encode then decode, for any operand whose bit-strings are well-formed *)
Theorem word_round_cell enc dec s c rest bs :
  codec_ok enc dec ->
  ds s = c :: rest -> ds_len (cx s) <= length rest ->
  limit_reached (stack_limit s) (length rest) = false ->
  cell_bits_wf c -> bitstr_concat c s = ROk bs s -> clen bs mod 8 = 0 ->
  let bytes := map bits_to_N (chunk8 (abs bs)) in
  (w_encode enc ;; w_decode dec) s
  = ROk tt (set_ds (with_log [RPopData; RPushData (CStr (string_of_codes (enc bytes))); RPopData; RPushData c] s)
                   (CBits (from_bytes bytes) :: rest))
  /\ wf (from_bytes bytes) /\ abs (from_bytes bytes) = abs bs.
Proof.
  intros Hok Hd Hm Hl Hc Hb Hlen.
  destruct (bitstr_concat_wf c s bs s Hc Hb) as [Hw _].
  apply word_round; try assumption.
  pose proof (bitstr_concat_state c s) as St. rewrite Hb in St. apply St.
Qed.
