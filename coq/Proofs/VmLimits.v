(* VmLimits.v: the resource limits of the machine are hard bounds (statements of Props/C14.v). *)
From Xeh Require Import Model.Prelude Model.Bits Model.Codec Model.Cell Model.Lexer Model.Fmt
                        Model.Vm Model.Words Proofs.VmPrim Proofs.VmFrame Proofs.VmFetch.
(* NOT local on purpose: Props/C14.v writes [length (ds s)] after importing Model.Cell, which
   exports Coq's String library and so makes the bare name [length] mean [String.length];
   importing this file makes it mean [List.length] again (as in Model/Vm.v), which is the
   only reading under which the statements of C14 typecheck. *)
Notation length := List.length.

#[local] Arguments Z.add : simpl never.
#[local] Arguments Z.sub : simpl never.
#[local] Arguments Z.mul : simpl never.
#[local] Arguments Z.ltb : simpl never.
#[local] Arguments Z.leb : simpl never.
#[local] Arguments Z.eqb : simpl never.
#[local] Arguments Z.of_nat : simpl never.
#[local] Arguments Z.to_nat : simpl never.

Theorem insn_limit_is_error : forall nf s N,
  insn_limit s = Some N -> (N <= meter s)%Z -> fetch_and_run nf s = RErr ELimit None s.
Proof.
  intros nf s N HL Hle. apply far_limit. unfold mlim. rewrite HL. apply Z.leb_le. exact Hle.
Qed.

Theorem alloc_bound : forall v s H,
  heap_limit s = Some H ->
  match alloc_heap v s with
  | ROk _ s' => (Z.of_nat (length (heap s')) <= H)%Z /\ length (heap s') = S (length (heap s))
  | RErr _ _ s' => s' = s
  | _ => False
  end.
Proof.
  intros v s H HL. unfold alloc_heap, limit_reached. rewrite HL.
  destruct (mode_eqb (cmode (cx s)) MMeta); [ reflexivity | ].
  destruct (H <=? Z.of_nat (length (heap s)))%Z eqn:E; [ reflexivity | ].
  apply Z.leb_gt in E.
  change (heap (set_heap s (heap s ++ [v]))) with (heap s ++ [v]).
  rewrite app_length. cbn [length]. split; lia.
Qed.

Definition lim_rel (s s' : state) : Prop :=
  meter s' = meter s /\ insn_limit s' = insn_limit s /\ heap_limit s' = heap_limit s /\
  stack_limit s' = stack_limit s /\ length (heap s') = length (heap s) /\
  code s' = code s /\ dict s' = dict s /\
  (forall S, stack_limit s = Some S -> length (ds s') <= Nat.max (length (ds s)) (Z.to_nat S)).

Definition res_all {A} (P : state -> Prop) (r : res A) : Prop :=
  match r with
  | ROk _ s => P s
  | RErr _ _ s => P s
  | _ => True
  end.

Definition P_lim {A} (m : M A) : Prop := forall s, res_all (lim_rel s) (m s).

Lemma lim_rel_refl : forall s, lim_rel s s.
Proof. intro s. unfold lim_rel. repeat split. intros. apply Nat.le_max_l. Qed.

Lemma lim_rel_trans : forall a b c, lim_rel a b -> lim_rel b c -> lim_rel a c.
Proof.
  unfold lim_rel. intros a b c (A1 & A2 & A3 & A4 & A5 & A6 & A7 & A8) (B1 & B2 & B3 & B4 & B5 & B6 & B7 & B8).
  repeat split; try congruence.
  intros S HS. specialize (A8 S HS). rewrite <- A4 in HS. specialize (B8 S HS). lia.
Qed.

Lemma list_set_length : forall A (l : list A) i v, length (list_set l i v) = length l.
Proof. induction l; destruct i; intros; cbn [list_set length]; auto. Qed.

Ltac destruct_state s :=
  destruct s as [d0 h0 c0 g0 so0 in0 st0 rs0 fl0 lo0 sp0 cx0 ne0 me0 il0 hl0 sl0 rl0 ou0 lt0 sg0].

Ltac break_matches :=
  repeat (match goal with
          | |- context [match ?x with _ => _ end] => is_var x; destruct x
          end; cbv beta iota);
  repeat (match goal with
          | |- context [match ?x with _ => _ end] =>
            lazymatch x with context [match _ with _ => _ end] => fail | _ => idtac end;
            destruct x eqn:?
          end; cbv beta iota).

(* all but the heap size and the stack bound is in the shell; the data stack grows only by a
   push, which has checked the limit *)
Lemma did_lim o s s' : did o s s' -> lim_rel s s'.
Proof.
  intros H. pose proof (did_shell _ _ _ H) as E. unfold lim_rel.
  split; [exact (f_equal meter E)|]. split; [exact (f_equal insn_limit E)|].
  split; [exact (f_equal heap_limit E)|]. split; [exact (f_equal stack_limit E)|].
  assert (G : length (heap s') = length (heap s) /\
              forall S, stack_limit s = Some S -> length (ds s') <= Nat.max (length (ds s)) (Z.to_nat S)).
  { destruct H as [->|(f & e & s1 & _ & P & ->)]; [split; [reflexivity|intros; apply Nat.le_max_l]|].
    destruct (add_rstep_log e s1) as [l ->]. cbn [heap ds set_rlog].
    destruct P; cbn [heap ds set_ds set_rs set_loops set_special set_heap set_ip_raw set_cx];
      (split; [rewrite ?list_set_length; reflexivity|]); intros S0 HS0;
      try match goal with E : ds _ = _ |- _ => rewrite E end; cbn [length]; try lia.
    unfold limit_reached in *. rewrite HS0 in *. apply Z.leb_gt in H. lia. }
  split; [exact (proj1 G)|]. split; [exact (f_equal code E)|]. split; [exact (f_equal dict E)|exact (proj2 G)].
Qed.

Lemma lim_runs o A (m : M A) : runs o m -> P_lim m.
Proof.
  intros H s. specialize (H s). destruct (m s); cbn [res_all]; try exact I.
  - exact (did_lim _ _ _ H).
  - destruct H as (-> & _). apply lim_rel_refl.
Qed.

(* [lim_rel s] looks at these fields only *)
Lemma lim_rel_fields s s' :
  (meter s', insn_limit s', heap_limit s', stack_limit s', heap s', code s', dict s', ds s') =
  (meter s, insn_limit s, heap_limit s, stack_limit s, heap s, code s, dict s, ds s) -> lim_rel s s'.
Proof.
  intros E. injection E as E1 E2 E3 E4 E5 E6 E7 E8. unfold lim_rel. rewrite E1, E2, E3, E4, E5, E6, E7, E8.
  apply lim_rel_refl.
Qed.

Lemma lim_push_data c : P_lim (push_data c).
Proof.
  intros s. pose proof (push_data_did c s) as H. destruct (push_data c s); cbn [res_all]; try exact I.
  - exact (did_lim _ _ _ H).
  - destruct H as (-> & _). apply lim_rel_refl.
Qed.

Lemma wl_lim : forall A (m : M A), wl m -> P_lim m.
Proof.
  induction 1; try (eapply lim_runs, prim_runs; constructor; fail);
    try (intro s; apply lim_rel_fields; reflexivity); try (intro s; exact I).
  - intro s. unfold bind. specialize (IHwl s).
    destruct (m s) as [a s1 | k p s1 | |]; cbn [res_all] in *; auto.
    specialize (H1 a s1). destruct (f a s1); cbn [res_all] in *; auto;
      eapply lim_rel_trans; eauto.
  - intro s. unfold bind, get. apply H0.
  - apply lim_push_data.
  - intro s. destruct (over_data_eq s) as [->|[b ->]]; [apply lim_rel_refl|].
    pose proof (lim_push_data b (add_rstep ROverData s)) as H.
    assert (L : lim_rel s (add_rstep ROverData s))
      by (destruct (add_rstep_log ROverData s) as [l ->]; apply lim_rel_fields; reflexivity).
    destruct (push_data b _); cbn [res_all] in *; auto; eapply lim_rel_trans; eauto.
Qed.

(* the number of fetches a step counts *)
Definition ticks (s : state) : Z := if at_resolve s then 2%Z else 1%Z.

(* what one instruction step, successful or not, leaves of the limits and the sizes *)
Definition step_rel (s s' : state) : Prop :=
  insn_limit s' = insn_limit s /\ heap_limit s' = heap_limit s /\ stack_limit s' = stack_limit s /\
  length (heap s') = length (heap s) /\
  (forall S, stack_limit s = Some S -> length (ds s') <= Nat.max (length (ds s)) (Z.to_nat S)) /\
  (meter s <= meter s' <= meter s + ticks s)%Z /\
  (forall N, insn_limit s = Some N -> (meter s <= N)%Z -> (meter s' <= N)%Z) /\
  (at_resolve s = false -> code s' = code s).

Lemma ticks_range s : (1 <= ticks s <= 2)%Z.
Proof. unfold ticks. destruct (at_resolve s); lia. Qed.

Lemma mlim_below s N : mlim s (meter s) = false -> insn_limit s = Some N -> (meter s < N)%Z.
Proof. unfold mlim. intros E EN. rewrite EN in E. apply Z.leb_gt. exact E. Qed.

(* the body of a plain instruction runs from [tick s] and keeps [lim_rel] *)
Lemma step_rel_plain s x : mlim s (meter s) = false -> at_resolve s = false -> lim_rel (tick s) x ->
  step_rel s x /\ meter x = (meter s + ticks s)%Z.
Proof.
  intros E0 Ar (L1 & L2 & L3 & L4 & L5 & L6 & _ & L8). cbn [tick set_meter meter] in L1.
  unfold step_rel, ticks. rewrite Ar. repeat split; try assumption; try lia.
  - intros N EN _. pose proof (mlim_below s N E0 EN). lia.
  - intros _. exact L6.
Qed.

(* a step from the patched state, seen from the state before the patch: one fetch more *)
Lemma step_rel_patched s e s' name : mlim s (meter s) = false ->
  nth_error (code s) (ip s) = Some (OResolve name) -> at_resolve (patched s e) = false ->
  step_rel (patched s e) s' -> step_rel s s' /\ (meter s' = (meter (patched s e) + 1)%Z -> meter s' = (meter s + ticks s)%Z).
Proof.
  intros E0 E1 Ap (L1 & L2 & L3 & L4 & L5 & L6 & L7 & _).
  assert (A : ticks s = 2%Z) by (unfold ticks, at_resolve; rewrite E1; reflexivity).
  unfold ticks in L6. rewrite Ap in L6. cbn [patched tick set_code set_meter meter] in *.
  unfold step_rel. rewrite A. repeat split; try assumption; try lia.
  - intros N EN _. apply L7; [exact EN|]. pose proof (mlim_below s N E0 EN). lia.
  - unfold at_resolve. rewrite E1. discriminate.
Qed.

Section WithTable.
  Variable nf : natives.
  Hypothesis Hnf : forall w f, nf w = Some f -> wl f.

  Lemma exec_op_lim : forall ip0 op s, res_all (lim_rel s) (exec_op nf ip0 op s).
  Proof. intros. apply wl_lim. apply wl_exec_op. exact Hnf. Qed.

  Lemma far_lim : forall s,
    match fetch_and_run nf s with
    | ROk _ s' => step_rel s s' /\ meter s' = (meter s + ticks s)%Z
    | RErr _ _ s' => step_rel s s'
    | _ => True
    end.
  Proof.
    apply (far_ind nf (fun s r => match r with
                                  | ROk _ s' => step_rel s s' /\ meter s' = (meter s + ticks s)%Z
                                  | RErr _ _ s' => step_rel s s'
                                  | _ => True
                                  end)).
    - intros s _. pose proof (ticks_range s). unfold step_rel.
      repeat split; auto; try lia; intros; apply Nat.le_max_l.
    - intros; exact I.
    - intros s op E0 E1 N.
      assert (Ar : at_resolve s = false) by (apply not_resolve_at_op with op; assumption).
      pose proof (exec_op_lim (ip s) op (tick s)) as L.
      destruct (exec_op nf (ip s) op (tick s)); cbn [res_all] in L; try exact I;
        [exact (step_rel_plain s _ E0 Ar L)|exact (proj1 (step_rel_plain s _ E0 Ar L))].
    - intros s name E0 E1 E2.
      assert (A : ticks s = 2%Z) by (unfold ticks, at_resolve; rewrite E1; reflexivity).
      unfold step_rel. rewrite A. cbn [tick set_meter meter insn_limit heap_limit stack_limit heap ds code].
      repeat split; try lia; try (intros; apply Nat.le_max_l).
      intros N EN _. pose proof (mlim_below s N E0 EN). lia.
    - intros s name e r E0 E1 E2 Ap IH. unfold ticks in IH at 1. rewrite Ap in IH.
      destruct r; try exact I.
      + destruct IH as [IH M]. destruct (step_rel_patched s e _ name E0 E1 Ap IH) as [G GM]. auto.
      + exact (proj1 (step_rel_patched s e _ name E0 E1 Ap IH)).
  Qed.

  Lemma far_step_rel : forall s r s',
    fetch_and_run nf s = r -> res_state r = Some s' -> step_rel s s'.
  Proof.
    intros s r s' H Hr. pose proof (far_lim s) as L. rewrite H in L.
    destruct r; cbn [res_state] in Hr; try discriminate; injection Hr as <-; [exact (proj1 L)|exact L].
  Qed.
End WithTable.

Lemma steps_meter : forall fo n s sn N,
  insn_limit s = Some N -> (meter s <= N)%Z ->
  steps (native_fn fo) n s = Some sn ->
  (meter s + Z.of_nat n <= meter sn <= N)%Z /\ insn_limit sn = Some N.
Proof.
  intros fo n s sn N HL Hle H. revert n s sn H HL Hle.
  apply (steps_ind (native_fn fo) (fun n s sn => insn_limit s = Some N -> (meter s <= N)%Z ->
           (meter s + Z.of_nat n <= meter sn <= N)%Z /\ insn_limit sn = Some N)).
  - intros s HL Hle. split; [lia|exact HL].
  - intros n s s1 sn E _ IH HL Hle.
    pose proof (far_lim _ (native_wl fo) s) as L. rewrite E in L.
    destruct L as [(L1 & _ & _ & _ & _ & L6 & L7 & _) M].
    destruct IH as [I1 I2]; [congruence|eauto|]. pose proof (ticks_range s).
    split; [lia|exact I2].
Qed.

Theorem at_most_N_steps : forall fo n s sn N,
  insn_limit s = Some N -> meter s = 0%Z -> (0 <= N)%Z ->
  steps (native_fn fo) n s = Some sn -> (Z.of_nat n <= N)%Z.
Proof.
  intros fo n s sn N HL Hm HN H.
  destruct (steps_meter fo n s sn N HL ltac:(lia) H) as [Hb _]. lia.
Qed.
