(* CompileBwdProg.v: the converse direction of the compiler-correctness theorem.
   - [agreesq]: the traced simulation spelled out; blocks, statements and programs satisfy it;
   - for any family of evaluator results (one for each fuel) that satisfies it (Section
     Consequences): the quantitative lemma (an evaluator that runs out of fuel corresponds to a
     machine that makes many steps inside the code of the tree), divergence (out of fuel for
     every fuel: the machine runs forever inside), termination reflection (a machine that leaves
     the code of the tree or stops corresponds to an evaluator that returns a result, and the
     result is the one the machine exhibits);
   - whole programs: what [run] returns. *)
From Xeh Require Import Model.Prelude Model.Bits Model.Codec Model.Cell Model.Lexer Model.Fmt
                        Model.Vm Model.Words Model.Struct
                        Proofs.VmFrame Proofs.VmDrive Proofs.CompileSim Proofs.CompileLayout Proofs.CompileStep
                        Proofs.CompileEval Proofs.CompileBwdStep Proofs.CompileFwd Proofs.CompileFwd2
                        Proofs.CompileProg Proofs.CompileMain.
Local Notation length := List.length.

#[local] Arguments Z.add : simpl never.
#[local] Arguments Z.sub : simpl never.
#[local] Arguments Z.mul : simpl never.
#[local] Arguments Z.of_nat : simpl never.
#[local] Arguments Z.to_nat : simpl never.

(* the strengthened result of the evaluator against the machine, spelled out: [R] is the
   region, [W] the weight of a machine step, [B] the fuel that is left after the descent *)
Definition agreesq (nf : natives) (R : state -> Prop) (W : nat) (s : state) (endp : nat) (bc : brk_ctx)
           (B : nat) (r : sres) : Prop :=
  match r with
  | SDone t' =>
    exists n s', steps nf n s = Some s' /\
                 (forall m, m < n -> exists sm, steps nf m s = Some sm /\ R sm) /\
                 ip s' = endp /\ sim t' s' /\
                 code s' = code s /\ rlog s' = None /\ insn_limit s' = None /\ rskeys s' = rskeys s
  | SBroke t' =>
    exists n s', steps nf n s = Some s' /\
                 (forall m, m <= n -> exists sm, steps nf m s = Some sm /\ R sm) /\
                 nth_error (code s) (ip s') = Some (brk_op (ip s') bc) /\ bc <> BNone /\ sim t' s' /\
                 code s' = code s /\ rlog s' = None /\ insn_limit s' = None /\ rskeys s' = rskeys s
  | SFail k pl _ t' =>
    exists n sN s', steps nf n s = Some sN /\
                    (forall m, m <= n -> exists sm, steps nf m s = Some sm /\ R sm) /\
                    insn_limit sN = None /\ fetch_and_run nf sN = RErr k pl s' /\ sim t' s'
  | SOut => forall m, W * S m <= B -> exists sm, steps nf m s = Some sm /\ R sm
  | SUnsup =>
    exists n sN, steps nf n s = Some sN /\
                 (forall m, m <= n -> exists sm, steps nf m s = Some sm /\ R sm) /\
                 is_running sN = true /\
                 (fetch_and_run nf sN = RPanic \/ fetch_and_run nf sN = RUnsup)
  end.

Lemma upto_incl : forall nf (R : state -> Prop) n s sn,
  steps nf n s = Some sn -> R sn ->
  (forall m, m < n -> exists sm, steps nf m s = Some sm /\ R sm) ->
  forall m, m <= n -> exists sm, steps nf m s = Some sm /\ R sm.
Proof.
  intros nf R n s sn Hn HR H m Hm. destruct (Nat.eq_dec m n) as [->|Hne]; [eauto|]. apply H. lia.
Qed.

Lemma okq_agreesq : forall nf W (U : Prop) R s endp bc B r,
  U -> okq nf (code s) W U R s endp bc B r -> agreesq nf R W s endp bc B r.
Proof.
  intros nf W U R s endp bc B r u H. destruct r as [t'|t'|k pl p t'| |]; cbn [okq agreesq] in *.
  - destruct H as (s' & (n & Hn & Hm) & [M1 M2 M3] & I & Hs & K). exists n, s'.
    repeat (split; [assumption|]). assumption.
  - destruct H as (s' & (n & Hn & Hm) & HR & [M1 M2 M3] & Bk & Hne & Hs & K). exists n, s'.
    split; [exact Hn|]. split; [eapply upto_incl; eauto|]. repeat (split; [assumption|]). assumption.
  - destruct H as (sN & s' & (n & Hn & Hm) & HR & [M1 M2 M3] & F & Hs). exists n, sN, s'.
    split; [exact Hn|]. split; [eapply upto_incl; eauto|]. auto.
  - intros m Hm. apply (H (S m) Hm m). lia.
  - destruct (H u) as (sN & (n & Hn & Hm) & HR & Hrun & St). exists n, sN.
    split; [exact Hn|]. split; [eapply upto_incl; eauto|]. auto.
Qed.

Section Runs.
  Variable nf : natives.

  Lemma outside_after : forall (R : state -> Prop) n m s sn,
    steps nf n s = Some sn -> ~ R sn ->
    (forall k, k < m -> exists sk, steps nf k s = Some sk /\ R sk) -> m <= n.
  Proof.
    intros R n m s sn Hn Hout Hin. destruct (Nat.le_gt_cases m n) as [H|H]; [exact H|]. exfalso.
    destruct (Hin n H) as (sk & Hk & HR). rewrite Hn in Hk. injection Hk as <-. exact (Hout HR).
  Qed.

  Lemma steps_beyond_ok : forall n m s sn sm, steps nf n s = Some sn -> steps nf m s = Some sm -> n < m ->
    exists s', fetch_and_run nf sn = ROk tt s'.
  Proof.
    intros n m s sn sm Hn Hm Hlt.
    destruct (steps_prefix nf m (S n) s sm Hm ltac:(lia)) as (s2 & H2). exists s2. eapply steps_S_inv; eauto.
  Qed.

  Lemma stop_last : forall n m s sn sm, steps nf n s = Some sn -> steps nf m s = Some sm ->
    (forall s', fetch_and_run nf sn <> ROk tt s') -> m <= n.
  Proof.
    intros n m s sn sm Hn Hm Hs. destruct (Nat.le_gt_cases m n) as [H|H]; [exact H|]. exfalso.
    destruct (steps_beyond_ok n m s sn sm Hn Hm H) as (s' & F). exact (Hs s' F).
  Qed.

End Runs.

(* [r fuel] is the evaluator's result with that fuel, [w] the weight of the tree *)
Section Consequences.
  Variable nf : natives.
  Variables (K : list (nat * nat)) (lo hi W w : nat) (s : state) (endp : nat) (bc : brk_ctx).
  Variable r : nat -> sres.
  Hypothesis Hr : forall fuel, agreesq nf (inreg K lo hi) W s endp bc (fuel - w) (r fuel).

  Lemma agreesq_out_steps : forall fuel, r fuel = SOut ->
    forall m, w + W * S m <= fuel -> exists sm, steps nf m s = Some sm /\ inreg K lo hi sm.
  Proof. intros fuel E m Hm. pose proof (Hr fuel) as H. rewrite E in H. apply H. lia. Qed.

  Hypothesis HW : 1 <= W.

  Lemma agreesq_out_steps_div : forall fuel, r fuel = SOut ->
    forall m, m < (fuel - w) / W -> exists sm, steps nf m s = Some sm /\ inreg K lo hi sm.
  Proof.
    intros fuel E m Hm. apply (agreesq_out_steps fuel E).
    assert (H1 : W * S m <= fuel - w).
    { etransitivity; [apply Nat.mul_le_mono_l; exact Hm|]. apply Nat.mul_div_le. lia. }
    destruct (Nat.le_gt_cases w fuel) as [H2|H2]; [lia|].
    replace (fuel - w) with 0 in Hm by lia. rewrite Nat.div_0_l in Hm by lia. lia.
  Qed.

  Lemma agreesq_diverges : (forall fuel, r fuel = SOut) ->
    forall n, exists sn s', steps nf n s = Some sn /\ inreg K lo hi sn /\
                            fetch_and_run nf sn = ROk tt s' /\ (rskeys sn = K -> lo <= ip sn < hi).
  Proof.
    intros E n. set (fuel := w + W * S (S n)).
    destruct (agreesq_out_steps fuel (E fuel) n) as (sn & Hn & HR); [unfold fuel; lia|].
    destruct (agreesq_out_steps fuel (E fuel) (S n)) as (s2 & H2 & _); [unfold fuel; lia|].
    exists sn, s2. split; [exact Hn|]. split; [exact HR|]. split; [eapply steps_S_inv; eauto|].
    apply inreg_not_exit. exact HR.
  Qed.

  Lemma agreesq_terminates : forall n sn, steps nf n s = Some sn ->
    (~ inreg K lo hi sn \/ (forall s', fetch_and_run nf sn <> ROk tt s')) ->
    r (w + W * S (S n)) <> SOut.
  Proof.
    intros n sn Hn Hc E.
    destruct (agreesq_out_steps _ E n) as (sm & Hm & HR); [lia|].
    rewrite Hn in Hm. injection Hm as <-.
    destruct Hc as [Hc|Hc]; [exact (Hc HR)|].
    destruct (agreesq_out_steps _ E (S n)) as (s2 & H2 & _); [lia|].
    eapply Hc. eapply steps_S_inv; eauto.
  Qed.
  Lemma agreesq_leaves : forall n sn, steps nf n s = Some sn -> ~ inreg K lo hi sn ->
    exists fuel m sm, m <= n /\ steps nf m s = Some sm /\
      (forall k, k < m -> exists sk, steps nf k s = Some sk /\ inreg K lo hi sk) /\
      match r fuel with
      | SDone t' => ip sm = endp /\ sim t' sm /\ rskeys sm = rskeys s
      | SBroke t' => m < n /\ inreg K lo hi sm /\
                     nth_error (code s) (ip sm) = Some (brk_op (ip sm) bc) /\ bc <> BNone /\
                     sim t' sm /\ rskeys sm = rskeys s
      | _ => False
      end.
  Proof.
    intros n sn Hn Hout. set (fuel := w + W * S (S n)).
    pose proof (agreesq_terminates n sn Hn (or_introl Hout)) as Hne. fold fuel in Hne.
    pose proof (Hr fuel) as H. exists fuel.
    destruct (r fuel) as [t'|t'|k pl p t'| |]; cbn [agreesq] in H.
    - destruct H as (m & sm & Hm & Hin & I & S' & _ & _ & _ & K').
      exists m, sm. split; [eapply outside_after; eauto|]. auto.
    - destruct H as (m & sm & Hm & Hin & Bk & Hb & S' & _ & _ & _ & K').
      assert (Hlt : S m <= n) by (eapply outside_after; eauto; intros j Hj; apply Hin; lia).
      exists m, sm. split; [lia|]. split; [exact Hm|]. split; [intros k Hk; apply Hin; lia|].
      split; [exact Hlt|]. split; [|auto].
      destruct (Hin m (Nat.le_refl m)) as (sm' & Hm' & HR). congruence.
    - exfalso. destruct H as (m & sN & s' & Hm & Hin & _ & F & _).
      assert (Hlt : S m <= n) by (eapply outside_after; eauto; intros j Hj; apply Hin; lia).
      assert (n <= m) by (eapply stop_last; eauto; intros s2 E2; congruence). lia.
    - exfalso. apply Hne. reflexivity.
    - exfalso. destruct H as (m & sN & Hm & Hin & _ & F).
      assert (Hlt : S m <= n) by (eapply outside_after; eauto; intros j Hj; apply Hin; lia).
      assert (n <= m) by (eapply stop_last; eauto; intros s2 E2; destruct F; congruence). lia.
  Qed.

  (* from here on the region is that of the tree, and no loop encloses it *)
  Hypothesis HK : K = rskeys s.
  Hypothesis Hend : endp = hi.
  Hypothesis Hbc : bc = BNone.

  Lemma agreesq_done_converse : forall n sn,
    steps nf n s = Some sn -> ip sn = endp -> rskeys sn = rskeys s ->
    (forall k sk, k < n -> steps nf k s = Some sk -> ~ (ip sk = endp /\ rskeys sk = rskeys s)) ->
    exists fuel t', r fuel = SDone t' /\ sim t' sn.
  Proof.
    intros n sn Hn Hex Hk Hfirst.
    assert (Hout : ~ inreg K lo hi sn).
    { intro HR. rewrite <- HK in Hk. pose proof (inreg_not_exit _ _ _ _ HR Hk). lia. }
    destruct (agreesq_leaves n sn Hn Hout) as (fuel & m & sm & Hle & Hm & Hin & H).
    exists fuel. destruct (r fuel) as [t'|t'|k pl p t'| |]; try contradiction.
    - destruct H as (I & S' & K'). exists t'. split; [reflexivity|].
      destruct (Nat.eq_dec m n) as [->|Hne]; [congruence|].
      exfalso. apply (Hfirst m sm ltac:(lia) Hm). auto.
    - destruct H as (_ & _ & _ & Hb & _). contradiction.
  Qed.

  Lemma agreesq_fail_converse : forall n sn k pl s',
    steps nf n s = Some sn -> fetch_and_run nf sn = RErr k pl s' ->
    (forall m sm, m <= n -> steps nf m s = Some sm -> inreg K lo hi sm) ->
    exists fuel p t', r fuel = SFail k pl p t' /\ sim t' s'.
  Proof.
    intros n sn k pl s' Hn Hf Hin. set (fuel := w + W * S (S n)).
    assert (Hstop : forall s2, fetch_and_run nf sn <> ROk tt s2) by (intros s2 E; congruence).
    pose proof (agreesq_terminates n sn Hn (or_intror Hstop)) as Hne. fold fuel in Hne.
    pose proof (Hr fuel) as H. exists fuel.
    destruct (r fuel) as [t'|t'|k0 pl0 p t'| |]; cbn [agreesq] in H.
    - exfalso. destruct H as (m & sm & Hm & _ & I & _ & _ & _ & _ & K').
      pose proof (stop_last nf n m s sn sm Hn Hm Hstop) as Hle. rewrite <- HK in K'.
      pose proof (inreg_not_exit _ _ _ _ (Hin m sm Hle Hm) K'). lia.
    - exfalso. destruct H as (_ & _ & _ & _ & _ & Hb & _). contradiction.
    - destruct H as (m & sN & s2 & Hm & _ & _ & F & S2).
      assert (m = n) by (apply Nat.le_antisymm; eapply stop_last; eauto; intros s3 E; congruence). subst m.
      rewrite Hn in Hm. injection Hm as <-. rewrite F in Hf. injection Hf as <- <- <-.
      exists p, t'. split; [reflexivity|exact S2].
    - exfalso. apply Hne. reflexivity.
    - exfalso. destruct H as (m & sN & Hm & _ & _ & F).
      assert (m = n) by (apply Nat.le_antisymm; eapply stop_last; eauto; intros s3 E; destruct F; congruence). subst m.
      rewrite Hn in Hm. injection Hm as <-. destruct F; congruence.
  Qed.
End Consequences.

Section RunInv.
  Variable nf : natives.

  Lemma run_some_inv : forall k s r, run nf k s = Some r ->
    exists n sn, n < k /\ steps nf n s = Some sn /\
      ((is_running sn = false /\ r = ROk tt sn) \/
       (is_running sn = true /\ fetch_and_run nf sn = r /\ forall u s', r <> ROk u s')).
  Proof.
    induction k as [|k IH]; intros s r H; [discriminate|]. cbn [run] in H.
    destruct (is_running s) eqn:Er.
    - destruct (fetch_and_run nf s) as [[] s1|kd pl s1| |] eqn:F.
      + destruct (IH s1 r H) as (n & sn & Hlt & Hn & Hc). exists (S n), sn.
        split; [lia|]. split; [cbn [steps]; rewrite F; exact Hn|exact Hc].
      + injection H as <-. exists 0, s. split; [lia|]. split; [reflexivity|].
        right. split; [exact Er|]. split; [exact F|discriminate].
      + injection H as <-. exists 0, s. split; [lia|]. split; [reflexivity|].
        right. split; [exact Er|]. split; [exact F|discriminate].
      + injection H as <-. exists 0, s. split; [lia|]. split; [reflexivity|].
        right. split; [exact Er|]. split; [exact F|discriminate].
    - injection H as <-. exists 0, s. split; [lia|]. split; [reflexivity|]. left. auto.
  Qed.

  Lemma run_steps_stop : forall n s sN r fuel,
    steps nf n s = Some sN -> is_running sN = true -> fetch_and_run nf sN = r ->
    (forall u s', r <> ROk u s') -> n < fuel -> run nf fuel s = Some r.
  Proof.
    intros n s sN r fuel Hn Hr He Hne Hlt.
    rewrite (run_is_stepping nf n s sN fuel Hn Hlt). rewrite Hr.
    destruct (fuel - n) as [|m] eqn:E; [lia|]. cbn [run]. rewrite Hr, He.
    destruct r as [u s'| | |]; try reflexivity. exfalso. eapply Hne. reflexivity.
  Qed.

  Lemma stays_run_none : forall (R : state -> Prop) s,
    (forall m, exists sm, steps nf m s = Some sm /\ R sm) -> forall k, run nf k s = None.
  Proof.
    intros R s H k. destruct (run nf k s) as [r|] eqn:E; [|reflexivity]. exfalso.
    destruct (run_some_inv k s r E) as (n & sn & _ & Hn & Hc).
    destruct (H (S n)) as (s2 & H2 & _).
    pose proof (steps_S_inv nf n s sn s2 Hn H2) as F.
    destruct Hc as [[Hr _]|[_ [Hf Hne]]].
    - rewrite (step_ok_running _ _ _ _ F) in Hr. discriminate.
    - rewrite F in Hf. eapply Hne. symmetry. exact Hf.
  Qed.
End RunInv.


Section FinalQ.
  Variable fo : fops.
  Variable funs : list (nat * list stmt).
  Notation nf := (native_fn fo).
  Notation Wc := (call_weight funs).

  Theorem fwdq_block : forall faddr fuel b org bc t s,
    funs_placed funs faddr (code s) -> funs_closed funs -> wf_b b -> cl_b funs b -> brk_ok bc b ->
    firstn (size_block b) (skipn org (code s)) = lay_block faddr b org bc ->
    rlog s = None -> insn_limit s = None -> ip s = org -> sim t s ->
    agreesq nf (inreg (rskeys s) org (org + size_block b)) Wc s (org + size_block b) bc
            (fuel - wt_block b) (sblock fo funs fuel b t).
  Proof.
    intros. apply (okq_agreesq _ _ True); [exact I|].
    eapply block_okq; eauto using funs_callee_True, callee_True.
  Qed.

  Theorem fwdq_stmt : forall faddr fuel x org bc t s,
    funs_placed funs faddr (code s) -> funs_closed funs -> wf_s x -> cl_s funs x -> brk_ok_s bc x ->
    firstn (size_stmt x) (skipn org (code s)) = lay_stmt faddr x org bc ->
    rlog s = None -> insn_limit s = None -> ip s = org -> sim t s ->
    agreesq nf (inreg (rskeys s) org (org + size_stmt x)) Wc s (org + size_stmt x) bc
            (fuel - wt_stmt x) (sstmt fo funs fuel x t).
  Proof.
    intros. apply (okq_agreesq _ _ True); [exact I|].
    eapply stmt_okq; eauto using funs_callee_True, callee_True_s.
  Qed.

  Definition prog_closed (l : list stmt) : Prop := cl_b funs l /\ funs_closed funs.

  Theorem fwdq_program : forall l org prog fuel t s,
    layout_program funs l org = Some prog -> prog_wf funs l -> prog_closed l ->
    firstn (length prog) (skipn org (code s)) = prog ->
    rlog s = None -> insn_limit s = None -> ip s = org -> sim t s ->
    agreesq nf (inreg (rskeys s) org (org + length prog)) Wc s (org + length prog) BNone
            (fuel - wt_block l) (sblock fo funs fuel l t).
  Proof.
    intros l org prog fuel t s HL HW [Cl Cf]. intros. apply (okq_agreesq _ _ True); [exact I|].
    eapply program_okq; eauto using funs_callee_True, callee_True.
  Qed.

  Theorem program_out_steps : forall l org prog fuel t s,
    layout_program funs l org = Some prog -> prog_wf funs l -> prog_closed l ->
    firstn (length prog) (skipn org (code s)) = prog ->
    rlog s = None -> insn_limit s = None -> ip s = org -> sim t s ->
    sblock fo funs fuel l t = SOut ->
    forall m, wt_block l + Wc * S m <= fuel ->
      exists sm, steps nf m s = Some sm /\ inreg (rskeys s) org (org + length prog) sm.
  Proof.
    intros l org prog fuel t s HL HW HC C Hl Hi Hip Hs.
    apply agreesq_out_steps with (r := fun fuel => sblock fo funs fuel l t) (endp := org + length prog) (bc := BNone).
    intro. apply fwdq_program; assumption.
  Qed.

  Theorem program_diverges : forall l org prog t s,
    layout_program funs l org = Some prog -> prog_wf funs l -> prog_closed l ->
    firstn (length prog) (skipn org (code s)) = prog ->
    rlog s = None -> insn_limit s = None -> ip s = org -> sim t s ->
    (forall fuel, sblock fo funs fuel l t = SOut) ->
    forall n, exists sn s', steps nf n s = Some sn /\ inreg (rskeys s) org (org + length prog) sn /\
                            fetch_and_run nf sn = ROk tt s' /\
                            (rskeys sn = rskeys s -> org <= ip sn < org + length prog).
  Proof.
    intros l org prog t s HL HW HC C Hl Hi Hip Hs.
    apply agreesq_diverges with (W := Wc) (w := wt_block l) (r := fun fuel => sblock fo funs fuel l t)
                                (endp := org + length prog) (bc := BNone); [intro; apply fwdq_program; assumption|apply call_weight_pos].
  Qed.

  Lemma firstn_of_skipn : forall (prog : list opcode) org cd, skipn org cd = prog ->
    firstn (length prog) (skipn org cd) = prog.
  Proof. intros prog org cd H. rewrite H. apply firstn_all. Qed.

  Theorem program_run_unsup : forall l org prog fuel t s,
    layout_program funs l org = Some prog -> prog_wf funs l -> prog_closed l ->
    skipn org (code s) = prog ->
    rlog s = None -> insn_limit s = None -> ip s = org -> sim t s ->
    sblock fo funs fuel l t = SUnsup ->
    exists N r, (r = RPanic \/ r = RUnsup) /\ forall k, N < k -> run nf k s = Some r.
  Proof.
    intros l org prog fuel t s HL HW HC C Hl Hi Hip Hs E.
    pose proof (fwdq_program l org prog fuel t s HL HW HC (firstn_of_skipn _ _ _ C) Hl Hi Hip Hs) as H.
    rewrite E in H. cbn [agreesq] in H. destruct H as (n & sN & Hn & _ & Hr & F).
    exists n, (fetch_and_run nf sN). split; [destruct F as [F|F]; rewrite F; auto|].
    intros k Hk. eapply run_steps_stop; eauto. intros u s' E'. destruct F as [F|F]; congruence.
  Qed.

  Theorem program_run_diverges : forall l org prog t s,
    layout_program funs l org = Some prog -> prog_wf funs l -> prog_closed l ->
    skipn org (code s) = prog ->
    rlog s = None -> insn_limit s = None -> ip s = org -> sim t s ->
    (forall fuel, sblock fo funs fuel l t = SOut) ->
    forall rf, run nf rf s = None.
  Proof.
    intros l org prog t s HL HW HC C Hl Hi Hip Hs E rf.
    apply (stays_run_none nf (inreg (rskeys s) org (org + length prog))). intro m.
    destruct (program_diverges l org prog t s HL HW HC (firstn_of_skipn _ _ _ C) Hl Hi Hip Hs E m)
      as (sm & _ & Hm & HR & _). eauto.
  Qed.

  Theorem program_run_terminates : forall l org prog t s k r,
    layout_program funs l org = Some prog -> prog_wf funs l -> prog_closed l ->
    skipn org (code s) = prog ->
    rlog s = None -> insn_limit s = None -> ip s = org -> sim t s ->
    run nf k s = Some r ->
    sblock fo funs (wt_block l + Wc * S k) l t <> SOut.
  Proof.
    intros l org prog t s k r HL HW HC C Hl Hi Hip Hs Hr E.
    destruct (run_some_inv nf k s r Hr) as (n & sn & Hlt & Hn & Hc).
    destruct (program_out_steps l org prog _ t s HL HW HC (firstn_of_skipn _ _ _ C) Hl Hi Hip Hs E (S n))
      as (s2 & H2 & _).
    { pose proof (call_weight_pos funs) as HWp.
      assert (Wc * S (S n) <= Wc * S k) by (apply Nat.mul_le_mono_l; lia). lia. }
    pose proof (steps_S_inv nf n s sn s2 Hn H2) as F.
    destruct Hc as [[Hrun _]|[_ [Hf Hne]]].
    - rewrite (step_ok_running _ _ _ _ F) in Hrun. discriminate.
    - rewrite F in Hf. eapply Hne. symmetry. exact Hf.
  Qed.

  Lemma program_run_some : forall l org prog fuel t s,
    layout_program funs l org = Some prog -> prog_wf funs l -> prog_closed l ->
    skipn org (code s) = prog ->
    rlog s = None -> insn_limit s = None -> ip s = org -> sim t s ->
    sblock fo funs fuel l t <> SOut ->
    exists N r, (forall k, N < k -> run nf k s = Some r) /\
      match sblock fo funs fuel l t with
      | SDone t' => exists s', r = ROk tt s' /\ sim t' s'
      | SFail kd pl _ t' => exists s', r = RErr kd pl s' /\ sim t' s'
      | SUnsup => r = RPanic \/ r = RUnsup
      | _ => False
      end.
  Proof.
    intros l org prog fuel t s HL HW HC C Hl Hi Hip Hs Hne.
    pose proof (fwd_program_run fo funs l org prog fuel t s HL HW C Hl Hi Hip Hs) as H.
    pose proof (fwd_program fo funs l org prog fuel t s HL HW (firstn_of_skipn _ _ _ C) Hl Hi Hip Hs) as Hb.
    pose proof (program_run_unsup l org prog fuel t s HL HW HC C Hl Hi Hip Hs) as Hu.
    destruct (sblock fo funs fuel l t) as [t'|t'|kd pl p t'| |]; cbn [run_agrees agrees] in *.
    - destruct H as (N & s' & HN & S'). eauto 6.
    - destruct Hb as (_ & _ & _ & _ & Hb & _). contradiction Hb. reflexivity.
    - destruct H as (N & s' & HN & S'). eauto 6.
    - contradiction Hne. reflexivity.
    - destruct (Hu eq_refl) as (N & r & Hr & HN). eauto.
  Qed.

  Definition run_reflects (t : state) (l : list stmt) (r : res unit) : Prop :=
    match r with
    | ROk _ s' => exists fuel t', sblock fo funs fuel l t = SDone t' /\ sim t' s'
    | RErr kd pl s' => exists fuel p t', sblock fo funs fuel l t = SFail kd pl p t' /\ sim t' s'
    | RPanic => exists fuel, sblock fo funs fuel l t = SUnsup
    | RUnsup => exists fuel, sblock fo funs fuel l t = SUnsup
    end.

  Theorem program_run_converse : forall l org prog t s k r,
    layout_program funs l org = Some prog -> prog_wf funs l -> prog_closed l ->
    skipn org (code s) = prog ->
    rlog s = None -> insn_limit s = None -> ip s = org -> sim t s ->
    run nf k s = Some r -> run_reflects t l r.
  Proof.
    intros l org prog t s k r HL HW HC C Hl Hi Hip Hs Hr.
    pose proof (program_run_terminates l org prog t s k r HL HW HC C Hl Hi Hip Hs Hr) as Hne.
    destruct (program_run_some l org prog _ t s HL HW HC C Hl Hi Hip Hs Hne) as (N & r' & HN & H).
    rewrite (CompileMain.run_eventually fo k s r N r' Hr HN).
    destruct (sblock fo funs (wt_block l + Wc * S k) l t) as [t'|t'|kd pl p t'| |] eqn:E; try contradiction.
    - destruct H as (s' & -> & S'). cbn [run_reflects]. eauto.
    - destruct H as (s' & -> & S'). cbn [run_reflects]. eauto.
    - destruct H as [-> | ->]; cbn [run_reflects]; eauto.
  Qed.

  Theorem program_run_iff : forall l org prog t s,
    layout_program funs l org = Some prog -> prog_wf funs l -> prog_closed l ->
    skipn org (code s) = prog ->
    rlog s = None -> insn_limit s = None -> ip s = org -> sim t s ->
    ((exists k s', run nf k s = Some (ROk tt s')) <-> (exists fuel t', sblock fo funs fuel l t = SDone t')) /\
    ((exists k kd pl s', run nf k s = Some (RErr kd pl s')) <->
     (exists fuel kd pl p t', sblock fo funs fuel l t = SFail kd pl p t')) /\
    ((forall k, run nf k s = None) <-> (forall fuel, sblock fo funs fuel l t = SOut)).
  Proof.
    intros l org prog t s HL HW HC C Hl Hi Hip Hs.
    assert (Some_run : forall fuel, sblock fo funs fuel l t <> SOut -> exists k r, run nf k s = Some r /\
              match sblock fo funs fuel l t with
              | SDone _ => exists s', r = ROk tt s'
              | SFail kd pl _ _ => exists s', r = RErr kd pl s'
              | _ => True
              end).
    { intros fuel Hne. destruct (program_run_some l org prog fuel t s HL HW HC C Hl Hi Hip Hs Hne) as (N & r & HN & H).
      exists (S N), r. split; [apply HN; lia|].
      destruct (sblock fo funs fuel l t); try exact I; destruct H as (s' & -> & _); eauto. }
    split; [|split].
    - split.
      + intros (k & s' & Hr).
        destruct (program_run_converse l org prog t s k _ HL HW HC C Hl Hi Hip Hs Hr) as (fuel & t' & E & _). eauto.
      + intros (fuel & t' & E). destruct (Some_run fuel) as (k & r & Hr & H); [congruence|].
        rewrite E in H. destruct H as (s' & ->). eauto.
    - split.
      + intros (k & kd & pl & s' & Hr).
        destruct (program_run_converse l org prog t s k _ HL HW HC C Hl Hi Hip Hs Hr) as (fuel & p & t' & E & _).
        exists fuel, kd, pl, p, t'. exact E.
      + intros (fuel & kd & pl & p & t' & E). destruct (Some_run fuel) as (k & r & Hr & H); [congruence|].
        rewrite E in H. destruct H as (s' & ->). eauto 6.
    - split.
      + intros Hnone fuel. destruct (sblock fo funs fuel l t) as [t'|t'|kd pl p t'| |] eqn:E; try reflexivity;
          (destruct (Some_run fuel) as (k & r & Hr & _); [congruence|rewrite Hnone in Hr; discriminate]).
      + intros Hout k. eapply program_run_diverges; eauto.
  Qed.
End FinalQ.
