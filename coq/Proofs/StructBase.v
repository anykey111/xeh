(* StructBase.v: infrastructure for the structural evaluator of Model/Struct.v:
   named versions of the local fixpoints of [sstmt] ([do_iter] for the trips of a counted
   loop, [case_go] for the arms of a case), the one-step unfolding equations of [sblock] /
   [sstmt], and the refinement order "out of fuel or equal" on results. *)
From Xeh Require Import Model.Prelude Model.Bits Model.Codec Model.Cell Model.Lexer Model.Fmt
                        Model.Vm Model.Words Model.Struct.
Local Notation length := List.length.

Definition arm : Type := (list stmt * pos * list stmt)%type.
Definition arm_pos (a : arm) : pos := snd (fst a).

Definition on_res (r : sres) (kd kb : state -> sres) : sres :=
  match r with
  | SDone s => kd s
  | SBroke s => kb s
  | SFail k pl p s => SFail k pl p s
  | SOut => SOut
  | SUnsup => SUnsup
  end.

(* the test of if / until / while *)
Definition m_test : M bool := let* c := pop_data in m_cond c.
(* the comparison of `of` *)
Definition m_of : M bool := let* a := pop_data in let* b := top_data in ret (cell_eqb a b).

Section DoIter.
  Variable body : state -> sres.
  Variable pl : pos.
  (* the trips of a counted loop whose record is on the loop stack *)
  Fixpoint do_iter (k : nat) (s : state) : sres :=
    match k with
    | O => SOut
    | S k' =>
      match body s with
      | SDone s3 =>
        run_m loop_next pl s3 (fun more s4 =>
          if more then do_iter k' s4 else run_m pop_loop pl s4 (fun _ s5 => SDone s5))
      | SBroke s3 => run_m pop_loop pl s3 (fun _ s4 => SDone s4)
      | other => other
      end
    end.
End DoIter.

Section CaseGo.
  Variable blk : list stmt -> state -> sres.
  Variable dflt : list stmt.
  Fixpoint case_go (arms : list (list stmt * pos * list stmt)) (s : state) : sres :=
    match arms with
    | [] => blk dflt s
    | (pre, pof, body) :: r =>
      match blk pre s with
      | SDone s1 =>
        run_m (let* a := pop_data in let* b := top_data in ret (cell_eqb a b)) pof s1 (fun eq s2 =>
          if eq then run_m pop_data pof s2 (fun _ s3 => blk body s3)
          else case_go r s2)
      | other => other
      end
    end.
End CaseGo.

Section Eqns.
  Variable fo : fops.
  Variable funs : list (nat * list stmt).
  Notation sblock := (sblock fo funs).
  Notation sstmt := (sstmt fo funs).

  Lemma sblock_0 : forall l s, sblock 0 l s = SOut.
  Proof. reflexivity. Qed.
  Lemma sstmt_0 : forall x s, sstmt 0 x s = SOut.
  Proof. reflexivity. Qed.
  Lemma sblock_nil : forall f s, sblock (S f) [] s = SDone s.
  Proof. reflexivity. Qed.
  Lemma sblock_cons : forall f x r s,
    sblock (S f) (x :: r) s = on_res (sstmt f x s) (fun s' => sblock f r s') SBroke.
  Proof. reflexivity. Qed.

  Lemma sstmt_SLit : forall f c p s,
    sstmt (S f) (SLit c p) s = run_m (push_data c) p s (fun _ s' => SDone s').
  Proof. reflexivity. Qed.
  Lemma sstmt_SPrim : forall f w p s,
    sstmt (S f) (SPrim w p) s =
    match native_fn fo w with
    | Some m => run_m m p s (fun _ s' => SDone s')
    | None => SUnsup
    end.
  Proof. reflexivity. Qed.
  Lemma sstmt_SGet : forall f a p s,
    sstmt (S f) (SGet a p) s = run_m (let* v := get_var a in push_data v) p s (fun _ s' => SDone s').
  Proof. reflexivity. Qed.
  Lemma sstmt_SSet : forall f a p s,
    sstmt (S f) (SSet a p) s = run_m (let* v := pop_data in set_var a v) p s (fun _ s' => SDone s').
  Proof. reflexivity. Qed.
  Lemma sstmt_SLocSet : forall f i p s,
    sstmt (S f) (SLocSet i p) s = run_m (let* v := pop_data in init_local i v) p s (fun _ s' => SDone s').
  Proof. reflexivity. Qed.
  Definition m_locget (i : nat) : M unit :=
    let* fr := top_frame in
    match nth_error (locals fr) i with
    | Some v => push_data v
    | None => fail ELocalOob None
    end.
  Lemma sstmt_SLocGet : forall f i p s,
    sstmt (S f) (SLocGet i p) s = run_m (m_locget i) p s (fun _ s' => SDone s').
  Proof. reflexivity. Qed.
  Lemma sstmt_SDef : forall f g s, sstmt (S f) (SDef g) s = SDone s.
  Proof. reflexivity. Qed.
  Lemma sstmt_SBreak : forall f s, sstmt (S f) SBreak s = SBroke s.
  Proof. reflexivity. Qed.
  Lemma sstmt_SCall : forall f g p s,
    sstmt (S f) (SCall g p) s =
    match fun_body funs g with
    | None => SUnsup
    | Some body =>
      run_m (push_return (mkframe 0 0 [])) p s (fun _ s1 =>
        on_res (sblock f body s1) (fun s2 => run_m pop_return p s2 (fun _ s3 => SDone s3)) SBroke)
    end.
  Proof. reflexivity. Qed.
  Lemma sstmt_SIf : forall f p t s,
    sstmt (S f) (SIf p t) s =
    run_m m_test p s (fun b s1 => if b then sblock f t s1 else SDone s1).
  Proof. reflexivity. Qed.
  Lemma sstmt_SIfE : forall f p t e s,
    sstmt (S f) (SIfE p t e) s =
    run_m m_test p s (fun b s1 => if b then sblock f t s1 else sblock f e s1).
  Proof. reflexivity. Qed.
  Lemma sstmt_SUntil : forall f b p s,
    sstmt (S f) (SUntil b p) s =
    on_res (sblock f b s)
           (fun s1 => run_m m_test p s1 (fun c s2 => if c then SDone s2 else sstmt f (SUntil b p) s2))
           SBroke.
  Proof. reflexivity. Qed.
  Lemma sstmt_SRepeat : forall f b s,
    sstmt (S f) (SRepeat b) s =
    on_res (sblock f b s) (fun s1 => sstmt f (SRepeat b) s1) SDone.
  Proof. reflexivity. Qed.
  Lemma sstmt_SWhile : forall f c p b s,
    sstmt (S f) (SWhile c p b) s =
    on_res (sblock f c s)
           (fun s1 => run_m m_test p s1 (fun go s2 =>
              if go then on_res (sblock f b s2) (fun s3 => sstmt f (SWhile c p b) s3) SDone
              else SDone s2))
           SDone.
  Proof. reflexivity. Qed.
  Lemma sstmt_SDo : forall f p b pl s,
    sstmt (S f) (SDo p b pl) s =
    run_m do_init p s (fun l s1 =>
      if (l_end l <=? l_start l)%Z then SDone s1
      else run_m (push_loop l) p s1 (fun _ s2 => do_iter (sblock f b) pl f s2)).
  Proof. reflexivity. Qed.
  Lemma sstmt_SCase : forall f arms dflt s,
    sstmt (S f) (SCase arms dflt) s = case_go (sblock f) dflt arms s.
  Proof. reflexivity. Qed.

  Lemma do_iter_0 : forall body pl s, do_iter body pl 0 s = SOut.
  Proof. reflexivity. Qed.
  Lemma do_iter_S : forall body pl k s,
    do_iter body pl (S k) s =
    on_res (body s)
           (fun s3 => run_m loop_next pl s3 (fun more s4 =>
              if more then do_iter body pl k s4 else run_m pop_loop pl s4 (fun _ s5 => SDone s5)))
           (fun s3 => run_m pop_loop pl s3 (fun _ s4 => SDone s4)).
  Proof. reflexivity. Qed.
  Lemma case_go_nil : forall blk dflt s, case_go blk dflt [] s = blk dflt s.
  Proof. reflexivity. Qed.
  Lemma case_go_cons : forall blk dflt pre pof body r s,
    case_go blk dflt ((pre, pof, body) :: r) s =
    on_res (blk pre s)
           (fun s1 => run_m m_of pof s1 (fun eq s2 =>
              if eq then run_m pop_data pof s2 (fun _ s3 => blk body s3)
              else case_go blk dflt r s2))
           SBroke.
  Proof. reflexivity. Qed.
End Eqns.

Ltac sstmt_unfold :=
  first [ rewrite sstmt_SLit | rewrite sstmt_SPrim | rewrite sstmt_SGet | rewrite sstmt_SSet
        | rewrite sstmt_SLocSet | rewrite sstmt_SLocGet | rewrite sstmt_SDef | rewrite sstmt_SBreak
        | rewrite sstmt_SCall | rewrite sstmt_SIf | rewrite sstmt_SIfE | rewrite sstmt_SUntil
        | rewrite sstmt_SRepeat | rewrite sstmt_SWhile | rewrite sstmt_SDo | rewrite sstmt_SCase ].

Lemma run_m_ok : forall A (m : M A) p s k a s', m s = ROk a s' -> run_m m p s k = k a s'.
Proof. intros A m p s k a s' H. unfold run_m. rewrite H. reflexivity. Qed.
Lemma run_m_err : forall A (m : M A) p s k kd pl s', m s = RErr kd pl s' -> run_m m p s k = SFail kd pl p s'.
Proof. intros A m p s k kd pl s' H. unfold run_m. rewrite H. reflexivity. Qed.

Lemma run_m_out_inv : forall A (m : M A) p s k,
  run_m m p s k = SOut -> exists a s1, m s = ROk a s1 /\ k a s1 = SOut.
Proof. intros A m p s k H. unfold run_m in H. destruct (m s); try discriminate. eauto. Qed.

Lemma on_res_assoc : forall r kd kb kd' kb',
  on_res (on_res r kd kb) kd' kb' = on_res r (fun s => on_res (kd s) kd' kb') (fun s => on_res (kb s) kd' kb').
Proof. intros. destruct r; reflexivity. Qed.
Lemma on_res_id : forall r, on_res r SDone SBroke = r.
Proof. destruct r; reflexivity. Qed.

Definition sle (a b : sres) : Prop := a = SOut \/ b = a.

Lemma sle_refl : forall a, sle a a.
Proof. right; reflexivity. Qed.
Lemma sle_out : forall b, sle SOut b.
Proof. left; reflexivity. Qed.
Lemma sle_eq : forall a b, sle a b -> a <> SOut -> b = a.
Proof. intros a b [H | H] N; [ contradiction | assumption ]. Qed.
Lemma sle_trans : forall a b c, sle a b -> sle b c -> sle a c.
Proof.
  intros a b c [H | H] [H' | H']; subst; try (left; reflexivity); right; reflexivity.
Qed.

Lemma sle_run_m : forall A (m : M A) p s k1 k2,
  (forall a s', sle (k1 a s') (k2 a s')) -> sle (run_m m p s k1) (run_m m p s k2).
Proof. intros A m p s k1 k2 H. unfold run_m. destruct (m s); auto using sle_refl. Qed.

Lemma sle_on_res : forall a b kd kb kd' kb',
  sle a b -> (forall s, sle (kd s) (kd' s)) -> (forall s, sle (kb s) (kb' s)) ->
  sle (on_res a kd kb) (on_res b kd' kb').
Proof.
  intros a b kd kb kd' kb' [H | H] Hd Hb.
  - subst. left. reflexivity.
  - subst. destruct a; cbn [on_res]; auto using sle_refl.
Qed.

Lemma sle_if : forall (c : bool) a1 a2 b1 b2, sle a1 b1 -> sle a2 b2 ->
  sle (if c then a1 else a2) (if c then b1 else b2).
Proof. intros [] *; auto. Qed.
