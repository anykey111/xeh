(* Digit characters, and integer conversion: int_from_str_radix against the digit-list value. *)
From Xeh Require Import Model.Prelude Model.Cell Model.Lexer Model.Fmt.
From Xeh Require Import Proofs.LexBasic.
Local Open Scope string_scope.

(* 0-9, then A-Z or a-z *)
Lemma digit_char_byte up d : (d < 36)%N ->
  byte_of (digit_char up d) = if (d <? 10)%N then (48 + d)%N else if up then (55 + d)%N else (87 + d)%N.
Proof.
  intros H. unfold digit_char, byte_of.
  destruct (d <? 10)%N eqn:E; [|destruct up]; apply N_ascii_embedding; lia.
Qed.

(* the byte of a digit character is a decimal digit or a letter: in particular it is no whitespace,
   sign, dot, underscore, quote or bar *)
Lemma digit_char_range up d : (d < 36)%N ->
  let n := byte_of (digit_char up d) in (48 <= n <= 57 \/ 65 <= n <= 90 \/ 97 <= n <= 122)%N.
Proof. intros H n. subst n. rewrite digit_char_byte by exact H. destruct (d <? 10)%N eqn:E; [|destruct up]; lia. Qed.

(* char::to_digit reads back what the printer wrote, in either case *)
Lemma digit_val_char up d : (d < 36)%N -> digit_val (digit_char up d) = Some d.
Proof.
  intros H. unfold digit_val. cbv zeta. rewrite digit_char_byte by exact H.
  destruct (d <? 10)%N eqn:E.
  - replace ((48 <=? 48 + d)%N && (48 + d <=? 57)%N) with true by lia. f_equal. lia.
  - destruct up.
    + replace ((48 <=? 55 + d)%N && (55 + d <=? 57)%N) with false by lia.
      replace ((97 <=? 55 + d)%N && (55 + d <=? 122)%N) with false by lia.
      replace ((65 <=? 55 + d)%N && (55 + d <=? 90)%N) with true by lia. f_equal. lia.
    + replace ((48 <=? 87 + d)%N && (87 + d <=? 57)%N) with false by lia.
      replace ((97 <=? 87 + d)%N && (87 + d <=? 122)%N) with true by lia. f_equal. lia.
Qed.

Lemma digit_val_inv c v : digit_val c = Some v -> (v < 36)%N /\ exists up, digit_char up v = c.
Proof.
  unfold digit_val. cbv zeta. intros H.
  destruct ((48 <=? byte_of c)%N && (byte_of c <=? 57)%N) eqn:E1.
  { injection H as <-. split; [lia|]. exists false. apply byte_inj. rewrite digit_char_byte by lia.
    replace (byte_of c - 48 <? 10)%N with true by lia. lia. }
  destruct ((97 <=? byte_of c)%N && (byte_of c <=? 122)%N) eqn:E2.
  { injection H as <-. split; [lia|]. exists false. apply byte_inj. rewrite digit_char_byte by lia.
    replace (byte_of c - 87 <? 10)%N with false by lia. lia. }
  destruct ((65 <=? byte_of c)%N && (byte_of c <=? 90)%N) eqn:E3; [|discriminate].
  injection H as <-. split; [lia|]. exists true. apply byte_inj. rewrite digit_char_byte by lia.
  replace (byte_of c - 55 <? 10)%N with false by lia. lia.
Qed.

Definition digits_str (ds : list N) : string :=
  fold_right (fun d acc => String (digit_char false d) acc) EmptyString ds.

Lemma digits_val_str radix : (radix <= 36)%N -> forall ds acc,
  Forall (fun d => (d < radix)%N) ds ->
  digits_val radix (digits_str ds) acc = Some (digits_value (Z.of_N radix) ds acc).
Proof.
  intros Hr. induction ds as [|d ds IH]; intros acc H; cbn [digits_str fold_right digits_val digits_value].
  - reflexivity.
  - inversion H as [|? ? Hd Hds]; subst.
    rewrite digit_val_char by lia.
    replace (d <? radix)%N with true by lia.
    apply IH. assumption.
Qed.

(* the sign dispatch of int_from_str_radix *)
Definition sign_split (s : string) : bool * string :=
  match s with
  | String "-" r => (true, r)
  | String "+" r => (false, r)
  | _ => (false, s)
  end.

Lemma int_from_str_radix_unfold s radix :
  int_from_str_radix s radix =
  let '(neg, body) := sign_split s in
  match body with
  | "" => None
  | _ =>
    match digits_val radix body 0%Z with
    | Some m => let v := if neg then (- m)%Z else m in
                if in_i128 v then Some v else None
    | None => None
    end
  end.
Proof. reflexivity. Qed.

(* a first character that is not a sign; stated on bytes so that range facts discharge it *)
Lemma sign_split_other c r : byte_of c <> 45%N -> byte_of c <> 43%N ->
  sign_split (String c r) = (false, String c r).
Proof.
  intros H1 H2.
  destruct c as [[] [] [] [] [] [] [] []]; try reflexivity; [elim H2|elim H1]; reflexivity.
Qed.

Lemma int_from_str_radix_spec :
  forall (neg : bool) (radix : N) (ds : list N) (body : string),
  (2 <= radix <= 36)%N -> ds <> [] -> Forall (fun d => (d < radix)%N) ds ->
  body = fold_right (fun d acc => String (digit_char false d) acc) EmptyString ds ->
  let v := (if neg then - digits_value (Z.of_N radix) ds 0 else digits_value (Z.of_N radix) ds 0)%Z in
  int_from_str_radix ((if neg then "-" else "") ++ body) radix = if in_i128 v then Some v else None.
Proof.
  intros neg radix ds body Hr Hne Hds Hb v. fold (digits_str ds) in Hb.
  rewrite int_from_str_radix_unfold.
  destruct ds as [|d ds']; [congruence|].
  assert (Hd : (d < radix)%N) by (inversion Hds; assumption).
  pose proof (digits_val_str radix ltac:(lia) (d :: ds') 0%Z Hds) as Hval. rewrite <- Hb in Hval.
  destruct neg.
  - change ("-" ++ body) with (String "-" body). cbn [sign_split]. rewrite Hval.
    subst body. reflexivity.
  - change ("" ++ body) with body. rewrite Hb in *. cbn [digits_str fold_right] in *.
    pose proof (digit_char_range false d ltac:(lia)) as Hc. cbv zeta in Hc.
    rewrite sign_split_other by lia. rewrite Hval. reflexivity.
Qed.

Lemma hex_negative_refuted :
  exists z, in_i128 z = true /\
    let txt := fmt_int (fl_set_base fmt_default 16) z in
    forall n, lex_string txt <> [(TLit (CInt z), 0, n); (TEnd, n, n)].
Proof.
  exists (-1)%Z. split; [reflexivity|].
  cbv zeta. intros n.
  assert (E : lex_string (fmt_int (fl_set_base fmt_default 16) (-1)) = [(TErr PInt 0 34, 0, 34)]).
  { vm_compute. reflexivity. }
  rewrite E. discriminate.
Qed.
