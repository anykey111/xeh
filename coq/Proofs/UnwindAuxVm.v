(* UnwindAuxVm.v (C10, follow-up equivalence): execution does not depend on the components
   that the unwinding of a rejected source does not restore.  [ax t ...] replaces the debug
   map, the sources, the input, the meter, the reverse log, the captured output, the last-token
   record and the stop flag of [t]; [aok] says the replacement is compatible (same length of
   the debug map, the same lexer positions in the input, the same meter unless no instruction
   limit is set, recording on both sides or on neither).  Every native word, every
   instruction and [run] map compatible states to compatible results with the same value /
   error. *)
From Xeh Require Import Model.Prelude Model.Bits Model.Codec Model.Cell Model.Lexer Model.Fmt
                        Model.Vm Model.Words Model.Build.
From Xeh Require Import Proofs.VmFrame Proofs.VmLimits Proofs.UnwindRel Proofs.UnwindIrr.
Local Notation length := List.length.

Definition ax (t : state) (dg : list tokref) (so : list string) (inp : list inlex) (me : Z)
              (rl : option (list rstep)) (ou : string) (lt : option tokref) (sg : bool) : state :=
  mkstate (dict t) (heap t) (code t) dg so inp (ds t) (rs t) (flows t) (loops t) (special t)
          (cx t) (nested t) me (insn_limit t) (heap_limit t) (stack_limit t) rl ou lt sg.

Definition lex_same (a b : inlex) : Prop := in_lex a = in_lex b.

Definition aok (t : state) (dg : list tokref) (inp : list inlex) (me : Z) (rl : option (list rstep)) : Prop :=
  length dg = length (dbg t) /\ Forall2 lex_same (input t) inp /\
  (insn_limit t = None \/ me = meter t) /\ (rl = None <-> rlog t = None).

Definition arel (s s' : state) : Prop :=
  exists dg so inp me rl ou lt sg, aok s dg inp me rl /\ s' = ax s dg so inp me rl ou lt sg.

Definition ares {A} (r r' : res A) : Prop :=
  match r, r' with
  | ROk a s, ROk a' s' => a = a' /\ arel s s'
  | RErr k p s, RErr k' p' s' => k = k' /\ p = p' /\ arel s s'
  | RPanic, RPanic => True
  | RUnsup, RUnsup => True
  | _, _ => False
  end.

(* [ares] is [rres arel]; a program that maps compatible states to compatible results *)
Notation ap := (mrel arel).

Lemma ax_irr t dg so inp me rl ou lt sg :
  ax t dg so inp me rl ou lt sg =
  irr t dg so inp (nested t) me rl ou lt sg (cs_len (cx t)) (fs_len (cx t)) (di_len (cx t)).
Proof. destruct t as [? ? ? ? ? ? ? ? ? ? ? c ? ? ? ? ? ? ? ? ?]. destruct c. reflexivity. Qed.

Lemma arel_intro t dg so inp me rl ou lt sg : aok t dg inp me rl -> arel t (ax t dg so inp me rl ou lt sg).
Proof. intros H. exists dg, so, inp, me, rl, ou, lt, sg. auto. Qed.

Lemma ap_intro A (P : M A) :
  (forall t dg so inp me rl ou lt sg, aok t dg inp me rl -> ares (P t) (P (ax t dg so inp me rl ou lt sg))) ->
  ap P.
Proof. intros H s s' (dg & so & inp & me & rl & ou & lt & sg & Ho & ->). apply H, Ho. Qed.

(* the continuation of a read may use everything the twin keeps *)
Lemma ap_get_bind B (k : state -> M B) :
  (forall s0 dg so inp me rl ou lt sg s, k (ax s0 dg so inp me rl ou lt sg) s = k s0 s) ->
  (forall s0, ap (k s0)) -> ap (bind get k).
Proof.
  intros H1 H2 s s' H. unfold bind, get. pose proof H as (dg & so & inp & me & rl & ou & lt & sg & _ & ->).
  rewrite H1. apply H2, H.
Qed.

Ltac aok_fin :=
  lazymatch goal with
  | H : aok _ _ _ _ _ |- _ =>
    let A1 := fresh "A1" in let A2 := fresh "A2" in let A3 := fresh "A3" in let A4 := fresh "A4" in
    destruct H as (A1 & A2 & A3 & A4);
    cbv [aok dbg input insn_limit meter rlog] in *;
    repeat split; try assumption; try (intro; discriminate); try (clear - A4; tauto);
    try (destruct A3 as [A3|A3]; [left; exact A3|right; subst; reflexivity])
  end.

Ltac ap_fin :=
  cbv [ares]; try exact I;
  try (repeat split; try reflexivity;
       do 8 eexists; (split; [|cbv [ax dict heap code dbg sources input ds rs flows loops special cx nested meter
                                       insn_limit heap_limit stack_limit rlog out last_tok stopping]; reflexivity]);
       aok_fin).

Ltac rlog_cases :=
  (* the two logs are both present or both absent *)
  lazymatch goal with
  | H : aok _ _ _ _ ?rl |- _ =>
    let A := fresh "RL" in
    pose proof (proj2 (proj2 (proj2 H))) as A; cbv [rlog] in A;
    match type of A with
    | (?x = None <-> ?y = None) =>
      destruct x; destruct y;
      try (exfalso; destruct A as [A1 A2]; first [specialize (A1 eq_refl) | specialize (A2 eq_refl)]; discriminate)
    end
  end.

Ltac ap_prim :=
  let t := fresh "t" in let H := fresh "Ho" in
  apply ap_intro; intros t dg so inp me rl ou lt sg H; destruct_state t;
  rlog_cases;
  cbv [push_data pop_data top_data swap_data rot_data over_data push_return pop_return top_frame
       push_loop pop_loop loop_next loop_set_items push_special pop_special get_var set_var
       init_local set_ip next_ip print modify ret fail unsup panic
       add_rstep limit_reached data_depth ip set_ip_raw ax
       set_ds set_rs set_loops set_special set_heap set_cx set_nested set_rlog set_out set_stopping
       dict heap code dbg sources input ds rs flows loops special cx nested meter insn_limit
       heap_limit stack_limit rlog out last_tok stopping];
  break_matches; ap_fin.

Lemma wx_ap : forall A (m : M A), wx m -> ap m.
Proof.
  induction 1; try (ap_prim; fail).
  - apply mrel_bind; assumption.
  - apply ap_get_bind; [|assumption]. intros. rewrite ax_irr. apply H1.
Qed.

Lemma ap_meter_increase : ap meter_increase.
Proof.
  apply ap_intro. intros t dg so inp me rl ou lt sg Ho. destruct_state t.
  pose proof Ho as (_ & _ & A3 & _). cbv [insn_limit meter] in A3.
  cbv [meter_increase ax set_meter dict heap code dbg sources input ds rs flows loops special cx nested meter
       insn_limit heap_limit stack_limit rlog out last_tok stopping].
  destruct il0 as [l|].
  - destruct A3 as [A3|A3]; [discriminate|]. subst me.
    destruct (l <=? me0)%Z; ap_fin.
  - ap_fin.
Qed.

Lemma aok_same t t' dg inp me rl :
  dbg t' = dbg t -> input t' = input t -> insn_limit t' = insn_limit t -> meter t' = meter t ->
  rlog t' = rlog t -> aok t dg inp me rl -> aok t' dg inp me rl.
Proof. unfold aok. intros -> -> -> -> ->. auto. Qed.

Lemma arel_keep (f : state -> state) :
  (forall t dg so inp me rl ou lt sg, f (ax t dg so inp me rl ou lt sg) = ax (f t) dg so inp me rl ou lt sg) ->
  (forall t, dbg (f t) = dbg t /\ input (f t) = input t /\ insn_limit (f t) = insn_limit t /\
             meter (f t) = meter t /\ rlog (f t) = rlog t) ->
  forall s s', arel s s' -> arel (f s) (f s').
Proof.
  intros H1 H2 s s' (dg & so & inp & me & rl & ou & lt & sg & Ho & ->). rewrite H1.
  destruct (H2 s) as (E1 & E2 & E3 & E4 & E5). apply arel_intro. eapply aok_same; eassumption.
Qed.

Lemma arel_set_code s s' c : arel s s' -> arel (set_code s c) (set_code s' c).
Proof. apply (arel_keep (fun s => set_code s c)); [reflexivity|repeat split]. Qed.

Section WithTable.
  Variable nf : natives.
  Hypothesis Hnf : forall w f, nf w = Some f -> wx f.

  Lemma ap_exec_op ip0 op : ap (exec_op nf ip0 op).
  Proof. apply wx_ap. apply wx_exec_op. exact Hnf. Qed.

  Lemma ap_far : ap (fetch_and_run nf).
  Proof.
    intros s s' H. rewrite !fetch_and_run_eq. revert s s' H.
    apply ap_get_bind; [reflexivity|intros s0].
    apply mrel_bind; [apply ap_meter_increase|intros _].
    apply ap_get_bind; [reflexivity|intros s1].
    destruct (nth_error (code s1) (ip s0)) as [op|]; [|apply mrel_panic].
    destruct op; try apply ap_exec_op.
    destruct (dict_entry s1 name) as [e|]; [|apply mrel_fail].
    apply mrel_bind; [apply mrel_modify; intros; apply arel_set_code; assumption|intros _].
    apply mrel_bind; [apply ap_meter_increase|intros _]. apply ap_exec_op.
  Qed.

  Definition oares (r r' : option (res unit)) : Prop :=
    match r, r' with
    | Some a, Some a' => ares a a'
    | None, None => True
    | _, _ => False
    end.

  Lemma ap_run : forall fuel s s', arel s s' -> oares (run nf fuel s) (run nf fuel s').
  Proof.
    induction fuel as [|f IH]; intros s s' H; cbn [run oares]; [exact I|].
    assert (E : is_running s' = is_running s)
      by (destruct H as (dg & so & inp & me & rl & ou & lt & sg & _ & ->); reflexivity).
    rewrite E. destruct (is_running s); [|split; [reflexivity|exact H]].
    pose proof (ap_far s s' H) as X.
    destruct (fetch_and_run nf s) as [u s1|k p s1| |]; destruct (fetch_and_run nf s') as [u' s1'|k' p' s1'| |];
      cbn [rres oares] in *; try contradiction; auto.
    apply IH, X.
  Qed.
End WithTable.

Theorem ap_run_m fo rf : ap (run_m fo rf).
Proof.
  intros s s' H. unfold run_m, nf. pose proof (ap_run (native_fn fo) (native_wx fo) rf s s' H) as X.
  destruct (run (native_fn fo) rf s); destruct (run (native_fn fo) rf s'); cbn [oares] in X; try contradiction; auto.
Qed.
