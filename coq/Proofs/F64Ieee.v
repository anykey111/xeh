(* F64Ieee.v: the Flocq instance of Model/F64.v IS IEEE-754 binary64 arithmetic.
   Bit patterns <-> Flocq floats, the real value [fval] of a pattern in terms of the fields the
   model reads, and Bplus/Bminus/Bmult/Bdiv_correct transported to fl_add/fl_sub/fl_mul/fl_div.
   Depends on the axioms of Flocq / Reals (classic, sig_not_dec, sig_forall_dec, funext). *)
From Coq Require Import ZArith Reals Lia Psatz.
From Flocq Require Import Core.Core IEEE754.BinarySingleNaN IEEE754.Binary IEEE754.Bits.
From Xeh Require Import Model.Prelude Model.Cell Model.F64c Model.Words Model.Boot Model.F64.
From Xeh Require Import Proofs.ArithNum Proofs.F64cProofs.
Local Open Scope Z_scope.

Lemma pat_id p : f64_pat p -> pat p = p.
Proof. unfold f64_pat, pat. intros H. apply Z.mod_small. exact H. Qed.

Lemma pat_range p : f64_pat (pat p).
Proof. unfold f64_pat, pat. apply Z.mod_pos_bound. reflexivity. Qed.

Lemma bits_round_trip p : f64_pat p -> bits_of_b64 (b64_of_bits p) = p.
Proof. intros H. exact (bits_of_binary_float_of_bits 52 11 eq_refl eq_refl eq_refl p H). Qed.

Lemma b64_round_trip x : b64_of_bits (bits_of_b64 x) = x.
Proof. exact (binary_float_of_bits_of_binary_float 52 11 eq_refl eq_refl eq_refl x). Qed.

Lemma bits_range x : f64_pat (bits_of_b64 x).
Proof. apply (bits_of_binary_float_range 52 11); reflexivity. Qed.

Lemma split_fields p : f64_pat p -> split_bits 52 11 p = (f64_neg p, f64_man p, f64_exp p).
Proof.
  intros H. unfold split_bits, f64_neg, f64_man, f64_exp.
  rewrite testbit63 by exact H. rewrite Z.shiftr_div_pow2 by lia.
  reflexivity.
Qed.

Definition ff_of (p : Z) : full_float :=
  if f64_exp p =? 0 then
    (if f64_man p =? 0 then F754_zero (f64_neg p) else F754_finite (f64_neg p) (Z.to_pos (f64_man p)) (-1074))
  else if f64_exp p =? 2047 then
    (if f64_man p =? 0 then F754_infinity (f64_neg p) else F754_nan (f64_neg p) (Z.to_pos (f64_man p)))
  else F754_finite (f64_neg p) (Z.to_pos (2 ^ 52 + f64_man p)) (f64_exp p - 1075).

Lemma b64_FF p : f64_pat p -> B2FF 53 1024 (b64_of_bits p) = ff_of p.
Proof.
  intros H. unfold b64_of_bits, binary_float_of_bits. rewrite B2FF_FF2B.
  unfold binary_float_of_bits_aux. rewrite (split_fields p H).
  destruct (f64_decompose p H) as (_ & He & Hm).
  unfold ff_of.
  destruct (Z.eqb_spec (f64_exp p) 0) as [E0|E0].
  - rewrite Zeq_bool_true by exact E0.
    destruct (Z.eqb_spec (f64_man p) 0) as [M0|M0].
    + rewrite M0. reflexivity.
    + destruct (f64_man p) eqn:EM; try lia. reflexivity.
  - rewrite Zeq_bool_false by exact E0.
    change (2 ^ 11 - 1) with 2047.
    destruct (Z.eqb_spec (f64_exp p) 2047) as [E1|E1].
    + rewrite Zeq_bool_true by exact E1.
      destruct (Z.eqb_spec (f64_man p) 0) as [M0|M0].
      * rewrite M0. reflexivity.
      * destruct (f64_man p) eqn:EM; try lia. reflexivity.
    + rewrite Zeq_bool_false by exact E1.
      match goal with |- context [f64_exp p + ?e - 1] => change e with (-1074) end.
      replace (f64_exp p + -1074 - 1) with (f64_exp p - 1075) by lia.
      replace (f64_man p + 2 ^ 52) with (2 ^ 52 + f64_man p) by lia.
      destruct (2 ^ 52 + f64_man p) eqn:EM; try lia. reflexivity.
Qed.

(* the real number a pattern denotes (0 for infinities and NaN, as Flocq's B2R), and rounding
   to binary64: to nearest, ties to even, gradual underflow *)
Notation fval p := (B2R 53 1024 (b64_of_bits p)).
Notation rnd64 x := (round radix2 (FLT_exp (-1074) 53) ZnearestE x).

Lemma fields_summary p : f64_pat p ->
  is_nan 53 1024 (b64_of_bits p) = f64_is_nan p /\
  is_finite 53 1024 (b64_of_bits p) = negb (f64_exp p =? 2047) /\
  Bsign 53 1024 (b64_of_bits p) = f64_neg p /\
  (f64_exp p <> 2047 -> fval p = F2R (Float radix2 (cond_Zopp (f64_neg p) (f64_mant p)) (f64_ex p))) /\
  (f64_exp p = 2047 -> fval p = 0%R).
Proof.
  intros Hp.
  assert (S : forall b : binary64, Bsign 53 1024 b = sign_FF (B2FF 53 1024 b)) by (destruct b; reflexivity).
  rewrite <- is_nan_B2FF, <- is_finite_B2FF, <- FF2R_B2FF, S, (b64_FF p Hp).
  destruct (f64_decompose p Hp) as (_ & He & Hm).
  unfold ff_of, f64_is_nan, f64_mant, f64_ex.
  destruct (Z.eqb_spec (f64_exp p) 0) as [E0|E0]; [rewrite E0|];
    destruct (Z.eqb_spec (f64_man p) 0) as [M0|M0]; [| |destruct (Z.eqb_spec (f64_exp p) 2047) as [E1|E1]..];
    cbn [is_nan_FF is_finite_FF sign_FF FF2R Z.eqb andb negb]; repeat split; try (intros; lia).
  - rewrite M0. destruct (f64_neg p); cbn [cond_Zopp]; rewrite F2R_0; reflexivity.
  - rewrite Z2Pos.id by lia. reflexivity.
  - rewrite Z2Pos.id by lia. reflexivity.
  - rewrite Z2Pos.id by lia. reflexivity.
Qed.

Lemma b64_is_nan p : f64_pat p -> is_nan 53 1024 (b64_of_bits p) = f64_is_nan p.
Proof. intros H. apply (fields_summary p H). Qed.
Lemma b64_is_finite p : f64_pat p -> is_finite 53 1024 (b64_of_bits p) = negb (f64_exp p =? 2047).
Proof. intros H. apply (fields_summary p H). Qed.
Lemma b64_sign p : f64_pat p -> Bsign 53 1024 (b64_of_bits p) = f64_neg p.
Proof. intros H. apply (fields_summary p H). Qed.
Lemma fval_spec p : f64_pat p -> f64_exp p <> 2047 ->
  fval p = F2R (Float radix2 (cond_Zopp (f64_neg p) (f64_mant p)) (f64_ex p)).
Proof. intros H. apply (fields_summary p H). Qed.

Lemma fin_true p : f64_pat p -> f64_exp p <> 2047 -> is_finite 53 1024 (b64_of_bits p) = true.
Proof. intros H F. rewrite b64_is_finite by exact H. destruct (Z.eqb_spec (f64_exp p) 2047); [contradiction|reflexivity]. Qed.

Lemma nan_bits r : is_nan 53 1024 r = f64_is_nan (bits_of_b64 r).
Proof. rewrite <- (b64_is_nan _ (bits_range r)), b64_round_trip. reflexivity. Qed.

Definition f64_inf (s : bool) : Z := f64_sign_bit s + 2047 * 2 ^ 52.
Definition f64_default_nan : Z := 2047 * 2 ^ 52 + 2 ^ 51.

Lemma finite_result (r : binary64) v sg :
  B2R 53 1024 r = v -> is_finite 53 1024 r = true -> (is_nan 53 1024 r = false -> Bsign 53 1024 r = sg) ->
  fval (bits_of_b64 r) = v /\ f64_exp (bits_of_b64 r) <> 2047 /\ f64_neg (bits_of_b64 r) = sg.
Proof.
  intros V F S. pose proof (fields_summary _ (bits_range r)) as (_ & F' & S' & _).
  rewrite b64_round_trip in *. split; [exact V|]. split.
  - rewrite F in F'. destruct (Z.eqb_spec (f64_exp (bits_of_b64 r)) 2047); [discriminate F'|assumption].
  - rewrite <- S'. apply S. destruct r; try reflexivity; discriminate F.
Qed.

Lemma overflow_bits (r : binary64) s : B2FF 53 1024 r = binary_overflow 53 1024 mode_NE s -> bits_of_b64 r = f64_inf s.
Proof.
  intros H. destruct r; try discriminate H. cbn in H. injection H as ->. destruct s; reflexivity.
Qed.

Lemma add_correct x y : f64_pat x -> f64_pat y -> f64_exp x <> 2047 -> f64_exp y <> 2047 ->
  ((Rabs (rnd64 (fval x + fval y)) < bpow radix2 1024)%R ->
     fval (fl_add x y) = rnd64 (fval x + fval y) /\ f64_exp (fl_add x y) <> 2047 /\
     f64_neg (fl_add x y) = match Rcompare (fval x + fval y) 0 with
                            | Eq => f64_neg x && f64_neg y | Lt => true | Gt => false end) /\
  ((bpow radix2 1024 <= Rabs (rnd64 (fval x + fval y)))%R ->
     fl_add x y = f64_inf (f64_neg x) /\ f64_neg x = f64_neg y).
Proof.
  intros Hx Hy Fx Fy. unfold fl_add. rewrite !pat_id by assumption.
  pose proof (Bplus_correct 53 1024 eq_refl eq_refl binop_nan_pl64 mode_NE _ _ (fin_true x Hx Fx) (fin_true y Hy Fy)) as C.
  rewrite !b64_sign in C by assumption.
  split; intros HB; [rewrite Rlt_bool_true in C by exact HB|rewrite Rlt_bool_false in C by exact HB].
  - destruct C as (C1 & C2 & C3). exact (finite_result _ _ _ C1 C2 (fun _ => C3)).
  - destruct C as (C1 & C2). split; [apply overflow_bits, C1|exact C2].
Qed.

Lemma sub_correct x y : f64_pat x -> f64_pat y -> f64_exp x <> 2047 -> f64_exp y <> 2047 ->
  ((Rabs (rnd64 (fval x - fval y)) < bpow radix2 1024)%R ->
     fval (fl_sub x y) = rnd64 (fval x - fval y) /\ f64_exp (fl_sub x y) <> 2047 /\
     f64_neg (fl_sub x y) = match Rcompare (fval x - fval y) 0 with
                            | Eq => f64_neg x && negb (f64_neg y) | Lt => true | Gt => false end) /\
  ((bpow radix2 1024 <= Rabs (rnd64 (fval x - fval y)))%R ->
     fl_sub x y = f64_inf (f64_neg x) /\ f64_neg x = negb (f64_neg y)).
Proof.
  intros Hx Hy Fx Fy. unfold fl_sub. rewrite !pat_id by assumption.
  pose proof (Bminus_correct 53 1024 eq_refl eq_refl binop_nan_pl64 mode_NE _ _ (fin_true x Hx Fx) (fin_true y Hy Fy)) as C.
  rewrite !b64_sign in C by assumption.
  split; intros HB; [rewrite Rlt_bool_true in C by exact HB|rewrite Rlt_bool_false in C by exact HB].
  - destruct C as (C1 & C2 & C3). exact (finite_result _ _ _ C1 C2 (fun _ => C3)).
  - destruct C as (C1 & C2). split; [apply overflow_bits, C1|exact C2].
Qed.

Lemma mul_correct x y : f64_pat x -> f64_pat y -> f64_exp x <> 2047 -> f64_exp y <> 2047 ->
  ((Rabs (rnd64 (fval x * fval y)) < bpow radix2 1024)%R ->
     fval (fl_mul x y) = rnd64 (fval x * fval y) /\ f64_exp (fl_mul x y) <> 2047 /\
     f64_neg (fl_mul x y) = xorb (f64_neg x) (f64_neg y)) /\
  ((bpow radix2 1024 <= Rabs (rnd64 (fval x * fval y)))%R ->
     fl_mul x y = f64_inf (xorb (f64_neg x) (f64_neg y))).
Proof.
  intros Hx Hy Fx Fy. unfold fl_mul. rewrite !pat_id by assumption.
  pose proof (Bmult_correct 53 1024 eq_refl eq_refl binop_nan_pl64 mode_NE (b64_of_bits x) (b64_of_bits y)) as C.
  rewrite (fin_true x Hx Fx), (fin_true y Hy Fy), !b64_sign in C by assumption.
  split; intros HB; [rewrite Rlt_bool_true in C by exact HB|rewrite Rlt_bool_false in C by exact HB].
  - destruct C as (C1 & C2 & C3). exact (finite_result _ _ _ C1 C2 C3).
  - apply overflow_bits, C.
Qed.

Lemma div_correct x y : f64_pat x -> f64_pat y -> f64_exp x <> 2047 -> f64_exp y <> 2047 -> fval y <> 0%R ->
  ((Rabs (rnd64 (fval x / fval y)) < bpow radix2 1024)%R ->
     fval (fl_div x y) = rnd64 (fval x / fval y) /\ f64_exp (fl_div x y) <> 2047 /\
     f64_neg (fl_div x y) = xorb (f64_neg x) (f64_neg y)) /\
  ((bpow radix2 1024 <= Rabs (rnd64 (fval x / fval y)))%R ->
     fl_div x y = f64_inf (xorb (f64_neg x) (f64_neg y))).
Proof.
  intros Hx Hy Fx Fy Ny. unfold fl_div. rewrite !pat_id by assumption.
  pose proof (Bdiv_correct 53 1024 eq_refl eq_refl binop_nan_pl64 mode_NE (b64_of_bits x) (b64_of_bits y) Ny) as C.
  rewrite (fin_true x Hx Fx), !b64_sign in C by assumption.
  split; intros HB; [rewrite Rlt_bool_true in C by exact HB|rewrite Rlt_bool_false in C by exact HB].
  - destruct C as (C1 & C2 & C3). exact (finite_result _ _ _ C1 C2 C3).
  - apply overflow_bits, C.
Qed.

Lemma low63 p : f64_pat p -> p mod 2 ^ 63 = f64_exp p * 2 ^ 52 + f64_man p.
Proof.
  intros H. destruct (f64_decompose p H) as (D & He & Hm).
  rewrite D at 1. unfold f64_sign_bit. rewrite p52 in *. rewrite p63.
  destruct (f64_neg p); lia.
Qed.

Lemma is_zero_fields p : f64_pat p -> f64_is_zero p = (f64_exp p =? 0) && (f64_man p =? 0).
Proof.
  intros H. unfold f64_is_zero. rewrite (low63 p H).
  destruct (f64_decompose p H) as (_ & He & Hm). rewrite p52 in *. lia.
Qed.

Lemma key_fields p : f64_pat p ->
  f64_key p = if f64_neg p then - (f64_exp p * 2 ^ 52 + f64_man p) else f64_exp p * 2 ^ 52 + f64_man p.
Proof. intros H. unfold f64_key. rewrite (low63 p H). reflexivity. Qed.

Lemma B2FF_zero (b : binary64) s : B2FF 53 1024 b = F754_zero s -> b = B754_zero 53 1024 s.
Proof. destruct b; intros E; try discriminate E. now injection E as ->. Qed.
Lemma B2FF_inf (b : binary64) s : B2FF 53 1024 b = F754_infinity s -> b = B754_infinity 53 1024 s.
Proof. destruct b; intros E; try discriminate E. now injection E as ->. Qed.
Lemma B2FF_nan (b : binary64) s pl : B2FF 53 1024 b = F754_nan s pl -> exists H, b = B754_nan 53 1024 s pl H.
Proof. destruct b; intros E; try discriminate E. injection E as -> ->. eexists. reflexivity. Qed.
Lemma B2FF_fin (b : binary64) s m e : B2FF 53 1024 b = F754_finite s m e -> exists H, b = B754_finite 53 1024 s m e H.
Proof. destruct b; intros E; try discriminate E. injection E as -> -> ->. eexists. reflexivity. Qed.

Lemma b64_cases p : f64_pat p ->
  (f64_is_zero p = true /\ b64_of_bits p = B754_zero 53 1024 (f64_neg p)) \/
  (f64_exp p = 2047 /\ f64_man p = 0 /\ b64_of_bits p = B754_infinity 53 1024 (f64_neg p)) \/
  (f64_is_nan p = true /\ exists pl H, b64_of_bits p = B754_nan 53 1024 (f64_neg p) pl H) \/
  (f64_exp p <> 2047 /\ f64_is_zero p = false /\
   exists H, b64_of_bits p = B754_finite 53 1024 (f64_neg p) (Z.to_pos (f64_mant p)) (f64_ex p) H).
Proof.
  intros Hp. pose proof (b64_FF p Hp) as F. unfold ff_of in F.
  rewrite (is_zero_fields p Hp). unfold f64_is_nan, f64_mant, f64_ex.
  destruct (f64_decompose p Hp) as (_ & He & Hm).
  destruct (Z.eqb_spec (f64_exp p) 0) as [E0|E0].
  - destruct (Z.eqb_spec (f64_man p) 0) as [M0|M0].
    + left. split; [reflexivity|]. apply B2FF_zero. exact F.
    + right. right. right. split; [lia|]. split; [reflexivity|]. apply B2FF_fin. exact F.
  - destruct (Z.eqb_spec (f64_exp p) 2047) as [E1|E1].
    + destruct (Z.eqb_spec (f64_man p) 0) as [M0|M0].
      * right. left. split; [assumption|]. split; [assumption|]. apply B2FF_inf. exact F.
      * right. right. left. split; [reflexivity|]. eexists. apply B2FF_nan. exact F.
    + right. right. right. split; [assumption|]. split; [reflexivity|]. apply B2FF_fin. exact F.
Qed.

Lemma b64_finite p : f64_pat p -> f64_exp p <> 2047 ->
  if f64_is_zero p then b64_of_bits p = B754_zero 53 1024 (f64_neg p)
  else exists H, b64_of_bits p = B754_finite 53 1024 (f64_neg p) (Z.to_pos (f64_mant p)) (f64_ex p) H.
Proof.
  intros Hp F. destruct (b64_cases p Hp) as [(Z0 & E)|[(E1 & _)|[(N & _)|(_ & Z0 & E)]]].
  - rewrite Z0. exact E.
  - contradiction.
  - rewrite finite_not_nan in N by exact F. discriminate N.
  - rewrite Z0. exact E.
Qed.

Lemma fval_zero_iff p : f64_pat p -> f64_exp p <> 2047 -> (fval p = 0%R <-> f64_is_zero p = true).
Proof.
  intros H F. rewrite (fval_spec p H F). rewrite (is_zero_fields p H). unfold f64_mant.
  destruct (f64_decompose p H) as (_ & He & Hm).
  split.
  - intros E. apply eq_0_F2R in E.
    destruct (Z.eqb_spec (f64_exp p) 0); destruct (f64_neg p); cbn [cond_Zopp] in E; lia.
  - intros E. assert (f64_exp p = 0 /\ f64_man p = 0) as (E0 & M0) by lia. rewrite E0, M0. cbn [Z.eqb].
    destruct (f64_neg p); cbn [cond_Zopp]; apply F2R_0.
Qed.

Notation binf := (B754_infinity 53 1024).
Notation bzero := (B754_zero 53 1024).
Notation bnanp := (is_nan 53 1024).

Lemma nan_l (a b : binary64) : bnanp a = true ->
  b64_plus mode_NE a b = a /\ b64_minus mode_NE a b = a /\ b64_mult mode_NE a b = a /\ b64_div mode_NE a b = a.
Proof. destruct a; try discriminate. intros _. destruct b; repeat split. Qed.
Lemma nan_r (a b : binary64) : bnanp a = false -> bnanp b = true ->
  b64_plus mode_NE a b = b /\ b64_minus mode_NE a b = b /\ b64_mult mode_NE a b = b /\ b64_div mode_NE a b = b.
Proof. destruct b; try discriminate. intros Ha _. destruct a; try discriminate Ha; repeat split. Qed.

(* NaN in, the same NaN out: the first NaN operand is returned unchanged (sign and payload kept,
   a signalling NaN is NOT quieted) *)
Lemma nan_propagates x y : f64_pat x -> f64_pat y -> f64_is_nan x || f64_is_nan y = true ->
  let r := if f64_is_nan x then x else y in
  fl_add x y = r /\ fl_sub x y = r /\ fl_mul x y = r /\ fl_div x y = r.
Proof.
  intros Hx Hy N. unfold fl_add, fl_sub, fl_mul, fl_div. rewrite !pat_id by assumption.
  rewrite <- (b64_is_nan x Hx), <- (b64_is_nan y Hy) in N.
  rewrite <- (b64_is_nan x Hx).
  destruct (bnanp (b64_of_bits x)) eqn:Nx; cbv zeta.
  - destruct (nan_l _ (b64_of_bits y) Nx) as (-> & -> & -> & ->).
    rewrite bits_round_trip by exact Hx. repeat split.
  - destruct (nan_r _ _ Nx N) as (-> & -> & -> & ->).
    rewrite bits_round_trip by exact Hy. repeat split.
Qed.

Definition f64_zero (s : bool) : Z := f64_sign_bit s.

Lemma b64_inf s : b64_of_bits (f64_inf s) = binf s.
Proof. destruct s; apply B2FF_inj; reflexivity. Qed.
Lemma b64_zero s : b64_of_bits (f64_zero s) = bzero s.
Proof. destruct s; apply B2FF_inj; reflexivity. Qed.
Lemma bits_inf s : bits_of_b64 (binf s) = f64_inf s.
Proof. destruct s; reflexivity. Qed.
Lemma bits_zero s : bits_of_b64 (bzero s) = f64_zero s.
Proof. destruct s; reflexivity. Qed.
Lemma inf_pat s : f64_pat (f64_inf s).
Proof. destruct s; split; [discriminate|reflexivity|discriminate|reflexivity]. Qed.
Lemma zero_pat s : f64_pat (f64_zero s).
Proof. destruct s; split; [discriminate|reflexivity|discriminate|reflexivity]. Qed.

Lemma inf_ops s y : f64_pat y -> f64_exp y <> 2047 ->
  fl_add (f64_inf s) y = f64_inf s /\ fl_add y (f64_inf s) = f64_inf s /\
  fl_sub (f64_inf s) y = f64_inf s /\ fl_sub y (f64_inf s) = f64_inf (negb s) /\
  fl_div (f64_inf s) y = f64_inf (xorb s (f64_neg y)) /\
  fl_div y (f64_inf s) = f64_zero (xorb (f64_neg y) s) /\
  (f64_is_zero y = false ->
   fl_mul (f64_inf s) y = f64_inf (xorb s (f64_neg y)) /\ fl_mul y (f64_inf s) = f64_inf (xorb (f64_neg y) s)).
Proof.
  intros Hy Fy. unfold fl_add, fl_sub, fl_mul, fl_div.
  rewrite !pat_id by (assumption || apply inf_pat). rewrite b64_inf.
  pose proof (b64_finite y Hy Fy) as E. destruct (f64_is_zero y); [|destruct E as (H & E)]; rewrite E.
  - repeat split; try (destruct s, (f64_neg y); reflexivity). all: discriminate.
  - repeat split; destruct s, (f64_neg y); reflexivity.
Qed.

Lemma div_by_zero x y : f64_pat x -> f64_pat y -> f64_exp x <> 2047 -> f64_is_zero x = false -> f64_is_zero y = true ->
  fl_div x y = f64_inf (xorb (f64_neg x) (f64_neg y)).
Proof.
  intros Hx Hy Fx Nx Zy. unfold fl_div. rewrite !pat_id by assumption.
  assert (Fy : f64_exp y <> 2047) by (rewrite (is_zero_fields y Hy) in Zy; lia).
  pose proof (b64_finite x Hx Fx) as Ex. pose proof (b64_finite y Hy Fy) as Ey.
  rewrite Nx in Ex. rewrite Zy in Ey. destruct Ex as (H & Ex).
  rewrite Ex, Ey. destruct (f64_neg x), (f64_neg y); reflexivity.
Qed.

(* the payload of a NaN pattern is kept as it is (no canonicalisation, no quieting) *)
Lemma nan_payload p : f64_pat p -> f64_is_nan p = true ->
  exists H, b64_of_bits p = B754_nan 53 1024 (f64_neg p) (Z.to_pos (f64_man p)) H.
Proof.
  intros Hp N. pose proof (b64_FF p Hp) as F. unfold ff_of in F. unfold f64_is_nan in N.
  destruct (f64_decompose p Hp) as (_ & He & Hm).
  destruct (Z.eqb_spec (f64_exp p) 2047) as [E|E]; [|discriminate N].
  replace (f64_exp p =? 0) with false in F by lia.
  destruct (Z.eqb_spec (f64_man p) 0) as [M|M]; [discriminate N|].
  apply B2FF_nan. exact F.
Qed.

(* the hypotheses of add_correct on concrete operands: 1.5 + 2.25 and DBL_MAX + DBL_MAX *)
Lemma nonvacuous_add :
  let a := 0x3ff8000000000000 in let b := 0x4002000000000000 in let m := 0x7fefffffffffffff in
  f64_pat a /\ f64_pat b /\ f64_pat m /\ f64_exp a <> 2047 /\ f64_exp b <> 2047 /\ f64_exp m <> 2047 /\
  (Rabs (rnd64 (fval a + fval b)) < bpow radix2 1024)%R /\
  (bpow radix2 1024 <= Rabs (rnd64 (fval m + fval m)))%R.
Proof.
  cbv zeta.
  assert (Pa : f64_pat 0x3ff8000000000000) by (unfold f64_pat; cbn; lia).
  assert (Pb : f64_pat 0x4002000000000000) by (unfold f64_pat; cbn; lia).
  assert (Pm : f64_pat 0x7fefffffffffffff) by (unfold f64_pat; cbn; lia).
  assert (Fa : f64_exp 0x3ff8000000000000 <> 2047) by (vm_compute; discriminate).
  assert (Fb : f64_exp 0x4002000000000000 <> 2047) by (vm_compute; discriminate).
  assert (Fm : f64_exp 0x7fefffffffffffff <> 2047) by (vm_compute; discriminate).
  repeat (split; [assumption|]). split.
  - destruct (Rlt_or_le (Rabs (rnd64 (fval 0x3ff8000000000000 + fval 0x4002000000000000))) (bpow radix2 1024)) as [H|H]; [exact H|].
    exfalso. destruct (add_correct _ _ Pa Pb Fa Fb) as (_ & O). destruct (O H) as (O1 & _).
    vm_compute in O1. discriminate O1.
  - destruct (Rlt_or_le (Rabs (rnd64 (fval 0x7fefffffffffffff + fval 0x7fefffffffffffff))) (bpow radix2 1024)) as [H|H]; [|exact H].
    exfalso. destruct (add_correct _ _ Pm Pm Fm Fm) as (N & _). destruct (N H) as (_ & N1 & _).
    apply N1. vm_compute. reflexivity.
Qed.
