(* MetaClose.v (C11): opening and closing a meta context, completely.

   [context_open MMeta] pushes the current context and installs marks at the current lengths
   (the data-stack mark is inherited when the enclosing context is a meta context too).

   [context_close] of a meta context runs the pending code and then produces [close_state]:
   code and debug map cut back to the code mark, the dictionary purged from the dictionary
   mark on, and - unless the enclosing context is a meta context that is not inside a word
   definition - one load-literal instruction per value above the data-stack mark, top of
   stack first; finally the enclosing context is put back. *)
From Xeh Require Import Model.Prelude Model.Bits Model.Codec Model.Cell Model.Lexer Model.Fmt
                        Model.Vm Model.Words Model.Build.
From Xeh Require Import Proofs.VmFrame Proofs.VmLimits Proofs.NoPanic Proofs.NoPanicBuild Proofs.NoPanicFlow
                        Proofs.MetaBase Proofs.MetaPurge.
Local Notation length := List.length.
Local Open Scope list_scope.

Definition open_ctx (s : state) : ctx :=
  mkctx (if mode_eqb (cmode (cx s)) MMeta then ds_len (cx s) else length (ds s))
        (length (code s)) (length (rs s)) (length (flows s)) (length (loops s))
        (length (special s)) (length (dict s)) (length (code s)) MMeta.

Definition opened (s : state) : state := set_nested (set_cx s (open_ctx s)) (cx s :: nested s).

Lemma context_open_meta s : context_open MMeta s = ROk tt (opened s).
Proof. reflexivity. Qed.

Lemma opened_meta s : is_meta (opened s).
Proof. reflexivity. Qed.

(* the data-stack mark of the new context: inherited inside a meta context *)
Lemma open_ctx_ds_meta s : is_meta s -> ds_len (open_ctx s) = ds_len (cx s).
Proof. unfold is_meta, open_ctx. intros ->. reflexivity. Qed.

Lemma open_ctx_ds_outside s : cmode (cx s) <> MMeta -> ds_len (open_ctx s) = length (ds s).
Proof. intros H. unfold open_ctx. cbn [ds_len]. rewrite (not_meta_eqb _ H). reflexivity. Qed.

Lemma opened_wfm s : wfm s -> wfm (opened s).
Proof.
  intros (H1 & _). unfold wfm, opened, open_ctx.
  cbn [set_nested set_cx cx ds rs loops special flows ds_len rs_len ls_len ss_ptr fs_len].
  repeat split; try lia. destruct (mode_eqb _ _); lia.
Qed.

Definition loc_of (s : state) : tokref :=
  match last_tok s with Some t => t | None => (0, 0, 0)%nat end.

Definition log_pops (res : list cell) (l : option (list rstep)) : option (list rstep) :=
  match l with Some x => Some (rev (map RPushData res) ++ x) | None => None end.

(* the values above the data-stack mark, top of stack first *)
Definition results (s : state) : list cell := firstn (length (ds s) - ds_len (cx s)) (ds s).

Definition emitted (s : state) : state :=
  mkstate (dict s) (heap s)
          (code s ++ map load_value_opcode (results s))
          (dbg s ++ repeat (loc_of s) (length (results s)))
          (sources s) (input s) (lastn (ds_len (cx s)) (ds s)) (rs s) (flows s) (loops s) (special s)
          (cx s) (nested s) (meter s) (insn_limit s) (heap_limit s) (stack_limit s)
          (log_pops (results s) (rlog s)) (out s) (last_tok s) (stopping s).

Lemma state_eta s :
  s = mkstate (dict s) (heap s) (code s) (dbg s) (sources s) (input s) (ds s) (rs s) (flows s)
              (loops s) (special s) (cx s) (nested s) (meter s) (insn_limit s) (heap_limit s)
              (stack_limit s) (rlog s) (out s) (last_tok s) (stopping s).
Proof. destruct s. reflexivity. Qed.

Lemma emitted_none s : length (ds s) <= ds_len (cx s) -> emitted s = s.
Proof.
  intros H. unfold emitted, results. replace (length (ds s) - ds_len (cx s)) with 0 by lia.
  cbn [firstn map repeat length]. rewrite !app_nil_r. rewrite lastn_all by lia.
  unfold log_pops. cbn [map rev app]. rewrite (state_eta s) at 22.
  destruct (rlog s); reflexivity.
Qed.

Lemma code_emit_aligned op s : length (dbg s) = length (code s) ->
  code_emit op s = ROk tt (set_code (set_dbg s (dbg s ++ [loc_of s])) (code s ++ [op])).
Proof.
  intros H. unfold code_emit. cbv zeta. rewrite H, Nat.ltb_irrefl, Nat.eqb_refl. reflexivity.
Qed.

Lemma state_ext (a b : state) :
  dict a = dict b -> heap a = heap b -> code a = code b -> dbg a = dbg b -> sources a = sources b ->
  input a = input b -> ds a = ds b -> rs a = rs b -> flows a = flows b -> loops a = loops b ->
  special a = special b -> cx a = cx b -> nested a = nested b -> meter a = meter b ->
  insn_limit a = insn_limit b -> heap_limit a = heap_limit b -> stack_limit a = stack_limit b ->
  rlog a = rlog b -> out a = out b -> last_tok a = last_tok b -> stopping a = stopping b -> a = b.
Proof. destruct a, b. cbn. intros. subst. reflexivity. Qed.

Lemma add_rstep_eq r s :
  add_rstep r s = set_rlog s (match rlog s with Some l => Some (r :: l) | None => None end).
Proof. unfold add_rstep. destruct (rlog s) eqn:E; [reflexivity|]. destruct s. cbn in *. subst. reflexivity. Qed.

Ltac proj_simpl :=
  cbn [set_code set_dbg set_ds set_rlog set_dict set_cx dict heap code dbg sources input ds rs flows loops
       special cx nested meter insn_limit heap_limit stack_limit rlog out last_tok stopping].

Lemma emit_results_spec : forall k fuel s,
  length (ds s) - ds_len (cx s) = k -> k < fuel ->
  ds_len (cx s) <= length (ds s) -> length (dbg s) = length (code s) ->
  emit_results fuel s = ROk tt (emitted s).
Proof.
  induction k as [|k IH]; intros fuel s Hk Hf Hl Hd.
  - destruct fuel as [|f]; [lia|]. cbn [emit_results].
    replace (ds_len (cx s) <? length (ds s))%nat with false by (symmetry; apply Nat.ltb_ge; lia).
    rewrite emitted_none by lia. reflexivity.
  - destruct fuel as [|f]; [lia|]. cbn [emit_results].
    assert (Hlt : ds_len (cx s) < length (ds s)) by lia.
    replace (ds_len (cx s) <? length (ds s))%nat with true by (symmetry; apply Nat.ltb_lt; exact Hlt).
    unfold pop_data. destruct (ds s) as [|v r] eqn:Eds; [cbn [length] in Hlt; lia|].
    replace (ds_len (cx s) <? length (v :: r))%nat with true by (symmetry; apply Nat.ltb_lt; exact Hlt).
    rewrite add_rstep_eq. proj_simpl.
    set (s1 := set_rlog (set_ds s r) _).
    unfold code_emit_value. rewrite code_emit_aligned by (unfold s1; proj_simpl; exact Hd).
    set (s2 := set_code _ _).
    cbn [length] in Hk, Hlt.
    assert (E2 : emit_results f s2 = ROk tt (emitted s2)).
    { apply (IH f s2); unfold s2, s1; proj_simpl; try lia.
      rewrite !app_length, Hd. reflexivity. }
    rewrite E2. f_equal.
    assert (Hr : results s = v :: results s2).
    { unfold results, s2, s1. proj_simpl. rewrite Eds. cbn [length].
      replace (S (length r) - ds_len (cx s)) with (S (length r - ds_len (cx s))) by lia. reflexivity. }
    apply state_ext; unfold emitted; rewrite ?Hr; unfold s2, s1, loc_of; proj_simpl; try reflexivity.
    + cbn [map]. rewrite <- app_assoc. reflexivity.
    + cbn [length repeat]. rewrite <- app_assoc. reflexivity.
    + rewrite Eds. symmetry. apply lastn_cons. lia.
    + unfold log_pops. destruct (rlog s); [|reflexivity]. cbn [map rev]. rewrite <- app_assoc. reflexivity.
Qed.

Definition truncated (s : state) : state :=
  set_dbg (set_code s (firstn (cs_len (cx s)) (code s))) (firstn (cs_len (cx s)) (dbg s)).

Definition purged (s : state) : state :=
  set_dict s (firstn (di_len (cx s)) (dict s) ++ purge_all (skipn (di_len (cx s)) (dict s))).

Definition building_fun (s : state) (prev : ctx) : bool :=
  match firstn (length (flows s) - fs_len prev) (flows s) with FFun _ _ _ :: _ => true | _ => false end.

(* are the results compiled into the enclosing code? *)
Definition emit_flag (s : state) (prev : ctx) : bool :=
  negb (mode_eqb (cmode prev) MMeta) || building_fun s prev.

Definition close_state (s1 : state) (prev : ctx) : state :=
  set_cx (if emit_flag s1 prev then emitted (purged (truncated s1)) else purged (truncated s1)) prev.

(* what the machine state must satisfy when the block's code has run *)
Definition closable (s1 : state) : Prop :=
  cd_inv s1 /\ cs_len (cx s1) <= length (code s1) /\ di_len (cx s1) <= length (dict s1) /\
  ds_len (cx s1) <= length (ds s1).

Section Close3.
  Variable fo : fops.
  Variable rf : nat.

  (* [context_close] by the mode of the context that is closed *)
  Lemma context_close_nil s : nested s = [] -> context_close fo rf s = RErr EContext None s.
  Proof. intros En. unfold context_close. rewrite En. reflexivity. Qed.

  Lemma context_close_compile s prev rest : nested s = prev :: rest -> cmode (cx s) = MCompile ->
    context_close fo rf s = ROk tt (set_cx (set_nested s rest) prev).
  Proof.
    intros En Hm. unfold context_close. rewrite En. cbv zeta.
    change (cx (set_nested s rest)) with (cx s). rewrite Hm. reflexivity.
  Qed.

  Lemma context_close_eval s prev rest : nested s = prev :: rest -> cmode (cx s) = MEval ->
    context_close fo rf s =
    let fin s1 := set_cx s1 (if mode_eqb (cmode prev) MEval then set_ctx_ip prev (ip s1) else prev) in
    match run_m fo rf (set_nested s rest) with
    | ROk _ s1 => ROk tt (fin s1)
    | RErr k p s1 => RErr k p (fin s1)
    | RPanic => RPanic
    | RUnsup => RUnsup
    end.
  Proof.
    intros En Hm. unfold context_close. rewrite En. cbv zeta.
    change (cx (set_nested s rest)) with (cx s). rewrite Hm. reflexivity.
  Qed.

  Lemma context_close_meta_run s prev rest : nested s = prev :: rest -> is_meta s ->
    match run_m fo rf (set_nested s rest) with
    | ROk _ s1 => closable s1 -> context_close fo rf s = ROk tt (close_state s1 prev)
    | RErr k p s1 => context_close fo rf s = RErr k p (set_nested s1 (prev :: nested s1))
    | RPanic => context_close fo rf s = RPanic
    | RUnsup => context_close fo rf s = RUnsup
    end.
  Proof.
    intros En Hm. unfold context_close. rewrite En. cbv zeta.
    change (cx (set_nested s rest)) with (cx s). unfold is_meta in Hm. rewrite Hm.
    destruct (run_m fo rf (set_nested s rest)) as [[] s1|k p s1| |]; try reflexivity.
    intros (Hcd & Hcs & Hdi & Hds).
    unfold close_state, emit_flag, building_fun.
    change (set_dbg (set_code s1 (firstn (cs_len (cx s1)) (code s1))) (firstn (cs_len (cx s1)) (dbg s1)))
      with (truncated s1).
    assert (Ep : set_dict (truncated s1)
                   (purge_dict (S (length (dict (truncated s1)))) (dict (truncated s1)) (di_len (cx s1)))
                 = purged (truncated s1)).
    { unfold purged. change (dict (truncated s1)) with (dict s1). change (cx (truncated s1)) with (cx s1).
      rewrite purge_dict_full by exact Hdi. reflexivity. }
    rewrite Ep. change (flows (purged (truncated s1))) with (flows s1).
    destruct (negb (mode_eqb (cmode prev) MMeta) ||
              match firstn (length (flows s1) - fs_len prev) (flows s1) with
              | FFun _ _ _ :: _ => true | _ => false end); [|reflexivity].
    rewrite (emit_results_spec (length (ds s1) - ds_len (cx s1))); [reflexivity|reflexivity| | |].
    - change (ds (purged (truncated s1))) with (ds s1). lia.
    - exact Hds.
    - unfold cd_inv in Hcd. unfold purged, truncated. cbn [set_dict set_dbg set_code dbg code].
      rewrite !firstn_length. lia.
  Qed.

End Close3.

Section Fields.
  Variable s1 : state.
  Variable prev : ctx.
  Let c := cx s1.
  Let res := if emit_flag s1 prev then results s1 else [].

  Lemma close_cx : cx (close_state s1 prev) = prev.
  Proof. unfold close_state. reflexivity. Qed.
  Lemma close_nested : nested (close_state s1 prev) = nested s1.
  Proof. unfold close_state. destruct (emit_flag s1 prev); reflexivity. Qed.
  Lemma close_heap : heap (close_state s1 prev) = heap s1.
  Proof. unfold close_state. destruct (emit_flag s1 prev); reflexivity. Qed.
  Lemma close_code :
    code (close_state s1 prev) = firstn (cs_len c) (code s1) ++ map load_value_opcode res.
  Proof.
    unfold close_state, res. destruct (emit_flag s1 prev); [reflexivity|].
    cbn [map]. rewrite app_nil_r. reflexivity.
  Qed.
  Lemma close_dbg :
    dbg (close_state s1 prev) = firstn (cs_len c) (dbg s1) ++ repeat (loc_of s1) (length res).
  Proof.
    unfold close_state, res. destruct (emit_flag s1 prev); [reflexivity|].
    cbn [length repeat]. rewrite app_nil_r. reflexivity.
  Qed.
  Lemma close_dict :
    dict (close_state s1 prev) = firstn (di_len c) (dict s1) ++ purge_all (skipn (di_len c) (dict s1)).
  Proof. unfold close_state. destruct (emit_flag s1 prev); reflexivity. Qed.
  Lemma close_ds :
    ds (close_state s1 prev) = if emit_flag s1 prev then lastn (ds_len c) (ds s1) else ds s1.
  Proof. unfold close_state. destruct (emit_flag s1 prev); reflexivity. Qed.
  Lemma close_rlog : rlog (close_state s1 prev) = log_pops res (rlog s1).
  Proof.
    unfold close_state, res. destruct (emit_flag s1 prev); [reflexivity|].
    change (rlog (set_cx (purged (truncated s1)) prev)) with (rlog s1).
    unfold log_pops. cbn [map rev app]. destruct (rlog s1); reflexivity.
  Qed.
  Lemma close_rest :
    rs (close_state s1 prev) = rs s1 /\ flows (close_state s1 prev) = flows s1 /\
    loops (close_state s1 prev) = loops s1 /\ special (close_state s1 prev) = special s1 /\
    sources (close_state s1 prev) = sources s1 /\ input (close_state s1 prev) = input s1 /\
    meter (close_state s1 prev) = meter s1 /\ insn_limit (close_state s1 prev) = insn_limit s1 /\
    heap_limit (close_state s1 prev) = heap_limit s1 /\ stack_limit (close_state s1 prev) = stack_limit s1 /\
    out (close_state s1 prev) = out s1 /\ last_tok (close_state s1 prev) = last_tok s1 /\
    stopping (close_state s1 prev) = stopping s1.
  Proof. unfold close_state. destruct (emit_flag s1 prev); repeat split. Qed.
End Fields.
