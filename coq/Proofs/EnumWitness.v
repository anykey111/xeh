(* EnumWitness.v (C10 / C11 / C15, `enum ... endenum`): the sources and states of the concrete
   instances in Props/C10_enum.v, C11_enum.v and C15_enum.v (the places where the enum builder
   forces a hypothesis, a repaired one, what a well-formed enum does), and the witness that an
   enum word is none of the three kinds of token step. *)
From Xeh Require Import Model.Prelude Model.Bits Model.Codec Model.Cell Model.Lexer Model.Fmt
                        Model.Vm Model.Words Model.Build Model.Boot.
From Xeh Require Import Proofs.VmFrame Proofs.VmLimits Proofs.NoPanic Proofs.NoPanicBuild Proofs.NoPanicFlow
                        Proofs.UnwindLists Proofs.UnwindFrame Proofs.UnwindInv Proofs.UnwindBuild Proofs.UnwindMain
                        Proofs.UnwindSimMain Proofs.UnwindWitness
                        Proofs.MetaBase Proofs.MetaPurge Proofs.MetaBuild Proofs.MetaClose Proofs.MetaPrefix
                        Proofs.MetaPrefixBuild Proofs.MetaPrefixWords Proofs.MetaBlock Proofs.MetaSeg
                        Proofs.MetaInline Proofs.MetaFindings.
Local Notation length := List.length.
Local Open Scope string_scope.
Local Open Scope list_scope.

(* the former finding E2 / D37 (C10): `endenum` runs code left in the enum's outer context *)
(* `#)` closes the inner block of the enum; `1 0 /` is then compiled in the outer meta context
   (not run: the enum entry is pending there); `#(` opens a block again; `endenum` closes it,
   pops the enum entry and closes the outer context, whose close runs `1 0 /`, which fails.
   Before the repair of context_close the failing close had popped the context stack without
   restoring the context, and the unwinding cut code and dictionary at the marks of the enum's
   context: the definition of f survived the rejected source.  Now the popped context is put
   back, the watch [calls_bad] does not report the source, and the rejected source is unwound
   completely. *)
Definition e2_src : string := ": f 1 ; 5 enum E #) 1 0 / #( endenum".

(* E3 (C15): the data-stack check of `endenum` depends on the drive mode *)
Definition e3_s : state := wit_state (wit_eval "7" boot).
Definition e3_src : string := "#( endenum".

(* C11: an enum word is not a token step of the three kinds *)
(* one token of build1, whatever the token *)
Definition rawstep (f : nat) : M unit :=
  pre_run fo0 1000 ;;
  let* t := get_token pr0 in
  match t with BEnd => fail EOther None | _ => tok_act fo0 pr0 1000 f t end.

Definition en_t0 : state := st_of ((context_open MEval ;; intern_source "#( enum E : A endenum #)") boot).
Definition en_ta : state := match get_token pr0 en_t0 with ROk _ s => s | _ => boot end.
Definition en_o1 : state := st_of (rawstep 10 en_t0).     (* after #(      : opened en_ta *)
Definition en_o2 : state := st_of (rawstep 10 en_o1).     (* after enum E  *)
Definition en_o3 : state := st_of (rawstep 10 en_o2).     (* after : A     *)
Definition en_o4 : state := st_of (rawstep 10 en_o3).     (* after endenum *)

Theorem enum_step_not_classified :
  Pre2 (length (code en_ta)) (length (dict en_ta)) en_o1 /\
  rawstep 10 en_o1 = ROk tt en_o2 /\ rawstep 10 en_o2 = ROk tt en_o3 /\ rawstep 10 en_o3 = ROk tt en_o4 /\
  depth en_o2 = S (S (depth en_o1)) /\ depth en_o3 = depth en_o2 /\ depth en_o4 = depth en_o1 /\
  ~ (R2 (length (code en_ta)) (length (dict en_ta)) en_o1 en_o2 \/
     (exists s2, R2 (length (code en_ta)) (length (dict en_ta)) en_o1 s2 /\ en_o2 = opened s2) \/
     closes fo0 1000 (length (code en_ta)) (length (dict en_ta)) en_o1 en_o2).
Proof.
  assert (E1 : en_o1 = opened en_ta) by (vm_compute; reflexivity).
  assert (W : wfm en_ta) by (unfold wfm; vm_compute; repeat split; lia).
  assert (C : cd_inv en_ta) by (unfold cd_inv; vm_compute; lia).
  assert (P : Pre2 (length (code en_ta)) (length (dict en_ta)) en_o1) by (rewrite E1; apply Pre2_opened; assumption).
  assert (D2 : depth en_o2 = S (S (depth en_o1))) by (vm_compute; reflexivity).
  split; [exact P|]. split; [vm_compute; reflexivity|]. split; [vm_compute; reflexivity|]. split; [vm_compute; reflexivity|].
  split; [exact D2|]. split; [vm_compute; reflexivity|]. split; [vm_compute; reflexivity|].
  intros [H|[(s2 & H & E)|H]].
  - pose proof (R2_depth _ _ _ _ H). lia.
  - rewrite E, opened_depth, (R2_depth _ _ _ _ H) in D2. lia.
  - pose proof (closes_depth fo0 1000 _ _ _ _ P H). lia.
Qed.

(* on the boot state: the build succeeds; nothing is compiled or left on any stack; contexts,
   heap and flows are untouched; the dictionary gains exactly the constants (in the order the
   purge of the two field words leaves them: swap_remove), and `:` and `=` are the boot words
   again *)
Definition enum_facts (src : string) (consts : list dentry) : Prop :=
  match ev src boot with
  | ROk _ s =>
    dict s = dict boot ++ consts /\ code s = code boot /\ dbg s = dbg boot /\ heap s = heap boot /\
    ds s = ds boot /\ rs s = rs boot /\ loops s = loops boot /\ special s = special boot /\
    flows s = flows boot /\ nested s = nested boot /\ cx s = cx boot /\ input s = input boot /\
    dict_entry s ":" = dict_entry boot ":" /\ dict_entry s "=" = dict_entry boot "="
  | _ => False
  end.

