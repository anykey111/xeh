(* CursorSeq.v: open-bitstr / close-bitstr on the invariant, sequences of parsing words,
   and the LIFO discipline of the stash (C06 (c) (d)). *)
From Xeh Require Import Model.Prelude Model.Bits Model.Codec Model.Cell Model.Lexer Model.Fmt
                        Model.Vm Model.Words.
From Xeh Require Import Proofs.VmStep Proofs.CursorDefs Proofs.CursorProofs Proofs.CursorWords
                        Proofs.CursorTable Proofs.CursorInv.
From Coq Require Import ZifyBool ZifyNat ZifyN.
Local Notation length := List.length.

Definition open_post (s s' : state) : Prop :=
  exists inp off c rest b v e,
    cursor s inp off /\ h_stash (heap s) = Some v /\ ds s = c :: rest /\ value c = CBits b /\
    cur_inv s' /\ cursor s' b (Z.of_nat (cstart b)) /\ h_stash (heap s') = Some (v ++ [e]) /\
    entry_input e = Some inp /\ entry_offset e = Some off /\ ds s' = rest.

Definition close_post (s s' : state) : Prop :=
  exists v e b o,
    h_stash (heap s) = Some (v ++ [e]) /\ entry_input e = Some b /\ entry_offset e = Some o /\
    cur_inv s' /\ cursor s' b o /\ h_stash (heap s') = Some v /\ ds s' = ds s.

Lemma open_inv : forall s, cur_inv s ->
  behaves (w_open_bitstr s) (open_post s) (fun _ => plain_step s).
Proof.
  intros s Hinv. pose proof Hinv as ((inp & off & Hcur) & (v & Hv & Hvok) & Hds).
  apply wp_behaves. eapply wp_conseq; [apply (open_word s inp off Hcur v Hv)| |auto|auto].
  - intros u s' (c & rest & b & e & Hd & Hc & Hd' & Hh & He1 & He2 & Hs).
    rewrite Hd in Hds. destruct (Forall_inv Hds b Hc) as (Hbw & Hbb).
    destruct (cursor_heap3 s s' inp off _ _ (v ++ [e]) b _ Hcur Hs Hh eq_refl eq_refl Hbw Hbb)
      as (Hcur' & Hst'); [destruct Hbw; lia|].
    exists inp, off, c, rest, b, v, e.
    split; [exact Hcur|]. split; [exact Hv|]. split; [exact Hd|]. split; [exact Hc|]. split; [|auto 6].
    split; [eauto|]. split; [|rewrite Hd'; exact (Forall_inv_tail Hds)]. exists (v ++ [e]). split; [exact Hst'|].
    apply Forall_app. split; [exact Hvok|]. constructor; [|constructor].
    destruct (hcursor_range _ _ _ (proj2 Hcur)). exists inp, off. split; [exact He1|]. split; [exact He2|].
    split; [exact (hcursor_wf _ _ _ (proj2 Hcur))|auto].
  - intros k p s'. apply (frame_step 1 s s' Hinv).
Qed.

Lemma close_inv : forall s, cur_inv s ->
  behaves (w_close_bitstr s) (close_post s) (fun _ s' => h_stash (heap s) = Some [] /\ plain_step s s').
Proof.
  intros s Hinv. pose proof Hinv as ((inp & off & Hcur) & (v & Hv & Hvok) & Hds).
  apply wp_behaves. eapply wp_conseq; [apply (close_word s inp off Hcur v Hv)| |auto|auto].
  - intros u s' (v' & e & Hve & Hd' & Hh & Hs). subst v.
    apply Forall_app in Hvok. destruct Hvok as (Hv'ok & He). inversion He as [|? ? Heok _]; subst.
    destruct Heok as (b & o & Hei & Heo & Hbw & Hbb & Hbr).
    destruct (cursor_heap3 s s' inp off _ _ v' b o Hcur Hs Hh) as (Hcur' & Hst'); auto.
    { unfold entry_input in Hei. destruct (value e); try discriminate. injection Hei as ->. reflexivity. }
    { unfold entry_offset in Heo. destruct (get_tag e offset_lit) as [oc|]; [|discriminate].
      destruct (value oc); try discriminate. injection Heo as ->. reflexivity. }
    exists v', e, b, o. split; [exact Hv|]. split; [exact Hei|]. split; [exact Heo|]. split; [|auto].
    split; [eauto|]. split; [eauto|]. rewrite Hd'. exact Hds.
  - intros k p s' (Hnil & Hf). subst v. split; [exact Hv|]. apply (frame_step 0 s s' Hinv Hf).
Qed.

Local Open Scope string_scope.

Inductive cop := Lit (c : cell) | Word (w : string).

Definition run_cop (fo : fops) (op : cop) : M unit :=
  match op with
  | Lit c => push_data c
  | Word w => match native_fn fo w with Some f => f | None => unsup end
  end.

Definition cursor_names : list string :=
  Eval vm_compute in map fst (cursor_table (mkfops Z.add Z.add Z.add Z.add Z.add Z.add Z.add
                                                   Z.succ Z.succ Z.succ Z.succ Z.succ)).

Definition cop_ok (op : cop) : Prop :=
  match op with Lit c => cell_ok c | Word w => In w cursor_names end.

Inductive ev := EvPlain | EvOpen | EvClose.

Definition classify (op : cop) : ev :=
  match op with
  | Lit _ => EvPlain
  | Word w => if String.eqb w "open-bitstr" then EvOpen
              else if String.eqb w "close-bitstr" then EvClose else EvPlain
  end.

(* run a sequence the way the test harness does: after an error go on from the state the
   failing word left behind.  The trace records, per step, its effect on the stash: a failed
   step is [EvPlain] whatever the word *)
Fixpoint run_seq (fo : fops) (l : list cop) (s : state) : option (list ev * state) :=
  match l with
  | [] => Some ([], s)
  | op :: r =>
    match run_cop fo op s with
    | ROk _ s1 =>
      match run_seq fo r s1 with Some (t, s') => Some (classify op :: t, s') | None => None end
    | RErr _ _ s1 =>
      match run_seq fo r s1 with Some (t, s') => Some (EvPlain :: t, s') | None => None end
    | _ => None
    end
  end.

Inductive bal : list ev -> Prop :=
| bal_nil : bal []
| bal_plain : forall t, bal t -> bal (EvPlain :: t)
| bal_nest : forall t1 t2, bal t1 -> bal t2 -> bal (EvOpen :: t1 ++ EvClose :: t2).

Lemma table_find_word fo w : In w cursor_names ->
  exists f, native_fn fo w = Some f /\
            ((w = "open-bitstr" /\ f = w_open_bitstr) \/ (w = "close-bitstr" /\ f = w_close_bitstr) \/
             (classify (Word w) = EvPlain /\ inv_plain f)).
Proof.
  intros Hin. change cursor_names with (map fst (cursor_table fo)) in Hin. apply in_map_iff in Hin.
  destruct Hin as ([w' f] & Hw & Hin). cbn [fst] in Hw. subst w'. exists f.
  pose proof (cursor_table_native fo) as Hnat. rewrite Forall_forall in Hnat.
  split; [apply (Hnat _ Hin)|].
  unfold cursor_table in Hin. destruct Hin as [Heq|[Heq|Hin]].
  - injection Heq as <- <-. auto.
  - injection Heq as <- <-. auto.
  - right. right. split.
    + assert (Hp : forallb (fun nw => negb (String.eqb (fst nw) "open-bitstr") &&
                                      negb (String.eqb (fst nw) "close-bitstr")) (plain_table fo) = true)
        by reflexivity.
      rewrite forallb_forall in Hp. specialize (Hp _ Hin). cbn [fst] in Hp. unfold classify.
      destruct (String.eqb w "open-bitstr"); [discriminate|].
      destruct (String.eqb w "close-bitstr"); [discriminate|]. reflexivity.
    + pose proof (plain_table_ok fo) as Hi. rewrite Forall_forall in Hi. apply plain_ok_inv, (Hi _ Hin).
Qed.

Lemma lit_step c s : cur_inv s -> cell_ok c ->
  behaves (push_data c s) (plain_step s) (fun _ => plain_step s).
Proof.
  intros Hinv Hc. pose proof Hinv as ((inp & off & Hcur) & _).
  apply wp_behaves. eapply wp_push_data; [apply st_init| |].
  - intros _ s' (Hd & Hh & Hs). apply (plain_post_step s inp off s' Hinv Hcur).
    split; [exact Hs|]. split; [|left; exact Hh].
    exists [], [c], (ds s). split; [reflexivity|]. split; [exact Hd|]. constructor; [exact Hc|constructor].
  - intros _. apply (frame_step 0 s s Hinv). apply (frame_intro s 0 s (ds s) []); auto using st_init.
Qed.

Definition ev_post (e : ev) (s s' : state) : Prop :=
  match e with
  | EvPlain => plain_step s s'
  | EvOpen => open_post s s'
  | EvClose => close_post s s'
  end.

Lemma ev_post_inv e s s' : ev_post e s s' -> cur_inv s'.
Proof.
  destruct e.
  - intros (H & _). exact H.
  - intros (inp & off & c & rest & b & v & e & _ & _ & _ & _ & H & _). exact H.
  - intros (v & e & b & o & _ & _ & _ & H & _). exact H.
Qed.

Definition step_post (op : cop) (s s' : state) : Prop :=
  match classify op with
  | EvPlain => plain_step s s'
  | EvOpen => open_post s s'
  | EvClose => close_post s s'
  end.

Lemma step_cases fo op s : cur_inv s -> cop_ok op ->
  behaves (run_cop fo op s) (step_post op s) (fun _ => plain_step s).
Proof.
  intros Hinv Hok. destruct op as [c|w].
  - apply lit_step; auto.
  - cbn [cop_ok] in Hok. destruct (table_find_word fo w Hok) as (f & Hf & Hcase).
    unfold run_cop. rewrite Hf. destruct Hcase as [(-> & ->) | [(-> & ->) | (Hcl & Hip)]].
    + apply open_inv; auto.
    + eapply behaves_conseq; [apply close_inv; auto| |]; [auto|]. intros k s' (_ & H). exact H.
    + unfold step_post. rewrite Hcl. apply Hip. exact Hinv.
Qed.

Lemma step_post_inv op s s' : step_post op s s' -> cur_inv s'.
Proof. apply ev_post_inv. Qed.

Lemma step_ok_post fo op s u s1 : cur_inv s -> cop_ok op ->
  run_cop fo op s = ROk u s1 -> step_post op s s1.
Proof.
  intros Hinv Hop E. pose proof (step_cases fo op s Hinv Hop) as H. rewrite E in H. exact H.
Qed.

Lemma step_err_post fo op s k p s1 : cur_inv s -> cop_ok op ->
  run_cop fo op s = RErr k p s1 -> plain_step s s1.
Proof.
  intros Hinv Hop E. pose proof (step_cases fo op s Hinv Hop) as H. rewrite E in H. exact H.
Qed.

(* the first step of a run, by its trace entry; the equation says that the step does not
   depend on what follows *)
Lemma run_seq_step fo op r s e t s' : cur_inv s -> cop_ok op ->
  run_seq fo (op :: r) s = Some (e :: t, s') ->
  exists s1, run_seq fo r s1 = Some (t, s') /\ ev_post e s s1 /\
             forall r', run_seq fo (op :: r') s =
                        match run_seq fo r' s1 with Some (t', s'') => Some (e :: t', s'') | None => None end.
Proof.
  intros Hinv Hop Hrun. cbn [run_seq] in *.
  destruct (run_cop fo op s) as [u s1|k p s1| |] eqn:Eop; try discriminate;
    (destruct (run_seq fo r s1) as [[t0 s0]|] eqn:Er; [|discriminate]);
    injection Hrun as <- <- <-; exists s1; (split; [exact Er|]); (split; [|reflexivity]).
  - exact (step_ok_post fo op s u s1 Hinv Hop Eop).
  - exact (step_err_post fo op s k p s1 Hinv Hop Eop).
Qed.

(* (c) the invariant holds along every sequence; no sequence panics or leaves the model *)
Theorem seq_inv fo : forall l s, cur_inv s -> Forall cop_ok l ->
  exists t s', run_seq fo l s = Some (t, s') /\ cur_inv s'.
Proof.
  induction l as [|op r IH]; intros s Hinv Hok.
  - exists [], s. auto.
  - inversion Hok as [|? ? Hop Hr]; subst. cbn [run_seq].
    pose proof (step_cases fo op s Hinv Hop) as Hstep. unfold behaves in Hstep.
    destruct (run_cop fo op s) as [u s1|k p s1| |]; try contradiction.
    + apply step_post_inv in Hstep. destruct (IH s1 Hstep Hr) as (t & s' & Hrun & Hinv').
      rewrite Hrun. eauto.
    + destruct Hstep as (Hinv1 & _). destruct (IH s1 Hinv1 Hr) as (t & s' & Hrun & Hinv').
      rewrite Hrun. eauto.
Qed.

Lemma run_seq_inv fo : forall l s t s', cur_inv s -> Forall cop_ok l ->
  run_seq fo l s = Some (t, s') -> cur_inv s'.
Proof.
  intros l s t s' Hinv Hok Hrun. destruct (seq_inv fo l s Hinv Hok) as (t0 & s0 & Hrun0 & H0).
  rewrite Hrun in Hrun0. injection Hrun0 as <- <-. exact H0.
Qed.

Local Close Scope string_scope.

Lemma run_seq_nil fo l s s' : run_seq fo l s = Some ([], s') -> l = [] /\ s' = s.
Proof.
  destruct l as [|op r]; cbn [run_seq].
  - intros H. injection H as <-. auto.
  - destruct (run_cop fo op s) as [u s1|k p s1| |]; try discriminate;
      destruct (run_seq fo r s1) as [[t0 s0]|]; discriminate.
Qed.

Lemma run_seq_split fo : forall t1 t2 l s s', cur_inv s -> Forall cop_ok l ->
  run_seq fo l s = Some (t1 ++ t2, s') ->
  exists l1 l2 s1, l = l1 ++ l2 /\ run_seq fo l1 s = Some (t1, s1) /\ run_seq fo l2 s1 = Some (t2, s') /\
                   cur_inv s1 /\ Forall cop_ok l1 /\ Forall cop_ok l2.
Proof.
  induction t1 as [|e t1 IH]; intros t2 l s s' Hinv Hok Hrun.
  - exists [], l, s. cbn [app run_seq]. auto 10.
  - destruct l as [|op r]; [discriminate|]. inversion Hok as [|? ? Hop Hr]; subst.
    destruct (run_seq_step fo op r s e (t1 ++ t2) s' Hinv Hop Hrun) as (s1 & Hrun1 & Hp & Hhead).
    destruct (IH t2 r s1 s' (ev_post_inv _ _ _ Hp) Hr Hrun1)
      as (l1 & l2 & s2 & -> & H1 & H2 & Hinv2 & Hok1 & Hok2).
    exists (op :: l1), l2, s2. rewrite (Hhead l1), H1. auto 10.
Qed.

(* an open, a stretch that keeps the stash, a close: at that point input, offset and stash
   are what they were before the open *)
Lemma open_close fo t1 t2 l s s' :
  (forall l s s', cur_inv s -> Forall cop_ok l -> run_seq fo l s = Some (t1, s') ->
                  h_stash (heap s') = h_stash (heap s)) ->
  cur_inv s -> Forall cop_ok l -> run_seq fo l s = Some (EvOpen :: t1 ++ EvClose :: t2, s') ->
  exists l2 s3, run_seq fo l2 s3 = Some (t2, s') /\ cur_inv s3 /\ Forall cop_ok l2 /\
    h_input (heap s3) = h_input (heap s) /\ h_offset (heap s3) = h_offset (heap s) /\
    h_stash (heap s3) = h_stash (heap s).
Proof.
  intros Hkeep Hinv Hok Hrun.
  destruct l as [|op r]; [discriminate|]. inversion Hok as [|? ? Hop Hr]; subst.
  destruct (run_seq_step fo op r s _ _ s' Hinv Hop Hrun) as (s1 & Hrun1 & Hopen & _).
  pose proof (ev_post_inv _ _ _ Hopen) as Hinv1.
  destruct Hopen as (inp & off & c & rest & b & v & e & (_ & _ & Hi0 & Ho0 & _) & Hv & _ & _ & _ & _ & Hv1 &
                     He1 & He2 & _).
  destruct (run_seq_split fo t1 (EvClose :: t2) r s1 s' Hinv1 Hr Hrun1)
    as (l1 & l2 & s2 & -> & Hr1 & Hr2 & Hinv2 & Hok1 & Hok2).
  pose proof (Hkeep l1 s1 s2 Hinv1 Hok1 Hr1) as Hs2.
  destruct l2 as [|opc r2]; [discriminate|]. inversion Hok2 as [|? ? Hopc Hr2ok]; subst.
  destruct (run_seq_step fo opc r2 s2 _ _ s' Hinv2 Hopc Hr2) as (s3 & Hrun3 & Hclose & _).
  pose proof (ev_post_inv _ _ _ Hclose) as Hinv3.
  destruct Hclose as (v' & e' & b' & o' & Hv2 & He1' & He2' & _ & (_ & _ & Hi3 & Ho3 & _) & Hv3 & _).
  rewrite Hs2, Hv1 in Hv2. injection Hv2 as Hv2. apply app_inj_tail in Hv2. destruct Hv2 as (<- & <-).
  exists r2, s3. split; [exact Hrun3|]. split; [exact Hinv3|]. split; [exact Hr2ok|].
  split; [congruence|]. split; congruence.
Qed.

(* a balanced stretch leaves the input and the stash as they were (the offset may move) *)
Lemma bal_keeps fo : forall t, bal t -> forall l s s', cur_inv s -> Forall cop_ok l ->
  run_seq fo l s = Some (t, s') ->
  h_input (heap s') = h_input (heap s) /\ h_stash (heap s') = h_stash (heap s).
Proof.
  induction 1 as [|t Hb IH|t1 t2 Hb1 IH1 Hb2 IH2]; intros l s s' Hinv Hok Hrun.
  - apply run_seq_nil in Hrun. destruct Hrun as (_ & ->). auto.
  - destruct l as [|op r]; [discriminate|]. inversion Hok as [|? ? Hop Hr]; subst.
    destruct (run_seq_step fo op r s _ _ s' Hinv Hop Hrun) as (s1 & Hrun1 & (Hinv1 & Hi & Hs) & _).
    destruct (IH r s1 s' Hinv1 Hr Hrun1) as (Hi' & Hs'). split; congruence.
  - destruct (open_close fo t1 t2 l s s' (fun l s s' Hi Ho Hr => proj2 (IH1 l s s' Hi Ho Hr)) Hinv Hok Hrun)
      as (l2 & s3 & Hrun3 & Hinv3 & Hok3 & Hi3 & _ & Hs3).
    destruct (IH2 l2 s3 s' Hinv3 Hok3 Hrun3) as (Hi' & Hs'). split; congruence.
Qed.

(* (c) every parsing word, by name, keeps the invariant in every outcome *)
Theorem cursor_table_inv : forall fo,
  Forall (fun nw => forall s, cur_inv s -> behaves (snd nw s) cur_inv (fun _ => cur_inv))
         (cursor_table fo).
Proof.
  intro fo. unfold cursor_table. constructor; [|constructor].
  - cbn [snd]. intros s Hinv. eapply behaves_conseq; [apply open_inv; exact Hinv| |].
    + intros s' (inp & off & c & rest & b & v & e & _ & _ & _ & _ & H & _). exact H.
    + intros k s' (H & _). exact H.
  - cbn [snd]. intros s Hinv. eapply behaves_conseq; [apply close_inv; exact Hinv| |].
    + intros s' (v & e & b & o & _ & _ & _ & H & _). exact H.
    + intros k s' (_ & H & _). exact H.
  - pose proof (inv_plain_table fo) as H. eapply Forall_impl; [|exact H].
    intros nw Hp s Hinv. eapply behaves_conseq; [apply Hp; exact Hinv| |].
    + intros s' (H1 & _). exact H1.
    + intros k s' (H1 & _). exact H1.
Qed.
