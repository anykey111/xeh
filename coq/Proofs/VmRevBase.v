(* VmRevBase.v: the compositional notion of a reversible monadic program, proved for
   every logging primitive of Vm.v and closed under [bind]; the connection between the
   pure "undo" of a block of log entries and the real [rnext_loop]. *)
From Xeh Require Import Model.Prelude Model.Bits Model.Codec Model.Cell Model.Lexer Model.Fmt Model.Vm.
From Xeh Require Import Proofs.VmPrim.
Local Notation length := List.length.
Arguments Z.add : simpl never.
Arguments Z.sub : simpl never.
Arguments Z.mul : simpl never.
Arguments Z.ltb : simpl never.
Arguments Z.leb : simpl never.
Arguments Z.eqb : simpl never.
Arguments Z.of_nat : simpl never.
Arguments Z.to_nat : simpl never.
Arguments Nat.ltb : simpl never.
Arguments Nat.leb : simpl never.
Arguments Nat.sub : simpl never.

(* out, the log itself and the about_to_stop flag are set explicitly *)
Definition norm (s : state) (o : string) (l : option (list rstep)) (b : bool) : state :=
  set_stopping (set_out (set_rlog s l) o) b.

Definition is_setip (r : rstep) : bool := match r with RSetIp _ => true | _ => false end.
Definition is_over (r : rstep) : bool := match r with ROverData => true | _ => false end.

(* net effect of undoing one entry.  [reverse_changes ROverData] pops with the logging
   pop; the entry that pop adds is undone by the next iteration of [rnext_loop], so the
   net effect is the identity guarded by the check of the pop. *)
Definition undo1 (r : rstep) (s : state) : option state :=
  match r with
  | ROverData =>
    match ds s with
    | _ :: _ => if ds_len (cx s) <? length (ds s) then Some s else None
    | [] => None
    end
  | _ => match reverse_changes r s with ROk _ s' => Some s' | _ => None end
  end.

Fixpoint undo_list (es : list rstep) (s : state) : option state :=
  match es with
  | [] => Some s
  | r :: es' => match undo1 r s with Some s' => undo_list es' s' | None => None end
  end.

Lemma undo_list_app : forall a b s,
  undo_list (a ++ b) s = match undo_list a s with Some s' => undo_list b s' | None => None end.
Proof.
  induction a; intros; cbn [app undo_list]; auto.
  destruct (undo1 a s); auto.
Qed.

Definition nover (es : list rstep) : nat := length (filter is_over es).
Definition no_setip (es : list rstep) : Prop := forallb (fun r => negb (is_setip r)) es = true.

Lemma nover_app a b : nover (a ++ b) = nover a + nover b.
Proof. unfold nover. rewrite filter_app, app_length. auto. Qed.
Lemma no_setip_app a b : no_setip a -> no_setip b -> no_setip (a ++ b).
Proof. unfold no_setip. intros. rewrite forallb_app, H, H0. auto. Qed.

(* [R k s s']: s' is reached from s by logged changes only *)
Definition R (k : nat) (s s' : state) : Prop :=
  exists l0 es,
    rlog s = Some l0 /\ rlog s' = Some (es ++ l0) /\
    no_setip es /\ nover es <= k /\ wf_marks s' /\
    (forall o l b, undo_list es (norm s' o l b) = Some (norm s o l b)).

Lemma recording_some s : recording s = true -> exists l0, rlog s = Some l0.
Proof. unfold recording. destruct (rlog s); eauto; discriminate. Qed.

Lemma R_refl s : recording s = true -> wf_marks s -> R 0 s s.
Proof.
  intros H Hw. destruct (recording_some _ H) as [l0 Hl].
  exists l0, []. repeat split; auto; apply Hw.
Qed.

Lemma R_recording k s s' : R k s s' -> recording s' = true.
Proof. intros (l0 & es & _ & H & _). unfold recording. rewrite H. auto. Qed.
Lemma R_wf k s s' : R k s s' -> wf_marks s'.
Proof. intros (l0 & es & _ & _ & _ & _ & H & _). auto. Qed.

Lemma R_weaken k k' s s' : R k s s' -> k <= k' -> R k' s s'.
Proof.
  intros (l0 & es & H1 & H2 & H3 & H4 & H5 & H6) Hk.
  exists l0, es. repeat split; auto; try apply H5. lia.
Qed.

Lemma R_trans k1 k2 a b c : R k1 a b -> R k2 b c -> R (k1 + k2) a c.
Proof.
  intros (l0 & es1 & A1 & A2 & A3 & A4 & A5 & A6) (l1 & es2 & B1 & B2 & B3 & B4 & B5 & B6).
  rewrite A2 in B1. injection B1 as <-.
  exists l0, (es2 ++ es1). repeat split; auto; try apply B5.
  - rewrite B2, app_assoc. auto.
  - apply no_setip_app; auto.
  - rewrite nover_app. lia.
  - intros. rewrite undo_list_app, B6. apply A6.
Qed.

(* a program is reversible when it changes the machine only through logged changes;
   a successful run moreover leaves the about_to_stop flag alone *)
Definition rev (k : nat) {A} (m : M A) : Prop :=
  forall s, recording s = true -> wf_marks s ->
    match m s with
    | ROk _ s' => R k s s' /\ stopping s' = stopping s
    | RErr _ _ s' => R k s s'
    | _ => True
    end.

Lemma rev_weaken k k' {A} (m : M A) : rev k m -> k <= k' -> rev k' m.
Proof.
  intros H Hk s Hr Hw. specialize (H s Hr Hw).
  destruct (m s); auto.
  - destruct H. split; eauto using R_weaken.
  - eauto using R_weaken.
Qed.

Lemma rev_bind k1 k2 {A B} (m : M A) (f : A -> M B) :
  rev k1 m -> (forall a, rev k2 (f a)) -> rev (k1 + k2) (bind m f).
Proof.
  intros Hm Hf s Hr Hw. unfold bind. specialize (Hm s Hr Hw).
  destruct (m s) as [a s1|k p s1| |]; auto.
  - destruct Hm as [HR Hs].
    specialize (Hf a s1 (R_recording _ _ _ HR) (R_wf _ _ _ HR)).
    destruct (f a s1) as [b s2|k p s2| |]; auto.
    + destruct Hf as [HR2 Hs2]. split; [eapply R_trans; eauto | congruence].
    + eapply R_trans; eauto.
  - eapply R_weaken; eauto. lia.
Qed.

Lemma rev_bind0 {A B} (m : M A) (f : A -> M B) :
  rev 0 m -> (forall a, rev 0 (f a)) -> rev 0 (bind m f).
Proof. intros. change 0 with (0 + 0). apply rev_bind; auto. Qed.

Definition pure_m {A} (m : M A) : Prop :=
  forall s, match m s with ROk _ s' => s' = s | RErr _ _ s' => s' = s | _ => True end.

Lemma rev_pure {A} (m : M A) : pure_m m -> rev 0 m.
Proof.
  intros H s Hr Hw. specialize (H s). destruct (m s); auto; subst.
  - split; auto using R_refl.
  - auto using R_refl.
Qed.

Lemma rev_ret {A} (a : A) : rev 0 (ret a).
Proof. apply rev_pure. intro; cbn; auto. Qed.
Lemma rev_fail {A} k p : rev 0 (@fail A k p).
Proof. apply rev_pure. intro; cbn; auto. Qed.
Lemma rev_unsup {A} : rev 0 (@unsup A).
Proof. apply rev_pure. intro; cbn; auto. Qed.
Lemma rev_get : rev 0 get.
Proof. apply rev_pure. intro; cbn; auto. Qed.

Lemma ltb_true a b : a < b -> (a <? b) = true.
Proof. apply Nat.ltb_lt. Qed.
Lemma leb_true a b : a <= b -> (a <=? b) = true.
Proof. apply Nat.leb_le. Qed.

Lemma list_set_length {A} (l : list A) i v : length (list_set l i v) = length l.
Proof. revert i; induction l; destruct i; cbn; auto. Qed.

(* undoing an entry commutes with every function that leaves stacks, heap and context alone:
   [norm], and replacing the log *)
Lemma undo1_unread g : unread g -> forall r s, undo1 r (g s) = option_map g (undo1 r s).
Proof.
  intros U r s. destruct r;
    try (unfold undo1; rewrite (reverse_changes_unread g U) by discriminate;
         destruct (reverse_changes _ s); reflexivity).
  cbn [undo1]. rewrite (ur_ds _ U), (ur_cx _ U). destruct (ds s); [reflexivity|]. destruct (_ <? _); reflexivity.
Qed.

Lemma unread_norm o l b : unread (fun s => norm s o l b).
Proof. constructor; reflexivity. Qed.
Lemma unread_set_rlog l : unread (fun s => set_rlog s l).
Proof. constructor; reflexivity. Qed.

(* the entry a primitive logs undoes its update *)
Lemma pstep_undo s f e s1 : pstep s f e s1 -> wf_marks s -> undo1 e s1 = Some s /\ is_over e = false.
Proof.
  intros H (W1 & W2 & W3 & W4). split; [|destruct H; reflexivity].
  destruct H as [c L|c r E G|a b r E G|a b c r E G|x|x r E G|x r l E G|x|x r E G|x r x' E G|x|x r E G|a v old M E|n];
    cbv beta delta [undo1 reverse_changes data_depth] iota;
    cbn [ds rs loops special heap cx set_ds set_rs set_loops set_special set_heap].
  - rewrite ltb_true by (cbn [length]; lia). apply f_equal, set_ds_back.
  - rewrite <- E. apply f_equal, set_ds_back.
  - unfold data_depth in G. rewrite E in G. rewrite leb_true by exact G. rewrite <- E. apply f_equal, set_ds_back.
  - unfold data_depth in G. rewrite E in G. rewrite leb_true by exact G. rewrite <- E. apply f_equal, set_ds_back.
  - rewrite ltb_true by (cbn [length]; lia). apply f_equal, set_rs_back.
  - rewrite <- E. apply f_equal, set_rs_back.
  - rewrite E in G. rewrite ltb_true by exact G. cbn [fn_addr return_to].
    replace (mkframe (fn_addr x) (return_to x) (locals x)) with x by (destruct x; reflexivity).
    rewrite <- E. apply f_equal, set_rs_back.
  - rewrite ltb_true by (cbn [length]; lia). apply f_equal, set_loops_back.
  - rewrite <- E. apply f_equal, set_loops_back.
  - rewrite E in G. rewrite ltb_true by exact G. rewrite <- E. apply f_equal, set_loops_back.
  - rewrite ltb_true by (cbn [length]; lia). apply f_equal, set_special_back.
  - rewrite <- E. apply f_equal, set_special_back.
  - rewrite (nth_error_list_set _ _ _ _ E), (list_set_undo _ _ _ _ E). apply f_equal, set_heap_back.
  - apply f_equal, set_ip_raw_back.
Qed.

Lemma pstep_wf s f e s1 : pstep s f e s1 -> wf_marks s -> wf_marks s1.
Proof.
  intros H (W1 & W2 & W3 & W4).
  destruct H; unfold wf_marks;
    cbn [ds rs loops special cx set_ds set_rs set_loops set_special set_heap set_ip_raw set_cx
         ds_len rs_len ls_len ss_ptr];
    try match goal with E : _ = _ :: _ |- _ => rewrite E in * end; cbn [length] in *; repeat split; lia.
Qed.

Lemma pstep_rlog s f e s1 : pstep s f e s1 -> rlog s1 = rlog s /\ stopping s1 = stopping s.
Proof. destruct 1; split; reflexivity. Qed.

Lemma did_R o s s' : recording s = true -> wf_marks s -> did o s s' -> o <> Some FIp ->
  R 0 s s' /\ stopping s' = stopping s.
Proof.
  intros Hr Hw [->|(f & e & s1 & -> & P & ->)] Ho; [split; [apply R_refl; assumption|reflexivity]|].
  destruct (recording_some _ Hr) as [l0 Hl].
  destruct (pstep_rlog _ _ _ _ P) as [El Es].
  destruct (pstep_undo _ _ _ _ P Hw) as [Hu Hov].
  rewrite (add_rstep_some e s1 l0) by congruence.
  split; [|exact Es].
  exists l0, [e]. split; [exact Hl|]. split; [reflexivity|].
  split; [|split; [|split]].
  - destruct P; try reflexivity. congruence.
  - unfold nover. cbn [filter]. rewrite Hov. apply Nat.le_refl.
  - exact (pstep_wf _ _ _ _ P Hw).
  - intros o l b. cbn [undo_list].
    change (norm (set_rlog s1 (Some (e :: l0))) o l b) with (norm s1 o l b).
    rewrite (undo1_unread _ (unread_norm o l b)), Hu. reflexivity.
Qed.

Lemma rev_runs o {A} (m : M A) : runs o m -> o <> Some FIp -> rev 0 m.
Proof.
  intros H Ho s Hr Hw. specialize (H s). destruct (m s); try contradiction.
  - exact (did_R _ _ _ Hr Hw H Ho).
  - destruct H as (-> & _). apply R_refl; assumption.
Qed.

Lemma rev_prim o {A} (m : M A) : prim o m -> o <> Some FIp -> rev 0 m.
Proof. intros H. apply rev_runs, prim_runs, H. Qed.

Lemma rev_push_data c : rev 0 (push_data c).
Proof.
  intros s Hr Hw. unfold push_data. destruct (limit_reached _ _) eqn:L; [apply R_refl; assumption|].
  rewrite set_ds_logged. apply (did_R (Some FDs)); try assumption; [|discriminate].
  apply did_step, ps_push_data, L.
Qed.

(* [over_data] logs its own entry and then pushes: two entries, or one when the push is refused *)
Lemma rev_over_data : rev 1 over_data.
Proof.
  intros s Hr Hw. unfold over_data. destruct (recording_some _ Hr) as [l0 Hl].
  destruct (ds s) as [|a [|b r]] eqn:E; try (apply R_weaken with 0; [apply R_refl; assumption|lia]).
  destruct (_ <=? _) eqn:C; [|apply R_weaken with 0; [apply R_refl; assumption|lia]].
  apply Nat.leb_le in C. unfold data_depth in C. rewrite E in C. cbn [length] in C.
  assert (R1 : R 1 s (add_rstep ROverData s)).
  { rewrite (add_rstep_some _ _ _ Hl). exists l0, [ROverData]. repeat split; auto; try apply Hw.
    intros o l g. cbn [undo_list undo1 norm ds cx set_rlog set_out set_stopping]. rewrite E.
    rewrite ltb_true by (cbn [length]; lia). reflexivity. }
  pose proof (rev_push_data b (add_rstep ROverData s) (R_recording _ _ _ R1) (R_wf _ _ _ R1)) as H2.
  destruct (push_data b (add_rstep ROverData s)) as [u s2|k p s2| |]; auto.
  - destruct H2 as [H2 Hs]. split; [exact (R_trans _ _ _ _ _ R1 H2)|].
    rewrite Hs, (add_rstep_some _ _ _ Hl). reflexivity.
  - exact (R_trans _ _ _ _ _ R1 H2).
Qed.

Lemma rev_print msg : rev 0 (print msg).
Proof.
  intros s Hr Hw. destruct (recording_some _ Hr) as [l0 Hl]. unfold print. split; [|reflexivity].
  exists l0, []. cbn. repeat split; auto; try apply Hw.
Qed.

(* the about_to_stop flag may be set by a program that then fails *)
Lemma R_set_stopping s b : recording s = true -> wf_marks s -> R 0 s (set_stopping s b).
Proof.
  intros Hr Hw. destruct (recording_some _ Hr) as [l0 Hl].
  exists l0, []. cbn. repeat split; auto; try apply Hw.
Qed.

Definition stop_log (l : list rstep) : Prop :=
  match l with [] => True | RSetIp _ :: _ => True | _ => False end.

Lemma log_ok_stop s : log_ok s <-> exists l, rlog s = Some l /\ stop_log l.
Proof.
  unfold log_ok. split.
  - destruct (rlog s) as [[|[] l]|]; try contradiction; eexists; split; eauto; exact I.
  - intros (l & -> & H). destruct l as [|[] l]; auto.
Qed.

Definition cost (es : list rstep) : nat := length es + nover es.

Lemma set_rlog_set_rlog s a b : set_rlog (set_rlog s a) b = set_rlog s b.
Proof. reflexivity. Qed.
Lemma set_rlog_same s l : rlog s = l -> set_rlog s l = s.
Proof. intros <-. destruct s; reflexivity. Qed.

Lemma undo_list_set_rlog es : forall s l,
  undo_list es (set_rlog s l) = option_map (fun t => set_rlog t l) (undo_list es s).
Proof.
  induction es; intros; cbn [undo_list]; auto.
  rewrite (undo1_unread _ (unread_set_rlog l)). destruct (undo1 a s); cbn; auto.
Qed.

Lemma rnext_loop_stop fuel s l1 :
  stop_log l1 -> rnext_loop fuel (set_rlog s (Some l1)) = ROk tt (set_rlog s (Some l1)).
Proof.
  intros H. destruct fuel; cbn; auto.
  destruct l1 as [|[] l1]; try contradiction; auto.
Qed.

Lemma rnext_loop_step fuel r rest s : is_setip r = false ->
  rnext_loop (S fuel) (set_rlog s (Some (r :: rest))) =
  match reverse_changes r (set_rlog s (Some rest)) with
  | ROk _ s'' => rnext_loop fuel s''
  | e => e
  end.
Proof. intros H. destruct r; try discriminate; reflexivity. Qed.

(* what the machine does with one entry, against [undo1] *)
Lemma reverse_undo1 r s s1 rest : is_over r = false -> undo1 r s = Some s1 ->
  reverse_changes r (set_rlog s (Some rest)) = ROk tt (set_rlog s1 (Some rest)).
Proof.
  intros Eo E. rewrite (reverse_changes_unread _ (unread_set_rlog (Some rest))) by (intros ->; discriminate).
  destruct r; try discriminate; cbn [undo1] in E;
    (destruct (reverse_changes _ s) as [[] ?| | |]; [|discriminate..]); injection E as ->; reflexivity.
Qed.

(* an [ROverData] entry is undone by the logging pop, whose own entry is undone next *)
Lemma reverse_over s s1 rest : undo1 ROverData s = Some s1 ->
  exists c tl, ds s = c :: tl /\ s1 = s /\
    reverse_changes ROverData (set_rlog s (Some rest)) = ROk tt (set_rlog (set_ds s tl) (Some (RPushData c :: rest))).
Proof.
  cbn [undo1 reverse_changes]. unfold pop_data. cbn [ds cx set_rlog].
  destruct (ds s) as [|c tl]; [discriminate|]. destruct (_ <? _); [|discriminate].
  intros E. injection E as <-. exists c, tl. auto.
Qed.

Lemma undo_push_back s c tl es : ds s = c :: tl -> undo_list (RPushData c :: es) (set_ds s tl) = undo_list es s.
Proof. intros E. cbn [undo_list undo1 reverse_changes ds set_ds]. rewrite <- E, set_ds_back. reflexivity. Qed.

(* the fuel is spent one per entry and one more per [ROverData] *)
Lemma rnext_loop_undo : forall fuel es s t l1,
  no_setip es -> stop_log l1 -> undo_list es s = Some t -> cost es <= fuel ->
  rnext_loop fuel (set_rlog s (Some (es ++ l1))) = ROk tt (set_rlog t (Some l1)).
Proof.
  induction fuel as [|fuel IH]; intros es s t l1 Hn Hs Hu Hc.
  - destruct es; [|cbn in Hc; lia]. injection Hu as <-. apply rnext_loop_stop, Hs.
  - destruct es as [|r es]; [injection Hu as <-; apply rnext_loop_stop, Hs|].
    unfold no_setip in Hn. cbn [forallb] in Hn. apply andb_true_iff in Hn. destruct Hn as [Hr Hn].
    apply negb_true_iff in Hr.
    cbn [undo_list] in Hu. destruct (undo1 r s) as [s1|] eqn:E1; [|discriminate].
    unfold cost, nover in Hc. cbn [length filter] in Hc.
    cbn [app]. rewrite rnext_loop_step by exact Hr.
    destruct (is_over r) eqn:Eo.
    + destruct r; try discriminate. cbn [length] in Hc.
      destruct (reverse_over s s1 (es ++ l1) E1) as (c & tl & Ed & -> & ->).
      apply (IH (RPushData c :: es)); try assumption; [rewrite (undo_push_back _ _ _ _ Ed); exact Hu|].
      unfold cost, nover. cbn [length filter is_over]. lia.
    + rewrite (reverse_undo1 r s s1 _ Eo E1). apply IH; try assumption. unfold cost, nover. lia.
Qed.

Lemma log_len_set_rlog s l : log_len (set_rlog s (Some l)) = length l.
Proof. reflexivity. Qed.

(* one [rnext]: the newest entry [r] (a SetIp after a complete step, anything after a
   failed one) is undone first, then the loop runs down to the previous SetIp *)
Lemma rnext_undo r es s s1 t l1 :
  undo1 r s = Some s1 -> undo_list es s1 = Some t -> no_setip es ->
  nover (r :: es) <= 1 -> stop_log l1 ->
  rnext (set_rlog s (Some (r :: es ++ l1))) = ROk tt (set_rlog t (Some l1)).
Proof.
  intros E1 Hu Hn Hk Hs.
  unfold rnext.
  replace (log_pop (set_rlog s (Some (r :: es ++ l1)))) with (Some (r, set_rlog s (Some (es ++ l1)))) by reflexivity.
  unfold nover in Hk. cbn [filter] in Hk.
  destruct (is_over r) eqn:Eo.
  - destruct r; try discriminate. cbn [length] in Hk.
    destruct (reverse_over s s1 (es ++ l1) E1) as (c & tl & Ed & -> & ->).
    rewrite log_len_set_rlog. apply (rnext_loop_undo _ (RPushData c :: es)); try assumption.
    + rewrite (undo_push_back _ _ _ _ Ed). exact Hu.
    + unfold cost, nover. cbn [length filter is_over app]. rewrite app_length. lia.
  - rewrite (reverse_undo1 r s s1 _ Eo E1), log_len_set_rlog.
    apply rnext_loop_undo; auto. unfold cost, nover. rewrite app_length. lia.
Qed.
