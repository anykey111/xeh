(* DbgMapAlign.v (C17, 1): the debug map and the code vector have the same length, in every
   state the API can reach.  [al] is kept by emission (which, under [al], appends to both),
   by backpatching, by every immediate word, [build_word], [build1] for any fuel, by the
   context operations (the meta-block truncation cuts both at the same mark and re-emits
   through [code_emit]), by [build_unwind], by [eval] / [compile] for all sources, and by
   every machine step and reverse step: it is the instance [=] of the length relation of
   NoPanicBuild.v. *)
From Xeh Require Import Model.Prelude Model.Bits Model.Codec Model.Cell Model.Lexer Model.Fmt
                        Model.Vm Model.Words Model.Build Model.Boot.
From Xeh Require Import Proofs.VmFrame Proofs.VmLimits Proofs.DbgMapVm Proofs.DbgMapGen Proofs.BuildUnwind
                        Proofs.BuildShape Proofs.NoPanicBuild.

Definition al (s : state) : Prop := length (dbg s) = length (code s).

(* [al] is [lenrel same] *)
Local Notation same := (fun a b : nat => b = a).

Lemma len_rel_al : len_rel_ok same.
Proof. split; [intros; lia|]. split; intros; lia. Qed.

Definition emit_state (op : opcode) (s : state) : state :=
  set_code (set_dbg s (dbg s ++ [cur_tok s])) (code s ++ [op]).

Lemma code_emit_al : forall op s, al s -> code_emit op s = ROk tt (emit_state op s).
Proof.
  intros op s H. unfold al in H. rewrite code_emit_eq. unfold emit_dbg, emit_state.
  rewrite H, Nat.leb_refl, Nat.ltb_irrefl. reflexivity.
Qed.

Lemma al_emit_state op s : al s -> al (emit_state op s).
Proof.
  unfold al, emit_state. cbn [set_code set_dbg code dbg]. rewrite !app_length. cbn [length]. lia.
Qed.

Lemma al_vm : forall s s', vmrel s s' -> al s -> al s'.
Proof. exact (lenrel_vm same). Qed.

Lemma al_eq : forall s s', code s' = code s -> dbg s' = dbg s -> al s -> al s'.
Proof. unfold al. intros s s' -> ->. auto. Qed.

Lemma al_trunc : forall s n, al s ->
  al (set_dbg (set_code s (firstn n (code s))) (firstn n (dbg s))).
Proof. exact (lenrel_cut same len_rel_al). Qed.

Theorem al_close : forall fo rf s, al s -> res_all al (context_close fo rf s).
Proof. exact (lenrel_close same len_rel_al). Qed.

Theorem al_build_unwind : forall depth inputs dsl heapl s,
  al s -> al (build_unwind depth inputs dsl heapl s).
Proof. exact (lenrel_build_unwind same len_rel_al). Qed.

Lemma al_walk fo pr rf : walk_keeps fo pr rf al al al.
Proof. exact (lenrel_walk same len_rel_al fo pr rf). Qed.

Theorem al_build_from_source : forall fo pr rf fuel src m s,
  al s -> res_all al (build_from_source fo pr rf fuel src m s).
Proof. exact (lenrel_build_from_source same len_rel_al). Qed.

Section Api.
  Variable fo : fops.
  Variable pr : string -> option Z.

  (* the closure of boot under the API calls, as an inductive; [api_reach] of NoPanicBuild.v
     is the same set as "every property that holds of boot and is kept by every call" (the
     form that Props files can repeat) *)
  Inductive reach : state -> Prop :=
  | reach_boot : reach boot
  | reach_eval : forall s rf bf src s', reach s -> res_state (eval fo pr rf bf src s) = Some s' -> reach s'
  | reach_compile : forall s rf bf src s', reach s -> res_state (compile fo pr rf bf src s) = Some s' -> reach s'
  | reach_next : forall s s', reach s -> res_state (next (native_fn fo) s) = Some s' -> reach s'
  | reach_run : forall s fuel r s', reach s -> run (native_fn fo) fuel s = Some r -> res_state r = Some s' -> reach s'
  | reach_rnext : forall s s', reach s -> res_state (rnext s) = Some s' -> reach s'
  | reach_limits : forall s i h k, reach s -> reach (set_limits s i h k)
  | reach_rlog : forall s l, reach s -> reach (set_rlog s l).

  Lemma api_reach_iff : forall s, api_reach fo pr s <-> reach s.
  Proof.
    intros s. split.
    - intros H. exact (H reach reach_boot reach_eval reach_compile reach_next reach_run reach_rnext
                         reach_limits reach_rlog).
    - intros H P H0 H1 H2 H3 H4 H5 H6 H7.
      induction H as [|s rf bf src s' _ IH E|s rf bf src s' _ IH E|s s' _ IH E|s fuel r s' _ IH E1 E2
                      |s s' _ IH E|s i h k _ IH|s l _ IH].
      + exact H0.
      + exact (H1 _ _ _ _ _ IH E).
      + exact (H2 _ _ _ _ _ IH E).
      + exact (H3 _ _ IH E).
      + exact (H4 _ _ _ _ IH E1 E2).
      + exact (H5 _ _ IH E).
      + exact (H6 _ _ _ _ IH).
      + exact (H7 _ _ IH).
  Qed.

End Api.
