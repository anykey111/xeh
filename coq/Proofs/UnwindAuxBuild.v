(* UnwindAuxBuild.v (C10, follow-up equivalence): the builder does not depend on the
   components the unwinding does not restore.  What the walk of UnwindRel.v asks of the
   compatibility relation [arel] of UnwindAuxVm.v: it keeps what the immediate words read, is
   kept by what they write, and emission, allocation, opening a context and token reading map
   compatible states to compatible results. *)
From Xeh Require Import Model.Prelude Model.Bits Model.Codec Model.Cell Model.Lexer Model.Fmt
                        Model.Vm Model.Words Model.Build.
From Xeh Require Import Proofs.VmFrame Proofs.VmLimits Proofs.NoPanic Proofs.NoPanicBuild
                        Proofs.UnwindLists Proofs.UnwindRel Proofs.UnwindIrr Proofs.UnwindAuxVm.
Local Notation length := List.length.

Lemma bind_eq A B (P : M A) (f : A -> M B) s :
  bind P f s = match P s with ROk a s' => f a s' | RErr k p s' => RErr k p s' | RPanic => RPanic | RUnsup => RUnsup end.
Proof. reflexivity. Qed.

Lemma arel_core s s' : arel s s' -> core s' = core s.
Proof. intros (dg & so & inp & me & rl & ou & lt & sg & _ & ->). reflexivity. Qed.

Lemma arel_set_dict s s' d : arel s s' -> arel (set_dict s d) (set_dict s' d).
Proof. apply (arel_keep (fun s => set_dict s d)); [reflexivity|repeat split]. Qed.

Lemma arel_set_flows s s' f : arel s s' -> arel (set_flows s f) (set_flows s' f).
Proof. apply (arel_keep (fun s => set_flows s f)); [reflexivity|repeat split]. Qed.

Lemma ap_keep A (P : M A) :
  (forall t dg so inp me rl ou lt sg,
      P (ax t dg so inp me rl ou lt sg) = res_map (fun s => ax s dg so inp me rl ou lt sg) (P t)) ->
  (forall t, res_all (fun s => dbg s = dbg t /\ input s = input t /\ insn_limit s = insn_limit t /\
                               meter s = meter t /\ rlog s = rlog t) (P t)) ->
  ap P.
Proof.
  intros H1 H2. apply ap_intro. intros t dg so inp me rl ou lt sg Ho. rewrite H1. specialize (H2 t).
  destruct (P t) as [a s|k p s| |]; cbn [res_map ares res_all] in *; auto;
    destruct H2 as (E1 & E2 & E3 & E4 & E5); repeat split;
    (apply arel_intro; eapply aok_same; eauto).
Qed.

Ltac keep_prim :=
  apply ap_keep;
  [ let t := fresh "t" in
    intros t ? ? ? ? ? ? ? ?; destruct_state t;
    cbv [alloc_heap context_open limit_reached code_origin ax res_map
         set_heap set_cx set_nested dict heap code dbg sources input ds rs flows loops special cx nested meter
         insn_limit heap_limit stack_limit rlog out last_tok stopping];
    break_matches; reflexivity
  | let t := fresh "t" in
    intros t; destruct_state t;
    cbv [alloc_heap context_open limit_reached code_origin res_all
         set_heap set_cx set_nested dict heap code dbg sources input ds rs flows loops special cx nested meter
         insn_limit heap_limit stack_limit rlog out last_tok stopping];
    break_matches; auto 10 ].

Lemma ap_alloc_heap v : ap (alloc_heap v).
Proof. keep_prim. Qed.
Lemma ap_context_open m : ap (context_open m).
Proof. keep_prim. Qed.

Lemma ap_code_emit op : ap (code_emit op).
Proof.
  apply ap_intro. intros t dg so inp me rl ou lt sg Ho. destruct_state t.
  pose proof Ho as (A1 & _). cbv [dbg] in A1.
  cbv [code_emit ax set_code set_dbg dict heap code dbg sources input ds rs flows loops special cx nested meter
       insn_limit heap_limit stack_limit rlog out last_tok stopping].
  rewrite A1.
  destruct (length c0 <? length g0)%nat.
  - ap_fin. rewrite !list_set_length. exact A1.
  - destruct (length c0 =? length g0)%nat; ap_fin.
    rewrite !app_length. cbn [length]. congruence.
Qed.

Lemma ap_intern_source buf : ap (intern_source buf).
Proof.
  apply ap_intro. intros t dg so inp me rl ou lt sg Ho. destruct_state t.
  cbv [intern_source ax set_input set_sources dict heap code dbg sources input ds rs flows loops special cx nested meter
       insn_limit heap_limit stack_limit rlog out last_tok stopping].
  ap_fin. constructor; [reflexivity|assumption].
Qed.

Section Tok.
  Variable pr : string -> option Z.

  Lemma ap_next_token : forall fuel, ap (next_token pr fuel).
  Proof.
    induction fuel as [|f IH]; apply ap_intro; intros t dg so inp me rl ou lt sg Ho; cbn [next_token]; [exact I|].
    change (input (ax t dg so inp me rl ou lt sg)) with inp.
    pose proof Ho as (A1 & A2 & A3 & A4).
    destruct A2 as [|il il' rest rest' Hl Hr].
    - cbn. split; [reflexivity|]. apply arel_intro. exact Ho.
    - cbv zeta. unfold lex_same in Hl. rewrite <- Hl.
      destruct (lex_next_nonws _ _) as [tk l'].
      assert (K : forall lt1 r1 r2, Forall2 lex_same r1 r2 ->
                aok (set_last_tok (set_input t r1) lt1) dg r2 me rl).
      { intros. unfold aok in *. cbn [set_last_tok set_input dbg input insn_limit meter rlog]. auto. }
      assert (K1 : Forall2 lex_same (mkinlex (in_src il) l' :: rest) (mkinlex (in_src il') l' :: rest'))
        by (constructor; [reflexivity|assumption]).
      assert (R : forall lt1 lt2,
                arel (set_last_tok (set_input t (mkinlex (in_src il) l' :: rest)) lt1)
                     (set_last_tok (set_input (ax t dg so (il' :: rest') me rl ou lt sg) (mkinlex (in_src il') l' :: rest')) lt2)).
      { intros lt1 lt2. exists dg, so, (mkinlex (in_src il') l' :: rest'), me, rl, ou, lt2, sg. split; [|reflexivity].
        apply (K lt1). exact K1. }
      destruct tk; try exact I; try (cbn [ares]; repeat split; apply R).
      + (* end of this lexer: go on with the one below *)
        match goal with |- ares (next_token pr f ?a) (next_token pr f ?b2) =>
          change b2 with (ax a dg so rest' me rl ou (Some (in_src il', lstart l', lpos l')) sg) end.
        apply IH, arel_intro. unfold aok in *. cbn [set_last_tok set_input dbg input insn_limit meter rlog]. auto.
      + destruct (pr text); cbn [ares]; repeat split; apply R.
  Qed.

  Lemma aok_input_len t dg inp me rl : aok t dg inp me rl -> length inp = length (input t).
  Proof. intros (_ & A2 & _). induction A2; cbn [length]; congruence. Qed.

  Lemma ap_get_token : ap (get_token pr).
  Proof.
    apply ap_intro. intros t dg so inp me rl ou lt sg Ho. unfold get_token, tok_fuel.
    change (input (ax t dg so inp me rl ou lt sg)) with inp. rewrite (aok_input_len _ _ _ _ _ Ho).
    apply ap_next_token, arel_intro, Ho.
  Qed.

  Lemma ap_next_name : ap (next_name pr).
  Proof.
    apply ap_intro. intros t dg so inp me rl ou lt sg Ho. unfold next_name. cbv zeta.
    pose proof (ap_get_token _ _ (arel_intro t dg so inp me rl ou lt sg Ho)) as X.
    destruct (get_token pr t) as [tk s1|k p s1| |];
      destruct (get_token pr (ax t dg so inp me rl ou lt sg)) as [tk' s1'|k' p' s1'| |];
      cbn [ares] in *; try contradiction; auto.
    destruct X as [<- (dg1 & so1 & inp1 & me1 & rl1 & ou1 & lt1 & sg1 & Ho1 & ->)].
    assert (R : forall a b2, arel (match a with Some _ => set_last_tok s1 a | None => s1 end)
                               (match b2 with Some _ => set_last_tok (ax s1 dg1 so1 inp1 me1 rl1 ou1 lt1 sg1) b2
                                         | None => ax s1 dg1 so1 inp1 me1 rl1 ou1 lt1 sg1 end)).
    { intros a b2. destruct a; destruct b2.
      - exists dg1, so1, inp1, me1, rl1, ou1, (Some t1), sg1. split; [|reflexivity]. eapply aok_same; [..|exact Ho1]; reflexivity.
      - exists dg1, so1, inp1, me1, rl1, ou1, lt1, sg1. split; [|reflexivity]. eapply aok_same; [..|exact Ho1]; reflexivity.
      - exists dg1, so1, inp1, me1, rl1, ou1, (Some t0), sg1. split; [|reflexivity]. exact Ho1.
      - apply arel_intro. exact Ho1. }
    destruct tk; cbn [ares]; repeat split; try apply R. apply arel_intro. exact Ho1.
  Qed.
End Tok.
