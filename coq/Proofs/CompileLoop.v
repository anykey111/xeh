(* CompileLoop.v: facts about the structural evaluator alone:
   - the loops that catch `break` never return [SBroke]; a tree without a pending `break`
     never returns [SBroke]; begin ... repeat without a `break` of its own never returns [SDone];
   - the loop stack: whatever a tree does, the records below the top one are untouched and
     the depth is restored; a finished do ... loop leaves the loop stack exactly as it was.
   The statements are about [nb_b] / [funs_nb] and [lrel]; the proofs instantiate the generic
   theorem of StructInv.v and bridge to the boolean [has_own_break] (StructInv.v) in which
   the theorems of StructRs.v are stated. *)
From Xeh Require Import Model.Prelude Model.Bits Model.Codec Model.Cell Model.Lexer Model.Fmt
                        Model.Vm Model.Words Model.Struct
                        Proofs.WordProg Proofs.VmFrame Proofs.CompileSim Proofs.CompileLayout
                        Proofs.StructBase Proofs.StructNat Proofs.StructInv Proofs.StructLoops Proofs.StructRs
                        Proofs.StructNonterm.
Local Notation length := List.length.

#[local] Arguments Z.add : simpl never.
#[local] Arguments Z.sub : simpl never.
#[local] Arguments Z.mul : simpl never.
#[local] Arguments Z.ltb : simpl never.
#[local] Arguments Z.leb : simpl never.
#[local] Arguments Z.eqb : simpl never.
#[local] Arguments Z.of_nat : simpl never.
#[local] Arguments Z.to_nat : simpl never.

Definition lrel (a b : list loopr) : Prop := length a = length b /\ tl a = tl b.

Lemma lrel_refl : forall a, lrel a a.
Proof. intro a. split; reflexivity. Qed.
Lemma lrel_trans : forall a b c, lrel a b -> lrel b c -> lrel a c.
Proof. intros a b c [H1 H2] [H3 H4]. split; congruence. Qed.
Lemma lrel_cons : forall a x L, lrel a (x :: L) -> exists y, a = y :: L.
Proof. intros a x L [H1 H2]. destruct a as [|y a']; [discriminate|]. cbn in H2. subst a'. eauto. Qed.

Definition lk {A} (m : M A) : Prop :=
  forall s a s', m s = ROk a s' -> lrel (loops s') (loops s).

Ltac lk_prim_tac :=
  let s := fresh "s" in let H := fresh "H" in
  intros s; dstate s;
  cbv [push_data pop_data top_data swap_data rot_data over_data push_return pop_return top_frame
       loop_set_items push_special pop_special get_var set_var init_local set_ip next_ip
       print modify ret fail unsup
       add_rstep limit_reached data_depth ip set_ip_raw
       set_ds set_rs set_loops set_special set_heap set_cx set_rlog set_out set_stopping set_meter
       dict heap code dbg sources input ds rs flows loops special cx nested meter insn_limit
       heap_limit stack_limit rlog out last_tok stopping
       ds_len cs_len rs_len fs_len ls_len ss_ptr di_len cip cmode];
  break_matches; intros ? ? H;
  try discriminate; injection H; intros; subst; split; reflexivity.

Lemma wprog_lk c A (m : M A) : c_loop c = false -> wprog c m -> lk m.
Proof.
  intros Hl H. induction H; try congruence; try (lk_prim_tac; fail).
  - intros s b s' E. unfold bind in E.
    destruct (m s) as [a s1|? ? ?| |] eqn:E1; try discriminate.
    eapply lrel_trans; [eapply H1; exact E|eapply IHwprog; exact E1].
  - intros s b s' E. unfold bind, get in E. eapply H0. exact E.
Qed.

Definition frame_caps : caps := mkcaps false false false true true false false.

Ltac lk_solve := apply (wprog_lk frame_caps); [ reflexivity | wp_solve ].

Lemma lk_pop_n : forall n, lk (pop_n n).
Proof. intro n. lk_solve. Qed.
Lemma lk_push_all : forall l, lk (push_all l).
Proof. intro l. lk_solve. Qed.

Theorem native_lk : forall fo w f, native_fn fo w = Some f -> lk f.
Proof. intros fo w f H. exact (wprog_lk (caps_of w) _ _ eq_refl (native_wprog fo w f H)). Qed.

Lemma nb_no_own_break_all :
  forall x, nb_s x -> has_own_break x = false.
Proof.
  apply (stmt_ind2 (fun x => nb_s x -> has_own_break x = false)
                   (fun l => nb_b l -> has_own_break_block l = false)
                   (fun a => nb_a a -> has_own_break_arms a = false)); try reflexivity.
  - intros x r Hx Hr N. inversion N; subst. cbn [has_own_break_block]. rewrite Hx, Hr by assumption. reflexivity.
  - intros pre p body r Hpre Hbody Hr N. inversion N; subst. cbn [has_own_break_arms].
    rewrite Hpre, Hbody, Hr by assumption. reflexivity.
  - intros p t Ht N. inversion N; subst. rewrite has_own_break_SIf. auto.
  - intros p t e Ht He N. inversion N; subst. rewrite has_own_break_SIfE, Ht, He by assumption. reflexivity.
  - intros arms d Ha Hd N. inversion N; subst. rewrite has_own_break_SCase, Ha, Hd by assumption. reflexivity.
  - intros b p Hb N. inversion N; subst. rewrite has_own_break_SUntil. auto.
  - intro N. inversion N.
Qed.

Lemma nb_no_own_break : forall l, nb_b l -> has_own_break_block l = false.
Proof.
  induction l as [|x r IH]; intro N; [reflexivity|]. inversion N; subst.
  cbn [has_own_break_block]. rewrite (nb_no_own_break_all x), IH by assumption. reflexivity.
Qed.

Definition lkeep (s s' : state) : Prop := lrel (loops s') (loops s).

Lemma lkeep_refl : forall s, lkeep s s.
Proof. intro s. apply lrel_refl. Qed.
Lemma lkeep_trans : forall a b c, lkeep a b -> lkeep b c -> lkeep a c.
Proof. intros a b c H1 H2. eapply lrel_trans; eassumption. Qed.
Lemma lkeep_eq : forall s s', loops s' = loops s -> lkeep s s'.
Proof. intros s s' E. unfold lkeep. rewrite E. apply lrel_refl. Qed.

Lemma do_iter_pops : forall (body : state -> sres) pl l k s1 s2,
  (forall s, post (lkeep s) (body s)) ->
  push_loop l s1 = ROk tt s2 -> post (fun s' => loops s' = loops s1) (do_iter body pl k s2).
Proof.
  intros body pl l k s1 s2 Hbody E2 s' E'. apply push_loop_ok in E2 as (L2 & _).
  destruct (do_iter_ends lkeep lkeep_trans body pl) with (k := k) (s := s2) (s' := s')
    as (s4 & l4 & [_ T] & P); [exact Hbody| |exact E'|].
  - intros s m s3 E. apply loop_next_ok in E as (_ & _ & l3 & r3 & E1 & E3 & _).
    unfold lkeep. rewrite E1, E3. split; reflexivity.
  - apply pop_loop_ok in P as (P4 & _). rewrite L2, P4 in T. exact T.
Qed.

Section Loop.
  Variable fo : fops.
  Variable funs : list (nat * list stmt).

  Theorem loops_all : forall f,
    (forall b s, post (lkeep s) (sblock fo funs f b s)) /\
    (forall x s, post (lkeep s) (sstmt fo funs f x s)).
  Proof.
    intro f.
    destruct (gen_both fo funs lkeep ok_any lkeep_refl lkeep_trans) with (f := f) as [Hb Hs].
    - intros s s' (_ & _ & _ & L). apply lkeep_eq. apply L. reflexivity.
    - intros w p m s s' _ Hw E. eapply native_lk; eauto.
    - intros i p v s s' _ E. apply init_local_ok in E as (L & _). apply lkeep_eq. exact L.
    - (* a call: the frame is pushed and popped, the loop stack is the body's business *)
      intros f0 g p s _ IH. rewrite sstmt_SCall.
      destruct (fun_body funs g) as [body|]; [|apply post_none; reflexivity].
      apply (ends_run_m _ lkeep_trans).
      { intros a s1 E. apply push_return_ok in E as (L & _). apply lkeep_eq. exact L. }
      intros _ s1. apply (ends_on_res _ lkeep_trans); [apply IH; apply ok_any_all| |].
      + intro s2. apply (ends_run_m _ lkeep_trans); [|intros; apply ends_done, lkeep_refl].
        intros fr s3 E. apply pop_return_ok in E as (L & _). apply lkeep_eq. exact L.
      + intro s2. apply ends_broke, lkeep_refl.
    - intros body pl l k s1 s2 Hbody E2 s' E'. apply lkeep_eq. eapply do_iter_pops; eauto.
    - split; intros; [apply Hb|apply Hs]; apply ok_any_all.
  Qed.

  Theorem do_leaves_no_index : forall fuel p b pl t t',
    sstmt fo funs fuel (SDo p b pl) t = SDone t' -> loops t' = loops t.
  Proof.
    intros fuel p b pl t t' H. destruct fuel as [|f]; [discriminate|].
    assert (P : post (fun s' => loops s' = loops t) (sstmt fo funs (S f) (SDo p b pl) t)).
    { rewrite sstmt_SDo. apply run_m_cases; [apply post_none|]. intros l s1 E1.
      assert (L1 : loops s1 = loops t)
        by (destruct (wn_ok_keeps _ _ _ _ _ _ wn_do_init E1) as (_ & _ & _ & L); apply L; reflexivity).
      rewrite <- L1. destruct (l_end l <=? l_start l)%Z; [eapply post_here; reflexivity|].
      apply run_m_cases; [apply post_none|]. intros [] s2 E2.
      eapply do_iter_pops; [|exact E2]. intro s0. apply loops_all. }
    apply P. rewrite H. reflexivity.
  Qed.

  Lemma loops_no_broke : forall fuel x t t',
    (exists p b pl, x = SDo p b pl) \/ (exists b, x = SRepeat b) \/ (exists c p b, x = SWhile c p b) ->
    sstmt fo funs fuel x t <> SBroke t'.
  Proof.
    intros fuel x t t' Hx. apply loop_never_broke.
    destruct Hx as [(p & b & pl & ->)|[(b & ->)|(c0 & p & b & ->)]]; reflexivity.
  Qed.

  Definition funs_nb : Prop := forall g body, fun_body funs g = Some body -> nb_b body.
  Hypothesis Hnb : funs_nb.

  Theorem repeat_never_done : forall fuel b t t',
    nb_b b -> sstmt fo funs fuel (SRepeat b) t <> SDone t'.
  Proof.
    intros fuel b t t' N. apply StructNonterm.repeat_never_done. intros f s s'.
    apply nobreak_block; [|apply nb_no_own_break; exact N].
    intros g body Hg. apply nb_no_own_break. eapply Hnb; eauto.
  Qed.
End Loop.
