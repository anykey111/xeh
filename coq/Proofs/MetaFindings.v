(* MetaFindings.v (C11): the vocabulary of the concrete instances of Props/C11.v (programs run
   on the boot state, one token step computed), the instances that several of them share, and a
   whole block followed token by token. *)
From Xeh Require Import Model.Prelude Model.Bits Model.Codec Model.Cell Model.Lexer Model.Fmt
                        Model.Vm Model.Words Model.Build Model.Boot.
From Xeh Require Import Proofs.VmFrame Proofs.VmLimits Proofs.NoPanic Proofs.NoPanicBuild Proofs.NoPanicFlow
                        Proofs.MetaBase Proofs.MetaPurge Proofs.MetaBuild Proofs.MetaClose Proofs.MetaPrefix
                        Proofs.MetaPrefixBuild Proofs.MetaPrefixWords Proofs.MetaBlock Proofs.MetaSeg
                        Proofs.MetaInline Proofs.MetaCompile Proofs.MetaCompile2 Proofs.MetaNI Proofs.MetaNIWords.
Local Notation length := List.length.
Local Open Scope string_scope.
Local Open Scope list_scope.

(* real arithmetic is not used by the witnesses; any [fops] and any real-literal parser do *)
Definition fo0 : fops := fops_with Z.add Z.sub Z.mul Z.add Z.add Z.min Z.max.
Definition pr0 : string -> option Z := fun _ => None.
Definition ev (src : string) (s : state) : res unit := eval fo0 pr0 1000 1000 src s.
Definition cp (src : string) (s : state) : res unit := compile fo0 pr0 1000 1000 src s.

Definition st_of (r : res unit) : state := match r with ROk _ s => s | RErr _ _ s => s | _ => boot end.
Definition ds_of (r : res unit) : option (list cell) := match r with ROk _ s => Some (ds s) | _ => None end.
Definition out_of (r : res unit) : option string := match r with ROk _ s => Some (out s) | _ => None end.
Definition new_dict (r : res unit) : option (list dentry) :=
  match r with ROk _ s => Some (skipn (length boot_dict) (dict s)) | _ => None end.

Lemma ex_block_is_literal : ds_of (ev "5 #( 1 2 + #) +" boot) = Some [CInt 8] /\
                            ds_of (ev "5 3 +" boot) = Some [CInt 8].
Proof. split; vm_refl. Qed.

(* several values: last result first *)
Lemma ex_block_order : ds_of (ev "#( 1 2 #)" boot) = ds_of (ev "2 1" boot).
Proof. vm_refl. Qed.

(* a block that defines a word and a constant: only the constant remains *)
Lemma ex_block_purge :
  new_dict (ev "#( : sq dup * ; 3 sq const nine 4 #) nine" boot) = Some [mkdent "nine" (DConst (CInt 9))] /\
  ds_of (ev "#( : sq dup * ; 3 sq const nine 4 #) nine" boot) = Some [CInt 9; CInt 4].
Proof. split; vm_refl. Qed.

(* a state with 9 on the data stack *)
Definition s9 : state := st_of (ev "9" boot).

(* compile leaves the stack alone and allocates nil cells only *)
Lemma ex_compile_quiet :
  match cp "var x 1 ! x #( 2 3 * #) x +" s9 with
  | ROk _ s => ds s = ds s9 /\ heap s = heap s9 ++ [CNil]
  | _ => False
  end.
Proof. vm_compute. split; reflexivity. Qed.

(* a nested block shares the data stack of the enclosing block and can consume its values *)
Lemma nested_block_changes_enclosing :
  ds_of (ev "#( 7 #( drop 8 #) #)" boot) = Some [CInt 8].
Proof. vm_refl. Qed.

(* a block overwrites a constant defined before it (in place, below its dictionary mark) *)
Lemma const_overwritten_in_place :
  new_dict (ev "#( 1 const a #) #( 2 const a 3 const b #)" boot) =
    Some [mkdent "a" (DConst (CInt 2)); mkdent "b" (DConst (CInt 3))].
Proof. vm_refl. Qed.

(* a late-bound word called inside a block is resolved in the code below the block's mark *)
Lemma late_call_patches_code :
  match ev "late g : h g ; : g 5 ; #( h #)" boot with
  | ROk _ s => ds s = [CInt 5] /\ nth_error (code s) 1 = Some (OCall 7)
  | _ => False
  end /\
  match cp "late g : h g ; : g 5 ;" boot with
  | ROk _ s => nth_error (code s) 1 = Some (OResolve "g")
  | _ => False
  end.
Proof. vm_compute. repeat split; reflexivity. Qed.

(* `~)` : the values are turned into source text that is compiled in place of the block *)
Lemma ex_inject : ds_of (ev "#( 1 2 ~)" boot) = Some [CInt 2; CInt 1].
Proof. vm_refl. Qed.

Lemma boot_wfm : wfm boot.
Proof. unfold wfm. cbn. repeat split; lia. Qed.
Lemma boot_cd : cd_inv boot.
Proof. unfold cd_inv. cbn. lia. Qed.
Lemma boot_no_user_imm : no_user_imm (dict boot).
Proof. apply no_user_imm_forallb. vm_refl. Qed.
Lemma opened_boot_mpre : mpre (opened boot).
Proof. split; [reflexivity|apply opened_wfm, boot_wfm]. Qed.

(* one token step, computed *)
Definition step1 (f : nat) : M unit :=
  pre_run fo0 1000 ;;
  let* t := get_token pr0 in
  match t with
  | BEnd => fail EOther None
  | _ => fun s => if enum_tok s t then RErr EOther None s else tok_act fo0 pr0 1000 f t s
  end.

Lemma step1_tstep f s s' : step1 f s = ROk tt s' -> tstep fo0 pr0 1000 f s s'.
Proof.
  unfold step1, bind. intros E.
  destruct (pre_run fo0 1000 s) as [[] s1|? ? ?| |] eqn:E1; try discriminate.
  destruct (get_token pr0 s1) as [t s2|? ? ?| |] eqn:E2; try discriminate.
  exists s1, t, s2. split; [exact E1|]. split; [exact E2|].
  destruct t; try discriminate E;
    (destruct (enum_tok s2 _) eqn:En; [discriminate E|]; split; [discriminate|split; [reflexivity|exact E]]).
Qed.

Definition nxt (s : state) : state := st_of (step1 10 s).

(* the source "#( 1 2 + #) 7" submitted to eval in state s9 (data stack: 9) *)
Definition t0 : state := st_of ((context_open MEval ;; intern_source "#( 1 2 + #) 7") s9).
(* after reading the token #( *)
Definition ta : state := match get_token pr0 t0 with ROk _ s => s | _ => boot end.
Definition o1 := nxt t0.   (* = opened ta *)
Definition o2 := nxt o1.   (* 1 *)
Definition o3 := nxt o2.   (* 2 *)
Definition o4 := nxt o3.   (* + *)
Definition o5 := nxt o4.   (* #) *)

Lemma ex_block_path :
  wfm ta /\ cd_inv ta /\ cmode (cx ta) <> MMeta /\ o1 = opened ta /\
  bpath fo0 pr0 1000 (S (depth ta)) (opened ta) o4 /\ anystep fo0 pr0 1000 o4 o5 /\ depth o5 <= depth ta /\
  ds o5 = [CInt 9] /\ skipn (length (code ta)) (code o5) = [OLoadI64 3].
Proof.
  assert (E1 : o1 = opened ta) by vm_refl.
  split; [unfold wfm; vm_compute; repeat split; lia|]. split; [unfold cd_inv; vm_compute; lia|].
  split; [vm_compute; discriminate|]. split; [exact E1|].
  rewrite <- E1.
  assert (S12 : step1 10 o1 = ROk tt o2) by vm_refl.
  assert (S23 : step1 10 o2 = ROk tt o3) by vm_refl.
  assert (S34 : step1 10 o3 = ROk tt o4) by vm_refl.
  assert (S45 : step1 10 o4 = ROk tt o5) by vm_refl.
  split.
  { eapply bp_snoc; [eapply bp_snoc; [eapply bp_snoc; [apply bp_nil| |]| |]| |].
    - exists 10. apply step1_tstep. exact S12.
    - vm_compute. lia.
    - exists 10. apply step1_tstep. exact S23.
    - vm_compute. lia.
    - exists 10. apply step1_tstep. exact S34.
    - vm_compute. lia. }
  split; [exists 10; apply step1_tstep; exact S45|].
  split; [vm_compute; lia|]. split; vm_refl.
Qed.

(* `.s` does not commute with replacing the hidden part *)
Definition sm : state := set_cx (set_ds boot [CInt 9]) (mkctx 1 0 0 0 0 0 0 0 MMeta).

