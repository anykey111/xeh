(* MetaNIBuild.v (C11): the builder's own actions do not look at the hidden part of the data
   stack: every immediate word of the table except the words that open or close a context
   ([ctx_word]: #( #) ~) and the four words of the enum builder) commutes with the replacement of
   the hidden cells ([comm], MetaNI.v).  (Executed code - pending code of a meta block, user
   immediate words, the run at `#)` - is covered by the machine-step theorem of MetaNIWords.v.) *)
From Xeh Require Import Model.Prelude Model.Bits Model.Codec Model.Cell Model.Lexer Model.Fmt
                        Model.Vm Model.Words Model.Build.
From Xeh Require Import Proofs.VmFrame Proofs.VmLimits Proofs.NoPanic Proofs.NoPanicBuild Proofs.NoPanicFlow
                        Proofs.MetaBase Proofs.MetaBuild Proofs.MetaNI Proofs.MetaNIWords.
Local Notation length := List.length.
Local Open Scope string_scope.
Local Open Scope list_scope.

(* programs that neither read nor write the data stack *)
Definition obl {A} (m : M A) : Prop :=
  forall s l, m (set_ds s l) = res_map (fun t => set_ds t l) (m s) /\
              res_all (fun s' => ds s' = ds s /\ ds_len (cx s') = ds_len (cx s)) (m s).

Lemma obl_comm h' A (m : M A) : obl m -> comm h' m.
Proof.
  intros H s W. destruct (H s (firstn (length (ds s) - length h') (ds s) ++ h')) as [E R].
  unfold sw at 1. rewrite E. destruct (m s) as [a s1|k p s1| |]; cbn [res_map res_all] in *;
    try (split; [reflexivity|exact I]); destruct R as [Rd Rc].
  - split; [unfold sw; rewrite Rd; reflexivity|]. destruct W as [W1 W2]. split; congruence.
  - split; [unfold sw; rewrite Rd; reflexivity|]. destruct W as [W1 W2]. split; congruence.
Qed.

Lemma obl_code_emit op : obl (code_emit op).
Proof.
  intros s l. unfold code_emit. cbv zeta. cbn [set_ds code dbg last_tok].
  destruct (_ <? _)%nat; [split; [reflexivity|split; reflexivity]|].
  destruct (_ =? _)%nat; [split; [reflexivity|split; reflexivity]|split; [reflexivity|exact I]].
Qed.

Lemma obl_backpatch pos op : obl (backpatch pos op).
Proof.
  intros s l. unfold backpatch. cbn [set_ds code].
  destruct (_ <? _)%nat; [split; [reflexivity|split; reflexivity]|split; [reflexivity|exact I]].
Qed.

Lemma obl_backpatch_jump pos offs : obl (backpatch_jump pos offs).
Proof.
  intros s l. unfold backpatch_jump. cbn [set_ds code].
  destruct (nth_error (code s) pos) as [op|]; [|split; [reflexivity|split; reflexivity]].
  destruct op; try (split; [reflexivity|exact I]); apply obl_backpatch.
Qed.

Lemma obl_push_flow f : obl (push_flow f).
Proof. intros s l. split; [reflexivity|split; reflexivity]. Qed.

Lemma obl_pop_flow : obl pop_flow.
Proof.
  intros s l. unfold pop_flow. cbn [set_ds flows cx].
  destruct (flows s); [split; [reflexivity|split; reflexivity]|].
  destruct (_ <? _)%nat; split; try reflexivity; split; reflexivity.
Qed.

Lemma obl_take : obl take_first_cond_flow.
Proof.
  intros s l. unfold take_first_cond_flow. cbv zeta.
  change (pending (set_ds s l)) with (pending s). cbn [set_ds flows].
  destruct (take_cond (pending s)) as [[f a]|]; split; try reflexivity; split; reflexivity.
Qed.

Lemma obl_dict_insert name e : obl (dict_insert name e).
Proof. intros s l. split; [reflexivity|split; reflexivity]. Qed.

Lemma obl_alloc_heap v : obl (alloc_heap v).
Proof.
  intros s l. unfold alloc_heap. cbn [set_ds cx heap_limit heap].
  destruct (mode_eqb _ _); [split; [reflexivity|split; reflexivity]|].
  destruct (limit_reached _ _); split; try reflexivity; split; reflexivity.
Qed.

Section Tok.
  Variable pr : string -> option Z.

  Lemma obl_next_token : forall fuel, obl (next_token pr fuel).
  Proof.
    induction fuel as [|f IH]; intros s l; cbn [next_token]; [split; [reflexivity|exact I]|].
    cbn [set_ds input]. destruct (input s) as [|il rest]; [split; [reflexivity|split; reflexivity]|].
    cbv zeta. destruct (lex_next_nonws _ _) as [t l'].
    destruct t; try (split; [reflexivity|first [exact I|split; reflexivity]]).
    - exact (IH (set_input (set_last_tok (set_input s (mkinlex (in_src il) l' :: rest))
                                         (Some (in_src il, lstart l', lpos l'))) rest) l).
    - destruct (pr text); split; try reflexivity; split; reflexivity.
  Qed.

  Lemma obl_get_token : obl (get_token pr).
  Proof. intros s l. unfold get_token. exact (obl_next_token (tok_fuel s) s l). Qed.

  Lemma obl_next_name : obl (next_name pr).
  Proof.
    intros s l. unfold next_name. cbv zeta. cbn [set_ds last_tok].
    destruct (obl_get_token s l) as [E R]. rewrite E.
    destruct (get_token pr s) as [t s1|k p s1| |]; cbn [res_map res_all] in *;
      try (split; [reflexivity|first [exact I|exact R]]).
    destruct t; cbn [res_map res_all]; try (split; [reflexivity|exact R]);
      destruct (last_tok s); split; try reflexivity; exact R.
  Qed.
End Tok.

Section NIB.
  Variable h' : list cell.

  (* a program that reads the state and goes on from that very state *)
  Lemma comm_get_at B (k : state -> M B) :
    (forall s, wfd h' s ->
       k (sw h' s) (sw h' s) = res_map (sw h') (k s s) /\ res_all (wfd h') (k s s)) ->
    comm h' (bind get k).
  Proof. intros H s W. exact (H s W). Qed.

  (* the four words that update the state they have read *)
  Lemma comm_i_def_end : comm h' i_def_end.
  Proof.
    unfold i_def_end. apply comm_bind; [apply obl_comm, obl_pop_flow|].
    intros [[]|]; try apply comm_fail.
    apply comm_bind; [apply obl_comm, obl_code_emit|intros _]. apply comm_get_at. intros s W.
    change (dict (sw h' s)) with (dict s). change (code_origin (sw h' s)) with (code_origin s).
    destruct (nth_error (dict s) _); [|apply comm_fail; exact W].
    destruct (set_dict_len _ _ _) as [d'|]; [|apply comm_panic; exact W].
    apply (obl_comm h' _ _ (obl_backpatch_jump _ _) (set_dict s d')). exact W.
  Qed.

  Lemma comm_i_immediate : comm h' i_immediate.
  Proof.
    unfold i_immediate. apply comm_get_at. intros s W.
    change (top_function_flow (sw h' s)) with (top_function_flow s). change (dict (sw h' s)) with (dict s).
    destruct (top_function_flow s) as [[[idx ?] ?]|]; [|apply comm_fail; exact W].
    destruct (nth_error (dict s) idx) as [e|]; [|apply comm_fail; exact W].
    destruct (dent e); try (apply comm_fail; exact W).
    split; [reflexivity|exact W].
  Qed.

  Lemma comm_build_local_variable name : comm h' (build_local_variable name).
  Proof.
    unfold build_local_variable. apply comm_get_at. intros s W.
    change (top_function_flow (sw h' s)) with (top_function_flow s).
    change (pending (sw h' s)) with (pending s). change (flows (sw h' s)) with (flows s).
    destruct (top_function_flow s) as [[[? ?] ls]|]; [|apply comm_fail; exact W].
    apply (obl_comm h' _ _ (obl_code_emit _) (set_flows s _)). exact W.
  Qed.

  Lemma comm_i_const pr : comm h' (i_const pr).
  Proof.
    unfold i_const. apply comm_bind; [apply obl_comm, obl_next_name|intros name].
    apply comm_get_bind; [reflexivity|intros s].
    destruct (negb _); [apply comm_fail|].
    apply comm_bind; [apply comm_pop_data|intros v]. apply comm_get_at. intros s1 W.
    change (dict_pos (sw h' s1) name) with (dict_pos s1 name). change (dict (sw h' s1)) with (dict s1).
    destruct (dict_pos s1 name) as [pos|].
    - destruct (nth_error (dict s1) pos) as [e|]; [|apply comm_fail; exact W].
      destruct (dent e); try (apply comm_fail; exact W).
      split; [reflexivity|exact W].
    - apply (comm_bind h' _ _ (dict_insert name (DConst v)) (fun _ => ret tt));
        [apply obl_comm, obl_dict_insert|intros _; apply comm_ret|exact W].
  Qed.

  Lemma bprog_comm c A (m : M A) : bprog c m -> comm h' m.
  Proof.
    induction 1.
    - apply comm_ret.
    - apply comm_fail.
    - apply comm_unsup.
    - apply comm_bind; assumption.
    - apply comm_get_bind; [|assumption]. intros s0 _. apply H1.
    - apply obl_comm, obl_code_emit.
    - apply obl_comm, obl_backpatch.
    - apply obl_comm, obl_backpatch_jump.
    - apply obl_comm, obl_push_flow.
    - apply obl_comm, obl_pop_flow.
    - apply obl_comm, obl_take.
    - apply obl_comm, obl_dict_insert.
    - apply obl_comm, obl_alloc_heap.
    - apply obl_comm, obl_get_token.
    - apply obl_comm, obl_next_name.
    - apply comm_i_def_end.
    - apply comm_build_local_variable.
    - apply comm_i_immediate.
    - apply comm_i_const.
  Qed.

  Lemma c2_endcase_loop : forall fuel org, comm h' (endcase_loop fuel org).
  Proof. intros fuel org. exact (bprog_comm false _ _ (bp_endcase_loop _ fuel org)). Qed.
  Lemma c2_repeat_loop : forall fuel, comm h' (repeat_loop fuel).
  Proof. intros fuel. exact (bprog_comm false _ _ (bp_repeat_loop _ fuel)). Qed.
  Lemma c2_loop_loop : forall fuel a b, comm h' (loop_loop fuel a b).
  Proof. intros fuel a b. exact (bprog_comm false _ _ (bp_loop_loop _ fuel a b)). Qed.

  Lemma c2_code_emit_value v : comm h' (code_emit_value v).
  Proof. apply obl_comm, obl_code_emit. Qed.
  Lemma c2_build_local_variable name : comm h' (build_local_variable name).
  Proof. apply comm_build_local_variable. Qed.
  Lemma c2_build_global_variable name : comm h' (build_global_variable name).
  Proof. exact (bprog_comm false _ _ (bp_global _ name)). Qed.
  Lemma c2_build_let_named w : comm h' (build_let_named w).
  Proof. exact (bprog_comm false _ _ (bp_let_named _ w)). Qed.
  Lemma c2_build_let_match v : comm h' (build_let_match v).
  Proof. apply comm_bind; [apply c2_code_emit_value|intros _; apply obl_comm, obl_code_emit]. Qed.
  Lemma c2_let_vec_next i : comm h' (let_vec_next i).
  Proof.
    unfold let_vec_next. destruct (_ =? _)%Z; [apply comm_fail|].
    apply comm_bind; [apply c2_code_emit_value|intros _].
    apply comm_bind; [apply obl_comm, obl_code_emit|intros _; apply comm_ret].
  Qed.

End NIB.
