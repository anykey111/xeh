(* CompileBwdStep.v: the vocabulary of the simulation between the structural evaluator and the
   machine that runs the jump-resolved layout.

   - [wt_stmt] / [wt_block]: the syntactic weight of a tree: an upper bound of the evaluator
     fuel that is spent by merely descending into it (one unit per statement, per list cell
     and per nesting level); [call_weight funs]: 1 + the weight of the heaviest function body.
   - [cl_s] / [cl_b]: every call of the tree has a body in [funs] (otherwise the evaluator
     answers [SUnsup] while the machine jumps to an unrelated address).
   - [inreg K lo hi s]: the machine is inside a region: in the activation that entered it
     ([rskeys s = K]) the instruction pointer is in [lo, hi), or the return stack is deeper
     (a call made from inside the region is running).
   - [treach R s s']: [s'] is reached from [s] and every state before it satisfies [R];
     [stays R N s]: the first [N] states of the run from [s] exist and satisfy [R].
   - [okq]: what the machine does when the evaluator returns a given result: it reaches the
     corresponding state and the intermediate states are inside the region; [SOut] means "the
     machine makes at least B / W steps inside", [SUnsup] "the machine gets stuck inside on a
     panic / unsupported result". *)
From Xeh Require Import Model.Prelude Model.Bits Model.Codec Model.Cell Model.Lexer Model.Fmt
                        Model.Vm Model.Words Model.Struct
                        Proofs.VmFrame Proofs.StructBase Proofs.CompileSim Proofs.CompileLayout Proofs.CompileStep
                        Proofs.CompileEval.
Local Notation length := List.length.

#[local] Arguments Z.add : simpl never.
#[local] Arguments Z.sub : simpl never.
#[local] Arguments Z.mul : simpl never.
#[local] Arguments Z.ltb : simpl never.
#[local] Arguments Z.leb : simpl never.
#[local] Arguments Z.eqb : simpl never.
#[local] Arguments Z.of_nat : simpl never.
#[local] Arguments Z.to_nat : simpl never.

Fixpoint wt_stmt (x : stmt) : nat :=
  let wb := fix wb (l : list stmt) : nat := match l with [] => 1 | y :: r => 1 + wt_stmt y + wb r end in
  match x with
  | SIf _ t => 1 + wb t
  | SIfE _ t e => 1 + wb t + wb e
  | SCase arms d =>
    1 + (fix go (l : list (list stmt * pos * list stmt)) : nat :=
           match l with
           | [] => 0
           | (pre, _, body) :: r => wb pre + wb body + go r
           end) arms + wb d
  | SUntil b _ => 1 + wb b
  | SRepeat b => 1 + wb b
  | SWhile c _ b => 1 + wb c + wb b
  | SDo _ b _ => 1 + wb b
  | _ => 1
  end.

Fixpoint wt_block (l : list stmt) : nat :=
  match l with
  | [] => 1
  | x :: r => 1 + wt_stmt x + wt_block r
  end.

Fixpoint wt_arms (l : list arm) : nat :=
  match l with
  | [] => 0
  | (pre, _, body) :: r => wt_block pre + wt_block body + wt_arms r
  end.

Lemma wt_SIf : forall p t, wt_stmt (SIf p t) = 1 + wt_block t.
Proof. reflexivity. Qed.
Lemma wt_SIfE : forall p t e, wt_stmt (SIfE p t e) = 1 + wt_block t + wt_block e.
Proof. reflexivity. Qed.
Lemma wt_SCase : forall arms d, wt_stmt (SCase arms d) = 1 + wt_arms arms + wt_block d.
Proof. reflexivity. Qed.
Lemma wt_SUntil : forall b p, wt_stmt (SUntil b p) = 1 + wt_block b.
Proof. reflexivity. Qed.
Lemma wt_SRepeat : forall b, wt_stmt (SRepeat b) = 1 + wt_block b.
Proof. reflexivity. Qed.
Lemma wt_SWhile : forall c p b, wt_stmt (SWhile c p b) = 1 + wt_block c + wt_block b.
Proof. reflexivity. Qed.
Lemma wt_SDo : forall p b pl, wt_stmt (SDo p b pl) = 1 + wt_block b.
Proof. reflexivity. Qed.

Lemma wt_stmt_pos : forall x, 1 <= wt_stmt x.
Proof. destruct x; cbn [wt_stmt]; lia. Qed.
Lemma wt_block_pos : forall l, 1 <= wt_block l.
Proof. destruct l; cbn [wt_block]; lia. Qed.

Fixpoint max_body (fs : list (nat * list stmt)) : nat :=
  match fs with
  | [] => 0
  | (_, b) :: r => Nat.max (wt_block b) (max_body r)
  end.
Definition call_weight (fs : list (nat * list stmt)) : nat := S (max_body fs).

Lemma max_body_ge : forall fs g body, fun_body fs g = Some body -> wt_block body <= max_body fs.
Proof.
  induction fs as [|[k b] r IH]; intros g body H; cbn [fun_body] in H; [discriminate|].
  cbn [max_body]. destruct (k =? g).
  - injection H as <-. apply Nat.le_max_l.
  - etransitivity; [eapply IH; exact H|apply Nat.le_max_r].
Qed.

Lemma call_weight_ge : forall fs g body, fun_body fs g = Some body -> wt_block body <= call_weight fs.
Proof. intros fs g body H. unfold call_weight. pose proof (max_body_ge fs g body H). lia. Qed.
Lemma call_weight_pos : forall fs, 1 <= call_weight fs.
Proof. intro fs. unfold call_weight. lia. Qed.

Section Calls.
  Variable G : nat -> Prop.

  Inductive cg_s : stmt -> Prop :=
  | cg_Lit : forall c p, cg_s (SLit c p)
  | cg_Prim : forall w p, cg_s (SPrim w p)
  | cg_Call : forall g p, G g -> cg_s (SCall g p)
  | cg_Get : forall a p, cg_s (SGet a p)
  | cg_Set : forall a p, cg_s (SSet a p)
  | cg_LocGet : forall i p, cg_s (SLocGet i p)
  | cg_LocSet : forall i p, cg_s (SLocSet i p)
  | cg_If : forall p t, cg_b t -> cg_s (SIf p t)
  | cg_IfE : forall p t e, cg_b t -> cg_b e -> cg_s (SIfE p t e)
  | cg_Case : forall arms d, cg_a arms -> cg_b d -> cg_s (SCase arms d)
  | cg_Until : forall b p, cg_b b -> cg_s (SUntil b p)
  | cg_Repeat : forall b, cg_b b -> cg_s (SRepeat b)
  | cg_While : forall c p b, cg_b c -> cg_b b -> cg_s (SWhile c p b)
  | cg_Do : forall p b pl, cg_b b -> cg_s (SDo p b pl)
  | cg_Break : cg_s SBreak
  | cg_Def : forall g, cg_s (SDef g)
  with cg_b : list stmt -> Prop :=
  | cg_nil : cg_b []
  | cg_cons : forall x r, cg_s x -> cg_b r -> cg_b (x :: r)
  with cg_a : list arm -> Prop :=
  | cga_nil : cg_a []
  | cga_cons : forall pre p body r, cg_b pre -> cg_b body -> cg_a r -> cg_a ((pre, p, body) :: r).
End Calls.

Scheme cg_s_mut := Minimality for cg_s Sort Prop
  with cg_b_mut := Minimality for cg_b Sort Prop
  with cg_a_mut := Minimality for cg_a Sort Prop.
Combined Scheme cg_mutind from cg_s_mut, cg_b_mut, cg_a_mut.

Lemma cg_mono_all : forall (G G' : nat -> Prop), (forall g, G g -> G' g) ->
  (forall x, cg_s G x -> cg_s G' x) /\ (forall l, cg_b G l -> cg_b G' l) /\ (forall a, cg_a G a -> cg_a G' a).
Proof. intros G G' H. apply cg_mutind; intros; constructor; auto. Qed.

Lemma cg_s_mono : forall (G G' : nat -> Prop) x, (forall g, G g -> G' g) -> cg_s G x -> cg_s G' x.
Proof. intros G G' x H. apply (cg_mono_all G G' H). Qed.
Lemma cg_b_mono : forall (G G' : nat -> Prop) l, (forall g, G g -> G' g) -> cg_b G l -> cg_b G' l.
Proof. intros G G' l H. apply (cg_mono_all G G' H). Qed.

Definition has_body (funs : list (nat * list stmt)) (g : nat) : Prop := fun_body funs g <> None.
Definition cl_s (funs : list (nat * list stmt)) : stmt -> Prop := cg_s (has_body funs).
Definition cl_b (funs : list (nat * list stmt)) : list stmt -> Prop := cg_b (has_body funs).
Definition cl_a (funs : list (nat * list stmt)) : list arm -> Prop := cg_a (has_body funs).
Definition funs_closed (funs : list (nat * list stmt)) : Prop :=
  forall g body, fun_body funs g = Some body -> cl_b funs body.

(* the obligation the simulation puts on a call: if an [SUnsup] of the evaluator is to be
   matched by a stuck machine ([U]), the function has a body; with [U := False] every tree
   meets it, with [U := True] the closed ones *)
Definition callee (U : Prop) (funs : list (nat * list stmt)) (g : nat) : Prop := U -> has_body funs g.

Lemma cg_total : forall G : nat -> Prop, (forall g, G g) ->
  (forall x, cg_s G x) /\ (forall l, cg_b G l).
Proof.
  intros G HG.
  assert (Hs : forall x, cg_s G x)
    by (apply (stmt_ind2 (cg_s G) (cg_b G) (cg_a G)); intros; constructor; auto).
  split; [exact Hs|]. induction l; constructor; auto.
Qed.

Definition funs_callee (U : Prop) (funs : list (nat * list stmt)) : Prop :=
  forall g body, fun_body funs g = Some body -> cg_b (callee U funs) body.

Lemma callee_False_s : forall funs x, cg_s (callee False funs) x.
Proof. intros funs. apply cg_total. intros g []. Qed.
Lemma callee_False : forall funs l, cg_b (callee False funs) l.
Proof. intros funs. apply cg_total. intros g []. Qed.
Lemma callee_True_s : forall funs x, cl_s funs x -> cg_s (callee True funs) x.
Proof. intros funs x. apply cg_s_mono. intros g H _. exact H. Qed.
Lemma callee_True : forall funs l, cl_b funs l -> cg_b (callee True funs) l.
Proof. intros funs l. apply cg_b_mono. intros g H _. exact H. Qed.

Lemma funs_callee_False : forall funs, funs_callee False funs.
Proof. intros funs g body _. apply callee_False. Qed.
Lemma funs_callee_True : forall funs, funs_closed funs -> funs_callee True funs.
Proof. intros funs H g body Hg. apply callee_True. eapply H; eauto. Qed.

Definition inreg (K : list (nat * nat)) (lo hi : nat) (s : state) : Prop :=
  (rskeys s = K /\ lo <= ip s < hi) \/ (exists pre, pre <> [] /\ rskeys s = pre ++ K).

Lemma inreg_here : forall K lo hi s, rskeys s = K -> lo <= ip s < hi -> inreg K lo hi s.
Proof. intros. left. split; assumption. Qed.

Lemma inreg_sub : forall K K' lo hi lo' hi' s,
  K' = K -> lo <= lo' -> hi' <= hi -> inreg K' lo' hi' s -> inreg K lo hi s.
Proof.
  intros K K' lo hi lo' hi' s -> H1 H2 [[E H]|H].
  - left. split; [exact E|lia].
  - right. exact H.
Qed.

Lemma inreg_deeper : forall K k lo hi lo' hi' s, inreg (k :: K) lo' hi' s -> inreg K lo hi s.
Proof.
  intros K k lo hi lo' hi' s [[E H]|(pre & Hne & E)].
  - right. exists [k]. split; [discriminate|exact E].
  - right. exists (pre ++ [k]). split; [destruct pre; discriminate|].
    rewrite <- app_assoc. exact E.
Qed.

Lemma inreg_deeper_here : forall K k lo hi s, rskeys s = k :: K -> inreg K lo hi s.
Proof. intros K k lo hi s E. right. exists [k]. split; [discriminate|exact E]. Qed.

Lemma inreg_not_exit : forall K lo hi s, inreg K lo hi s -> rskeys s = K -> lo <= ip s < hi.
Proof.
  intros K lo hi s [[E H]|(pre & Hne & E)] HK; [exact H|].
  exfalso. rewrite HK in E. apply (f_equal (@length _)) in E. rewrite app_length in E.
  destruct pre; [contradiction|cbn [length] in E; lia].
Qed.

(* region goals: the state is in the activation that entered the region, at a known address *)
Ltac reg_here := apply inreg_here; [congruence || assumption || reflexivity | lia].
(* a sub-tree's region is inside the tree's region *)
Ltac reg_sub := intros ? ?; eapply inreg_sub; [| | |eassumption]; [congruence || reflexivity|lia|lia].

Section Trace.
  Variable nf : natives.

  Lemma steps_split : forall n m s s2, steps nf (n + m) s = Some s2 ->
    exists s1, steps nf n s = Some s1 /\ steps nf m s1 = Some s2.
  Proof.
    induction n as [|n IH]; intros m s s2 H.
    - exists s. split; [reflexivity|exact H].
    - cbn [steps Nat.add] in *. destruct (fetch_and_run nf s) as [u s'| | |]; try discriminate.
      apply IH. exact H.
  Qed.

  Lemma steps_prefix : forall n m s sn, steps nf n s = Some sn -> m <= n -> exists sm, steps nf m s = Some sm.
  Proof.
    intros n m s sn H Hle. replace n with (m + (n - m)) in H by lia.
    destruct (steps_split _ _ _ _ H) as (s1 & H1 & _). eauto.
  Qed.

  Lemma steps_S_last : forall n s sn s', steps nf n s = Some sn -> fetch_and_run nf sn = ROk tt s' ->
    steps nf (S n) s = Some s'.
  Proof.
    intros n s sn s' H F. replace (S n) with (n + 1) by lia. eapply steps_app; [exact H|].
    cbn [steps]. rewrite F. reflexivity.
  Qed.

  Lemma steps_S_inv : forall n s sn s2, steps nf n s = Some sn -> steps nf (S n) s = Some s2 ->
    fetch_and_run nf sn = ROk tt s2.
  Proof.
    intros n s sn s2 H H2. replace (S n) with (n + 1) in H2 by lia.
    destruct (steps_split _ _ _ _ H2) as (s1 & H1 & H3). rewrite H in H1. injection H1 as <-.
    cbn [steps] in H3. destruct (fetch_and_run nf sn) as [[] s'| | |]; try discriminate.
    injection H3 as <-. reflexivity.
  Qed.

  Definition treach (R : state -> Prop) (s s' : state) : Prop :=
    exists n, steps nf n s = Some s' /\ forall m, m < n -> exists sm, steps nf m s = Some sm /\ R sm.

  Definition stays (R : state -> Prop) (N : nat) (s : state) : Prop :=
    forall m, m < N -> exists sm, steps nf m s = Some sm /\ R sm.

  Lemma treach_refl : forall R s, treach R s s.
  Proof. intros R s. exists 0. split; [reflexivity|]. intros m H. lia. Qed.

  Lemma treach_step : forall (R : state -> Prop) s s1 s', R s -> fetch_and_run nf s = ROk tt s1 ->
    treach R s1 s' -> treach R s s'.
  Proof.
    intros R s s1 s' HR F (n & Hn & Hm). exists (S n). split.
    - cbn [steps]. rewrite F. exact Hn.
    - intros m Hlt. destruct m as [|m].
      + exists s. split; [reflexivity|exact HR].
      + cbn [steps]. rewrite F. apply Hm. lia.
  Qed.

  Lemma treach_one : forall (R : state -> Prop) s s1, R s -> fetch_and_run nf s = ROk tt s1 -> treach R s s1.
  Proof. intros. eapply treach_step; eauto using treach_refl. Qed.

  Lemma treach_trans : forall R a b d, treach R a b -> treach R b d -> treach R a d.
  Proof.
    intros R a b d (n & Hn & Hm) (k & Hk & Hj). exists (n + k). split.
    - eapply steps_app; eauto.
    - intros m Hlt. destruct (Nat.lt_ge_cases m n) as [H|H]; [apply Hm; exact H|].
      destruct (Hj (m - n) ltac:(lia)) as (sm & Hs & HR). exists sm. split; [|exact HR].
      replace m with (n + (m - n)) by lia. eapply steps_app; eauto.
  Qed.

  Lemma treach_mono : forall (R R' : state -> Prop) s s', (forall x, R x -> R' x) -> treach R s s' -> treach R' s s'.
  Proof.
    intros R R' s s' Hi (n & Hn & Hm). exists n. split; [exact Hn|].
    intros m Hlt. destruct (Hm m Hlt) as (sm & Hs & HR). eauto.
  Qed.

  Lemma treach_reaches : forall R s s', treach R s s' -> reaches nf s s'.
  Proof. intros R s s' (n & Hn & _). exists n. exact Hn. Qed.

  Lemma stays_0 : forall R s, stays R 0 s.
  Proof. intros R s m H. lia. Qed.

  Lemma stays_le : forall R N N' s, N' <= N -> stays R N s -> stays R N' s.
  Proof. intros R N N' s Hle H m Hm. apply H. lia. Qed.

  Lemma stays_mono : forall (R R' : state -> Prop) N s, (forall x, R x -> R' x) -> stays R N s -> stays R' N s.
  Proof. intros R R' N s Hi H m Hm. destruct (H m Hm) as (sm & Hs & HR). eauto. Qed.

  Lemma stays_step : forall (R : state -> Prop) N s s1, R s -> fetch_and_run nf s = ROk tt s1 ->
    stays R N s1 -> stays R (S N) s.
  Proof.
    intros R N s s1 HR F H m Hm. destruct m as [|m].
    - exists s. split; [reflexivity|exact HR].
    - cbn [steps]. rewrite F. apply H. lia.
  Qed.

  Lemma stays_reach : forall R N a b, treach R a b -> stays R N b -> stays R N a.
  Proof.
    intros R N a b (n & Hn & Hm) H m Hlt.
    destruct (Nat.lt_ge_cases m n) as [Hc|Hc]; [apply Hm; exact Hc|].
    destruct (H (m - n) ltac:(lia)) as (sm & Hs & HR). exists sm. split; [|exact HR].
    replace m with (n + (m - n)) by lia. eapply steps_app; eauto.
  Qed.

  Definition stuck (s : state) : Prop :=
    is_running s = true /\ (fetch_and_run nf s = RPanic \/ fetch_and_run nf s = RUnsup).
End Trace.

Lemma running_at : forall c s op, mach c s -> nth_error c (ip s) = Some op -> is_running s = true.
Proof.
  intros c s op [Mc _ _] H. unfold is_running. apply Nat.ltb_lt. apply nth_error_Some. rewrite Mc. congruence.
Qed.


Section RunQ.
  Variable nf : natives.
  Variable c : list opcode.
  Variable W : nat.          (* the weight of one machine step, in units of evaluator fuel *)
  Variable U : Prop.         (* an [SUnsup] of the evaluator is matched by a stuck machine *)

  (* started in [s], with [R] the region of the tree, [endp] the address behind its code, [bc]
     the context of `break` and [B] the fuel that is left after the descent *)
  Definition okq (R : state -> Prop) (s : state) (endp : nat) (bc : brk_ctx) (B : nat) (r : sres) : Prop :=
    match r with
    | SDone t' =>
      exists s', treach nf R s s' /\ mach c s' /\ ip s' = endp /\ sim t' s' /\ rskeys s' = rskeys s
    | SBroke t' =>
      exists s', treach nf R s s' /\ R s' /\ mach c s' /\
                 nth_error c (ip s') = Some (brk_op (ip s') bc) /\
                 bc <> BNone /\ sim t' s' /\ rskeys s' = rskeys s
    | SFail k pl _ t' =>
      exists sN s', treach nf R s sN /\ R sN /\ mach c sN /\ fetch_and_run nf sN = RErr k pl s' /\ sim t' s'
    | SOut => forall N, W * N <= B -> stays nf R N s
    | SUnsup => U -> exists sN, treach nf R s sN /\ R sN /\ stuck nf sN
    end.

  Lemma okq_reach : forall R s s1 endp bc B r,
    treach nf R s s1 -> rskeys s1 = rskeys s -> okq R s1 endp bc B r -> okq R s endp bc B r.
  Proof.
    intros R s s1 endp bc B r Hr Hk H. destruct r as [t'|t'|k pl p t'| |]; cbn [okq] in *.
    - destruct H as (s' & T & M & I & S & K). exists s'.
      split; [eapply treach_trans; eauto|]. repeat (split; [assumption|]). congruence.
    - destruct H as (s' & T & HR & M & I & Bn & S & K). exists s'.
      split; [eapply treach_trans; eauto|]. repeat (split; [assumption|]). congruence.
    - destruct H as (sN & s' & T & HR & MN & F & S). exists sN, s'.
      split; [eapply treach_trans; eauto|]. auto.
    - intros N HN. eapply stays_reach; [exact Hr|]. apply H. exact HN.
    - intro u. destruct (H u) as (sN & T & HR & St). exists sN. split; [eapply treach_trans; eauto|]. auto.
  Qed.

  Lemma okq_sub : forall (R R' : state -> Prop) s e e' bc B B1 r,
    okq R s e bc B1 r -> (forall x, R x -> R' x) -> B <= B1 -> e = e' -> okq R' s e' bc B r.
  Proof.
    intros R R' s e e' bc B B1 r H Hi Hle <-. destruct r as [t'|t'|k pl p t'| |]; cbn [okq] in *.
    - destruct H as (s' & T & M & I & S & K). exists s'. split; [eapply treach_mono; eauto|]. auto.
    - destruct H as (s' & T & HR & M & I & Bn & S & K). exists s'.
      split; [eapply treach_mono; eauto|]. split; [auto|]. auto.
    - destruct H as (sN & s' & T & HR & MN & F & S). exists sN, s'.
      split; [eapply treach_mono; eauto|]. split; [auto|]. auto.
    - intros N HN. eapply stays_mono; [exact Hi|]. apply H. lia.
    - intro u. destruct (H u) as (sN & T & HR & St). exists sN.
      split; [eapply treach_mono; eauto|]. split; [auto|exact St].
  Qed.

  Lemma okq_step : forall (R : state -> Prop) s s1 endp bc B r,
    R s -> fetch_and_run nf s = ROk tt s1 -> rskeys s1 = rskeys s ->
    okq R s1 endp bc (B - W) r -> okq R s endp bc B r.
  Proof.
    intros R s s1 endp bc B r HR F Hk H.
    destruct r as [t'|t'|k pl p t'| |]; cbn [okq] in *.
    - destruct H as (s' & T & M & I & S & K). exists s'.
      split; [eapply treach_step; eauto|]. repeat (split; [assumption|]). congruence.
    - destruct H as (s' & T & HR' & M & I & Bn & S & K). exists s'.
      split; [eapply treach_step; eauto|]. repeat (split; [assumption|]). congruence.
    - destruct H as (sN & s' & T & HR' & MN & F' & S). exists sN, s'.
      split; [eapply treach_step; eauto|]. auto.
    - intros N HN. destruct N as [|N]; [apply stays_0|].
      eapply stays_step; [exact HR|exact F|]. apply H. rewrite Nat.mul_succ_r in HN. lia.
    - intro u. destruct (H u) as (sN & T & HR' & St). exists sN. split; [eapply treach_step; eauto|]. auto.
  Qed.

  Lemma okq_step0 : forall (R : state -> Prop) s s1 endp bc B r,
    R s -> fetch_and_run nf s = ROk tt s1 -> rskeys s1 = rskeys s ->
    okq R s1 endp bc B r -> okq R s endp bc B r.
  Proof. intros R s s1 endp bc B r HR F Hk H. eapply okq_step; eauto. eapply okq_sub; eauto. lia. Qed.

  Lemma okq_bind : forall (R : state -> Prop) s e1 bc1 B r1 e bc (kd kb : state -> sres),
    okq R s e1 bc1 B r1 ->
    (forall t1 s1, mach c s1 -> ip s1 = e1 -> sim t1 s1 -> rskeys s1 = rskeys s -> okq R s1 e bc B (kd t1)) ->
    (forall t1 s1, R s1 -> mach c s1 -> nth_error c (ip s1) = Some (brk_op (ip s1) bc1) -> bc1 <> BNone ->
                   sim t1 s1 -> rskeys s1 = rskeys s -> okq R s1 e bc B (kb t1)) ->
    okq R s e bc B (on_res r1 kd kb).
  Proof.
    intros R s e1 bc1 B r1 e bc kd kb H Hd Hb. destruct r1 as [t1|t1|k pl p t1| |]; try exact H.
    - destruct H as (s1 & T & M & I & S & K). eapply okq_reach; [exact T|exact K|]. apply Hd; assumption.
    - destruct H as (s1 & T & HR & M & C & Bn & S & K). eapply okq_reach; [exact T|exact K|]. apply Hb; assumption.
  Qed.

  Lemma okq_done_here : forall R s t e bc B, mach c s -> sim t s -> ip s = e -> okq R s e bc B (SDone t).
  Proof.
    intros R s t e bc B M S I. exists s. split; [apply treach_refl|].
    repeat (split; [assumption|]). reflexivity.
  Qed.

  Lemma okq_broke_here : forall (R : state -> Prop) s t e bc B,
    R s -> mach c s -> nth_error c (ip s) = Some (brk_op (ip s) bc) -> bc <> BNone -> sim t s ->
    okq R s e bc B (SBroke t).
  Proof. intros R s t e bc B HR M C Bn S. exists s. split; [apply treach_refl|]. auto 7. Qed.

  (* no budget: nothing to show about an evaluator that ran out of fuel *)
  Lemma okq_out_small : forall R s endp bc B, B < W -> okq R s endp bc B SOut.
  Proof.
    intros R s endp bc B H N HN. destruct N as [|N]; [apply stays_0|].
    rewrite Nat.mul_succ_r in HN. lia.
  Qed.

  Lemma okq_stuck : forall (R : state -> Prop) s op endp bc B,
    mach c s -> R s -> nth_error c (ip s) = Some op ->
    fetch_and_run nf s = RPanic \/ fetch_and_run nf s = RUnsup -> okq R s endp bc B SUnsup.
  Proof.
    intros R s op endp bc B M HR Hn F _. exists s. split; [apply treach_refl|]. split; [exact HR|].
    split; [eapply running_at; eauto|exact F].
  Qed.

  Lemma step_run_mq : forall A (m : M A) (km : A -> M unit) (ke : A -> state -> sres) p t s op endp bc (R : state -> Prop) B,
    par m -> sim t s -> mach c s -> R s ->
    nth_error c (ip s) = Some op -> (forall n, op <> OResolve n) ->
    (forall s1, exec_op nf (ip s) op s1 = bind m km s1) ->
    (forall a t' s1, m t = ROk a t' -> sim t' s1 -> after c s s1 ->
                     fetch_and_run nf s = km a s1 -> okq R s endp bc B (ke a t')) ->
    okq R s endp bc B (@run_m A m p t ke).
  Proof.
    intros A m km ke p t s op endp bc R B Hp Hs M HR Hn Hr He Hk.
    pose proof (step_par nf c A m km t s op Hp Hs M Hn Hr He) as H.
    unfold run_m. destruct (m t) as [a t1|k pl t1| |] eqn:E.
    - destruct H as (s1 & F & S1 & A1). eapply Hk; eauto.
    - destruct H as (s' & F & S1). exists s, s'. split; [apply treach_refl|]. auto.
    - eapply okq_stuck; eauto.
    - eapply okq_stuck; eauto.
  Qed.

  Lemma okq_goto : forall (R : state -> Prop) s s1 t1 n endp bc B r,
    R s -> after c s s1 -> sim t1 s1 -> fetch_and_run nf s = set_ip n s1 ->
    (forall s2, mach c s2 -> ip s2 = n -> sim t1 s2 -> rskeys s2 = rskeys s -> okq R s2 endp bc (B - W) r) ->
    okq R s endp bc B r.
  Proof.
    intros R s s1 t1 n endp bc B r HR (M & I & K) S1 F H. rewrite set_ip_off in F by apply M.
    eapply okq_step; [exact HR|exact F|exact K|].
    apply H; [apply mach_set_ip; exact M|reflexivity|apply sim_set_ip_r; exact S1|exact K].
  Qed.

  Lemma okq_next : forall (R : state -> Prop) s s1 t1 endp bc B r,
    R s -> after c s s1 -> sim t1 s1 -> fetch_and_run nf s = next_ip s1 ->
    (forall s2, mach c s2 -> ip s2 = S (ip s) -> sim t1 s2 -> rskeys s2 = rskeys s -> okq R s2 endp bc (B - W) r) ->
    okq R s endp bc B r.
  Proof.
    intros R s s1 t1 endp bc B r HR (M & I & K) S1 F H. rewrite next_ip_off in F by apply M.
    eapply okq_step; [exact HR|exact F|exact K|].
    apply H; [apply mach_set_ip; exact M|rewrite <- I; reflexivity|apply sim_set_ip_r; exact S1|exact K].
  Qed.

  Lemma simple_stmtq : forall (m : M unit) p t s op bc (R : state -> Prop) B,
    par m -> sim t s -> mach c s -> R s ->
    nth_error c (ip s) = Some op -> (forall n, op <> OResolve n) ->
    (forall s1, exec_op nf (ip s) op s1 = bind m (fun _ => next_ip) s1) ->
    okq R s (ip s + 1) bc B (@run_m unit m p t (fun _ t' => SDone t')).
  Proof.
    intros m p t s op bc R B Hp Hs M HR Hn Hr He.
    eapply step_run_mq; eauto.
    intros [] t' s1 Em S1 A1 F. cbn beta in F.
    eapply okq_next; [exact HR|exact A1|exact S1|exact F|]. intros s2 M2 I2 S2 K2.
    apply okq_done_here; [exact M2|exact S2|lia].
  Qed.

  Lemma cont_run_mq : forall A (m : M A) (km : A -> M unit) (ke : A -> state -> sres) p t1 s s1 op endp bc (R : state -> Prop) B,
    par m -> mach c s -> nth_error c (ip s) = Some op -> R s -> sim t1 s1 -> after c s s1 ->
    fetch_and_run nf s = bind m km s1 ->
    (forall a t2 s2, m t1 = ROk a t2 -> sim t2 s2 -> after c s s2 -> fetch_and_run nf s = km a s2 ->
                     okq R s endp bc B (ke a t2)) ->
    okq R s endp bc B (run_m m p t1 ke).
  Proof.
    intros A m km ke p t1 s s1 op endp bc R B Hp M0 Hop HR S1 A1 F Hk.
    destruct A1 as (M1 & I1 & K1).
    pose proof (Hp t1 s1 S1 (m_rlog _ _ M1)) as H. unfold bind in F. unfold run_m.
    destruct (m t1) as [a t2|k pl t2| |] eqn:E1, (m s1) as [b s2|k' pl' s2| |] eqn:E2;
      cbn [rrel] in H; try contradiction.
    - destruct H as (<- & S2 & K2). eapply Hk; eauto.
      destruct K2 as (Ka&Kb&Kc&Kd&Ke&Kf). split; [|split].
      + destruct M1 as [Mc Ml Mi]. split; congruence.
      + congruence.
      + unfold rskeys in *. congruence.
    - destruct H as (<- & <- & S2 & K2). exists s, s2. split; [apply treach_refl|]. auto.
    - eapply okq_stuck; eauto.
    - eapply okq_stuck; eauto.
  Qed.

  Lemma okq_then_jump : forall (R : state -> Prop) s e e' bc B r rel,
    okq R s e bc B r -> nth_error c e = Some (OJump rel) -> jump_target e rel = e' ->
    (forall s1, ip s1 = e -> rskeys s1 = rskeys s -> R s1) ->
    okq R s e' bc B r.
  Proof.
    intros R s e e' bc B r rel H Hn Hj HR. destruct r as [t'|t'|k pl p t'| |]; cbn [okq] in *; auto.
    destruct H as (s1 & T & M & I & Hsim & K). subst e.
    destruct (jump_to nf c s1 t' rel M Hsim Hn) as (s2 & F & M2 & I2 & S2 & K2).
    exists s2. split; [eapply treach_trans; [exact T|eapply treach_one; [apply HR; auto|exact F]]|].
    split; [exact M2|]. split; [congruence|]. split; [exact S2|congruence].
  Qed.
End RunQ.
