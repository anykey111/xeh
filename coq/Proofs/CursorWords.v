(* CursorWords.v: the word-level statements of C06 (a) (b): what every reading word returns,
   how far it advances, and what a failure leaves behind. *)
From Xeh Require Import Model.Prelude Model.Bits Model.Codec Model.Cell Model.Lexer Model.Fmt
                        Model.Vm Model.Words.
From Xeh Require Import Proofs.BitsProofs Proofs.CodecBasic Proofs.CodecProofs Proofs.VmStep
                        Proofs.CursorDefs Proofs.CursorProofs.
From Coq Require Import ZifyBool ZifyNat ZifyN.
Local Notation length := List.length.

Lemma behaves_wp (m : M unit) s (Q : state -> Prop) (E : ekind -> state -> Prop) :
  behaves (m s) Q E -> wp m s (fun _ s' => Q s') (fun k _ s' => E k s') False.
Proof. unfold wp, behaves. destruct (m s); auto. Qed.

Lemma behaves_conseq r (Q Q' : state -> Prop) (E E' : ekind -> state -> Prop) :
  behaves r Q E -> (forall s', Q s' -> Q' s') -> (forall k s', E k s' -> E' k s') -> behaves r Q' E'.
Proof. unfold behaves. destruct r; auto. Qed.

Section Words.
  Variables (s : state) (inp : cbs) (off : Z).
  Hypothesis Hcur : cursor s inp off.

  Let Hc : hcursor (heap s) inp off := proj2 Hcur.

  Lemma sub_ok n : (0 <= n)%Z -> (off + n <= Z.of_nat (cend inp))%Z ->
    wf (sub inp off n) /\ abs (sub inp off n) = slice_bits inp off n /\
    clen (sub inp off n) = Z.to_nat n.
  Proof.
    intros Hn Hfit. destruct (hcursor_range _ _ _ Hc) as (Hr & _).
    apply sub_spec; [exact (hcursor_wf _ _ _ Hc)|lia|exact Hn|exact Hfit].
  Qed.

  Lemma bits_read_intro s' n d :
    read_done s s' inp off n d (CBits (sub inp off n)) -> cursor s' inp (off + n) ->
    bits_read s s' inp off n d.
  Proof.
    intros Hd Hcu. pose proof Hd as (Hn & Hfit & _). destruct (sub_ok n Hn Hfit) as (Hsw & Hsa & _).
    exists (sub inp off n). auto 6.
  Qed.

  Lemma bits_gen n s1 d args ar :
    st s s1 d (heap s) -> ds s = args ++ d -> length args <= ar ->
    wp (read_bits n) s1 (fun _ s' => bits_read s s' inp off n d) (EF s ar) False.
  Proof.
    intros Hst Ha Hl.
    eapply wp_conseq; [exact (read_result_wp Hcur _ s1 d args ar _ _ _ _ Hst Ha Hl
                                (read_bits_result Hcur n s1 d Hst))| |auto|auto].
    intros _ s' (_ & Hd & Hcu). apply bits_read_intro; assumption.
  Qed.

  Lemma sized (f : Z -> M unit) (P : Z -> list cell -> state -> Prop) :
    (forall n c r s1, ds s = c :: r -> st s s1 r (heap s) ->
                      wp (f n) s1 (fun _ s' => P n r s') (EF s 1) False) ->
    behaves (with_size f s)
            (fun s' => exists c rest n, ds s = c :: rest /\ is_usize c n /\ P n rest s')
            (fun _ => fail_frame 1 s).
  Proof using s.
    intros H. apply wp_behaves. eapply wp_with_size; [apply st_init| | |].
    - intros c r n s2 Hd Hn Hs2. eapply wp_conseq; [eapply (H n c r); eauto| |auto|auto].
      intros u s' HP. exists c, r, n. auto.
    - eapply (frame_intro s 1 _ (ds s) []); eauto using st_init.
    - intros c r s2 k p Hd _ Hs2 Hk. eapply (frame_intro s 1 _ r [c]); eauto.
  Qed.

  Lemma ordered (f : order -> M unit) (P : order -> state -> Prop) s1 d ar :
    st s s1 d (heap s) ->
    (forall o, wp (f o) s1 (fun _ s' => P o s') (EF s ar) False) ->
    wp (with_order f) s1 (fun _ s' => exists o, h_order (heap s) = Some o /\ P o s') (EF s ar) False.
  Proof using Hcur.
    intros Hst H. eapply wp_with_order; [exact Hst|apply Hcur|exact (hcursor_len _ _ _ Hc)|].
    intros o Ho. eapply wp_conseq; [apply H| |auto|auto]. intros u s' HP. eauto.
  Qed.

  (* a reader taking a width and a byte order, specified from any state reached from [s] by
     popping arguments; the three forms in which the word table offers it follow *)
  Definition gen (rd : Z -> order -> M unit) (P : Z -> order -> list cell -> state -> Prop) : Prop :=
    forall n o s1 d args ar, st s s1 d (heap s) -> ds s = args ++ d -> length args <= ar ->
      wp (rd n o) s1 (fun _ => P n o d) (EF s ar) False.

  Lemma plain_of_gen rd P : gen rd P -> forall n o,
    behaves (rd n o s) (P n o (ds s)) (fun _ => fail_frame 0 s).
  Proof.
    intros H n o. apply wp_behaves. apply (H n o s (ds s) [] 0); eauto using st_init.
  Qed.

  (* uN iN fN without an order suffix: the order of the [big]/[little] switch *)
  Lemma cur_of_gen rd P : gen rd P -> forall n,
    behaves (with_order (rd n) s)
            (fun s' => exists o, h_order (heap s) = Some o /\ P n o (ds s) s')
            (fun _ => fail_frame 0 s).
  Proof.
    intros H n. apply wp_behaves.
    apply (ordered (rd n) (fun o => P n o (ds s)) s (ds s) 0 (st_init s)).
    intros o. apply (H n o s (ds s) [] 0); eauto using st_init.
  Qed.

  (* uint int float: the width is popped from the stack *)
  Lemma sized_of_gen rd P : gen rd P ->
    behaves (with_size (fun n => with_order (rd n)) s)
            (fun s' => exists c rest n, ds s = c :: rest /\ is_usize c n /\
                                        exists o, h_order (heap s) = Some o /\ P n o rest s')
            (fun _ => fail_frame 1 s).
  Proof.
    intros H.
    apply (sized (fun n => with_order (rd n))
                 (fun n r s' => exists o, h_order (heap s) = Some o /\ P n o r s')).
    intros n c r s1 Hd Hs1. apply (ordered (rd n) (fun o => P n o r) s1 r 1 Hs1).
    intros o. apply (H n o s1 r [c] 1); auto.
  Qed.

  Definition uint_post n o d s' :=
    (n <= 127)%Z /\ num_read s s' inp off n d o (spec_uint o (slice_bits inp off n)).
  Definition int_post n o d s' :=
    (n <= 128)%Z /\ num_read s s' inp off n d o (spec_int o (slice_bits inp off n)).
  Definition float_post fo n o d s' :=
    exists pat, float_pat fo n o (slice_bits inp off n) pat /\ real_read s s' inp off n d o pat.

  Lemma unsigned_gen : gen read_unsigned uint_post.
  Proof.
    intros n o s1 d args ar Hst Ha Hl.
    eapply wp_conseq; [exact (read_result_wp Hcur _ s1 d args ar _ _ _ _ Hst Ha Hl
                                (read_unsigned_result Hcur n o s1 d Hst))| |auto|auto].
    intros _ s' (Hbad & Hd & Hcu). pose proof Hd as (Hn & Hfit & _).
    destruct (sub_ok n Hn Hfit) as (Hsw & Hsa & Hsl). rewrite Hsl in Hbad.
    split; [lia|]. eexists. split; [exact Hd|]. split; [exact Hcu|]. split; [|reflexivity].
    unfold uint_cell. cbn [with_tags value cint]. rewrite to_uint_spec by (auto; lia). rewrite Hsa. reflexivity.
  Qed.

  Lemma signed_gen : gen read_signed int_post.
  Proof.
    intros n o s1 d args ar Hst Ha Hl.
    eapply wp_conseq; [exact (read_result_wp Hcur _ s1 d args ar _ _ _ _ Hst Ha Hl
                                (read_signed_result Hcur n o s1 d Hst))| |auto|auto].
    intros _ s' (Hbad & Hd & Hcu). pose proof Hd as (Hn & Hfit & _).
    destruct (sub_ok n Hn Hfit) as (Hsw & Hsa & Hsl). rewrite Hsl in Hbad.
    split; [lia|]. eexists. split; [exact Hd|]. split; [exact Hcu|]. split; [|reflexivity].
    unfold int_cell. cbn [with_tags value cint]. rewrite to_int_spec by (auto; lia). rewrite Hsa. reflexivity.
  Qed.

  Lemma float_gen fo : gen (read_float fo) (float_post fo).
  Proof.
    intros n o s1 d args ar Hst Ha Hl.
    eapply wp_conseq; [exact (read_result_wp Hcur _ s1 d args ar _ _ _ _ Hst Ha Hl
                                (read_float_result Hcur fo n o s1 d Hst))| |auto|auto].
    intros _ s' (Hbad & Hd & Hcu). pose proof Hd as (Hn & Hfit & _).
    destruct (sub_ok n Hn Hfit) as (Hsw & Hsa & _).
    exists (if (n =? 32)%Z then f_of_f32 fo (to_fbits 4 o (sub inp off n)) else to_fbits 8 o (sub inp off n)).
    split.
    - unfold float_pat. rewrite <- Hsa, <- !to_fbits_spec by exact Hsw.
      destruct (Z.eqb_spec n 32) as [H32|H32]; [left; auto|]. right. split; [lia|reflexivity].
    - eexists. split; [exact Hd|]. split; [exact Hcu|]. split; reflexivity.
  Qed.

  Lemma bits_word :
    behaves (with_size read_bits s)
            (fun s' => exists c rest n, ds s = c :: rest /\ is_usize c n /\ bits_read s s' inp off n rest)
            (fun _ => fail_frame 1 s).
  Proof.
    apply (sized read_bits (fun n r s' => bits_read s s' inp off n r)).
    intros n c r s1 Hd Hs1. eapply (bits_gen n s1 r [c] 1); eauto.
  Qed.

  Lemma bytes_word :
    behaves (with_size (fun n => read_bits (n * 8)) s)
            (fun s' => exists c rest n, ds s = c :: rest /\ is_usize c n /\
                                        bits_read s s' inp off (n * 8) rest)
            (fun _ => fail_frame 1 s).
  Proof.
    apply (sized (fun n => read_bits (n * 8)) (fun n r s' => bits_read s s' inp off (n * 8) r)).
    intros n c r s1 Hd Hs1. eapply (bits_gen (n * 8)%Z s1 r [c] 1); eauto.
  Qed.

  Lemma magic_word' :
    behaves (w_magic s)
            (fun s' => exists c rest pat, ds s = c :: rest /\ value c = CBits pat /\
               bits_read s s' inp off (Z.of_nat (clen pat)) rest /\
               eq_with (sub inp off (Z.of_nat (clen pat))) pat = true /\
               (wf pat -> slice_bits inp off (Z.of_nat (clen pat)) = abs pat))
            (fun _ => fail_frame 1 s).
  Proof.
    apply wp_behaves. eapply wp_conseq; [apply (magic_word s inp off Hcur)| |auto|auto].
    intros _ s' (c & rest & pat & Hd & Hv & Hrd & Heq & Hcu). exists c, rest, pat.
    pose proof Hrd as (Hn & Hfit & _). destruct (sub_ok _ Hn Hfit) as (Hsw & Hsa & _).
    split; [exact Hd|]. split; [exact Hv|]. split; [apply bits_read_intro; assumption|].
    split; [exact Heq|]. intros Hp. rewrite <- Hsa. apply eq_with_spec; auto.
  Qed.

  Lemma nulbytestr_word' :
    behaves (w_nulbytestr s)
            (fun s' => bits_read s s' inp off (Z.of_nat (nul_bits (rest_of inp off))) (ds s))
            (fun _ => fail_frame 0 s).
  Proof.
    apply wp_behaves. eapply wp_conseq; [apply (nul_read_word s inp off Hcur (fun b => CBits b))| |auto|auto].
    cbv zeta. intros _ s' (Hrd & Hcu). apply bits_read_intro; assumption.
  Qed.
End Words.

Lemma be_bytes_acc : forall l acc,
  fold_left (fun a b => (a * 256 + Z.of_N b)%Z) l acc
  = (acc * 256 ^ Z.of_nat (length l) + be_bytes_to_Z l)%Z.
Proof.
  unfold be_bytes_to_Z. induction l as [|b l IH]; intros acc; cbn [fold_left length].
  - change (256 ^ Z.of_nat 0)%Z with 1%Z. lia.
  - rewrite IH, (IH (0 * 256 + Z.of_N b)%Z).
    replace (Z.of_nat (S (length l))) with (1 + Z.of_nat (length l))%Z by lia.
    rewrite Z.pow_add_r by lia. change (256 ^ 1)%Z with 256%Z. ring.
Qed.

Lemma be_bytes_cons b l :
  be_bytes_to_Z (b :: l) = (Z.of_N b * 256 ^ Z.of_nat (length l) + be_bytes_to_Z l)%Z.
Proof. unfold be_bytes_to_Z at 1. cbn [fold_left]. rewrite be_bytes_acc. ring. Qed.

Lemma pow256 n : (256 ^ Z.of_nat n = 2 ^ Z.of_nat (8 * n))%Z.
Proof.
  change 256%Z with (2 ^ 8)%Z. rewrite <- Z.pow_mul_r by lia. f_equal. lia.
Qed.

Lemma take_pad_length : forall k (l : list N), length (take_pad k l) = k.
Proof. induction k as [|k IH]; intros [|x r]; cbn [take_pad length]; auto. Qed.

Lemma fbits_big : forall k l, length l = 8 * k ->
  be_bytes_to_Z (take_pad k (map bits_to_N (chunk8 l))) = bitsZ l.
Proof.
  induction k as [|k IH]; intros l Hl.
  - destruct l; [|discriminate]. reflexivity.
  - assert (Hs : l = (firstn 8 l ++ skipn 8 l)%list) by (symmetry; apply firstn_skipn).
    assert (Hg : length (firstn 8 l) = 8) by (rewrite firstn_length; lia).
    assert (Hr : length (skipn 8 l) = 8 * k) by (rewrite skipn_length; lia).
    rewrite Hs at 1. rewrite chunk8_app by exact Hg. cbn [map take_pad].
    rewrite be_bytes_cons, (IH _ Hr).
    rewrite take_pad_length, pow256. rewrite Hs at 3. rewrite bitsZ_app, Hr. reflexivity.
Qed.

Lemma le_groups_shift : forall gs sh, Forall (fun g => length g = 8) gs ->
  le_groups gs sh = (2 ^ Z.of_nat sh * be_bytes_to_Z (rev (map bits_to_N gs)))%Z.
Proof.
  induction gs as [|g gs IH]; intros sh Hgs; cbn [le_groups map rev].
  - unfold be_bytes_to_Z. cbn [fold_left]. lia.
  - inversion Hgs as [|? ? Hg Hr]; subst. rewrite be_bytes_to_Z_snoc, (IH _ Hr), Hg.
    replace (Z.of_nat (sh + 8)) with (Z.of_nat sh + 8)%Z by lia.
    rewrite Z.pow_add_r by lia. change (2 ^ 8)%Z with 256%Z. unfold bitsZ. ring.
Qed.

Lemma chunk8_all8 : forall k (l : list bool), length l = 8 * k ->
  Forall (fun g => length g = 8) (chunk8 l) /\ length (chunk8 l) = k.
Proof.
  induction k as [|k IH]; intros l Hl.
  - destruct l; [|discriminate]. split; [constructor|reflexivity].
  - assert (Hs : l = (firstn 8 l ++ skipn 8 l)%list) by (symmetry; apply firstn_skipn).
    assert (Hg : length (firstn 8 l) = 8) by (rewrite firstn_length; lia).
    assert (Hr : length (skipn 8 l) = 8 * k) by (rewrite skipn_length; lia).
    rewrite Hs. rewrite chunk8_app by exact Hg. destruct (IH _ Hr) as (H1 & H2).
    split; [constructor; assumption|cbn [length]; lia].
Qed.

Theorem fbits_of_spec : forall k o l, length l = 8 * k -> fbits_of k o l = spec_uint o l.
Proof.
  intros k o l Hl. unfold fbits_of, spec_uint. destruct o.
  - destruct (chunk8_all8 k l Hl) as (H8 & Hk).
    rewrite take_pad_all by (rewrite map_length; exact Hk).
    rewrite le_groups_shift by exact H8. change (2 ^ Z.of_nat 0)%Z with 1%Z. lia.
  - apply fbits_big. exact Hl.
Qed.
