(* UnwindSimVm.v (C15): executing code does not read the nested contexts nor the marks
   cs_len / fs_len / di_len of the current context, and leaves them alone: running from a
   state in which they are replaced gives the same result with the same replacement. *)
From Xeh Require Import Model.Prelude Model.Bits Model.Codec Model.Cell Model.Lexer Model.Fmt
                        Model.Vm Model.Words Model.Build.
From Xeh Require Import Proofs.VmFrame Proofs.VmLimits Proofs.UnwindIrr.
Local Notation length := List.length.

Definition chg (t : state) (cs fs di : nat) (n' : list ctx) : state :=
  set_nested (set_cx t (mkctx (ds_len (cx t)) cs (rs_len (cx t)) fs (ls_len (cx t)) (ss_ptr (cx t)) di
                              (cip (cx t)) (cmode (cx t)))) n'.

Definition P_chg {A} (m : M A) : Prop :=
  forall s cs fs di n', m (chg s cs fs di n') = res_map (fun r => chg r cs fs di n') (m s).

Ltac chg_prim :=
  let s := fresh "s" in
  intro s; intros; destruct_state s;
  match goal with c : ctx |- _ => destruct c end;
  cbv [push_data pop_data top_data swap_data rot_data over_data push_return pop_return top_frame
       push_loop pop_loop loop_next loop_set_items push_special pop_special get_var set_var
       init_local set_ip next_ip print modify ret fail unsup panic
       add_rstep limit_reached data_depth ip set_ip_raw chg res_map
       set_ds set_rs set_loops set_special set_heap set_cx set_nested set_rlog set_out set_stopping
       dict heap code dbg sources input ds rs flows loops special cx nested meter insn_limit
       heap_limit stack_limit rlog out last_tok stopping
       ds_len cs_len rs_len fs_len ls_len ss_ptr di_len cip cmode];
  break_matches; reflexivity.

Lemma chg_bind A B (m : M A) (f : A -> M B) : P_chg m -> (forall a, P_chg (f a)) -> P_chg (bind m f).
Proof.
  intros Hm Hf s cs fs di n'. unfold bind. rewrite (Hm s cs fs di n').
  destruct (m s) as [a s1 | k p s1 | |]; cbn [res_map]; try reflexivity. apply Hf.
Qed.

Lemma chg_get_bind B (k : state -> M B) :
  (forall s0 cs fs di n' s, k (chg s0 cs fs di n') s = k s0 s) -> (forall s0, P_chg (k s0)) -> P_chg (bind get k).
Proof. intros H1 H2 s cs fs di n'. unfold bind, get. rewrite H1. apply H2. Qed.

Lemma wx_chg : forall A (m : M A), wx m -> P_chg m.
Proof.
  induction 1; try (chg_prim; fail).
  - apply chg_bind; assumption.
  - apply chg_get_bind; [|assumption]. intros s0 cs fs di n' s.
    change (chg s0 cs fs di n') with
      (irr s0 (dbg s0) (sources s0) (input s0) n' (meter s0) (rlog s0) (out s0) (last_tok s0) (stopping s0) cs fs di).
    apply H1.
Qed.

Lemma meter_increase_chg : P_chg meter_increase.
Proof.
  intros s cs fs di n'. destruct_state s.
  cbv [meter_increase chg res_map set_cx set_nested set_meter insn_limit meter
       dict heap code dbg sources input ds rs flows loops special cx nested
       heap_limit stack_limit rlog out last_tok stopping].
  break_matches; reflexivity.
Qed.

Section WithTable.
  Variable nf : natives.
  Hypothesis Hnf : forall w f, nf w = Some f -> wx f.

  Lemma exec_op_chg : forall ip0 op, P_chg (exec_op nf ip0 op).
  Proof. intros. apply wx_chg. apply wx_exec_op. exact Hnf. Qed.

  Lemma far_chg : P_chg (fetch_and_run nf).
  Proof.
    intros s cs fs di n'. rewrite !fetch_and_run_eq. revert s cs fs di n'.
    apply chg_get_bind; [reflexivity|intros s0].
    apply chg_bind; [apply meter_increase_chg|intros _].
    apply chg_get_bind; [reflexivity|intros s1].
    destruct (nth_error (code s1) (ip s0)) as [op|]; [|intros s cs fs di n'; reflexivity].
    destruct op; try apply exec_op_chg.
    destruct (dict_entry s1 name) as [e|]; [|intros s cs fs di n'; reflexivity].
    apply chg_bind; [intros s cs fs di n'; reflexivity|intros _].
    apply chg_bind; [apply meter_increase_chg|intros _]. apply exec_op_chg.
  Qed.

  Lemma run_chg : forall fuel s cs fs di n',
    run nf fuel (chg s cs fs di n') = option_map (res_map (fun r => chg r cs fs di n')) (run nf fuel s).
  Proof.
    induction fuel as [|f IH]; intros s cs fs di n'; cbn [run option_map]; [ reflexivity | ].
    change (is_running (chg s cs fs di n')) with (is_running s).
    destruct (is_running s); [ | reflexivity ].
    rewrite (far_chg s).
    destruct (fetch_and_run nf s) as [u s1 | k p s1 | |]; cbn [res_map option_map]; try reflexivity.
    apply IH.
  Qed.
End WithTable.

Theorem run_chg_native : forall fo fuel s cs fs di n',
  run (native_fn fo) fuel (chg s cs fs di n') =
  option_map (res_map (fun r => chg r cs fs di n')) (run (native_fn fo) fuel s).
Proof. intro fo. apply run_chg. apply native_wx. Qed.

Theorem run_m_chg : forall fo rf s cs fs di n',
  run_m fo rf (chg s cs fs di n') = res_map (fun r => chg r cs fs di n') (run_m fo rf s).
Proof.
  intros. unfold run_m, nf. rewrite run_chg_native.
  destruct (run (native_fn fo) rf s); reflexivity.
Qed.
