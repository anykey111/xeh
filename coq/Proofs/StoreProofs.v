(* StoreProofs.v (C03): the ownership protocol of Store.v keeps shared storage isolated.

   For every operation of Store.v:
     (1) [store_inv] (strong count = number of live handles; every live handle well formed)
         is preserved, where a consuming operation replaces its argument handle by its result;
     (2) no OTHER live handle changes what it denotes ([view], hence [habs]);
     (3) the result handle denotes what the list-level operation of Bits.v denotes.
   The per-operation lemmas are stated for a live list [h :: L] ("h and the others"); the
   pool lemmas at the end transport them to [pool_step] / [pool_run] through permutations. *)
From Xeh Require Import Model.Prelude Model.Bits Model.Store.
From Xeh Require Import Proofs.BitsBasic Proofs.BitsKernel Proofs.BitsLists Proofs.BitsMirror Proofs.BitsProofs Proofs.BitsDetach.
From Coq Require Import Permutation ZifyBool ZifyNat ZifyN.


Lemma sset_length : forall st p b, length (sset st p b) = length st.
Proof. induction st as [|x r IH]; intros [|p] b; cbn [sset length]; auto. Qed.

Lemma sget_sset_same : forall st p b, p < length st -> sget (sset st p b) p = b.
Proof.
  unfold sget. induction st as [|x r IH]; intros [|p] b H; cbn [length] in H; try lia;
    cbn [sset nth]; auto. apply IH. lia.
Qed.

Lemma sget_sset_other : forall st p q b, p <> q -> sget (sset st p b) q = sget st q.
Proof.
  unfold sget. induction st as [|x r IH]; intros [|p] [|q] b H; cbn [sset nth]; auto; try lia.
Qed.

Lemma sset_oob : forall st p b, length st <= p -> sset st p b = st.
Proof.
  induction st as [|x r IH]; intros [|p] b H; cbn [length] in H; cbn [sset]; auto; try lia.
  f_equal. apply IH. lia.
Qed.

Lemma sget_app_old st l p : p < length st -> sget (st ++ l) p = sget st p.
Proof. intros H. unfold sget. apply app_nth1. exact H. Qed.

Lemma sget_app_new st b : sget (st ++ [b]) (length st) = b.
Proof. unfold sget. rewrite app_nth2 by lia. rewrite Nat.sub_diag. reflexivity. Qed.

Lemma bbytes_sset_self st p s bo q :
  bbytes (sget (sset st p (mkbuf (bbytes (sget st p)) s bo)) q) = bbytes (sget st q).
Proof.
  destruct (Nat.eq_dec p q) as [->|Hne].
  - destruct (lt_dec q (length st)) as [Hlt|Hge].
    + rewrite sget_sset_same by exact Hlt. reflexivity.
    + rewrite sset_oob by lia. reflexivity.
  - rewrite sget_sset_other by exact Hne. reflexivity.
Qed.

Lemma incr_length st p : length (incr st p) = length st.
Proof. apply sset_length. Qed.
Lemma decr_length st p : length (decr st p) = length st.
Proof. apply sset_length. Qed.

Lemma bbytes_incr st p q : bbytes (sget (incr st p) q) = bbytes (sget st q).
Proof. apply bbytes_sset_self. Qed.
Lemma bbytes_decr st p q : bbytes (sget (decr st p) q) = bbytes (sget st q).
Proof. apply bbytes_sset_self. Qed.

Lemma strong_incr st p q : p < length st ->
  strong (sget (incr st p) q) = (if p =? q then 1 else 0) + strong (sget st q).
Proof.
  intros H. unfold incr. destruct (Nat.eq_dec p q) as [->|Hne].
  - rewrite sget_sset_same by exact H. rewrite Nat.eqb_refl. reflexivity.
  - rewrite sget_sset_other by exact Hne. replace (p =? q) with false by lia. reflexivity.
Qed.

Lemma strong_decr st p q : p < length st ->
  strong (sget (decr st p) q) = strong (sget st q) - (if p =? q then 1 else 0).
Proof.
  intros H. unfold decr. destruct (Nat.eq_dec p q) as [->|Hne].
  - rewrite sget_sset_same by exact H. rewrite Nat.eqb_refl. reflexivity.
  - rewrite sget_sset_other by exact Hne. replace (p =? q) with false by lia. lia.
Qed.

Lemma view_incr st p g : view (incr st p) g = view st g.
Proof. unfold view. rewrite bbytes_incr. reflexivity. Qed.
Lemma view_decr st p g : view (decr st p) g = view st g.
Proof. unfold view. rewrite bbytes_decr. reflexivity. Qed.

Lemma habs_of_view st st' g g' : view st' g' = view st g -> habs st' g' = habs st g.
Proof. unfold habs. intros ->. reflexivity. Qed.

Lemma count_ptr_app p a b : count_ptr p (a ++ b) = count_ptr p a + count_ptr p b.
Proof. induction a as [|h a IH]; cbn [app count_ptr]; [reflexivity|]. rewrite IH. lia. Qed.

Lemma count_ptr_perm p a b : Permutation a b -> count_ptr p a = count_ptr p b.
Proof. induction 1; cbn [count_ptr]; lia. Qed.

Lemma count_ptr_oob st L p :
  Forall (handle_wf st) L -> length st <= p -> count_ptr p L = 0.
Proof.
  induction 1 as [|h L Hh _ IH]; intros Hp; cbn [count_ptr]; [reflexivity|].
  destruct Hh as [Hh _]. rewrite IH by exact Hp. replace (hptr h =? p) with false by lia. reflexivity.
Qed.

Lemma count_ptr_zero p L g : count_ptr p L = 0 -> In g L -> hptr g <> p.
Proof.
  induction L as [|h L IH]; cbn [count_ptr In]; intros H Hin; [contradiction|].
  destruct Hin as [->|Hg].
  - destruct (hptr g =? p) eqn:E; lia.
  - apply IH; [lia|exact Hg].
Qed.

Lemma count_ptr_zero_iff p L : count_ptr p L = 0 <-> (forall g, In g L -> hptr g <> p).
Proof.
  split; [intros H g Hg; eapply count_ptr_zero; eassumption|].
  induction L as [|h L IH]; intros H; cbn [count_ptr]; [reflexivity|].
  rewrite IH by (intros g Hg; apply H; right; exact Hg).
  pose proof (H h (or_introl eq_refl)). destruct (hptr h =? p) eqn:E; lia.
Qed.

Lemma store_inv_perm st L L' : Permutation L L' -> store_inv st L -> store_inv st L'.
Proof.
  intros HP [H1 H2]. split.
  - intros p Hp. rewrite (H1 p Hp). apply count_ptr_perm. exact HP.
  - eapply Permutation_Forall; eassumption.
Qed.

Lemma remove_nth_length {A} : forall (l : list A) i, i < length l -> length (remove_nth l i) = length l - 1.
Proof.
  induction l as [|x l IH]; intros [|i] H; cbn [length] in *; cbn [remove_nth length]; try lia.
  rewrite IH by lia. lia.
Qed.

Lemma remove_nth_oob {A} : forall (l : list A) i, length l <= i -> remove_nth l i = l.
Proof.
  induction l as [|x l IH]; intros [|i] H; cbn [length] in *; cbn [remove_nth]; try lia; auto.
  f_equal. apply IH. lia.
Qed.

Lemma perm_nth_remove {A} (d : A) : forall l i, i < length l ->
  Permutation l (nth i l d :: remove_nth l i).
Proof.
  induction l as [|x l IH]; intros [|i] H; cbn [length] in H; try lia; cbn [nth remove_nth].
  - apply Permutation_refl.
  - apply (perm_trans (l' := x :: nth i l d :: remove_nth l i)).
    + apply perm_skip. apply IH. lia.
    + apply perm_swap.
Qed.

Lemma in_remove_nth {A} : forall (l : list A) i g, In g (remove_nth l i) -> In g l.
Proof.
  induction l as [|x l IH]; intros [|i] g; cbn [remove_nth In]; auto.
  intros [->|H]; [left; reflexivity|right; eapply IH; exact H].
Qed.

Lemma handle_wf_transfer st st' g :
  handle_wf st g -> hptr g < length st' ->
  bbytes (sget st' (hptr g)) = bbytes (sget st (hptr g)) -> handle_wf st' g.
Proof.
  intros [H1 H2] Hl Hb. split; [exact Hl|]. unfold view in *. rewrite Hb. exact H2.
Qed.

Lemma store_inv_wf st L g : store_inv st L -> In g L -> handle_wf st g.
Proof. intros [_ H] Hg. rewrite Forall_forall in H. apply H. exact Hg. Qed.


Lemma store_inv_head st h L : store_inv st (h :: L) -> hptr h < length st /\ wf (view st h).
Proof. intros [_ H]. exact (Forall_inv H). Qed.

Lemma handle_eta h : mkh (hptr h) (hstart h) (hend h) = h.
Proof. destruct h; reflexivity. Qed.

(* one more handle on an existing buffer (clone, substr, the temporaries of insert) *)
Lemma inv_add st L p s e :
  store_inv st L -> p < length st -> wf (mkcbs s e (bbytes (sget st p))) ->
  store_inv (incr st p) (mkh p s e :: L).
Proof.
  intros [H1 H2] Hp Hw. split.
  - intros q Hq. rewrite incr_length in Hq. rewrite strong_incr by exact Hp.
    cbn [count_ptr hptr]. rewrite (H1 q Hq). reflexivity.
  - constructor.
    + split; [rewrite incr_length; exact Hp|]. rewrite view_incr. exact Hw.
    + eapply Forall_impl; [|exact H2]. intros g Hg.
      apply (handle_wf_transfer st); [exact Hg|rewrite incr_length; apply Hg|apply bbytes_incr].
Qed.

Lemma inv_drop st h L : store_inv st (h :: L) -> store_inv (decr st (hptr h)) L.
Proof.
  intros [H1 H2]. inversion H2 as [|? ? Hh HL]; subst. split.
  - intros q Hq. rewrite decr_length in Hq. rewrite strong_decr by apply Hh.
    rewrite (H1 q Hq). cbn [count_ptr]. destruct (hptr h =? q); lia.
  - eapply Forall_impl; [|exact HL]. intros g Hg.
    apply (handle_wf_transfer st); [exact Hg|rewrite decr_length; apply Hg|apply bbytes_decr].
Qed.

Lemma view_alloc st c bo :
  view (st ++ [mkbuf (cdata c) 1 bo]) (mkh (length st) (cstart c) (cend c)) = c.
Proof. unfold view. cbn [hptr hstart hend]. rewrite sget_app_new. apply cbs_eta. Qed.

Lemma inv_alloc st L c bo :
  store_inv st L -> wf c ->
  store_inv (st ++ [mkbuf (cdata c) 1 bo]) (mkh (length st) (cstart c) (cend c) :: L) /\
  (forall g, In g L -> view (st ++ [mkbuf (cdata c) 1 bo]) g = view st g).
Proof.
  intros [H1 H2] Hw.
  assert (HV : forall g, In g L -> view (st ++ [mkbuf (cdata c) 1 bo]) g = view st g).
  { intros g Hg. unfold view. rewrite sget_app_old; [reflexivity|].
    rewrite Forall_forall in H2. apply (H2 g Hg). }
  split; [|exact HV]. split.
  - intros q Hq. rewrite app_length in Hq. cbn [length] in Hq. cbn [count_ptr hptr].
    destruct (Nat.eq_dec q (length st)) as [->|Hne].
    + rewrite sget_app_new. cbn [strong]. rewrite Nat.eqb_refl.
      rewrite (count_ptr_oob st L) by (assumption || lia). reflexivity.
    + rewrite sget_app_old by lia. replace (length st =? q) with false by lia.
      apply H1. lia.
  - constructor.
    + split; [rewrite app_length; cbn [length hptr]; lia|]. rewrite view_alloc. exact Hw.
    + rewrite Forall_forall in *. intros g Hg. destruct (H2 g Hg) as [Ha Hb].
      split; [rewrite app_length; lia|]. rewrite (HV g Hg). exact Hb.
Qed.

Lemma inv_rewrite st h L c bo :
  store_inv st (h :: L) -> strong (sget st (hptr h)) = 1 -> wf c ->
  store_inv (sset st (hptr h) (mkbuf (cdata c) 1 bo)) (mkh (hptr h) (cstart c) (cend c) :: L) /\
  (forall g, In g L -> view (sset st (hptr h) (mkbuf (cdata c) 1 bo)) g = view st g) /\
  view (sset st (hptr h) (mkbuf (cdata c) 1 bo)) (mkh (hptr h) (cstart c) (cend c)) = c.
Proof.
  intros [H1 H2] Hu Hw. inversion H2 as [|? ? Hh HL]; subst.
  destruct Hh as [Hp _].
  assert (Hz : count_ptr (hptr h) L = 0).
  { pose proof (H1 _ Hp) as E. cbn [count_ptr] in E. rewrite Nat.eqb_refl in E. lia. }
  assert (HV : forall g, In g L -> view (sset st (hptr h) (mkbuf (cdata c) 1 bo)) g = view st g).
  { intros g Hg. unfold view. rewrite sget_sset_other; [reflexivity|].
    intros E. exact (count_ptr_zero _ _ _ Hz Hg (eq_sym E)). }
  assert (HN : view (sset st (hptr h) (mkbuf (cdata c) 1 bo)) (mkh (hptr h) (cstart c) (cend c)) = c).
  { unfold view. cbn [hptr hstart hend]. rewrite sget_sset_same by exact Hp. apply cbs_eta. }
  split; [|split; assumption]. split.
  - intros q Hq. rewrite sset_length in Hq. cbn [count_ptr hptr].
    destruct (Nat.eq_dec (hptr h) q) as [<-|Hne].
    + rewrite sget_sset_same by exact Hp. cbn [strong]. rewrite Nat.eqb_refl, Hz. reflexivity.
    + rewrite sget_sset_other by exact Hne. rewrite (H1 q Hq). cbn [count_ptr]. reflexivity.
  - constructor.
    + split; [rewrite sset_length; exact Hp|]. rewrite HN. exact Hw.
    + rewrite Forall_forall in *. intros g Hg. destruct (HL g Hg) as [Ha Hb].
      split; [rewrite sset_length; exact Ha|]. rewrite (HV g Hg). exact Hb.
Qed.

(* The operations.  For one that computes a new value, [h_X_sim] gives the invariant, the
   frame, and the whole view of the result as the value-level operation of Bits.v on the views
   of the operands; what the result denotes ([h_X_spec]) follows by the C04 lemma of that
   operation. *)

Lemma sim_spec st st' L h' c R :
  store_inv st' (h' :: L) /\ (forall g, In g L -> view st' g = view st g) /\ view st' h' = c ->
  abs c = R ->
  store_inv st' (h' :: L) /\ (forall g, In g L -> view st' g = view st g) /\ habs st' h' = R.
Proof. intros (I & V & N) A. unfold habs. rewrite N. auto. Qed.

Lemma h_new_spec st L d bo st' h :
  store_inv st L -> bytes_ok d -> h_new st d bo = (st', h) ->
  store_inv st' (h :: L) /\ (forall g, In g L -> view st' g = view st g) /\
  view st' h = from_bytes d.
Proof.
  intros HI Hd E. unfold h_new, alloc in E. injection E as <- <-.
  assert (Hw : wf (from_bytes d)) by (apply wf_mk; [lia|lia|exact Hd]).
  destruct (inv_alloc st L (from_bytes d) bo HI Hw) as [I V].
  split; [exact I|]. split; [exact V|]. apply (view_alloc st (from_bytes d)).
Qed.

Lemma h_clone_spec st h L st' h' :
  store_inv st (h :: L) -> h_clone st h = (st', h') ->
  store_inv st' (h' :: h :: L) /\ (forall g, view st' g = view st g) /\ h' = h.
Proof.
  intros HI E. unfold h_clone in E. injection E as <- <-.
  destruct (store_inv_head _ _ _ HI) as [Hp Hw].
  split; [|split; [intros g; apply view_incr|reflexivity]].
  destruct h as [p s e]. apply inv_add; assumption.
Qed.

Lemma h_drop_spec st h L :
  store_inv st (h :: L) ->
  store_inv (h_drop st h) L /\ (forall g, view (h_drop st h) g = view st g).
Proof.
  intros HI. split; [apply inv_drop; exact HI|]. intros g. apply view_decr.
Qed.

Lemma h_substr_spec st h L s e :
  store_inv st (h :: L) ->
  match h_substr st h s e with
  | Some (st', h') =>
    s <= e /\ hstart h <= s /\ e <= hend h /\
    store_inv st' (h' :: h :: L) /\ (forall g, view st' g = view st g) /\
    habs st' h' = firstn (e - s) (skipn (s - hstart h) (habs st h))
  | None => ~ (s <= e /\ hstart h <= s /\ e <= hend h)
  end.
Proof.
  intros HI. destruct (store_inv_head _ _ _ HI) as [Hp Hw].
  unfold h_substr. pose proof (substr_spec (view st h) s e Hw) as HS.
  destruct (substr (view st h) s e) as [r|] eqn:E; [|exact HS].
  destruct HS as (A1 & A2 & A3 & Wr & Ar).
  assert (Er : r = view st (mkh (hptr h) s e)).
  { unfold substr in E. destruct (_ && _) in E; [|discriminate]. injection E as <-. reflexivity. }
  subst r. split; [exact A1|]. split; [exact A2|]. split; [exact A3|]. split; [|split].
  - apply inv_add; assumption.
  - intros g. apply view_incr.
  - unfold habs at 1. rewrite view_incr. exact Ar.
Qed.

(* [h_detach] is [detach] with the flag "strong count is 1": in place iff uniquely owned AND
   starting at bit 0, otherwise a normalised copy (rebased to bit 0); no invariant needed *)
Lemma h_detach_view : forall st h st' h', h_detach st h = (st', h') ->
  view st' h' = detach (strong (sget st (hptr h)) =? 1) (view st h).
Proof.
  intros st h st' h'. unfold h_detach.
  destruct ((strong (sget st (hptr h)) =? 1) && (hstart h =? 0)) eqn:Eu.
  - intros E. injection E as <- <-. symmetry. apply detach_kept. exact Eu.
  - unfold alloc. intros E. injection E as <- <-.
    rewrite (detach_copied _ (view st h) Eu). apply view_alloc.
Qed.

Lemma h_detach_spec st h L st' h' :
  store_inv st (h :: L) -> h_detach st h = (st', h') ->
  store_inv st' (h' :: L) /\ (forall g, In g L -> view st' g = view st g) /\
  habs st' h' = habs st h /\ strong (sget st' (hptr h')) = 1.
Proof.
  intros HI E. destruct (store_inv_head _ _ _ HI) as [_ Hw].
  assert (A : habs st' h' = habs st h).
  { unfold habs. rewrite (h_detach_view _ _ _ _ E). apply detach_spec, Hw. }
  unfold h_detach in E.
  destruct ((strong (sget st (hptr h)) =? 1) && (hstart h =? 0)) eqn:Eu.
  - injection E as <- <-. split; [exact HI|]. split; [reflexivity|]. split; [exact A|lia].
  - unfold alloc in E. injection E as <- <-.
    destruct (inv_alloc _ _ _ false (inv_drop _ _ _ HI) (proj1 (detach_spec false _ Hw))) as [I V].
    split; [exact I|]. split; [|split; [exact A|]].
    + intros g Hg. rewrite (V g Hg). apply view_decr.
    + cbn [hptr]. rewrite sget_app_new. reflexivity.
Qed.

Lemma h_make_mut_spec st h L st' h' :
  store_inv st (h :: L) -> h_make_mut st h = (st', h') ->
  store_inv st' (h' :: L) /\ (forall g, In g L -> view st' g = view st g) /\
  view st' h' = view st h /\ strong (sget st' (hptr h')) = 1.
Proof.
  intros HI E. unfold h_make_mut in E. destruct (store_inv_head _ _ _ HI) as [Hp Hw].
  destruct (strong (sget st (hptr h)) =? 1) eqn:Eu.
  - injection E as <- <-. apply Nat.eqb_eq in Eu.
    destruct (inv_rewrite st h L (view st h) false HI Eu Hw) as (I & V & N).
    cbn [view cstart cend cdata] in I, N. rewrite handle_eta in I, N.
    split; [exact I|]. split; [exact V|]. split; [exact N|].
    rewrite sget_sset_same by exact Hp. reflexivity.
  - unfold alloc in E. injection E as <- <-.
    destruct (inv_alloc _ _ (view st h) false (inv_drop _ _ _ HI) Hw) as [I V].
    split; [exact I|]. split; [|split].
    + intros g Hg. etransitivity; [exact (V g Hg)|apply view_decr].
    + apply (view_alloc _ (view st h)).
    + cbn [hptr]. rewrite sget_app_new. reflexivity.
Qed.

Lemma h_append_bits_mut_sim st h t L st' h' :
  store_inv st (h :: L) -> In t L -> h_append_bits_mut st h t = (st', h') ->
  store_inv st' (h' :: L) /\ (forall g, In g L -> view st' g = view st g) /\
  view st' h' = append_bits_mut (view st h) (view st t).
Proof.
  intros HI Ht E. unfold h_append_bits_mut in E.
  destruct (h_make_mut st h) as [st1 h1] eqn:E1.
  destruct (h_make_mut_spec _ _ _ _ _ HI E1) as (I1 & V1 & N1 & U1).
  destruct (store_inv_head _ _ _ I1) as [_ Hw1].
  destruct (store_inv_wf _ _ t I1 (or_intror Ht)) as [_ Hwt].
  rewrite U1 in E. injection E as <- <-.
  destruct (inv_rewrite st1 h1 L _ false I1 U1 (proj1 (append_bits_mut_spec _ _ Hw1 Hwt)))
    as (I & V & N).
  split; [exact I|]. split.
  - intros g Hg. rewrite (V g Hg). apply V1, Hg.
  - rewrite N, N1, (V1 t Ht). reflexivity.
Qed.

(* h_append = detach, then append in place; it is [Bits.append] for EVERY ownership flag *)
Lemma h_append_sim st h t L st' h' :
  store_inv st (h :: L) -> In t L -> h_append st h t = (st', h') ->
  store_inv st' (h' :: L) /\ (forall g, In g L -> view st' g = view st g) /\
  forall u, view st' h' = Bits.append u (view st h) (view st t).
Proof.
  intros HI Ht E. unfold h_append in E.
  destruct (h_detach st h) as [st1 h1] eqn:E1.
  destruct (h_detach_spec _ _ _ _ _ HI E1) as (I1 & V1 & _ & _).
  destruct (h_append_bits_mut_sim _ _ _ _ _ _ I1 Ht E) as (I & V & N).
  split; [exact I|]. split.
  - intros g Hg. rewrite (V g Hg). apply V1, Hg.
  - intros u. rewrite N, (h_detach_view _ _ _ _ E1), (V1 t Ht).
    apply append_indep, (store_inv_head _ _ _ HI).
Qed.

Lemma h_append_spec st h t L st' h' :
  store_inv st (h :: L) -> In t L -> h_append st h t = (st', h') ->
  store_inv st' (h' :: L) /\ (forall g, In g L -> view st' g = view st g) /\
  habs st' h' = habs st h ++ habs st t.
Proof.
  intros HI Ht E. destruct (h_append_sim _ _ _ _ _ _ HI Ht E) as (I & V & N).
  apply (sim_spec st _ _ _ _ _ (conj I (conj V (N false)))).
  apply append_spec; [apply (store_inv_head _ _ _ HI)|apply (store_inv_wf _ _ t HI), or_intror, Ht].
Qed.

Lemma h_invert_sim st h L st' h' :
  store_inv st (h :: L) -> h_invert st h = (st', h') ->
  store_inv st' (h' :: L) /\ (forall g, In g L -> view st' g = view st g) /\
  view st' h' = invert (strong (sget st (hptr h)) =? 1) (view st h).
Proof.
  intros HI E. unfold h_invert in E.
  destruct (h_detach st h) as [st1 h1] eqn:E1.
  destruct (h_detach_spec _ _ _ _ _ HI E1) as (I1 & V1 & _ & _).
  destruct (h_make_mut st1 h1) as [st2 h2] eqn:E2.
  destruct (h_make_mut_spec _ _ _ _ _ I1 E2) as (I2 & V2 & N2 & U2).
  cbv zeta in E. rewrite U2 in E. injection E as <- <-.
  pose proof (proj1 (invert_spec (strong (sget st (hptr h)) =? 1) _ (proj2 (store_inv_head _ _ _ HI))))
    as Wc.
  unfold invert in *. cbv zeta in Wc |- *.
  rewrite <- (h_detach_view _ _ _ _ E1), <- N2 in Wc |- *.
  destruct (inv_rewrite st2 h2 L _ false I2 U2 Wc) as (I & V & N).
  cbn [view cstart cend cdata] in I, N. rewrite handle_eta in I, N.
  split; [exact I|]. split; [|exact N].
  intros g Hg. etransitivity; [exact (V g Hg)|]. rewrite (V2 g Hg). apply V1, Hg.
Qed.

Lemma h_invert_spec st h L st' h' :
  store_inv st (h :: L) -> h_invert st h = (st', h') ->
  store_inv st' (h' :: L) /\ (forall g, In g L -> view st' g = view st g) /\
  habs st' h' = map negb (habs st h).
Proof.
  intros HI E. apply (sim_spec st _ _ _ _ _ (h_invert_sim _ _ _ _ _ HI E)).
  apply invert_spec, (store_inv_head _ _ _ HI).
Qed.

Lemma split_at_inv c i l r : split_at c i = Some (l, r) ->
  l = mkcbs (cstart c) (cstart c + i) (cdata c) /\ r = mkcbs (cstart c + i) (cend c) (cdata c).
Proof.
  unfold split_at. destruct (cend c <? cstart c + i); [discriminate|].
  intros E. injection E as <- <-. split; reflexivity.
Qed.

(* h_insert consumes [h]; [s] is another live handle and is only read.  It is [insert] for
   EVERY ownership flag: the left part is shared with two temporaries, so it is always copied. *)
Lemma h_insert_sim st h i s L :
  store_inv st (h :: L) -> In s L ->
  match h_insert st h i s with
  | Some (st', h') =>
    store_inv st' (h' :: L) /\ (forall g, In g L -> view st' g = view st g) /\
    forall u, insert u (view st h) i (view st s) = Some (view st' h')
  | None => forall u, insert u (view st h) i (view st s) = None
  end.
Proof.
  intros HI Hs. destruct (store_inv_head _ _ _ HI) as [Hp Hw].
  assert (U : forall u, insert u (view st h) i (view st s) = insert false (view st h) i (view st s))
    by (intros u; apply insert_indep, Hw).
  unfold h_insert. unfold insert in U at 2. pose proof (split_at_spec (view st h) i Hw) as HS.
  destruct (split_at (view st h) i) as [[l r]|] eqn:Es; [|exact U].
  destruct HS as (_ & Wl & Wr & _).
  destruct (split_at_inv _ _ _ _ Es) as [El Er]. clear Es.
  set (p := hptr h) in *. set (st1 := incr (incr st p) p).
  set (hl := mkh p (cstart l) (cend l)). set (hr := mkh p (cstart r) (cend r)).
  assert (V0 : forall g, view st1 g = view st g) by (intros g; unfold st1; rewrite !view_incr; reflexivity).
  assert (Vl : view st1 hl = l) by (rewrite V0; subst l; reflexivity).
  assert (Vr : view st1 hr = r) by (rewrite V0; subst r; reflexivity).
  assert (I0 : store_inv st1 (hl :: hr :: h :: L)).
  { apply inv_add; [apply inv_add; [exact HI|exact Hp|]|rewrite incr_length; exact Hp|].
    - rewrite Er in Wr |- *. exact Wr.
    - rewrite bbytes_incr. rewrite El in Wl |- *. exact Wl. }
  (* the first two steps are [h_append] of the left part and [s] *)
  destruct (h_detach st1 hl) as [st2 h2] eqn:E2.
  destruct (h_append_bits_mut st2 h2 s) as [st3 h3] eqn:E3.
  assert (E23 : h_append st1 hl s = (st3, h3)) by (unfold h_append; rewrite E2; exact E3).
  assert (Hs' : In s (hr :: h :: L)) by (right; right; exact Hs).
  destruct (h_append_sim _ _ _ _ _ _ I0 Hs' E23) as (I3 & V3 & N3).
  destruct (h_append_bits_mut st3 h3 hr) as [st4 h4] eqn:E4.
  assert (Hr' : In hr (hr :: h :: L)) by (left; reflexivity).
  destruct (h_append_bits_mut_sim _ _ _ _ _ _ I3 Hr' E4) as (I4 & V4 & N4).
  split; [|split].
  - assert (P : Permutation (h4 :: hr :: h :: L) (hr :: h :: h4 :: L)).
    { apply Permutation_sym. eapply perm_trans; [apply perm_skip, perm_swap|]. apply perm_swap. }
    apply (store_inv_perm _ _ _ P) in I4.
    apply inv_drop in I4. apply inv_drop in I4. exact I4.
  - intros g Hg. assert (Hg' : In g (hr :: h :: L)) by (right; right; exact Hg).
    rewrite !view_decr, (V4 g Hg'), (V3 g Hg'). apply V0.
  - intros u. rewrite U. f_equal.
    rewrite !view_decr, N4, (N3 false), Vl, (V3 hr Hr'), Vr, V0. reflexivity.
Qed.

Lemma h_insert_spec st h i s L :
  store_inv st (h :: L) -> In s L ->
  match h_insert st h i s with
  | Some (st', h') =>
    i <= hend h - hstart h /\
    store_inv st' (h' :: L) /\ (forall g, In g L -> view st' g = view st g) /\
    habs st' h' = firstn i (habs st h) ++ habs st s ++ skipn i (habs st h)
  | None => hend h - hstart h < i
  end.
Proof.
  intros HI Hs. pose proof (h_insert_sim _ _ i _ _ HI Hs) as H.
  pose proof (insert_spec false _ i _ (proj2 (store_inv_head _ _ _ HI))
                (proj2 (store_inv_wf _ _ s HI (or_intror Hs)))) as HS.
  destruct (h_insert st h i s) as [[st' h']|].
  - destruct H as (I & V & N). rewrite N in HS. destruct HS as (Hi & _ & A). auto.
  - rewrite H in HS. exact HS.
Qed.

Definition pop_ok (o : pop) : Prop :=
  match o with PNew d _ => Forall (fun x => (x < 256)%N) d | _ => True end.

Definition consumes (o : pop) : option nat :=
  match o with
  | PDrop i | PDetach i | PAppend i _ | PInvert i | PInsert i _ _ => Some i
  | _ => None
  end.

Definition survivors (live : list handle) (o : pop) : list handle :=
  match consumes o with Some i => remove_nth live i | None => live end.

Definition pool_enabled (live : list handle) (o : pop) : bool :=
  let geth i := nth i live (mkh 0 0 0) in
  match o with
  | PNew _ _ => true
  | PClone i | PDrop i | PDetach i | PInvert i => i <? length live
  | PSubstr i s e =>
    (i <? length live) && ((s <=? e) && (hstart (geth i) <=? s) && (e <=? hend (geth i)))
  | PAppend i j => (i <? length live) && (j <? length live) && negb (i =? j)
  | PInsert i k j =>
    (i <? length live) && (j <? length live) && negb (i =? j) &&
    (k <=? hend (geth i) - hstart (geth i))
  end.

Definition pool_result (st : store) (live : list handle) (o : pop) : list (list bool) :=
  let v i := habs st (nth i live (mkh 0 0 0)) in
  match o with
  | PNew d _ => [abs (from_bytes d)]
  | PClone i => [v i]
  | PDrop _ => []
  | PSubstr i s e => [firstn (e - s) (skipn (s - hstart (nth i live (mkh 0 0 0))) (v i))]
  | PDetach i => [v i]
  | PAppend i j => [v i ++ v j]
  | PInvert i => [map negb (v i)]
  | PInsert i k j => [firstn k (v i) ++ v j ++ skipn k (v i)]
  end.

Lemma nth_in_remove_nth {A} (d : A) : forall l i j, i <> j -> j < length l ->
  In (nth j l d) (remove_nth l i).
Proof.
  induction l as [|x l IH]; intros [|i] [|j] Hne Hj; cbn [length] in Hj; try lia;
    cbn [remove_nth nth In].
  - apply nth_In. lia.
  - left. reflexivity.
  - right. apply IH; lia.
Qed.

(* The per-operation lemmas speak of [h :: L]; in the pool the operand is handle number [i]
   and the result goes to the end. *)
Lemma focus d st live i : store_inv st live -> i < length live ->
  store_inv st (nth i live d :: remove_nth live i).
Proof. intros HI Hi. exact (store_inv_perm _ _ _ (perm_nth_remove d live i Hi) HI). Qed.

Lemma pool_consumed st st' L h' R :
  store_inv st' (h' :: L) /\ (forall g, In g L -> view st' g = view st g) /\ habs st' h' = R ->
  store_inv st' (L ++ [h']) /\
  exists res, L ++ [h'] = L ++ res /\
    (forall g, In g L -> view st' g = view st g) /\ map (habs st') res = [R].
Proof.
  intros (I & V & A). split.
  - eapply store_inv_perm; [apply Permutation_cons_append|exact I].
  - exists [h']. split; [reflexivity|]. split; [exact V|]. cbn [map]. rewrite A. reflexivity.
Qed.

Lemma pool_added d st st' live i h' R : i < length live ->
  store_inv st' (h' :: nth i live d :: remove_nth live i) ->
  (forall g, view st' g = view st g) -> habs st' h' = R ->
  store_inv st' (live ++ [h']) /\
  exists res, live ++ [h'] = live ++ res /\
    (forall g, In g live -> view st' g = view st g) /\ map (habs st') res = [R].
Proof.
  intros Hi I V A. split.
  - eapply store_inv_perm; [|exact I].
    eapply perm_trans; [apply perm_skip, Permutation_sym, perm_nth_remove, Hi|].
    apply Permutation_cons_append.
  - exists [h']. split; [reflexivity|]. split; [intros g _; apply V|]. cbn [map]. rewrite A. reflexivity.
Qed.

Theorem pool_disabled_noop : forall st live o,
  pool_enabled live o = false -> pool_step (st, live) o = (st, live).
Proof.
  intros st live o H. set (d0 := mkh 0 0 0).
  destruct o as [d bo|i|i|i s e|i|i j|i|i k j]; unfold pool_enabled in H; unfold pool_step; fold d0 in H |- *;
    try discriminate; try (rewrite H; reflexivity).
  - destruct (i <? length live); [|reflexivity]. cbn [andb] in H.
    unfold h_substr, substr. cbn [view cstart cend]. rewrite H. reflexivity.
  - destruct ((i <? length live) && (j <? length live) && negb (i =? j)); [|reflexivity].
    cbn [andb] in H. unfold h_insert, split_at. cbn [view cstart cend].
    replace (hend (nth i live d0) <? hstart (nth i live d0) + k) with true by lia. reflexivity.
Qed.

Lemma pool_step_spec st live o st' live' :
  store_inv st live -> pop_ok o -> pool_step (st, live) o = (st', live') ->
  store_inv st' live' /\
  if pool_enabled live o then
    exists res, live' = survivors live o ++ res /\
      (forall g, In g (survivors live o) -> view st' g = view st g) /\
      map (habs st') res = pool_result st live o
  else st' = st /\ live' = live.
Proof.
  intros HI Hok E. destruct (pool_enabled live o) eqn:En.
  2: { rewrite (pool_disabled_noop _ _ _ En) in E. injection E as <- <-. auto. }
  set (d0 := mkh 0 0 0).
  destruct o as [d bo|i|i|i s e|i|i j|i|i k j]; unfold pool_enabled in En; unfold pool_step in E;
    fold d0 in En, E; unfold survivors, pool_result; cbn [consumes]; fold d0.
  - destruct (h_new st d bo) as [st1 h] eqn:E1. injection E as <- <-.
    apply pool_consumed. apply (sim_spec st _ _ _ _ _ (h_new_spec _ _ _ _ _ _ HI Hok E1)). reflexivity.
  - rewrite En in E. destruct (h_clone st (nth i live d0)) as [st1 h] eqn:E1. injection E as <- <-.
    destruct (h_clone_spec _ _ _ _ _ (focus d0 _ _ i HI ltac:(lia)) E1) as (I & V & ->).
    apply (pool_added d0 st _ _ i); [lia|exact I|exact V|]. unfold habs. rewrite V. reflexivity.
  - rewrite En in E. injection E as <- <-.
    destruct (h_drop_spec _ _ _ (focus d0 _ _ i HI ltac:(lia))) as (I & V). split; [exact I|].
    exists []. split; [rewrite app_nil_r; reflexivity|]. split; [intros g _; apply V|reflexivity].
  - apply andb_prop in En. destruct En as [Ei Er]. rewrite Ei in E.
    pose proof (h_substr_spec _ _ _ s e (focus d0 _ _ i HI ltac:(lia))) as HS.
    destruct (h_substr st (nth i live d0) s e) as [[st1 h]|]; [|lia].
    injection E as <- <-. destruct HS as (_ & _ & _ & I & V & A).
    apply (pool_added d0 st _ _ i); [lia|exact I|exact V|exact A].
  - rewrite En in E. destruct (h_detach st (nth i live d0)) as [st1 h] eqn:E1. injection E as <- <-.
    destruct (h_detach_spec _ _ _ _ _ (focus d0 _ _ i HI ltac:(lia)) E1) as (I & V & A & _).
    apply pool_consumed. auto.
  - rewrite En in E.
    assert (Hj : In (nth j live d0) (remove_nth live i)) by (apply nth_in_remove_nth; lia).
    destruct (h_append st (nth i live d0) (nth j live d0)) as [st1 h] eqn:E1. injection E as <- <-.
    apply pool_consumed, (h_append_spec _ _ _ _ _ _ (focus d0 _ _ i HI ltac:(lia)) Hj E1).
  - rewrite En in E. destruct (h_invert st (nth i live d0)) as [st1 h] eqn:E1. injection E as <- <-.
    apply pool_consumed, (h_invert_spec _ _ _ _ _ (focus d0 _ _ i HI ltac:(lia)) E1).
  - apply andb_prop in En. destruct En as [Ec Ek]. rewrite Ec in E.
    assert (Hj : In (nth j live d0) (remove_nth live i)) by (apply nth_in_remove_nth; lia).
    pose proof (h_insert_spec _ _ k _ _ (focus d0 _ _ i HI ltac:(lia)) Hj) as HS.
    destruct (h_insert st (nth i live d0) k (nth j live d0)) as [[st1 h]|]; [|lia].
    injection E as <- <-. apply pool_consumed, HS.
Qed.

(* (1) the invariant, for one operation and for runs *)
Theorem pool_step_inv : forall st live o,
  store_inv st live -> pop_ok o ->
  let '(st', live') := pool_step (st, live) o in store_inv st' live'.
Proof.
  intros st live o HI Hok. destruct (pool_step (st, live) o) as [st' live'] eqn:E.
  exact (proj1 (pool_step_spec _ _ _ _ _ HI Hok E)).
Qed.

Lemma store_inv_empty : store_inv [] [].
Proof. split; [intros p Hp; cbn [length] in Hp; lia|constructor]. Qed.

Lemma pool_fold_inv : forall ops sp,
  store_inv (fst sp) (snd sp) -> Forall pop_ok ops ->
  store_inv (fst (fold_left pool_step ops sp)) (snd (fold_left pool_step ops sp)).
Proof.
  induction ops as [|o ops IH]; intros [st live] HI HF; cbn [fold_left]; [exact HI|].
  inversion HF as [|? ? Ho HF']; subst. apply IH; [|exact HF'].
  pose proof (pool_step_inv st live o HI Ho) as H.
  destruct (pool_step (st, live) o) as [st' live']. exact H.
Qed.

(* (2) isolation: a handle that is not the consumed one keeps its place among the
   survivors and denotes the same bits afterwards *)
Theorem pool_step_isolation : forall st live o st' live' g,
  store_inv st live -> pop_ok o -> pool_step (st, live) o = (st', live') ->
  In g (survivors live o) -> habs st' g = habs st g /\ In g live'.
Proof.
  intros st live o st' live' g HI Hok E Hg.
  destruct (pool_step_spec _ _ _ _ _ HI Hok E) as [_ H].
  destruct (pool_enabled live o).
  - destruct H as (res & -> & V & _). split; [apply habs_of_view, V, Hg|].
    apply in_or_app. left. exact Hg.
  - destruct H as [-> ->]. split; [reflexivity|].
    unfold survivors in Hg. destruct (consumes o); [eapply in_remove_nth; exact Hg|exact Hg].
Qed.

Lemma nth_error_remove_nth {A} : forall (l : list A) i k, k <> i ->
  nth_error (remove_nth l i) (if i <? k then k - 1 else k) = nth_error l k.
Proof.
  induction l as [|x l IH]; intros [|i] [|k] Hne; try lia; cbn [remove_nth].
  - destruct (if 0 <? S k then S k - 1 else S k); reflexivity.
  - destruct (if S i <? 0 then 0 - 1 else 0); reflexivity.
  - destruct (if S i <? S k then S k - 1 else S k); reflexivity.
  - replace (0 <? S k) with true by lia. cbn [nth_error]. f_equal. lia.
  - reflexivity.
  - specialize (IH i k ltac:(lia)).
    destruct (i <? k) eqn:E1.
    + replace (S i <? S k) with true by lia. destruct k as [|k]; [lia|].
      replace (S (S k) - 1) with (S (S k - 1)) by lia. cbn [nth_error]. exact IH.
    + replace (S i <? S k) with false by lia. cbn [nth_error]. exact IH.
Qed.

(* where handle number k of the pool is after the operation; None = consumed *)
Definition track (live : list handle) (o : pop) (k : nat) : option nat :=
  if pool_enabled live o then
    match consumes o with
    | Some i => if k =? i then None else Some (if i <? k then k - 1 else k)
    | None => Some k
    end
  else Some k.

Theorem pool_step_track : forall st live o st' live' k k' g,
  store_inv st live -> pop_ok o -> pool_step (st, live) o = (st', live') ->
  nth_error live k = Some g -> track live o k = Some k' ->
  nth_error live' k' = Some g /\ habs st' g = habs st g.
Proof.
  intros st live o st' live' k k' g HI Hok E Hk Ht.
  destruct (pool_step_spec _ _ _ _ _ HI Hok E) as [_ H]. unfold track in Ht.
  destruct (pool_enabled live o).
  - destruct H as (res & -> & V & _). unfold survivors in *.
    assert (HS : nth_error (match consumes o with Some i => remove_nth live i | None => live end) k' = Some g).
    { destruct (consumes o) as [i|].
      - destruct (k =? i) eqn:Eki; [discriminate|]. injection Ht as <-.
        rewrite nth_error_remove_nth by lia. exact Hk.
      - injection Ht as <-. exact Hk. }
    split.
    + rewrite nth_error_app1; [exact HS|]. apply nth_error_Some. rewrite HS. discriminate.
    + apply habs_of_view, V. eapply nth_error_In. exact HS.
  - destruct H as [-> ->]. injection Ht as <-. split; [exact Hk|reflexivity].
Qed.

Fixpoint survives (ops : list pop) (sp : store * list handle) (k : nat) : option nat :=
  match ops with
  | [] => Some k
  | o :: r => match track (snd sp) o k with
              | Some k' => survives r (pool_step sp o) k'
              | None => None
              end
  end.

Theorem pool_snapshot : forall ops st live k k' g,
  store_inv st live -> Forall pop_ok ops ->
  nth_error live k = Some g -> survives ops (st, live) k = Some k' ->
  let '(st', live') := fold_left pool_step ops (st, live) in
  nth_error live' k' = Some g /\ habs st' g = habs st g.
Proof.
  induction ops as [|o ops IH]; intros st live k k' g HI HF Hk Hs; cbn [fold_left survives] in *.
  - injection Hs as <-. split; [exact Hk|reflexivity].
  - inversion HF as [|? ? Ho HF']; subst. cbn [snd] in Hs.
    destruct (track live o k) as [k1|] eqn:Et; [|discriminate].
    destruct (pool_step (st, live) o) as [st1 live1] eqn:E1.
    destruct (pool_step_track _ _ _ _ _ _ _ _ HI Ho E1 Hk Et) as [Hk1 A1].
    pose proof (proj1 (pool_step_spec _ _ _ _ _ HI Ho E1)) as I1.
    specialize (IH st1 live1 k1 k' g I1 HF' Hk1 Hs).
    destruct (fold_left pool_step ops (st1, live1)) as [st' live'].
    destruct IH as [A B]. split; [exact A|]. rewrite B. exact A1.
Qed.

(* (3) the whole pool evolves as the list-level semantics says *)
Theorem pool_view_step : forall st live o,
  store_inv st live -> pop_ok o ->
  pool_view (pool_step (st, live) o) =
  if pool_enabled live o then map (habs st) (survivors live o) ++ pool_result st live o
  else pool_view (st, live).
Proof.
  intros st live o HI Hok. destruct (pool_step (st, live) o) as [st' live'] eqn:E.
  destruct (pool_step_spec _ _ _ _ _ HI Hok E) as [_ H].
  destruct (pool_enabled live o).
  - destruct H as (res & -> & V & R). unfold pool_view. cbn [fst snd].
    rewrite map_app, R. f_equal. apply map_ext_in. intros g Hg. apply habs_of_view, V, Hg.
  - destruct H as [-> ->]. reflexivity.
Qed.

Theorem h_detach_copies : forall st h,
  strong (sget st (hptr h)) <> 1 \/ hstart h <> 0 ->
  hptr (snd (h_detach st h)) = length st /\ length (fst (h_detach st h)) = S (length st).
Proof.
  intros st h H. unfold h_detach.
  replace ((strong (sget st (hptr h)) =? 1) && (hstart h =? 0)) with false by lia.
  unfold alloc. cbn [fst snd hptr]. rewrite decr_length. split; [reflexivity|].
  rewrite app_length, decr_length. cbn [length]. lia.
Qed.

