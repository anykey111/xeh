(* CompileBwdParse.v: every program the parser of Struct.v returns is closed: every call, at
   top level and in the function bodies, names a function that has a body (a name is bound to
   a function only by `:`, and the body is recorded when `;` closes the definition; inside
   the definition the function may call itself).  So the converse theorems hold for every
   source, not just for trees that happen to satisfy [prog_closed]. *)
From Xeh Require Import Model.Prelude Model.Bits Model.Codec Model.Cell Model.Lexer Model.Fmt
                        Model.Vm Model.Words Model.Struct
                        Proofs.CompileLayout Proofs.CompileProg Proofs.CompileParse Proofs.CompileParse2 Proofs.CompileParse3
                        Proofs.CompileBwdStep Proofs.CompileBwdProg Proofs.StructParse.
Local Notation length := List.length.

Definition below (n : nat) : nat -> Prop := fun g => g < n.

Lemma cg_b_Forall : forall G l, Forall (cg_s G) l -> cg_b G l.
Proof. induction 1; constructor; assumption. Qed.
Lemma Forall_cg_b : forall G l, cg_b G l -> Forall (cg_s G) l.
Proof. induction l as [|x r IH]; intro H; [constructor|]. inversion H; subst. constructor; auto. Qed.

Definition arm_cg (G : nat -> Prop) (a : arm) : Prop := cg_b G (fst (fst a)) /\ cg_b G (snd a).
Lemma cg_a_Forall : forall G l, Forall (arm_cg G) l -> cg_a G l.
Proof. induction 1 as [|[[pre p] body] r [H1 H2] _ IH]; constructor; assumption. Qed.

Lemma below_mono : forall n n' l, n <= n' -> Forall (cg_s (below n)) l -> Forall (cg_s (below n')) l.
Proof.
  intros n n' l Hle H. eapply Forall_impl; [|exact H]. intros x Hx. eapply cg_s_mono; [|exact Hx].
  unfold below. intros g Hg. lia.
Qed.

Lemma below_mono_b : forall n n' l, n <= n' -> Forall (cg_s (below n)) l -> cg_b (below n') l.
Proof. intros. apply cg_b_Forall. eapply below_mono; eauto. Qed.

Lemma arm_mono : forall n n' l, n <= n' -> Forall (arm_cg (below n)) l -> Forall (arm_cg (below n')) l.
Proof.
  intros n n' l Hle H. eapply Forall_impl; [|exact H]. intros [[pre p] body] [H1 H2].
  split; cbn [fst snd] in *; (eapply cg_b_mono; [|eassumption]); unfold below; intros g Hg; lia.
Qed.

Definition envC (e : penv) : Prop :=
  (forall w g, lookup (names e) w = Some (BFun g) -> g < nfun e) /\
  (forall g, g < nfun e -> fun_body (funs e) g <> None \/ (plocals e <> None /\ S g = nfun e)) /\
  Forall (fun gb => Forall (cg_s (below (nfun e))) (snd gb)) (funs e).

Definition cstep (e e' : penv) : Prop :=
  nfun e <= nfun e' /\
  (plocals e = None -> plocals e' = None) /\
  (plocals e <> None -> nfun e' = nfun e /\ plocals e' <> None).

Lemma cstep_refl : forall e, cstep e e.
Proof. intro e. split; [lia|]. split; auto. Qed.

Lemma cstep_trans : forall a b c, cstep a b -> cstep b c -> cstep a c.
Proof.
  intros a b c (A1 & A2 & A3) (B1 & B2 & B3). split; [lia|]. split; [auto|].
  intro H. destruct (A3 H) as [E1 P1]. destruct (B3 P1) as [E2 P2]. split; [congruence|exact P2].
Qed.

Definition cres (e : penv) (acc : list stmt) (r : pres) : Prop :=
  match r with
  | POk body term tp rest e' brk' =>
    exists news, body = rev acc ++ news /\ Forall (cg_s (below (nfun e'))) news /\ cstep e e' /\ envC e'
  | _ => True
  end.

Lemma c_push : forall e e1 acc x r,
  cres e1 (x :: acc) r -> cg_s (below (nfun e1)) x -> cstep e e1 -> cres e acc r.
Proof.
  intros e e1 acc x r H Hx Hs. destruct r as [body term tp rest e' brk'| |]; cbn [cres] in *; auto.
  destruct H as (news & Hb & Hn & Hs' & He). exists (x :: news).
  split; [rewrite Hb; cbn [rev]; rewrite <- app_assoc; reflexivity|].
  split; [|split; [eapply cstep_trans; eassumption|exact He]].
  constructor; [|exact Hn]. eapply cg_s_mono; [|exact Hx]. unfold below. intros g Hg. destruct Hs' as [Hle _]. lia.
Qed.

Lemma c_here : forall e acc brk w p rest, envC e -> cres e acc (POk (rev acc) w p rest e brk).
Proof.
  intros e acc brk w p rest He. exists []. split; [rewrite app_nil_r; reflexivity|].
  split; [constructor|]. split; [apply cstep_refl|exact He].
Qed.

Local Open Scope string_scope.

Section ParseC.
  Variable fo : fops.
  Variable pr : string -> option Z.

  Definition CSpec (f : nat) : Prop :=
    forall toks e terms acc brk, envC e -> cres e acc (pseq fo pr f toks e terms acc brk).

  Lemma inner_c : forall f toks e0 terms0 tb term tp r1 e1 b1,
    CSpec f -> envC e0 ->
    pseq fo pr f toks e0 terms0 [] false = POk tb term tp r1 e1 b1 ->
    (term = "" \/ In term terms0) /\ Forall (cg_s (below (nfun e1))) tb /\ cstep e0 e1 /\ envC e1.
  Proof.
    intros f toks e0 terms0 tb term tp r1 e1 b1 IH He E.
    pose proof (pseq_term fo pr f toks e0 terms0 [] false) as T. rewrite E in T.
    pose proof (IH toks e0 terms0 [] false He) as H. rewrite E in H. cbn [cres] in H.
    destruct H as (news & Hb & Hn & Hs & He1). cbn [rev app] in Hb. subst tb. auto.
  Qed.

  Lemma parms_c : forall f e terms acc, CSpec f ->
    forall k toks e' got brk',
      Forall (arm_cg (below (nfun e'))) got -> cstep e e' -> envC e' ->
      cres e acc (parse_arms (pseq fo pr f) e terms acc k toks e' got brk').
  Proof.
    intros f e terms acc IH. induction k as [|k IHk]; intros toks e' got brk' Hg Hs He; [exact I|].
    cbn [parse_arms].
    destruct (pseq fo pr f toks e' ["of"; "endcase"] [] false) as [pre term pof r1 e1 b1|?|] eqn:E1;
      [|exact I|exact I].
    destruct (inner_c _ _ _ _ _ _ _ _ _ _ IH He E1) as (T1 & N1 & S1 & C1).
    destruct T1 as [->|[<-|[<-|[]]]]; cbv beta match; [exact I| |].
    - destruct (pseq fo pr f r1 e1 ["endof"] [] false) as [body term2 tp2 r2 e2 b2|?|] eqn:E2;
        [|exact I|exact I].
      destruct (inner_c _ _ _ _ _ _ _ _ _ _ IH C1 E2) as (T2 & N2 & S2 & C2).
      destruct T2 as [->|[<-|[]]]; cbv beta match; [exact I|].
      pose proof (proj1 S1) as L1. pose proof (proj1 S2) as L2.
      apply IHk.
      + apply Forall_app. split; [eapply arm_mono; [|exact Hg]; lia|]. constructor; [|constructor].
        split; cbn [fst snd]; [eapply below_mono_b; [|exact N1]; lia|apply cg_b_Forall; exact N2].
      + eapply cstep_trans; [exact Hs|]. eapply cstep_trans; eassumption.
      + exact C2.
    - eapply c_push.
      + apply IH. exact C1.
      + cbn [nfun leave]. constructor; [apply cg_a_Forall; eapply arm_mono; [|exact Hg]; apply S1|apply cg_b_Forall; exact N1].
      + change (cstep e e1). eapply cstep_trans; eassumption.
  Qed.

  Ltac simple_c IH He :=
    eapply c_push; [ apply IH; exact He | constructor | apply cstep_refl ].

  Lemma envC_var : forall e name a,
    envC e ->
    envC (mkpenv ((name, BVar a) :: names e) (funs e) (nfun e) (S a) (plocals e) (loopdepth e) (nest e)).
  Proof.
    intros e name a (P1 & P2 & P3). split; [|split; [exact P2|exact P3]].
    intros w g H. cbn [names lookup] in H. destruct (String.eqb name w); [discriminate|]. eapply P1; eauto.
  Qed.

  Lemma envC_locals : forall e ls, envC e -> plocals e <> None -> envC (set_locals e (Some ls)).
  Proof.
    intros e ls (P1 & P2 & P3) Hp. split; [exact P1|]. split; [|exact P3].
    intros g Hg. destruct (P2 g Hg) as [H|[_ H]]; [left; exact H|right; split; [cbn; discriminate|exact H]].
  Qed.

  Lemma cspec_step : forall f, CSpec f -> CSpec (S f).
  Proof.
    intros f IH toks e terms acc brk He. cbn [pseq].
    destruct toks as [|[[t a] b] rest]; [apply c_here; exact He|].
    destruct t as [|w| | |c|txt|pe es ee].
    - apply c_here. exact He.
    - destruct (match plocals e with Some ls => rpos ls w 0 None | None => None end) as [i|];
        [simple_c IH He|].
      destruct (lookup (names e) w) as [[x|g|c]|] eqn:El; [simple_c IH He| |simple_c IH He|].
      { (* a call *) eapply c_push; [apply IH; exact He| |apply cstep_refl].
        constructor. unfold below. destruct He as (P1 & _). eapply P1; eauto. }
      destruct (mem terms w); [apply c_here; exact He|].
      destruct (w =? "if").
      { destruct (pseq fo pr f rest (enter e false) ["else"; "then"] [] false)
          as [tb term tp r1 e1 b1|?|] eqn:E1; [|exact I|exact I].
        destruct (inner_c _ _ _ _ _ _ _ _ _ _ IH (He : envC (enter e false)) E1) as (T1 & N1 & S1 & C1).
        destruct T1 as [->|[<-|[<-|[]]]]; cbv beta match; [exact I| |].
        - destruct (pseq fo pr f r1 e1 ["then"] [] false) as [eb term2 tp2 r2 e2 b2|?|] eqn:E2;
            [|exact I|exact I].
          destruct (inner_c _ _ _ _ _ _ _ _ _ _ IH C1 E2) as (T2 & N2 & S2 & C2).
          destruct T2 as [->|[<-|[]]]; cbv beta match; [exact I|].
          eapply c_push.
          + apply IH. exact C2.
          + cbn [nfun leave]. constructor; [eapply below_mono_b; [|exact N1]; apply S2|apply cg_b_Forall; exact N2].
          + change (cstep e e2). eapply cstep_trans; eassumption.
        - eapply c_push.
          + apply IH. exact C1.
          + cbn [nfun leave]. constructor. apply cg_b_Forall. exact N1.
          + exact S1. }
      destruct (w =? "case").
      { change (cres e acc (parse_arms (pseq fo pr f) e terms acc (S f) rest (enter e false) [] brk)).
        apply parms_c; try assumption.
        - constructor.
        - exact (cstep_refl e). }
      destruct (w =? "begin").
      { destruct (pseq fo pr f rest (enter e true) ["until"; "repeat"; "while"] [] false)
          as [body term tp r1 e1 b1|?|] eqn:E1; [|exact I|exact I].
        destruct (inner_c _ _ _ _ _ _ _ _ _ _ IH (He : envC (enter e true)) E1) as (T1 & N1 & S1 & C1).
        destruct T1 as [->|[<-|[<-|[<-|[]]]]]; cbv beta match; [exact I| | |].
        - destruct b1; [exact I|].
          eapply c_push; [apply IH; exact C1| |exact S1].
          cbn [nfun leave]. constructor. apply cg_b_Forall. exact N1.
        - eapply c_push; [apply IH; exact C1| |exact S1].
          cbn [nfun leave]. constructor. apply cg_b_Forall. exact N1.
        - destruct b1; [exact I|].
          destruct (pseq fo pr f r1 e1 ["repeat"] [] false) as [body2 term2 tp2 r2 e2 b2|?|] eqn:E2;
            [|exact I|exact I].
          destruct (inner_c _ _ _ _ _ _ _ _ _ _ IH C1 E2) as (T2 & N2 & S2 & C2).
          destruct T2 as [->|[<-|[]]]; cbv beta match; [exact I|].
          eapply c_push.
          + apply IH. exact C2.
          + cbn [nfun leave]. constructor; [eapply below_mono_b; [|exact N1]; apply S2|apply cg_b_Forall; exact N2].
          + change (cstep e e2). eapply cstep_trans; eassumption. }
      destruct (w =? "do").
      { destruct (pseq fo pr f rest (enter e true) ["loop"] [] false)
          as [body term tp r1 e1 b1|?|] eqn:E1; [|exact I|exact I].
        destruct (inner_c _ _ _ _ _ _ _ _ _ _ IH (He : envC (enter e true)) E1) as (T1 & N1 & S1 & C1).
        destruct T1 as [->|[<-|[]]]; cbv beta match; [exact I|].
        eapply c_push; [apply IH; exact C1| |exact S1].
        cbn [nfun leave]. constructor. apply cg_b_Forall. exact N1. }
      destruct (w =? "break").
      { destruct (0 <? loopdepth e)%nat; [|exact I]. simple_c IH He. }
      destruct (w =? ":").
      { (* definition *)
        destruct (plocals e) eqn:Epl; [exact I|].
        destruct (skipb rest) as [|[[[]] ?] r0]; try exact I.
        match goal with |- context [pseq fo pr f r0 ?e0 _ [] false] => set (e0' := e0) end.
        assert (He0 : envC e0').
        { destruct He as (P1 & P2 & P3). unfold e0'. split; [|split].
          - intros w0 g H. cbn [names lookup nfun] in *. destruct (String.eqb s w0).
            + injection H as <-. lia.
            + specialize (P1 _ _ H). lia.
          - intros g Hg. cbn [nfun funs plocals] in *.
            destruct (Nat.eq_dec g (nfun e)) as [->|Hne].
            + right. split; [discriminate|reflexivity].
            + destruct (P2 g ltac:(lia)) as [H|[H _]]; [left; exact H|].
              exfalso. apply H. exact Epl.
          - cbn [nfun funs]. eapply Forall_impl; [|exact P3]. intros gb Hgb. eapply below_mono; [|exact Hgb]. lia. }
        destruct (pseq fo pr f r0 e0' [";"] [] false) as [body term tp r1 e1 b1|?|] eqn:E1;
          [|exact I|exact I].
        destruct (inner_c _ _ _ _ _ _ _ _ _ _ IH He0 E1) as (T1 & N1 & S1 & C1).
        destruct T1 as [->|[<-|[]]]; cbv beta match; [exact I|].
        destruct b1; [exact I|].
        destruct S1 as (L1 & _ & S13). destruct (S13 ltac:(unfold e0'; cbn; discriminate)) as [En1 Pl1].
        unfold e0' in En1. cbn [nfun] in En1.
        eapply c_push.
        + apply IH.
          (* the environment after `;` *)
          destruct C1 as (P1 & P2 & P3). split; [|split].
          * exact P1.
          * intros g Hg. cbn [nfun funs plocals fun_body] in *. left.
            destruct (Nat.eqb_spec (nfun e) g) as [_|Hne]; [discriminate|].
            destruct (P2 g Hg) as [H|[_ H]]; [exact H|lia].
          * cbn [nfun funs]. constructor; [exact N1|exact P3].
        + constructor.
        + split; [cbn [nfun]; lia|]. split; [intros _; reflexivity|]. intro H. contradiction. }
      destruct (w =? "local").
      { destruct (skipb rest) as [|[[[]] ?] r0]; try exact I.
        destruct (plocals e) eqn:Epl; [|exact I].
        eapply c_push.
        + apply IH. apply envC_locals; [exact He|congruence].
        + constructor.
        + split; [cbn; lia|]. split; [intro H; congruence|]. intros _. split; [reflexivity|cbn; discriminate]. }
      destruct (w =? "var").
      { destruct (skipb rest) as [|[[[]] ?] r0]; try exact I.
        destruct (0 <? nest e)%nat; [exact I|].
        eapply c_push.
        + apply IH. apply envC_var. exact He.
        + constructor.
        + split; [cbn; lia|]. split; [intro H; exact H|]. intro H. split; [reflexivity|exact H]. }
      destruct (w =? "!").
      { destruct (skipb rest) as [|[[[]] ?] r0]; try exact I.
        destruct (lookup (names e) s) as [[x|g|c]|]; try exact I.
        - simple_c IH He.
        - destruct (is_native fo s || mem keywords s || mem other_immediates s); exact I. }
      destruct (w =? "nil"); [simple_c IH He|].
      destruct (w =? "true"); [simple_c IH He|].
      destruct (w =? "false"); [simple_c IH He|].
      destruct (mem keywords w); [exact I|].
      destruct (mem other_immediates w); [exact I|].
      destruct (is_native fo w); [simple_c IH He|exact I].
    - apply IH. exact He.
    - apply IH. exact He.
    - simple_c IH He.
    - destruct (pr txt); [simple_c IH He|exact I].
    - exact I.
  Qed.

  Theorem cspec_all : forall f, CSpec f.
  Proof.
    induction f as [|f IH]; [intros toks e terms acc brk _; exact I|apply cspec_step; exact IH].
  Qed.

  Lemma envC_closed : forall e l, envC e -> plocals e = None ->
    Forall (cg_s (below (nfun e))) l -> cl_b (funs e) l.
  Proof.
    intros e l (P1 & P2 & P3) Hp H. apply cg_b_Forall. eapply Forall_impl; [|exact H].
    intros x Hx. eapply cg_s_mono; [|exact Hx]. unfold below, has_body. intros g Hg.
    destruct (P2 g Hg) as [Hd|[Hd _]]; [exact Hd|contradiction].
  Qed.

  Theorem parse_prog_closed : forall src heap0 l funs n,
    parse_source fo pr src heap0 = Some (l, funs, n) -> prog_closed funs l.
  Proof.
    intros src heap0 l funs n H.
    destruct (parse_source_inv _ _ _ _ _ _ _ H) as (tp & rest & e & brk' & E & -> & _).
    set (e0 := mkpenv [] [] 0 heap0 None 0 0) in *.
    assert (He0 : envC e0).
    { split; [|split].
      - intros w g Hl. discriminate.
      - intros g Hg. cbn in Hg. lia.
      - constructor. }
    pose proof (cspec_all (S (S (length (lex_string src)))) (lex_string src) e0 [] [] false He0) as G. rewrite E in G.
    cbn [cres] in G. destruct G as (news & Hb & Hn & (_ & Hp & _) & He). cbn [rev app] in Hb. subst news.
    specialize (Hp eq_refl).
    split.
    - apply envC_closed; assumption.
    - intros g b Hg. apply envC_closed; [exact He|exact Hp|].
      destruct He as (_ & _ & P3). rewrite Forall_forall in P3.
      apply (P3 (g, b)). eapply fun_body_in. exact Hg.
  Qed.
End ParseC.
