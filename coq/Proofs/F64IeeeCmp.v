(* F64IeeeCmp.v: the comparison of real patterns in the model (f64_pcmp / f64_key, used by the
   words < <= > >= == <> and zero? positive? negative?) is IEEE comparison: Flocq's Bcompare. *)
From Coq Require Import ZArith Reals Lia Lra Psatz ZifyBool.
From Flocq Require Import Core.Core IEEE754.BinarySingleNaN IEEE754.Binary IEEE754.Bits.
From Xeh Require Import Model.Prelude Model.Bits Model.Cell Model.Vm Model.F64c Model.Words Model.Boot Model.F64.
From Xeh Require Import Proofs.WordRun Proofs.ArithNum Proofs.ArithProofs Proofs.F64cProofs Proofs.F64Ieee.
Local Open Scope Z_scope.

Lemma pcmp_pos (m1 m2 : Z) : 0 < m1 -> 0 < m2 -> Pcompare (Z.to_pos m1) (Z.to_pos m2) Eq = (m1 ?= m2).
Proof. intros H1 H2. change (Pcompare (Z.to_pos m1) (Z.to_pos m2) Eq) with (Pos.compare (Z.to_pos m1) (Z.to_pos m2)). symmetry. apply Z2Pos.inj_compare; assumption. Qed.

Lemma mag_compare E1 M1 E2 M2 : 0 <= E1 < 2047 -> 0 <= M1 < 2 ^ 52 -> 0 <= E2 < 2047 -> 0 <= M2 < 2 ^ 52 ->
  (E1 * 2 ^ 52 + M1 ?= E2 * 2 ^ 52 + M2) =
  match (if E1 =? 0 then -1074 else E1 - 1075) ?= (if E2 =? 0 then -1074 else E2 - 1075) with
  | Lt => Lt | Gt => Gt
  | Eq => (if E1 =? 0 then M1 else 2 ^ 52 + M1) ?= (if E2 =? 0 then M2 else 2 ^ 52 + M2)
  end.
Proof.
  intros H1 H2 H3 H4. rewrite p52 in *.
  destruct (Z.eqb_spec E1 0), (Z.eqb_spec E2 0);
  repeat match goal with |- context [?a ?= ?b] => destruct (Z.compare_spec a b) end; try reflexivity; lia.
Qed.

Lemma pcmp_flocq p q : f64_pat p -> f64_pat q ->
  f64_pcmp p q = b64_compare (b64_of_bits p) (b64_of_bits q).
Proof.
  intros Hp Hq. unfold f64_pcmp, b64_compare, Bcompare, BinarySingleNaN.Bcompare.
  rewrite (key_fields p Hp), (key_fields q Hq).
  destruct (f64_decompose p Hp) as (_ & Ep & Mp). destruct (f64_decompose q Hq) as (_ & Eq & Mq).
  pose proof (is_zero_fields p Hp) as Zp. pose proof (is_zero_fields q Hq) as Zq.
  destruct (b64_cases p Hp) as [(Z1 & B1)|[(E1 & M1 & B1)|[(N1 & pl1 & H1 & B1)|(F1 & Z1 & H1 & B1)]]];
  destruct (b64_cases q Hq) as [(Z2 & B2)|[(E2 & M2 & B2)|[(N2 & pl2 & H2 & B2)|(F2 & Z2 & H2 & B2)]]];
  rewrite B1, B2; cbn [B2BSN BinarySingleNaN.B2SF SpecFloat.SFcompare];
  try (rewrite N1; reflexivity); try (rewrite N2, Bool.orb_true_r; reflexivity).
  all: unfold f64_is_nan in *.
  all: rewrite ?Zp, ?Zq in *.
  all: try (replace ((f64_exp p =? 2047) && negb (f64_man p =? 0) || (f64_exp q =? 2047) && negb (f64_man q =? 0)) with false by lia).
  all: try solve [ f_equal; rewrite p52 in *; destruct (f64_neg p), (f64_neg q);
    match goal with |- (?a ?= ?b) = _ => destruct (Z.compare_spec a b) end; try reflexivity; lia ].
  f_equal.
  assert (P1 : 0 < f64_mant p) by (unfold f64_mant; rewrite p52 in *; destruct (Z.eqb_spec (f64_exp p) 0); lia).
  assert (P2 : 0 < f64_mant q) by (unfold f64_mant; rewrite p52 in *; destruct (Z.eqb_spec (f64_exp q) 0); lia).
  change (Pos.compare_cont Datatypes.Eq (Z.to_pos (f64_mant p)) (Z.to_pos (f64_mant q)))
    with (Pos.compare (Z.to_pos (f64_mant p)) (Z.to_pos (f64_mant q))).
  rewrite <- Z2Pos.inj_compare by assumption.
  pose proof (mag_compare (f64_exp p) (f64_man p) (f64_exp q) (f64_man q) ltac:(lia) Mp ltac:(lia) Mq) as MC.
  fold (f64_ex p) (f64_ex q) (f64_mant p) (f64_mant q) in MC.
  set (A := f64_exp p * 2 ^ 52 + f64_man p) in *. set (B := f64_exp q * 2 ^ 52 + f64_man q) in *.
  assert (0 < A) by (unfold A; rewrite p52 in *; lia). assert (0 < B) by (unfold B; rewrite p52 in *; lia).
  destruct (f64_neg p), (f64_neg q).
  - rewrite Z.compare_opp, Z.compare_antisym, MC. destruct (f64_ex p ?= f64_ex q); reflexivity.
  - destruct (Z.compare_spec (- A) B); try reflexivity; lia.
  - destruct (Z.compare_spec A (- B)); try reflexivity; lia.
  - rewrite MC. reflexivity.
Qed.

Lemma pcmp_real p q : f64_pat p -> f64_pat q -> f64_exp p <> 2047 -> f64_exp q <> 2047 ->
  f64_pcmp p q = Some (Rcompare (fval p) (fval q)) /\
  (f64_key p ?= f64_key q) = Rcompare (fval p) (fval q).
Proof.
  intros Hp Hq Fp Fq.
  assert (E : f64_pcmp p q = Some (Rcompare (fval p) (fval q))).
  { rewrite pcmp_flocq by assumption. unfold b64_compare.
    rewrite Bcompare_correct by (apply fin_true; assumption). reflexivity. }
  split; [exact E|].
  unfold f64_pcmp in E.
  destruct (f64_is_nan p || f64_is_nan q); [discriminate E|]. now injection E.
Qed.

Lemma pcmp_none p q : f64_pcmp p q = None <-> f64_is_nan p || f64_is_nan q = true.
Proof. unfold f64_pcmp. destruct (f64_is_nan p || f64_is_nan q); split; congruence. Qed.

Lemma key_zero s : f64_key (f64_zero s) = 0.
Proof. destruct s; reflexivity. Qed.

Lemma key_bounds p : f64_pat p -> f64_is_nan p = false ->
  f64_key (f64_inf true) <= f64_key p <= f64_key (f64_inf false) /\
  (f64_exp p <> 2047 -> f64_key (f64_inf true) < f64_key p < f64_key (f64_inf false)).
Proof.
  intros Hp N. rewrite (key_fields p Hp).
  destruct (f64_decompose p Hp) as (_ & He & Hm). unfold f64_is_nan in N.
  change (f64_key (f64_inf true)) with (- (2047 * 2 ^ 52)). change (f64_key (f64_inf false)) with (2047 * 2 ^ 52).
  rewrite p52 in *. destruct (f64_neg p); lia.
Qed.

Lemma sign_tests_real_value r : f64_pat r -> f64_exp r <> 2047 ->
  f64_is_zero r = Req_bool (fval r) 0 /\ f64_pos r = Rlt_bool 0 (fval r) /\ f64_negv r = Rlt_bool (fval r) 0.
Proof.
  intros Hr Fr.
  destruct (pcmp_real r (f64_zero false) Hr (zero_pat false) Fr ltac:(cbn; lia)) as (_ & K).
  rewrite key_zero in K. change (fval (f64_zero false)) with (B2R 53 1024 (b64_of_bits 0)) in K.
  replace (B2R 53 1024 (b64_of_bits 0)) with 0%R in K by reflexivity.
  assert (N : f64_is_nan r = false).
  { apply finite_not_nan; assumption. }
  unfold f64_pos, f64_negv. rewrite N. cbn [negb andb].
  assert (Zr : f64_is_zero r = (f64_key r =? 0)).
  { rewrite (key_fields r Hr), (is_zero_fields r Hr). destruct (f64_decompose r Hr) as (_ & He & Hm).
    rewrite p52 in *. destruct (f64_neg r); lia. }
  rewrite Zr. unfold Req_bool, Rlt_bool. rewrite (Rcompare_sym 0 (fval r)), <- K.
  destruct (Z.compare_spec (f64_key r) 0); cbn [CompOpp]; repeat split; lia.
Qed.

Lemma minmax_real x y : f64_pat x -> f64_pat y -> f64_exp x <> 2047 -> f64_exp y <> 2047 ->
  (fl_min x y = x \/ fl_min x y = y) /\ (fl_max x y = x \/ fl_max x y = y) /\
  fval (fl_min x y) = Rmin (fval x) (fval y) /\ fval (fl_max x y) = Rmax (fval x) (fval y).
Proof.
  intros Hx Hy Fx Fy.
  destruct (pcmp_real x y Hx Hy Fx Fy) as (_ & K).
  assert (Nx : f64_is_nan x = false) by (apply finite_not_nan; assumption).
  assert (Ny : f64_is_nan y = false) by (apply finite_not_nan; assumption).
  unfold fl_min, fl_max. rewrite Nx, Ny.
  destruct (Z.compare_spec (f64_key x) (f64_key y)) as [E|L|G]; symmetry in K.
  - apply Rcompare_Eq_inv in K.
    replace (f64_key x <? f64_key y) with false by lia. replace (f64_key y <? f64_key x) with false by lia.
    rewrite <- K. rewrite Rmin_left, Rmax_left by lra.
    destruct (f64_neg x); repeat split; auto.
  - apply Rcompare_Lt_inv in K.
    replace (f64_key x <? f64_key y) with true by lia. replace (f64_key y <? f64_key x) with false by lia.
    rewrite Rmin_left, Rmax_right by lra. repeat split; auto.
  - apply Rcompare_Gt_inv in K.
    replace (f64_key x <? f64_key y) with false by lia. replace (f64_key y <? f64_key x) with true by lia.
    rewrite Rmin_right, Rmax_left by lra. repeat split; auto.
Qed.

