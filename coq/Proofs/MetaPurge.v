(* MetaPurge.v (C11): what [purge_dict] (the swap_remove loop of context_close) leaves.

   With d = pre ++ l and i = length pre the loop returns  pre ++ purge_all l  where
   [purge_all] is the loop written on the suffix alone.  The result consists of constants
   only, it is a permutation of the constants of l (the order can change: the last entry
   is moved into the hole of a removed entry), and it is l itself when l has constants only. *)
From Xeh Require Import Model.Prelude Model.Bits Model.Codec Model.Cell Model.Lexer Model.Fmt
                        Model.Vm Model.Words Model.Build.
From Xeh Require Import Proofs.VmFrame Proofs.VmLimits Proofs.NoPanic Proofs.NoPanicBuild Proofs.NoPanicFlow.
From Coq Require Import Permutation.
Local Notation length := List.length.
Local Open Scope list_scope.

Definition is_dconst (e : dentry) : bool :=
  match dent e with DConst _ => true | _ => false end.

Fixpoint purge_list (fuel : nat) (l : list dentry) : list dentry :=
  match fuel with
  | O => l
  | S f =>
    match l with
    | [] => []
    | e :: r =>
      if is_dconst e then e :: purge_list f r
      else match r with
           | [] => []
           | _ :: _ => purge_list f (last r e :: removelast r)
           end
    end
  end.

Definition purge_all (l : list dentry) : list dentry := purge_list (length l) l.

Lemma purge_list_nil f : purge_list f [] = [].
Proof. destruct f; reflexivity. Qed.

Lemma swap_remove_last_some : forall l, l <> [] ->
  swap_remove_last l = Some (last l (mkdent EmptyString (DVar 0)), removelast l).
Proof.
  induction l as [|x l IH]; intros H; [contradiction|].
  destruct l as [|y l]; [reflexivity|].
  change (swap_remove_last (x :: y :: l))
    with (match swap_remove_last (y :: l) with Some (lst, r') => Some (lst, x :: r') | None => None end).
  rewrite IH by discriminate. reflexivity.
Qed.

Lemma last_indep {A} (l : list A) a b : l <> [] -> last l a = last l b.
Proof.
  induction l as [|x l IH]; intros H; [contradiction|].
  destruct l as [|y l]; [reflexivity|]. cbn [last]. apply IH. discriminate.
Qed.

Lemma last_app_cons {A} (p : list A) x r d : last (p ++ x :: r) d = last (x :: r) d.
Proof.
  induction p as [|y p IH]; [reflexivity|]. cbn [app].
  destruct (p ++ x :: r) as [|z q] eqn:E; [destruct p; discriminate|].
  change (last (y :: z :: q) d) with (last (z :: q) d). exact IH.
Qed.

Lemma removelast_app_cons {A} (p : list A) x r : removelast (p ++ x :: r) = p ++ removelast (x :: r).
Proof. apply removelast_app. discriminate. Qed.

Lemma list_set_app_len {A} (p : list A) x r v : list_set (p ++ x :: r) (length p) v = p ++ v :: r.
Proof. induction p as [|y p IH]; cbn [app length list_set]; [reflexivity|]. rewrite IH. reflexivity. Qed.

(* the loop's case distinction on an entry, by [is_dconst] *)
Lemma dent_case {A} e (a b : A) :
  match dent e with DConst _ => a | _ => b end = if is_dconst e then a else b.
Proof. unfold is_dconst. destruct (dent e); reflexivity. Qed.

Theorem purge_dict_spec : forall fuel pre l,
  purge_dict fuel (pre ++ l) (length pre) = pre ++ purge_list fuel l.
Proof.
  induction fuel as [|f IH]; intros pre l; cbn [purge_dict purge_list]; [reflexivity|].
  destruct l as [|e r].
  - rewrite app_nil_r. replace (nth_error pre (length pre)) with (@None dentry); [reflexivity|].
    symmetry. apply nth_error_None. lia.
  - rewrite nth_error_app2 by lia. rewrite Nat.sub_diag. cbn [nth_error]. rewrite dent_case.
    destruct (is_dconst e).
    + replace (pre ++ e :: r) with ((pre ++ [e]) ++ r) by (rewrite <- app_assoc; reflexivity).
      replace (S (length pre)) with (length (pre ++ [e])) by (rewrite app_length; cbn; lia).
      rewrite IH. rewrite <- app_assoc. reflexivity.
    + (* the last entry takes the place of e *)
      rewrite swap_remove_last_some by (destruct pre; discriminate).
      rewrite last_app_cons, removelast_app_cons. destruct r as [|y r'].
      * cbn [removelast]. rewrite app_nil_r, Nat.eqb_refl.
        pose proof (IH pre []) as X. rewrite app_nil_r in X. rewrite X.
        rewrite purge_list_nil. apply app_nil_r.
      * replace (length pre =? length (pre ++ removelast (e :: y :: r')))%nat with false.
        2:{ symmetry. apply Nat.eqb_neq. rewrite app_length. cbn [removelast length]. lia. }
        change (removelast (e :: y :: r')) with (e :: removelast (y :: r')).
        rewrite list_set_app_len. rewrite IH.
        rewrite (last_indep (e :: y :: r') _ e) by discriminate. reflexivity.
Qed.

Lemma removelast_length {A} (l : list A) : length (removelast l) = length l - 1.
Proof.
  induction l as [|x l IH]; [reflexivity|]. destruct l as [|y l]; [reflexivity|].
  change (removelast (x :: y :: l)) with (x :: removelast (y :: l)).
  cbn [length] in *. rewrite IH. lia.
Qed.

(* enough fuel: the loop runs to the end *)
Lemma purge_list_fuel : forall n l f, length l <= n -> n <= f -> purge_list f l = purge_list n l.
Proof.
  induction n as [|n IH]; intros l f Hl Hf.
  - destruct l; [|cbn [length] in Hl; lia]. rewrite !purge_list_nil. reflexivity.
  - destruct f as [|f]; [lia|]. cbn [purge_list]. destruct l as [|e r]; [reflexivity|].
    cbn [length] in Hl. destruct (is_dconst e).
    + f_equal. apply IH; lia.
    + destruct r as [|y r']; [reflexivity|]. apply IH; [|lia].
      cbn [length]. rewrite removelast_length. cbn [length] in *. lia.
Qed.

Lemma purge_list_all f l : length l <= f -> purge_list f l = purge_all l.
Proof. intros H. unfold purge_all. apply purge_list_fuel; [lia|exact H]. Qed.

Lemma purge_props : forall n l, length l <= n ->
  Forall (fun e => is_dconst e = true) (purge_list n l) /\
  Permutation (purge_list n l) (filter is_dconst l).
Proof.
  induction n as [|n IH]; intros l Hl.
  - destruct l; [|cbn [length] in Hl; lia]. split; [constructor|constructor].
  - cbn [purge_list]. destruct l as [|e r]; [split; constructor|].
    cbn [length] in Hl. cbn [filter]. destruct (is_dconst e) eqn:Ec.
    + destruct (IH r) as [A B]; [lia|]. split; [constructor; assumption|constructor; exact B].
    + destruct r as [|y r']; [split; constructor|].
      assert (Hr : y :: r' = removelast (y :: r') ++ [last (y :: r') e]).
      { apply app_removelast_last. discriminate. }
      destruct (IH (last (y :: r') e :: removelast (y :: r'))) as [A B].
      { cbn [length]. rewrite removelast_length. cbn [length] in *. lia. }
      split; [exact A|]. eapply Permutation_trans; [exact B|].
      rewrite Hr at 3. rewrite filter_app. cbn [filter].
      destruct (is_dconst (last (y :: r') e)).
      * apply Permutation_cons_append.
      * rewrite app_nil_r. reflexivity.
Qed.

Theorem purge_all_const l : Forall (fun e => is_dconst e = true) (purge_all l).
Proof. apply (proj1 (purge_props (length l) l (le_n _))). Qed.

Theorem purge_all_perm l : Permutation (purge_all l) (filter is_dconst l).
Proof. apply (proj2 (purge_props (length l) l (le_n _))). Qed.

(* nothing to remove: the suffix stays as it is *)
Lemma purge_list_consts : forall f l, Forall (fun e => is_dconst e = true) l -> purge_list f l = l.
Proof.
  induction f as [|f IH]; intros l H; [reflexivity|]. cbn [purge_list].
  destruct l as [|e r]; [reflexivity|]. inversion H as [|? ? He Hr]; subst. rewrite He.
  f_equal. apply IH. exact Hr.
Qed.

(* no constant follows a non-constant: the purge drops the non-constants and keeps the order *)
Lemma purge_list_tail : forall f a b, length (a ++ b) <= f ->
  Forall (fun e => is_dconst e = true) a -> Forall (fun e => is_dconst e = false) b ->
  purge_list f (a ++ b) = a.
Proof.
  induction f as [|f IH]; intros a b Hl Ha Hb.
  - destruct a; destruct b; cbn [app length] in Hl; try lia. reflexivity.
  - cbn [purge_list]. destruct a as [|e a].
    + cbn [app] in *. destruct b as [|e r]; [reflexivity|].
      inversion Hb as [|? ? He Hr]; subst. rewrite He.
      destruct r as [|y r']; [reflexivity|].
      assert (Hr2 : y :: r' = removelast (y :: r') ++ [last (y :: r') e]).
      { apply app_removelast_last. discriminate. }
      apply (IH [] (last (y :: r') e :: removelast (y :: r'))); [| constructor |].
      * cbn [app length] in *. rewrite removelast_length. cbn [length]. lia.
      * rewrite Hr2 in Hr. apply Forall_app in Hr. destruct Hr as [R1 R2].
        inversion R2; subst. constructor; assumption.
    + cbn [app] in *. inversion Ha as [|? ? He Hr]; subst. rewrite He. f_equal.
      apply IH; [cbn [length] in Hl; lia|exact Hr|exact Hb].
Qed.

(* the whole dictionary: [di <= length d] *)
Theorem purge_dict_full d di : di <= length d ->
  purge_dict (S (length d)) d di = firstn di d ++ purge_all (skipn di d).
Proof.
  intros H. pose proof (purge_dict_spec (S (length d)) (firstn di d) (skipn di d)) as X.
  rewrite firstn_skipn, firstn_length in X. replace (Nat.min di (length d)) with di in X by lia.
  rewrite X. f_equal. apply purge_list_all. rewrite skipn_length. lia.
Qed.

(* past the end: nothing happens *)
Lemma purge_dict_past d di : length d <= di -> purge_dict (S (length d)) d di = d.
Proof.
  intros H. cbn [purge_dict]. replace (nth_error d di) with (@None dentry); [reflexivity|].
  symmetry. apply nth_error_None. exact H.
Qed.
