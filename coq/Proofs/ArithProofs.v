(* ArithProofs.v: the arithmetic, comparison, bitwise, conversion and sign-test words of
   arith.rs run on an arbitrary state whose data stack starts with the operands (C09).
   Every statement gives the exact result: the value returned and the state left behind
   (data stack and the entries added to the reverse log; nothing else changes). *)
From Xeh Require Import Model.Prelude Model.Bits Model.Codec Model.Cell Model.Lexer Model.Fmt
                        Model.Vm Model.BaseN Model.Words.
From Xeh Require Import Proofs.WordRun Proofs.ArithNum.
From Coq Require Import ZifyBool ZifyNat.
Local Ltac Zify.zify_post_hook ::= Z.div_mod_to_equations.
Local Notation length := List.length.
Local Open Scope Z_scope.

(* the operands are the two / one topmost cells, above the mark of the current context *)
Definition args2 (s : state) (a b : cell) (rest : list cell) : Prop :=
  ds s = b :: a :: rest /\ (ds_len (cx s) <= length rest)%nat.
Definition args1 (s : state) (a : cell) (rest : list cell) : Prop :=
  ds s = a :: rest /\ (ds_len (cx s) <= length rest)%nat.
Definition room (s : state) (rest : list cell) : Prop :=
  limit_reached (stack_limit s) (length rest) = false.

(* success: the operands are replaced by [r]; failure: the operands are gone *)
Definition ok2 (s : state) (a b : cell) (rest : list cell) (r : cell) : res unit :=
  ROk tt (set_ds (with_log [RPopData; RPushData a; RPushData b] s) (r :: rest)).
Definition err2 (s : state) (a b : cell) (rest : list cell) (k : ekind) (p : option cell) : res unit :=
  RErr k p (set_ds (with_log [RPushData a; RPushData b] s) rest).
Definition ok1 (s : state) (a : cell) (rest : list cell) (r : cell) : res unit :=
  ROk tt (set_ds (with_log [RPopData; RPushData a] s) (r :: rest)).
Definition err1 (s : state) (a : cell) (rest : list cell) (k : ekind) (p : option cell) : res unit :=
  RErr k p (set_ds (with_log [RPushData a] s) rest).

Definition mixed (a b : cell) : Prop :=
  (exists x y, value a = CInt x /\ value b = CReal y) \/ (exists x y, value a = CReal x /\ value b = CInt y).

Lemma m_xint_int {A} c x (k : Z -> M A) s : value c = CInt x -> (let* v := m_xint c in k v) s = k x s.
Proof. intros H. unfold bind, m_xint. rewrite H. reflexivity. Qed.
Lemma m_real_real {A} c x (k : Z -> M A) s : value c = CReal x -> (let* v := m_real c in k v) s = k x s.
Proof. intros H. unfold bind, m_real. rewrite H. reflexivity. Qed.
Lemma m_xint_bad {A} c (k : Z -> M A) s : (forall x, value c <> CInt x) ->
  (let* v := m_xint c in k v) s = RErr EType (Some (value c)) s.
Proof. intros H. unfold bind, m_xint. destruct (value c) eqn:E; try reflexivity. exfalso. exact (H _ eq_refl). Qed.
Lemma m_real_bad {A} c (k : Z -> M A) s : (forall x, value c <> CReal x) ->
  (let* v := m_real c in k v) s = RErr EType (Some (value c)) s.
Proof. intros H. unfold bind, m_real. destruct (value c) eqn:E; try reflexivity. exfalso. exact (H _ eq_refl). Qed.

(* a binary word looks at the right operand and wants a left operand of the same kind;
   a unary one takes an int or a real, or only one of them *)
Definition dispatch2 {A} (ki kr : Z -> Z -> M A) : M A :=
  let* b := pop_data in
  let* a := pop_data in
  match value b with
  | CInt y => let* x := m_xint a in ki x y
  | CReal y => let* x := m_real a in kr x y
  | _ => num_type_error b
  end.
Definition dispatch1 {A} (ki kr : Z -> M A) : M A :=
  let* a := pop_data in
  match value a with CInt x => ki x | CReal r => kr r | _ => num_type_error a end.
Definition unary_int (g : Z -> cell) : M unit := let* a := pop_data in let* x := m_xint a in push_data (g x).
Definition unary_real (g : Z -> cell) : M unit := let* a := pop_data in let* x := m_real a in push_data (g x).

Lemma dispatch2_ii {A} (ki kr : Z -> Z -> M A) s a b rest x y :
  args2 s a b rest -> value a = CInt x -> value b = CInt y ->
  dispatch2 ki kr s = ki x y (set_ds (with_log [RPushData a; RPushData b] s) rest).
Proof.
  intros [Hd Hm] Ha Hb. unfold dispatch2. rewrite (run_pop2 _ s a b rest Hd Hm), Hb.
  exact (m_xint_int a x (fun v => ki v y) _ Ha).
Qed.
Lemma dispatch2_rr {A} (ki kr : Z -> Z -> M A) s a b rest x y :
  args2 s a b rest -> value a = CReal x -> value b = CReal y ->
  dispatch2 ki kr s = kr x y (set_ds (with_log [RPushData a; RPushData b] s) rest).
Proof.
  intros [Hd Hm] Ha Hb. unfold dispatch2. rewrite (run_pop2 _ s a b rest Hd Hm), Hb.
  exact (m_real_real a x (fun v => kr v y) _ Ha).
Qed.
(* a type error that reports the LEFT operand's value *)
Lemma dispatch2_mixed {A} (ki kr : Z -> Z -> M A) s a b rest :
  args2 s a b rest -> mixed a b ->
  dispatch2 ki kr s = RErr EType (Some (value a)) (set_ds (with_log [RPushData a; RPushData b] s) rest).
Proof.
  intros [Hd Hm] [(x & y & Ha & Hb)|(x & y & Ha & Hb)];
    unfold dispatch2; rewrite (run_pop2 _ s a b rest Hd Hm), Hb;
    [apply m_real_bad|apply m_xint_bad]; rewrite Ha; discriminate.
Qed.

Lemma dispatch1_int {A} (ki kr : Z -> M A) s a rest x : args1 s a rest -> value a = CInt x ->
  dispatch1 ki kr s = ki x (set_ds (with_log [RPushData a] s) rest).
Proof. intros [Hd Hm] Ha. unfold dispatch1. rewrite (run_pop1 _ s a rest Hd Hm), Ha. reflexivity. Qed.
Lemma dispatch1_real {A} (ki kr : Z -> M A) s a rest r : args1 s a rest -> value a = CReal r ->
  dispatch1 ki kr s = kr r (set_ds (with_log [RPushData a] s) rest).
Proof. intros [Hd Hm] Ha. unfold dispatch1. rewrite (run_pop1 _ s a rest Hd Hm), Ha. reflexivity. Qed.

Lemma unary_int_run g s a rest x : args1 s a rest -> room s rest -> value a = CInt x ->
  unary_int g s = ok1 s a rest (g x).
Proof.
  intros [Hd Hm] Hr Ha. unfold unary_int. rewrite (run_pop1 _ s a rest Hd Hm), (m_xint_int _ _ _ _ Ha).
  apply run_push, Hr.
Qed.
Lemma unary_real_run g s a rest r : args1 s a rest -> room s rest -> value a = CReal r ->
  unary_real g s = ok1 s a rest (g r).
Proof.
  intros [Hd Hm] Hr Ha. unfold unary_real. rewrite (run_pop1 _ s a rest Hd Hm), (m_real_real _ _ _ _ Ha).
  apply run_push, Hr.
Qed.

Section Words.
  Variable fo : fops.

  Lemma arith_real_is oi orl :
    arith_real oi orl
    = dispatch2 (fun x y => let* r := oi x y in push_data (cint r)) (fun x y => push_data (CReal (orl x y))).
  Proof. reflexivity. Qed.
  Lemma w_div_is :
    w_div fo
    = dispatch2 (fun x y => if y =? 0 then fail EDivZero None
                            else if in_i128 (Z.quot x y) then push_data (cint (Z.quot x y)) else fail EOverflow None)
                (fun x y => if f64_is_zero y then fail EDivZero None else push_data (CReal (f_div fo x y))).
  Proof. reflexivity. Qed.
  Lemma compare_cells_is :
    compare_cells
    = dispatch2 (fun x y => ret (x ?= y)) (fun x y => ret (match f64_pcmp x y with Some c => c | None => Eq end)).
  Proof. reflexivity. Qed.
  Lemma w_neg_is :
    w_neg = dispatch1 (fun x => if in_i128 (- x) then push_data (cint (- x)) else fail EOverflow None)
                      (fun r => push_data (CReal (Z.lxor r (2 ^ 63)))).
  Proof. reflexivity. Qed.
  Lemma w_abs_is :
    w_abs = dispatch1 (fun x => if in_i128 (Z.abs x) then push_data (cint (Z.abs x)) else fail EOverflow None)
                      (fun r => push_data (CReal (r mod 2 ^ 63))).
  Proof. reflexivity. Qed.
  Lemma w_sign_test_is fi fr :
    w_sign_test fi fr = dispatch1 (fun x => push_data (cflag (fi x))) (fun r => push_data (cflag (fr r))).
  Proof. reflexivity. Qed.

  Lemma arith_real_ii oi orl s a b rest x y :
    args2 s a b rest -> value a = CInt x -> value b = CInt y ->
    arith_real oi orl s =
    (let* r := oi x y in push_data (cint r)) (set_ds (with_log [RPushData a; RPushData b] s) rest).
  Proof. intros HA Ha Hb. rewrite arith_real_is. exact (dispatch2_ii _ _ s a b rest x y HA Ha Hb). Qed.

  Lemma arith_real_rr oi orl s a b rest x y :
    args2 s a b rest -> room s rest -> value a = CReal x -> value b = CReal y ->
    arith_real oi orl s = ok2 s a b rest (CReal (orl x y)).
  Proof.
    intros HA Hr Ha Hb. rewrite arith_real_is, (dispatch2_rr _ _ s a b rest x y HA Ha Hb). apply run_push, Hr.
  Qed.

  (* an int operation that cannot fail: + - * (wrapped), min, max *)
  Lemma arith_real_ret g orl s a b rest x y :
    args2 s a b rest -> room s rest -> value a = CInt x -> value b = CInt y ->
    arith_real (fun x y => ret (g x y)) orl s = ok2 s a b rest (CInt (g x y)).
  Proof.
    intros HA Hr Ha Hb. rewrite (arith_real_ii _ _ s a b rest x y HA Ha Hb). apply run_push, Hr.
  Qed.

  (* rem on any two ints: the wrapped remainder of truncating division (sign of the dividend) *)
  Theorem rem_int_wrapped s a b rest x y :
    args2 s a b rest -> room s rest -> value a = CInt x -> value b = CInt y ->
    w_rem fo s =
    if y =? 0 then err2 s a b rest EDivZero None else ok2 s a b rest (CInt (wrap128 (Z.rem x y))).
  Proof.
    intros HA Hr Ha Hb. unfold w_rem. rewrite (arith_real_ii _ _ s a b rest x y HA Ha Hb).
    unfold bind. destruct (y =? 0); [reflexivity|]. apply run_push, Hr.
  Qed.

  Theorem div_real s a b rest x y :
    args2 s a b rest -> room s rest -> value a = CReal x -> value b = CReal y ->
    w_div fo s = if f64_is_zero y then err2 s a b rest EDivZero None
                 else ok2 s a b rest (CReal (f_div fo x y)).
  Proof.
    intros HA Hr Ha Hb. rewrite w_div_is, (dispatch2_rr _ _ s a b rest x y HA Ha Hb).
    destruct (f64_is_zero y); [reflexivity|]. apply run_push, Hr.
  Qed.

  Theorem mixed_type_error s a b rest :
    args2 s a b rest -> mixed a b ->
    let e := err2 s a b rest EType (Some (value a)) in
    w_add fo s = e /\ w_sub fo s = e /\ w_mul fo s = e /\ w_div fo s = e /\ w_rem fo s = e /\
    w_min fo s = e /\ w_max fo s = e /\ (forall f, w_cmp f s = e).
  Proof.
    intros HA HM e. unfold w_add, w_sub, w_mul, w_rem, w_min, w_max.
    repeat split; try (rewrite arith_real_is; apply dispatch2_mixed; assumption).
    - rewrite w_div_is. apply dispatch2_mixed; assumption.
    - intro f. unfold w_cmp, bind. rewrite compare_cells_is, (dispatch2_mixed _ _ s a b rest HA HM). reflexivity.
  Qed.

  (* two reals: the order of the keys; unordered operands count as equal *)
  Lemma cmp_real_gen f s a b rest x y :
    args2 s a b rest -> room s rest -> value a = CReal x -> value b = CReal y ->
    w_cmp f s = ok2 s a b rest (CFlag (f (match f64_pcmp x y with Some c => c | None => Eq end))).
  Proof.
    intros HA Hr Ha Hb. unfold w_cmp, bind.
    rewrite compare_cells_is, (dispatch2_rr _ _ s a b rest x y HA Ha Hb). apply run_push, Hr.
  Qed.

  Theorem cmp_real f s a b rest x y :
    args2 s a b rest -> room s rest -> value a = CReal x -> value b = CReal y ->
    f64_is_nan x = false -> f64_is_nan y = false ->
    w_cmp f s = ok2 s a b rest (CFlag (f (f64_key x ?= f64_key y))).
  Proof.
    intros HA Hr Ha Hb Nx Ny. rewrite (cmp_real_gen f s a b rest x y HA Hr Ha Hb).
    unfold f64_pcmp. rewrite Nx, Ny. reflexivity.
  Qed.

  (* the right operand is popped and looked at first; the left one is still on the stack then *)
  Lemma arith_int_pop f s a b rest :
    args2 s a b rest ->
    arith_int f s =
    (let* y := m_xint b in let* a' := pop_data in let* x := m_xint a' in push_data (cint (f x y)))
      (set_ds (with_log [RPushData b] s) (a :: rest)).
  Proof.
    intros [Hd Hm]. unfold arith_int. rewrite (run_pop1 _ s b (a :: rest) Hd) by (cbn [List.length]; lia).
    reflexivity.
  Qed.

  Lemma arith_int_left f s a b rest y :
    args2 s a b rest -> value b = CInt y ->
    arith_int f s =
    (let* x := m_xint a in push_data (cint (f x y))) (set_ds (with_log [RPushData a; RPushData b] s) rest).
  Proof.
    intros HA Hb. rewrite (arith_int_pop f s a b rest HA), (m_xint_int _ _ _ _ Hb).
    destruct HA as [Hd Hm]. destruct (set_ds_fields (with_log [RPushData b] s) (a :: rest)) as (F1 & F2 & _).
    destruct (with_log_fields [RPushData b] s) as (_ & F3 & _).
    rewrite (run_pop1 _ _ a rest F1) by (rewrite F2, F3; exact Hm).
    f_equal. destruct_state s. destruct rl0; state_crush.
  Qed.

  Lemma arith_int_run f s a b rest x y :
    args2 s a b rest -> room s rest -> value a = CInt x -> value b = CInt y ->
    arith_int f s = ok2 s a b rest (CInt (f x y)).
  Proof.
    intros HA Hr Ha Hb. rewrite (arith_int_left f s a b rest y HA Hb), (m_xint_int _ _ _ _ Ha). apply run_push, Hr.
  Qed.

  (* the bitwise words fail on a non-int operand with that operand's value *)
  Theorem arith_int_type_error f s a b rest :
    args2 s a b rest ->
    ((forall y, value b <> CInt y) ->
     arith_int f s = RErr EType (Some (value b)) (set_ds (with_log [RPushData b] s) (a :: rest))) /\
    (forall y, value b = CInt y -> (forall x, value a <> CInt x) ->
     arith_int f s = err2 s a b rest EType (Some (value a))).
  Proof.
    intros HA. split.
    - intros Hb. rewrite (arith_int_pop f s a b rest HA). apply m_xint_bad, Hb.
    - intros y Hb Ha. rewrite (arith_int_left f s a b rest y HA Hb). apply m_xint_bad, Ha.
  Qed.

  Theorem sign_test_int fi fr s a rest x :
    args1 s a rest -> room s rest -> value a = CInt x ->
    w_sign_test fi fr s = ok1 s a rest (CFlag (fi x)).
  Proof. intros HA Hr Ha. rewrite w_sign_test_is, (dispatch1_int _ _ s a rest x HA Ha). apply run_push, Hr. Qed.
  Theorem sign_test_real fi fr s a rest r :
    args1 s a rest -> room s rest -> value a = CReal r ->
    w_sign_test fi fr s = ok1 s a rest (CFlag (fr r)).
  Proof. intros HA Hr Ha. rewrite w_sign_test_is, (dispatch1_real _ _ s a rest r HA Ha). apply run_push, Hr. Qed.

End Words.
