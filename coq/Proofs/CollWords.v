(* CollWords.v: the collection words on the data stack: run equations for the stack primitives
   and the typed accessors, the ways a word ends ([ends]: with a push, with an error after its
   pops), and the word-level statements that C12 builds on or that stand beside it: what a word
   does on well-typed inputs, which inputs fail with which error, and that a failing word only
   pops. *)
From Xeh Require Import Model.Prelude Model.Bits Model.Codec Model.Cell Model.Lexer Model.Fmt
                        Model.Vm Model.Words Proofs.BitsProofs Proofs.CellProofs Proofs.CollProofs
                        Proofs.CollVec.
From Coq Require Import Sorting.Sorted Sorting.Permutation ZifyBool ZifyNat ZifyN.
Local Notation length := List.length.

#[local] Arguments Z.add : simpl never.
#[local] Arguments Z.sub : simpl never.
#[local] Arguments Z.mul : simpl never.
#[local] Arguments Z.ltb : simpl never.
#[local] Arguments Z.leb : simpl never.
#[local] Arguments Z.eqb : simpl never.
#[local] Arguments Z.of_nat : simpl never.
#[local] Arguments Z.to_nat : simpl never.

Definition only_ds (s s' : state) : Prop := exists l, s' = set_rlog (set_ds s (ds s')) l.
Definition has_args (n : nat) (s : state) : Prop := (ds_len (cx s) + n <= length (ds s))%nat.
Definition room (s : state) (rest : list cell) : Prop :=
  limit_reached (stack_limit s) (length rest) = false.

Definition popd (c : cell) (r : list cell) (s : state) : state := add_rstep (RPushData c) (set_ds s r).
Definition pushd (c : cell) (s : state) : state := set_ds (add_rstep RPopData s) (c :: ds s).

Lemma only_ds_refl : forall s, only_ds s s.
Proof. intro s. exists (rlog s). destruct s; reflexivity. Qed.

Lemma only_ds_trans : forall a b c, only_ds a b -> only_ds b c -> only_ds a c.
Proof.
  intros a b c [l1 H1] [l2 H2]. exists l2. rewrite H2. rewrite H1 at 1.
  destruct a; reflexivity.
Qed.

Lemma only_ds_set_ds : forall s s' d, only_ds s s' -> only_ds s (set_ds s' d).
Proof.
  intros s s' d [l H]. exists l. rewrite H. destruct s; reflexivity.
Qed.

Lemma only_ds_add_rstep : forall s s' r, only_ds s s' -> only_ds s (add_rstep r s').
Proof.
  intros s s' r [l H]. unfold add_rstep. destruct (rlog s') as [lg|]; [| exists l; exact H].
  exists (Some (r :: lg)). rewrite H. destruct s; reflexivity.
Qed.

Lemma only_ds_popd : forall s s' c r, only_ds s s' -> only_ds s (popd c r s').
Proof. intros. unfold popd. apply only_ds_add_rstep, only_ds_set_ds. assumption. Qed.

Lemma only_ds_pushd : forall s s' c, only_ds s s' -> only_ds s (pushd c s').
Proof. intros. unfold pushd. apply only_ds_set_ds, only_ds_add_rstep. assumption. Qed.

Lemma only_ds_cx : forall s s', only_ds s s' -> cx s' = cx s.
Proof. intros s s' [l H]. rewrite H. reflexivity. Qed.
Lemma only_ds_stack_limit : forall s s', only_ds s s' -> stack_limit s' = stack_limit s.
Proof. intros s s' [l H]. rewrite H. reflexivity. Qed.
Lemma only_ds_special : forall s s', only_ds s s' -> special s' = special s.
Proof. intros s s' [l H]. rewrite H. reflexivity. Qed.
Lemma only_ds_code : forall s s', only_ds s s' -> code s' = code s.
Proof. intros s s' [l H]. rewrite H. reflexivity. Qed.
Lemma only_ds_dict : forall s s', only_ds s s' -> dict s' = dict s.
Proof. intros s s' [l H]. rewrite H. reflexivity. Qed.
Lemma only_ds_out : forall s s', only_ds s s' -> out s' = out s.
Proof. intros s s' [l H]. rewrite H. reflexivity. Qed.
Lemma only_ds_meter : forall s s', only_ds s s' -> meter s' = meter s.
Proof. intros s s' [l H]. rewrite H. reflexivity. Qed.

Lemma ds_add_rstep : forall r s, ds (add_rstep r s) = ds s.
Proof. intros. unfold add_rstep. destruct (rlog s); reflexivity. Qed.
Lemma cx_add_rstep : forall r s, cx (add_rstep r s) = cx s.
Proof. intros. unfold add_rstep. destruct (rlog s); reflexivity. Qed.
Lemma stack_limit_add_rstep : forall r s, stack_limit (add_rstep r s) = stack_limit s.
Proof. intros. unfold add_rstep. destruct (rlog s); reflexivity. Qed.
Lemma loops_add_rstep : forall r s, loops (add_rstep r s) = loops s.
Proof. intros. unfold add_rstep. destruct (rlog s); reflexivity. Qed.
Lemma special_add_rstep : forall r s, special (add_rstep r s) = special s.
Proof. intros. unfold add_rstep. destruct (rlog s); reflexivity. Qed.

Lemma ds_popd : forall c r s, ds (popd c r s) = r.
Proof. intros. unfold popd. rewrite ds_add_rstep. reflexivity. Qed.
Lemma cx_popd : forall c r s, cx (popd c r s) = cx s.
Proof. intros. unfold popd. rewrite cx_add_rstep. reflexivity. Qed.
Lemma stack_limit_popd : forall c r s, stack_limit (popd c r s) = stack_limit s.
Proof. intros. unfold popd. rewrite stack_limit_add_rstep. reflexivity. Qed.
Lemma loops_popd : forall c r s, loops (popd c r s) = loops s.
Proof. intros. unfold popd. rewrite loops_add_rstep. reflexivity. Qed.

Lemma ds_pushd : forall c s, ds (pushd c s) = c :: ds s.
Proof. reflexivity. Qed.
Lemma stack_limit_pushd : forall c s, stack_limit (pushd c s) = stack_limit s.
Proof. intros. unfold pushd. cbn [stack_limit set_ds]. apply stack_limit_add_rstep. Qed.
Lemma loops_pushd : forall c s, loops (pushd c s) = loops s.
Proof. intros. unfold pushd. cbn [loops set_ds]. apply loops_add_rstep. Qed.

Lemma has_args_le : forall n m s, (m <= n)%nat -> has_args n s -> has_args m s.
Proof. unfold has_args. intros. lia. Qed.

Lemma limit_reached_mono : forall lim n m, (m <= n)%nat ->
  limit_reached lim n = false -> limit_reached lim m = false.
Proof. intros lim n m H. unfold limit_reached. destruct lim; auto. lia. Qed.

Lemma room_none : forall s rest, stack_limit s = None -> room s rest.
Proof. intros s rest H. unfold room. rewrite H. reflexivity. Qed.

Lemma pop_data_eq : forall s c r, ds s = c :: r -> has_args 1 s ->
  pop_data s = ROk c (popd c r s).
Proof.
  intros s c r Hd Ha. unfold pop_data, has_args in *. rewrite Hd in *.
  destruct (Nat.ltb_spec (ds_len (cx s)) (length (c :: r))); [reflexivity | lia].
Qed.

Lemma pop_data_underflow : forall s, ~ has_args 1 s -> pop_data s = RErr EUnderflow None s.
Proof.
  intros s Ha. unfold pop_data, has_args in *. destruct (ds s) as [| c r]; [reflexivity|].
  destruct (Nat.ltb_spec (ds_len (cx s)) (length (c :: r))); [lia | reflexivity].
Qed.

Theorem pop_data_ok : forall s c r, ds s = c :: r -> has_args 1 s ->
  exists s1, pop_data s = ROk c s1 /\ s1 = add_rstep (RPushData c) (set_ds s r) /\
             ds s1 = r /\ only_ds s s1 /\ cx s1 = cx s /\ stack_limit s1 = stack_limit s /\
             loops s1 = loops s.
Proof.
  intros s c r Hd Ha. exists (popd c r s). split; [apply pop_data_eq; assumption|].
  split; [reflexivity|]. split; [apply ds_popd|]. split; [apply only_ds_popd, only_ds_refl|].
  split; [apply cx_popd|]. split; [apply stack_limit_popd | apply loops_popd].
Qed.

Lemma bind_pop : forall {A} (k : cell -> M A) s c r n, ds s = c :: r -> has_args (S n) s ->
  bind pop_data k s = k c (popd c r s).
Proof.
  intros A k s c r n Hd Ha. unfold bind.
  rewrite (pop_data_eq s c r Hd) by (eapply has_args_le; [| exact Ha]; lia). reflexivity.
Qed.

Lemma popd_args : forall s c r n, ds s = c :: r -> has_args (S n) s ->
  ds (popd c r s) = r /\ has_args n (popd c r s).
Proof.
  intros s c r n Hd Ha. split; [apply ds_popd|].
  unfold has_args in *. rewrite cx_popd, ds_popd. rewrite Hd in Ha. cbn [length] in Ha. lia.
Qed.

Lemma pop_first_underflow : forall {A} (k : cell -> M A) s,
  ~ has_args 1 s -> bind pop_data k s = RErr EUnderflow None s.
Proof. intros A k s H. unfold bind. rewrite pop_data_underflow by assumption. reflexivity. Qed.

Lemma top_data_eq : forall s c r, ds s = c :: r -> has_args 1 s -> top_data s = ROk c s.
Proof.
  intros s c r Hd Ha. unfold top_data, has_args in *. rewrite Hd in *.
  destruct (Nat.ltb_spec (ds_len (cx s)) (length (c :: r))); [reflexivity | lia].
Qed.

Lemma top_data_underflow : forall s, ~ has_args 1 s -> top_data s = RErr EUnderflow None s.
Proof.
  intros s Ha. unfold top_data, has_args in *. destruct (ds s) as [| c r]; [reflexivity|].
  destruct (Nat.ltb_spec (ds_len (cx s)) (length (c :: r))); [lia | reflexivity].
Qed.

Lemma push_data_eq : forall c s, room s (ds s) -> push_data c s = ROk tt (pushd c s).
Proof. intros c s H. unfold push_data, room in *. rewrite H. reflexivity. Qed.

Lemma push_data_limit : forall c s, limit_reached (stack_limit s) (length (ds s)) = true ->
  push_data c s = RErr ELimit None s.
Proof. intros c s H. unfold push_data. rewrite H. reflexivity. Qed.

Theorem push_data_ok : forall c s, room s (ds s) ->
  exists s1, push_data c s = ROk tt s1 /\ ds s1 = c :: ds s /\ only_ds s s1.
Proof.
  intros c s H. exists (pushd c s). split; [apply push_data_eq; assumption|].
  split; [reflexivity | apply only_ds_pushd, only_ds_refl].
Qed.

Lemma pop_n_ok : forall items s rest, ds s = (items ++ rest)%list -> has_args (length items) s ->
  exists s', pop_n (length items) s = ROk tt s' /\ ds s' = rest /\ only_ds s s'.
Proof.
  induction items as [| x items IH]; intros s rest Hd Ha.
  - exists s. cbn [pop_n length]. split; [reflexivity|]. split; [assumption | apply only_ds_refl].
  - cbn [length pop_n].
    rewrite (bind_pop _ _ _ _ _ Hd Ha). destruct (popd_args _ _ _ _ Hd Ha) as [Hd1 Ha1].
    destruct (IH _ rest Hd1 Ha1) as (s' & E' & Hd' & Ho').
    exists s'. split; [assumption|]. split; [assumption|].
    eapply only_ds_trans; [apply only_ds_popd, only_ds_refl | exact Ho'].
Qed.

Lemma pop_n_underflow : forall n s, ~ has_args 1 s -> pop_n (S n) s = RErr EUnderflow None s.
Proof. intros n s. apply pop_first_underflow. Qed.

(* push_all pushes left to right: the last element ends on top *)
Lemma push_all_ok : forall l s,
  (forall n, (n < length l)%nat -> limit_reached (stack_limit s) (length (ds s) + n) = false) ->
  exists s', push_all l s = ROk tt s' /\ ds s' = (rev l ++ ds s)%list /\ only_ds s s'.
Proof.
  induction l as [| x l IH]; intros s H.
  - exists s. split; [reflexivity|]. split; [reflexivity | apply only_ds_refl].
  - cbn [push_all]. unfold bind. rewrite push_data_eq.
    2:{ unfold room. specialize (H 0%nat). rewrite Nat.add_0_r in H. apply H. cbn [length]. lia. }
    destruct (IH (pushd x s)) as (s' & E & Hd & Ho).
    { intros n Hn. rewrite stack_limit_pushd, ds_pushd. cbn [length].
      replace (S (length (ds s)) + n)%nat with (length (ds s) + S n)%nat by lia.
      apply H. cbn [length]. lia. }
    exists s'. split; [assumption|]. split.
    + rewrite Hd, ds_pushd. cbn [rev]. rewrite <- app_assoc. reflexivity.
    + eapply only_ds_trans; [| exact Ho]. apply only_ds_pushd, only_ds_refl.
Qed.

Lemma m_vec_ok : forall c v, value c = CVec v -> forall s, m_vec c s = ROk v s.
Proof. intros c v H s. unfold m_vec. rewrite H. reflexivity. Qed.

Lemma m_vec_err : forall c, (forall v, value c <> CVec v) -> forall s, m_vec c s = RErr EType (Some (value c)) s.
Proof. intros c H s. unfold m_vec. destruct (value c); try reflexivity. elim (H l). reflexivity. Qed.

Lemma m_str_ok : forall c t, value c = CStr t -> forall s, m_str c s = ROk t s.
Proof. intros c t H s. unfold m_str. rewrite H. reflexivity. Qed.

Lemma m_isize_ok : forall c z, value c = CInt z -> in_isize z = true -> forall s, m_isize c s = ROk z s.
Proof. intros c z H Hz s. unfold m_isize. rewrite H, Hz. reflexivity. Qed.

Lemma m_isize_overflow : forall c z, value c = CInt z -> in_isize z = false ->
  forall s, m_isize c s = RErr EOverflow None s.
Proof. intros c z H Hz s. unfold m_isize. rewrite H, Hz. reflexivity. Qed.

Lemma m_isize_err : forall c, (forall z, value c <> CInt z) ->
  forall s, m_isize c s = RErr EType (Some (value c)) s.
Proof. intros c H s. unfold m_isize. destruct (value c); try reflexivity. elim (H z). reflexivity. Qed.

Lemma m_usize_ok : forall c z, value c = CInt z -> in_usize z = true -> forall s, m_usize c s = ROk z s.
Proof.
  intros c z H Hz s. unfold m_usize. rewrite H, Hz.
  destruct (Z.ltb_spec z 0); [unfold in_usize in Hz; lia | reflexivity].
Qed.

Lemma m_usize_neg : forall c z, value c = CInt z -> (z < 0)%Z -> forall s, m_usize c s = RErr EType (Some c) s.
Proof. intros c z H Hz s. unfold m_usize. rewrite H. destruct (Z.ltb_spec z 0); [reflexivity | lia]. Qed.

Lemma m_usize_overflow : forall c z, value c = CInt z -> (two64 <= z)%Z ->
  forall s, m_usize c s = RErr EOverflow None s.
Proof.
  intros c z H Hz s. unfold m_usize. rewrite H. assert (0 < two64)%Z by reflexivity.
  destruct (Z.ltb_spec z 0); [lia|]. replace (in_usize z) with false by (unfold in_usize; lia). reflexivity.
Qed.

Lemma m_usize_err : forall c, (forall z, value c <> CInt z) ->
  forall s, m_usize c s = RErr EType (Some (value c)) s.
Proof. intros c H s. unfold m_usize. destruct (value c); try reflexivity. elim (H z). reflexivity. Qed.

(* the shape of every statement below: the result [x] of a word started in [s] is [R s'], where
   [s'] has the data stack [d] and differs from [s] in the data stack and the log only *)
Definition ends (s : state) (x : res unit) (R : state -> res unit) (d : list cell) : Prop :=
  exists s', x = R s' /\ ds s' = d /\ only_ds s s'.

Lemma ends_push : forall s0 s rest c, ds s = rest -> only_ds s0 s -> room s0 rest ->
  ends s0 (push_data c s) (ROk tt) (c :: rest).
Proof.
  intros s0 s rest c Hd Ho Hr. exists (pushd c s). split; [| split].
  - apply push_data_eq. unfold room in *. rewrite (only_ds_stack_limit _ _ Ho), Hd. assumption.
  - rewrite ds_pushd, Hd. reflexivity.
  - apply only_ds_pushd. assumption.
Qed.

Lemma ends_err : forall s0 s rest e p, ds s = rest -> only_ds s0 s -> ends s0 (RErr e p s) (RErr e p) rest.
Proof. intros s0 s rest e p Hd Ho. exists s. auto. Qed.

Lemma ends_seq : forall (w k : M unit) s d1 R d2, ends s (w s) (ROk tt) d1 ->
  (forall s1, ds s1 = d1 -> only_ds s s1 -> ends s1 (k s1) R d2) -> ends s ((w ;; k) s) R d2.
Proof.
  intros w k s d1 R d2 (s1 & E1 & Hd1 & Ho1) H. unfold bind. rewrite E1.
  destruct (H s1 Hd1 Ho1) as (s2 & E2 & Hd2 & Ho2).
  exists s2. split; [exact E2|]. split; [exact Hd2 | eapply only_ds_trans; eassumption].
Qed.

(* pop one cell: Hd : ds s = c :: r, Ha : has_args (S n) s *)
Ltac pop_with Hd Ha Hd' Ha' :=
  rewrite (bind_pop _ _ _ _ _ Hd Ha); destruct (popd_args _ _ _ _ Hd Ha) as [Hd' Ha']; cbv beta.

(* one step whose result [E] gives *)
Ltac run E := unfold bind at 1; rewrite E; cbv beta iota.

(* only_ds s (popd .. (popd .. s)) *)
Ltac ods := repeat (first [apply only_ds_popd | apply only_ds_pushd]); apply only_ds_refl.

Ltac fin_push Hd Hr := apply ends_push; [exact Hd | ods | exact Hr].
Ltac fin_err Hd := apply ends_err; [exact Hd | ods].

Lemma fails_at_first : forall {A} (acc : cell -> M A) (k : A -> M unit) s c r e p,
  ds s = c :: r -> has_args 1 s -> (forall s1, acc c s1 = RErr e p s1) ->
  ends s ((let* c := pop_data in let* x := acc c in k x) s) (RErr e p) r.
Proof. intros A acc k s c r e p Hd Ha E. pop_with Hd Ha Hd1 Ha1. run E. fin_err Hd1. Qed.

Lemma vec_unop_ok : forall (f : list cell -> cell) s c rest v,
  ds s = c :: rest -> has_args 1 s -> value c = CVec v -> room s rest ->
  ends s ((let* c := pop_data in let* v := m_vec c in push_data (f v)) s) (ROk tt) (f v :: rest).
Proof.
  intros f s c rest v Hd Ha Hc Hr. pop_with Hd Ha Hd1 Ha1. run (m_vec_ok _ _ Hc). fin_push Hd1 Hr.
Qed.

Theorem w_insert_underflow_2 : forall s key r, ds s = key :: r -> has_args 1 s -> ~ has_args 2 s ->
  exists s', w_insert s = RErr EUnderflow None s' /\ ds s' = r /\ only_ds s s'.
Proof.
  intros s key r Hd Ha Hn. unfold w_insert.
  pop_with Hd Ha Hd1 Ha1. rewrite pop_first_underflow.
  - fin_err Hd1.
  - unfold has_args in *. rewrite cx_popd, ds_popd. rewrite Hd in Hn. cbn [length] in Hn. lia.
Qed.

Theorem w_get_vec_ok : forall s key c rest v i,
  ds s = key :: c :: rest -> has_args 2 s -> value c = CVec v -> value key = CInt i ->
  in_usize i = true -> (i < Z.of_nat (length v))%Z -> room s rest ->
  exists x s', nth_error v (Z.to_nat i) = Some x /\
               w_get s = ROk tt s' /\ ds s' = x :: rest /\ only_ds s s'.
Proof.
  intros s key c rest v i Hd Ha Hc Hk Hi Hlt Hr. unfold w_get.
  pop_with Hd Ha Hd1 Ha1. pop_with Hd1 Ha1 Hd2 Ha2.
  rewrite Hc. run (m_usize_ok _ _ Hk Hi).
  destruct (Z.leb_spec (Z.of_nat (length v)) i); [lia|].
  destruct (nth_error v (Z.to_nat i)) as [x|] eqn:En.
  - exists x. destruct (ends_push s _ rest x Hd2) as (s' & P); [ods | exact Hr |]. exists s'. auto.
  - apply nth_error_None in En. unfold in_usize in Hi. lia.
Qed.

(* nth: the index is popped and checked BEFORE the vector is popped *)
Theorem w_nth_ok : forall s i c rest v z n x,
  ds s = i :: c :: rest -> has_args 2 s -> value i = CInt z -> in_isize z = true ->
  value c = CVec v -> vec_index (length v) z = Some n -> nth_error v n = Some x -> room s rest ->
  exists s', w_nth s = ROk tt s' /\ ds s' = x :: rest /\ only_ds s s'.
Proof.
  intros s i c rest v z n x Hd Ha Hi Hz Hc Hn Hx Hr. unfold w_nth.
  pop_with Hd Ha Hd1 Ha1. run (m_isize_ok _ _ Hi Hz).
  pop_with Hd1 Ha1 Hd2 Ha2. run (m_vec_ok _ _ Hc).
  run (vector_get_spec v z). rewrite Hn, Hx. fin_push Hd2 Hr.
Qed.

Corollary w_nth_ok' : forall s i c rest v z n,
  ds s = i :: c :: rest -> has_args 2 s -> value i = CInt z -> in_isize z = true ->
  value c = CVec v -> vec_index (length v) z = Some n -> room s rest ->
  exists x s', nth_error v n = Some x /\ w_nth s = ROk tt s' /\ ds s' = x :: rest /\ only_ds s s'.
Proof.
  intros s i c rest v z n Hd Ha Hi Hz Hc Hn Hr.
  destruct (vec_index_nth v z n Hn) as [x Hx]. exists x.
  destruct (w_nth_ok s i c rest v z n x) as (s' & H); auto. exists s'. tauto.
Qed.

Theorem w_push_err_type : forall s c r,
  ds s = c :: r -> has_args 1 s -> (forall v, value c <> CVec v) ->
  exists s', w_push s = RErr EType (Some (value c)) s' /\ ds s' = r /\ only_ds s s'.
Proof. intros s c r Hd Ha Hc. eapply (fails_at_first m_vec); eauto using m_vec_err. Qed.

Theorem w_push_underflow : forall s, ~ has_args 1 s -> w_push s = RErr EUnderflow None s.
Proof. intro s. apply pop_first_underflow. Qed.

Theorem w_reverse_err_type : forall s c r,
  ds s = c :: r -> has_args 1 s -> (forall v, value c <> CVec v) ->
  exists s', w_reverse s = RErr EType (Some (value c)) s' /\ ds s' = r /\ only_ds s s'.
Proof. intros s c r Hd Ha Hc. eapply (fails_at_first m_vec); eauto using m_vec_err. Qed.

Theorem w_reverse_underflow : forall s, ~ has_args 1 s -> w_reverse s = RErr EUnderflow None s.
Proof. intro s. apply pop_first_underflow. Qed.

Theorem w_sort_err_type : forall s c r,
  ds s = c :: r -> has_args 1 s -> (forall v, value c <> CVec v) ->
  exists s', w_sort s = RErr EType (Some (value c)) s' /\ ds s' = r /\ only_ds s s'.
Proof. intros s c r Hd Ha Hc. eapply (fails_at_first m_vec); eauto using m_vec_err. Qed.

Theorem w_sort_underflow : forall s, ~ has_args 1 s -> w_sort s = RErr EUnderflow None s.
Proof. intro s. apply pop_first_underflow. Qed.

(* length of a vector, a string (in BYTES, as str::len) or a bit string *)
Definition coll_length (c : cell) : option nat :=
  match value c with
  | CVec l => Some (length l)
  | CStr t => Some (String.length t)
  | CBits b => Some (clen b)
  | _ => None
  end.

Theorem w_length_ok : forall s c rest n,
  ds s = c :: rest -> has_args 1 s -> coll_length c = Some n -> room s rest ->
  exists s', w_length s = ROk tt s' /\ ds s' = CInt (Z.of_nat n) :: rest /\ only_ds s s'.
Proof.
  intros s c rest n Hd Ha Hc Hr. unfold w_length.
  pop_with Hd Ha Hd1 Ha1. unfold coll_length in Hc.
  destruct (value c); try discriminate Hc; injection Hc as <-; fin_push Hd1 Hr.
Qed.

Corollary w_length_vec_ok : forall s c rest v,
  ds s = c :: rest -> has_args 1 s -> value c = CVec v -> room s rest ->
  exists s', w_length s = ROk tt s' /\ ds s' = CInt (Z.of_nat (length v)) :: rest /\ only_ds s s'.
Proof.
  intros s c rest v Hd Ha Hc. apply (w_length_ok s c rest _ Hd Ha). unfold coll_length. rewrite Hc. reflexivity.
Qed.

Corollary w_length_str_ok : forall s c rest t,
  ds s = c :: rest -> has_args 1 s -> value c = CStr t -> room s rest ->
  exists s', w_length s = ROk tt s' /\ ds s' = CInt (Z.of_nat (String.length t)) :: rest /\ only_ds s s'.
Proof.
  intros s c rest t Hd Ha Hc. apply (w_length_ok s c rest _ Hd Ha). unfold coll_length. rewrite Hc. reflexivity.
Qed.

Corollary w_length_bits_ok : forall s c rest b,
  ds s = c :: rest -> has_args 1 s -> value c = CBits b -> room s rest ->
  exists s', w_length s = ROk tt s' /\ ds s' = CInt (Z.of_nat (clen b)) :: rest /\ only_ds s s'.
Proof.
  intros s c rest b Hd Ha Hc. apply (w_length_ok s c rest _ Hd Ha). unfold coll_length. rewrite Hc. reflexivity.
Qed.

(* in particular a map has no length *)
Theorem w_length_err_type : forall s c r,
  ds s = c :: r -> has_args 1 s -> coll_length c = None ->
  exists s', w_length s = RErr EType (Some (value c)) s' /\ ds s' = r /\ only_ds s s'.
Proof.
  intros s c r Hd Ha Hc. unfold w_length.
  pop_with Hd Ha Hd1 Ha1. unfold coll_length in Hc.
  destruct (value c) eqn:Ev; try discriminate Hc; fin_err Hd1.
Qed.

Theorem w_length_underflow : forall s, ~ has_args 1 s -> w_length s = RErr EUnderflow None s.
Proof. intro s. apply pop_first_underflow. Qed.

(* slice reports the whole cell (tags included), not its value *)
Theorem w_slice_err_type : forall s e b c rest st en,
  ds s = e :: b :: c :: rest -> has_args 3 s ->
  value e = CInt en -> in_isize en = true -> value b = CInt st -> in_isize st = true ->
  (forall v, value c <> CVec v) -> (forall t, value c <> CStr t) ->
  exists s', w_slice s = RErr EType (Some c) s' /\ ds s' = rest /\ only_ds s s'.
Proof.
  intros s e b c rest st en Hd Ha He Hen Hb Hst Hv Ht. unfold w_slice.
  pop_with Hd Ha Hd1 Ha1. run (m_isize_ok _ _ He Hen).
  pop_with Hd1 Ha1 Hd2 Ha2. run (m_isize_ok _ _ Hb Hst).
  pop_with Hd2 Ha2 Hd3 Ha3.
  destruct (value c) eqn:Ev; try (fin_err Hd3); [elim (Ht _ eq_refl) | elim (Hv _ eq_refl)].
Qed.

Theorem w_slice_err_overflow : forall s e r en,
  ds s = e :: r -> has_args 1 s -> value e = CInt en -> in_isize en = false ->
  exists s', w_slice s = RErr EOverflow None s' /\ ds s' = r /\ only_ds s s'.
Proof.
  intros s e r en Hd Ha He Hen. eapply (fails_at_first m_isize); eauto using m_isize_overflow.
Qed.

Theorem w_slice_underflow : forall s, ~ has_args 1 s -> w_slice s = RErr EUnderflow None s.
Proof. intro s. apply pop_first_underflow. Qed.

Lemma above_mark : forall (items rest : list cell),
  (length (items ++ rest) <? length rest)%nat = false /\
  firstn (length (items ++ rest) - length rest) (items ++ rest) = items /\
  (length (items ++ rest) - length rest)%nat = length items.
Proof.
  intros items rest. rewrite app_length.
  replace (length items + length rest - length rest)%nat with (length items) by lia.
  split; [apply Nat.ltb_ge; lia|]. split; [| reflexivity].
  rewrite firstn_app, Nat.sub_diag, firstn_all. apply app_nil_r.
Qed.

(* the cells above the mark, oldest first *)
Lemma vec_collect_ok : forall s items rest,
  ds s = (items ++ rest)%list -> has_args (length items) s ->
  exists s', vec_collect_till_ptr (length rest) s = ROk (rev items) s' /\ ds s' = rest /\ only_ds s s'.
Proof.
  intros s items rest Hd Ha. unfold vec_collect_till_ptr, bind, get. cbv beta iota zeta.
  rewrite Hd. destruct (above_mark items rest) as (-> & -> & ->).
  destruct (pop_n_ok items s rest Hd Ha) as (s' & -> & H). exists s'. auto.
Qed.

Lemma vec_collect_err_flow : forall s ptr, (length (ds s) < ptr)%nat ->
  vec_collect_till_ptr ptr s = RErr EFlow None s.
Proof.
  intros s ptr H. unfold vec_collect_till_ptr, bind, get. cbv beta iota zeta.
  destruct (Nat.ltb_spec (length (ds s)) ptr); [reflexivity | lia].
Qed.

Theorem w_unbox_ok : forall s c rest v,
  ds s = c :: rest -> has_args 1 s -> value c = CVec v ->
  (forall n, (n < length v)%nat -> limit_reached (stack_limit s) (length rest + n) = false) ->
  exists s', w_unbox s = ROk tt s' /\ ds s' = (rev v ++ rest)%list /\ only_ds s s'.
Proof.
  intros s c rest v Hd Ha Hc Hr. unfold w_unbox.
  pop_with Hd Ha Hd1 Ha1. run (m_vec_ok _ _ Hc).
  destruct (push_all_ok v (popd c rest s)) as (s' & E & Hd' & Ho').
  { intros n Hn. rewrite stack_limit_popd, Hd1. auto. }
  exists s'. rewrite Hd1 in Hd'. split; [exact E|]. split; [exact Hd'|].
  eapply only_ds_trans; [| exact Ho']. ods.
Qed.

Corollary w_unbox_ok_nolimit : forall s c rest v,
  ds s = c :: rest -> has_args 1 s -> value c = CVec v -> stack_limit s = None ->
  exists s', w_unbox s = ROk tt s' /\ ds s' = (rev v ++ rest)%list /\ only_ds s s'.
Proof.
  intros s c rest v Hd Ha Hc Hl. apply (w_unbox_ok s c rest v Hd Ha Hc).
  intros n _. rewrite Hl. reflexivity.
Qed.

Theorem w_unbox_err_type : forall s c r,
  ds s = c :: r -> has_args 1 s -> (forall v, value c <> CVec v) ->
  exists s', w_unbox s = RErr EType (Some (value c)) s' /\ ds s' = r /\ only_ds s s'.
Proof. intros s c r Hd Ha Hc. eapply (fails_at_first m_vec); eauto using m_vec_err. Qed.

Theorem w_unbox_underflow : forall s, ~ has_args 1 s -> w_unbox s = RErr EUnderflow None s.
Proof. intro s. apply pop_first_underflow. Qed.

(* has_args (S (length items)) s  is  ds_len (cx s) + 1 + length items <= length (ds s) *)
Theorem w_collect_ok : forall s c items rest,
  ds s = c :: (items ++ rest)%list -> value c = CInt (Z.of_nat (length items)) ->
  in_usize (Z.of_nat (length items)) = true -> has_args (S (length items)) s -> room s rest ->
  exists s', w_collect s = ROk tt s' /\ ds s' = CVec (rev items) :: rest /\ only_ds s s'.
Proof.
  intros s c items rest Hd Hc Hu Ha Hr. unfold w_collect.
  pop_with Hd Ha Hd1 Ha1. run (m_usize_ok _ _ Hc Hu). unfold bind at 1, get. cbv beta iota.
  destruct (Z.ltb_spec (Z.of_nat (data_depth (popd c (items ++ rest)%list s))) (Z.of_nat (length items))) as [L | L].
  { unfold data_depth, has_args in *. lia. }
  clear L. rewrite Nat2Z.id, Hd1, app_length.
  replace (length items + length rest - length items)%nat with (length rest) by lia.
  destruct (vec_collect_ok _ items rest Hd1 Ha1) as (s2 & E & Hd2 & Ho2). run E.
  apply ends_push; [exact Hd2 | | exact Hr].
  eapply only_ds_trans; [| exact Ho2]. ods.
Qed.

Theorem w_collect_err_underflow : forall s c r n,
  ds s = c :: r -> has_args 1 s -> value c = CInt n -> in_usize n = true ->
  (Z.of_nat (length r - ds_len (cx s)) < n)%Z ->
  exists s', w_collect s = RErr EUnderflow None s' /\ ds s' = r /\ only_ds s s'.
Proof.
  intros s c r n Hd Ha Hc Hu Hlt. unfold w_collect.
  pop_with Hd Ha Hd1 Ha1. run (m_usize_ok _ _ Hc Hu). unfold bind at 1, get. cbv beta iota.
  unfold data_depth. rewrite cx_popd, Hd1.
  destruct (Z.ltb_spec (Z.of_nat (length r - ds_len (cx s))) n); [|lia]. fin_err Hd1.
Qed.

Theorem w_collect_err_type : forall s c r,
  ds s = c :: r -> has_args 1 s -> (forall n, value c <> CInt n) ->
  exists s', w_collect s = RErr EType (Some (value c)) s' /\ ds s' = r /\ only_ds s s'.
Proof. intros s c r Hd Ha Hc. eapply (fails_at_first m_usize); eauto using m_usize_err. Qed.

Theorem w_collect_err_negative : forall s c r n,
  ds s = c :: r -> has_args 1 s -> value c = CInt n -> (n < 0)%Z ->
  exists s', w_collect s = RErr EType (Some c) s' /\ ds s' = r /\ only_ds s s'.
Proof. intros s c r n Hd Ha Hc Hn. eapply (fails_at_first m_usize); eauto using m_usize_neg. Qed.

Theorem w_collect_underflow : forall s, ~ has_args 1 s -> w_collect s = RErr EUnderflow None s.
Proof. intro s. apply pop_first_underflow. Qed.

Theorem collect_unbox : forall s c items rest,
  ds s = c :: (items ++ rest)%list -> value c = CInt (Z.of_nat (length items)) ->
  in_usize (Z.of_nat (length items)) = true -> has_args (S (length items)) s -> room s rest ->
  (forall n, (n < length items)%nat -> limit_reached (stack_limit s) (length rest + n) = false) ->
  exists s', (w_collect ;; w_unbox) s = ROk tt s' /\ ds s' = (items ++ rest)%list /\ only_ds s s'.
Proof.
  intros s c items rest Hd Hc Hu Ha Hr Hl.
  apply (ends_seq _ _ _ _ _ _ (w_collect_ok s c items rest Hd Hc Hu Ha Hr)). intros s1 Hd1 Ho1.
  rewrite <- (rev_involutive items). apply (w_unbox_ok s1 (CVec (rev items)) rest _ Hd1).
  - unfold has_args in *. rewrite (only_ds_cx _ _ Ho1), Hd1. rewrite Hd in Ha.
    cbn [length] in *. rewrite app_length in Ha. lia.
  - reflexivity.
  - intros n Hn. rewrite rev_length in Hn. rewrite (only_ds_stack_limit _ _ Ho1). auto.
Qed.

(* unbox, push the count, collect: the vector is rebuilt (tags of the vector cell are lost) *)
Theorem unbox_collect : forall s c rest v,
  ds s = c :: rest -> has_args 1 s -> value c = CVec v -> in_usize (Z.of_nat (length v)) = true ->
  (forall n, (n <= length v)%nat -> limit_reached (stack_limit s) (length rest + n) = false) ->
  exists s', (w_unbox ;; push_data (cnat (length v)) ;; w_collect) s = ROk tt s' /\
             ds s' = CVec v :: rest /\ only_ds s s'.
Proof.
  intros s c rest v Hd Ha Hc Hu Hl.
  assert (U : ends s (w_unbox s) (ROk tt) (rev v ++ rest)%list).
  { apply (w_unbox_ok s c rest v Hd Ha Hc). intros n Hn. apply Hl. lia. }
  apply (ends_seq _ _ _ _ _ _ U). intros s1 Hd1 Ho1.
  assert (P : ends s1 (push_data (cnat (length v)) s1) (ROk tt) (cnat (length v) :: rev v ++ rest)%list).
  { apply ends_push; [exact Hd1 | apply only_ds_refl |]. unfold room.
    rewrite (only_ds_stack_limit _ _ Ho1), app_length, rev_length, Nat.add_comm. apply Hl. lia. }
  apply (ends_seq _ _ _ _ _ _ P). intros s2 Hd2 Ho2.
  rewrite <- (rev_involutive v). apply (w_collect_ok s2 _ (rev v) rest Hd2).
  - rewrite rev_length. reflexivity.
  - rewrite rev_length. exact Hu.
  - unfold has_args in *. rewrite (only_ds_cx _ _ Ho2), (only_ds_cx _ _ Ho1), Hd2.
    rewrite Hd in Ha. cbn [length] in *. rewrite app_length, rev_length. lia.
  - unfold room. rewrite (only_ds_stack_limit _ _ Ho2), (only_ds_stack_limit _ _ Ho1).
    specialize (Hl 0%nat). rewrite Nat.add_0_r in Hl. apply Hl. lia.
Qed.

Definition coll_size (c : cell) : option nat :=
  match value c with
  | CMap m => Some (length m)
  | CVec v => Some (length v)
  | _ => None
  end.

Lemma ends_push2 : forall s0 s rest a b, ds s = rest -> only_ds s0 s ->
  limit_reached (stack_limit s0) (S (length rest)) = false ->
  ends s0 ((push_data a ;; push_data b) s) (ROk tt) (b :: a :: rest).
Proof.
  intros s0 s rest a b Hd Ho Hl. unfold bind. rewrite push_data_eq.
  - apply ends_push; [rewrite ds_pushd, Hd; reflexivity | apply only_ds_pushd, Ho | exact Hl].
  - unfold room. rewrite (only_ds_stack_limit _ _ Ho), Hd. eapply limit_reached_mono; [| exact Hl]. lia.
Qed.

Theorem w_foreach_init_err_type : forall s c rest,
  ds s = c :: rest -> has_args 1 s -> coll_size c = None ->
  w_foreach_init s = RErr EType (Some (value c)) s.
Proof.
  intros s c rest Hd Ha Hc. unfold w_foreach_init. run (top_data_eq _ _ _ Hd Ha).
  unfold coll_size in Hc. destruct (value c); try discriminate Hc; reflexivity.
Qed.

Theorem w_foreach_init_underflow : forall s, ~ has_args 1 s -> w_foreach_init s = RErr EUnderflow None s.
Proof. intros s H. unfold w_foreach_init, bind. rewrite top_data_underflow by assumption. reflexivity. Qed.

(* the counter of the n-th innermost loop *)
Theorem w_counter_map_ok : forall n s l m i k v,
  nth_error (active_loops s) n = Some l -> value (l_items l) = CMap m ->
  l_start l = Z.of_nat i -> nth_error m i = Some (k, v) ->
  limit_reached (stack_limit s) (S (length (ds s))) = false ->
  exists s', w_counter n s = ROk tt s' /\ ds s' = v :: k :: ds s /\ only_ds s s'.
Proof.
  intros n s l m i k v Hl Hm Hs Hn Hlim. unfold w_counter. unfold bind at 1, get.
  rewrite Hl. cbv zeta. rewrite Hm, Hs.
  assert (Hi : (i < length m)%nat) by (apply nth_error_Some; congruence).
  destruct (Z.ltb_spec (Z.of_nat i) 0); [lia|].
  destruct (Z.leb_spec (Z.of_nat (length m)) (Z.of_nat i)); [lia|]. cbn [orb].
  rewrite Nat2Z.id, Hn. apply ends_push2; auto using only_ds_refl.
Qed.

Theorem w_counter_vec_ok : forall n s l v i x,
  nth_error (active_loops s) n = Some l -> value (l_items l) = CVec v ->
  l_start l = Z.of_nat i -> nth_error v i = Some x -> room s (ds s) ->
  exists s', w_counter n s = ROk tt s' /\ ds s' = x :: ds s /\ only_ds s s'.
Proof.
  intros n s l v i x Hl Hv Hs Hn R1. unfold w_counter. unfold bind at 1, get.
  rewrite Hl. cbv zeta. rewrite Hv, Hs.
  assert (Hi : (i < length v)%nat) by (apply nth_error_Some; congruence).
  destruct (Z.ltb_spec (Z.of_nat i) 0); [lia|].
  destruct (Z.leb_spec (Z.of_nat (length v)) (Z.of_nat i)); [lia|]. cbn [orb].
  rewrite Nat2Z.id, Hn. apply ends_push; auto using only_ds_refl.
Qed.

(* a counted (do) loop: the index itself *)
Theorem w_counter_nil_ok : forall n s l,
  nth_error (active_loops s) n = Some l -> value (l_items l) = CNil -> room s (ds s) ->
  exists s', w_counter n s = ROk tt s' /\ ds s' = CInt (l_start l) :: ds s /\ only_ds s s'.
Proof.
  intros n s l Hl Hv R1. unfold w_counter. unfold bind at 1, get.
  rewrite Hl. cbv zeta. rewrite Hv. apply ends_push; auto using only_ds_refl.
Qed.

Theorem w_counter_no_loop : forall n s,
  nth_error (active_loops s) n = None -> w_counter n s = RErr ELoopUnderflow None s.
Proof. intros n s H. unfold w_counter, bind, get. rewrite H. reflexivity. Qed.

Theorem w_counter_err_internal : forall n s l m,
  nth_error (active_loops s) n = Some l -> value (l_items l) = CMap m ->
  (l_start l < 0 \/ Z.of_nat (length m) <= l_start l)%Z ->
  w_counter n s = RErr EInternal None s.
Proof.
  intros n s l m Hl Hm Hr. unfold w_counter, bind, get. rewrite Hl. cbv zeta. rewrite Hm.
  destruct (Z.ltb_spec (l_start l) 0); [reflexivity|].
  destruct (Z.leb_spec (Z.of_nat (length m)) (l_start l)); [reflexivity | lia].
Qed.

Definition pops (p : nat) (sp : list nat) (s : state) : state :=
  add_rstep (RPushSpecial p) (set_special s sp).

Lemma pop_special_eq : forall s p sp, special s = p :: sp -> (ss_ptr (cx s) < length (special s))%nat ->
  pop_special s = ROk (Some p) (pops p sp s).
Proof.
  intros s p sp Hs Hl. unfold pop_special. rewrite Hs in *.
  destruct (Nat.ltb_spec (ss_ptr (cx s)) (length (p :: sp))); [reflexivity | lia].
Qed.

Lemma pop_special_none : forall s, (length (special s) <= ss_ptr (cx s))%nat -> pop_special s = ROk None s.
Proof.
  intros s Hl. unfold pop_special. destruct (special s) as [| p sp]; [reflexivity|].
  destruct (Nat.ltb_spec (ss_ptr (cx s)) (length (p :: sp))); [lia | reflexivity].
Qed.

Lemma ds_pops : forall p sp s, ds (pops p sp s) = ds s.
Proof. intros. unfold pops. rewrite ds_add_rstep. reflexivity. Qed.
Lemma cx_pops : forall p sp s, cx (pops p sp s) = cx s.
Proof. intros. unfold pops. rewrite cx_add_rstep. reflexivity. Qed.
Lemma special_pops : forall p sp s, special (pops p sp s) = sp.
Proof. intros. unfold pops. rewrite special_add_rstep. reflexivity. Qed.
Lemma only_ds_pops : forall p sp s, only_ds (set_special s sp) (pops p sp s).
Proof. intros. unfold pops. apply only_ds_add_rstep, only_ds_refl. Qed.

(* a literal ends: the mark is taken, [collect] takes the cells above it, [mk] of them is pushed *)
Lemma literal_end_ok : forall {A} (collect : nat -> M A) (mk : A -> cell) x s items rest sp,
  (forall s1, ds s1 = (items ++ rest)%list -> has_args (length items) s1 ->
     exists s', collect (length rest) s1 = ROk x s' /\ ds s' = rest /\ only_ds s1 s') ->
  special s = length rest :: sp -> (ss_ptr (cx s) < length (special s))%nat ->
  ds s = (items ++ rest)%list -> has_args (length items) s -> room s rest ->
  exists s', (let* p := pop_special in
              match p with
              | Some ptr => let* v := collect ptr in push_data (mk v)
              | None => fail EFlow None
              end) s = ROk tt s' /\ ds s' = mk x :: rest /\ special s' = sp /\
             only_ds (set_special s sp) s'.
Proof.
  intros A collect mk x s items rest sp Hc Hs Hl Hd Ha Hr. run (pop_special_eq _ _ _ Hs Hl).
  destruct (Hc (pops (length rest) sp s)) as (s1 & E & Hd1 & Ho1).
  { rewrite ds_pops. exact Hd. }
  { unfold has_args in *. rewrite cx_pops, ds_pops. exact Ha. }
  run E.
  destruct (ends_push (set_special s sp) s1 rest (mk x) Hd1) as (s' & P1 & P2 & P3).
  { eapply only_ds_trans; [apply only_ds_pops | exact Ho1]. }
  { exact Hr. }
  exists s'. split; [exact P1|]. split; [exact P2|]. split; [| exact P3].
  rewrite (only_ds_special _ _ P3). reflexivity.
Qed.

Theorem w_vec_end_err_flow : forall s, (length (special s) <= ss_ptr (cx s))%nat ->
  w_vec_end s = RErr EFlow None s.
Proof. intros s H. unfold w_vec_end, bind. rewrite pop_special_none by assumption. reflexivity. Qed.

Lemma map_collect_ok : forall s items rest,
  ds s = (items ++ rest)%list -> has_args (length items) s -> Nat.modulo (length items) 2 = 0%nat ->
  exists s', map_collect_till_ptr (length rest) s = ROk (pairs_insert (rev items) []) s' /\
             ds s' = rest /\ only_ds s s'.
Proof.
  intros s items rest Hd Ha He. unfold map_collect_till_ptr, bind, get. cbv beta iota zeta.
  rewrite Hd. destruct (above_mark items rest) as (-> & -> & ->). rewrite He. cbn [Nat.eqb negb].
  destruct (pop_n_ok items s rest Hd Ha) as (s' & -> & H). exists s'. auto.
Qed.

Theorem w_map_end_err_odd : forall s items rest sp,
  special s = length rest :: sp -> (ss_ptr (cx s) < length (special s))%nat ->
  ds s = (items ++ rest)%list -> Nat.modulo (length items) 2 <> 0%nat ->
  w_map_end s = RErr EFlow None (pops (length rest) sp s).
Proof.
  intros s items rest sp Hs Hl Hd Ho. unfold w_map_end. run (pop_special_eq _ _ _ Hs Hl).
  unfold map_collect_till_ptr, bind, get. cbv beta iota zeta.
  rewrite ds_pops, Hd. destruct (above_mark items rest) as (-> & _ & ->).
  destruct (Nat.eqb_spec (Nat.modulo (length items) 2) 0); [contradiction|]. reflexivity.
Qed.

Theorem w_map_end_err_flow : forall s, (length (special s) <= ss_ptr (cx s))%nat ->
  w_map_end s = RErr EFlow None s.
Proof. intros s H. unfold w_map_end, bind. rewrite pop_special_none by assumption. reflexivity. Qed.
