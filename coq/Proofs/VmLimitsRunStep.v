(* VmLimitsRunStep.v (C14): one instruction under limits.
   - [wlx_relim]: limits never change a result, they only turn it into an [ELimit] failure;
   - [wlx_cause]: a limit failure inside an instruction body is a refused [push_data];
   - [far_relim], [far_limit_cause]: the same for a whole [fetch_and_run]. *)
From Xeh Require Import Model.Prelude Model.Bits Model.Codec Model.Cell Model.Lexer Model.Fmt
                        Model.Vm Model.Words.
From Xeh Require Import Proofs.VmPrim Proofs.VmFrame Proofs.VmFetch Proofs.VmLimits Proofs.VmLimitsRunBase.
Local Notation length := List.length.

#[local] Arguments Z.add : simpl never.
#[local] Arguments Z.sub : simpl never.
#[local] Arguments Z.mul : simpl never.
#[local] Arguments Z.ltb : simpl never.
#[local] Arguments Z.leb : simpl never.
#[local] Arguments Z.eqb : simpl never.
#[local] Arguments Z.of_nat : simpl never.
#[local] Arguments Z.to_nat : simpl never.

(* the same machine with another meter reading and other limits *)
Definition relim (mt : Z) (i h k : option Z) (s : state) : state :=
  set_limits (set_meter s mt) i h k.

Definition is_elimit {A} (r : res A) : bool :=
  match r with RErr ELimit _ _ => true | _ => false end.

(* [b] is at least as permissive as [a]; [None] = no limit *)
Definition lim_le (a b : option Z) : Prop :=
  match b with
  | None => True
  | Some y => match a with Some x => (x <= y)%Z | None => False end
  end.

Lemma lim_le_refl a : lim_le a a.
Proof. destruct a; cbn; [lia|exact I]. Qed.
Lemma lim_le_none a : lim_le a None.
Proof. exact I. Qed.

Lemma limit_reached_le a b n : lim_le a b -> limit_reached a n = false -> limit_reached b n = false.
Proof.
  unfold lim_le, limit_reached. destruct b as [y|]; [|reflexivity].
  destruct a as [x|]; [|contradiction]. intros H E. apply Z.leb_gt in E. apply Z.leb_gt. lia.
Qed.

Lemma relim_fields mt i h k s :
  meter (relim mt i h k s) = mt /\ insn_limit (relim mt i h k s) = i /\
  heap_limit (relim mt i h k s) = h /\ stack_limit (relim mt i h k s) = k /\
  ds (relim mt i h k s) = ds s /\ heap (relim mt i h k s) = heap s /\ code (relim mt i h k s) = code s /\
  cx (relim mt i h k s) = cx s /\ dict (relim mt i h k s) = dict s.
Proof. repeat split. Qed.

Lemma relim_relim mt i h k mt' i' h' k' s :
  relim mt i h k (relim mt' i' h' k' s) = relim mt i h k s.
Proof. reflexivity. Qed.

Lemma relim_self s : relim (meter s) (insn_limit s) (heap_limit s) (stack_limit s) s = s.
Proof. destruct s; reflexivity. Qed.

Definition P_relim {A} (m : M A) : Prop :=
  forall s mt i h k, lim_le (stack_limit s) k -> is_elimit (m s) = false ->
    m (relim mt i h k s) = res_map (relim mt i h k) (m s).

Lemma unread_relim mt i h k : unread (relim mt i h k).
Proof. constructor; reflexivity. Qed.
Lemma logs_through_relim mt i h k : logs_through (relim mt i h k).
Proof. apply logs_through_setter; reflexivity. Qed.

Lemma push_data_relim c : P_relim (push_data c).
Proof.
  intros s mt i h k Hle Hne. unfold push_data in *.
  change (stack_limit (relim mt i h k s)) with k. change (ds (relim mt i h k s)) with (ds s).
  destruct (limit_reached (stack_limit s) (length (ds s))) eqn:E; [discriminate|].
  rewrite (limit_reached_le _ _ _ Hle E). cbn [res_map].
  rewrite (logs_through_relim mt i h k). reflexivity.
Qed.

Lemma add_rstep_stack_limit r s : stack_limit (add_rstep r s) = stack_limit s.
Proof. exact (f_equal stack_limit (shell_add_rstep r s)). Qed.

Lemma over_data_relim : P_relim over_data.
Proof.
  intros s mt i h k Hle Hne. unfold over_data in *.
  change (ds (relim mt i h k s)) with (ds s).
  change (data_depth (relim mt i h k s)) with (data_depth s).
  destruct (ds s) as [|a [|b r]]; try reflexivity.
  destruct (2 <=? data_depth s); [|reflexivity].
  rewrite (logs_through_relim mt i h k). apply push_data_relim; [|exact Hne].
  rewrite add_rstep_stack_limit. exact Hle.
Qed.

Lemma res_map_is_elimit {A} f (r : res A) : is_elimit (res_map f r) = is_elimit r.
Proof. destruct r; reflexivity. Qed.

Lemma wlx_relim : forall A (m : M A), wlx m -> P_relim m.
Proof.
  induction 1;
    try (intros s mt il hl sl _ _;
         eapply (prim_unread _ (unread_relim mt il hl sl) (logs_through_relim mt il hl sl)); constructor; fail);
    try (intros s mt il hl sl _ _; reflexivity).
  - intros s mt il hl sl Hle Hne. unfold bind in *.
    pose proof (wl_lim _ _ (wlx_wl _ _ H) s) as L.
    specialize (IHwlx s mt il hl sl Hle).
    destruct (m s) as [a s1|e p s1| |] eqn:E; cbn [res_map] in *.
    + rewrite IHwlx by reflexivity. cbn [res_all] in L.
      destruct L as (_ & _ & _ & L4 & _).
      apply H1; [rewrite L4; exact Hle|exact Hne].
    + rewrite IHwlx by exact Hne. reflexivity.
    + rewrite IHwlx by reflexivity. reflexivity.
    + rewrite IHwlx by reflexivity. reflexivity.
  - intros s mt il hl sl Hle Hne. unfold bind, get in *. unfold relim at 1.
    rewrite H2, H3. apply H0; assumption.
  - apply push_data_relim.
  - apply over_data_relim.
Qed.

(* inside an instruction body the only source of [ELimit] is a [push_data] refused because the
   data stack is full: the state left behind is the one in which that push was attempted *)
Definition P_cause {A} (m : M A) : Prop :=
  forall s p s', m s = RErr ELimit p s' ->
    p = None /\ exists S, stack_limit s = Some S /\ (S <= Z.of_nat (length (ds s')))%Z.

Lemma push_data_cause c : P_cause (push_data c).
Proof.
  intros s p s' H. pose proof (push_data_did c s) as D. rewrite H in D. destruct D as (-> & -> & _ & L).
  split; [reflexivity|]. unfold limit_reached in L. destruct (stack_limit s) as [S|]; [|discriminate].
  exists S. split; [reflexivity|]. apply Z.leb_le. exact L.
Qed.

Lemma over_data_cause : P_cause over_data.
Proof.
  intros s p s' H. destruct (over_data_eq s) as [E|[b E]]; rewrite E in H; [discriminate|].
  apply push_data_cause in H. rewrite add_rstep_stack_limit in H. exact H.
Qed.

Lemma cause_runs o A (m : M A) : runs o m -> P_cause m.
Proof. intros R s p s' Hx. specialize (R s). rewrite Hx in R. destruct R as (_ & _ & N). contradiction N. reflexivity. Qed.

Lemma wlx_cause : forall A (m : M A), wlx m -> P_cause m.
Proof.
  induction 1; try (eapply cause_runs, prim_runs; constructor; fail);
    try (intros s p s' Hx; discriminate Hx).
  - intros s p0 s' Hx. unfold fail in Hx. injection Hx as -> _ _. contradiction.
  - intros s p s' Hx. unfold bind in Hx.
    pose proof (wl_lim _ _ (wlx_wl _ _ H) s) as L.
    destruct (m s) as [a s1|e q s1| |] eqn:E; try discriminate.
    + cbn [res_all] in L. destruct L as (_ & _ & _ & L4 & _).
      destruct (H1 a s1 p s' Hx) as [Hp (S & HS & Hle)]. split; [exact Hp|].
      exists S. split; [congruence|exact Hle].
    + injection Hx as -> -> ->. eapply IHwlx. exact E.
  - intros s p s' Hx. unfold bind, get in Hx. eapply H0. exact Hx.
  - apply push_data_cause.
  - apply over_data_cause.
Qed.

Section WithTable.
  Variable nf : natives.
  Hypothesis Hnf : forall w f, nf w = Some f -> wlx f.

  Lemma Hnf_wl : forall w f, nf w = Some f -> wl f.
  Proof. intros w f H. apply wlx_wl. eapply Hnf. exact H. Qed.

  Lemma exec_op_relim : forall ip0 op, P_relim (exec_op nf ip0 op).
  Proof. intros. apply wlx_relim. apply wlx_exec_op. exact Hnf. Qed.

  Lemma exec_op_cause : forall ip0 op, P_cause (exec_op nf ip0 op).
  Proof. intros. apply wlx_cause. apply wlx_exec_op. exact Hnf. Qed.

  (* the new instruction limit leaves at least as much room as the old one *)
  Definition room_le (s : state) (mt : Z) (i : option Z) : Prop :=
    match i with
    | None => True
    | Some N' => match insn_limit s with
                 | Some N => (N - meter s <= N' - mt)%Z
                 | None => False
                 end
    end.

  Lemma mlim_room s mt i h k :
    room_le s mt i -> mlim s (meter s) = false -> mlim (relim mt i h k s) mt = false.
  Proof.
    unfold room_le, mlim. change (insn_limit (relim mt i h k s)) with i.
    destruct i as [N'|]; [|reflexivity].
    destruct (insn_limit s) as [N|]; [|contradiction].
    intros H E. apply Z.leb_gt in E. apply Z.leb_gt. lia.
  Qed.

  (* limits only ever turn a result into an [ELimit] failure: if the instruction does not fail
     with [ELimit] under the limits of [s], it gives the same result (success or error, same
     payload, same state up to meter and limits) under any limits that leave at least as much
     room, in particular on the unlimited machine *)
  Lemma far_relim : forall s mt i h k,
    lim_le (stack_limit s) k -> room_le s mt i ->
    is_elimit (fetch_and_run nf s) = false ->
    fetch_and_run nf (relim mt i h k s) =
    res_map (fun x => relim (mt + (meter x - meter s))%Z i h k x) (fetch_and_run nf s).
  Proof.
    intros s mt i h k. revert mt.
    apply (far_ind nf (fun s r => forall mt, lim_le (stack_limit s) k -> room_le s mt i -> is_elimit r = false ->
             fetch_and_run nf (relim mt i h k s) = res_map (fun x => relim (mt + (meter x - meter s))%Z i h k x) r));
      clear s.
    - discriminate.
    - intros s E0 E1 mt _ Hroom _. apply far_panic; [apply mlim_room; assumption|exact E1].
    - intros s op E0 E1 N mt Hle Hroom Hne.
      rewrite (far_plain nf (relim mt i h k s) op (mlim_room _ _ _ h k Hroom E0) E1 N).
      change (ip (relim mt i h k s)) with (ip s).
      change (tick (relim mt i h k s)) with (relim (mt + 1)%Z i h k (tick s)).
      rewrite (exec_op_relim (ip s) op (tick s) (mt + 1)%Z i h k) by assumption.
      pose proof (exec_op_lim nf Hnf_wl (ip s) op (tick s)) as L.
      destruct (exec_op nf (ip s) op (tick s)) as [u x|e q x| |]; cbn [res_map res_all] in *; try reflexivity;
        destruct L as (L1 & _); cbn [tick set_meter meter] in L1;
        (replace (mt + (meter x - meter s))%Z with (mt + 1)%Z by lia); reflexivity.
    - intros s name E0 E1 E2 mt _ Hroom _.
      rewrite (far_unknown nf (relim mt i h k s) name (mlim_room _ _ _ h k Hroom E0) E1 E2).
      cbn [res_map tick set_meter meter]. replace (mt + (meter s + 1 - meter s))%Z with (mt + 1)%Z by lia.
      reflexivity.
    - intros s name e r E0 E1 E2 _ IH mt Hle Hroom Hne.
      rewrite (far_resolve nf (relim mt i h k s) name e (mlim_room _ _ _ h k Hroom E0) E1 E2).
      change (patched (relim mt i h k s) e) with (relim (mt + 1)%Z i h k (patched s e)).
      rewrite (IH (mt + 1)%Z Hle) by (try exact Hne; unfold room_le in *; destruct i; auto;
        change (insn_limit (patched s e)) with (insn_limit s); destruct (insn_limit s); auto;
        cbn [patched tick set_code set_meter meter]; lia).
      destruct r; cbn [res_map patched tick set_code set_meter meter]; try reflexivity; f_equal; f_equal; lia.
  Qed.

  (* a limit failure of a whole instruction: either the instruction limit (first fetch: nothing
     changed; second fetch of a [late] word: the cell is resolved and the first fetch counted),
     or a push refused by the stack limit somewhere inside the instruction *)
  Inductive limit_cause (s s' : state) : Prop :=
  | lc_insn : forall N, insn_limit s = Some N -> (N <= meter s)%Z -> s' = s -> limit_cause s s'
  | lc_insn_resolve : forall N name e,
      insn_limit s = Some N -> (meter s + 1 = N)%Z ->
      nth_error (code s) (ip s) = Some (OResolve name) -> dict_entry s name = Some e ->
      s' = patched s e ->
      limit_cause s s'
  | lc_stack : forall S,
      stack_limit s = Some S -> (S <= Z.of_nat (length (ds s')))%Z ->
      mlim s (meter s) = false -> meter s' = (meter s + ticks s)%Z ->
      limit_cause s s'.

  Lemma far_limit_cause : forall s p s',
    fetch_and_run nf s = RErr ELimit p s' -> p = None /\ limit_cause s s'.
  Proof.
    intros s.
    apply (far_ind nf (fun s r => forall p s', r = RErr ELimit p s' -> p = None /\ limit_cause s s')); clear s;
      try discriminate.
    - intros s E0 p s' H. injection H as <- <-. split; [reflexivity|].
      unfold mlim in E0. destruct (insn_limit s) as [N|] eqn:EN; [|discriminate].
      apply (lc_insn s s N EN); [apply Z.leb_le; exact E0|reflexivity].
    - intros s op E0 E1 N p s' Hx.
      pose proof (exec_op_lim nf Hnf_wl (ip s) op (tick s)) as L. rewrite Hx in L.
      cbn [res_all] in L. destruct L as (L1 & _).
      destruct (exec_op_cause _ _ _ _ _ Hx) as [Hp (S & HS & Hle)]. split; [exact Hp|].
      apply (lc_stack s s' S HS Hle E0). rewrite L1. unfold ticks, at_resolve. rewrite E1.
      destruct op; try reflexivity. contradiction (N name eq_refl).
    - intros s name e r E0 E1 E2 Ap IH p s' Hx. destruct (IH p s' Hx) as [Hp LC]. split; [exact Hp|].
      assert (T : ticks s = 2%Z) by (unfold ticks, at_resolve; rewrite E1; reflexivity).
      destruct LC as [N EN Hle ->|N name' e' _ _ E1' _ _|S ES Hle _ Hm].
      + apply (lc_insn_resolve s _ N name e EN); try assumption; [|reflexivity].
        unfold mlim in E0. change (insn_limit (patched s e)) with (insn_limit s) in EN. rewrite EN in E0.
        apply Z.leb_gt in E0. cbn [patched tick set_code set_meter meter] in Hle. lia.
      + unfold at_resolve in Ap. rewrite E1' in Ap. discriminate Ap.
      + apply (lc_stack s s' S ES Hle E0). rewrite Hm, T. unfold ticks. rewrite Ap.
        cbn [patched tick set_code set_meter meter]. lia.
  Qed.
End WithTable.
