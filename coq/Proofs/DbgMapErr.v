(* DbgMapErr.v (C17, 4 and the source-level form of 3).

   Build time: the token recorded by [get_token] is the token just read (a token of its source,
   with the word's own text); an unknown word fails in the state [get_token] left, so the
   location reported is the word itself; a lexical error is located at the offending token;
   whatever the failure, the last token is a token of a source, and [build_unwind] keeps it.

   Run time, source level: when [eval] builds the whole text and the code it built then
   fails, the state [eval] leaves has ip at the failing instruction and the debug map has an
   entry there. *)
From Xeh Require Import Model.Prelude Model.Bits Model.Codec Model.Cell Model.Lexer Model.Fmt
                        Model.Vm Model.Words Model.Build Model.Boot.
From Xeh Require Import Proofs.LexLoc Proofs.LexBasic Proofs.LexNext Proofs.LexAll.
From Xeh Require Import Proofs.VmFrame Proofs.VmLimits Proofs.DbgMapVm Proofs.DbgMapGen
                        Proofs.DbgMapAlign Proofs.DbgMapRun Proofs.DbgMapProv Proofs.DbgMapProvApi
                        Proofs.DbgMapMulti Proofs.BuildShape.

(* the last token is a word token with text w, at its true place in its source *)
Definition last_is_word (s : state) (w : string) : Prop :=
  exists n a b src, last_tok s = Some (n, a, b) /\ nth_error (sources s) n = Some src /\
                    In (TWord w, a, b) (lex_string src) /\ w = substring_of src a b.

Lemma last_is_word_of s w : last_is s (TWord w) -> last_is_word s w.
Proof.
  intros (n & a & b & H1 & H2 & H3). exists n, a, b, (src_of s n).
  split; [exact H1|]. split; [unfold src_of; apply nth_error_nth'; exact H2|].
  split; [exact H3|]. eapply word_text_substring. exact H3.
Qed.

Section BuildErr.
  Variable fo : fops.
  Variable pr : string -> option Z.
  Variable rf : nat.

  Theorem get_token_word : forall s w s1, P0 s -> get_token pr s = ROk (BWord w) s1 ->
    last_is_word s1 w /\ P1 s1.
  Proof.
    intros s w s1 Hs H. pose proof (get_token_prov pr s Hs) as T. rewrite H in T. cbn [tok_post] in T.
    destruct T as [T1 T2]. split; [apply last_is_word_of; exact T2|exact T1].
  Qed.

  Lemma build_word_unknown : forall fuel name s, dict_entry s name = None ->
    build_word fo pr rf fuel name s = RErr EUnknown None s.
  Proof. intros fuel name s H. unfold build_word, bind, get. rewrite H. reflexivity. Qed.

  (* the pre-token step of build1 (meta blocks run what has been compiled so far) *)
  Definition pre_token (s : state) : M unit :=
    if mode_eqb (cmode (cx s)) MMeta && negb (has_pending_flow s) then run_m fo rf else ret tt.

  Theorem build1_unknown_word : forall f d s s0 w s1,
    P0 s ->
    pre_token s s = ROk tt s0 ->
    get_token pr s0 = ROk (BWord w) s1 ->
    match top_function_flow s1 with
    | Some (_, _, ls) => rposition ls w 0 None = None
    | None => True
    end ->
    dict_entry s1 w = None ->
    build1 fo pr rf (S f) d s = RErr EUnknown None s1 /\ last_is_word s1 w.
  Proof.
    intros f d s s0 w s1 Hs Hpre Htok Hloc Hd. split.
    - cbn [build1]. unfold bind at 1, get. fold (pre_token s). unfold bind at 1. rewrite Hpre.
      unfold bind at 1. rewrite Htok. unfold bind at 1, get.
      destruct (top_function_flow s1) as [[[fa fb] ls]|].
      + rewrite Hloc. unfold bind at 1. rewrite build_word_unknown by exact Hd. reflexivity.
      + unfold bind at 1. rewrite build_word_unknown by exact Hd. reflexivity.
    - assert (H0 : P0 s0).
      { revert Hpre. unfold pre_token. destruct (_ && _).
        - intros Hr. pose proof (gq_run_m fo rf PE P0 P0_vm P0_PE s Hs) as X. rewrite Hr in X. exact X.
        - intros Hr. injection Hr as <-. exact Hs. }
      exact (proj1 (get_token_word s0 w s1 H0 Htok)).
  Qed.

  (* a meta block whose code fails: the failure happens in the pre-token step of build1, which
     returns the state of the failing run - ip at the failing instruction, entry present *)
  Theorem build1_meta_run_error : forall f d s k p s',
    al s -> pre_token s s = RErr k p s' ->
    build1 fo pr rf (S f) d s = RErr k p s' /\ cmode (cx s) = MMeta /\
    exists n s1,
      steps (native_fn fo) n s = Some s1 /\ is_running s1 = true /\
      fetch_and_run (native_fn fo) s1 = RErr k p s' /\
      ip s' = ip s1 /\ dbg s' = dbg s /\ sources s' = sources s /\
      exists t, nth_error (dbg s') (ip s') = Some t /\ nth_error (dbg s) (ip s1) = Some t.
  Proof.
    intros f d s k p s' Ha Hpre. split.
    - cbn [build1]. unfold bind at 1, get. fold (pre_token s). unfold bind at 1. rewrite Hpre. reflexivity.
    - unfold pre_token in Hpre.
      destruct (mode_eqb (cmode (cx s)) MMeta) eqn:Em; cbn [andb] in Hpre; [|discriminate].
      split; [destruct (cmode (cx s)); try discriminate; reflexivity|].
      destruct (negb (has_pending_flow s)); [|discriminate].
      unfold run_m in Hpre. destruct (run (nf fo) rf s) as [r|] eqn:Er; [|discriminate]. subst r.
      destruct (run_err_location fo rf _ _ _ _ Er) as (n & s1 & H1 & H2 & H3 & H4 & H5 & H6 & _ & H8).
      exists n, s1. repeat (split; [assumption|]). apply H8. exact Ha.
  Qed.

  (* "! name" with an unknown name: the last token is the name *)
  Theorem setvar_unknown : forall s name s1, P0 s ->
    next_name pr s = ROk name s1 -> dict_entry s1 name = None ->
    i_setvar pr s = RErr EUnknown None s1 /\ last_is_word s1 name.
  Proof.
    intros s name s1 Hs Hn Hd. split.
    - unfold i_setvar. unfold bind at 1. rewrite Hn. unfold bind at 1, get. rewrite Hd. reflexivity.
    - unfold next_name in Hn. cbv zeta in Hn.
      destruct (get_token pr s) as [t s2|k p s2| |] eqn:Et; try discriminate.
      destruct t as [|w|c]; try discriminate. injection Hn as E1 E2. subst w s2.
      exact (proj1 (get_token_word s name s1 Hs Et)).
  Qed.

  Theorem get_token_error : forall s k p s1, P0 s -> get_token pr s = RErr k p s1 ->
    k = EParse /\ PE s1 /\
    ((exists e x y, last_is s1 (TErr e x y)) \/ (exists txt, last_is s1 (TReal txt) /\ pr txt = None)).
  Proof.
    intros s k p s1 Hs H. pose proof (get_token_prov pr s Hs) as T. rewrite H in T. cbn [tok_post] in T.
    tauto.
  Qed.

  (* whatever fails during the build of a source: the state eval / compile leave has the last
     token recorded at the failure (unwinding keeps it), and it is a token of a source *)
  Theorem build_error_last_tok : forall fuel src m s k p s2, m <> MMeta -> PT s ->
    build1 fo pr rf fuel (length (nested (start_state src m s))) (start_state src m s) = RErr k p s2 ->
    exists s', build_from_source fo pr rf fuel src m s = RErr k p s' /\
               last_tok s' = last_tok s2 /\ sources s' = sources s2 /\ PT s' /\ PE s2.
  Proof.
    intros fuel src m s k p s2 Hm Hs Hb.
    pose proof (PT_build_from_source fo pr rf fuel src m s Hm Hs) as HT.
    revert HT. unfold build_from_source. cbv zeta. rewrite start_state_eq. rewrite Hb.
    cbn [res_all]. intros HT. eexists. split; [reflexivity|].
    assert (H2 : PE s2).
    { pose proof (P0_start_state src m s Hm Hs) as H1.
      pose proof (prov_build1 fo pr rf fuel (length (nested (start_state src m s))) _ H1) as X. rewrite Hb in X. exact X. }
    destruct (PE_build_unwind (length (nested s)) (length (input s)) (length (ds s)) (length (heap s)) s2 H2)
      as (_ & _ & X3 & X4).
    split; [exact X3|]. split; [exact X4|]. split; [exact HT|exact H2].
  Qed.
End BuildErr.

Section EvalRun.
  Variable fo : fops.
  Variable pr : string -> option Z.
  Variable rf : nat.

  Lemma context_close_eval_err : forall s prev rest k p s',
    nested s = prev :: rest -> cmode (cx s) = MEval -> cmode prev = MEval ->
    context_close fo rf s = RErr k p s' ->
    exists n s1,
      steps (native_fn fo) n (set_nested s rest) = Some s1 /\ is_running s1 = true /\
      (exists s2, fetch_and_run (native_fn fo) s1 = RErr k p s2) /\
      ip s' = ip s1 /\ dbg s' = dbg s /\ sources s' = sources s /\ nested s' = rest /\
      (al s -> exists t, nth_error (dbg s') (ip s') = Some t /\ nth_error (dbg s) (ip s1) = Some t).
  Proof.
    intros s prev rest k p s' En Em Ep H. unfold context_close in H. rewrite En in H. cbv zeta in H.
    change (cmode (cx (set_nested s rest))) with (cmode (cx s)) in H. rewrite Em, Ep in H.
    cbn [mode_eqb] in H. unfold run_m in H.
    destruct (run (nf fo) rf (set_nested s rest)) as [r|] eqn:Er; [|discriminate].
    destruct r as [u s1|k1 p1 s1| |]; try discriminate. injection H as <- <- <-.
    destruct (run_err_location fo rf _ _ _ _ Er) as (n & s3 & H1 & H2 & H3 & H4 & H5 & H6 & H7 & H8).
    exists n, s3. split; [exact H1|]. split; [exact H2|]. split; [eexists; exact H3|].
    split; [exact H4|]. split; [exact H5|]. split; [exact H6|].
    split; [cbn [set_cx nested]; pose proof (steps_vmrel _ (native_wl fo) _ _ _ H1) as V1;
            pose proof (far_vmrel (native_fn fo) (native_wl fo) s3) as V2; rewrite H3 in V2; cbn [res_all] in V2;
            destruct (vmrel_keeps _ _ V1) as (_ & _ & _ & _ & _ & K6 & _);
            destruct (vmrel_keeps _ _ V2) as (_ & _ & _ & _ & _ & K6' & _); rewrite K6', K6; reflexivity|].
    intros Ha. apply H8. exact Ha.
  Qed.

  Theorem eval_runtime_error : forall fuel src s s2 k p s',
    al s -> cmode (cx s) = MEval ->
    build1 fo pr rf fuel (length (nested (start_state src MEval s))) (start_state src MEval s) = ROk tt s2 ->
    eval fo pr rf fuel src s = RErr k p s' ->
    exists n s3,
      steps (native_fn fo) n (set_nested s2 (tl (nested s2))) = Some s3 /\ is_running s3 = true /\
      (exists s4, fetch_and_run (native_fn fo) s3 = RErr k p s4) /\
      ip s' = ip s3 /\ dbg s' = dbg s2 /\ sources s' = sources s2 /\
      (exists t, nth_error (dbg s') (ip s') = Some t /\ nth_error (dbg s2) (ip s3) = Some t) /\
      firstn (length (dbg s)) (dbg s') = dbg s.
  Proof.
    intros fuel src s s2 k p s' Ha Hm Hb He.
    unfold eval, build_from_source in He. cbv zeta in He. rewrite start_state_eq, Hb in He.
    pose proof (K_start src MEval s ltac:(discriminate) Ha) as K1.
    pose proof (K_build1 fo pr rf _ _ _ _ _ _ fuel (length (nested (start_state src MEval s))) _ K1) as K2. rewrite Hb in K2.
    pose proof (proj1 (proj2 (build1_ok_end _ _ _ _ _ _ _ _ Hb))) as Hd.
    change (length (nested (start_state src MEval s))) with (S (length (nested s))) in Hd.
    destruct (K_closed_shape _ _ _ _ _ _ _ K2 Hd) as [C1 C2].
    destruct (nested s2) as [|prev rest] eqn:En; [discriminate|].
    cbn [map] in C2. apply (f_equal (@hd _ (0, MEval))) in C2. cbn [hd] in C2.
    assert (Ep : cmode prev = MEval).
    { apply (f_equal snd) in C2. cbn [cshape snd] in C2. congruence. }
    assert (Ha2 : al s2) by exact (proj1 (proj1 K2)).
    destruct (context_close_eval_err s2 prev rest k p s' En C1 Ep He)
      as (n & s3 & H1 & H2 & H3 & H4 & H5 & H6 & _ & H8).
    exists n, s3. cbn [tl]. split; [exact H1|]. split; [exact H2|]. split; [exact H3|].
    split; [exact H4|]. split; [exact H5|]. split; [exact H6|]. split; [apply H8; exact Ha2|].
    rewrite H5. exact (proj1 (proj2 (proj1 K2))).
  Qed.
End EvalRun.
