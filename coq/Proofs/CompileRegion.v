(* CompileRegion.v: a machine-side invariant: the code of begin ... repeat whose body has no
   `break` of its own is a closed region: every jump of the layout stays inside it, so the
   machine, once inside, is inside whenever the return stack is back at the depth it had on
   entry - it never falls through to the cell behind the loop. (Calls leave the region and
   come back; recursive activations may be anywhere, at a greater depth.) *)
From Xeh Require Import Model.Prelude Model.Bits Model.Codec Model.Cell Model.Lexer Model.Fmt
                        Model.Vm Model.Words Model.Struct
                        Proofs.VmFrame Proofs.VmStep Proofs.CompileSim Proofs.CompileLayout Proofs.CompileStep
                        Proofs.CompileEval.
Local Notation length := List.length.

#[local] Arguments Z.add : simpl never.
#[local] Arguments Z.sub : simpl never.
#[local] Arguments Z.mul : simpl never.
#[local] Arguments Z.ltb : simpl never.
#[local] Arguments Z.leb : simpl never.
#[local] Arguments Z.eqb : simpl never.
#[local] Arguments Z.of_nat : simpl never.
#[local] Arguments Z.to_nat : simpl never.

Definition in_rng (lo hi p : nat) : Prop := lo <= p <= hi.

(* where the instruction [op] at [p] can continue (for a call: where it returns to) *)
Definition next_ok (lo hi p : nat) (op : opcode) : Prop :=
  match op with
  | ORet => False
  | OResolve _ => False
  | OJump rel => in_rng lo hi (jump_target p rel)
  | OBreak rel => in_rng lo hi (jump_target p rel)
  | OJumpIf rel | OJumpIfNot rel | ODo rel | OLoop rel | OCaseOf rel =>
    in_rng lo hi (S p) /\ in_rng lo hi (jump_target p rel)
  | _ => in_rng lo hi (S p)
  end.

Definition all_ok (lo hi org : nat) (L : list opcode) : Prop :=
  forall i op, nth_error L i = Some op -> next_ok lo hi (org + i) op.

Lemma all_ok_nil : forall lo hi org, all_ok lo hi org [].
Proof. intros lo hi org i op H. destruct i; discriminate. Qed.

Lemma all_ok_cons : forall lo hi org x L,
  next_ok lo hi org x -> all_ok lo hi (S org) L -> all_ok lo hi org (x :: L).
Proof.
  intros lo hi org x L H0 H1 i op Hi. destruct i as [|i].
  - cbn in Hi. injection Hi as <-. rewrite Nat.add_0_r. exact H0.
  - rewrite Nat.add_succ_r. apply (H1 i op Hi).
Qed.

Lemma all_ok_app : forall lo hi org a b,
  all_ok lo hi org a -> all_ok lo hi (org + length a) b -> all_ok lo hi org (a ++ b).
Proof.
  intros lo hi org a b Ha Hb i op Hi. destruct (Nat.lt_ge_cases i (length a)) as [Hlt|Hge].
  - rewrite nth_error_app1 in Hi by exact Hlt. apply Ha. exact Hi.
  - rewrite nth_error_app2 in Hi by exact Hge. specialize (Hb _ _ Hi).
    replace (org + i) with (org + length a + (i - length a)) by lia. exact Hb.
Qed.

Lemma all_ok_one : forall lo hi org x, next_ok lo hi org x -> all_ok lo hi org [x].
Proof. intros. apply all_ok_cons; [assumption|apply all_ok_nil]. Qed.

Definition bc_fine (lo hi : nat) (bc : brk_ctx) : Prop :=
  match bc with
  | BNone => True
  | BJump t => in_rng lo hi t
  | BLoop t => in_rng lo hi t
  end.

Section Closed.
  Variable faddr : nat -> nat.

  Definition Pc (x : stmt) : Prop :=
    forall org bc lo hi, lo <= org -> org + size_stmt x <= hi -> bc_fine lo hi bc ->
                         all_ok lo hi org (lay_stmt faddr x org bc).
  Definition Qc (l : list stmt) : Prop :=
    forall org bc lo hi, lo <= org -> org + size_block l <= hi -> bc_fine lo hi bc ->
                         all_ok lo hi org (lay_block faddr l org bc).
  Definition Rc (arms : list arm) : Prop :=
    forall d bc endp o lo hi, Qc d -> lo <= o -> o + size_arms arms + size_block d <= hi ->
                              in_rng lo hi endp -> bc_fine lo hi bc ->
                              all_ok lo hi o (lay_arms faddr bc endp arms d o).

  (* the successors of an instruction that moves by a known distance are in range *)
  Ltac jump_in := cbn [next_ok]; rewrite ?jt_fwd, ?jt_back by lia; unfold in_rng; lia.
  Ltac one_cell := unfold Pc; intros; cbn [lay_stmt size_stmt] in *; apply all_ok_one; jump_in.

  Lemma closed_all : forall x, Pc x.
  Proof.
    apply (stmt_ind2 Pc Qc Rc).
    - intros org bc lo hi _ _ _. apply all_ok_nil.
    - intros x r Hx Hr org bc lo hi H1 H2 H3. cbn [lay_block size_block] in *.
      apply all_ok_app; [apply Hx; [lia|lia|exact H3]|].
      rewrite lay_stmt_length. apply Hr; [lia|lia|exact H3].
    - intros d bc endp o lo hi Hd H1 H2 H3 H4. cbn [lay_arms size_arms] in *.
      apply Hd; [lia|lia|exact H4].
    - intros pre p body r Hpre Hbody Hr d bc endp o lo hi Hd H1 H2 H3 H4.
      cbn [lay_arms size_arms] in *. cbv zeta.
      apply all_ok_app; [apply Hpre; [lia|lia|exact H4]|]. rewrite lay_block_length.
      apply all_ok_app.
      + apply all_ok_cons.
        * jump_in.
        * apply Hbody; [lia|lia|exact H4].
      + cbn [length]. rewrite lay_block_length. apply all_ok_cons.
        * cbn [next_ok]. replace (o + size_block pre + S (size_block body)) with (S (o + size_block pre) + size_block body) by lia.
          rewrite jt_rel. exact H3.
        * replace (S (o + size_block pre + S (size_block body))) with (S (S (o + size_block pre) + size_block body)) by lia.
          apply Hr; [exact Hd|lia|lia|exact H3|exact H4].
    - intros c p org bc lo hi H1 H2 H3. cbn [lay_stmt]. apply all_ok_one.
      change (size_stmt (SLit c p)) with 1 in H2.
      destruct c; cbn [load_value_opcode next_ok]; try (unfold in_rng; lia).
      destruct (in_i64 z); cbn [next_ok]; unfold in_rng; lia.
    - one_cell.
    - one_cell.
    - one_cell.
    - one_cell.
    - one_cell.
    - one_cell.
    - intros p t Ht org bc lo hi H1 H2 H3. rewrite lay_SIf. rewrite size_SIf in H2.
      apply all_ok_cons.
      + jump_in.
      + apply Ht; [lia|lia|exact H3].
    - intros p t e Ht He org bc lo hi H1 H2 H3. rewrite lay_SIfE. rewrite size_SIfE in H2.
      apply all_ok_app.
      + apply all_ok_cons.
        * jump_in.
        * apply Ht; [lia|lia|exact H3].
      + cbn [length]. rewrite lay_block_length. apply all_ok_cons.
        * jump_in.
        * replace (S (org + S (size_block t))) with (org + 2 + size_block t) by lia.
          apply He; [lia|lia|exact H3].
    - intros arms d Ha Hd org bc lo hi H1 H2 H3. rewrite lay_SCase. rewrite size_SCase in *.
      apply Ha; [exact Hd|lia|lia|unfold in_rng; lia|exact H3].
    - intros b p Hb org bc lo hi H1 H2 H3. rewrite lay_SUntil. rewrite size_SUntil in H2.
      apply all_ok_app.
      + apply Hb; [lia|lia|exact Logic.I].
      + rewrite lay_block_length. apply all_ok_one. jump_in.
    - intros b Hb org bc lo hi H1 H2 H3. rewrite lay_SRepeat. rewrite size_SRepeat in H2.
      apply all_ok_app.
      + apply Hb; [lia|lia|cbn [bc_fine]; unfold in_rng; lia].
      + rewrite lay_block_length. apply all_ok_one. jump_in.
    - intros c p b Hc Hb org bc lo hi H1 H2 H3. rewrite lay_SWhile. cbv zeta. rewrite size_SWhile in H2.
      apply all_ok_app; [apply Hc; [lia|lia|cbn [bc_fine]; unfold in_rng; lia]|].
      rewrite lay_block_length. apply all_ok_app.
      + apply all_ok_cons.
        * jump_in.
        * replace (S (org + size_block c)) with (org + size_block c + 1) by lia.
          apply Hb; [lia|lia|cbn [bc_fine]; unfold in_rng; lia].
      + cbn [length]. rewrite lay_block_length. apply all_ok_one. jump_in.
    - intros p b pl Hb org bc lo hi H1 H2 H3. rewrite lay_SDo. rewrite size_SDo in H2.
      apply all_ok_app.
      + apply all_ok_cons.
        * jump_in.
        * apply Hb; [lia|lia|cbn [bc_fine]; unfold in_rng; lia].
      + cbn [length]. rewrite lay_block_length. apply all_ok_one. jump_in.
    - intros org bc lo hi H1 H2 H3. rewrite lay_SBreak. apply all_ok_one.
      change (size_stmt SBreak) with 1 in H2.
      destruct bc; cbn [brk_op next_ok bc_fine] in *.
      + unfold in_rng. lia.
      + rewrite jt_rel. exact H3.
      + rewrite jt_rel. exact H3.
    - intros g org bc lo hi _ _ _. cbn [lay_stmt]. apply all_ok_nil.
  Qed.

  Lemma closed_block : forall l, Qc l.
  Proof.
    induction l as [|x r IH]; intros org bc lo hi H1 H2 H3.
    - apply all_ok_nil.
    - cbn [lay_block size_block] in *. apply all_ok_app.
      + apply closed_all; [lia|lia|exact H3].
      + rewrite lay_stmt_length. apply IH; [lia|lia|exact H3].
  Qed.

  (* the code of a break-free begin ... repeat, cells org .. org + |b|, is closed: its body is laid
     out as it would be without an enclosing loop *)
  Lemma repeat_closed : forall b org bc, nb_b b ->
    all_ok org (org + size_block b) org (lay_stmt faddr (SRepeat b) org bc).
  Proof.
    intros b org bc N. rewrite lay_SRepeat, (lay_nb_block faddr b N org _ BNone). apply all_ok_app.
    - apply closed_block; [lia|lia|exact Logic.I].
    - rewrite lay_block_length. apply all_ok_one. jump_in.
  Qed.
End Closed.

Definition succ (op : opcode) (p q : nat) : Prop :=
  match op with
  | OJump rel => q = jump_target p rel
  | OBreak rel => q = jump_target p rel
  | OJumpIf rel | OJumpIfNot rel | ODo rel | OLoop rel | OCaseOf rel => q = S p \/ q = jump_target p rel
  | _ => q = S p
  end.

Inductive eff (op : opcode) (p : nat) (s1 s' : state) : Prop :=
| eff_call : forall a, op = OCall a -> rs s' = mkframe a (S p) [] :: rs s1 -> ip s' = a -> eff op p s1 s'
| eff_ret : forall f, op = ORet -> rs s1 = f :: rs s' -> ip s' = return_to f -> eff op p s1 s'
| eff_stay : map fkey (rs s') = map fkey (rs s1) -> succ op p (ip s') -> eff op p s1 s'.

Section Machine.
  Variable nf : natives.
  Hypothesis nf_par : forall w f, nf w = Some f -> par f.

  Lemma par_self : forall A (m : M A) s a s', par m -> rlog s = None -> m s = ROk a s' -> keep s s'.
  Proof.
    intros A m s a s' Hp Hl E. specialize (Hp s s (sim_refl s) Hl). rewrite E in Hp. cbn [rrel] in Hp. tauto.
  Qed.

  Definition lands (s1 : state) (Q : nat -> Prop) (m : M unit) : Prop :=
    forall s2 s', keep s1 s2 -> rlog s2 = None -> m s2 = ROk tt s' ->
      code s' = code s1 /\ rlog s' = None /\ map fkey (rs s') = map fkey (rs s1) /\ Q (ip s').

  Lemma lands_bind : forall A (m : M A) (K : A -> M unit) s1 Q,
    par m -> (forall a, lands s1 Q (K a)) -> lands s1 Q (bind m K).
  Proof.
    intros A m K s1 Q Hp HK s2 s' K12 Hl H. unfold bind in H.
    destruct (m s2) as [a s3|? ? ?| |] eqn:E; try discriminate.
    pose proof (par_self _ m s2 a s3 Hp Hl E) as K23.
    eapply HK; [eapply keep_trans; eassumption|eapply keep_rlog; eassumption|exact H].
  Qed.

  Lemma lands_set_ip : forall s1 (Q : nat -> Prop) n, Q n -> lands s1 Q (set_ip n).
  Proof.
    intros s1 Q n HQ s2 s' (K1&K2&K3&K4&K5&K6) Hl H. rewrite set_ip_off in H by exact Hl. injection H as <-.
    split; [exact K3|]. split; [exact Hl|]. split; [exact K6|exact HQ].
  Qed.

  Lemma lands_next_ip : forall s1 (Q : nat -> Prop), Q (S (ip s1)) -> lands s1 Q next_ip.
  Proof.
    intros s1 Q HQ s2 s' (K1&K2&K3&K4&K5&K6) Hl H. rewrite next_ip_off in H by exact Hl. injection H as <-.
    split; [exact K3|]. split; [exact Hl|]. split; [exact K6|]. rewrite <- K1 in HQ. exact HQ.
  Qed.

  Lemma lands_cell : forall A (m : M A) s1 (Q : nat -> Prop),
    par m -> Q (S (ip s1)) -> lands s1 Q (bind m (fun _ => next_ip)).
  Proof. intros A m s1 Q Hp HQ. apply lands_bind; [exact Hp|]. intros _. apply lands_next_ip. exact HQ. Qed.

  Lemma lands_eq : forall s1 Q (m m' : M unit), (forall s, m s = m' s) -> lands s1 Q m' -> lands s1 Q m.
  Proof. intros s1 Q m m' E L s2 s' K2 Hl H. rewrite E in H. eapply L; eassumption. Qed.

  Lemma par_m_cond : forall c, par (m_cond c).
  Proof. intro c. par_solve. Qed.

  Lemma exec_eff : forall p op s1 s',
    rlog s1 = None -> ip s1 = p -> exec_op nf p op s1 = ROk tt s' ->
    code s' = code s1 /\ rlog s' = None /\ eff op p s1 s'.
  Proof.
    intros p op s1 s' Hl <- H.
    assert (ST : lands s1 (succ op (ip s1)) (exec_op nf (ip s1) op) ->
                 code s' = code s1 /\ rlog s' = None /\ eff op (ip s1) s1 s').
    { intro L. destruct (L s1 s' (keep_refl s1) Hl H) as (A1&A2&A3&A4). auto using eff_stay. }
    destruct op.
    2: { (* OCall *) cbn [exec_op] in H. unfold bind, push_return in H. rewrite add_rstep_off in H by exact Hl.
         rewrite set_ip_off in H by exact Hl. injection H as <-.
         split; [reflexivity|]. split; [exact Hl|]. eapply eff_call; reflexivity. }
    2: { (* OResolve *) discriminate. }
    3: { (* ORet *) cbn [exec_op] in H. unfold bind, pop_return in H. destruct (rs s1) as [|f r] eqn:Er; [discriminate|].
         destruct (rs_len (cx s1) <? length (f :: r)); [|discriminate].
         rewrite add_rstep_off in H by exact Hl. rewrite set_ip_off in H by exact Hl. injection H as <-.
         split; [reflexivity|]. split; [exact Hl|]. eapply (eff_ret _ _ _ _ f); [reflexivity|exact Er|reflexivity]. }
    all: apply ST; clear ST H; cbn [exec_op succ].
    - (* ONop *) apply lands_next_ip. reflexivity.
    - (* ONative *) destruct (nf w) as [f|] eqn:E; [|intros s2 s'' _ _ H; discriminate].
      apply lands_cell; [eapply nf_par; exact E|reflexivity].
    - (* OJumpIf *) apply lands_bind; [apply par_pop_data|intro c]. apply lands_bind; [apply par_m_cond|intro b].
      destruct b; [apply lands_set_ip; right; reflexivity|apply lands_next_ip; left; reflexivity].
    - (* OJumpIfNot *) apply lands_bind; [apply par_pop_data|intro c]. apply lands_bind; [apply par_m_cond|intro b].
      destruct b; [apply lands_next_ip; left; reflexivity|apply lands_set_ip; right; reflexivity].
    - (* OJump *) apply lands_set_ip. reflexivity.
    - (* ODo *) apply lands_bind; [apply par_do_init|intro l].
      destruct (l_end l <=? l_start l)%Z; [apply lands_set_ip; right; reflexivity|].
      apply lands_cell; [apply par_push_loop|left; reflexivity].
    - (* OBreak *) apply lands_bind; [apply par_pop_loop|intro l]. apply lands_set_ip. reflexivity.
    - (* OLoop *) apply lands_bind; [apply par_loop_next|intro more].
      destruct more; [apply lands_set_ip; right; reflexivity|].
      apply lands_cell; [apply par_pop_loop|left; reflexivity].
    - (* OCaseOf *) apply lands_bind; [apply par_pop_data|intro a]. apply lands_bind; [apply par_top_data|intro b].
      destruct (cell_eqb a b); [|apply lands_set_ip; right; reflexivity].
      apply lands_cell; [apply par_pop_data|left; reflexivity].
    - (* OLoad *) eapply lands_eq; [intro; apply (exec_load nf (ip s1))|]. apply lands_cell; [apply par_load|reflexivity].
    - apply lands_cell; [apply par_push_data|reflexivity].
    - apply lands_cell; [apply par_push_data|reflexivity].
    - apply lands_cell; [apply par_push_data|reflexivity].
    - apply lands_cell; [apply par_push_data|reflexivity].
    - apply lands_cell; [apply par_push_data|reflexivity].
    - (* OStore *) eapply lands_eq; [intro; apply (exec_store nf (ip s1))|]. apply lands_cell; [apply par_store|reflexivity].
    - (* OInitLocal *) eapply lands_eq; [intro; apply (exec_initlocal nf (ip s1))|]. apply lands_cell; [apply par_initlocal|reflexivity].
    - (* OLoadLocal *) eapply lands_eq; [intro; apply (exec_loadlocal nf (ip s1))|]. apply lands_cell; [apply par_m_locget|reflexivity].
  Qed.
End Machine.

Fixpoint bot (l : list frame) : option nat :=
  match l with
  | [] => None
  | f :: r => match r with [] => Some (return_to f) | _ => bot r end
  end.

Lemma bot_none : forall l, bot l = None -> l = [].
Proof.
  induction l as [|f r IH]; intro H; [reflexivity|]. cbn [bot] in H.
  destruct r; [discriminate|]. specialize (IH H). discriminate.
Qed.

Lemma bot_cons_ne : forall f r, r <> [] -> bot (f :: r) = bot r.
Proof. intros f r H. destruct r; [contradiction|reflexivity]. Qed.

Lemma bot_keys : forall a b, map fkey a = map fkey b -> bot a = bot b.
Proof.
  induction a as [|f ra IH]; intros b H; destruct b as [|g rb]; try discriminate; [reflexivity|].
  cbn [map] in H. injection H as H1 H2 H3.
  destruct ra as [|f2 ra], rb as [|g2 rb]; try discriminate.
  - cbn [bot]. congruence.
  - change (bot (f2 :: ra) = bot (g2 :: rb)). apply IH. exact H3.
Qed.

Lemma succ_in : forall lo hi op p q, next_ok lo hi p op -> succ op p q -> in_rng lo hi q.
Proof.
  intros lo hi op p q Hn Hs. destruct op; cbn [next_ok succ] in *; try contradiction; subst; try assumption;
    destruct Hn as [Hn1 Hn2]; destruct Hs as [->| ->]; assumption.
Qed.

Section Invariant.
  Variable nf : natives.
  Hypothesis nf_par : forall w f, nf w = Some f -> par f.
  Variables (lo hi org d0 : nat) (L : list opcode).
  Hypothesis HL : all_ok lo hi org L.
  Hypothesis Hcover : forall p, in_rng lo hi p -> org <= p /\ exists op, nth_error L (p - org) = Some op.

  Lemma fetch_eff : forall s s', rlog s = None -> fetch_and_run nf s = ROk tt s' ->
    exists op s1,
      ((code s1 = code s /\ nth_error (code s) (ip s) = Some op) \/
       (exists name, nth_error (code s) (ip s) = Some (OResolve name) /\
                     code s1 = list_set (code s) (ip s) op)) /\
      rs s1 = rs s /\ code s' = code s1 /\ rlog s' = None /\ eff op (ip s) s1 s'.
  Proof.
    intros s s' Hl H. pose proof (far_spec_holds nf s) as FS. rewrite H in FS.
    inversion FS as [| |op Hm Hn Hr Hx| | |name e Hm Hn Hd Hm2 Hx].
    - exists op, (set_meter s (meter s + 1)%Z). split; [left; split; [reflexivity|exact Hn]|].
      split; [reflexivity|]. apply (exec_eff nf nf_par); [exact Hl|reflexivity|exact Hx].
    - exists (resolve_op e),
             (set_meter (set_code (set_meter s (meter s + 1)%Z) (list_set (code s) (ip s) (resolve_op e)))
                        (meter s + 1 + 1)%Z).
      split; [right; exists name; split; [exact Hn|reflexivity]|].
      split; [reflexivity|]. apply (exec_eff nf nf_par); [exact Hl|reflexivity|exact Hx].
  Qed.

  Definition Inv (s : state) : Prop :=
    rlog s = None /\ code_at (code s) org L /\
    exists new old, rs s = new ++ old /\ length old = d0 /\
      match bot new with
      | None => in_rng lo hi (ip s)
      | Some r => in_rng lo hi r
      end.

  Lemma region_op : forall s p, code_at (code s) org L -> in_rng lo hi p ->
    exists op, nth_error (code s) p = Some op /\ next_ok lo hi p op.
  Proof.
    intros s p Hc Hp. destruct (Hcover p Hp) as (Hge & op & Hop). exists op.
    replace p with (org + (p - org)) by lia. split; [apply Hc; exact Hop|apply HL; exact Hop].
  Qed.

  Lemma inv_step : forall s s', Inv s -> fetch_and_run nf s = ROk tt s' -> Inv s'.
  Proof.
    intros s s' (Hl & Hc & new & old & Hrs & Hlen & Hb) H.
    destruct (fetch_eff s s' Hl H) as (op & s1 & Hcode & Hrs1 & E1 & E2 & E3).
    split; [exact E2|]. split.
    - (* the region is intact *)
      rewrite E1. destruct Hcode as [[-> _]|(name & Hn & ->)]; [exact Hc|].
      intros i opL Hi. pose proof (Hc i opL Hi) as Hci.
      destruct (Nat.eq_dec (ip s) (org + i)) as [E|E].
      + rewrite <- E in Hci. rewrite Hn in Hci. injection Hci as <-.
        pose proof (HL i _ Hi) as F. exact (match F with end).
      + rewrite nth_list_set_other by exact E. exact Hci.
    - destruct (bot new) as [r|] eqn:Eb.
      + (* a deeper activation *)
        assert (Hne : new <> []) by (intro E; subst new; discriminate).
        destruct E3 as [a _ Er Ei|f _ Er Ei|Em Es]; rewrite Hrs1 in *.
        * exists (mkframe a (S (ip s)) [] :: new), old.
          split; [rewrite Er, Hrs; reflexivity|]. split; [exact Hlen|].
          rewrite bot_cons_ne by exact Hne. rewrite Eb. exact Hb.
        * destruct new as [|f1 new1]; [contradiction|].
          rewrite Hrs in Er. cbn [app] in Er. injection Er as <- Er.
          exists new1, old. split; [symmetry; exact Er|]. split; [exact Hlen|].
          cbn [bot] in Eb. destruct new1 as [|f2 new1].
          -- injection Eb as <-. cbn [bot]. rewrite Ei. exact Hb.
          -- change (bot (f2 :: new1) = Some r) in Eb. rewrite Eb. exact Hb.
        * rewrite Hrs, map_app in Em.
          apply map_eq_app in Em. destruct Em as (n' & o' & Hs' & Hn' & Ho').
          exists n', o'. split; [exact Hs'|]. split.
          -- apply (f_equal (@length _)) in Ho'. rewrite !map_length in Ho'. congruence.
          -- rewrite (bot_keys _ _ Hn'), Eb. exact Hb.
      + (* the activation that entered the region *)
        apply bot_none in Eb. subst new. cbn [app] in Hrs.
        destruct (region_op s (ip s) Hc Hb) as (opL & HopL & Hnext).
        assert (Hop : op = opL).
        { destruct Hcode as [[_ Hn]|(name & Hn & _)]; [congruence|].
          rewrite Hn in HopL. injection HopL as <-. contradiction. }
        subst opL.
        destruct E3 as [a -> Er Ei|f -> Er Ei|Em Es]; rewrite Hrs1 in *.
        * exists [mkframe a (S (ip s)) []], old.
          split; [rewrite Er, Hrs; reflexivity|]. split; [exact Hlen|]. cbn [bot return_to]. exact Hnext.
        * contradiction.
        * exists [], (rs s'). split; [reflexivity|]. split.
          -- apply (f_equal (@length _)) in Em. rewrite !map_length in Em. congruence.
          -- cbn [bot]. eapply succ_in; [exact Hnext|exact Es].
  Qed.

  Lemma inv_steps : forall n s sn, Inv s -> steps nf n s = Some sn -> Inv sn.
  Proof.
    induction n as [|n IH]; intros s sn HI H; cbn [steps] in H.
    - injection H as <-. exact HI.
    - destruct (fetch_and_run nf s) as [[] s1| | |] eqn:E; try discriminate.
      eapply IH; [eapply inv_step; eauto|exact H].
  Qed.

  Lemma inv_depth : forall s, Inv s -> length (rs s) = d0 -> in_rng lo hi (ip s).
  Proof.
    intros s (_ & _ & new & old & Hrs & Hlen & Hb) Hd. rewrite Hrs, app_length in Hd.
    destruct new; [exact Hb|cbn [length] in Hd; lia].
  Qed.
End Invariant.

Theorem repeat_never_exits : forall nf faddr b org bc s,
  (forall w f, nf w = Some f -> par f) ->
  nb_b b ->
  code_at (code s) org (lay_stmt faddr (SRepeat b) org bc) ->
  rlog s = None -> org <= ip s <= org + size_block b ->
  forall n sn, steps nf n s = Some sn -> length (rs sn) = length (rs s) ->
               org <= ip sn <= org + size_block b.
Proof.
  intros nf faddr b org bc s Hnf N C Hl Hip n sn Hn Hd.
  pose proof (repeat_closed faddr b org bc N) as HL.
  assert (Hcover : forall p, in_rng org (org + size_block b) p ->
                             org <= p /\ exists op, nth_error (lay_stmt faddr (SRepeat b) org bc) (p - org) = Some op).
  { intros p [Hp1 Hp2]. split; [exact Hp1|].
    destruct (nth_error (lay_stmt faddr (SRepeat b) org bc) (p - org)) as [op|] eqn:E; [eauto|].
    apply nth_error_None in E. rewrite lay_stmt_length, size_SRepeat in E. lia. }
  assert (HI : Inv org (org + size_block b) org (length (rs s)) (lay_stmt faddr (SRepeat b) org bc) s).
  { split; [exact Hl|]. split; [exact C|]. exists [], (rs s). split; [reflexivity|]. split; [reflexivity|exact Hip]. }
  pose proof (inv_steps nf Hnf _ _ _ _ _ HL Hcover n s sn HI Hn) as HIn.
  eapply inv_depth; eassumption.
Qed.
