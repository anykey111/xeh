(* PackBuild.v: the whole chain of C07: a record built with the construction words and
   >bitstr, then opened and parsed back with the matching read words. *)
From Xeh Require Import Model.Prelude Model.Bits Model.Codec Model.Cell Model.Lexer Model.Fmt
                        Model.Vm Model.Words.
From Xeh Require Import Proofs.VmStep Proofs.CursorDefs Proofs.CursorProofs Proofs.CursorProgress
                        Proofs.PackDefs Proofs.PackProofs.
From Coq Require Import ZifyBool ZifyNat ZifyN.
Local Notation length := List.length.

Definition field_pk_ok (f : field) : Prop :=
  match f with FInt w _ _ _ => (Z.of_nat w <= pack_limit)%Z | _ => True end.

Lemma field_pk_of_rd fs : Forall field_rd_ok fs -> Forall field_pk_ok fs.
Proof.
  apply Forall_impl. intros f (_ & H). destruct f as [w [|] o x| | | | |]; cbn; auto; unfold pack_limit; lia.
Qed.

Lemma bind_ok {A B} (m : M A) (f : A -> M B) s a s' : m s = ROk a s' -> bind m f s = f a s'.
Proof. unfold bind. intros ->. reflexivity. Qed.

Lemma bind_assoc {A B C} (m : M A) (f : A -> M B) (g : B -> M C) s :
  bind (bind m f) g s = bind m (fun a => bind (f a) g) s.
Proof. unfold bind. destruct (m s); reflexivity. Qed.

(* the state after %vec-begin: the height of the data stack is on the special stack *)
Definition vec_begun (s : state) : state :=
  set_special (add_rstep RPopSpecial s) (length (ds s) :: special s).

Lemma vec_begun_same s :
  ds (vec_begun s) = ds s /\ heap (vec_begun s) = heap s /\ cx (vec_begun s) = cx s /\
  stack_limit (vec_begun s) = stack_limit s /\
  core (vec_begun s) = set_special (core s) (length (ds s) :: special s).
Proof.
  assert (Hc : core (vec_begun s) = set_special (core s) (length (ds s) :: special s)).
  { unfold vec_begun. change (core (set_special (add_rstep RPopSpecial s) (length (ds s) :: special s)))
      with (set_special (core (add_rstep RPopSpecial s)) (length (ds s) :: special s)).
    rewrite core_add_rstep. reflexivity. }
  split; [apply ds_add_rstep|]. split; [apply heap_add_rstep|].
  split; [exact (f_equal cx Hc)|]. split; [exact (f_equal stack_limit Hc)|exact Hc].
Qed.

Lemma pop_n_ok : forall xs s0 s r h,
  st s0 s (xs ++ r) h -> ds_len (cx s0) <= length r ->
  wp (pop_n (length xs)) s (fun _ s' => st s0 s' r h) (fun _ _ _ => False) False.
Proof.
  induction xs as [|x xs IH]; intros s0 s r h Hst Hmark; cbn [length pop_n].
  - apply wp_ret. exact Hst.
  - apply wp_bind. eapply (wp_pop_data_ok x (xs ++ r)); [exact Hst|cbn [length]; rewrite app_length; lia|].
    intros s1 Hs1. apply IH; auto.
Qed.

(* [ ... ]: a body that leaves [items] above the stack of [s], between %vec-begin and %vec-end,
   leaves their vector; [R] is what the body does to the heap *)
Lemma vec_literal_ok (body : M unit) (R : list cell -> list cell -> Prop) s items :
  ds_len (cx s) <= length (ds s) -> ss_ptr (cx s) <= length (special s) ->
  limit_reached (stack_limit s) (length (ds s)) = false ->
  (exists sB, body (vec_begun s) = ROk tt sB /\ ds sB = (rev items ++ ds s)%list /\
              R (heap s) (heap sB) /\ sim (vec_begun s) sB) ->
  exists sD, (forall k : M unit, (w_vec_begin ;; body ;; w_vec_end ;; k) s = k sD) /\
             ds sD = CVec items :: ds s /\ R (heap s) (heap sD) /\ sim s sD.
Proof.
  intros Hmark Hsp Hroom (sB & HB & HdB & HhB & HsB).
  destruct (vec_begun_same s) as (_ & _ & HcxA & _ & HcA).
  assert (HspB : special sB = length (ds s) :: special s).
  { pose proof (f_equal special HsB) as H. rewrite HcA in H. exact H. }
  set (sC := add_rstep (RPushSpecial (length (ds s))) (set_special sB (special s))).
  assert (Hpop : pop_special sB = ROk (Some (length (ds s))) sC).
  { unfold pop_special. rewrite HspB, (sim_cx _ _ HsB), HcxA. cbn [length].
    replace (ss_ptr (cx s) <? S (length (special s))) with true by lia. reflexivity. }
  assert (HstC : st s sC (rev items ++ ds s) (heap sB)).
  { unfold sC. split; [rewrite ds_add_rstep; exact HdB|]. split; [rewrite heap_add_rstep; reflexivity|].
    unfold sim. rewrite core_add_rstep.
    change (core (set_special sB (special s))) with (set_special (core sB) (special s)).
    unfold sim in HsB. rewrite HsB, HcA. reflexivity. }
  assert (HD : exists sD, w_vec_end sB = ROk tt sD /\ st s sD (CVec items :: ds s) (heap sB)).
  { unfold w_vec_end, bind at 1. rewrite Hpop.
    apply wp_returns. apply wp_bind. unfold vec_collect_till_ptr. apply wp_get.
    pose proof HstC as (HdC & _). rewrite HdC, app_length, rev_length.
    replace (length items + length (ds s) <? length (ds s)) with false by lia.
    replace (length items + length (ds s) - length (ds s)) with (length (rev items))
      by (rewrite rev_length; lia).
    rewrite firstn_app_exact by reflexivity. rewrite rev_involutive.
    apply wp_bind. eapply wp_conseq; [apply (pop_n_ok (rev items) s sC (ds s) (heap sB) HstC Hmark)| |auto|auto].
    intros u s1 Hs1. apply wp_ret. eapply wp_push_data_ok; [exact Hs1|exact Hroom|auto]. }
  destruct HD as (sD & HD & HdD & HhD & HsD).
  exists sD. split; [|rewrite HhD; auto].
  intros k. rewrite (bind_ok w_vec_begin _ s tt (vec_begun s) eq_refl), (bind_ok body _ _ tt sB HB),
    (bind_ok w_vec_end _ _ tt sD HD). reflexivity.
Qed.

Section Build.
  Variable fo : fops.

  Lemma pack_word_ok f s0 s1 r h :
    st s0 s1 (field_arg fo f :: r) h -> field_pk_ok f -> ds_len (cx s0) <= length r ->
    limit_reached (stack_limit s0) (length r) = false ->
    wp (pack_word fo f) s1 (fun _ s' => st s0 s' (field_item fo f :: r) h) ENone False.
  Proof.
    intros Hs1 Hpk Hmark Hroom.
    destruct f as [w sg o v|o v|o v|b|t|l]; cbn [pack_word field_arg field_item pack_field] in *.
    - apply pack_int_ok; assumption.
    - exact (pack_float_ok fo s0 s1 r h v 32 o Hs1 Hmark (or_introl eq_refl) Hroom).
    - exact (pack_float_ok fo s0 s1 r h v 64 o Hs1 Hmark (or_intror eq_refl) Hroom).
    - apply wp_ret. exact Hs1.
    - apply wp_ret. exact Hs1.
    - apply wp_ret. exact Hs1.
  Qed.

  Lemma push_field_ok s f :
    field_pk_ok f -> ds_len (cx s) <= length (ds s) ->
    limit_reached (stack_limit s) (length (ds s)) = false ->
    exists s', (push_data (field_arg fo f) ;; pack_word fo f) s = ROk tt s' /\
               ds s' = field_item fo f :: ds s /\ heap s' = heap s /\ sim s s'.
  Proof.
    intros Hpk Hmark Hroom. apply wp_returns.
    apply wp_bind. eapply wp_push_data_ok; [apply st_init|exact Hroom|]. intros s1 Hs1.
    apply pack_word_ok; assumption.
  Qed.

  (* a sequence of fields whose items are pushed one after the other: [step] pushes one field's
     item using at most [S extra] cells of room, [P] is what it needs and keeps, [R] what it
     does to the heap *)
  Section Push.
    Variables (step : field -> M unit) (run : list field -> M unit) (extra : nat).
    Variables (P : state -> Prop) (R : list cell -> list cell -> Prop).
    Hypothesis run_nil : forall s, run [] s = ROk tt s.
    Hypothesis run_cons : forall f r s, run (f :: r) s = (step f ;; run r) s.
    Hypothesis R_refl : forall h, R h h.
    Hypothesis R_trans : forall a b c, R a b -> R b c -> R a c.
    Hypothesis step_ok : forall s f, field_pk_ok f -> P s -> room s (S extra) ->
      exists s', step f s = ROk tt s' /\ ds s' = field_item fo f :: ds s /\
                 R (heap s) (heap s') /\ sim s s' /\ P s'.

    Lemma push_gen : forall fs s,
      Forall field_pk_ok fs -> P s -> room s (extra + length fs) ->
      exists s', run fs s = ROk tt s' /\
                 ds s' = (rev (map (field_item fo) fs) ++ ds s)%list /\ R (heap s) (heap s') /\ sim s s'.
    Proof.
      induction fs as [|f fs IH]; intros s Hpk HP Hroom.
      - exists s. rewrite run_nil. cbn [map rev app]. auto using sim_refl.
      - inversion Hpk as [|? ? Hf Hfs]; subst. cbn [length] in Hroom. rewrite Nat.add_succ_r in Hroom.
        destruct (step_ok s f Hf HP) as (s1 & Hrun1 & Hd1 & Hh1 & Hs1 & HP1).
        { intros j Hj. apply Hroom. lia. }
        destruct (IH s1 Hfs HP1 (room_step _ _ _ _ Hroom Hs1 Hd1)) as (s' & Hrun & Hd' & Hh' & Hs').
        exists s'. rewrite run_cons. unfold bind at 1. rewrite Hrun1. split; [exact Hrun|].
        split; [rewrite Hd', Hd1; cbn [map rev]; rewrite <- app_assoc; reflexivity|].
        split; [eauto|eapply sim_trans; eauto].
    Qed.
  End Push.

  Lemma push_fields_ok : forall fs s,
    Forall field_pk_ok fs -> ds_len (cx s) <= length (ds s) -> room s (length fs) ->
    exists s', push_fields fo fs s = ROk tt s' /\
               ds s' = (rev (map (field_item fo) fs) ++ ds s)%list /\ heap s' = heap s /\ sim s s'.
  Proof.
    intros fs s Hpk Hmark Hroom.
    apply (push_gen (fun f => push_data (field_arg fo f) ;; pack_word fo f) (push_fields fo) 0
             (fun s => ds_len (cx s) <= length (ds s)) (fun h h' => h' = h)); auto.
    - intros f r s0. symmetry. apply bind_assoc.
    - intros a b c -> ->. reflexivity.
    - intros s0 f Hf Hm0 Hr0.
      destruct (push_field_ok s0 f Hf Hm0 (room_here _ _ Hr0)) as (s1 & H1 & Hd1 & Hh1 & Hs1).
      exists s1. rewrite (sim_cx _ _ Hs1), Hd1. cbn [length]. auto 10.
  Qed.

  (* [ ... ] >bitstr over the construction words *)
  Theorem build_ok : forall fs s,
    Forall field_ok fs -> Forall field_pk_ok fs ->
    ds_len (cx s) <= length (ds s) -> ss_ptr (cx s) <= length (special s) ->
    (forall j, j <= length fs -> limit_reached (stack_limit s) (length (ds s) + j) = false) ->
    exists s' p, build fo fs s = ROk tt s' /\
                 ds s' = CBits p :: ds s /\ heap s' = heap s /\ sim s s' /\
                 wf p /\ abs p = fields_bits fo fs /\ clen p = total_width fs /\ cstart p = 0.
  Proof.
    intros fs s Hok Hpk Hmark Hsp Hroom.
    assert (Hroom0 : limit_reached (stack_limit s) (length (ds s)) = false).
    { rewrite <- (Nat.add_0_r (length (ds s))). apply Hroom. lia. }
    destruct (vec_literal_ok (push_fields fo fs) (fun h h' => h' = h) s (map (field_item fo) fs)
                Hmark Hsp Hroom0) as (sD & HD & HdD & HhD & HsD).
    { destruct (vec_begun_same s) as (HdA & HhA & HcxA & HlA & _).
      destruct (push_fields_ok fs (vec_begun s) Hpk) as (sB & HB & HdB & HhB & HsB).
      - rewrite HcxA, HdA. exact Hmark.
      - intros j Hj. rewrite HlA, HdA. apply Hroom. lia.
      - exists sB. rewrite HdA in HdB. rewrite HhA in HhB. auto. }
    destruct (into_bitstr_fields fo sD fs _ (ds s) Hok HdD eq_refl) as (s' & p & Hrun & Hd' & Hh' & Hs' & Hp).
    { rewrite (sim_cx _ _ HsD), HdD. cbn [length]. lia. }
    { rewrite (sim_slim _ _ HsD). exact Hroom0. }
    exists s', p. split; [unfold build; rewrite HD; exact Hrun|].
    split; [exact Hd'|]. split; [congruence|]. split; [eapply sim_trans; eauto|exact Hp].
  Qed.

  (* the chain: build the record with the construction words, open it, read every field back
     with the matching word, ask for `remain` *)
  Theorem build_parse : forall fs s inp0 off0 v,
    cursor s inp0 off0 -> h_stash (heap s) = Some v ->
    Forall field_rd_ok fs -> (Z.of_nat (total_width fs) < two64)%Z ->
    ds_len (cx s) <= length (ds s) -> ss_ptr (cx s) <= length (special s) ->
    (forall j, j <= length fs -> limit_reached (stack_limit s) (length (ds s) + j) = false) ->
    exists s' vals e,
      (build fo fs ;; parse_back fo fs) s = ROk tt s' /\
      ds s' = (CInt 0 :: rev vals ++ ds s)%list /\ Forall2 (field_value fo) fs vals /\
      (exists p, cursor s' p (Z.of_nat (cend p)) /\ abs p = fields_bits fo fs /\
                 clen p = total_width fs) /\
      h_stash (heap s') = Some (v ++ [e])%list /\
      entry_input e = Some inp0 /\ entry_offset e = Some off0.
  Proof.
    intros fs s inp0 off0 v Hcur Hv Hrd Htw Hmark Hsp Hroom.
    destruct (build_ok fs s (field_ok_of_rd fs Hrd) (field_pk_of_rd fs Hrd) Hmark Hsp Hroom)
      as (s1 & p & Hrun1 & Hd1 & Hh1 & Hs1 & Hpw & Hpa & Hpl & Hpc).
    assert (Hcend : cend p = total_width fs).
    { unfold clen in Hpl. destruct Hpw as (? & _). lia. }
    destruct (roundtrip fo fs s1 inp0 off0 v (CBits p) (ds s) p (cursor_same _ _ _ _ Hcur Hs1 Hh1)
                ltac:(congruence) Hd1 eq_refl Hpw ltac:(lia) Hpa Hrd)
      as (s' & vals & e & Hrun & Hd' & Hvals & Hcur' & Hst' & He).
    { rewrite (sim_cx _ _ Hs1), Hd1. cbn [length]. lia. }
    { intros j Hj. rewrite (sim_slim _ _ Hs1). apply Hroom. exact Hj. }
    exists s', vals, e. split; [unfold bind at 1; rewrite Hrun1; exact Hrun|].
    split; [exact Hd'|]. split; [exact Hvals|]. split; [exists p; auto|]. split; [exact Hst'|exact He].
  Qed.
End Build.
