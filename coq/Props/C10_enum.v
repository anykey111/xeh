(* C10, continuation: `enum ... endenum`.

   The enum builder adds two situations to the ones the watch [calls_bad] (Proofs/UnwindMain.v,
   [bad_word] / [native_bad] of Proofs/UnwindBuild.v) reports, i.e. that the hypothesis
   [calls_bad ... = false] of C10_rejected_source_restores and its companions excludes:
   - [enum_close_bad]: `endenum` is met in a state in which the block it closes first returns to a
     context that is not a meta context (needed by C15: finding E3, Props/C15_enum.v);
   - [enum_field_bad]: a field word is met while the enum entry is not pending in a meta context
     (possible only when the enum was not opened by the same source).

   NOT reported: `endenum` whose second close runs code that the enum's outer context still
   holds.  A failing run inside context_close puts the popped context back (the repair of
   finding E2 / D37: before it the context stack stayed popped and the unwinding of the
   rejected source cut at the wrong marks), so the restoration theorem covers such sources;
   the witness of E2 is an instance of it, below. *)
From Xeh Require Import Model.Prelude Model.Bits Model.Codec Model.Cell Model.Lexer Model.Fmt
                        Model.Vm Model.Words Model.Build Model.Boot.
From Xeh Require Import Proofs.VmLimits Proofs.NoPanicBuild Proofs.UnwindLists Proofs.UnwindFrame Proofs.UnwindInv
                        Proofs.UnwindBuild Proofs.UnwindMain Proofs.UnwindWitness
                        Proofs.MetaBase Proofs.MetaPurge Proofs.MetaBuild Proofs.MetaClose Proofs.MetaPrefix
                        Proofs.MetaBlock Proofs.MetaSeg Proofs.MetaInline Proofs.MetaFindings Proofs.EnumWitness.
Local Notation length := List.length.
Local Open Scope string_scope.
Local Open Scope list_scope.

(* the witness of E2 / D37: rejected, and unwound completely *)
Theorem C10_enum_close_repaired :
  build_wf boot /\
  (context_open MEval ;; intern_source e2_src) boot = ROk tt (wit_opened e2_src boot) /\
  wit_built e2_src boot = RErr EDivZero None (wit_state (wit_built e2_src boot)) /\
  calls_bad wit_fo wit_pr wit_rf (length (dict boot)) wit_fuel
            (length (nested (wit_opened e2_src boot))) (wit_opened e2_src boot) = false /\
  eval wit_fo wit_pr wit_rf wit_fuel e2_src boot = RErr EDivZero None (wit_unwound e2_src boot) /\
  dict_entry (wit_unwound e2_src boot) "f" = None /\
  same_machine boot (wit_unwound e2_src boot).
Proof.
  split; [apply wf_b_sound; vm_compute; reflexivity|].
  unfold same_machine. vm_compute. repeat split; reflexivity.
Qed.
Check C10_enum_close_repaired :
  build_wf boot /\
  (context_open MEval ;; intern_source e2_src) boot = ROk tt (wit_opened e2_src boot) /\
  wit_built e2_src boot = RErr EDivZero None (wit_state (wit_built e2_src boot)) /\
  calls_bad wit_fo wit_pr wit_rf (length (dict boot)) wit_fuel
            (length (nested (wit_opened e2_src boot))) (wit_opened e2_src boot) = false /\
  eval wit_fo wit_pr wit_rf wit_fuel e2_src boot = RErr EDivZero None (wit_unwound e2_src boot) /\
  dict_entry (wit_unwound e2_src boot) "f" = None /\
  same_machine boot (wit_unwound e2_src boot).
