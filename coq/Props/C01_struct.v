(* C01 (structural side) - the evaluator [sblock]/[sstmt] and the parser [pseq] of Model/Struct.v.
   Property theorems only; each is closed by [exact] of a lemma proved in Proofs/Struct*.v, or follows
   in a few lines from the lemmas there.
   (The simulation of the evaluator by the VM running the compiled layout is proved elsewhere;
   these are the facts about evaluator and parser themselves that transfer through it.)

   Vocabulary
   - [sblock fo funs fuel b s], [sstmt fo funs fuel x s]: structural evaluation; results
     [SDone s'] (ran to the end), [SBroke s'] (stopped at a `break` of an enclosing loop),
     [SFail k payload pos s'] (error), [SOut] (fuel exhausted), [SUnsup] (outside the model).
   - [do_iter body pl k s] (Proofs/StructBase.v): the local fixpoint [iter] of the [SDo] case, the
     trips of a counted loop whose record is on the loop stack; [case_go blk dflt arms s]: the
     local fixpoint [go] of the [SCase] case.  C01_do_is_do_iter / C01_case_is_case_go connect them.
   - [fin r]: [Some s'] when [r] is [SDone s'] or [SBroke s'], else [None].
   - [lkey l = (l_start l, l_end l)]: index and limit of a loop record (what I / J / K and `loop` read
     of a counted loop; the third field [l_items] is the collection of a foreach loop).
   - [nfe_block b], [nfe_funs funs]: the block / every function body does not name the native word
     "%foreach-next" (the ONLY native word that writes into a loop record: it sets [l_items]).
   - [has_own_break x]: [x] can stop at a `break` that belongs to a loop around [x]: an [SBreak], or
     one inside if / else / case / until inside [x] (repeat, while, do catch their own).
     [funs_nobreak funs]: no function body has one.  The parser guarantees both
     (C01_parse_source_no_stray_break).
   - [rs_sim a b]: same frames below the top, and the top frame is the same activation (its locals may
     differ: `local` writes them).  [no_local_block b]: no [SLocSet] in [b] (calls not followed).
   - [trips body n s]: n times (evaluate the body to its end, then the increment of `loop`).
   - [no_result r]: [r] is neither [SDone] nor [SBroke]; [stops r]: [r] is [SBroke], [SFail] or [SUnsup].
   - [kext], [pinv] (Proofs/StructParse.v): the parser invariant. *)
From Xeh Require Import Model.Prelude Model.Bits Model.Codec Model.Cell Model.Lexer Model.Fmt
                        Model.Vm Model.Words Model.Struct Model.Boot.
From Xeh Require Import Proofs.StructBase Proofs.StructFuel Proofs.StructNat Proofs.StructInv
                        Proofs.StructLoops Proofs.StructRs Proofs.StructSize Proofs.StructDo
                        Proofs.StructNonterm Proofs.StructSeq Proofs.StructParse Proofs.StructSource
                        Proofs.StructExamples.
Local Notation length := List.length.

(* 1. fuel monotonicity, determinism *)
Theorem C01_block_fuel_monotone : forall fo funs f l s r,
  sblock fo funs f l s = r -> r <> SOut -> forall f', f <= f' -> sblock fo funs f' l s = r.
Proof. exact sblock_fuel_mono. Qed.
Check C01_block_fuel_monotone : forall fo funs f l s r,
  sblock fo funs f l s = r -> r <> SOut -> forall f', f <= f' -> sblock fo funs f' l s = r.

Theorem C01_stmt_fuel_monotone : forall fo funs f x s r,
  sstmt fo funs f x s = r -> r <> SOut -> forall f', f <= f' -> sstmt fo funs f' x s = r.
Proof. intros fo funs f x s r H N f' Hf. subst r. apply sle_eq; [ apply sstmt_sle; assumption | assumption ]. Qed.
Check C01_stmt_fuel_monotone : forall fo funs f x s r,
  sstmt fo funs f x s = r -> r <> SOut -> forall f', f <= f' -> sstmt fo funs f' x s = r.

(* the local fixpoints of the SDo and SCase cases, under their names *)
Theorem C01_do_is_do_iter : forall fo funs f p b pl s,
  sstmt fo funs (S f) (SDo p b pl) s =
  run_m do_init p s (fun l s1 =>
    if (l_end l <=? l_start l)%Z then SDone s1
    else run_m (push_loop l) p s1 (fun _ s2 => do_iter (sblock fo funs f b) pl f s2)).
Proof. exact sstmt_SDo. Qed.
Check C01_do_is_do_iter : forall fo funs f p b pl s,
  sstmt fo funs (S f) (SDo p b pl) s =
  run_m do_init p s (fun l s1 =>
    if (l_end l <=? l_start l)%Z then SDone s1
    else run_m (push_loop l) p s1 (fun _ s2 => do_iter (sblock fo funs f b) pl f s2)).

Theorem C01_case_is_case_go : forall fo funs f arms dflt s,
  sstmt fo funs (S f) (SCase arms dflt) s = case_go (sblock fo funs f) dflt arms s.
Proof. exact sstmt_SCase. Qed.
Check C01_case_is_case_go : forall fo funs f arms dflt s,
  sstmt fo funs (S f) (SCase arms dflt) s = case_go (sblock fo funs f) dflt arms s.

Theorem C01_do_trips_fuel_monotone : forall fo funs b pl f k s r,
  do_iter (sblock fo funs f b) pl k s = r -> r <> SOut ->
  forall f' k', f <= f' -> k <= k' -> do_iter (sblock fo funs f' b) pl k' s = r.
Proof.
  intros fo funs b pl f k s r H N f' k' Hf Hk. subst r. apply sle_eq; [ | assumption ].
  apply do_iter_sle; [ | assumption ]. intro s0. apply sblock_sle. assumption.
Qed.
Check C01_do_trips_fuel_monotone : forall fo funs b pl f k s r,
  do_iter (sblock fo funs f b) pl k s = r -> r <> SOut ->
  forall f' k', f <= f' -> k <= k' -> do_iter (sblock fo funs f' b) pl k' s = r.

Theorem C01_case_arms_fuel_monotone : forall fo funs dflt arms f s r,
  case_go (sblock fo funs f) dflt arms s = r -> r <> SOut ->
  forall f', f <= f' -> case_go (sblock fo funs f') dflt arms s = r.
Proof.
  intros fo funs dflt arms f s r H N f' Hf. subst r. apply sle_eq; [ | assumption ].
  apply case_go_sle. intros l s0. apply sblock_sle. assumption.
Qed.
Check C01_case_arms_fuel_monotone : forall fo funs dflt arms f s r,
  case_go (sblock fo funs f) dflt arms s = r -> r <> SOut ->
  forall f', f <= f' -> case_go (sblock fo funs f') dflt arms s = r.

(* hence the result, when there is one, does not depend on the fuel *)
Theorem C01_block_result_unique : forall fo funs f1 f2 l s r1 r2,
  sblock fo funs f1 l s = r1 -> r1 <> SOut -> sblock fo funs f2 l s = r2 -> r2 <> SOut -> r1 = r2.
Proof. intros fo funs f1 f2 l s. apply (sle_unique (fun f => sblock fo funs f l s)). intros. apply sblock_sle. assumption. Qed.
Check C01_block_result_unique : forall fo funs f1 f2 l s r1 r2,
  sblock fo funs f1 l s = r1 -> r1 <> SOut -> sblock fo funs f2 l s = r2 -> r2 <> SOut -> r1 = r2.

Theorem C01_stmt_result_unique : forall fo funs f1 f2 x s r1 r2,
  sstmt fo funs f1 x s = r1 -> r1 <> SOut -> sstmt fo funs f2 x s = r2 -> r2 <> SOut -> r1 = r2.
Proof. intros fo funs f1 f2 x s. apply (sle_unique (fun f => sstmt fo funs f x s)). intros. apply sstmt_sle. assumption. Qed.
Check C01_stmt_result_unique : forall fo funs f1 f2 x s r1 r2,
  sstmt fo funs f1 x s = r1 -> r1 <> SOut -> sstmt fo funs f2 x s = r2 -> r2 <> SOut -> r1 = r2.

Theorem C01_out_of_fuel_downward : forall fo funs f f' l s,
  f' <= f -> sblock fo funs f l s = SOut -> sblock fo funs f' l s = SOut.
Proof.
  intros fo funs f f' l s Hf H. destruct (sblock_sle fo funs f' f l s Hf) as [E | E]; [ assumption | ].
  rewrite <- E. assumption.
Qed.
Check C01_out_of_fuel_downward : forall fo funs f f' l s,
  f' <= f -> sblock fo funs f l s = SOut -> sblock fo funs f' l s = SOut.

(* non-vacuity: the example program (definitions with a local, a redefinition, begin/repeat left by break, nested counted loops with J I) has a result with fuel 40, and not with fuel 5 *)
Example C01_fuel_example : res_ds (sblock xfo ex_funs 40 ex_body boot) =
  Some [CInt 2; CInt 1; CInt 1; CInt 1; CInt 0; CInt 1; CInt 2; CInt 0; CInt 1; CInt 0; CInt 0; CInt 0; CInt 83521]
  /\ sblock xfo ex_funs 5 ex_body boot = SOut.
Proof. split; vm_compute; reflexivity. Qed.

(* 2. loop-index and return-stack hygiene *)
(* every native word keeps the return stack, the context marks, and index and limit of every loop record;
   every native word except "%foreach-next" keeps the loop stack literally; in the success state and in the error state.
   ([rkeeps fe s r] unfolds to: for the state s' of [r], rs s' = rs s /\ cx s' = cx s /\
    map lkey (loops s') = map lkey (loops s) /\ (fe = false -> loops s' = loops s);  [may_set_items w] is [w =? "%foreach-next"]) *)
Theorem C01_native_words_keep_control_stacks : forall fo w f s,
  native_fn fo w = Some f -> rkeeps (may_set_items w) s (f s).
Proof. exact native_keeps. Qed.
Check C01_native_words_keep_control_stacks : forall fo w f s,
  native_fn fo w = Some f -> rkeeps (may_set_items w) s (f s).

(* finding (by design of foreach): "%foreach-next" is a native word, the grammar accepts it as a plain word, and it writes the items field of the innermost loop record *)
Example C01_foreach_next_writes_loop_record : match native_fn xfo "%foreach-next"%string with
  | Some m => match m ex_foreach_state with
              | ROk _ s' => (loops ex_foreach_state, loops s')
              | _ => ([], [])
              end
  | None => ([], [])
  end = ([mkloop CNil 0 3], [mkloop (CVec [CInt 7]) 0 3]).
Proof. vm_compute. reflexivity. Qed.

(* index and limit of every loop record and the context marks: EVERY program, both ways of leaving a block *)
Theorem C01_loop_keys_block : forall fo funs f b s s',
  sblock fo funs f b s = SDone s' \/ sblock fo funs f b s = SBroke s' ->
  cx s' = cx s /\ map lkey (loops s') = map lkey (loops s).
Proof. exact loop_keys_block. Qed.
Check C01_loop_keys_block : forall fo funs f b s s',
  sblock fo funs f b s = SDone s' \/ sblock fo funs f b s = SBroke s' ->
  cx s' = cx s /\ map lkey (loops s') = map lkey (loops s).

Theorem C01_loop_keys_stmt : forall fo funs f x s s',
  sstmt fo funs f x s = SDone s' \/ sstmt fo funs f x s = SBroke s' ->
  cx s' = cx s /\ map lkey (loops s') = map lkey (loops s).
Proof. exact loop_keys_stmt. Qed.
Check C01_loop_keys_stmt : forall fo funs f x s s',
  sstmt fo funs f x s = SDone s' \/ sstmt fo funs f x s = SBroke s' ->
  cx s' = cx s /\ map lkey (loops s') = map lkey (loops s).

(* the loop stack itself, for programs that do not use "%foreach-next" *)
Theorem C01_loops_block : forall fo funs f b s s',
  nfe_funs funs -> nfe_block b = true ->
  sblock fo funs f b s = SDone s' \/ sblock fo funs f b s = SBroke s' ->
  loops s' = loops s.
Proof.
  intros fo funs f b s s' Hf Hb H. apply fin_of_or in H.
  apply (proj1 (loops_hygiene fo funs false Hf f) b s Hb) in H as (_ & _ & X). apply X. reflexivity.
Qed.
Check C01_loops_block : forall fo funs f b s s',
  nfe_funs funs -> nfe_block b = true ->
  sblock fo funs f b s = SDone s' \/ sblock fo funs f b s = SBroke s' ->
  loops s' = loops s.

Theorem C01_loops_stmt : forall fo funs f x s s',
  nfe_funs funs -> nfe_stmt x = true ->
  sstmt fo funs f x s = SDone s' \/ sstmt fo funs f x s = SBroke s' ->
  loops s' = loops s.
Proof. exact loops_stmt. Qed.
Check C01_loops_stmt : forall fo funs f x s s',
  nfe_funs funs -> nfe_stmt x = true ->
  sstmt fo funs f x s = SDone s' \/ sstmt fo funs f x s = SBroke s' ->
  loops s' = loops s.

(* a terminated counted loop leaves no loop index visible to later code: the active loops after it are the active loops before it *)
Theorem C01_do_leaves_no_index : forall fo funs f p b pl s s',
  sstmt fo funs f (SDo p b pl) s = SDone s' ->
  map lkey (active_loops s') = map lkey (active_loops s).
Proof. exact do_leaves_no_index. Qed.
Check C01_do_leaves_no_index : forall fo funs f p b pl s s',
  sstmt fo funs f (SDo p b pl) s = SDone s' ->
  map lkey (active_loops s') = map lkey (active_loops s).

Theorem C01_do_leaves_no_index_exact : forall fo funs f p b pl s s',
  nfe_funs funs -> nfe_block b = true ->
  sstmt fo funs f (SDo p b pl) s = SDone s' ->
  active_loops s' = active_loops s.
Proof.
  intros fo funs f p b pl s s' Hf Hb H.
  assert (Hx : nfe_stmt (SDo p b pl) = true).
  { unfold nfe_stmt. rewrite all_stmt_SDo. exact Hb. }
  pose proof (loops_stmt fo funs f _ s s' Hf Hx (or_introl H)) as L.
  destruct (loop_keys_stmt fo funs f _ s s' (or_introl H)) as [C _].
  unfold active_loops. rewrite L, C. reflexivity.
Qed.
Check C01_do_leaves_no_index_exact : forall fo funs f p b pl s s',
  nfe_funs funs -> nfe_block b = true ->
  sstmt fo funs f (SDo p b pl) s = SDone s' ->
  active_loops s' = active_loops s.

(* I / J / K are [w_counter 0/1/2]; after a counted loop entered with fewer than n+1 active loops the n-th index word still finds none *)
Theorem C01_index_words : forall fo,
  native_fn fo "I"%string = Some (w_counter 0) /\ native_fn fo "J"%string = Some (w_counter 1) /\
  native_fn fo "K"%string = Some (w_counter 2).
Proof. exact (fun fo => conj (native_I fo) (conj (native_J fo) (native_K fo))). Qed.
Check C01_index_words : forall fo,
  native_fn fo "I"%string = Some (w_counter 0) /\ native_fn fo "J"%string = Some (w_counter 1) /\
  native_fn fo "K"%string = Some (w_counter 2).

Theorem C01_index_word_after_do : forall fo funs f p b pl s s' n,
  sstmt fo funs f (SDo p b pl) s = SDone s' ->
  nth_error (active_loops s) n = None ->
  w_counter n s' = RErr ELoopUnderflow None s'.
Proof.
  intros fo funs f p b pl s s' n H N. apply w_counter_no_loop.
  rewrite (do_leaves_no_index fo funs f p b pl s s' H).
  rewrite nth_error_map, N. reflexivity.
Qed.
Check C01_index_word_after_do : forall fo funs f p b pl s s' n,
  sstmt fo funs f (SDo p b pl) s = SDone s' ->
  nth_error (active_loops s) n = None ->
  w_counter n s' = RErr ELoopUnderflow None s'.

(* where a break can come from: a block without a break at its own level never stops at a break *)
Theorem C01_no_own_break_never_broke : forall fo funs, funs_nobreak funs ->
  forall f b s s', has_own_break_block b = false -> sblock fo funs f b s <> SBroke s'.
Proof. exact nobreak_block. Qed.
Check C01_no_own_break_never_broke : forall fo funs, funs_nobreak funs ->
  forall f b s s', has_own_break_block b = false -> sblock fo funs f b s <> SBroke s'.

Theorem C01_call_never_broke : forall fo funs, funs_nobreak funs ->
  forall f g p s s', sstmt fo funs f (SCall g p) s <> SBroke s'.
Proof. intros fo funs Hnb f g p s s'. apply (nobreak_stmt fo funs Hnb). reflexivity. Qed.
Check C01_call_never_broke : forall fo funs, funs_nobreak funs ->
  forall f g p s s', sstmt fo funs f (SCall g p) s <> SBroke s'.

(* the return stack: up to the locals of the current frame for every block; exactly for a block that declares no local; exactly for a call (the caller's locals are untouched) *)
Theorem C01_rs_block : forall fo funs, funs_nobreak funs ->
  forall f b s s', fin (sblock fo funs f b s) = Some s' -> cx s' = cx s /\ rs_sim (rs s) (rs s').
Proof. exact rs_hygiene_block. Qed.
Check C01_rs_block : forall fo funs, funs_nobreak funs ->
  forall f b s s', fin (sblock fo funs f b s) = Some s' -> cx s' = cx s /\ rs_sim (rs s) (rs s').

Theorem C01_rs_exact_block : forall fo funs, funs_nobreak funs ->
  forall f b s s', no_local_block b = true -> fin (sblock fo funs f b s) = Some s' ->
  cx s' = cx s /\ rs s' = rs s.
Proof. exact rs_exact_block. Qed.
Check C01_rs_exact_block : forall fo funs, funs_nobreak funs ->
  forall f b s s', no_local_block b = true -> fin (sblock fo funs f b s) = Some s' ->
  cx s' = cx s /\ rs s' = rs s.

Theorem C01_call_keeps_return_stack : forall fo funs, funs_nobreak funs ->
  forall f g p s s', sstmt fo funs f (SCall g p) s = SDone s' -> rs s' = rs s /\ cx s' = cx s.
Proof.
  intros fo funs Hnb f g p s s' H. destruct f as [| f]; [ discriminate | ].
  destruct (rs_call_gen fo funs Hnb f g p s) with (s' := s') as [C Rs]; [ | rewrite H; reflexivity | split; assumption ].
  intros body s1 _ s2. apply (rs_hygiene_block fo funs Hnb).
Qed.
Check C01_call_keeps_return_stack : forall fo funs, funs_nobreak funs ->
  forall f g p s s', sstmt fo funs f (SCall g p) s = SDone s' -> rs s' = rs s /\ cx s' = cx s.

(* [rs s' = rs s] for ANY block is false: `local` writes the locals of the current frame (by design) *)
Example C01_local_writes_current_frame : match sstmt xfo [] 3 (SLocSet 0 p0) ex_frame_state with
  | SDone s' => (rs ex_frame_state, rs s')
  | _ => ([], [])
  end = ([mkframe 0 0 []], [mkframe 0 0 [CInt 9]]).
Proof. vm_compute. reflexivity. Qed.

(* the hypothesis [funs_nobreak] is needed (evaluator level only; the parser never produces such a table): a break inside a function body leaves the call with the callee's frame still pushed *)
Example C01_break_escapes_call_in_unparsed_table : match sstmt xfo [(0, [SBreak])] 5 (SCall 0 p0) boot with
  | SBroke s' => Some (rs s')
  | _ => None
  end = Some [mkframe 0 0 []].
Proof. vm_compute. reflexivity. Qed.

(* non-vacuity of the hygiene hypotheses on the example program, and what it leaves *)
Example C01_hygiene_example : nfe_block ex_body = true /\
  forallb (fun gb => nfe_block (snd gb)) ex_funs = true /\
  forallb (fun gb => negb (has_own_break_block (snd gb))) ex_funs = true /\
  has_own_break_block ex_body = false /\
  res_stacks (sblock xfo ex_funs 40 ex_body boot) = Some ([], []).
Proof. repeat split; vm_compute; reflexivity. Qed.

Theorem C01_check_funs_all : forall P funs,
  forallb (fun gb => all_block P (snd gb)) funs = true -> funs_all P funs.
Proof.
  intros P funs H g body E. apply fun_body_In in E.
  rewrite forallb_forall in H. apply (H (g, body) E).
Qed.
Check C01_check_funs_all : forall P funs,
  forallb (fun gb => all_block P (snd gb)) funs = true -> funs_all P funs.

Theorem C01_check_funs_nobreak : forall funs,
  forallb (fun gb => negb (has_own_break_block (snd gb))) funs = true -> funs_nobreak funs.
Proof.
  intros funs H g body E. apply fun_body_In in E.
  rewrite forallb_forall in H. specialize (H (g, body) E). cbn [snd] in H.
  apply negb_true_iff in H. exact H.
Qed.
Check C01_check_funs_nobreak : forall funs,
  forallb (fun gb => negb (has_own_break_block (snd gb))) funs = true -> funs_nobreak funs.

(* 7a. sizes of the layout *)
Theorem C01_size_block_app : forall b1 b2, size_block (b1 ++ b2) = size_block b1 + size_block b2.
Proof. exact size_block_app. Qed.
Check C01_size_block_app : forall b1 b2, size_block (b1 ++ b2) = size_block b1 + size_block b2.

Theorem C01_lay_block_length : forall faddr b org bc, length (lay_block faddr b org bc) = size_block b.
Proof. exact CompileLayout.lay_block_length. Qed.
Check C01_lay_block_length : forall faddr b org bc, length (lay_block faddr b org bc) = size_block b.

Theorem C01_lay_stmt_length : forall faddr x org bc, length (lay_stmt faddr x org bc) = size_stmt x.
Proof. exact CompileLayout.lay_stmt_length. Qed.
Check C01_lay_stmt_length : forall faddr x org bc, length (lay_stmt faddr x org bc) = size_stmt x.

Theorem C01_lay_block_app : forall faddr b1 b2 org bc,
  lay_block faddr (b1 ++ b2) org bc =
  lay_block faddr b1 org bc ++ lay_block faddr b2 (org + size_block b1) bc.
Proof. exact lay_block_app. Qed.
Check C01_lay_block_app : forall faddr b1 b2 org bc,
  lay_block faddr (b1 ++ b2) org bc =
  lay_block faddr b1 org bc ++ lay_block faddr b2 (org + size_block b1) bc.

Example C01_lay_example : length (lay_block (fun _ => 0) ex_body 0 BNone) = 21 /\ size_block ex_body = 21.
Proof. split; vm_compute; reflexivity. Qed.

(* 3. zero trips, limit - start trips *)
(* limit <= start: the state after reading the limits, for every body and every fuel: the body is not evaluated *)
Theorem C01_do_zero_trip : forall fo funs f p b pl s l s1,
  do_init s = ROk l s1 -> (l_end l <= l_start l)%Z ->
  sstmt fo funs (S f) (SDo p b pl) s = SDone s1.
Proof. exact do_zero_trip. Qed.
Check C01_do_zero_trip : forall fo funs f p b pl s l s1,
  do_init s = ROk l s1 -> (l_end l <= l_start l)%Z ->
  sstmt fo funs (S f) (SDo p b pl) s = SDone s1.

Theorem C01_do_limits_unreadable : forall fo funs f p b pl s k pay s1,
  do_init s = RErr k pay s1 -> sstmt fo funs (S f) (SDo p b pl) s = SFail k pay p s1.
Proof. intros. rewrite sstmt_SDo. eapply run_m_err; eauto. Qed.
Check C01_do_limits_unreadable : forall fo funs f p b pl s k pay s1,
  do_init s = RErr k pay s1 -> sstmt fo funs (S f) (SDo p b pl) s = SFail k pay p s1.

(* start < limit and the body runs to its end each time: exactly limit - start evaluations of the body, then the record (whose index has reached the limit) is popped *)
Theorem C01_do_exact_trips : forall fo funs f p b pl s l s1 s2 n s4,
  do_init s = ROk l s1 -> (l_start l < l_end l)%Z -> push_loop l s1 = ROk tt s2 ->
  n = Z.to_nat (l_end l - l_start l) -> n <= f ->
  trips (sblock fo funs f b) n s2 = Some s4 ->
  exists l5 s5, pop_loop s4 = ROk l5 s5 /\ l_start l5 = l_end l /\ l_end l5 = l_end l /\
                sstmt fo funs (S f) (SDo p b pl) s = SDone s5.
Proof. exact do_exact_trips. Qed.
Check C01_do_exact_trips : forall fo funs f p b pl s l s1 s2 n s4,
  do_init s = ROk l s1 -> (l_start l < l_end l)%Z -> push_loop l s1 = ROk tt s2 ->
  n = Z.to_nat (l_end l - l_start l) -> n <= f ->
  trips (sblock fo funs f b) n s2 = Some s4 ->
  exists l5 s5, pop_loop s4 = ROk l5 s5 /\ l_start l5 = l_end l /\ l_end l5 = l_end l /\
                sstmt fo funs (S f) (SDo p b pl) s = SDone s5.

(* the index that the (i+1)-th evaluation of the body finds on top of the loop stack is start + i *)
Theorem C01_do_trip_index : forall fo funs f b l s1 s2 i si,
  push_loop l s1 = ROk tt s2 -> (Z.of_nat i <= l_end l - l_start l)%Z ->
  trips (sblock fo funs f b) i s2 = Some si ->
  exists li ri, loops si = li :: ri /\ l_start li = (l_start l + Z.of_nat i)%Z /\ l_end li = l_end l.
Proof.
  intros fo funs f b l s1 s2 i si Ep Hi Ht. apply push_loop_ok in Ep as (L2 & _ & _).
  destruct (trips_state _ (loop_keys_block fo funs f b) i s2 l _ si L2 Hi Ht) as (_ & _ & li & ri & E & S & L & _).
  exists li, ri. auto.
Qed.
Check C01_do_trip_index : forall fo funs f b l s1 s2 i si,
  push_loop l s1 = ROk tt s2 -> (Z.of_nat i <= l_end l - l_start l)%Z ->
  trips (sblock fo funs f b) i s2 = Some si ->
  exists li ri, loops si = li :: ri /\ l_start li = (l_start l + Z.of_nat i)%Z /\ l_end li = l_end l.

Example C01_do_trips_example : (match do_init ex_do_state with
   | ROk l s1 =>
     (l_start l <? l_end l)%Z &&
     match push_loop l s1 with
     | ROk _ s2 =>
       match trips (sblock xfo [] 10 [SPrim "I"%string p0]) (Z.to_nat (l_end l - l_start l)) s2 with
       | Some s4 => match ds s4 with [CInt 2; CInt 1; CInt 0] => true | _ => false end
       | None => false
       end
     | _ => false
     end
   | _ => false
   end = true) /\
  (match do_init ex_do_zero_state with ROk l _ => (l_end l <=? l_start l)%Z | _ => false end = true).
Proof. split; vm_compute; reflexivity. Qed.

(* 4. loops that never terminate never fall through *)
(* begin ... repeat whose body never stops at a break: never SDone (nor SBroke), for every fuel and state *)
Theorem C01_repeat_never_done : forall fo funs b,
  (forall f s s', sblock fo funs f b s <> SBroke s') ->
  forall f s s', sstmt fo funs f (SRepeat b) s <> SDone s'.
Proof. exact repeat_never_done. Qed.
Check C01_repeat_never_done : forall fo funs b,
  (forall f s s', sblock fo funs f b s <> SBroke s') ->
  forall f s s', sstmt fo funs f (SRepeat b) s <> SDone s'.

(* syntactic sufficient condition: no break at the loop's own level *)
Theorem C01_repeat_no_break_no_result : forall fo funs b,
  funs_nobreak funs -> has_own_break_block b = false ->
  forall f s, no_result (sstmt fo funs f (SRepeat b) s).
Proof. intros fo funs b Hf Hb. apply repeat_no_result. intros f s s'. apply nobreak_block; assumption. Qed.
Check C01_repeat_no_break_no_result : forall fo funs b,
  funs_nobreak funs -> has_own_break_block b = false ->
  forall f s, no_result (sstmt fo funs f (SRepeat b) s).

(* if moreover the body always runs to its end (on an invariant set of states): out of fuel for every fuel *)
Theorem C01_repeat_diverges : forall fo funs b (Inv : state -> Prop),
  (forall f s, Inv s -> sblock fo funs f b s = SOut \/ exists s', sblock fo funs f b s = SDone s' /\ Inv s') ->
  forall f s, Inv s -> sstmt fo funs f (SRepeat b) s = SOut.
Proof. exact repeat_diverges. Qed.
Check C01_repeat_diverges : forall fo funs b (Inv : state -> Prop),
  (forall f s, Inv s -> sblock fo funs f b s = SOut \/ exists s', sblock fo funs f b s = SDone s' /\ Inv s') ->
  forall f s, Inv s -> sstmt fo funs f (SRepeat b) s = SOut.

(* begin ... until whose condition is never true *)
Theorem C01_until_never_done : forall fo funs b p,
  (forall f s s1 s2, sblock fo funs f b s = SDone s1 -> m_test s1 <> ROk true s2) ->
  forall f s s', sstmt fo funs f (SUntil b p) s <> SDone s'.
Proof. exact until_never_done. Qed.
Check C01_until_never_done : forall fo funs b p,
  (forall f s s1 s2, sblock fo funs f b s = SDone s1 -> m_test s1 <> ROk true s2) ->
  forall f s s', sstmt fo funs f (SUntil b p) s <> SDone s'.

Theorem C01_until_no_result : forall fo funs b p,
  funs_nobreak funs -> has_own_break_block b = false ->
  (forall f s s1 s2, sblock fo funs f b s = SDone s1 -> m_test s1 <> ROk true s2) ->
  forall f s, no_result (sstmt fo funs f (SUntil b p) s).
Proof.
  intros fo funs b p Hf Hb Hc f s. destruct (sstmt fo funs f (SUntil b p) s) eqn:E; cbn; auto.
  - eapply until_never_done; eauto.
  - eapply (nobreak_stmt fo funs Hf); [ | exact E ]. rewrite has_own_break_SUntil. exact Hb.
Qed.
Check C01_until_no_result : forall fo funs b p,
  funs_nobreak funs -> has_own_break_block b = false ->
  (forall f s s1 s2, sblock fo funs f b s = SDone s1 -> m_test s1 <> ROk true s2) ->
  forall f s, no_result (sstmt fo funs f (SUntil b p) s).

Theorem C01_until_diverges : forall fo funs b p (Inv : state -> Prop),
  (forall f s, Inv s ->
     sblock fo funs f b s = SOut \/
     exists s1 s2, sblock fo funs f b s = SDone s1 /\ m_test s1 = ROk false s2 /\ Inv s2) ->
  forall f s, Inv s -> sstmt fo funs f (SUntil b p) s = SOut.
Proof. exact until_diverges. Qed.
Check C01_until_diverges : forall fo funs b p (Inv : state -> Prop),
  (forall f s, Inv s ->
     sblock fo funs f b s = SOut \/
     exists s1 s2, sblock fo funs f b s = SDone s1 /\ m_test s1 = ROk false s2 /\ Inv s2) ->
  forall f s, Inv s -> sstmt fo funs f (SUntil b p) s = SOut.

(* begin ... while ... repeat whose condition is never false *)
Theorem C01_while_never_done : forall fo funs c p b,
  (forall f s s', sblock fo funs f c s <> SBroke s') ->
  (forall f s s', sblock fo funs f b s <> SBroke s') ->
  (forall f s s1 s2, sblock fo funs f c s = SDone s1 -> m_test s1 <> ROk false s2) ->
  forall f s s', sstmt fo funs f (SWhile c p b) s <> SDone s'.
Proof. exact while_never_done. Qed.
Check C01_while_never_done : forall fo funs c p b,
  (forall f s s', sblock fo funs f c s <> SBroke s') ->
  (forall f s s', sblock fo funs f b s <> SBroke s') ->
  (forall f s s1 s2, sblock fo funs f c s = SDone s1 -> m_test s1 <> ROk false s2) ->
  forall f s s', sstmt fo funs f (SWhile c p b) s <> SDone s'.

Theorem C01_while_no_result : forall fo funs c p b,
  funs_nobreak funs -> has_own_break_block c = false -> has_own_break_block b = false ->
  (forall f s s1 s2, sblock fo funs f c s = SDone s1 -> m_test s1 <> ROk false s2) ->
  forall f s, no_result (sstmt fo funs f (SWhile c p b) s).
Proof.
  intros fo funs c p b Hf Hc Hb Ht f s. destruct (sstmt fo funs f (SWhile c p b) s) eqn:E; cbn; auto.
  - eapply while_never_done; eauto; intros; apply nobreak_block; assumption.
  - eapply loop_never_broke; [ | exact E ]. reflexivity.
Qed.
Check C01_while_no_result : forall fo funs c p b,
  funs_nobreak funs -> has_own_break_block c = false -> has_own_break_block b = false ->
  (forall f s s1 s2, sblock fo funs f c s = SDone s1 -> m_test s1 <> ROk false s2) ->
  forall f s, no_result (sstmt fo funs f (SWhile c p b) s).

Theorem C01_while_diverges : forall fo funs c p b (Inv : state -> Prop),
  (forall f s, Inv s ->
     sblock fo funs f c s = SOut \/
     exists s1 s2, sblock fo funs f c s = SDone s1 /\ m_test s1 = ROk true s2 /\
                   (sblock fo funs f b s2 = SOut \/ exists s3, sblock fo funs f b s2 = SDone s3 /\ Inv s3)) ->
  forall f s, Inv s -> sstmt fo funs f (SWhile c p b) s = SOut.
Proof. exact while_diverges. Qed.
Check C01_while_diverges : forall fo funs c p b (Inv : state -> Prop),
  (forall f s, Inv s ->
     sblock fo funs f c s = SOut \/
     exists s1 s2, sblock fo funs f c s = SDone s1 /\ m_test s1 = ROk true s2 /\
                   (sblock fo funs f b s2 = SOut \/ exists s3, sblock fo funs f b s2 = SDone s3 /\ Inv s3)) ->
  forall f s, Inv s -> sstmt fo funs f (SWhile c p b) s = SOut.

(* never falls through: the statements after such a loop are not evaluated; the block's result is the loop's *)
Theorem C01_block_stops_at_no_result : forall fo funs f x r s,
  no_result (sstmt fo funs f x s) -> sblock fo funs (S f) (x :: r) s = sstmt fo funs f x s.
Proof.
  intros fo funs f x r s H. rewrite sblock_cons.
  destruct (sstmt fo funs f x s); cbn in *; try contradiction; reflexivity.
Qed.
Check C01_block_stops_at_no_result : forall fo funs f x r s,
  no_result (sstmt fo funs f x s) -> sblock fo funs (S f) (x :: r) s = sstmt fo funs f x s.

(* non-vacuity: `begin 1 drop repeat`, `begin false until`, `begin true while repeat` from the boot state *)
Example C01_repeat_diverges_example : forall f, sstmt xfo [] f (SRepeat ex_spin_body) boot = SOut.
Proof. intro f. apply (repeat_diverges xfo [] ex_spin_body (fun s => s = boot) ex_spin_inv). reflexivity. Qed.

Example C01_until_diverges_example : forall f, sstmt xfo [] f (SUntil ex_until_body p0) boot = SOut.
Proof. intro f. apply (until_diverges xfo [] ex_until_body p0 (fun s => s = boot) ex_until_inv). reflexivity. Qed.

Example C01_while_diverges_example : forall f, sstmt xfo [] f (SWhile ex_while_cond p0 []) boot = SOut.
Proof. intro f. apply (while_diverges xfo [] ex_while_cond p0 [] (fun s => s = boot) ex_while_inv). reflexivity. Qed.

Example C01_until_condition_example : forall f s s1 s2,
  sblock xfo [] f ex_until_body s = SDone s1 -> m_test s1 <> ROk true s2.
Proof. intros f s s1 s2 H E. discriminate (lit_flag_test _ _ _ _ _ _ _ _ _ H E). Qed.

Example C01_while_condition_example : forall f s s1 s2,
  sblock xfo [] f ex_while_cond s = SDone s1 -> m_test s1 <> ROk false s2.
Proof. intros f s s1 s2 H E. discriminate (lit_flag_test _ _ _ _ _ _ _ _ _ H E). Qed.

(* 5. break *)
Theorem C01_break_skips_rest : forall fo funs f x r s s1,
  sstmt fo funs f x s = SBroke s1 -> sblock fo funs (S f) (x :: r) s = SBroke s1.
Proof. intros fo funs f x r s s1 H. rewrite sblock_cons, H. reflexivity. Qed.
Check C01_break_skips_rest : forall fo funs f x r s s1,
  sstmt fo funs f x s = SBroke s1 -> sblock fo funs (S f) (x :: r) s = SBroke s1.

Theorem C01_break_through_if : forall fo funs f p t s s1 s2,
  m_test s = ROk true s1 -> sblock fo funs f t s1 = SBroke s2 -> sstmt fo funs (S f) (SIf p t) s = SBroke s2.
Proof. intros fo funs f p t s s1 s2 Et H. rewrite sstmt_SIf, (run_m_ok _ _ _ _ _ _ _ Et). exact H. Qed.
Check C01_break_through_if : forall fo funs f p t s s1 s2,
  m_test s = ROk true s1 -> sblock fo funs f t s1 = SBroke s2 -> sstmt fo funs (S f) (SIf p t) s = SBroke s2.

Theorem C01_break_through_if_else : forall fo funs f p t e s c s1 s2,
  m_test s = ROk c s1 -> sblock fo funs f (if c then t else e) s1 = SBroke s2 ->
  sstmt fo funs (S f) (SIfE p t e) s = SBroke s2.
Proof.
  intros fo funs f p t e s c s1 s2 Et H. rewrite sstmt_SIfE, (run_m_ok _ _ _ _ _ _ _ Et).
  destruct c; exact H.
Qed.
Check C01_break_through_if_else : forall fo funs f p t e s c s1 s2,
  m_test s = ROk c s1 -> sblock fo funs f (if c then t else e) s1 = SBroke s2 ->
  sstmt fo funs (S f) (SIfE p t e) s = SBroke s2.

(* case: whatever the body of the selected arm (or the default part) does is what the case does - SBroke included *)
Theorem C01_case_arm_selected : forall fo funs f pre pof body rest d s s1 s2 c s3,
  sblock fo funs f pre s = SDone s1 -> m_of s1 = ROk true s2 -> pop_data s2 = ROk c s3 ->
  sstmt fo funs (S f) (SCase ((pre, pof, body) :: rest) d) s = sblock fo funs f body s3.
Proof.
  intros fo funs f pre pof body rest d s s1 s2 c s3 E1 E2 E3.
  rewrite sstmt_SCase, case_go_cons, E1. cbn [on_res].
  rewrite (run_m_ok _ _ _ _ _ _ _ E2), (run_m_ok _ _ _ _ _ _ _ E3). reflexivity.
Qed.
Check C01_case_arm_selected : forall fo funs f pre pof body rest d s s1 s2 c s3,
  sblock fo funs f pre s = SDone s1 -> m_of s1 = ROk true s2 -> pop_data s2 = ROk c s3 ->
  sstmt fo funs (S f) (SCase ((pre, pof, body) :: rest) d) s = sblock fo funs f body s3.

Theorem C01_case_arm_skipped : forall fo funs f pre pof body rest d s s1 s2,
  sblock fo funs f pre s = SDone s1 -> m_of s1 = ROk false s2 ->
  sstmt fo funs (S f) (SCase ((pre, pof, body) :: rest) d) s = sstmt fo funs (S f) (SCase rest d) s2.
Proof.
  intros fo funs f pre pof body rest d s s1 s2 E1 E2.
  rewrite !sstmt_SCase, case_go_cons, E1. cbn [on_res].
  rewrite (run_m_ok _ _ _ _ _ _ _ E2). reflexivity.
Qed.
Check C01_case_arm_skipped : forall fo funs f pre pof body rest d s s1 s2,
  sblock fo funs f pre s = SDone s1 -> m_of s1 = ROk false s2 ->
  sstmt fo funs (S f) (SCase ((pre, pof, body) :: rest) d) s = sstmt fo funs (S f) (SCase rest d) s2.

Theorem C01_case_default : forall fo funs f d s, sstmt fo funs (S f) (SCase [] d) s = sblock fo funs f d s.
Proof. reflexivity. Qed.
Check C01_case_default : forall fo funs f d s, sstmt fo funs (S f) (SCase [] d) s = sblock fo funs f d s.

Theorem C01_break_in_case_selector : forall fo funs f pre pof body rest d s s1,
  sblock fo funs f pre s = SBroke s1 -> sstmt fo funs (S f) (SCase ((pre, pof, body) :: rest) d) s = SBroke s1.
Proof. intros. rewrite sstmt_SCase, case_go_cons, H. reflexivity. Qed.
Check C01_break_in_case_selector : forall fo funs f pre pof body rest d s s1,
  sblock fo funs f pre s = SBroke s1 -> sstmt fo funs (S f) (SCase ((pre, pof, body) :: rest) d) s = SBroke s1.

(* the nearest enclosing loop ends normally in the state of the break *)
Theorem C01_repeat_catches_break : forall fo funs f b s s1,
  sblock fo funs f b s = SBroke s1 -> sstmt fo funs (S f) (SRepeat b) s = SDone s1.
Proof. intros fo funs f b s s1 H. rewrite sstmt_SRepeat, H. reflexivity. Qed.
Check C01_repeat_catches_break : forall fo funs f b s s1,
  sblock fo funs f b s = SBroke s1 -> sstmt fo funs (S f) (SRepeat b) s = SDone s1.

Theorem C01_while_catches_break_in_body : forall fo funs f c p b s s1 s2 s3,
  sblock fo funs f c s = SDone s1 -> m_test s1 = ROk true s2 -> sblock fo funs f b s2 = SBroke s3 ->
  sstmt fo funs (S f) (SWhile c p b) s = SDone s3.
Proof.
  intros fo funs f c p b s s1 s2 s3 E1 E2 E3. rewrite sstmt_SWhile, E1. cbn [on_res].
  rewrite (run_m_ok _ _ _ _ _ _ _ E2), E3. reflexivity.
Qed.
Check C01_while_catches_break_in_body : forall fo funs f c p b s s1 s2 s3,
  sblock fo funs f c s = SDone s1 -> m_test s1 = ROk true s2 -> sblock fo funs f b s2 = SBroke s3 ->
  sstmt fo funs (S f) (SWhile c p b) s = SDone s3.

Theorem C01_while_catches_break_in_condition : forall fo funs f c p b s s1,
  sblock fo funs f c s = SBroke s1 -> sstmt fo funs (S f) (SWhile c p b) s = SDone s1.
Proof. intros fo funs f c p b s s1 H. rewrite sstmt_SWhile, H. reflexivity. Qed.
Check C01_while_catches_break_in_condition : forall fo funs f c p b s s1,
  sblock fo funs f c s = SBroke s1 -> sstmt fo funs (S f) (SWhile c p b) s = SDone s1.

(* until does not catch a break (the compiler refuses a break directly under until: C01_parse_source_no_stray_break) *)
Theorem C01_until_passes_break : forall fo funs f b p s s1,
  sblock fo funs f b s = SBroke s1 -> sstmt fo funs (S f) (SUntil b p) s = SBroke s1.
Proof. intros fo funs f b p s s1 H. rewrite sstmt_SUntil, H. reflexivity. Qed.
Check C01_until_passes_break : forall fo funs f b p s s1,
  sblock fo funs f b s = SBroke s1 -> sstmt fo funs (S f) (SUntil b p) s = SBroke s1.

(* a counted loop: after i complete trips (i < limit - start) the body stops at a break: the loop pops its own record and ends *)
Theorem C01_do_catches_break : forall fo funs f p b pl s l s1 s2 i si s3,
  do_init s = ROk l s1 -> push_loop l s1 = ROk tt s2 ->
  (Z.of_nat i < l_end l - l_start l)%Z -> i < f ->
  trips (sblock fo funs f b) i s2 = Some si -> sblock fo funs f b si = SBroke s3 ->
  sstmt fo funs (S f) (SDo p b pl) s = run_m pop_loop pl s3 (fun _ s4 => SDone s4).
Proof. exact do_catches_break. Qed.
Check C01_do_catches_break : forall fo funs f p b pl s l s1 s2 i si s3,
  do_init s = ROk l s1 -> push_loop l s1 = ROk tt s2 ->
  (Z.of_nat i < l_end l - l_start l)%Z -> i < f ->
  trips (sblock fo funs f b) i s2 = Some si -> sblock fo funs f b si = SBroke s3 ->
  sstmt fo funs (S f) (SDo p b pl) s = run_m pop_loop pl s3 (fun _ s4 => SDone s4).

Theorem C01_do_catches_break_done : forall fo funs f p b pl s l s1 s2 i si s3,
  ls_len (cx s) <= length (loops s) ->
  do_init s = ROk l s1 -> push_loop l s1 = ROk tt s2 ->
  (Z.of_nat i < l_end l - l_start l)%Z -> i < f ->
  trips (sblock fo funs f b) i s2 = Some si -> sblock fo funs f b si = SBroke s3 ->
  exists l4 s4, pop_loop s3 = ROk l4 s4 /\ sstmt fo funs (S f) (SDo p b pl) s = SDone s4 /\
                map lkey (loops s4) = map lkey (loops s) /\ cx s4 = cx s.
Proof. exact do_catches_break_done. Qed.
Check C01_do_catches_break_done : forall fo funs f p b pl s l s1 s2 i si s3,
  ls_len (cx s) <= length (loops s) ->
  do_init s = ROk l s1 -> push_loop l s1 = ROk tt s2 ->
  (Z.of_nat i < l_end l - l_start l)%Z -> i < f ->
  trips (sblock fo funs f b) i s2 = Some si -> sblock fo funs f b si = SBroke s3 ->
  exists l4 s4, pop_loop s3 = ROk l4 s4 /\ sstmt fo funs (S f) (SDo p b pl) s = SDone s4 /\
                map lkey (loops s4) = map lkey (loops s) /\ cx s4 = cx s.

(* the other trips of repeat / while / until *)
Theorem C01_repeat_next_trip : forall fo funs f b s s1,
  sblock fo funs f b s = SDone s1 -> sstmt fo funs (S f) (SRepeat b) s = sstmt fo funs f (SRepeat b) s1.
Proof. intros fo funs f b s s1 H. rewrite sstmt_SRepeat, H. reflexivity. Qed.
Check C01_repeat_next_trip : forall fo funs f b s s1,
  sblock fo funs f b s = SDone s1 -> sstmt fo funs (S f) (SRepeat b) s = sstmt fo funs f (SRepeat b) s1.

Theorem C01_while_next_trip : forall fo funs f c p b s s1 s2 s3,
  sblock fo funs f c s = SDone s1 -> m_test s1 = ROk true s2 -> sblock fo funs f b s2 = SDone s3 ->
  sstmt fo funs (S f) (SWhile c p b) s = sstmt fo funs f (SWhile c p b) s3.
Proof.
  intros fo funs f c p b s s1 s2 s3 E1 E2 E3. rewrite sstmt_SWhile, E1. cbn [on_res].
  rewrite (run_m_ok _ _ _ _ _ _ _ E2), E3. reflexivity.
Qed.
Check C01_while_next_trip : forall fo funs f c p b s s1 s2 s3,
  sblock fo funs f c s = SDone s1 -> m_test s1 = ROk true s2 -> sblock fo funs f b s2 = SDone s3 ->
  sstmt fo funs (S f) (SWhile c p b) s = sstmt fo funs f (SWhile c p b) s3.

Theorem C01_while_exit : forall fo funs f c p b s s1 s2,
  sblock fo funs f c s = SDone s1 -> m_test s1 = ROk false s2 -> sstmt fo funs (S f) (SWhile c p b) s = SDone s2.
Proof.
  intros fo funs f c p b s s1 s2 E1 E2. rewrite sstmt_SWhile, E1. cbn [on_res].
  rewrite (run_m_ok _ _ _ _ _ _ _ E2). reflexivity.
Qed.
Check C01_while_exit : forall fo funs f c p b s s1 s2,
  sblock fo funs f c s = SDone s1 -> m_test s1 = ROk false s2 -> sstmt fo funs (S f) (SWhile c p b) s = SDone s2.

Theorem C01_until_exit : forall fo funs f b p s s1 s2,
  sblock fo funs f b s = SDone s1 -> m_test s1 = ROk true s2 -> sstmt fo funs (S f) (SUntil b p) s = SDone s2.
Proof.
  intros fo funs f b p s s1 s2 E1 E2. rewrite sstmt_SUntil, E1. cbn [on_res].
  rewrite (run_m_ok _ _ _ _ _ _ _ E2). reflexivity.
Qed.
Check C01_until_exit : forall fo funs f b p s s1 s2,
  sblock fo funs f b s = SDone s1 -> m_test s1 = ROk true s2 -> sstmt fo funs (S f) (SUntil b p) s = SDone s2.

Theorem C01_until_next_trip : forall fo funs f b p s s1 s2,
  sblock fo funs f b s = SDone s1 -> m_test s1 = ROk false s2 ->
  sstmt fo funs (S f) (SUntil b p) s = sstmt fo funs f (SUntil b p) s2.
Proof.
  intros fo funs f b p s s1 s2 E1 E2. rewrite sstmt_SUntil, E1. cbn [on_res].
  rewrite (run_m_ok _ _ _ _ _ _ _ E2). reflexivity.
Qed.
Check C01_until_next_trip : forall fo funs f b p s s1 s2,
  sblock fo funs f b s = SDone s1 -> m_test s1 = ROk false s2 ->
  sstmt fo funs (S f) (SUntil b p) s = sstmt fo funs f (SUntil b p) s2.

Example C01_break_example : (* 5 0 do I 2 == if break then I loop : leaves 0 1 and an empty loop stack *)
  match sstmt xfo [] 20 (SDo p0 [SPrim "I"%string p0; SLit (CInt 2) p0; SPrim "=="%string p0; SIf p0 [SBreak]; SPrim "I"%string p0] p0)
              (set_ds boot [CInt 0; CInt 5]) with
  | SDone s' => Some (ds s', loops s')
  | _ => None
  end = Some ([CInt 1; CInt 0], []).
Proof. vm_compute. reflexivity. Qed.

(* non-vacuity of the hypotheses of C01_do_catches_break_done: two complete trips, the third stops at the break *)
Example C01_do_break_hypotheses_example : let b := [SPrim "I"%string p0; SLit (CInt 2) p0; SPrim "=="%string p0; SIf p0 [SBreak]; SPrim "I"%string p0] in
  let s := set_ds boot [CInt 0; CInt 5] in
  match do_init s with
  | ROk l s1 =>
    match push_loop l s1 with
    | ROk _ s2 =>
      match trips (sblock xfo [] 19 b) 2 s2 with
      | Some si => match sblock xfo [] 19 b si with SBroke s3 => (Z.of_nat 2 <? l_end l - l_start l)%Z | _ => false end
      | None => false
      end
    | _ => false
    end
  | _ => false
  end = true /\ ls_len (cx s) <= length (loops s).
Proof. split; [ vm_compute; reflexivity | vm_compute; lia ]. Qed.

(* 6. sequencing, first error *)
Theorem C01_block_app_exact : forall fo funs l1 f l2 s,
  length l1 < f ->
  sblock fo funs f (l1 ++ l2) s =
  on_res (sblock fo funs f l1 s) (fun s' => sblock fo funs (f - length l1) l2 s') SBroke.
Proof. exact sblock_app_exact. Qed.
Check C01_block_app_exact : forall fo funs l1 f l2 s,
  length l1 < f ->
  sblock fo funs f (l1 ++ l2) s =
  on_res (sblock fo funs f l1 s) (fun s' => sblock fo funs (f - length l1) l2 s') SBroke.

Theorem C01_block_app_short : forall fo funs l1 f l2 s,
  f <= length l1 -> sblock fo funs f (l1 ++ l2) s = sblock fo funs f l1 s.
Proof. exact sblock_app_short. Qed.
Check C01_block_app_short : forall fo funs l1 f l2 s,
  f <= length l1 -> sblock fo funs f (l1 ++ l2) s = sblock fo funs f l1 s.

Theorem C01_block_app_done : forall fo funs f1 f2 l1 l2 s s1 r,
  sblock fo funs f1 l1 s = SDone s1 -> sblock fo funs f2 l2 s1 = r -> r <> SOut ->
  forall f, f1 + f2 <= f -> sblock fo funs f (l1 ++ l2) s = r.
Proof. exact sblock_app_done. Qed.
Check C01_block_app_done : forall fo funs f1 f2 l1 l2 s s1 r,
  sblock fo funs f1 l1 s = SDone s1 -> sblock fo funs f2 l2 s1 = r -> r <> SOut ->
  forall f, f1 + f2 <= f -> sblock fo funs f (l1 ++ l2) s = r.

Theorem C01_block_app_stops : forall fo funs f1 l1 l2 s r,
  sblock fo funs f1 l1 s = r -> stops r -> forall f, f1 <= f -> sblock fo funs f (l1 ++ l2) s = r.
Proof. exact sblock_app_stops. Qed.
Check C01_block_app_stops : forall fo funs f1 l1 l2 s r,
  sblock fo funs f1 l1 s = r -> stops r -> forall f, f1 <= f -> sblock fo funs f (l1 ++ l2) s = r.

(* error = first error *)
Theorem C01_block_first_error : forall fo funs f1 f2 l1 x l2 s s1 k pl p s',
  sblock fo funs f1 l1 s = SDone s1 -> sstmt fo funs f2 x s1 = SFail k pl p s' ->
  forall f, f1 + S f2 <= f -> sblock fo funs f (l1 ++ x :: l2) s = SFail k pl p s'.
Proof. intros. eapply block_first_stop; eauto. exact I. Qed.
Check C01_block_first_error : forall fo funs f1 f2 l1 x l2 s s1 k pl p s',
  sblock fo funs f1 l1 s = SDone s1 -> sstmt fo funs f2 x s1 = SFail k pl p s' ->
  forall f, f1 + S f2 <= f -> sblock fo funs f (l1 ++ x :: l2) s = SFail k pl p s'.

Theorem C01_block_fail_inv : forall fo funs b f s k pl p s',
  sblock fo funs f b s = SFail k pl p s' ->
  exists l1 x l2 s1,
    b = l1 ++ x :: l2 /\ length l1 < f /\ sblock fo funs f l1 s = SDone s1 /\
    sstmt fo funs (f - length l1 - 1) x s1 = SFail k pl p s'.
Proof. intros. eapply block_stop_inv; eauto. exact I. Qed.
Check C01_block_fail_inv : forall fo funs b f s k pl p s',
  sblock fo funs f b s = SFail k pl p s' ->
  exists l1 x l2 s1,
    b = l1 ++ x :: l2 /\ length l1 < f /\ sblock fo funs f l1 s = SDone s1 /\
    sstmt fo funs (f - length l1 - 1) x s1 = SFail k pl p s'.

Theorem C01_block_stop_inv : forall fo funs b f s r,
  sblock fo funs f b s = r -> stops r ->
  exists l1 x l2 s1,
    b = l1 ++ x :: l2 /\ length l1 < f /\ sblock fo funs f l1 s = SDone s1 /\
    sstmt fo funs (f - length l1 - 1) x s1 = r.
Proof. exact block_stop_inv. Qed.
Check C01_block_stop_inv : forall fo funs b f s r,
  sblock fo funs f b s = r -> stops r ->
  exists l1 x l2 s1,
    b = l1 ++ x :: l2 /\ length l1 < f /\ sblock fo funs f l1 s = SDone s1 /\
    sstmt fo funs (f - length l1 - 1) x s1 = r.

Theorem C01_block_done_each : forall fo funs l1 x l2 f s s',
  sblock fo funs f (l1 ++ x :: l2) s = SDone s' ->
  exists s1 s2, sblock fo funs f l1 s = SDone s1 /\ sstmt fo funs (f - length l1 - 1) x s1 = SDone s2 /\
                sblock fo funs (f - length l1 - 1) l2 s2 = SDone s'.
Proof. exact sblock_done_each. Qed.
Check C01_block_done_each : forall fo funs l1 x l2 f s s',
  sblock fo funs f (l1 ++ x :: l2) s = SDone s' ->
  exists s1 s2, sblock fo funs f l1 s = SDone s1 /\ sstmt fo funs (f - length l1 - 1) x s1 = SDone s2 /\
                sblock fo funs (f - length l1 - 1) l2 s2 = SDone s'.

Example C01_first_error_example : (* 1 drop drop 5 : the second drop underflows; 5 is never pushed *)
  match sblock xfo [] 9 ([SLit (CInt 1) p0; SPrim "drop"%string p0] ++ SPrim "drop"%string (7, 11)%nat :: [SLit (CInt 5) p0]) boot with
  | SFail k _ p s' => Some (k, p, ds s')
  | _ => None
  end = Some (EUnderflow, (7, 11)%nat, []).
Proof. vm_compute. reflexivity. Qed.

(* 7b. the parser *)
(* a local: the NEWEST declaration (last occurrence) *)
Theorem C01_rpos_is_last : forall ls n k,
  rpos ls n 0 None = Some k ->
  nth_error ls k = Some n /\ forall j, k < j -> nth_error ls j <> Some n.
Proof.
  intros ls n k H. apply rpos_some in H as [(Ha & _) | (j & -> & Hj & Hl)]; [ discriminate | ].
  split; assumption.
Qed.
Check C01_rpos_is_last : forall ls n k,
  rpos ls n 0 None = Some k ->
  nth_error ls k = Some n /\ forall j, k < j -> nth_error ls j <> Some n.

Theorem C01_rpos_none : forall ls n, rpos ls n 0 None = None <-> ~ In n ls.
Proof.
  intros ls n. split.
  - intros H E. destruct (rpos_in ls n 0 None E) as (k & Ek). congruence.
  - intro H. apply rpos_none_acc. exact H.
Qed.
Check C01_rpos_none : forall ls n, rpos ls n 0 None = None <-> ~ In n ls.

Theorem C01_rpos_declared_last : forall ls n, rpos (ls ++ [n]) n 0 None = Some (length ls).
Proof. intros. rewrite rpos_app. cbn [rpos]. rewrite String.eqb_refl. reflexivity. Qed.
Check C01_rpos_declared_last : forall ls n, rpos (ls ++ [n]) n 0 None = Some (length ls).

(* a global: the newest binding *)
Theorem C01_lookup_newest : forall n b l, lookup ((n, b) :: l) n = Some b.
Proof. exact lookup_newest. Qed.
Check C01_lookup_newest : forall n b l, lookup ((n, b) :: l) n = Some b.

Theorem C01_lookup_other : forall m b l n, m <> n -> lookup ((m, b) :: l) n = lookup l n.
Proof. intros m b l n H. cbn [lookup]. apply String.eqb_neq in H. rewrite H. reflexivity. Qed.
Check C01_lookup_other : forall m b l n, m <> n -> lookup ((m, b) :: l) n = lookup l n.

(* a local of the enclosing definition is found before any global, terminator, keyword or native word *)
Theorem C01_parse_local_first : forall fo pr f w a b rest e terms acc brk i,
  local_ix e w = Some i ->
  pseq fo pr (S f) ((TWord w, a, b) :: rest) e terms acc brk =
  pseq fo pr f rest e terms (SLocGet i (a, b) :: acc) brk.
Proof. intros. unfold local_ix in H. cbn [pseq]. rewrite H. reflexivity. Qed.
Check C01_parse_local_first : forall fo pr f w a b rest e terms acc brk i,
  local_ix e w = Some i ->
  pseq fo pr (S f) ((TWord w, a, b) :: rest) e terms acc brk =
  pseq fo pr f rest e terms (SLocGet i (a, b) :: acc) brk.

Theorem C01_parse_global : forall fo pr f w a b rest e terms acc brk bd,
  local_ix e w = None -> lookup (names e) w = Some bd ->
  pseq fo pr (S f) ((TWord w, a, b) :: rest) e terms acc brk =
  pseq fo pr f rest e terms (stmt_of_binding bd (a, b) :: acc) brk.
Proof. intros. unfold local_ix in H. cbn [pseq]. rewrite H, H0. destruct bd; reflexivity. Qed.
Check C01_parse_global : forall fo pr f w a b rest e terms acc brk bd,
  local_ix e w = None -> lookup (names e) w = Some bd ->
  pseq fo pr (S f) ((TWord w, a, b) :: rest) e terms acc brk =
  pseq fo pr f rest e terms (stmt_of_binding bd (a, b) :: acc) brk.

(* `break` outside every loop is a flow error, and the tokens after it are never consumed (the result does not depend on [rest]) *)
Theorem C01_parse_break_outside_loop : forall fo pr f a b rest e terms acc brk,
  local_ix e "break"%string = None -> lookup (names e) "break"%string = None -> mem terms "break"%string = false ->
  loopdepth e = 0 ->
  pseq fo pr (S f) ((TWord "break"%string, a, b) :: rest) e terms acc brk = PErr EFlow.
Proof. intros. unfold local_ix in H. cbn [pseq]. rewrite H, H0, H1. cbn. rewrite H2. reflexivity. Qed.
Check C01_parse_break_outside_loop : forall fo pr f a b rest e terms acc brk,
  local_ix e "break"%string = None -> lookup (names e) "break"%string = None -> mem terms "break"%string = false ->
  loopdepth e = 0 ->
  pseq fo pr (S f) ((TWord "break"%string, a, b) :: rest) e terms acc brk = PErr EFlow.

Theorem C01_parse_break_inside_loop : forall fo pr f a b rest e terms acc brk,
  local_ix e "break"%string = None -> lookup (names e) "break"%string = None -> mem terms "break"%string = false ->
  0 < loopdepth e ->
  pseq fo pr (S f) ((TWord "break"%string, a, b) :: rest) e terms acc brk =
  pseq fo pr f rest e terms (SBreak :: acc) true.
Proof.
  intros. unfold local_ix in H. cbn [pseq]. rewrite H, H0, H1. cbn.
  destruct (loopdepth e); [ lia | reflexivity ].
Qed.
Check C01_parse_break_inside_loop : forall fo pr f a b rest e terms acc brk,
  local_ix e "break"%string = None -> lookup (names e) "break"%string = None -> mem terms "break"%string = false ->
  0 < loopdepth e ->
  pseq fo pr (S f) ((TWord "break"%string, a, b) :: rest) e terms acc brk =
  pseq fo pr f rest e terms (SBreak :: acc) true.

Theorem C01_parse_lex_error : forall fo pr f x y z a b rest e terms acc brk,
  pseq fo pr (S f) ((TErr x y z, a, b) :: rest) e terms acc brk = PErr EParse.
Proof. reflexivity. Qed.
Check C01_parse_lex_error : forall fo pr f x y z a b rest e terms acc brk,
  pseq fo pr (S f) ((TErr x y z, a, b) :: rest) e terms acc brk = PErr EParse.

(* the invariant of every parse (all token lists, environments, accumulators) *)
Theorem C01_parse_invariant : forall fo pr f toks e terms acc brk,
  pinv e acc brk (pseq fo pr f toks e terms acc brk).
Proof. exact pseq_inv. Qed.
Check C01_parse_invariant : forall fo pr f toks e terms acc brk,
  pinv e acc brk (pseq fo pr f toks e terms acc brk).

Theorem C01_parse_keeps_compiled : forall fo pr f toks e terms acc brk body t tp rest e' brk',
  pseq fo pr f toks e terms acc brk = POk body t tp rest e' brk' ->
  exists l, body = (rev acc ++ l)%list.
Proof.
  intros fo pr f toks e terms acc brk body t tp rest e' brk' H.
  pose proof (pseq_inv fo pr f toks e terms acc brk) as P. rewrite H in P.
  destruct P as (_ & l & -> & _). eauto.
Qed.
Check C01_parse_keeps_compiled : forall fo pr f toks e terms acc brk body t tp rest e' brk',
  pseq fo pr f toks e terms acc brk = POk body t tp rest e' brk' ->
  exists l, body = (rev acc ++ l)%list.

Theorem C01_parse_funs_stable : forall fo pr f toks e terms acc brk body t tp rest e' brk',
  pseq fo pr f toks e terms acc brk = POk body t tp rest e' brk' ->
  nfun e <= nfun e' /\ forall g, g < nfun e -> fun_body (funs e') g = fun_body (funs e) g.
Proof. exact parse_funs_stable. Qed.
Check C01_parse_funs_stable : forall fo pr f toks e terms acc brk body t tp rest e' brk',
  pseq fo pr f toks e terms acc brk = POk body t tp rest e' brk' ->
  nfun e <= nfun e' /\ forall g, g < nfun e -> fun_body (funs e') g = fun_body (funs e) g.

(* outside every loop no break is compiled at the current level, also not under if / case (there the parse is an error: C01_parse_break_outside_loop, and errors of sub-parses are passed on) *)
Theorem C01_parse_depth0_no_break : forall fo pr f toks e terms acc body t tp rest e' brk',
  pseq fo pr f toks e terms acc false = POk body t tp rest e' brk' ->
  loopdepth e = 0 ->
  brk' = false /\ exists l, body = (rev acc ++ l)%list /\ has_own_break_block l = false.
Proof.
  intros fo pr f toks e terms acc body t tp rest e' brk' H D.
  pose proof (pseq_inv fo pr f toks e terms acc false) as P. rewrite H in P.
  destruct P as (_ & l & -> & _ & HB & HD & _). specialize (HD D eq_refl). subst brk'.
  split; [ reflexivity | ]. exists l. split; [ reflexivity | ].
  apply no_pending. exact HB.
Qed.
Check C01_parse_depth0_no_break : forall fo pr f toks e terms acc body t tp rest e' brk',
  pseq fo pr f toks e terms acc false = POk body t tp rest e' brk' ->
  loopdepth e = 0 ->
  brk' = false /\ exists l, body = (rev acc ++ l)%list /\ has_own_break_block l = false.

Theorem C01_parse_counters_restored : forall fo pr f toks e terms acc brk body t tp rest e' brk',
  pseq fo pr f toks e terms acc brk = POk body t tp rest e' brk' ->
  loopdepth e' = loopdepth e /\ nest e' = nest e.
Proof.
  intros fo pr f toks e terms acc brk body t tp rest e' brk' H.
  pose proof (pseq_inv fo pr f toks e terms acc brk) as P. rewrite H in P.
  destruct P as ((_ & _ & K3 & K4 & _) & _). split; assumption.
Qed.
Check C01_parse_counters_restored : forall fo pr f toks e terms acc brk body t tp rest e' brk',
  pseq fo pr f toks e terms acc brk = POk body t tp rest e' brk' ->
  loopdepth e' = loopdepth e /\ nest e' = nest e.

(* redefinition (and recursion): the statements compiled so far are kept, so a call compiled before keeps its id; the name means the new id from the first token of the body on; the new id is fresh and bound to the body; every older id keeps its body *)
Theorem C01_redefinition : forall fo pr f a b rest e terms acc brk name na nb r0 body tp r1 e1,
  local_ix e ":"%string = None -> lookup (names e) ":"%string = None -> mem terms ":"%string = false ->
  plocals e = None -> skipb rest = (TWord name, na, nb) :: r0 ->
  pseq fo pr f r0 (def_env e name) [";"%string] [] false = POk body ";"%string tp r1 e1 false ->
  let e2 := after_def e e1 body in
  pseq fo pr (S f) ((TWord ":"%string, a, b) :: rest) e terms acc brk =
    pseq fo pr f r1 e2 terms (SDef (nfun e) :: acc) brk /\
  lookup (names e2) name = Some (BFun (nfun e)) /\
  fun_body (funs e2) (nfun e) = Some body /\
  (forall g, g < nfun e -> fun_body (funs e2) g = fun_body (funs e) g) /\
  (forall g, lookup (names e) name = Some (BFun g) -> g < nfun e ->
     fun_body (funs e2) g = fun_body (funs e) g).
Proof. exact redefinition. Qed.
Check C01_redefinition : forall fo pr f a b rest e terms acc brk name na nb r0 body tp r1 e1,
  local_ix e ":"%string = None -> lookup (names e) ":"%string = None -> mem terms ":"%string = false ->
  plocals e = None -> skipb rest = (TWord name, na, nb) :: r0 ->
  pseq fo pr f r0 (def_env e name) [";"%string] [] false = POk body ";"%string tp r1 e1 false ->
  let e2 := after_def e e1 body in
  pseq fo pr (S f) ((TWord ":"%string, a, b) :: rest) e terms acc brk =
    pseq fo pr f r1 e2 terms (SDef (nfun e) :: acc) brk /\
  lookup (names e2) name = Some (BFun (nfun e)) /\
  fun_body (funs e2) (nfun e) = Some body /\
  (forall g, g < nfun e -> fun_body (funs e2) g = fun_body (funs e) g) /\
  (forall g, lookup (names e) name = Some (BFun g) -> g < nfun e ->
     fun_body (funs e2) g = fun_body (funs e) g).

Theorem C01_recursion_binding : forall e name,
  lookup (names (def_env e name)) name = Some (BFun (nfun e)).
Proof. exact (fun e name => lookup_newest name (BFun (nfun e)) (names e)). Qed.
Check C01_recursion_binding : forall e name,
  lookup (names (def_env e name)) name = Some (BFun (nfun e)).

(* whole sources: no stray break at the top level or in any definition, no `local` at the top level; what seval_source runs is the parsed program; hygiene for every source that runs to its end: context marks, index and limit of every loop record, the return stack *)
Theorem C01_parse_source_no_stray_break : forall fo pr src h body funs n,
  parse_source fo pr src h = Some (body, funs, n) ->
  has_own_break_block body = false /\ funs_nobreak funs /\ no_local_block body = true.
Proof. exact parse_source_no_stray_break. Qed.
Check C01_parse_source_no_stray_break : forall fo pr src h body funs n,
  parse_source fo pr src h = Some (body, funs, n) ->
  has_own_break_block body = false /\ funs_nobreak funs /\ no_local_block body = true.

Theorem C01_seval_source_runs_parse : forall fo pr fuel src s r,
  seval_source fo pr fuel src s = CRun r ->
  exists body funs n,
    parse_source fo pr src (length (heap s)) = Some (body, funs, n) /\
    r = sblock fo funs fuel body (set_heap s (heap s ++ repeat CNil (n - length (heap s)))%list).
Proof. exact seval_source_runs_parse. Qed.
Check C01_seval_source_runs_parse : forall fo pr fuel src s r,
  seval_source fo pr fuel src s = CRun r ->
  exists body funs n,
    parse_source fo pr src (length (heap s)) = Some (body, funs, n) /\
    r = sblock fo funs fuel body (set_heap s (heap s ++ repeat CNil (n - length (heap s)))%list).

Theorem C01_seval_source_never_broke : forall fo pr fuel src s s',
  seval_source fo pr fuel src s <> CRun (SBroke s').
Proof.
  intros fo pr fuel src s s' H. apply seval_source_runs_parse in H as (body & funs & n & P & E).
  apply parse_source_no_stray_break in P as (Hb & Hf & _).
  symmetry in E. eapply (nobreak_block fo funs Hf); eauto.
Qed.
Check C01_seval_source_never_broke : forall fo pr fuel src s s',
  seval_source fo pr fuel src s <> CRun (SBroke s').

Theorem C01_seval_source_hygiene : forall fo pr fuel src s s',
  seval_source fo pr fuel src s = CRun (SDone s') ->
  cx s' = cx s /\ map lkey (loops s') = map lkey (loops s) /\ rs s' = rs s.
Proof.
  intros fo pr fuel src s s' H. apply seval_source_runs_parse in H as (body & funs & n & P & E).
  apply parse_source_no_stray_break in P as (Hb & Hf & Hl). symmetry in E.
  destruct (loop_keys_block fo funs fuel body _ s' (or_introl E)) as [C M].
  eapply (rs_exact_block fo funs Hf) in Hl as [_ R]; [ | rewrite E; reflexivity ].
  cbn in C, M, R. auto.
Qed.
Check C01_seval_source_hygiene : forall fo pr fuel src s s',
  seval_source fo pr fuel src s = CRun (SDone s') ->
  cx s' = cx s /\ map lkey (loops s') = map lkey (loops s) /\ rs s' = rs s.

(* non-vacuity of the hypotheses of C01_redefinition: the second `: sq` of the example, met with `sq` already bound to id 0 *)
Example C01_redefinition_hypotheses_example : let e := mkpenv [("sq"%string, BFun 0)] [(0, [SPrim "dup"%string p0; SPrim "*"%string p0])] 1 6 None 0 0 in
  let rest := lex_string " sq 1 + ; 3 sq"%string in
  local_ix e ":"%string = None /\ lookup (names e) ":"%string = None /\ mem [] ":"%string = false /\ plocals e = None /\
  match skipb rest with
  | (TWord name, _, _) :: r0 =>
    match pseq xfo nopr 20 r0 (def_env e name) [";"%string] [] false with
    | POk body ";"%string _ _ e1 false =>
      (name, body, lookup (names (after_def e e1 body)) "sq"%string, fun_body (funs (after_def e e1 body)) 0)
    | _ => (name, [], None, None)
    end
  | _ => (""%string, [], None, None)
  end = ("sq"%string, [SLit (CInt 1) (4, 5)%nat; SPrim "+"%string (6, 7)%nat], Some (BFun 1), Some [SPrim "dup"%string p0; SPrim "*"%string p0]).
Proof. repeat split; vm_compute; reflexivity. Qed.

Example C01_parse_examples : (* the call of `sq` inside `quad` keeps id 0 after `sq` is redefined as id 2; the later call uses id 2 *)
  parse_source xfo nopr ": sq dup * ; : quad sq sq ; : sq 1 + ; 3 quad sq"%string 6 =
    Some ([SDef 0; SDef 1; SDef 2; SLit (CInt 3) (39, 40)%nat; SCall 1 (41, 45)%nat; SCall 2 (46, 48)%nat],
          [(2, [SLit (CInt 1) (33, 34)%nat; SPrim "+"%string (35, 36)%nat]);
           (1, [SCall 0 (20, 22)%nat; SCall 0 (23, 25)%nat]);
           (0, [SPrim "dup"%string (5, 8)%nat; SPrim "*"%string (9, 10)%nat])], 6) /\
  (* a local shadows a global variable of the same name; the newest local of that name wins *)
  parse_source xfo nopr "0 var x : f local x local x x ; x"%string 6 =
    Some ([SLit (CInt 0) (0, 1)%nat; SSet 6 (6, 7)%nat; SDef 0; SGet 6 (32, 33)%nat],
          [(0, [SLocSet 0 (18, 19)%nat; SLocSet 1 (26, 27)%nat; SLocGet 1 (28, 29)%nat])], 7) /\
  (* break outside a loop, also under if; break directly under until *)
  seval_source xfo nopr 10 "1 if break then 2 3"%string boot = CBuildErr EFlow /\
  seval_source xfo nopr 10 "begin break 1 until"%string boot = CBuildErr EFlow /\
  seval_source xfo nopr 30 "begin 1 if break then repeat 7"%string boot <> CBuildErr EFlow.
Proof. repeat split; try (vm_compute; reflexivity). vm_compute. discriminate. Qed.

