(* StructSize.v: the jump-resolved layout emits exactly [size_block] cells. *)
From Xeh Require Import Model.Prelude Model.Bits Model.Codec Model.Cell Model.Lexer Model.Fmt
                        Model.Vm Model.Words Model.Struct.
From Xeh Require Proofs.CompileLayout.
Local Notation length := List.length.

Fixpoint size_arms (l : list (list stmt * pos * list stmt)) : nat :=
  match l with
  | [] => 0
  | (pre, _, body) :: r => size_block pre + 1 + size_block body + 1 + size_arms r
  end.

Lemma size_stmt_SCase : forall arms d, size_stmt (SCase arms d) = size_arms arms + size_block d.
Proof. reflexivity. Qed.

Theorem size_block_app : forall b1 b2, size_block (b1 ++ b2) = size_block b1 + size_block b2.
Proof.
  induction b1 as [| x r IH]; intro b2; [ reflexivity | ].
  cbn [app size_block]. rewrite IH. lia.
Qed.

Theorem lay_block_app : forall faddr b1 b2 org bc,
  lay_block faddr (b1 ++ b2) org bc =
  lay_block faddr b1 org bc ++ lay_block faddr b2 (org + size_block b1) bc.
Proof.
  intros faddr. induction b1 as [| x r IH]; intros b2 org bc.
  - cbn [app lay_block size_block]. rewrite Nat.add_0_r. reflexivity.
  - cbn [app lay_block size_block]. rewrite IH, <- app_assoc, Nat.add_assoc. reflexivity.
Qed.

Corollary lay_block_nth_after : forall faddr b1 x b2 org bc k,
  nth_error (lay_block faddr (b1 ++ x :: b2) org bc) (size_block b1 + k) =
  nth_error (lay_stmt faddr x (org + size_block b1) bc ++ lay_block faddr b2 (org + size_block b1 + size_stmt x) bc) k.
Proof.
  intros. rewrite lay_block_app. rewrite nth_error_app2; rewrite CompileLayout.lay_block_length; [ | lia ].
  replace (size_block b1 + k - size_block b1) with k by lia. reflexivity.
Qed.
