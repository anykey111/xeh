(* CompileParse.v: every tree the parser of Struct.v returns is well formed in the sense the
   simulation theorem needs: no pending break at top level, in a function body or in the body
   of begin ... until, and (when the layout accepts the program) every function is defined
   by a top-level `:`.  So the theorems hold for every source, not just for trees that
   happen to satisfy [prog_wf]. *)
From Xeh Require Import Model.Prelude Model.Bits Model.Codec Model.Cell Model.Lexer Model.Fmt
                        Model.Vm Model.Words Model.Struct
                        Proofs.CompileLayout Proofs.CompileProg.
Local Notation length := List.length.
Local Open Scope string_scope.

Section StrMatch.
  Variable T : Type.
  Variable P : T -> Prop.

  Lemma m1_empty : forall A D term,
    (term = "" -> P A) -> P D -> P (match term with "" => A | _ => D end).
  Proof. intros A D term HA HD. destruct term; [apply HA; reflexivity|apply HD]. Qed.
End StrMatch.
Local Close Scope string_scope.

Fixpoint ddefs (x : stmt) : list nat :=
  let db := fix db (l : list stmt) : list nat := match l with [] => [] | y :: r => ddefs y ++ db r end in
  match x with
  | SDef g => [g]
  | SIf _ t => db t
  | SIfE _ t e => db t ++ db e
  | SCase arms d =>
    (fix go (l : list arm) : list nat :=
       match l with [] => [] | (pre, _, body) :: r => db pre ++ db body ++ go r end) arms ++ db d
  | SUntil b _ | SRepeat b | SDo _ b _ => db b
  | SWhile c _ b => db c ++ db b
  | _ => []
  end.
Fixpoint ddefs_b (l : list stmt) : list nat :=
  match l with [] => [] | y :: r => ddefs y ++ ddefs_b r end.
Fixpoint ddefs_a (l : list arm) : list nat :=
  match l with [] => [] | (pre, _, body) :: r => ddefs_b pre ++ ddefs_b body ++ ddefs_a r end.

Lemma ddefs_If : forall p t, ddefs (SIf p t) = ddefs_b t.
Proof. reflexivity. Qed.
Lemma ddefs_IfE : forall p t e, ddefs (SIfE p t e) = ddefs_b t ++ ddefs_b e.
Proof. reflexivity. Qed.
Lemma ddefs_Case : forall arms d, ddefs (SCase arms d) = ddefs_a arms ++ ddefs_b d.
Proof. reflexivity. Qed.
Lemma ddefs_Until : forall b p, ddefs (SUntil b p) = ddefs_b b.
Proof. reflexivity. Qed.
Lemma ddefs_Repeat : forall b, ddefs (SRepeat b) = ddefs_b b.
Proof. reflexivity. Qed.
Lemma ddefs_While : forall c p b, ddefs (SWhile c p b) = ddefs_b c ++ ddefs_b b.
Proof. reflexivity. Qed.
Lemma ddefs_Do : forall p b pl, ddefs (SDo p b pl) = ddefs_b b.
Proof. reflexivity. Qed.

Lemma ddefs_b_app : forall a b, ddefs_b (a ++ b) = ddefs_b a ++ ddefs_b b.
Proof. induction a as [|x r IH]; intro b; [reflexivity|]. cbn [app ddefs_b]. rewrite IH, app_assoc. reflexivity. Qed.
Lemma ddefs_a_app : forall a b, ddefs_a (a ++ b) = ddefs_a a ++ ddefs_a b.
Proof.
  induction a as [|[[pre p] body] r IH]; intro b; [reflexivity|]. cbn [app ddefs_a].
  rewrite IH, !app_assoc. reflexivity.
Qed.

Lemma wf_b_Forall : forall l, Forall wf_s l -> wf_b l.
Proof. induction 1; constructor; assumption. Qed.
Lemma nb_b_Forall : forall l, Forall nb_s l -> nb_b l.
Proof. induction 1; constructor; assumption. Qed.

Definition arm_wf (a : arm) : Prop := wf_b (fst (fst a)) /\ wf_b (snd a).
Definition arm_nb (a : arm) : Prop := nb_b (fst (fst a)) /\ nb_b (snd a).
Lemma wf_a_Forall : forall l, Forall arm_wf l -> wf_a l.
Proof. induction 1 as [|[[pre p] body] r [H1 H2] _ IH]; constructor; assumption. Qed.
Lemma nb_a_Forall : forall l, Forall arm_nb l -> nb_a l.
Proof. induction 1 as [|[[pre p] body] r [H1 H2] _ IH]; constructor; assumption. Qed.

Definition funs_good (fs : list (nat * list stmt)) : Prop :=
  Forall (fun gb => wf_b (snd gb) /\ nb_b (snd gb)) fs.

(* from environment [e] to [e']: the new functions are among [D]; inside a definition
   (locals present) no function is added *)
Definition estep (e e' : penv) (D : list nat) : Prop :=
  incl (map fst (funs e')) (map fst (funs e) ++ D) /\
  (plocals e <> None -> funs e' = funs e /\ plocals e' <> None).

Lemma estep_same : forall e e', funs e' = funs e -> (plocals e <> None -> plocals e' <> None) -> estep e e' [].
Proof.
  intros e e' Hf Hp. split.
  - rewrite Hf, app_nil_r. apply incl_refl.
  - intro H. split; auto.
Qed.

Lemma estep_trans : forall e e1 e2 D1 D2, estep e e1 D1 -> estep e1 e2 D2 -> estep e e2 (D1 ++ D2).
Proof.
  intros e e1 e2 D1 D2 [I1 P1] [I2 P2]. split.
  - intros x Hx. apply I2 in Hx. apply in_app_or in Hx. destruct Hx as [Hx|Hx].
    + apply I1 in Hx. rewrite app_assoc. apply in_or_app. left. exact Hx.
    + apply in_or_app. right. apply in_or_app. right. exact Hx.
  - intro H. destruct (P1 H) as [F1 Q1]. destruct (P2 Q1) as [F2 Q2]. split; congruence.
Qed.

Lemma estep_funs : forall e e1 e2 D, funs e1 = funs e -> plocals e1 = plocals e -> estep e1 e2 D -> estep e e2 D.
Proof. intros e e1 e2 D Hf Hp [I P]. split; [rewrite <- Hf; exact I|]. rewrite <- Hp, <- Hf. exact P. Qed.

Lemma estep_funs_r : forall e e1 e2 D, funs e2 = funs e1 -> plocals e2 = plocals e1 -> estep e e1 D -> estep e e2 D.
Proof. intros e e1 e2 D Hf Hp [I P]. split; [rewrite Hf; exact I|]. rewrite Hp, Hf. exact P. Qed.

Definition good_res (e : penv) (acc : list stmt) (brk : bool) (r : pres) : Prop :=
  match r with
  | POk body term tp rest e' brk' =>
    exists news, body = rev acc ++ news /\ Forall wf_s news /\
                 (brk' = false -> brk = false /\ Forall nb_s news) /\
                 estep e e' (ddefs_b news) /\ funs_good (funs e') /\
                 loopdepth e' = loopdepth e /\ (loopdepth e = 0 -> brk' = brk)
  | _ => True
  end.

Lemma good_push : forall e e1 acc brk brk1 x r,
  good_res e1 (x :: acc) brk1 r -> wf_s x -> (brk1 = false -> brk = false /\ nb_s x) ->
  estep e e1 (ddefs x) -> loopdepth e1 = loopdepth e -> (loopdepth e = 0 -> brk1 = brk) ->
  good_res e acc brk r.
Proof.
  intros e e1 acc brk brk1 x r H Wx Bx Ex L1 L2. destruct r as [body term tp rest e' brk'| |]; cbn [good_res] in *; auto.
  destruct H as (news & Hb & Wn & Bn & En & Fn & Ln1 & Ln2). exists (x :: news).
  split; [rewrite Hb; cbn [rev]; rewrite <- app_assoc; reflexivity|].
  split; [constructor; assumption|]. split.
  - intro Hb'. destruct (Bn Hb') as [B1 B2]. destruct (Bx B1) as [B3 B4]. split; [exact B3|constructor; assumption].
  - split; [cbn [ddefs_b]; eapply estep_trans; eassumption|]. split; [exact Fn|].
    split; [congruence|]. intro H0. rewrite Ln2 by congruence. apply L2. exact H0.
Qed.

Lemma good_here : forall e acc brk w p rest, funs_good (funs e) -> good_res e acc brk (POk (rev acc) w p rest e brk).
Proof.
  intros e acc brk w p rest Hf. exists []. split; [rewrite app_nil_r; reflexivity|].
  split; [constructor|]. split; [intro H; split; [exact H|constructor]|].
  split; [apply estep_same; auto|]. split; [exact Hf|]. split; [reflexivity|]. intros _. reflexivity.
Qed.
