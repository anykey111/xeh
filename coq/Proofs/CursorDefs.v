(* CursorDefs.v: the vocabulary of the C06 statements: what the binary parsing cursor of a
   machine state is, what a successful read and a failing word look like. Definitions only. *)
From Xeh Require Import Model.Prelude Model.Bits Model.Codec Model.Cell Model.Lexer Model.Fmt
                        Model.Vm Model.Words Proofs.VmStep.
Local Notation length := List.length.

Definition h_input (h : list cell) : option cbs :=
  match nth_error h R_INPUT with
  | Some c => match value c with CBits b => Some b | _ => None end
  | None => None
  end.

Definition h_offset (h : list cell) : option Z :=
  match nth_error h R_OFFSET with
  | Some c => match value c with CInt z => Some z | _ => None end
  | None => None
  end.

Definition h_stash (h : list cell) : option (list cell) :=
  match nth_error h R_STASH with
  | Some c => match value c with CVec v => Some v | _ => None end
  | None => None
  end.

(* the byte order the unsuffixed words use: "big" unless the cell equals the integer 0 *)
Definition h_order (h : list cell) : option order :=
  match nth_error h R_BIG with
  | Some c => Some (if negb (cell_eqb c (cint 0)) then Big else Little)
  | None => None
  end.

(* the heap has the six cells of the module, R_INPUT holds a well-formed bit-string [inp]
   (any alignment, any stale bits around it) whose end is addressable, R_OFFSET holds an
   absolute bit offset inside [cstart inp, cend inp] *)
Definition hcursor (h : list cell) (inp : cbs) (off : Z) : Prop :=
  6 <= length h /\
  h_input h = Some inp /\ h_offset h = Some off /\
  wf inp /\ (Z.of_nat (cend inp) < two64)%Z /\
  (Z.of_nat (cstart inp) <= off <= Z.of_nat (cend inp))%Z.

Definition cursor (s : state) (inp : cbs) (off : Z) : Prop :=
  notmeta s /\ hcursor (heap s) inp off.

Definition sub (inp : cbs) (off n : Z) : cbs :=
  mkcbs (Z.to_nat off) (Z.to_nat (off + n)) (cdata inp).

Definition slice_bits (inp : cbs) (off n : Z) : list bool :=
  firstn (Z.to_nat n) (skipn (Z.to_nat off - cstart inp) (abs inp)).

(* a successful read of [n] bits that pushes [v] on top of [rest]: only the offset cell
   changes, and it advances by exactly [n] *)
Definition read_done (s s' : state) (inp : cbs) (off n : Z) (rest : list cell) (v : cell) : Prop :=
  (0 <= n)%Z /\ (off + n <= Z.of_nat (cend inp))%Z /\
  ds s' = v :: rest /\
  heap s' = list_set (heap s) R_OFFSET (cint (off + n)) /\
  sim s s'.

(* a failing word, whatever the error kind (read past the end, mismatch, type or range error of
   an argument, float length, the data-stack limit refusing the result): heap (input, offset,
   stash, ...) untouched; the data stack is the original minus the arguments popped so far (at
   most [ar]); nothing else changed *)
Definition fail_frame (ar : nat) (s s' : state) : Prop :=
  heap s' = heap s /\ sim s s' /\
  exists args, ds s = args ++ ds s' /\ length args <= ar.

Definition entry_input (e : cell) : option cbs :=
  match value e with CBits b => Some b | _ => None end.
Definition entry_offset (e : cell) : option Z :=
  match get_tag e offset_lit with
  | Some c => match value c with CInt z => Some z | _ => None end
  | None => None
  end.

Definition entry_ok (e : cell) : Prop :=
  exists b o, entry_input e = Some b /\ entry_offset e = Some o /\
              wf b /\ (Z.of_nat (cend b) < two64)%Z /\
              (Z.of_nat (cstart b) <= o <= Z.of_nat (cend b))%Z.

Definition cell_ok (c : cell) : Prop :=
  forall b, value c = CBits b -> wf b /\ (Z.of_nat (cend b) < two64)%Z.

Definition cur_inv (s : state) : Prop :=
  (exists inp off, cursor s inp off) /\
  (exists v, h_stash (heap s) = Some v /\ Forall entry_ok v) /\
  Forall cell_ok (ds s).

Definition rest_of (inp : cbs) (off : Z) : list bool :=
  skipn (Z.to_nat off - cstart inp) (abs inp).
(* number of bits up to and including the first zero byte (all of them if there is none) *)
Definition nul_bits (l : list bool) : nat := nul_len (map grp (chunk8 l)) 0.
Definition cstr_of (l : list bool) : string := cstr_chars (map grp (chunk8 l)).

Definition fbits_of (k : nat) (o : order) (l : list bool) : Z :=
  let buf := take_pad k (map bits_to_N (chunk8 l)) in
  match o with Big => be_bytes_to_Z buf | Little => be_bytes_to_Z (rev buf) end.

(* [behaves r Q E]: the word returned normally in a state satisfying [Q], or failed with
   error kind [k] leaving a state satisfying [E k]; it neither panicked nor left the model *)
Definition behaves (r : res unit) (Q : state -> Prop) (E : ekind -> state -> Prop) : Prop :=
  match r with
  | ROk _ s' => Q s'
  | RErr k _ s' => E k s'
  | RPanic => False
  | RUnsup => False
  end.

Definition num_read (s s' : state) (inp : cbs) (off n : Z) (rest : list cell) (o : order) (x : Z) : Prop :=
  exists v, read_done s s' inp off n rest v /\ cursor s' inp (off + n) /\
            value v = CInt x /\ tags_of v = Some (num_tags (sub inp off n) o).

Definition real_read (s s' : state) (inp : cbs) (off n : Z) (rest : list cell) (o : order) (pat : Z) : Prop :=
  exists v, read_done s s' inp off n rest v /\ cursor s' inp (off + n) /\
            value v = CReal pat /\ tags_of v = Some (num_tags (sub inp off n) o).

Definition bits_read (s s' : state) (inp : cbs) (off n : Z) (rest : list cell) : Prop :=
  exists b, read_done s s' inp off n rest (CBits b) /\ cursor s' inp (off + n) /\
            wf b /\ abs b = slice_bits inp off n /\ b = sub inp off n.

Definition float_pat (fo : fops) (n : Z) (o : order) (l : list bool) (pat : Z) : Prop :=
  (n = 32%Z /\ pat = f_of_f32 fo (fbits_of 4 o l)) \/ (n = 64%Z /\ pat = fbits_of 8 o l).
