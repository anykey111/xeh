(* UnwindMain.v (C10): the build loop keeps the invariant (an instance of the loop of
   UnwindRel.v), and [build_unwind] applied to any state satisfying the invariant gives back
   the machine in which the source was submitted. *)
From Xeh Require Import Model.Prelude Model.Bits Model.Codec Model.Cell Model.Lexer Model.Fmt
                        Model.Vm Model.Words Model.Build.
From Xeh Require Import Proofs.VmFrame Proofs.VmLimits Proofs.NoPanic Proofs.NoPanicBuild
                        Proofs.BuildUnwind Proofs.UnwindLists Proofs.UnwindRel Proofs.UnwindFrame Proofs.UnwindInv Proofs.UnwindBuild.
Local Notation length := List.length.

Section Watch.
  Variable fo : fops.
  Variable pr : string -> option Z.
  Variable rf : nat.
  Variable dl : nat.    (* the length of the dictionary when the source was submitted *)

  (* the word [name], looked up in [s], is a user-defined immediate word (it would run
     arbitrary code in the outer context at build time), or it is [const] about to overwrite
     a constant that existed before the source was submitted, or [endenum] whose block returns
     to a context that is not a meta context (finding E3), or a field word of an enum that is
     not pending in a meta context ([native_bad], UnwindBuild.v) *)
  Definition bad_word (s : state) (name : string) : bool :=
    match dict_entry s name with
    | Some (DFun true (FInterp _) _) => true
    | Some (DFun true (FNative w) _) => native_bad fo pr rf dl w s
    | _ => false
    end.

  (* replays the token loop of [build1] and reports whether it meets such a word *)
  Fixpoint calls_bad (fuel depth : nat) (s : state) : bool :=
    match fuel with
    | O => false
    | S f =>
      match (if mode_eqb (cmode (cx s)) MMeta && negb (has_pending_flow s) then run_m fo rf else ret tt) s with
      | ROk _ s0 =>
        match get_token pr s0 with
        | ROk (BLit v) s1 =>
          match code_emit_value v s1 with ROk _ s2 => calls_bad f depth s2 | _ => false end
        | ROk (BWord name) s1 =>
          let via_word :=
              bad_word s1 name ||
              match build_word fo pr rf f name s1 with ROk _ s2 => calls_bad f depth s2 | _ => false end in
          match top_function_flow s1 with
          | Some (_, _, ls) =>
            match rposition ls name 0 None with
            | Some i => match code_emit (OLoadLocal i) s1 with ROk _ s2 => calls_bad f depth s2 | _ => false end
            | None => via_word
            end
          | None => via_word
          end
        | _ => false
        end
      | _ => false
      end
    end.
End Watch.

Section Loop.
  Variable fo : fops.
  Variable pr : string -> option Z.
  Variable rf : nat.
  Variable b : state.
  Variable m : mode.
  Hypothesis Hm : m <> MMeta.
  Hypothesis Hdl : length (dbg b) = length (code b).

  Local Notation binv := (binv b m).
  Local Notation dl := (length (dict b)).

  Lemma build_word_inv f name t : binv t -> bad_word fo pr rf dl t name = false ->
    res_all binv (build_word fo pr rf f name t).
  Proof.
    intros H BW. unfold build_word, bind, get. unfold bad_word in BW.
    destruct (dict_entry t name) as [[c|a|imm fr len]|]; try exact H;
      try (apply (bp_code_emit b m); exact H).
    destruct imm.
    - destruct fr as [x|w]; [discriminate|]. unfold run_immediate.
      destruct (immediate_fn fo pr rf f w) as [prog|] eqn:E; [|exact I].
      apply (bp_immediate_fn fo pr rf b m Hm Hdl f w prog E); assumption.
    - destruct fr; apply (bp_code_emit b m); exact H.
  Qed.

  (* the invariant as a relation between a state and itself: the loop of UnwindRel.v applies *)
  Lemma bp_mrel A (P : M A) : bp b m P -> mrel (diag binv) P.
  Proof. intros H s s' [-> Hs]. apply rres_diag, H, Hs. Qed.

  Theorem build1_inv fuel depth t : binv t -> calls_bad fo pr rf dl fuel depth t = false ->
    res_all binv (build1 fo pr rf fuel depth t).
  Proof.
    intros H CB. apply (diag_rres binv), (rres_build1 fo pr rf (bad_word fo pr rf dl) (diag binv));
      [..|exact (conj eq_refl H)|exact CB].
    - intros s s' [-> _]. reflexivity.
    - intros s s' [-> Hs] E. apply andb_true_iff in E. destruct E as [E _]. apply mode_eqb_meta in E.
      pose proof (bpm_run_m fo rf b m Hm s Hs E) as X. apply rres_diag.
      destruct (run_m fo rf s); cbn [res_all] in *; auto; apply X.
    - apply bp_mrel, bp_get_token.
    - intros op. apply bp_mrel, bp_code_emit.
    - intros d. apply bp_mrel. intros s Hs. unfold bind, get.
      destruct (negb _); [exact Hs|]. destruct (has_pending_flow s); exact Hs.
    - intros s s' [-> _]. reflexivity.
    - intros f name s s' [-> Hs] C. apply rres_diag, build_word_inv; assumption.
  Qed.
End Loop.

(* the machine: everything a later source or a later run can read, except the list of source
   texts, the instruction meter, the captured output, the reverse log, the last-token
   bookkeeping and the about-to-stop flag *)
Definition same_machine (s s' : state) : Prop :=
  input s' = input s /\ nested s' = nested s /\ cx s' = cx s /\ code s' = code s /\
  dbg s' = dbg s /\ flows s' = flows s /\ dict s' = dict s /\ rs s' = rs s /\
  loops s' = loops s /\ special s' = special s /\ heap s' = heap s /\ ds s' = ds s /\
  insn_limit s' = insn_limit s /\ heap_limit s' = heap_limit s /\ stack_limit s' = stack_limit s.

(* what a state must satisfy for a failed build to be undone exactly: no input is pending
   (true between API calls), the debug map is as long as the code, and no unresolved [late]
   stub is left in the code *)
Definition build_wf (s : state) : Prop :=
  input s = [] /\ length (dbg s) = length (code s) /\
  Forall (fun op => is_resolve op = false) (code s).

(* everything is restored except that stubs resolved by build-time execution stay resolved *)
Definition same_machine_upto_stubs (s s' : state) : Prop :=
  input s' = input s /\ nested s' = nested s /\ cx s' = cx s /\ code_keep (code s) (code s') /\
  dbg s' = dbg s /\ flows s' = flows s /\ dict s' = dict s /\ rs s' = rs s /\
  loops s' = loops s /\ special s' = special s /\ heap s' = heap s /\ ds s' = ds s /\
  insn_limit s' = insn_limit s /\ heap_limit s' = heap_limit s /\ stack_limit s' = stack_limit s.

Lemma upto_stubs_same s s' : Forall (fun op => is_resolve op = false) (code s) ->
  same_machine_upto_stubs s s' -> same_machine s s'.
Proof.
  intros Hnr (A1 & A2 & A3 & A4 & A). split; [exact A1|]. split; [exact A2|]. split; [exact A3|].
  split; [apply code_keep_eq; assumption|exact A].
Qed.

Section Unwind.
  Variable fo : fops.
  Variable pr : string -> option Z.
  Variable rf : nat.
  Variable b : state.
  Variable m : mode.
  Hypothesis Hin : input b = [].
  Hypothesis Hdl : length (dbg b) = length (code b).

  Local Notation unwound := (build_unwind (length (nested b)) (length (input b)) (length (ds b)) (length (heap b))).

  (* every stack is cut at a mark of the context opened for the source, and the invariant
     says that below those marks nothing has moved *)
  Theorem build_unwind_restores_upto t : binv b m t -> same_machine_upto_stubs b (unwound t).
  Proof.
    intros [[ms [E F]] B]. rewrite (build_unwind_chain _ _ _ _ _ _ _ _ E), Hin.
    destruct (bi_flows b t B) as [new [Ef _]]. destruct (bi_lim b t B) as (L1 & L2 & L3).
    unfold same_machine_upto_stubs.
    cbn [set_cx set_nested set_input unwind_cut tmp_ctx length
         input nested cx code dbg flows dict rs loops special heap ds insn_limit heap_limit stack_limit
         cs_len rs_len fs_len ls_len ss_ptr di_len].
    split; [rewrite Hin; apply lastn_0|]. split; [reflexivity|]. split; [reflexivity|].
    split; [apply kprefix_firstn_keep, B|]. repeat split; try assumption.
    - rewrite <- Hdl. apply prefix_firstn_eq, B.
    - apply lastn_length_eq. exists new. exact Ef.
    - apply prefix_firstn_eq, B.
    - apply lastn_length_eq, B.
    - apply lastn_length_eq, B.
    - apply lastn_length_eq, B.
    - apply prefix_firstn_eq, B.
    - apply lastn_length_eq, B.
  Qed.

  Theorem build_unwind_restores t : Forall (fun op => is_resolve op = false) (code b) ->
    binv b m t -> same_machine b (unwound t).
  Proof. intros Hnr H. apply upto_stubs_same; [exact Hnr|apply build_unwind_restores_upto, H]. Qed.

  Hypothesis Hm : m <> MMeta.

  Lemma binv_start src s1 : (context_open m ;; intern_source src) b = ROk tt s1 ->
    binv b m s1 /\ length (nested s1) = S (length (nested b)).
  Proof.
    unfold bind, context_open, intern_source. cbv zeta. intros E. injection E as <-.
    st_simpl. split; [|reflexivity]. split.
    - exists []. st_simpl. split; [reflexivity|constructor].
    - constructor; st_simpl; try apply kprefix_refl; try apply prefix_refl; try apply suffix_refl;
        try (repeat split; reflexivity); try exact Hdl; try reflexivity.
      exists []. split; [reflexivity|constructor].
  Qed.

  Lemma build_binv fuel src s1 : (context_open m ;; intern_source src) b = ROk tt s1 ->
    calls_bad fo pr rf (length (dict b)) fuel (length (nested s1)) s1 = false ->
    res_all (binv b m) (build1 fo pr rf fuel (length (nested s1)) s1).
  Proof. intros E1 CB. apply (build1_inv fo pr rf b m Hm Hdl); [apply (binv_start src), E1|exact CB]. Qed.

  (* MAIN: a source rejected at build time is unwound from a state satisfying the invariant,
     hence leaves the machine as it was *)
  Theorem build_failure_unwinds fuel src s1 k p s2 :
    (context_open m ;; intern_source src) b = ROk tt s1 ->
    build1 fo pr rf fuel (length (nested s1)) s1 = RErr k p s2 ->
    calls_bad fo pr rf (length (dict b)) fuel (length (nested s1)) s1 = false ->
    binv b m s2 /\ build_from_source fo pr rf fuel src m b = RErr k p (unwound s2).
  Proof.
    intros E1 E2 CB. split.
    - pose proof (build_binv fuel src s1 E1 CB) as X. rewrite E2 in X. exact X.
    - unfold build_from_source. cbv zeta. rewrite E1, E2. reflexivity.
  Qed.

  Theorem build_failure_restores_upto fuel src s1 k p s2 :
    (context_open m ;; intern_source src) b = ROk tt s1 ->
    build1 fo pr rf fuel (length (nested s1)) s1 = RErr k p s2 ->
    calls_bad fo pr rf (length (dict b)) fuel (length (nested s1)) s1 = false ->
    exists s', build_from_source fo pr rf fuel src m b = RErr k p s' /\ same_machine_upto_stubs b s'.
  Proof.
    intros E1 E2 CB. destruct (build_failure_unwinds fuel src s1 k p s2 E1 E2 CB) as [X E].
    eexists. split; [exact E|apply build_unwind_restores_upto, X].
  Qed.
End Unwind.
