(* C16 (continued) - the lexer reads literals as written; comments and whitespace are transparent.
   Each statement with its proof, or the lemma that proves it, from Proofs/LexStr.v, LexStrPlain.v, LexMoreNum.v, LexMoreBits.v, LexMoreCmt.v,
   LexMoreShift.v, LexMoreWords.v, LexMoreLocal.v, LexMoreComplete.v, LexMorePrint.v,
   LexMoreExtra.v.
   Conventions: a lexer state [l] is arbitrary (any position in any text) unless stated; [rest] is
   the text that follows the literal; [next_is_ws_or_end rest] says that ASCII whitespace or the end
   of the text follows.  The "items" types describe a written literal character by character:
     sitem (string bodies), nitem (digits and '_'), bitem (bit-string characters). *)
From Xeh Require Import Model.Prelude Model.Bits Model.Codec Model.Cell Model.Lexer Model.Fmt Model.Vm Model.Words
  Model.Build Model.Boot.
From Xeh Require Import Proofs.BitsProofs Proofs.LexProofs Proofs.LexStr Proofs.LexStrPlain Proofs.LexMoreNum Proofs.LexMoreBits
  Proofs.LexMoreCmt Proofs.LexMoreShift Proofs.LexMoreWords Proofs.LexMoreLocal Proofs.LexMoreComplete Proofs.LexMorePrint Proofs.LexMoreExtra.
Local Open Scope string_scope.

(* 1. string literals *)

(* a known escape (backslash followed by one of: backslash, double quote, n, r, t) contributes the
   character [escape_value] gives for it and consumes two bytes *)
Theorem C16_str_escape :
  forall curly f c v r pos tmp start endpos, escape_value c = Some v ->
  lex_str curly (S f) (String "\" (String c r)) pos tmp start endpos =
  lex_str curly f r (pos + 2) (tmp ++ String v "") start endpos.
Proof. exact lex_str_escape. Qed.
Check C16_str_escape :
  forall curly f c v r pos tmp start endpos, escape_value c = Some v ->
  lex_str curly (S f) (String "\" (String c r)) pos tmp start endpos =
  lex_str curly f r (pos + 2) (tmp ++ String v "") start endpos.

(* the table of escapes, spelled out *)
Theorem C16_str_escape_table :
  escape_value "\" = Some "\"%char /\ escape_value """" = Some """"%char /\
  escape_value "n" = Some (ascii_of_N 10) /\ escape_value "r" = Some (ascii_of_N 13) /\
  escape_value "t" = Some (ascii_of_N 9) /\
  (forall c, escape_value c <> None ->
     c = "\"%char \/ c = """"%char \/ c = "n"%char \/ c = "r"%char \/ c = "t"%char).
Proof. exact escape_table. Qed.
Check C16_str_escape_table :
  escape_value "\" = Some "\"%char /\ escape_value """" = Some """"%char /\
  escape_value "n" = Some (ascii_of_N 10) /\ escape_value "r" = Some (ascii_of_N 13) /\
  escape_value "t" = Some (ascii_of_N 9) /\
  (forall c, escape_value c <> None ->
     c = "\"%char \/ c = """"%char \/ c = "n"%char \/ c = "r"%char \/ c = "t"%char).

(* any other character after a backslash - whole, of any width - is the error "unknown escape" whose
   span is the backslash and that character *)
Theorem C16_str_unknown_escape :
  forall curly f r c2 r2 pos tmp start endpos,
  take_char r = Some (c2, r2) -> (forall c, escape_value c <> None -> c2 <> String c "") ->
  lex_str curly (S f) (String "\" r) pos tmp start endpos =
  (TErr PEscape pos (S pos + String.length c2), r2, S pos + String.length c2).
Proof. exact lex_str_bad_escape. Qed.
Check C16_str_unknown_escape :
  forall curly f r c2 r2 pos tmp start endpos,
  take_char r = Some (c2, r2) -> (forall c, escape_value c <> None -> c2 <> String c "") ->
  lex_str curly (S f) (String "\" r) pos tmp start endpos =
  (TErr PEscape pos (S pos + String.length c2), r2, S pos + String.length c2).

(* THE QUOTE RULE.  [curly] says which quote opened the literal: false - the straight quote,
   true - the left curly quote (U+201C).  A straight quote closes either kind; the right curly quote
   (U+201D) closes a literal only if a left curly quote opened it *)
Theorem C16_str_quotes_spec :
  (forall q, is_opener false q <-> q = dq) /\ (forall q, is_opener true q <-> q = ldq) /\
  (forall q, is_closer false q <-> q = dq) /\ (forall q, is_closer true q <-> (q = dq \/ q = rdq)).
Proof.
  split; [intros q; reflexivity|]. split; [intros q; reflexivity|]. split; intros q; split.
  - intros [H|[H _]]; [exact H|discriminate].
  - intros H. left. exact H.
  - intros [H|[_ H]]; [left; exact H|right; exact H].
  - intros [H|H]; [left; exact H|right; split; [reflexivity|exact H]].
Qed.
Check C16_str_quotes_spec :
  (forall q, is_opener false q <-> q = dq) /\ (forall q, is_opener true q <-> q = ldq) /\
  (forall q, is_closer false q <-> q = dq) /\ (forall q, is_closer true q <-> (q = dq \/ q = rdq)).

(* ... and accordingly the right curly quote, as an item of a body ([rdq_item]: its text and its value are
   the three bytes of U+201D), is an ordinary character of a straight-opened literal and is not
   allowed in the body of a curly-opened one; every other item is allowed in both alike *)
Theorem C16_str_rdq_item_spec :
  sitem_text rdq_item = rdq /\ sitem_value rdq_item = rdq /\
  sitem_ok false rdq_item = true /\ sitem_ok true rdq_item = false /\
  (forall i, sitem_ok true i = true -> sitem_ok false i = true) /\
  (forall i, sitem_ok false i = true -> i <> rdq_item -> sitem_ok true i = true).
Proof. exact rdq_item_spec. Qed.
Check C16_str_rdq_item_spec :
  sitem_text rdq_item = rdq /\ sitem_value rdq_item = rdq /\
  sitem_ok false rdq_item = true /\ sitem_ok true rdq_item = false /\
  (forall i, sitem_ok true i = true -> sitem_ok false i = true) /\
  (forall i, sitem_ok false i = true -> i <> rdq_item -> sitem_ok true i = true).

(* READING A WRITTEN STRING LITERAL.  Opening quote (straight: curly = false, left curly: curly = true),
   a body of ordinary bytes, three-byte characters led by E2 - any of them in a straight-opened
   literal, so the right curly quote is part of the value there; any but the right curly quote in a
   curly-opened one - and known escapes, closing quote (straight, or right curly if curly = true):
   the token is the string made of the item values when whitespace or the end follows, the error
   "expect whitespace" otherwise; the state afterwards is just past the closing quote.  Any lexer
   state, any continuation *)
Theorem C16_str_literal :
  forall l curly qo items qc rest,
  is_opener curly qo -> is_closer curly qc -> forallb (sitem_ok curly) items = true ->
  lrest l = qo ++ sitems_text items ++ qc ++ rest ->
  let p' := lpos l + String.length qo + String.length (sitems_text items) + String.length qc in
  lex_next l = (if next_is_ws_or_end rest then TLit (CStr (sitems_value items))
                else TErr PExpectWs (lpos l) p',
                mklex rest p' (lpos l) (llen l)).
Proof. exact lex_next_string. Qed.
Check C16_str_literal :
  forall l curly qo items qc rest,
  is_opener curly qo -> is_closer curly qc -> forallb (sitem_ok curly) items = true ->
  lrest l = qo ++ sitems_text items ++ qc ++ rest ->
  let p' := lpos l + String.length qo + String.length (sitems_text items) + String.length qc in
  lex_next l = (if next_is_ws_or_end rest then TLit (CStr (sitems_value items))
                else TErr PExpectWs (lpos l) p',
                mklex rest p' (lpos l) (llen l)).

(* A LITERAL WITHOUT ESCAPES DENOTES ITS TEXT: every valid UTF-8 body without backslash and straight
   quote - and, only if the literal is curly-opened, without right curly quote ([plain_text curly]) -
   between an opening quote and a matching closing quote, in any lexer state *)
Theorem C16_str_plain_literal :
  forall l curly qo s qc rest,
  is_opener curly qo -> is_closer curly qc -> valid_utf8 s = true -> plain_text curly s = true ->
  lrest l = qo ++ s ++ qc ++ rest ->
  let p' := lpos l + String.length qo + String.length s + String.length qc in
  lex_next l = (if next_is_ws_or_end rest then TLit (CStr s) else TErr PExpectWs (lpos l) p',
                mklex rest p' (lpos l) (llen l)).
Proof. exact lex_next_plain_string. Qed.
Check C16_str_plain_literal :
  forall l curly qo s qc rest,
  is_opener curly qo -> is_closer curly qc -> valid_utf8 s = true -> plain_text curly s = true ->
  lrest l = qo ++ s ++ qc ++ rest ->
  let p' := lpos l + String.length qo + String.length s + String.length qc in
  lex_next l = (if next_is_ws_or_end rest then TLit (CStr s) else TErr PExpectWs (lpos l) p',
                mklex rest p' (lpos l) (llen l)).

(* ... as a whole text *)
Theorem C16_str_plain_literal_string :
  forall s, valid_utf8 s = true -> plain_text false s = true ->
  let txt := dq ++ s ++ dq in
  lex_string txt = [(TLit (CStr s), 0, String.length txt); (TEnd, String.length txt, String.length txt)].
Proof. exact lex_string_plain_string. Qed.
Check C16_str_plain_literal_string :
  forall s, valid_utf8 s = true -> plain_text false s = true ->
  let txt := dq ++ s ++ dq in
  lex_string txt = [(TLit (CStr s), 0, String.length txt); (TEnd, String.length txt, String.length txt)].

(* for a straight-opened literal [plain_text] is just: no backslash, no straight quote; a body that is
   plain for a curly-opened literal is plain for a straight-opened one *)
Theorem C16_str_plain_text_straight :
  (forall s, plain_text false s = no_backslash_no_quote s) /\
  (forall s, plain_text true s = true -> plain_text false s = true).
Proof. exact (conj plain_text_straight plain_text_curly_straight). Qed.
Check C16_str_plain_text_straight :
  (forall s, plain_text false s = no_backslash_no_quote s) /\
  (forall s, plain_text true s = true -> plain_text false s = true).

(* [no_backslash_no_quote], spelled out on the bytes of the text *)
Theorem C16_str_no_backslash_no_quote_spec :
  forall s, no_backslash_no_quote s = true <->
  (forall i c, String.get i s = Some c -> c <> "\"%char /\ c <> """"%char).
Proof. exact no_backslash_no_quote_spec. Qed.
Check C16_str_no_backslash_no_quote_spec :
  forall s, no_backslash_no_quote s = true <->
  (forall i c, String.get i s = Some c -> c <> "\"%char /\ c <> """"%char).

(* STRAIGHT-QUOTED TEXT READS BACK VERBATIM (the lexer side of print/read for the text the printer writes
   verbatim, non-ASCII included): every valid UTF-8 string without backslash and without straight
   quote - with any number of curly quotes of either kind - between straight quotes is one
   literal whose value is that string *)
Theorem C16_str_straight_literal_string :
  forall s, valid_utf8 s = true -> no_backslash_no_quote s = true ->
  let txt := dq ++ s ++ dq in
  lex_string txt = [(TLit (CStr s), 0, String.length txt); (TEnd, String.length txt, String.length txt)].
Proof.
  intros s Hv Hp. apply lex_string_plain_string; [exact Hv|]. rewrite plain_text_straight. exact Hp.
Qed.
Check C16_str_straight_literal_string :
  forall s, valid_utf8 s = true -> no_backslash_no_quote s = true ->
  let txt := dq ++ s ++ dq in
  lex_string txt = [(TLit (CStr s), 0, String.length txt); (TEnd, String.length txt, String.length txt)].

(* ... in any lexer state and with any continuation *)
Theorem C16_str_straight_literal :
  forall l s rest, valid_utf8 s = true -> no_backslash_no_quote s = true ->
  lrest l = dq ++ s ++ dq ++ rest ->
  let p' := lpos l + String.length s + 2 in
  lex_next l = (if next_is_ws_or_end rest then TLit (CStr s) else TErr PExpectWs (lpos l) p',
                mklex rest p' (lpos l) (llen l)).
Proof.
  intros l s rest Hv Hp Hl p'. rewrite <- plain_text_straight in Hp.
  rewrite (lex_next_plain_string l false dq s dq rest eq_refl (or_introl eq_refl) Hv Hp Hl).
  cbv zeta. subst p'. change (String.length dq) with 1.
  replace (lpos l + 1 + String.length s + 1) with (lpos l + String.length s + 2) by lia. reflexivity.
Qed.
Check C16_str_straight_literal :
  forall l s rest, valid_utf8 s = true -> no_backslash_no_quote s = true ->
  lrest l = dq ++ s ++ dq ++ rest ->
  let p' := lpos l + String.length s + 2 in
  lex_next l = (if next_is_ws_or_end rest then TLit (CStr s) else TErr PExpectWs (lpos l) p',
                mklex rest p' (lpos l) (llen l)).

(* ... in particular with a curly quote (right or left) anywhere inside: it is part of the value *)
Theorem C16_str_straight_curly_inside :
  forall a q b, valid_utf8 a = true -> valid_utf8 b = true ->
  no_backslash_no_quote a = true -> no_backslash_no_quote b = true -> q = rdq \/ q = ldq ->
  let s := a ++ q ++ b in
  let txt := dq ++ s ++ dq in
  lex_string txt = [(TLit (CStr s), 0, String.length txt); (TEnd, String.length txt, String.length txt)].
Proof.
  intros a q b Ha Hb Na Nb Hq s. apply C16_str_straight_literal_string; subst s.
  - apply valid_utf8_app; [exact Ha|]. apply valid_utf8_app; [|exact Hb]. destruct Hq as [->| ->]; reflexivity.
  - rewrite !no_backslash_no_quote_app, Na, Nb. destruct Hq as [->| ->]; reflexivity.
Qed.
Check C16_str_straight_curly_inside :
  forall a q b, valid_utf8 a = true -> valid_utf8 b = true ->
  no_backslash_no_quote a = true -> no_backslash_no_quote b = true -> q = rdq \/ q = ldq ->
  let s := a ++ q ++ b in
  let txt := dq ++ s ++ dq in
  lex_string txt = [(TLit (CStr s), 0, String.length txt); (TEnd, String.length txt, String.length txt)].

(* a right curly quote does not close a straight-opened literal: with nothing else after it the string is
   unterminated *)
Theorem C16_str_straight_curly_close_unterminated :
  forall s, valid_utf8 s = true -> no_backslash_no_quote s = true ->
  let txt := dq ++ s ++ rdq in
  lex_string txt = [(TErr PUntermStr (String.length txt) (String.length txt), 0, String.length txt)].
Proof. exact lex_string_straight_curly_close. Qed.
Check C16_str_straight_curly_close_unterminated :
  forall s, valid_utf8 s = true -> no_backslash_no_quote s = true ->
  let txt := dq ++ s ++ rdq in
  lex_string txt = [(TErr PUntermStr (String.length txt) (String.length txt), 0, String.length txt)].

(* a body without escapes is a written body in the sense of C16_str_literal (so escapes can be mixed in freely) *)
Theorem C16_str_plain_items :
  forall curly s, valid_utf8 s = true -> plain_text curly s = true ->
  forallb (sitem_ok curly) (text_items s) = true /\ sitems_text (text_items s) = s /\ sitems_value (text_items s) = s.
Proof. exact text_items_ok. Qed.
Check C16_str_plain_items :
  forall curly s, valid_utf8 s = true -> plain_text curly s = true ->
  forallb (sitem_ok curly) (text_items s) = true /\ sitems_text (text_items s) = s /\ sitems_value (text_items s) = s.

(* PRINT/READ ROUND TRIP, whole text: every string the printer renders reads back as itself *)
Theorem C16_print_read_str :
  forall s b, fmt_str_body s = Some b ->
  let txt := dq ++ b ++ dq in
  lex_string txt = [(TLit (CStr s), 0, String.length txt); (TEnd, String.length txt, String.length txt)].
Proof.
  intros s b H txt. pose proof (print_read_str_then s b "" H eq_refl) as E. cbv zeta in E.
  fold txt in E. rewrite app_nil_r_s in E. exact E.
Qed.
Check C16_print_read_str :
  forall s b, fmt_str_body s = Some b ->
  let txt := dq ++ b ++ dq in
  lex_string txt = [(TLit (CStr s), 0, String.length txt); (TEnd, String.length txt, String.length txt)].

(* the same on the printer entry point, for every flags word *)
Theorem C16_print_read_str_cell :
  forall f s txt, fmt_cell f (CStr s) = Some txt ->
  lex_string txt = [(TLit (CStr s), 0, String.length txt); (TEnd, String.length txt, String.length txt)].
Proof.
  intros f s txt H. cbn [fmt_cell] in H.
  destruct (fl_fit f && (75 <? String.length s)%nat); [discriminate|].
  destruct (fmt_str_body s) as [b|] eqn:Eb; [|discriminate]. injection H as <-.
  exact (C16_print_read_str s b Eb).
Qed.
Check C16_print_read_str_cell :
  forall f s txt, fmt_cell f (CStr s) = Some txt ->
  lex_string txt = [(TLit (CStr s), 0, String.length txt); (TEnd, String.length txt, String.length txt)].

(* round trip in any lexer state and with any continuation: a printed string followed by whitespace
   or the end is read as its value and the lexer stands right after it; followed by anything else
   it is the error "expect whitespace" *)
Theorem C16_print_read_str_next :
  forall l s b rest, fmt_str_body s = Some b ->
  lrest l = dq ++ b ++ dq ++ rest ->
  let p' := lpos l + String.length b + 2 in
  lex_next l = (if next_is_ws_or_end rest then TLit (CStr s) else TErr PExpectWs (lpos l) p',
                mklex rest p' (lpos l) (llen l)).
Proof. exact lex_next_printed_string. Qed.
Check C16_print_read_str_next :
  forall l s b rest, fmt_str_body s = Some b ->
  lrest l = dq ++ b ++ dq ++ rest ->
  let p' := lpos l + String.length b + 2 in
  lex_next l = (if next_is_ws_or_end rest then TLit (CStr s) else TErr PExpectWs (lpos l) p',
                mklex rest p' (lpos l) (llen l)).

(* a printed string followed by whitespace and any further text: it is the first token, and the
   remaining tokens are those of the further text *)
Theorem C16_print_read_str_then :
  forall s b rest, fmt_str_body s = Some b ->
  next_is_ws_or_end rest = true ->
  let txt := dq ++ b ++ dq in
  lex_string (txt ++ rest) =
  (TLit (CStr s), 0, String.length txt) :: lex_from rest (String.length txt) (String.length (txt ++ rest)).
Proof. exact print_read_str_then. Qed.
Check C16_print_read_str_then :
  forall s b rest, fmt_str_body s = Some b ->
  next_is_ws_or_end rest = true ->
  let txt := dq ++ b ++ dq in
  lex_string (txt ++ rest) =
  (TLit (CStr s), 0, String.length txt) :: lex_from rest (String.length txt) (String.length (txt ++ rest)).

(* the body the printer writes is a written body in the above sense, with the string as its value *)
Theorem C16_print_str_items :
  forall s b, fmt_str_body s = Some b -> forall curly,
  forallb (sitem_ok curly) (print_items s) = true /\ sitems_text (print_items s) = b /\
  sitems_value (print_items s) = s.
Proof. exact fmt_str_body_items. Qed.
Check C16_print_str_items :
  forall s b, fmt_str_body s = Some b -> forall curly,
  forallb (sitem_ok curly) (print_items s) = true /\ sitems_text (print_items s) = b /\
  sitems_value (print_items s) = s.

(* no closing quote: "unterminated string" at the end of the text *)
Theorem C16_str_unterminated :
  forall l curly qo items,
  is_opener curly qo -> forallb (sitem_ok curly) items = true -> lrest l = qo ++ sitems_text items ->
  let p' := lpos l + String.length qo + String.length (sitems_text items) in
  lex_next l = (TErr PUntermStr p' (llen l), mklex "" p' (lpos l) (llen l)).
Proof. exact lex_next_string_unterminated. Qed.
Check C16_str_unterminated :
  forall l curly qo items,
  is_opener curly qo -> forallb (sitem_ok curly) items = true -> lrest l = qo ++ sitems_text items ->
  let p' := lpos l + String.length qo + String.length (sitems_text items) in
  lex_next l = (TErr PUntermStr p' (llen l), mklex "" p' (lpos l) (llen l)).

(* a backslash as the last character of the text: "unterminated string" at the backslash *)
Theorem C16_str_trailing_backslash :
  forall l curly qo items,
  is_opener curly qo -> forallb (sitem_ok curly) items = true -> lrest l = qo ++ sitems_text items ++ "\" ->
  let p := lpos l + String.length qo + String.length (sitems_text items) in
  lex_next l = (TErr PUntermStr p (llen l), mklex "" (S p) (lpos l) (llen l)).
Proof.
  intros l curly qo items Ho Hok Hl p. rewrite (lex_next_opener l curly qo _ Ho Hl).
  rewrite lex_str_items_then; [|exact Hok|lia]. reflexivity.
Qed.
Check C16_str_trailing_backslash :
  forall l curly qo items,
  is_opener curly qo -> forallb (sitem_ok curly) items = true -> lrest l = qo ++ sitems_text items ++ "\" ->
  let p := lpos l + String.length qo + String.length (sitems_text items) in
  lex_next l = (TErr PUntermStr p (llen l), mklex "" (S p) (lpos l) (llen l)).

(* an unknown escape inside a literal: the error token, wherever it stands in the body *)
Theorem C16_str_literal_unknown_escape :
  forall l curly qo items r c2 r2,
  is_opener curly qo -> forallb (sitem_ok curly) items = true -> lrest l = qo ++ sitems_text items ++ String "\" r ->
  take_char r = Some (c2, r2) -> (forall c, escape_value c <> None -> c2 <> String c "") ->
  let p := lpos l + String.length qo + String.length (sitems_text items) in
  lex_next l = (TErr PEscape p (S p + String.length c2), mklex r2 (S p + String.length c2) (lpos l) (llen l)).
Proof.
  intros l curly qo items r c2 r2 Ho Hok Hl Ht Hc p. rewrite (lex_next_opener l curly qo _ Ho Hl).
  rewrite lex_str_items_then; [|exact Hok|lia].
  rewrite (lex_str_bad_escape _ _ r c2 r2 _ _ _ _ Ht Hc). reflexivity.
Qed.
Check C16_str_literal_unknown_escape :
  forall l curly qo items r c2 r2,
  is_opener curly qo -> forallb (sitem_ok curly) items = true -> lrest l = qo ++ sitems_text items ++ String "\" r ->
  take_char r = Some (c2, r2) -> (forall c, escape_value c <> None -> c2 <> String c "") ->
  let p := lpos l + String.length qo + String.length (sitems_text items) in
  lex_next l = (TErr PEscape p (S p + String.length c2), mklex r2 (S p + String.length c2) (lpos l) (llen l)).

(* COMPLETENESS: in a valid UTF-8 text, whatever follows an opening quote (of either kind: [curly]) is a
   written body for that kind of literal followed by
   one of: a closing quote for that kind (C16_str_literal), the end of the text (C16_str_unterminated), a final
   backslash (C16_str_trailing_backslash), an unknown escape (C16_str_literal_unknown_escape) -
   so these four statements describe Lex::next on every string literal *)
Theorem C16_str_complete :
  forall curly s, valid_utf8 s = true ->
  exists items tl, forallb (sitem_ok curly) items = true /\ s = sitems_text items ++ tl /\ str_tail curly tl.
Proof.
  intros curly s Hv. exact (str_decompose curly (String.length s) s 0 (le_n _) Hv).
Qed.
Check C16_str_complete :
  forall curly s, valid_utf8 s = true ->
  exists items tl, forallb (sitem_ok curly) items = true /\ s = sitems_text items ++ tl /\ str_tail curly tl.

(* [str_tail], spelled out: after a straight opening quote only the straight quote is a closing quote
   (C16_str_quotes_spec), so a right curly quote is never a tail there - it is an item of the body *)
Theorem C16_str_tail_spec :
  forall curly tl, str_tail curly tl <->
  ((exists q rest, is_closer curly q /\ tl = q ++ rest) \/ tl = "" \/ tl = "\" \/
   (exists r c2 r2, tl = String "\" r /\ take_char r = Some (c2, r2) /\
                    forall c, escape_value c <> None -> c2 <> String c "")).
Proof. exact str_tail_spec. Qed.
Check C16_str_tail_spec :
  forall curly tl, str_tail curly tl <->
  ((exists q rest, is_closer curly q /\ tl = q ++ rest) \/ tl = "" \/ tl = "\" \/
   (exists r c2 r2, tl = String "\" r /\ take_char r = Some (c2, r2) /\
                    forall c, escape_value c <> None -> c2 <> String c "")).

(* non-vacuity: a string with every escape, a quote and a backslash inside, printed and read *)
Example C16_ex_print_read_str :
  let s := "a""b\c" ++ String (ascii_of_N 10) (String (ascii_of_N 13) (String (ascii_of_N 9) " z~")) in
  fmt_cell fmt_default (CStr s) = Some """a\""b\\c\n\r\t z~""" /\
  lex_string """a\""b\\c\n\r\t z~""" = [(TLit (CStr s), 0, 18); (TEnd, 18, 18)].
Proof. vm_compute. split; reflexivity. Qed.

(* a plain body with a three-byte character; bodies that are not plain (the right curly quote only
   for a curly-opened literal) *)
Example C16_ex_str_plain :
  let euro := String (ascii_of_N 226) (String (ascii_of_N 130) (String (ascii_of_N 172) "")) in
  let s := "a " ++ euro ++ " b" in
  valid_utf8 s = true /\ plain_text false s = true /\ plain_text true s = true /\
  lex_string (dq ++ s ++ dq) = [(TLit (CStr s), 0, 9); (TEnd, 9, 9)] /\
  plain_text true ("a" ++ rdq) = false /\ plain_text false ("a" ++ rdq) = true /\
  no_backslash_no_quote ("a" ++ rdq ++ ldq) = true /\
  plain_text false "a\b" = false /\ plain_text true "a\b" = false.
Proof. vm_compute. repeat split; reflexivity. Qed.

(* curly quotes, a three-byte character (the euro sign E2 82 AC) and a two-byte one in the body *)
Example C16_ex_str_curly :
  let euro := String (ascii_of_N 226) (String (ascii_of_N 130) (String (ascii_of_N 172) "")) in
  let ecute := String (ascii_of_N 195) (String (ascii_of_N 169) "") in
  let items := [SByte "a"; SE2 (ascii_of_N 130) (ascii_of_N 172); SEsc "n"; SByte (ascii_of_N 195); SByte (ascii_of_N 169)] in
  forallb (sitem_ok true) items = true /\ sitems_text items = "a" ++ euro ++ "\n" ++ ecute /\
  lex_string (ldq ++ sitems_text items ++ rdq ++ " 1") =
    [(TLit (CStr ("a" ++ euro ++ String (ascii_of_N 10) ecute)), 0, 14); (TWs, 14, 15); (TLit (CInt 1), 15, 16); (TEnd, 16, 16)].
Proof. vm_compute. repeat split; reflexivity. Qed.

(* the model has no triple-quote form: the third quote is not whitespace; and the error cases *)
Example C16_ex_str_errors :
  lex_string """""""abc""""""" = [(TErr PExpectWs 0 2, 0, 2)] /\
  lex_string """abc" = [(TErr PUntermStr 4 4, 0, 4)] /\
  lex_string """a\qb""" = [(TErr PEscape 2 4, 0, 4)] /\
  lex_string """abc""def" = [(TErr PExpectWs 0 5, 0, 5)] /\
  lex_string """abc\" = [(TErr PUntermStr 4 5, 0, 5)].
Proof. vm_compute. repeat split; reflexivity. Qed.

(* a right curly quote inside a straight-quoted literal is part of the value (before the repair of the
   lexer it ended the literal: the first text gave TErr PExpectWs 0 5), also together with a left one
   and next to an escape; the backslash still does not escape it; the model's printer renders
   ASCII only (fmt_str_body = None for this string) - the Rust printer writes it verbatim, which
   is the first text *)
Example C16_ex_str_curly_inside :
  lex_string (dq ++ "a" ++ rdq ++ "b" ++ dq) = [(TLit (CStr ("a" ++ rdq ++ "b")), 0, 7); (TEnd, 7, 7)] /\
  lex_string (dq ++ rdq ++ ldq ++ rdq ++ "\n" ++ rdq ++ dq) =
    [(TLit (CStr (rdq ++ ldq ++ rdq ++ String (ascii_of_N 10) rdq)), 0, 16); (TEnd, 16, 16)] /\
  lex_string (dq ++ "a\" ++ rdq ++ "b" ++ dq) = [(TErr PEscape 2 6, 0, 6)] /\
  fmt_str_body ("a" ++ rdq ++ "b") = None.
Proof. vm_compute. repeat split; reflexivity. Qed.

(* which quote closes which: a curly-opened literal is closed by the right curly quote or by the
   straight quote; a straight-opened one by the straight quote only - with a right curly quote in
   its place the string is unterminated; a right curly quote inside a curly-opened literal ends it *)
Example C16_ex_str_curly_close :
  lex_string (ldq ++ "abc" ++ rdq) = [(TLit (CStr "abc"), 0, 9); (TEnd, 9, 9)] /\
  lex_string (ldq ++ "abc" ++ dq) = [(TLit (CStr "abc"), 0, 7); (TEnd, 7, 7)] /\
  lex_string (dq ++ "abc" ++ rdq) = [(TErr PUntermStr 7 7, 0, 7)] /\
  lex_string (dq ++ "abc" ++ rdq ++ " 1 " ++ dq) = [(TLit (CStr ("abc" ++ rdq ++ " 1 ")), 0, 11); (TEnd, 11, 11)] /\
  lex_string (ldq ++ "a" ++ rdq ++ "b" ++ rdq) = [(TErr PExpectWs 0 7, 0, 7)] /\
  lex_string (ldq ++ "a" ++ rdq ++ " b") = [(TLit (CStr "a"), 0, 7); (TWs, 7, 8); (TWord "b", 8, 9); (TEnd, 9, 9)].
Proof. vm_compute. repeat split; reflexivity. Qed.

(* 5. integer literals in every radix, with separators *)

(* the three radix markers: 0x (radix 16), 0b (radix 2), 0o (radix 8); lower-case letters only *)
Theorem C16_rmark_spec :
  rmark_text RHex = "x" /\ rmark_radix RHex = 16%N /\
  rmark_text RBin = "b" /\ rmark_radix RBin = 2%N /\
  rmark_text ROct = "o" /\ rmark_radix ROct = 8%N /\
  (forall c r, radix_mark (String c r) =
     if (byte_of c =? 98)%N then Some 2%N else if (byte_of c =? 120)%N then Some 16%N
     else if (byte_of c =? 111)%N then Some 8%N else None) /\
  radix_mark "" = None.
Proof.
  repeat split.
Qed.
Check C16_rmark_spec :
  rmark_text RHex = "x" /\ rmark_radix RHex = 16%N /\
  rmark_text RBin = "b" /\ rmark_radix RBin = 2%N /\
  rmark_text ROct = "o" /\ rmark_radix ROct = 8%N /\
  (forall c r, radix_mark (String c r) =
     if (byte_of c =? 98)%N then Some 2%N else if (byte_of c =? 120)%N then Some 16%N
     else if (byte_of c =? 111)%N then Some 8%N else None) /\
  radix_mark "" = None.

(* [sign] 0x / 0b / 0o followed by digits of the radix (either case) and separators, then whitespace
   or the end: the literal denotes the written value when it has at least one digit and fits i128,
   and is the error "parse int" otherwise *)
Theorem C16_int_literal_marked :
  forall l sg (m : rmark) items rest,
  let radix := rmark_radix m in
  forallb (nitem_ok radix) items = true -> next_is_ws_or_end rest = true ->
  lrest l = sgn_text sg ++ "0" ++ rmark_text m ++ nitems_text items ++ rest ->
  let p4 := lpos l + String.length (sgn_text sg) + 2 + List.length items in
  lex_next l = (int_tok sg radix items (lpos l) p4, mklex rest p4 (lpos l) (llen l)).
Proof. exact lex_next_int_marked. Qed.
Check C16_int_literal_marked :
  forall l sg (m : rmark) items rest,
  let radix := rmark_radix m in
  forallb (nitem_ok radix) items = true -> next_is_ws_or_end rest = true ->
  lrest l = sgn_text sg ++ "0" ++ rmark_text m ++ nitems_text items ++ rest ->
  let p4 := lpos l + String.length (sgn_text sg) + 2 + List.length items in
  lex_next l = (int_tok sg radix items (lpos l) p4, mklex rest p4 (lpos l) (llen l)).

(* [sign] a non-zero decimal digit followed by decimal digits and separators: decimal *)
Theorem C16_int_literal_decimal :
  forall l sg up d0 items rest,
  (1 <= d0 <= 9)%N -> forallb (nitem_ok 10) items = true -> next_is_ws_or_end rest = true ->
  lrest l = sgn_text sg ++ nitems_text (NDig up d0 :: items) ++ rest ->
  let p4 := lpos l + String.length (sgn_text sg) + 1 + List.length items in
  lex_next l = (int_tok sg 10 (NDig up d0 :: items) (lpos l) p4, mklex rest p4 (lpos l) (llen l)).
Proof. exact lex_next_int_decimal. Qed.
Check C16_int_literal_decimal :
  forall l sg up d0 items rest,
  (1 <= d0 <= 9)%N -> forallb (nitem_ok 10) items = true -> next_is_ws_or_end rest = true ->
  lrest l = sgn_text sg ++ nitems_text (NDig up d0 :: items) ++ rest ->
  let p4 := lpos l + String.length (sgn_text sg) + 1 + List.length items in
  lex_next l = (int_tok sg 10 (NDig up d0 :: items) (lpos l) p4, mklex rest p4 (lpos l) (llen l)).

(* what [int_tok] is: the token of an integer literal with the given sign, radix and written digits *)
Theorem C16_int_tok_spec :
  forall sg radix items a b,
  int_tok sg radix items a b =
  match nitems_digits items with
  | [] => TErr PInt a b
  | _ => let v := sgn_apply sg (digits_value (Z.of_N radix) (nitems_digits items) 0) in
         if in_i128 v then TLit (CInt v) else TErr PInt a b
  end.
Proof.
  reflexivity.
Qed.
Check C16_int_tok_spec :
  forall sg radix items a b,
  int_tok sg radix items a b =
  match nitems_digits items with
  | [] => TErr PInt a b
  | _ => let v := sgn_apply sg (digits_value (Z.of_N radix) (nitems_digits items) 0) in
         if in_i128 v then TLit (CInt v) else TErr PInt a b
  end.

(* MODEL BEHAVIOUR (recorded): [sign] 0 followed by further digits, without marker, is read in
   radix 16 - 010 is sixteen, 0e5 is 229 *)
Theorem C16_int_literal_leading_zero_is_hex :
  forall l sg items rest,
  forallb (nitem_ok 16) items = true -> next_is_ws_or_end rest = true ->
  radix_mark (nitems_text items ++ rest) = None ->
  lrest l = sgn_text sg ++ "0" ++ nitems_text items ++ rest ->
  let p4 := lpos l + String.length (sgn_text sg) + 1 + List.length items in
  lex_next l = (int_tok sg 16 (NDig false 0 :: items) (lpos l) p4, mklex rest p4 (lpos l) (llen l)).
Proof. exact lex_next_int_leading_zero. Qed.
Check C16_int_literal_leading_zero_is_hex :
  forall l sg items rest,
  forallb (nitem_ok 16) items = true -> next_is_ws_or_end rest = true ->
  radix_mark (nitems_text items ++ rest) = None ->
  lrest l = sgn_text sg ++ "0" ++ nitems_text items ++ rest ->
  let p4 := lpos l + String.length (sgn_text sg) + 1 + List.length items in
  lex_next l = (int_tok sg 16 (NDig false 0 :: items) (lpos l) p4, mklex rest p4 (lpos l) (llen l)).

(* a numeric text without marker and without dot that contains a character which is not a digit of
   its radix (1e5, 12abc, 09z) is the error "parse int" over the whole text *)
Theorem C16_int_literal_bad_digit :
  forall l sg c0 a c b rest,
  is_digit c0 = true -> lrest l = sgn_text sg ++ String c0 ((a ++ String c b) ++ rest) ->
  no_ws (a ++ String c b) = true -> has_dot (a ++ String c b) = false -> next_is_ws_or_end rest = true ->
  ((byte_of c0 =? 48)%N = true -> radix_mark ((a ++ String c b) ++ rest) = None) ->
  (byte_of c =? 95)%N = false ->
  match digit_val c with
  | Some v => (v <? (if (byte_of c0 =? 48)%N then 16 else 10))%N
  | None => false
  end = false ->
  let p4 := lpos l + String.length (sgn_text sg) + 1 + String.length (a ++ String c b) in
  lex_next l = (TErr PInt (lpos l) p4, mklex rest p4 (lpos l) (llen l)).
Proof.
  intros l sg c0 a c b rest Hc Hl Hb Hd Hr Hm Hu Hbad p4.
  rewrite (lex_next_numeric_plain l sg c0 _ rest Hc Hl Hb Hr Hm). cbv zeta. rewrite Hd.
  unfold numeric_tok. rewrite strip_us_app. cbn [strip_us]. rewrite Hu.
  destruct (digit_not_sign c0 Hc) as [N1 N2]. rewrite int_from_str_bad by assumption. reflexivity.
Qed.
Check C16_int_literal_bad_digit :
  forall l sg c0 a c b rest,
  is_digit c0 = true -> lrest l = sgn_text sg ++ String c0 ((a ++ String c b) ++ rest) ->
  no_ws (a ++ String c b) = true -> has_dot (a ++ String c b) = false -> next_is_ws_or_end rest = true ->
  ((byte_of c0 =? 48)%N = true -> radix_mark ((a ++ String c b) ++ rest) = None) ->
  (byte_of c =? 95)%N = false ->
  match digit_val c with
  | Some v => (v <? (if (byte_of c0 =? 48)%N then 16 else 10))%N
  | None => false
  end = false ->
  let p4 := lpos l + String.length (sgn_text sg) + 1 + String.length (a ++ String c b) in
  lex_next l = (TErr PInt (lpos l) p4, mklex rest p4 (lpos l) (llen l)).

(* every numeric text (optional sign, a digit, anything up to the next whitespace): the token is
   determined by the text without its separators - the general form behind the statements above *)
Theorem C16_numeric_text :
  forall l sg c0 body rest,
  is_digit c0 = true -> lrest l = sgn_text sg ++ String c0 (body ++ rest) ->
  no_ws body = true -> next_is_ws_or_end rest = true ->
  ((byte_of c0 =? 48)%N = true -> radix_mark (body ++ rest) = None) ->
  let p4 := lpos l + String.length (sgn_text sg) + 1 + String.length body in
  lex_next l =
  (numeric_tok (lpos l) p4 c0 None (sgn_text sg ++ String c0 (strip_us body)) (has_dot body),
   mklex rest p4 (lpos l) (llen l)).
Proof. exact lex_next_numeric_plain. Qed.
Check C16_numeric_text :
  forall l sg c0 body rest,
  is_digit c0 = true -> lrest l = sgn_text sg ++ String c0 (body ++ rest) ->
  no_ws body = true -> next_is_ws_or_end rest = true ->
  ((byte_of c0 =? 48)%N = true -> radix_mark (body ++ rest) = None) ->
  let p4 := lpos l + String.length (sgn_text sg) + 1 + String.length body in
  lex_next l =
  (numeric_tok (lpos l) p4 c0 None (sgn_text sg ++ String c0 (strip_us body)) (has_dot body),
   mklex rest p4 (lpos l) (llen l)).

(* ... and with a radix marker *)
Theorem C16_numeric_text_marked :
  forall l sg (m : rmark) body rest,
  lrest l = sgn_text sg ++ "0" ++ rmark_text m ++ body ++ rest ->
  no_ws body = true -> next_is_ws_or_end rest = true ->
  let p4 := lpos l + String.length (sgn_text sg) + 2 + String.length body in
  lex_next l =
  (numeric_tok (lpos l) p4 "0" (Some (rmark_radix m)) (sgn_text sg ++ strip_us body) (has_dot body),
   mklex rest p4 (lpos l) (llen l)).
Proof. exact lex_next_numeric_marked. Qed.
Check C16_numeric_text_marked :
  forall l sg (m : rmark) body rest,
  lrest l = sgn_text sg ++ "0" ++ rmark_text m ++ body ++ rest ->
  no_ws body = true -> next_is_ws_or_end rest = true ->
  let p4 := lpos l + String.length (sgn_text sg) + 2 + String.length body in
  lex_next l =
  (numeric_tok (lpos l) p4 "0" (Some (rmark_radix m)) (sgn_text sg ++ strip_us body) (has_dot body),
   mklex rest p4 (lpos l) (llen l)).

(* PRINT/READ in base 2, 8 and 16 (either case) with the radix prefix, any lexer state, any continuation
   that starts with whitespace or is empty: a non-negative integer reads back (negative ones are
   printed as two's complement and do not: C16_known_hex_negative_refuted) *)
Theorem C16_print_read_int_radix_next :
  forall l f z rest,
  (fl_base f = 2 \/ fl_base f = 8 \/ fl_base f = 16)%Z -> fl_prefix f = true -> (0 <= z)%Z -> in_i128 z = true ->
  next_is_ws_or_end rest = true ->
  lrest l = fmt_int f z ++ rest ->
  let p' := lpos l + String.length (fmt_int f z) in
  lex_next l = (TLit (CInt z), mklex rest p' (lpos l) (llen l)).
Proof. exact print_read_int_radix_next. Qed.
Check C16_print_read_int_radix_next :
  forall l f z rest,
  (fl_base f = 2 \/ fl_base f = 8 \/ fl_base f = 16)%Z -> fl_prefix f = true -> (0 <= z)%Z -> in_i128 z = true ->
  next_is_ws_or_end rest = true ->
  lrest l = fmt_int f z ++ rest ->
  let p' := lpos l + String.length (fmt_int f z) in
  lex_next l = (TLit (CInt z), mklex rest p' (lpos l) (llen l)).

(* ... and as a whole text *)
Theorem C16_print_read_int_radix :
  forall f z,
  (fl_base f = 2 \/ fl_base f = 8 \/ fl_base f = 16)%Z -> fl_prefix f = true -> (0 <= z)%Z -> in_i128 z = true ->
  let txt := fmt_int f z in
  lex_string txt = [(TLit (CInt z), 0, String.length txt); (TEnd, String.length txt, String.length txt)].
Proof.
  intros f z Hbase Hp Hz Hi txt. apply lex_string_one_token; [reflexivity|].
  apply (print_read_int_radix_next (lex_new txt) f z "" Hbase Hp Hz Hi eq_refl).
  cbn [lex_new lrest]. rewrite app_nil_r_s. reflexivity.
Qed.
Check C16_print_read_int_radix :
  forall f z,
  (fl_base f = 2 \/ fl_base f = 8 \/ fl_base f = 16)%Z -> fl_prefix f = true -> (0 <= z)%Z -> in_i128 z = true ->
  let txt := fmt_int f z in
  lex_string txt = [(TLit (CInt z), 0, String.length txt); (TEnd, String.length txt, String.length txt)].

(* the octal print reads back (0o was unknown to the lexer before the repair: former finding
   C16_print_octal_refuted); the marker is lower case only, digits must be octal *)
Example C16_ex_print_octal :
  fmt_int (fl_set_base fmt_default 8) 8 = "0o10" /\
  lex_string "0o10" = [(TLit (CInt 8), 0, 4); (TEnd, 4, 4)] /\
  lex_string "-0o1_7" = [(TLit (CInt (-15)), 0, 6); (TEnd, 6, 6)] /\
  lex_string "0O17" = [(TErr PInt 0 4, 0, 4)] /\
  lex_string "0o8" = [(TErr PInt 0 3, 0, 3)].
Proof. vm_compute. repeat split; reflexivity. Qed.

(* FINDING: printed without the prefix, a hexadecimal text reads as a different number or not at all *)
Theorem C16_print_noprefix_refuted :
  let f := fl_set_bit (fl_set_base fmt_default 16) 8 false in
  fl_base f = 16%Z /\ fl_prefix f = false /\
  fmt_int f 16 = "10" /\ lex_string "10" = [(TLit (CInt 10), 0, 2); (TEnd, 2, 2)] /\
  fmt_int f 31 = "1f" /\ lex_string "1f" = [(TErr PInt 0 2, 0, 2)].
Proof.
  vm_compute. repeat split; reflexivity.
Qed.
Check C16_print_noprefix_refuted :
  let f := fl_set_bit (fl_set_base fmt_default 16) 8 false in
  fl_base f = 16%Z /\ fl_prefix f = false /\
  fmt_int f 16 = "10" /\ lex_string "10" = [(TLit (CInt 10), 0, 2); (TEnd, 2, 2)] /\
  fmt_int f 31 = "1f" /\ lex_string "1f" = [(TErr PInt 0 2, 0, 2)].

(* non-vacuity of the radix round trip *)
Example C16_ex_print_read_radix :
  let f := fl_set_bit (fl_set_base fmt_default 16) 11 true in
  fl_base f = 16%Z /\ fl_prefix f = true /\ fmt_int f 48879 = "0xBEEF" /\
  lex_string "0xBEEF" = [(TLit (CInt 48879), 0, 6); (TEnd, 6, 6)] /\
  fmt_int (fl_set_base fmt_default 2) 5 = "0b101" /\
  fl_base (fl_set_base fmt_default 8) = 8%Z /\ fl_prefix (fl_set_base fmt_default 8) = true /\
  fmt_int (fl_set_base fmt_default 8) 511 = "0o777" /\
  lex_string "0o777" = [(TLit (CInt 511), 0, 5); (TEnd, 5, 5)].
Proof. vm_compute. repeat split; reflexivity. Qed.

(* the i128 boundaries: the least value reads, one past the greatest is an error *)
Example C16_ex_int_bounds :
  lex_string "-170141183460469231731687303715884105728" =
    [(TLit (CInt (-170141183460469231731687303715884105728)), 0, 40); (TEnd, 40, 40)] /\
  lex_string "170141183460469231731687303715884105727" =
    [(TLit (CInt 170141183460469231731687303715884105727), 0, 39); (TEnd, 39, 39)] /\
  lex_string "170141183460469231731687303715884105728" = [(TErr PInt 0 39, 0, 39)] /\
  lex_string "-170141183460469231731687303715884105729" = [(TErr PInt 0 40, 0, 40)] /\
  lex_string "-0x8000_0000_0000_0000_0000_0000_0000_0000" =
    [(TLit (CInt (-170141183460469231731687303715884105728)), 0, 42); (TEnd, 42, 42)] /\
  lex_string "0x8000_0000_0000_0000_0000_0000_0000_0000" = [(TErr PInt 0 41, 0, 41)].
Proof. vm_compute. repeat split; reflexivity. Qed.

(* separators, both cases, all three signs, the three markers; the instances of the general theorems *)
Example C16_ex_int_radix :
  lex_string "0xFf_fF" = [(TLit (CInt 65535), 0, 7); (TEnd, 7, 7)] /\
  lex_string "-0b1_01" = [(TLit (CInt (-5)), 0, 7); (TEnd, 7, 7)] /\
  lex_string "+1_000_" = [(TLit (CInt 1000), 0, 7); (TEnd, 7, 7)] /\
  lex_string "0x_" = [(TErr PInt 0 3, 0, 3)] /\
  lex_string "0b12" = [(TErr PInt 0 4, 0, 4)] /\
  lex_string "010" = [(TLit (CInt 16), 0, 3); (TEnd, 3, 3)] /\
  lex_string "0e5" = [(TLit (CInt 229), 0, 3); (TEnd, 3, 3)] /\
  lex_string "0o17" = [(TLit (CInt 15), 0, 4); (TEnd, 4, 4)] /\
  lex_string "09z" = [(TErr PInt 0 3, 0, 3)] /\
  int_tok SPlus 8 [NDig false 1; NSep; NDig false 7] 0 6 = TLit (CInt 15) /\
  lex_string "12abc" = [(TErr PInt 0 5, 0, 5)] /\
  lex_string "0x-5" = [(TLit (CInt (-5)), 0, 4); (TEnd, 4, 4)] /\
  int_tok SMinus 2 [NDig false 1; NSep; NDig false 0; NDig false 1] 0 7 = TLit (CInt (-5)).
Proof. vm_compute. repeat split; reflexivity. Qed.

(* 4. bit-string literals *)

(* READ AS WRITTEN: between the bars every hex digit (either case) contributes its four bits, most
   significant first, '.' a clear bit, 'x' a set bit, whitespace nothing; the value is well formed
   and its bit sequence is the concatenation.  No separator is required after the closing bar *)
Theorem C16_bitstr_literal :
  forall l items rest,
  forallb bitem_ok items = true -> lrest l = "|" ++ bitems_text items ++ "|" ++ rest ->
  let p' := lpos l + List.length items + 2 in
  lex_next l = (TLit (CBits (of_bools (bitems_bits items))), mklex rest p' (lpos l) (llen l)) /\
  wf (of_bools (bitems_bits items)) /\ abs (of_bools (bitems_bits items)) = bitems_bits items.
Proof.
  intros l items rest Hok Hl p'. split; [exact (lex_next_bitstr l items rest Hok Hl)|apply of_bools_spec].
Qed.
Check C16_bitstr_literal :
  forall l items rest,
  forallb bitem_ok items = true -> lrest l = "|" ++ bitems_text items ++ "|" ++ rest ->
  let p' := lpos l + List.length items + 2 in
  lex_next l = (TLit (CBits (of_bools (bitems_bits items))), mklex rest p' (lpos l) (llen l)) /\
  wf (of_bools (bitems_bits items)) /\ abs (of_bools (bitems_bits items)) = bitems_bits items.

(* the bits of one written character *)
Theorem C16_bitstr_item_bits :
  forall up d c,
  bitem_bits (BHex up d) = [N.testbit d 3; N.testbit d 2; N.testbit d 1; N.testbit d 0] /\
  bitem_bits BDot = [false] /\ bitem_bits BX = [true] /\ bitem_bits (BSpace c) = [].
Proof.
  repeat split.
Qed.
Check C16_bitstr_item_bits :
  forall up d c,
  bitem_bits (BHex up d) = [N.testbit d 3; N.testbit d 2; N.testbit d 1; N.testbit d 0] /\
  bitem_bits BDot = [false] /\ bitem_bits BX = [true] /\ bitem_bits (BSpace c) = [].

(* no closing bar: "unterminated bit-string" at the end of the text *)
Theorem C16_bitstr_unterminated :
  forall l items,
  forallb bitem_ok items = true -> lrest l = "|" ++ bitems_text items ->
  let p' := lpos l + 1 + List.length items in
  lex_next l = (TErr PUntermBits p' (llen l), mklex "" p' (lpos l) (llen l)).
Proof.
  intros l items Hok Hl p'. rewrite <- (app_nil_r_s (bitems_text items)) in Hl.
  rewrite (lex_next_bitems l items _ Hok Hl). reflexivity.
Qed.
Check C16_bitstr_unterminated :
  forall l items,
  forallb bitem_ok items = true -> lrest l = "|" ++ bitems_text items ->
  let p' := lpos l + 1 + List.length items in
  lex_next l = (TErr PUntermBits p' (llen l), mklex "" p' (lpos l) (llen l)).

(* any other character (not a hex digit, whitespace, '.', 'x' or the bar): "parse bitstr" at it; the
   whole character is consumed *)
Theorem C16_bitstr_malformed :
  forall l items c more,
  forallb bitem_ok items = true -> bits_bad_char c = true ->
  lrest l = "|" ++ bitems_text items ++ String c more ->
  let p := lpos l + 1 + List.length items in
  lex_next l = (TErr PBits p (llen l),
                mklex (str_drop (utf8_width c) (String c more)) (p + utf8_width c) (lpos l) (llen l)).
Proof.
  intros l items c more Hok Hc Hl p. rewrite (lex_next_bitems l items _ Hok Hl). cbn [lex_bits].
  unfold bits_bad_char in Hc. destruct (hex_digit c); [discriminate|].
  destruct (is_ws c); [discriminate|]. destruct (byte_of c =? 46)%N; [discriminate|].
  destruct (byte_of c =? 120)%N; [discriminate|]. destruct (byte_of c =? 124)%N; [discriminate|].
  reflexivity.
Qed.
Check C16_bitstr_malformed :
  forall l items c more,
  forallb bitem_ok items = true -> bits_bad_char c = true ->
  lrest l = "|" ++ bitems_text items ++ String c more ->
  let p := lpos l + 1 + List.length items in
  lex_next l = (TErr PBits p (llen l),
                mklex (str_drop (utf8_width c) (String c more)) (p + utf8_width c) (lpos l) (llen l)).

(* COMPLETENESS: whatever follows an opening bar is a well-formed part followed by the closing bar,
   by the end of the text or by an offending character - the three statements above describe
   Lex::next on every bit-string literal *)
Theorem C16_bitstr_complete :
  forall s, exists items, forallb bitem_ok items = true /\
  ((exists rest, s = bitems_text items ++ "|" ++ rest) \/
   s = bitems_text items \/
   (exists c more, bits_bad_char c = true /\ s = bitems_text items ++ String c more)).
Proof. exact bits_decompose. Qed.
Check C16_bitstr_complete :
  forall s, exists items, forallb bitem_ok items = true /\
  ((exists rest, s = bitems_text items ++ "|" ++ rest) \/
   s = bitems_text items \/
   (exists c more, bits_bad_char c = true /\ s = bitems_text items ++ String c more)).

(* a literal mixing hex digits of both cases, bits and spaces; a malformed and an open one *)
Example C16_ex_bitstr :
  let items := [BHex false 10; BHex true 11; BSpace " "; BX; BDot; BX; BSpace (ascii_of_N 10); BHex false 1] in
  forallb bitem_ok items = true /\ bitems_text items = "aB x.x" ++ String (ascii_of_N 10) "1" /\
  bitems_bits items = [true;false;true;false; true;false;true;true; true;false;true; false;false;false;true] /\
  (exists b, lex_string ("|" ++ bitems_text items ++ "|tail") =
             [(TLit (CBits b), 0, 10); (TWord "tail", 10, 14); (TEnd, 14, 14)] /\ abs b = bitems_bits items) /\
  lex_string "|12g4|" = [(TErr PBits 3 6, 0, 4)] /\
  lex_string "|12 " = [(TErr PUntermBits 4 4, 0, 4)].
Proof. vm_compute. repeat split; try reflexivity. eexists. split; reflexivity. Qed.

(* 3. whitespace and comments *)

(* a maximal run of ASCII whitespace is one whitespace token *)
Theorem C16_ws_token :
  forall l w rest, w <> "" -> all_ws w = true -> next_not_ws rest = true ->
  lrest l = w ++ rest ->
  lex_next l = (TWs, mklex rest (lpos l + String.length w) (lpos l) (llen l)).
Proof. exact lex_next_ws. Qed.
Check C16_ws_token :
  forall l w rest, w <> "" -> all_ws w = true -> next_not_ws rest = true ->
  lrest l = w ++ rest ->
  lex_next l = (TWs, mklex rest (lpos l + String.length w) (lpos l) (llen l)).

(* LINE COMMENT: the word "\" (a backslash followed by whitespace or the end) opens a comment whose
   span runs up to, not including, the next line feed (or to the end of the text); the lexer then
   stands at that line feed *)
Theorem C16_line_comment :
  forall l cm rest,
  lrest l = "\" ++ cm ++ rest -> next_is_ws_or_end (cm ++ rest) = true ->
  no_nl cm = true -> next_is_nl_or_end rest = true ->
  let p' := lpos l + 1 + String.length cm in
  lex_next l = (TComment, mklex rest p' (lpos l) (llen l)).
Proof. exact lex_next_line_comment. Qed.
Check C16_line_comment :
  forall l cm rest,
  lrest l = "\" ++ cm ++ rest -> next_is_ws_or_end (cm ++ rest) = true ->
  no_nl cm = true -> next_is_nl_or_end rest = true ->
  let p' := lpos l + 1 + String.length cm in
  lex_next l = (TComment, mklex rest p' (lpos l) (llen l)).

(* MULTI-LINE COMMENT, all bodies: the word "\(" opens a comment that ends after the FIRST closing
   marker - a whitespace character, "\)", and then either a whitespace character (which is
   consumed too) or the end of the text; without such a marker the token is the error
   "unterminated comment" and the rest of the text is dropped *)
Theorem C16_multiline_comment :
  forall l r4,
  lrest l = "\(" ++ r4 -> next_is_ws_or_end r4 = true ->
  lex_next l =
  match first_close r4 with
  | Some i => (TComment, mklex (str_drop (i + 4) r4) (lpos l + 2 + Nat.min (i + 4) (String.length r4))
                               (lpos l) (llen l))
  | None => (TErr PUntermComment (lpos l) (llen l), mklex "" (llen l) (lpos l) (llen l))
  end.
Proof. exact lex_next_mlc. Qed.
Check C16_multiline_comment :
  forall l r4,
  lrest l = "\(" ++ r4 -> next_is_ws_or_end r4 = true ->
  lex_next l =
  match first_close r4 with
  | Some i => (TComment, mklex (str_drop (i + 4) r4) (lpos l + 2 + Nat.min (i + 4) (String.length r4))
                               (lpos l) (llen l))
  | None => (TErr PUntermComment (lpos l) (llen l), mklex "" (llen l) (lpos l) (llen l))
  end.

(* [first_close s = Some i] says exactly: a closing marker starts at i and none starts before *)
Theorem C16_first_close_some :
  forall s i, first_close s = Some i <->
  (closes_here (str_drop i s) = true /\ forall j, j < i -> closes_here (str_drop j s) = false).
Proof.
  intros s i. split; [apply first_close_some|]. intros [H1 H2]. apply first_close_unique; assumption.
Qed.
Check C16_first_close_some :
  forall s i, first_close s = Some i <->
  (closes_here (str_drop i s) = true /\ forall j, j < i -> closes_here (str_drop j s) = false).

(* [first_close s = None] says exactly: no closing marker anywhere *)
Theorem C16_first_close_none :
  forall s, first_close s = None <-> forall j, closes_here (str_drop j s) = false.
Proof.
  intros s. split; [apply first_close_none|]. intros H.
  destruct (first_close s) as [i|] eqn:E; [|reflexivity].
  destruct (first_close_some s i E) as [K _]. rewrite H in K. discriminate.
Qed.
Check C16_first_close_none :
  forall s, first_close s = None <-> forall j, closes_here (str_drop j s) = false.

(* a closing marker, spelled out *)
Theorem C16_closes_here_spec :
  forall s, closes_here s = true <->
  exists c r, s = String c ("\)" ++ r) /\ is_ws c = true /\ next_is_ws_or_end r = true.
Proof. exact closes_here_spec. Qed.
Check C16_closes_here_spec :
  forall s, closes_here s = true <->
  exists c r, s = String c ("\)" ++ r) /\ is_ws c = true /\ next_is_ws_or_end r = true.

(* TRANSPARENCY (state form): blank material - whitespace runs, line comments ended by a line feed,
   closed multi-line comments, in any order and number - standing at a token boundary in front
   of any text: the significant (non-whitespace, non-comment) tokens are exactly those of the
   text after it, lexed from the position after it *)
Theorem C16_blank_transparent :
  forall g rest, blank g rest -> forall p n,
  significant (lex_from (g ++ rest) p n) = significant (lex_from rest (p + String.length g) n).
Proof. exact blank_transparent. Qed.
Check C16_blank_transparent :
  forall g rest, blank g rest -> forall p n,
  significant (lex_from (g ++ rest) p n) = significant (lex_from rest (p + String.length g) n).

(* TRANSPARENCY (whole text): blank material in front of a text only moves the spans *)
Theorem C16_blank_prefix :
  forall g b, blank g b ->
  significant (lex_string (g ++ b)) = map (shift_span (String.length g)) (significant (lex_string b)).
Proof.
  intros g b H. rewrite !lex_string_from, (blank_transparent g b H), app_length_s. cbn [Nat.add].
  rewrite <- significant_shift.
  rewrite <- (lex_from_shift (String.length g) b 0 (String.length b)). cbn [Nat.add].
  f_equal. f_equal. lia.
Qed.
Check C16_blank_prefix :
  forall g b, blank g b ->
  significant (lex_string (g ++ b)) = map (shift_span (String.length g)) (significant (lex_string b)).

(* POSITION INDEPENDENCE: the tokens of a text do not depend on where it stands - moving the lexer
   state by d bytes moves every span (inside error tokens too) by d *)
Theorem C16_lex_shift :
  forall d rest p n,
  lex_from rest (p + d) (n + d) = map (shift_span d) (lex_from rest p n).
Proof. exact lex_from_shift. Qed.
Check C16_lex_shift :
  forall d rest p n,
  lex_from rest (p + d) (n + d) = map (shift_span d) (lex_from rest p n).

(* [lex_from] is the token list of a lexer state, [lex_string] the one of the initial state; the
   fuel of [lex_all] is irrelevant *)
Theorem C16_lex_from_spec :
  (forall s, lex_string s = lex_from s 0 (String.length s)) /\
  (forall f r p st n, String.length r < f -> lex_all f (mklex r p st n) = lex_from r p n).
Proof.
  split; [exact lex_string_from|exact lex_all_from].
Qed.
Check C16_lex_from_spec :
  (forall s, lex_string s = lex_from s 0 (String.length s)) /\
  (forall f r p st n, String.length r < f -> lex_all f (mklex r p st n) = lex_from r p n).

(* LOCALITY: when whitespace (or nothing) follows a valid UTF-8 text u, a token that ends inside u,
   or at its end unless it is whitespace or a comment, is the same whatever follows, and the lexer
   continues with the rest of u followed by that continuation *)
Theorem C16_token_local :
  forall X, next_is_ws_or_end X = true ->
  forall u p stA nA stB nB t lA',
  valid_go u 0 = true ->
  lex_next (mklex u p stA nA) = (t, lA') -> is_final t = false ->
  ~ (lrest lA' = "" /\ is_blank_tok t = true) ->
  lex_next (mklex (u ++ X) p stB nB) = (t, mklex (lrest lA' ++ X) (lpos lA') p nB).
Proof. exact lex_next_app. Qed.
Check C16_token_local :
  forall X, next_is_ws_or_end X = true ->
  forall u p stA nA stB nB t lA',
  valid_go u 0 = true ->
  lex_next (mklex u p stA nA) = (t, lA') -> is_final t = false ->
  ~ (lrest lA' = "" /\ is_blank_tok t = true) ->
  lex_next (mklex (u ++ X) p stB nB) = (t, mklex (lrest lA' ++ X) (lpos lA') p nB).

(* COMPOSITION: if a valid UTF-8 text a lexes to its end without error and does not end in
   whitespace or a comment, then for every continuation X that starts with whitespace (or is
   empty) the tokens of a ++ X are the tokens of a followed by the tokens of X *)
Theorem C16_prefix_stable :
  forall a X pre e e',
  valid_utf8 a = true -> next_is_ws_or_end X = true ->
  lex_string a = (pre ++ [(TEnd, e, e')])%list -> last_significant pre ->
  lex_string (a ++ X) = (pre ++ lex_from X (String.length a) (String.length (a ++ X)))%list.
Proof.
  intros a X pre e e' Hv HX Ha Hls. rewrite lex_string_from in Ha. rewrite lex_string_from.
  exact (prefix_stable X HX pre a 0 (String.length a) (String.length (a ++ X)) e e' Hv Ha Hls).
Qed.
Check C16_prefix_stable :
  forall a X pre e e',
  valid_utf8 a = true -> next_is_ws_or_end X = true ->
  lex_string a = (pre ++ [(TEnd, e, e')])%list -> last_significant pre ->
  lex_string (a ++ X) = (pre ++ lex_from X (String.length a) (String.length (a ++ X)))%list.

(* TRANSPARENCY IN CONTEXT: a as above, g blank material in front of b (g ++ b starts with
   whitespace or is empty): the significant tokens of a ++ g ++ b are those of a followed by those
   of b, moved behind a and g *)
Theorem C16_blank_transparent_in_context :
  forall a g b pre e e',
  valid_utf8 a = true -> lex_string a = (pre ++ [(TEnd, e, e')])%list -> last_significant pre ->
  next_is_ws_or_end (g ++ b) = true -> blank g b ->
  significant (lex_string (a ++ g ++ b)) =
  (significant pre ++ map (shift_span (String.length a + String.length g)) (significant (lex_string b)))%list.
Proof. exact blank_transparent_in_context. Qed.
Check C16_blank_transparent_in_context :
  forall a g b pre e e',
  valid_utf8 a = true -> lex_string a = (pre ++ [(TEnd, e, e')])%list -> last_significant pre ->
  next_is_ws_or_end (g ++ b) = true -> blank g b ->
  significant (lex_string (a ++ g ++ b)) =
  (significant pre ++ map (shift_span (String.length a + String.length g)) (significant (lex_string b)))%list.

(* ... in particular replacing the blank material by a single space changes nothing but the spans
   of the tokens behind it *)
Theorem C16_blank_vs_space :
  forall a g b pre e e',
  valid_utf8 a = true -> lex_string a = (pre ++ [(TEnd, e, e')])%list -> last_significant pre ->
  next_is_ws_or_end (g ++ b) = true -> blank g b ->
  let sb := significant (lex_string b) in
  significant (lex_string (a ++ g ++ b)) =
    (significant pre ++ map (shift_span (String.length a + String.length g)) sb)%list /\
  significant (lex_string (a ++ " " ++ b)) =
    (significant pre ++ map (shift_span (String.length a + 1)) sb)%list.
Proof.
  intros a g b pre e e' Hv Ha Hls Hw Hb sb. split.
  - exact (blank_transparent_in_context a g b pre e e' Hv Ha Hls Hw Hb).
  - apply (blank_transparent_in_context a " " b pre e e' Hv Ha Hls eq_refl).
    apply (blank_ws " " "" b eq_refl (blank_nil b)).
Qed.
Check C16_blank_vs_space :
  forall a g b pre e e',
  valid_utf8 a = true -> lex_string a = (pre ++ [(TEnd, e, e')])%list -> last_significant pre ->
  next_is_ws_or_end (g ++ b) = true -> blank g b ->
  let sb := significant (lex_string b) in
  significant (lex_string (a ++ g ++ b)) =
    (significant pre ++ map (shift_span (String.length a + String.length g)) sb)%list /\
  significant (lex_string (a ++ " " ++ b)) =
    (significant pre ++ map (shift_span (String.length a + 1)) sb)%list.

(* the side condition on a is needed: a line comment at the end of a swallows what follows a space
   but not what follows a line feed *)
Theorem C16_blank_context_condition_needed :
  let nl := String (ascii_of_N 10) "" in
  blank nl "1" /\ valid_utf8 "\ c" = true /\ lex_string "\ c" = [(TComment, 0, 3); (TEnd, 3, 3)] /\
  significant (lex_string ("\ c" ++ nl ++ "1")) = [(TLit (CInt 1), 4, 5); (TEnd, 5, 5)] /\
  significant (lex_string ("\ c" ++ " " ++ "1")) = [(TEnd, 5, 5)].
Proof.
  cbv zeta. split; [|vm_compute; repeat split; reflexivity].
  apply (blank_ws nl1 "" "1" eq_refl (blank_nil "1")).
Qed.
Check C16_blank_context_condition_needed :
  let nl := String (ascii_of_N 10) "" in
  blank nl "1" /\ valid_utf8 "\ c" = true /\ lex_string "\ c" = [(TComment, 0, 3); (TEnd, 3, 3)] /\
  significant (lex_string ("\ c" ++ nl ++ "1")) = [(TLit (CInt 1), 4, 5); (TEnd, 5, 5)] /\
  significant (lex_string ("\ c" ++ " " ++ "1")) = [(TEnd, 5, 5)].

(* the constructors of [blank] are satisfiable together: whitespace, a line comment, a closed
   multi-line comment and a multi-line comment that contains a decoy marker *)
Example C16_ex_blank :
  let nl := String (ascii_of_N 10) "" in
  let g := "  \ a comment" ++ nl ++ "\( one \)x \) \( two" ++ nl ++ "\)" ++ nl in
  blank g "1 +" /\
  significant (lex_string (g ++ "1 +")) = [(TLit (CInt 1), 38, 39); (TWord "+", 40, 41); (TEnd, 41, 41)] /\
  significant (lex_string (" " ++ "1 +")) = [(TLit (CInt 1), 1, 2); (TWord "+", 3, 4); (TEnd, 4, 4)].
Proof. exact ex_blank. Qed.

(* an instance of transparency in context: a definition, a comment block, more code *)
Example C16_ex_blank_in_context :
  let nl := String (ascii_of_N 10) "" in
  let a := ": sq dup *" in
  let g := " \ squares" ++ nl ++ "  \( note \) " in
  let b := "; 3 sq" in
  valid_utf8 a = true /\ blank g b /\ next_is_ws_or_end (g ++ b) = true /\
  (exists pre e e', lex_string a = (pre ++ [(TEnd, e, e')])%list /\ last_significant pre) /\
  map (fun x => fst (fst x)) (significant (lex_string (a ++ g ++ b))) =
    [TWord ":"; TWord "sq"; TWord "dup"; TWord "*"; TWord ";"; TLit (CInt 3); TWord "sq"; TEnd] /\
  map (fun x => fst (fst x)) (significant (lex_string (a ++ " " ++ b))) =
    [TWord ":"; TWord "sq"; TWord "dup"; TWord "*"; TWord ";"; TLit (CInt 3); TWord "sq"; TEnd].
Proof. exact ex_blank_in_context. Qed.

(* where comments end, and what is not a comment *)
Example C16_ex_comments :
  let nl := String (ascii_of_N 10) "" in
  lex_string ("\ x" ++ nl ++ "1") = [(TComment, 0, 3); (TWs, 3, 4); (TLit (CInt 1), 4, 5); (TEnd, 5, 5)] /\
  lex_string "\ to the end" = [(TComment, 0, 12); (TEnd, 12, 12)] /\
  lex_string "\( a \) 1" = [(TComment, 0, 8); (TLit (CInt 1), 8, 9); (TEnd, 9, 9)] /\
  lex_string "\( a \)" = [(TComment, 0, 7); (TEnd, 7, 7)] /\
  lex_string "\( a\) \)x \) 1" = [(TComment, 0, 14); (TLit (CInt 1), 14, 15); (TEnd, 15, 15)] /\
  lex_string "\( a \)x" = [(TErr PUntermComment 0 8, 0, 8)] /\
  lex_string "\(a \) 1" = [(TWord "\(a", 0, 3); (TWs, 3, 4); (TWord "\)", 4, 6); (TWs, 6, 7); (TLit (CInt 1), 7, 8); (TEnd, 8, 8)] /\
  lex_string "\x 1" = [(TWord "\x", 0, 2); (TWs, 2, 3); (TLit (CInt 1), 3, 4); (TEnd, 4, 4)].
Proof. vm_compute. repeat split; reflexivity. Qed.

(* 2. flags and nil *)

(* flags and nil are printed as the words true / false / nil *)
Theorem C16_const_printed :
  forall f c w, const_word c = Some w -> fmt_cell f c = Some w.
Proof.
  intros f c w. destruct c as [|[]| | | | | | | | |]; cbn [const_word]; intros H; try discriminate;
    injection H as <-; reflexivity.
Qed.
Check C16_const_printed :
  forall f c w, const_word c = Some w -> fmt_cell f c = Some w.

(* ... which are lexed as single word tokens with that text (in any state, before whitespace or
   the end) ... *)
Theorem C16_const_lexed :
  forall c w l rest, const_word c = Some w ->
  lrest l = w ++ rest -> next_is_ws_or_end rest = true ->
  lex_next l = (TWord w, mklex rest (lpos l + String.length w) (lpos l) (llen l)).
Proof. exact const_word_lex_next. Qed.
Check C16_const_lexed :
  forall c w l rest, const_word c = Some w ->
  lrest l = w ++ rest -> next_is_ws_or_end rest = true ->
  lex_next l = (TWord w, mklex rest (lpos l + String.length w) (lpos l) (llen l)).

(* the whole-text form *)
Theorem C16_const_lex_string :
  forall c w, const_word c = Some w ->
  lex_string w = [(TWord w, 0, String.length w); (TEnd, String.length w, String.length w)].
Proof.
  intros c w H. apply lex_string_one_token; [reflexivity|].
  rewrite (const_word_lex_next c w (lex_new w) "" H (eq_sym (app_nil_r_s w)) eq_refl). reflexivity.
Qed.
Check C16_const_lex_string :
  forall c w, const_word c = Some w ->
  lex_string w = [(TWord w, 0, String.length w); (TEnd, String.length w, String.length w)].

(* [const_word], spelled out *)
Theorem C16_const_word_spec :
  const_word CNil = Some "nil" /\ const_word (CFlag true) = Some "true" /\
  const_word (CFlag false) = Some "false" /\
  (forall c w, const_word c = Some w -> c = CNil \/ c = CFlag true \/ c = CFlag false).
Proof.
  repeat (split; [reflexivity|]). intros c w H.
  destruct c as [|[]| | | | | | | | |]; cbn [const_word] in H; try discriminate; auto.
Qed.
Check C16_const_word_spec :
  const_word CNil = Some "nil" /\ const_word (CFlag true) = Some "true" /\
  const_word (CFlag false) = Some "false" /\
  (forall c w, const_word c = Some w -> c = CNil \/ c = CFlag true \/ c = CFlag false).

(* ... and become values at build time: in every state whose dictionary binds true / false to the
   flag constants, compiling the word emits the load of that flag *)
Theorem C16_build_word_flag :
  forall fo pr rf fuel s (b : bool),
  dict_entry s (if b then "true" else "false") = Some (DConst (CFlag b)) ->
  build_word fo pr rf fuel (if b then "true" else "false") s = code_emit (OLoadCell (CFlag b)) s.
Proof.
  intros fo pr rf fuel s b H. unfold build_word. cbv [bind get]. rewrite H. reflexivity.
Qed.
Check C16_build_word_flag :
  forall fo pr rf fuel s (b : bool),
  dict_entry s (if b then "true" else "false") = Some (DConst (CFlag b)) ->
  build_word fo pr rf fuel (if b then "true" else "false") s = code_emit (OLoadCell (CFlag b)) s.

(* nil is an immediate word that emits the load of nil *)
Theorem C16_build_word_nil :
  forall fo pr rf fuel s,
  dict_entry s "nil" = Some (DFun true (FNative "nil") None) ->
  build_word fo pr rf fuel "nil" s = code_emit OLoadNil s.
Proof.
  intros fo pr rf fuel s H. unfold build_word. cbv [bind get]. rewrite H. reflexivity.
Qed.
Check C16_build_word_nil :
  forall fo pr rf fuel s,
  dict_entry s "nil" = Some (DFun true (FNative "nil") None) ->
  build_word fo pr rf fuel "nil" s = code_emit OLoadNil s.

(* the boot dictionary has these three entries *)
Theorem C16_boot_const_entries :
  dict_entry boot "true" = Some (DConst (CFlag true)) /\
  dict_entry boot "false" = Some (DConst (CFlag false)) /\
  dict_entry boot "nil" = Some (DFun true (FNative "nil") None).
Proof.
  vm_compute. auto.
Qed.
Check C16_boot_const_entries :
  dict_entry boot "true" = Some (DConst (CFlag true)) /\
  dict_entry boot "false" = Some (DConst (CFlag false)) /\
  dict_entry boot "nil" = Some (DFun true (FNative "nil") None).

(* end to end on the boot state: the three words, a string with an escape, a bit-string and a
   negative hex literal with a separator, evaluated *)
Example C16_ex_eval_literals :
  ds_of (eval fo0 (fun _ => None) 100 100 "nil true false" boot) = Some [CFlag false; CFlag true; CNil] /\
  ds_of (eval fo0 (fun _ => None) 100 100 """a\nb"" |f x.| -0x1_0" boot) =
    Some [CInt (-16); CBits (mkcbs 0 6 [248%N]); CStr ("a" ++ String (ascii_of_N 10) "b")].
Proof. vm_compute. split; reflexivity. Qed.

(* 6. real literals (decimal to double conversion is an oracle: the token carries the text) *)

(* a numeric text without radix marker that contains a dot is a real literal; the token carries
   exactly the written text without its separators - the value is whatever str::parse::<f64> says
   for that text (Build.next_token: [parse_real txt]) *)
Theorem C16_real_literal :
  forall l sg c0 body rest,
  is_digit c0 = true -> lrest l = sgn_text sg ++ String c0 (body ++ rest) ->
  no_ws body = true -> has_dot body = true -> next_is_ws_or_end rest = true ->
  ((byte_of c0 =? 48)%N = true -> radix_mark (body ++ rest) = None) ->
  let p4 := lpos l + String.length (sgn_text sg) + 1 + String.length body in
  lex_next l = (TReal (sgn_text sg ++ String c0 (strip_us body)), mklex rest p4 (lpos l) (llen l)).
Proof.
  intros l sg c0 body rest Hc Hl Hb Hd Hr Hm p4.
  rewrite (lex_next_numeric_plain l sg c0 body rest Hc Hl Hb Hr Hm). cbv zeta. rewrite Hd. reflexivity.
Qed.
Check C16_real_literal :
  forall l sg c0 body rest,
  is_digit c0 = true -> lrest l = sgn_text sg ++ String c0 (body ++ rest) ->
  no_ws body = true -> has_dot body = true -> next_is_ws_or_end rest = true ->
  ((byte_of c0 =? 48)%N = true -> radix_mark (body ++ rest) = None) ->
  let p4 := lpos l + String.length (sgn_text sg) + 1 + String.length body in
  lex_next l = (TReal (sgn_text sg ++ String c0 (strip_us body)), mklex rest p4 (lpos l) (llen l)).

(* with a radix marker a dot is the error "parse float" *)
Theorem C16_real_marked_error :
  forall l sg (m : rmark) body rest,
  lrest l = sgn_text sg ++ "0" ++ rmark_text m ++ body ++ rest ->
  no_ws body = true -> has_dot body = true -> next_is_ws_or_end rest = true ->
  let p4 := lpos l + String.length (sgn_text sg) + 2 + String.length body in
  lex_next l = (TErr PFloat (lpos l) p4, mklex rest p4 (lpos l) (llen l)).
Proof.
  intros l sg m body rest Hl Hb Hd Hr p4.
  rewrite (lex_next_numeric_marked l sg m body rest Hl Hb Hr). cbv zeta. rewrite Hd. reflexivity.
Qed.
Check C16_real_marked_error :
  forall l sg (m : rmark) body rest,
  lrest l = sgn_text sg ++ "0" ++ rmark_text m ++ body ++ rest ->
  no_ws body = true -> has_dot body = true -> next_is_ws_or_end rest = true ->
  let p4 := lpos l + String.length (sgn_text sg) + 2 + String.length body in
  lex_next l = (TErr PFloat (lpos l) p4, mklex rest p4 (lpos l) (llen l)).

(* the value of a real literal is what the conversion oracle says for exactly that text, and a text
   the oracle rejects is a parse error (Build.next_token) *)
Theorem C16_real_value_oracle :
  forall pr f (s : state) il rest txt l',
  input s = il :: rest ->
  lex_next_nonws (S (String.length (lrest (in_lex il)))) (in_lex il) = (TReal txt, l') ->
  next_token pr (S f) s =
  let s1 := set_last_tok (set_input s (mkinlex (in_src il) l' :: rest)) (Some (in_src il, lstart l', lpos l')) in
  match pr txt with
  | Some r => ROk (BLit (CReal r)) s1
  | None => RErr EParse None s1
  end.
Proof.
  intros pr f s il rest txt l' Hi Hn. cbn [next_token]. rewrite Hi, Hn. reflexivity.
Qed.
Check C16_real_value_oracle :
  forall pr f (s : state) il rest txt l',
  input s = il :: rest ->
  lex_next_nonws (S (String.length (lrest (in_lex il)))) (in_lex il) = (TReal txt, l') ->
  next_token pr (S f) s =
  let s1 := set_last_tok (set_input s (mkinlex (in_src il) l' :: rest)) (Some (in_src il, lstart l', lpos l')) in
  match pr txt with
  | Some r => ROk (BLit (CReal r)) s1
  | None => RErr EParse None s1
  end.

(* a text that does not start like a number (no digit, no sign-and-digit), a string or a bit-string
   is a word: in particular .5 and -.5 are words, not numbers *)
Theorem C16_word_token :
  forall l c body rest,
  lrest l = String c (body ++ rest) -> (byte_of c < 128)%N -> is_ws c = false ->
  (byte_of c =? 34)%N = false -> (byte_of c =? 124)%N = false ->
  leads_number (String c (body ++ rest)) = false ->
  no_ws body = true -> next_is_ws_or_end rest = true ->
  String.eqb (String c body) "\" = false -> String.eqb (String c body) "\(" = false ->
  let p4 := lpos l + 1 + String.length body in
  lex_next l = (TWord (String c body), mklex rest p4 (lpos l) (llen l)).
Proof. exact lex_next_word. Qed.
Check C16_word_token :
  forall l c body rest,
  lrest l = String c (body ++ rest) -> (byte_of c < 128)%N -> is_ws c = false ->
  (byte_of c =? 34)%N = false -> (byte_of c =? 124)%N = false ->
  leads_number (String c (body ++ rest)) = false ->
  no_ws body = true -> next_is_ws_or_end rest = true ->
  String.eqb (String c body) "\" = false -> String.eqb (String c body) "\(" = false ->
  let p4 := lpos l + 1 + String.length body in
  lex_next l = (TWord (String c body), mklex rest p4 (lpos l) (llen l)).

(* end to end with a stand-in oracle that knows the text 10.5: the literal 1_0.5 becomes the value the
   oracle gives for 10.5; 1.2.3 is a real token whose text the oracle rejects: a parse error *)
Example C16_ex_real_oracle :
  ds_of (eval fo0 pr0 100 100 "1_0.5" boot) = Some [CReal 4622100592565682176] /\
  is_parse_error (eval fo0 pr0 100 100 "1.2.3" boot) = true.
Proof. vm_compute. split; reflexivity. Qed.

(* the shapes: 1. and 1.5e3 and 1.2.3 are real tokens (the oracle decides), separators are
   removed, .5 and -.5 are words, 1e5 is an integer error, 0e5 is the hexadecimal integer 229,
   0x1.8 and 0o1.5 are float errors *)
Example C16_ex_real_shapes :
  lex_string "1." = [(TReal "1.", 0, 2); (TEnd, 2, 2)] /\
  lex_string "-1_0.5_0" = [(TReal "-10.50", 0, 8); (TEnd, 8, 8)] /\
  lex_string "+1.5e3" = [(TReal "+1.5e3", 0, 6); (TEnd, 6, 6)] /\
  lex_string "0.5" = [(TReal "0.5", 0, 3); (TEnd, 3, 3)] /\
  lex_string "1.2.3" = [(TReal "1.2.3", 0, 5); (TEnd, 5, 5)] /\
  lex_string ".5" = [(TWord ".5", 0, 2); (TEnd, 2, 2)] /\
  lex_string "-.5" = [(TWord "-.5", 0, 3); (TEnd, 3, 3)] /\
  lex_string "1e5" = [(TErr PInt 0 3, 0, 3)] /\
  lex_string "0e5" = [(TLit (CInt 229), 0, 3); (TEnd, 3, 3)] /\
  lex_string "0x1.8" = [(TErr PFloat 0 5, 0, 5)] /\
  lex_string "0o1.5" = [(TErr PFloat 0 5, 0, 5)].
Proof. vm_compute. repeat split; reflexivity. Qed.
