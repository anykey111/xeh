(* CellProofs.v: the order [cell_cmp] of Model/Cell.v.

   After [cell_ind'] (the induction principle of the nested inductive [cell]) and the basics of
   [strip] and [peel] (remove the outer tag wrappers only), total preorders are treated as three
   laws, with the laws at one point and how they pass to lists, lexicographic products and
   rank-ordered sums.  [scmp a b := cell_cmp (strip a) (strip b)] is a total preorder on ALL
   cells (reflexive, antisymmetric in the [CompOpp] sense, transitive).  On [tagwf] cells (no tag
   wrapper directly wraps a tag wrapper, at any depth outside tag maps) [cell_cmp] = [scmp]:
   tags never influence the order, hence [cell_cmp] is a total preorder there.  Last come
   [NoNaN] and [cell_ok], the well-formedness predicate of the property statements.
   The equality [cell_eqb] looks keys up in maps: its laws are in CollProofs.v. *)
From Xeh Require Import Model.Prelude Model.Bits Model.Cell Proofs.BitsProofs.
From Coq Require Import Sorting.Sorted ZifyBool ZifyNat ZifyN.
Local Notation length := List.length.

Section CellInd.
  Variable P : cell -> Prop.
  Hypothesis Hnil : P CNil.
  Hypothesis Hflag : forall b, P (CFlag b).
  Hypothesis Hint : forall z, P (CInt z).
  Hypothesis Hreal : forall r, P (CReal r).
  Hypothesis Hstr : forall s, P (CStr s).
  Hypothesis Hvec : forall l, Forall P l -> P (CVec l).
  Hypothesis Hmap : forall m, Forall (fun kv => P (fst kv) /\ P (snd kv)) m -> P (CMap m).
  Hypothesis Hfun : forall f, P (CFun f).
  Hypothesis Hbits : forall b, P (CBits b).
  Hypothesis Hany : P CAny.
  Hypothesis Htag : forall t v, Forall (fun kv => P (fst kv) /\ P (snd kv)) t -> P v -> P (CTag t v).

  Fixpoint cell_ind' (c : cell) : P c :=
    match c with
    | CNil => Hnil
    | CFlag b => Hflag b
    | CInt z => Hint z
    | CReal r => Hreal r
    | CStr s => Hstr s
    | CVec l =>
      Hvec l ((fix go (l : list cell) : Forall P l :=
                 match l with
                 | [] => Forall_nil _
                 | x :: r => Forall_cons _ (cell_ind' x) (go r)
                 end) l)
    | CMap m =>
      Hmap m ((fix go (m : list (cell * cell)) : Forall (fun kv => P (fst kv) /\ P (snd kv)) m :=
                 match m with
                 | [] => Forall_nil _
                 | kv :: r => Forall_cons _ (conj (cell_ind' (fst kv)) (cell_ind' (snd kv))) (go r)
                 end) m)
    | CFun f => Hfun f
    | CBits b => Hbits b
    | CAny => Hany
    | CTag t v =>
      Htag t v ((fix go (m : list (cell * cell)) : Forall (fun kv => P (fst kv) /\ P (snd kv)) m :=
                   match m with
                   | [] => Forall_nil _
                   | kv :: r => Forall_cons _ (conj (cell_ind' (fst kv)) (cell_ind' (snd kv))) (go r)
                   end) t) (cell_ind' v)
    end.
End CellInd.

Definition strip_pair (kv : cell * cell) : cell * cell := (strip (fst kv), strip (snd kv)).

Definition is_tag (c : cell) : bool := match c with CTag _ _ => true | _ => false end.

Fixpoint peel (c : cell) : cell := match c with CTag _ v => peel v | _ => c end.

Lemma strip_vec : forall l, strip (CVec l) = CVec (map strip l).
Proof. reflexivity. Qed.
Lemma strip_map : forall m, strip (CMap m) = CMap (map strip_pair m).
Proof. reflexivity. Qed.
Lemma strip_tag : forall t v, strip (CTag t v) = strip v.
Proof. reflexivity. Qed.

Lemma peel_notag : forall c, is_tag (peel c) = false.
Proof. induction c; cbn; auto. Qed.
Lemma strip_peel : forall c, strip (peel c) = strip c.
Proof. induction c; cbn; auto. Qed.

Lemma strip_notag : forall c, is_tag (strip c) = false.
Proof. induction c; cbn; auto. Qed.

Lemma value_notag : forall c, is_tag c = false -> value c = c.
Proof. destruct c; cbn; auto; discriminate. Qed.

Lemma value_strip : forall c, value (strip c) = strip c.
Proof. intro c. apply value_notag, strip_notag. Qed.

Lemma strip_idem : forall c, strip (strip c) = strip c.
Proof.
  induction c using cell_ind'; cbn [strip]; auto.
  - f_equal. rewrite map_map. apply map_ext_in. intros x Hx.
    rewrite Forall_forall in H. auto.
  - f_equal. rewrite map_map. apply map_ext_in. intros [k v] Hx.
    rewrite Forall_forall in H. destruct (H _ Hx) as [H1 H2]. cbn in *. congruence.
Qed.

Lemma strip_pair_idem : forall kv, strip_pair (strip_pair kv) = strip_pair kv.
Proof. intros [k v]. unfold strip_pair. cbn. rewrite !strip_idem. reflexivity. Qed.

Lemma CompOpp_eq : forall c d, CompOpp c = CompOpp d -> c = d.
Proof. destruct c, d; cbn; congruence. Qed.

Record preorder {A} (cmp : A -> A -> comparison) : Prop := {
  po_anti : forall x y, cmp x y = CompOpp (cmp y x);
  po_cong : forall x y, cmp x y = Eq -> forall z, cmp x z = cmp y z;
  po_trans : forall x y z, cmp x y = Lt -> cmp y z = Lt -> cmp x z = Lt }.

Section PreorderFacts.
  Context {A : Type} (cmp : A -> A -> comparison) (PO : preorder cmp).

  Lemma po_refl : forall x, cmp x x = Eq.
  Proof. intro x. pose proof (po_anti _ PO x x) as H. destruct (cmp x x); cbn in H; congruence. Qed.

  Lemma po_sym : forall x y, cmp x y = Eq -> cmp y x = Eq.
  Proof. intros x y H. rewrite (po_anti _ PO), H. reflexivity. Qed.

  Lemma po_gt_lt : forall x y, cmp x y = Gt <-> cmp y x = Lt.
  Proof. intros x y. rewrite (po_anti _ PO x y). destruct (cmp y x); cbn; split; congruence. Qed.

  Lemma po_cong_r : forall y z, cmp y z = Eq -> forall x, cmp x y = cmp x z.
  Proof.
    intros y z E x. rewrite (po_anti _ PO x y), (po_anti _ PO x z).
    f_equal. apply (po_cong _ PO). assumption.
  Qed.

  Lemma po_eq_trans : forall x y z, cmp x y = Eq -> cmp y z = Eq -> cmp x z = Eq.
  Proof. intros x y z E1 E2. rewrite (po_cong _ PO _ _ E1). assumption. Qed.

  Lemma po_lt_le_trans : forall x y z, cmp x y = Lt -> cmp y z <> Gt -> cmp x z = Lt.
  Proof.
    intros x y z E1 H2. destruct (cmp y z) eqn:E2; try congruence.
    - rewrite <- (po_cong_r _ _ E2). assumption.
    - eapply (po_trans _ PO); eassumption.
  Qed.

  Lemma po_le_lt_trans : forall x y z, cmp x y <> Gt -> cmp y z = Lt -> cmp x z = Lt.
  Proof.
    intros x y z H1 E2. destruct (cmp x y) eqn:E1; try congruence.
    - rewrite (po_cong _ PO _ _ E1). assumption.
    - eapply (po_trans _ PO); eassumption.
  Qed.

  Lemma po_le_trans : forall x y z, cmp x y <> Gt -> cmp y z <> Gt -> cmp x z <> Gt.
  Proof.
    intros x y z H1 H2. destruct (cmp x y) eqn:E1; try congruence.
    - rewrite (po_cong _ PO _ _ E1). assumption.
    - rewrite (po_lt_le_trans _ _ _ E1 H2). discriminate.
  Qed.
End PreorderFacts.

Record po_at {A} (cmp : A -> A -> comparison) (x : A) : Prop := {
  at_anti : forall y, cmp x y = CompOpp (cmp y x);
  at_cong : forall y, cmp x y = Eq -> forall z, cmp x z = cmp y z;
  at_trans : forall y z, cmp x y = Lt -> cmp y z <> Gt -> cmp x z = Lt }.
Arguments at_anti {A cmp x}.
Arguments at_cong {A cmp x}.
Arguments at_trans {A cmp x}.

Lemma preorder_at : forall {A} (cmp : A -> A -> comparison), preorder cmp -> forall x, po_at cmp x.
Proof. intros A cmp PO x. split; [apply PO | apply PO | apply (po_lt_le_trans _ PO)]. Qed.

Lemma at_preorder : forall {A} (cmp : A -> A -> comparison), (forall x, po_at cmp x) -> preorder cmp.
Proof.
  intros A cmp H. split; intro x; [apply H | apply H |].
  intros y z E1 E2. apply (at_trans (H x) y z E1). congruence.
Qed.

Lemma po_at_on : forall {A B} (f : A -> B) (c1 : B -> B -> comparison) (c2 : A -> A -> comparison) x,
  (forall a b, c2 a b = c1 (f a) (f b)) -> po_at c1 (f x) -> po_at c2 x.
Proof.
  intros A B f c1 c2 x E [An Co Tr]. split.
  - intro y. rewrite !E. apply An.
  - intros y Ey z. rewrite !E in *. apply Co. assumption.
  - intros y z. rewrite !E. apply Tr.
Qed.

Lemma preorder_on : forall {A B} (f : A -> B) (c1 : B -> B -> comparison) (c2 : A -> A -> comparison),
  (forall a b, c2 a b = c1 (f a) (f b)) -> preorder c1 -> preorder c2.
Proof. intros A B f c1 c2 E PO. apply at_preorder. intro x. apply (po_at_on f c1 c2 x E), preorder_at, PO. Qed.

Lemma po_at_lex : forall {A} (c1 c2 : A -> A -> comparison) x, po_at c1 x -> po_at c2 x ->
  po_at (fun a b => match c1 a b with Eq => c2 a b | r => r end) x.
Proof.
  intros A c1 c2 x [A1 C1 T1] [A2 C2 T2]. split.
  - intro y. rewrite A1, A2. destruct (c1 y x); reflexivity.
  - intros y E z. destruct (c1 x y) eqn:E1; try discriminate.
    rewrite (C1 _ E1), (C2 _ E). reflexivity.
  - intros y z E N. destruct (c1 x y) eqn:E1; try discriminate.
    + rewrite (C1 _ E1). destruct (c1 y z); try congruence. apply (T2 y); assumption.
    + rewrite (T1 y z E1); [reflexivity|]. destruct (c1 y z); congruence.
Qed.

Section Lex.
  Context {A : Type} (cmp : A -> A -> comparison).

  Lemma po_at_list : forall a, Forall (po_at cmp) a -> po_at (list_cmp cmp) a.
  Proof.
    induction 1 as [| x a [An Co Tr] _ [IA IC IT]]; split.
    - intros [| y b]; reflexivity.
    - intros [| y b] E z; [reflexivity | discriminate].
    - intros [| y b] [| z c] E N; try discriminate E; [now elim N | reflexivity].
    - intros [| y b]; cbn; [reflexivity|].
      rewrite (An y). destruct (cmp y x); cbn; auto.
    - intros [| y b] E [| z c]; cbn in *; try discriminate; try reflexivity.
      destruct (cmp x y) eqn:Exy; try discriminate.
      rewrite (Co _ Exy z). destruct (cmp y z); auto.
    - intros [| y b] [| z c]; cbn; try discriminate; [intros _ N; now elim N|].
      destruct (cmp x y) eqn:Exy; try discriminate.
      + rewrite (Co _ Exy z). destruct (cmp y z); try congruence. apply IT.
      + intros _ N. rewrite (Tr y z Exy); [reflexivity|]. destruct (cmp y z); congruence.
  Qed.

  Lemma list_cmp_refl : forall a, Forall (fun x => cmp x x = Eq) a -> list_cmp cmp a a = Eq.
  Proof. induction 1; cbn; auto. rewrite H. assumption. Qed.
End Lex.

Lemma preorder_list : forall {A} (cmp : A -> A -> comparison), preorder cmp -> preorder (list_cmp cmp).
Proof.
  intros A cmp PO. apply at_preorder. intro a. apply po_at_list, Forall_forall.
  intros x _. apply preorder_at, PO.
Qed.

Section Ranked.
  Context {A : Type} (rk : A -> nat) (cmp : A -> A -> comparison).
  Hypothesis cmp_rk : forall x y, rk x <> rk y -> cmp x y = (rk x ?= rk y).

  Lemma ranked_le : forall x y, cmp x y <> Gt -> rk x <= rk y.
  Proof.
    intros x y N. destruct (Nat.eq_dec (rk x) (rk y)) as [e | n]; [lia|].
    rewrite (cmp_rk _ _ n) in N. apply Nat.compare_le_iff, N.
  Qed.

  Lemma ranked_lt : forall x y, rk x < rk y -> cmp x y = Lt.
  Proof. intros x y L. rewrite cmp_rk by lia. apply Nat.compare_lt_iff, L. Qed.

  Lemma po_at_class : forall {B} (inj : B -> A) (c : B -> B -> comparison) b,
    (forall y, rk y = rk (inj b) -> exists b', y = inj b') ->
    (forall b1 b2, cmp (inj b1) (inj b2) = c b1 b2) ->
    po_at c b -> po_at cmp (inj b).
  Proof.
    intros B inj c b Cls Hc [An Co Tr]. split.
    - intro y. destruct (Nat.eq_dec (rk y) (rk (inj b))) as [e | n].
      + destruct (Cls y e) as [b' ->]. rewrite !Hc. apply An.
      + rewrite !cmp_rk by auto. apply Nat.compare_antisym.
    - intros y E z.
      destruct (Nat.eq_dec (rk y) (rk (inj b))) as [e | n].
      2:{ rewrite cmp_rk in E by auto. apply Nat.compare_eq in E. congruence. }
      destruct (Nat.eq_dec (rk z) (rk (inj b))) as [ez | nz].
      + destruct (Cls y e) as [b' ->], (Cls z ez) as [b'' ->]. rewrite !Hc in *. apply Co, E.
      + rewrite !cmp_rk by congruence. rewrite e. reflexivity.
    - intros y z E N.
      assert (L1 : rk (inj b) <= rk y) by (apply ranked_le; congruence).
      pose proof (ranked_le _ _ N) as L2.
      destruct (Nat.eq_dec (rk z) (rk (inj b))) as [ez | nz]; [| apply ranked_lt; lia].
      assert (e : rk y = rk (inj b)) by lia.
      destruct (Cls y e) as [b' ->], (Cls z ez) as [b'' ->]. rewrite !Hc in *. apply (Tr b'); assumption.
  Qed.
End Ranked.

Lemma list_cmp_map : forall {A B} (f : A -> B) (cmp : B -> B -> comparison) a b,
  list_cmp cmp (map f a) (map f b) = list_cmp (fun x y => cmp (f x) (f y)) a b.
Proof.
  induction a; destruct b; cbn; auto. rewrite IHa. reflexivity.
Qed.

Lemma list_cmp_ext_in : forall {A} (c1 c2 : A -> A -> comparison) a b,
  (forall x y, In x a -> In y b -> c1 x y = c2 x y) ->
  list_cmp c1 a b = list_cmp c2 a b.
Proof.
  induction a; destruct b; cbn; auto. intros H.
  rewrite H by auto. rewrite IHa by auto. reflexivity.
Qed.

Lemma order_preorder : forall {A} (cmp : A -> A -> comparison) (lt : A -> A -> Prop),
  (forall x y, cmp y x = CompOpp (cmp x y)) -> (forall x y, cmp x y = Eq -> x = y) ->
  (forall x y, cmp x y = Lt <-> lt x y) -> (forall x y z, lt x y -> lt y z -> lt x z) -> preorder cmp.
Proof.
  intros A cmp lt An Eq_ Lt_ Tr. split.
  - intros x y. apply An.
  - intros x y E z. apply Eq_ in E. congruence.
  - intros x y z. rewrite !Lt_. apply Tr.
Qed.

Lemma Zcmp_preorder : preorder Z.compare.
Proof. exact (order_preorder _ _ Z.compare_antisym Z.compare_eq Z.compare_lt_iff Z.lt_trans). Qed.
Lemma Ncmp_preorder : preorder N.compare.
Proof. exact (order_preorder _ _ N.compare_antisym N.compare_eq N.compare_lt_iff N.lt_trans). Qed.
Lemma natcmp_preorder : preorder Nat.compare.
Proof. exact (order_preorder _ _ Nat.compare_antisym Nat.compare_eq Nat.compare_lt_iff Nat.lt_trans). Qed.

Lemma bool_cmp_preorder : preorder bool_cmp.
Proof. split; intros [] []; cbn; try discriminate; auto; intros []; cbn; auto; try discriminate; destruct z; auto. Qed.

(* strings: [string_cmp] is the lexicographic order of the byte codes *)
Fixpoint codes (s : string) : list N :=
  match s with EmptyString => [] | String c r => N_of_ascii c :: codes r end.

Lemma string_cmp_codes : forall a b, string_cmp a b = list_cmp N.compare (codes a) (codes b).
Proof. induction a; destruct b; cbn; auto. rewrite IHa. reflexivity. Qed.

Lemma codes_inj : forall a b, codes a = codes b -> a = b.
Proof.
  induction a; destruct b; cbn; intros H; try discriminate; auto.
  injection H as H1 H2. f_equal; auto.
  rewrite <- (ascii_N_embedding a), <- (ascii_N_embedding a1). congruence.
Qed.

Lemma string_cmp_preorder : preorder string_cmp.
Proof. apply (preorder_on codes _ _ string_cmp_codes), preorder_list, Ncmp_preorder. Qed.

Lemma list_cmp_eq_iff : forall {A} (cmp : A -> A -> comparison),
  (forall x y, cmp x y = Eq <-> x = y) -> forall a b, list_cmp cmp a b = Eq <-> a = b.
Proof.
  intros A cmp H. induction a; destruct b; cbn; split; intros E; try discriminate; auto.
  - destruct (cmp a a1) eqn:E1; try discriminate. apply H in E1. apply IHa in E. congruence.
  - injection E as -> ->. rewrite (proj2 (H a1 a1) eq_refl). apply IHa. reflexivity.
Qed.

Lemma string_cmp_eq_iff : forall a b, string_cmp a b = Eq <-> a = b.
Proof.
  intros. rewrite string_cmp_codes, (list_cmp_eq_iff N.compare N.compare_eq_iff).
  split; [apply codes_inj | congruence].
Qed.

Lemma bool_cmp_eq_iff : forall a b, bool_cmp a b = Eq <-> a = b.
Proof. intros [] []; cbn; split; congruence. Qed.

(* reals: NaN patterns form one class above every number *)
Definition real_key (p : Z) : Z * Z := if f64_is_nan p then (1, 0)%Z else (0, f64_key p)%Z.
Definition key_cmp (k l : Z * Z) : comparison :=
  match (fst k ?= fst l)%Z with Eq => (snd k ?= snd l)%Z | r => r end.

Lemma real_cmp_key : forall p q, real_cmp p q = key_cmp (real_key p) (real_key q).
Proof.
  intros p q. unfold real_cmp, f64_pcmp, real_key.
  destruct (f64_is_nan p), (f64_is_nan q); cbn; auto.
Qed.

Lemma real_cmp_preorder : preorder real_cmp.
Proof.
  apply (preorder_on real_key key_cmp _ real_cmp_key), at_preorder. intro k.
  apply (po_at_lex (fun k l => fst k ?= fst l)%Z (fun k l => snd k ?= snd l)%Z).
  - apply (po_at_on fst Z.compare _ _ (fun _ _ => eq_refl)), preorder_at, Zcmp_preorder.
  - apply (po_at_on snd Z.compare _ _ (fun _ _ => eq_refl)), preorder_at, Zcmp_preorder.
Qed.

Lemma fnref_cmp_preorder : preorder fnref_cmp.
Proof.
  destruct natcmp_preorder as [N1 N2 N3]. destruct string_cmp_preorder as [S1 S2 S3].
  split.
  - intros [a|a] [b|b]; cbn; auto.
  - intros [a|a] [b|b] E [c|c]; cbn in *; try discriminate; auto.
  - intros [a|a] [b|b] [c|c]; cbn; try discriminate; eauto.
Qed.

Lemma fnref_cmp_eq_iff : forall f g, fnref_cmp f g = Eq <-> fnref_eqb f g = true.
Proof.
  intros [a|a] [b|b]; cbn; try (split; discriminate).
  - rewrite Nat.compare_eq_iff, Nat.eqb_eq. reflexivity.
  - rewrite string_cmp_eq_iff, String.eqb_eq. reflexivity.
Qed.

Definition pair_cmp (cmp : cell -> cell -> comparison) (p q : cell * cell) : comparison :=
  match cmp (fst p) (fst q) with Eq => cmp (snd p) (snd q) | r => r end.

Lemma po_at_pair : forall (cmp : cell -> cell -> comparison) p,
  po_at cmp (fst p) -> po_at cmp (snd p) -> po_at (pair_cmp cmp) p.
Proof.
  intros cmp p H1 H2.
  apply (po_at_lex (fun p q => cmp (fst p) (fst q)) (fun p q => cmp (snd p) (snd q)));
    [apply (po_at_on fst cmp) | apply (po_at_on snd cmp)]; auto.
Qed.

Lemma cmp_vec_vec : forall x y, cell_cmp (CVec x) (CVec y) = list_cmp cell_cmp x y.
Proof.
  intros x y. cbn [cell_cmp value]. revert y.
  induction x as [| p x IH]; destruct y as [| q y]; cbn [list_cmp]; auto.
  rewrite IH. reflexivity.
Qed.

Lemma cmp_map_map : forall x y, cell_cmp (CMap x) (CMap y) = list_cmp (pair_cmp cell_cmp) x y.
Proof.
  intros x y. cbn [cell_cmp value]. revert y.
  induction x as [| p x IH]; destruct y as [| q y]; cbn [list_cmp]; auto.
  rewrite IH. unfold pair_cmp. destruct (cell_cmp (fst p) (fst q)); reflexivity.
Qed.

Definition scmp (a b : cell) : comparison := cell_cmp (strip a) (strip b).

Lemma scmp_tag_l : forall t v b, scmp (CTag t v) b = scmp v b.
Proof. reflexivity. Qed.
Lemma scmp_tag_r : forall a t v, scmp a (CTag t v) = scmp a v.
Proof. reflexivity. Qed.
Lemma scmp_peel_l : forall a b, scmp (peel a) b = scmp a b.
Proof. intros. unfold scmp. rewrite strip_peel. reflexivity. Qed.
Lemma scmp_peel_r : forall a b, scmp a (peel b) = scmp a b.
Proof. intros. unfold scmp. rewrite strip_peel. reflexivity. Qed.

Lemma scmp_vec_vec : forall x y, scmp (CVec x) (CVec y) = list_cmp scmp x y.
Proof. intros. unfold scmp. cbn [strip]. rewrite cmp_vec_vec, list_cmp_map. reflexivity. Qed.

Lemma scmp_map_map : forall x y, scmp (CMap x) (CMap y) = list_cmp (pair_cmp scmp) x y.
Proof.
  intros. unfold scmp at 1. cbn [strip]. rewrite cmp_map_map.
  change (fun kv : cell * cell => (strip (fst kv), strip (snd kv))) with strip_pair.
  rewrite list_cmp_map. reflexivity.
Qed.

Definition scmp_body (a b : cell) : comparison :=
  match a, b with
  | CNil, CNil => Eq
  | CFlag x, CFlag y => bool_cmp x y
  | CInt x, CInt y => (x ?= y)%Z
  | CReal x, CReal y => real_cmp x y
  | CStr x, CStr y => string_cmp x y
  | CBits x, CBits y => list_cmp bool_cmp (abs x) (abs y)
  | CVec x, CVec y => list_cmp scmp x y
  | CMap x, CMap y => list_cmp (pair_cmp scmp) x y
  | CFun f, CFun g => fnref_cmp f g
  | CAny, CAny => Eq
  | _, _ => Nat.compare (rank a) (rank b)
  end.

Lemma scmp_unfold : forall a b, is_tag a = false -> is_tag b = false -> scmp a b = scmp_body a b.
Proof.
  intros a b Ha Hb.
  destruct a; try discriminate Ha; destruct b; try discriminate Hb;
    try reflexivity; try apply scmp_vec_vec; try apply scmp_map_map.
Qed.

Lemma scmp_peel : forall a b, scmp a b = scmp_body (peel a) (peel b).
Proof.
  intros a b. rewrite <- (scmp_peel_l a), <- (scmp_peel_r _ b). apply scmp_unfold; apply peel_notag.
Qed.

Lemma scmp_body_rank : forall a b, rank a <> rank b -> scmp_body a b = (rank a ?= rank b).
Proof. intros a b H. destruct a, b; try reflexivity; now elim H. Qed.

Lemma scmp_at_class : forall {B} (k : B -> cell) (c : B -> B -> comparison) b,
  peel (k b) = k b -> (forall y, rank y = rank (k b) -> exists b', y = k b') ->
  (forall b1 b2, scmp_body (k b1) (k b2) = c b1 b2) -> po_at c b -> po_at scmp (k b).
Proof.
  intros B k c b Hp Cls Hc H. apply (po_at_on peel scmp_body scmp _ scmp_peel). rewrite Hp.
  apply (po_at_class rank scmp_body scmp_body_rank k c b Cls Hc H).
Qed.

Theorem scmp_at : forall x, po_at scmp x.
Proof.
  induction x using cell_ind';
    [ apply (scmp_at_class (fun _ : unit => CNil) (fun _ _ => Eq) tt)
    | apply (scmp_at_class CFlag bool_cmp)
    | apply (scmp_at_class CInt Z.compare)
    | apply (scmp_at_class CReal real_cmp)
    | apply (scmp_at_class CStr string_cmp)
    | apply (scmp_at_class CVec (list_cmp scmp))
    | apply (scmp_at_class CMap (list_cmp (pair_cmp scmp)))
    | apply (scmp_at_class CFun fnref_cmp)
    | apply (scmp_at_class CBits (fun x y => list_cmp bool_cmp (abs x) (abs y)))
    | apply (scmp_at_class (fun _ : unit => CAny) (fun _ _ => Eq) tt)
    | split; apply IHx ];
    try reflexivity;
    try (intros y Hy; destruct y; try discriminate Hy; first [exists tt; reflexivity | eexists; reflexivity]).
  - split; intros; reflexivity || discriminate.
  - apply preorder_at, bool_cmp_preorder.
  - apply preorder_at, Zcmp_preorder.
  - apply preorder_at, real_cmp_preorder.
  - apply preorder_at, string_cmp_preorder.
  - apply po_at_list. assumption.
  - apply po_at_list. eapply Forall_impl; [| exact H]. intros p [H1 H2]. apply po_at_pair; assumption.
  - apply preorder_at, fnref_cmp_preorder.
  - apply (po_at_on abs (list_cmp bool_cmp) _ _ (fun _ _ => eq_refl)), preorder_at, preorder_list, bool_cmp_preorder.
  - split; intros; reflexivity || discriminate.
Qed.

Theorem scmp_preorder : preorder scmp.
Proof. exact (at_preorder scmp scmp_at). Qed.

Lemma pair_scmp_preorder : preorder (pair_cmp scmp).
Proof. apply at_preorder. intro p. apply po_at_pair; apply scmp_at. Qed.

(* [deep P c]: P holds of c and of every cell inside c, tag maps excepted *)
Fixpoint deep (P : cell -> Prop) (c : cell) : Prop :=
  P c /\
  match c with
  | CVec l => (fix go (l : list cell) : Prop :=
                 match l with [] => True | x :: r => deep P x /\ go r end) l
  | CMap m => (fix go (m : list (cell * cell)) : Prop :=
                 match m with [] => True | kv :: r => (deep P (fst kv) /\ deep P (snd kv)) /\ go r end) m
  | CTag _ v => deep P v
  | _ => True
  end.

(* [deepT P c]: the same, tag maps included *)
Fixpoint deepT (P : cell -> Prop) (c : cell) : Prop :=
  P c /\
  match c with
  | CVec l => (fix go (l : list cell) : Prop :=
                 match l with [] => True | x :: r => deepT P x /\ go r end) l
  | CMap m => (fix go (m : list (cell * cell)) : Prop :=
                 match m with [] => True | kv :: r => (deepT P (fst kv) /\ deepT P (snd kv)) /\ go r end) m
  | CTag t v => (fix go (m : list (cell * cell)) : Prop :=
                 match m with [] => True | kv :: r => (deepT P (fst kv) /\ deepT P (snd kv)) /\ go r end) t
                /\ deepT P v
  | _ => True
  end.

Definition deep2 (P : cell -> Prop) (kv : cell * cell) : Prop := deep P (fst kv) /\ deep P (snd kv).
Definition deepT2 (P : cell -> Prop) (kv : cell * cell) : Prop := deepT P (fst kv) /\ deepT P (snd kv).

(* the inner fixpoints of [deep] and [deepT] are [Forall] *)
Lemma conj_fix_Forall : forall {A} (Q : A -> Prop) l,
  (fix go (l : list A) : Prop := match l with [] => True | x :: r => Q x /\ go r end) l <-> Forall Q l.
Proof.
  induction l as [| x r IH]; split; intro H; auto.
  - destruct H as [H1 H2]. constructor; auto. apply IH; auto.
  - inversion H; subst. split; auto. apply IH; auto.
Qed.

Lemma deep_here : forall P c, deep P c -> P c.
Proof. intros P c H. destruct c; apply H. Qed.

Lemma deep_vec : forall P l, deep P (CVec l) <-> P (CVec l) /\ Forall (deep P) l.
Proof. intros P l. apply and_iff_compat_l, (conj_fix_Forall (deep P)). Qed.

Lemma deep_map : forall P m, deep P (CMap m) <-> P (CMap m) /\ Forall (deep2 P) m.
Proof. intros P m. apply and_iff_compat_l, (conj_fix_Forall (deep2 P)). Qed.

Lemma deep_tag : forall P t v, deep P (CTag t v) <-> P (CTag t v) /\ deep P v.
Proof. intros. reflexivity. Qed.

Lemma deepT_here : forall P c, deepT P c -> P c.
Proof. intros P c H. destruct c; apply H. Qed.

Lemma deepT_vec : forall P l, deepT P (CVec l) <-> P (CVec l) /\ Forall (deepT P) l.
Proof. intros P l. apply and_iff_compat_l, (conj_fix_Forall (deepT P)). Qed.

Lemma deepT_map : forall P m, deepT P (CMap m) <-> P (CMap m) /\ Forall (deepT2 P) m.
Proof. intros P m. apply and_iff_compat_l, (conj_fix_Forall (deepT2 P)). Qed.

Lemma deepT_tag : forall P t v,
  deepT P (CTag t v) <-> P (CTag t v) /\ Forall (deepT2 P) t /\ deepT P v.
Proof. intros P t v. apply and_iff_compat_l, and_iff_compat_r, (conj_fix_Forall (deepT2 P)). Qed.

Lemma deep_impl : forall (P Q : cell -> Prop), (forall c, P c -> Q c) -> forall c, deep P c -> deep Q c.
Proof.
  intros P Q HPQ. induction c using cell_ind'; try (intros [H1 H2]; split; auto; fail).
  - rewrite !deep_vec. intros [H1 H2]. split; auto.
    rewrite Forall_forall in *. auto.
  - rewrite !deep_map. intros [H1 H2]. split; auto.
    rewrite Forall_forall in *. intros kv Hkv. destruct (H _ Hkv), (H2 _ Hkv). split; auto.
Qed.

Lemma deep_and : forall (P Q : cell -> Prop) c, deep (fun c => P c /\ Q c) c <-> deep P c /\ deep Q c.
Proof.
  intros P Q. induction c using cell_ind'; try (cbn [deep]; tauto).
  - rewrite !deep_vec. rewrite Forall_forall in H. rewrite !Forall_forall.
    split.
    + intros [[H1 H2] H3]. split; (split; [assumption|]); intros y Hy; apply (H y Hy); auto.
    + intros [[H1 H2] [H3 H4]]. split; [tauto|]. intros y Hy. apply (H y Hy); auto.
  - rewrite !deep_map. rewrite Forall_forall in H. rewrite !Forall_forall. unfold deep2.
    split.
    + intros [[H1 H2] H3]. split; (split; [assumption|]); intros y Hy;
        destruct (H y Hy) as [A B]; destruct (H3 y Hy) as [C D];
        apply A in C; apply B in D; tauto.
    + intros [[H1 H2] [H3 H4]]. split; [tauto|]. intros y Hy.
      destruct (H y Hy) as [A B]; destruct (H2 y Hy), (H4 y Hy). split; [apply A | apply B]; tauto.
Qed.

Lemma deepT_deep : forall P c, deepT P c -> deep P c.
Proof.
  intros P. induction c using cell_ind'; try (intros [H1 H2]; split; auto; fail).
  - rewrite deepT_vec, deep_vec. intros [H1 H2]. split; auto. rewrite Forall_forall in *. auto.
  - rewrite deepT_map, deep_map. intros [H1 H2]. split; auto. rewrite Forall_forall in *.
    intros kv Hkv. destruct (H _ Hkv), (H2 _ Hkv). split; auto.
  - rewrite deepT_tag, deep_tag. intros [H1 [H2 H3]]. auto.
Qed.

Definition notagtag (c : cell) : Prop :=
  match c with CTag _ v => is_tag v = false | _ => True end.
Definition tagwf : cell -> Prop := deep notagtag.

Lemma tagwf_value : forall c, tagwf c -> tagwf (value c) /\ is_tag (value c) = false.
Proof. intros c H. destruct c; cbn; auto. destruct H as [H1 H2]. auto. Qed.

Lemma value_peel : forall c, tagwf c -> value c = peel c.
Proof.
  intros c H. destruct c; cbn; auto. destruct H as [H1 H2]. cbn in H1.
  destruct c; cbn; auto; discriminate.
Qed.

Lemma strip_value : forall c, tagwf c -> strip (value c) = strip c.
Proof. intros c H. rewrite value_peel by assumption. apply strip_peel. Qed.

Lemma cmp_value_r : forall a b, is_tag (value b) = false -> cell_cmp a b = cell_cmp a (value b).
Proof.
  intros a b Hb. induction a; cbn [cell_cmp]; rewrite ?(value_notag (value b)) by assumption; auto.
Qed.

Lemma cmp_tag_l : forall t v b, cell_cmp (CTag t v) b = cell_cmp v b.
Proof. reflexivity. Qed.

Theorem cmp_strip : forall a b, tagwf a -> tagwf b -> cell_cmp a b = scmp a b.
Proof.
  induction a using cell_ind'; intros b0 Ha Hb0;
    try (rewrite cmp_tag_l, scmp_tag_l; apply IHa; [apply Ha | assumption]; fail);
    destruct (tagwf_value _ Hb0) as [Hv Hn];
    rewrite (cmp_value_r _ b0 Hn); unfold scmp; rewrite <- (strip_value b0 Hb0);
    revert Hv Hn; generalize (value b0); clear b0 Hb0; intros y Hy Hn;
    destruct y; try discriminate Hn; try reflexivity.
  - fold (scmp (CVec l) (CVec l0)). rewrite cmp_vec_vec, scmp_vec_vec.
    apply deep_vec in Ha. apply deep_vec in Hy. destruct Ha as [_ Ha], Hy as [_ Hy].
    rewrite Forall_forall in *. apply list_cmp_ext_in.
    intros p q Hp Hq. apply H; [assumption | apply Ha; assumption | apply Hy; assumption].
  - fold (scmp (CMap m) (CMap m0)). rewrite cmp_map_map, scmp_map_map.
    apply deep_map in Ha. apply deep_map in Hy. destruct Ha as [_ Ha], Hy as [_ Hy].
    rewrite Forall_forall in *. apply list_cmp_ext_in. intros p q Hp Hq.
    destruct (H _ Hp) as [H1 H2], (Ha _ Hp), (Hy _ Hq). unfold pair_cmp.
    rewrite H1, H2 by assumption. reflexivity.
Qed.

Lemma tagwf_strip : forall c, tagwf (strip c).
Proof.
  induction c using cell_ind'; cbn [strip]; try (split; exact I); auto.
  - apply deep_vec. split; [exact I|]. rewrite Forall_forall in *. intros x Hx.
    apply in_map_iff in Hx. destruct Hx as [y [<- Hy]]. apply H; assumption.
  - apply deep_map. split; [exact I|]. rewrite Forall_forall in *. intros x Hx.
    apply in_map_iff in Hx. destruct Hx as [y [<- Hy]]. destruct (H _ Hy). split; assumption.
Qed.

Lemma scmp_strip_l : forall a b, scmp (strip a) b = scmp a b.
Proof. intros. unfold scmp. rewrite strip_idem. reflexivity. Qed.
Lemma scmp_strip_r : forall a b, scmp a (strip b) = scmp a b.
Proof. intros. unfold scmp. rewrite strip_idem. reflexivity. Qed.

Theorem cmp_antisym : forall a b, tagwf a -> tagwf b -> cell_cmp a b = CompOpp (cell_cmp b a).
Proof. intros. rewrite !cmp_strip by assumption. apply scmp_preorder. Qed.

Theorem cmp_refl : forall a, tagwf a -> cell_cmp a a = Eq.
Proof. intros. rewrite cmp_strip by assumption. apply (po_refl _ scmp_preorder). Qed.

Theorem cmp_trans : forall a b c r, tagwf a -> tagwf b -> tagwf c ->
  cell_cmp a b = r -> cell_cmp b c = r -> cell_cmp a c = r.
Proof.
  intros a b c r Ha Hb Hc. rewrite !cmp_strip by assumption. destruct r.
  - apply (po_eq_trans _ scmp_preorder).
  - apply scmp_preorder.
  - rewrite !(po_gt_lt _ scmp_preorder). intros. eapply (po_trans _ scmp_preorder); eassumption.
Qed.

(* keys of different types never collide *)
Theorem cmp_rank : forall a b, tagwf a -> tagwf b ->
  rank (value a) <> rank (value b) -> cell_cmp a b = Nat.compare (rank (value a)) (rank (value b)).
Proof.
  intros a b Ha Hb. rewrite cmp_strip, scmp_peel, !value_peel by assumption. apply scmp_body_rank.
Qed.

Definition cmp_is_eq (c : comparison) : bool := match c with Eq => true | _ => false end.

Lemma cmp_is_eq_true : forall c, cmp_is_eq c = true <-> c = Eq.
Proof. destruct c; cbn; split; congruence. Qed.

(* strictly ascending keys (the in-order traversal of the red-black tree) *)
Definition keys_sorted (m : list (cell * cell)) : Prop :=
  StronglySorted (fun p q => cell_cmp (fst p) (fst q) = Lt) m.

(* no NaN real - and no opaque [CAny] value, which [equal?] never equates - anywhere
   (tag maps excepted: they never take part in a comparison) *)
Definition nonan_local (c : cell) : Prop :=
  match c with CReal r => f64_is_nan r = false | CAny => False | _ => True end.
Definition NoNaN : cell -> Prop := deep nonan_local.

Definition ok_local (c : cell) : Prop :=
  match c with
  | CBits b => wf b
  | CMap m => keys_sorted m /\ Forall (fun kv => NoNaN (fst kv)) m
  | CTag t v => is_tag v = false /\ keys_sorted t /\ Forall (fun kv => NoNaN (fst kv)) t
  | _ => True
  end.

(* every map (tag maps included) is strictly sorted with NaN-free keys, every bit-string is
   well formed, no tag wrapper wraps a tag wrapper *)
Definition cell_ok : cell -> Prop := deepT ok_local.
Definition map_ok (m : list (cell * cell)) : Prop := cell_ok (CMap m).

Lemma cell_ok_tagwf : forall c, cell_ok c -> tagwf c.
Proof.
  intros c H. apply deepT_deep in H. revert H. apply deep_impl.
  intros x Hx. destruct x; cbn in *; auto. tauto.
Qed.

Lemma StronglySorted_ext_in : forall {A} (R S : A -> A -> Prop) l,
  (forall x y, In x l -> In y l -> R x y -> S x y) -> StronglySorted R l -> StronglySorted S l.
Proof.
  induction l as [| a l IH]; intros H HS; [constructor|].
  inversion HS; subst. constructor.
  - apply IH; auto. intros; apply H; cbn; auto.
  - rewrite Forall_forall in *. intros y Hy. apply H; cbn; auto.
Qed.

Lemma cell_ok_vec : forall l, cell_ok (CVec l) <-> Forall cell_ok l.
Proof. intro l. unfold cell_ok. rewrite deepT_vec. cbn. tauto. Qed.

Lemma cell_ok_map : forall m, cell_ok (CMap m) <->
  keys_sorted m /\ Forall (fun kv => NoNaN (fst kv)) m /\
  Forall (fun kv => cell_ok (fst kv) /\ cell_ok (snd kv)) m.
Proof. intro m. unfold cell_ok. rewrite deepT_map. cbn. unfold deepT2. tauto. Qed.

Lemma cell_ok_tag : forall t v, cell_ok (CTag t v) <->
  is_tag v = false /\ cell_ok (CMap t) /\ cell_ok v.
Proof. intros t v. rewrite cell_ok_map. unfold cell_ok. rewrite deepT_tag. cbn. unfold deepT2. tauto. Qed.

Lemma NoNaN_vec : forall l, NoNaN (CVec l) <-> Forall NoNaN l.
Proof. intro l. unfold NoNaN. rewrite deep_vec. cbn. tauto. Qed.

Lemma NoNaN_map : forall m, NoNaN (CMap m) <-> Forall (fun kv => NoNaN (fst kv) /\ NoNaN (snd kv)) m.
Proof. intro m. unfold NoNaN. rewrite deep_map. cbn. unfold deep2. tauto. Qed.

Lemma tagwf_vec : forall l, tagwf (CVec l) <-> Forall tagwf l.
Proof. intro l. unfold tagwf. rewrite deep_vec. cbn. tauto. Qed.

Lemma tagwf_map : forall m, tagwf (CMap m) <-> Forall (fun kv => tagwf (fst kv) /\ tagwf (snd kv)) m.
Proof. intro m. unfold tagwf. rewrite deep_map. cbn. unfold deep2. tauto. Qed.

Lemma tagwf_tag : forall t v, tagwf (CTag t v) <-> is_tag v = false /\ tagwf v.
Proof. intros. reflexivity. Qed.

(* the exceptions are real: NaN and opaque values are below/above nothing but not equal to
   themselves, and a doubly wrapped value breaks the antisymmetry of the order *)
Definition nan_bits : Z := 0x7FF8000000000000%Z.
Example nan_not_equal :
  f64_is_nan nan_bits = true /\
  cell_cmp (CReal nan_bits) (CReal nan_bits) = Eq /\ cell_eqb (CReal nan_bits) (CReal nan_bits) = false.
Proof. vm_compute. auto. Qed.
Example any_not_equal : cell_cmp CAny CAny = Eq /\ cell_eqb CAny CAny = false.
Proof. vm_compute. auto. Qed.
Example nested_tags_break_order :
  let b := CTag [] (CTag [] (CInt 1)) in
  cell_cmp (CInt 1) b = Lt /\ cell_cmp b (CInt 1) = Eq /\ cell_eqb (CInt 1) b = false /\ cell_eqb b (CInt 1) = true.
Proof. vm_compute. auto. Qed.
