(* Words, whitespace and comments at the level of Lex::next: the exact token and the exact lexer
   state afterwards.  Flags and nil: printed as the words true / false / nil, lexed as single words. *)
From Xeh Require Import Model.Prelude Model.Cell Model.Lexer.
From Xeh Require Import Proofs.LexBasic Proofs.LexStr Proofs.LexMoreCmt Proofs.LexNext Proofs.LexAll.
Local Open Scope string_scope.

Lemma lex_next_wordlike l c body rest :
  lrest l = String c (body ++ rest) -> (byte_of c < 128)%N -> is_ws c = false ->
  (byte_of c =? 34)%N = false -> (byte_of c =? 124)%N = false ->
  leads_number (String c (body ++ rest)) = false ->
  no_ws body = true -> next_is_ws_or_end rest = true ->
  lex_next l = word_tail l (String c body) rest (lpos l + 1 + String.length body).
Proof.
  intros Hl Ha Hws H34 H124 Hn Hb Hr.
  destruct (ascii_width c Ha) as [Hw _].
  rewrite (lex_next_other l c _ Hl Hws H34 (starts_ldq_false c _ ltac:(lia)) H124).
  unfold lex_word. cbv zeta. rewrite Hl, Hw. cbn [str_drop].
  assert (E1 : num_stage1 c (body ++ rest) (lpos l + 1) = (None, "", body ++ rest, lpos l + 1)).
  { unfold num_stage1. cbn [leads_number] in Hn. apply orb_false_elim in Hn. destruct Hn as [N1 N2].
    rewrite N1. destruct ((byte_of c =? 45)%N || (byte_of c =? 43)%N); [|reflexivity].
    cbn [andb] in N2. destruct (body ++ rest) as [|c2 r2]; [reflexivity|]. rewrite N2. reflexivity. }
  rewrite E1. cbn [is0_of num_stage2]. rewrite word_finish_eq by assumption. cbv zeta. rewrite Hl.
  replace (lpos l + 1 + String.length body - lpos l) with (S (String.length body)) by lia.
  cbn [str_take]. rewrite str_take_app_length. reflexivity.
Qed.

Lemma lex_next_word l c body rest :
  lrest l = String c (body ++ rest) -> (byte_of c < 128)%N -> is_ws c = false ->
  (byte_of c =? 34)%N = false -> (byte_of c =? 124)%N = false ->
  leads_number (String c (body ++ rest)) = false ->
  no_ws body = true -> next_is_ws_or_end rest = true ->
  String.eqb (String c body) "\" = false -> String.eqb (String c body) "\(" = false ->
  let p4 := lpos l + 1 + String.length body in
  lex_next l = (TWord (String c body), mklex rest p4 (lpos l) (llen l)).
Proof.
  intros Hl Ha Hws H34 H124 Hn Hb Hr E1 E2 p4.
  rewrite (lex_next_wordlike l c body rest Hl Ha Hws H34 H124 Hn Hb Hr).
  unfold word_tail. rewrite E1, E2. reflexivity.
Qed.

(* a backslash word starts a comment that runs up to (not including) the next line feed *)
Lemma lex_next_line_comment l cm rest :
  lrest l = "\" ++ cm ++ rest -> next_is_ws_or_end (cm ++ rest) = true ->
  no_nl cm = true -> next_is_nl_or_end rest = true ->
  let p' := lpos l + 1 + String.length cm in
  lex_next l = (TComment, mklex rest p' (lpos l) (llen l)).
Proof.
  intros Hl Hw Hc Hr p'.
  assert (Hl' : lrest l = String "\" ("" ++ (cm ++ rest))) by exact Hl.
  rewrite (lex_next_wordlike l "\" "" (cm ++ rest) Hl' ltac:(reflexivity) eq_refl eq_refl eq_refl eq_refl eq_refl Hw).
  unfold word_tail. cbn [String.eqb Ascii.eqb Bool.eqb]. cbv iota.
  rewrite skip_line_run by assumption. cbn [String.length Nat.add]. subst p'.
  rewrite Nat.add_0_r. reflexivity.
Qed.

(* the word "\(" opens a comment that ends after the first closing marker - whitespace, "\)",
   whitespace (consumed) or the end of the text; without one the rest of the text is an error *)
Lemma lex_next_mlc l r4 :
  lrest l = "\(" ++ r4 -> next_is_ws_or_end r4 = true ->
  lex_next l =
  match first_close r4 with
  | Some i => (TComment, mklex (str_drop (i + 4) r4) (lpos l + 2 + Nat.min (i + 4) (String.length r4))
                               (lpos l) (llen l))
  | None => (TErr PUntermComment (lpos l) (llen l), mklex "" (llen l) (lpos l) (llen l))
  end.
Proof.
  intros Hl Hw.
  assert (Hl' : lrest l = String "\" ("(" ++ r4)) by exact Hl.
  rewrite (lex_next_wordlike l "\" "(" r4 Hl' ltac:(reflexivity) eq_refl eq_refl eq_refl eq_refl eq_refl Hw).
  unfold word_tail. cbn [String.eqb Ascii.eqb Bool.eqb]. cbv iota.
  rewrite skip_mlc_spec_exact by lia. unfold mlc_result. cbn [String.length].
  destruct (first_close r4) as [i|]; [|reflexivity].
  replace (lpos l + 1 + 1) with (lpos l + 2) by lia. reflexivity.
Qed.

Lemma significant_step r p n t r' p' st' :
  lex_next (mklex r p p n) = (t, mklex r' p' st' n) -> is_blank_tok t = true ->
  significant (lex_from r p n) = significant (lex_from r' p' n).
Proof.
  intros H Hb. rewrite (lex_from_step r p n t r' p' st' n H) by (destruct t; try discriminate; reflexivity).
  unfold significant at 1. cbn [filter fst]. rewrite Hb. reflexivity.
Qed.

Lemma significant_ws_run w r p n : all_ws w = true -> next_not_ws r = true ->
  significant (lex_from (w ++ r) p n) = significant (lex_from r (p + String.length w) n).
Proof.
  intros Hw Hr. destruct (String.length w) eqn:E.
  { destruct w; [|discriminate]. cbn [append]. rewrite Nat.add_0_r. reflexivity. }
  rewrite <- E. apply (significant_step _ _ _ TWs _ _ p); [|reflexivity].
  apply (lex_next_ws (mklex (w ++ r) p p n) w r); [intros ->; discriminate|assumption|assumption|reflexivity].
Qed.

Lemma significant_ws w rest p n : all_ws w = true ->
  significant (lex_from (w ++ rest) p n) = significant (lex_from rest (p + String.length w) n).
Proof.
  intros Hw. destruct (ws_split rest) as (w2 & r2 & -> & Hw2 & Hr2).
  rewrite <- app_assoc_s, !significant_ws_run by (rewrite ?all_ws_app, ?Hw; assumption).
  rewrite app_length_s, Nat.add_assoc. reflexivity.
Qed.

Definition const_word (c : cell) : option string :=
  match c with
  | CNil => Some "nil"
  | CFlag true => Some "true"
  | CFlag false => Some "false"
  | _ => None
  end.

Lemma const_word_lex_next c w l rest : const_word c = Some w ->
  lrest l = w ++ rest -> next_is_ws_or_end rest = true ->
  lex_next l = (TWord w, mklex rest (lpos l + String.length w) (lpos l) (llen l)).
Proof.
  intros Hc Hl Hr.
  destruct c as [|[]| | | | | | | | |]; cbn [const_word] in Hc; try discriminate; injection Hc as <-.
  - rewrite (lex_next_word l "n" "il" rest Hl ltac:(reflexivity) eq_refl eq_refl eq_refl eq_refl eq_refl Hr eq_refl eq_refl).
    cbv zeta. cbn [String.length]. f_equal. f_equal. lia.
  - rewrite (lex_next_word l "t" "rue" rest Hl ltac:(reflexivity) eq_refl eq_refl eq_refl eq_refl eq_refl Hr eq_refl eq_refl).
    cbv zeta. cbn [String.length]. f_equal. f_equal. lia.
  - rewrite (lex_next_word l "f" "alse" rest Hl ltac:(reflexivity) eq_refl eq_refl eq_refl eq_refl eq_refl Hr eq_refl eq_refl).
    cbv zeta. cbn [String.length]. f_equal. f_equal. lia.
Qed.

