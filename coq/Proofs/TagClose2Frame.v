(* TagClose2Frame.v: the stash cell R_STASH is private to open-bitstr / close-bitstr.

   [kst m]: the program m never changes the heap cell R_STASH; every native word except
   open-bitstr and close-bitstr is such a program ([native_fn_kst]).  [stash_ok]: every stash
   entry carries an offset tag (the one open-bitstr wrote, whatever tags the suspended input
   carried - a user's own "offset" tag is overwritten) - an invariant of every native word; so
   close-bitstr never takes its `no tag: offset 0' branch.  [srelK]: the relation "equal after
   stripping, stash offsets related, no doubly wrapped tag" is preserved by every native word
   outside the design's exclusion list ([native_simK]): a simulation that composes over
   sequences of words, close-bitstr included. *)
From Xeh Require Import Model.Prelude Model.Bits Model.Codec Model.Cell Model.Lexer Model.Fmt
                        Model.Vm Model.BaseN Model.Words Proofs.BitsProofs Proofs.CellProofs Proofs.CollProofs
                        Proofs.TagProofs Proofs.TagSim Proofs.TagWords Proofs.TagFresh Proofs.TagClose
                        Proofs.TagClose2 Proofs.WordProg.
Local Notation length := List.length.

Definition stash_cell (s : state) : option cell := nth_error (heap s) R_STASH.

Definition kst {A} (m : M A) : Prop :=
  forall s, match m s with
            | ROk _ s' => stash_cell s' = stash_cell s
            | RErr _ _ s' => stash_cell s' = stash_cell s
            | _ => True
            end.

Lemma kst_bind {A B} (m : M A) (f : A -> M B) : kst m -> (forall a, kst (f a)) -> kst (bind m f).
Proof.
  intros Hm Hf s. unfold bind. specialize (Hm s). destruct (m s) as [a s1|k p s1| |]; auto.
  specialize (Hf a s1). destruct (f a s1); auto; congruence.
Qed.

Lemma set_var_ok : forall a v s u s', set_var a v s = ROk u s' -> heap s' = list_set (heap s) a v.
Proof.
  intros a v s u s' H. unfold set_var in H.
  destruct (mode_eqb _ _); [discriminate|]. destruct (nth_error (heap s) a); [|discriminate].
  injection H as _ <-. rewrite heap_add_rstep. reflexivity.
Qed.
Lemma set_var_err : forall a v s k p s', set_var a v s = RErr k p s' -> s' = s.
Proof.
  intros a v s k p s' H. unfold set_var in H.
  destruct (mode_eqb _ _); [congruence|]. destruct (nth_error (heap s) a); congruence.
Qed.

Lemma kst_set_var a v : a <> R_STASH -> kst (set_var a v).
Proof.
  intros Ha s. destruct (set_var a v s) as [u s'|k p s'| |] eqn:E; auto.
  - unfold stash_cell. rewrite (set_var_ok _ _ _ _ _ E). apply nth_error_list_set_other. exact Ha.
  - rewrite (set_var_err _ _ _ _ _ _ E). reflexivity.
Qed.

(* a program that may not store to the stash cell: set_var is the one primitive that writes the
   heap, the others return it as they found it *)
Lemma wprog_kst c A (m : M A) : c_stash c = false -> wprog c m -> kst m.
Proof.
  intros Hc H. induction H;
    try (intro s; unfold stash_cell;
         cbv beta iota zeta delta [ret fail unsup modify push_data pop_data top_data swap_data rot_data over_data
                                   loop_set_items push_special pop_special get_var print push_return pop_return
                                   top_frame push_loop pop_loop loop_next init_local set_ip next_ip add_rstep];
         repeat match goal with
                | |- context [match ?x with _ => _ end] =>
                  lazymatch x with context [match _ with _ => _ end] => fail | _ => destruct x; cbv beta iota zeta end
                end;
         first [ reflexivity | exact I ]; fail).
  - apply kst_bind; assumption.
  - intro s. exact (H0 s s).
  - apply kst_set_var. rewrite Hc, Bool.orb_false_r in H. intros ->. discriminate H.
Qed.

Theorem native_fn_kst fo name f : native_fn fo name = Some f -> c_stash (caps_of name) = true \/ kst f.
Proof.
  intro H. destruct (c_stash (caps_of name)) eqn:E; [left; reflexivity | right].
  exact (wprog_kst _ _ _ E (native_wprog fo name f H)).
Qed.

Lemma set_var_stash : forall a v s u s', a <> R_STASH -> set_var a v s = ROk u s' -> stash_cell s' = stash_cell s.
Proof. intros a v s u s' Ha E. pose proof (kst_set_var a v Ha s) as K. rewrite E in K. exact K. Qed.
Lemma off_ne : R_OFFSET <> R_STASH. Proof. discriminate. Qed.
Lemma inp_ne : R_INPUT <> R_STASH. Proof. discriminate. Qed.

Definition plain_caps : caps := mkcaps false false false false false false false.

Lemma native_open : forall fo, native_fn fo "open-bitstr"%string = Some w_open_bitstr.
Proof. intro fo. reflexivity. Qed.

Lemma native_stash_cases : forall fo w f, native_fn fo w = Some f ->
  f = w_open_bitstr \/ f = w_close_bitstr \/ kst f.
Proof.
  intros fo w f H. destruct (native_fn_kst fo w f H) as [Hw | Hk]; [| auto].
  apply Bool.orb_true_iff in Hw. destruct Hw as [Hw | Hw]; apply String.eqb_eq in Hw; subst w.
  - rewrite native_open in H. injection H as <-. auto.
  - rewrite native_close in H. injection H as <-. auto.
Qed.

Lemma stash_vec_cell : forall s s', stash_cell s' = stash_cell s -> stash_vec s' = stash_vec s.
Proof. intros s s' H. unfold stash_vec. unfold stash_cell in H. rewrite H. reflexivity. Qed.

Lemma kst_stash_vec : forall (f : M unit) s s', kst f -> res_state (f s) = Some s' -> stash_vec s' = stash_vec s.
Proof.
  intros f s s' K E. apply stash_vec_cell. specialize (K s).
  destruct (f s); try discriminate; injection E as <-; exact K.
Qed.

(* when they fail, nothing: every step but the last leaves the stash cell alone, and the last
   is a set_var, which changes nothing when it fails *)
Definition kste {A} (m : M A) : Prop :=
  forall s k p s', m s = RErr k p s' -> stash_cell s' = stash_cell s.

Lemma kst_kste {A} (m : M A) : kst m -> kste m.
Proof. intros K s k p s' E. specialize (K s). rewrite E in K. exact K. Qed.

Lemma kste_bind {A B} (m : M A) (f : A -> M B) : kst m -> (forall a, kste (f a)) -> kste (bind m f).
Proof.
  intros Hm Hf s k p s' E. unfold bind in E. specialize (Hm s).
  destruct (m s) as [a s1|k1 p1 s1| |]; try discriminate.
  - rewrite <- Hm. exact (Hf a s1 k p s' E).
  - injection E as <- <- <-. exact Hm.
Qed.

Lemma kste_set_var a v : kste (set_var a v).
Proof. intros s k p s' E. rewrite (set_var_err _ _ _ _ _ _ E). reflexivity. Qed.

Ltac kst_plain := apply (wprog_kst plain_caps); [ reflexivity | wp_solve ].

Lemma open_bitstr_kste : kste w_open_bitstr.
Proof. unfold w_open_bitstr. repeat (apply kste_bind; [ kst_plain | intro ]). apply kste_set_var. Qed.

Lemma close_bitstr_kste : kste w_close_bitstr.
Proof.
  unfold w_close_bitstr. apply kste_bind; [ kst_plain | intro st ]. apply kste_bind; [ kst_plain | intro v ].
  destruct (rev v); [ apply kst_kste; kst_plain |].
  repeat (apply kste_bind; [ kst_plain | intro ]). apply kste_set_var.
Qed.

Lemma bind_ok {A B} (m : M A) (f : A -> M B) s b s' :
  bind m f s = ROk b s' -> exists a s1, m s = ROk a s1 /\ f a s1 = ROk b s'.
Proof. unfold bind. destruct (m s) as [a s1| | |]; try discriminate. eauto. Qed.

Lemma pop_data_ok : forall s c s', pop_data s = ROk c s' -> heap s' = heap s.
Proof.
  intros s c s'. unfold pop_data. destruct (ds s); [discriminate|]. destruct (_ <? _); [|discriminate].
  intros [= _ <-]. rewrite heap_add_rstep. reflexivity.
Qed.
Lemma get_var_ok : forall a s c s', get_var a s = ROk c s' -> s' = s /\ nth_error (heap s) a = Some c.
Proof.
  intros a s c s' H. unfold get_var in H. destruct (mode_eqb _ _); [discriminate|].
  destruct (nth_error (heap s) a); [|discriminate]. injection H as <- <-. auto.
Qed.
Lemma m_vec_ok : forall c s v s', m_vec c s = ROk v s' -> s' = s /\ value c = CVec v.
Proof. intros c s v s' H. unfold m_vec in H. destruct (value c); try discriminate. injection H as <- <-. auto. Qed.
Lemma m_bits_ok : forall c s v s', m_bits c s = ROk v s' -> s' = s.
Proof. intros c s v s' H. unfold m_bits in H. destruct (value c); try discriminate. injection H as _ <-. auto. Qed.

Lemma stash_vec_set : forall s s' v,
  heap s' = list_set (heap s) R_STASH (CVec v) -> stash_cell s <> None -> stash_vec s' = Some v.
Proof.
  intros s s' v H L. unfold stash_vec. rewrite H, nth_error_list_set by (apply nth_error_Some; exact L). reflexivity.
Qed.

(* close-bitstr drops the last stash entry (and changes nothing of the stash when it fails) *)
Lemma close_bitstr_stash : forall s,
  match w_close_bitstr s with
  | ROk _ s' => exists v e, stash_vec s = Some (v ++ [e]) /\ stash_vec s' = Some v
  | RErr _ _ s' => stash_vec s' = stash_vec s
  | _ => True
  end.
Proof.
  intro s. destruct (w_close_bitstr s) as [u s'|k p s'| |] eqn:E; auto.
  2:{ apply stash_vec_cell. exact (close_bitstr_kste _ _ _ _ E). }
  unfold w_close_bitstr in E.
  apply bind_ok in E as (st & s0 & G & E). apply get_var_ok in G as [-> G].
  apply bind_ok in E as (v & s0 & V & E). apply m_vec_ok in V as [-> V].
  destruct (rev v) as [| last r] eqn:RV; [discriminate|].
  apply bind_ok in E as ([] & s1 & E1 & E).
  apply bind_ok in E as ([] & s2 & E2 & E).
  apply set_var_ok in E.
  exists (rev r), last. split.
  - unfold stash_vec. rewrite G, V, <- (rev_involutive v), RV. reflexivity.
  - apply (stash_vec_set s2); [exact E|].
    rewrite (set_var_stash _ _ _ _ _ inp_ne E2), (set_var_stash _ _ _ _ _ off_ne E1). unfold stash_cell. congruence.
Qed.

(* open-bitstr appends the old input tagged with the old offset *)
Lemma open_bitstr_stash : forall s,
  match w_open_bitstr s with
  | ROk _ s' => exists v x o, stash_vec s = Some v /\
                              nth_error (heap s) R_INPUT = Some x /\ nth_error (heap s) R_OFFSET = Some o /\
                              stash_vec s' = Some (v ++ [insert_tag x offset_lit o])
  | RErr _ _ s' => stash_vec s' = stash_vec s
  | _ => True
  end.
Proof.
  intro s. destruct (w_open_bitstr s) as [u s'|k p s'| |] eqn:E; auto.
  2:{ apply stash_vec_cell. exact (open_bitstr_kste _ _ _ _ E). }
  unfold w_open_bitstr in E.
  apply bind_ok in E as (c & s0 & P & E). apply pop_data_ok in P.
  apply bind_ok in E as (b & s0' & B & E). apply m_bits_ok in B. subst s0'.
  apply bind_ok in E as (o & s0' & G1 & E). apply get_var_ok in G1 as [-> G1].
  apply bind_ok in E as (x & s0' & G2 & E). apply get_var_ok in G2 as [-> G2].
  apply bind_ok in E as ([] & s1 & E1 & E). pose proof (set_var_stash _ _ _ _ _ off_ne E1) as K1.
  apply bind_ok in E as ([] & s2 & E2 & E). pose proof (set_var_stash _ _ _ _ _ inp_ne E2) as K2.
  apply bind_ok in E as (st & s2' & G3 & E). apply get_var_ok in G3 as [-> G3].
  apply bind_ok in E as (v & s2' & V & E). apply m_vec_ok in V as [-> V].
  apply set_var_ok in E.
  assert (K : stash_cell s2 = stash_cell s) by (unfold stash_cell in *; congruence).
  exists v, x, o. rewrite <- P. repeat split; auto.
  - rewrite <- (stash_vec_cell _ _ K). unfold stash_vec. rewrite G3, V. reflexivity.
  - apply (stash_vec_set s2); [exact E | unfold stash_cell; congruence].
Qed.

Lemma tagwfT_keys : forall c, tg notagtag c -> keys_tagwf (tags_or_empty c).
Proof.
  intros c H. unfold tags_or_empty. pose proof (tg_tags_list _ _ H) as G.
  unfold keys_tagwf. destruct (tags_of c); [| constructor].
  eapply Forall_impl; [| exact G]. intros kv [Hk _]. apply tgT_tagwf. exact Hk.
Qed.

Lemma get_offset_insert : forall x o, tg notagtag x -> get_tag (insert_tag x offset_lit o) offset_lit = Some o.
Proof.
  intros x o Hx.
  rewrite (get_insert_tag_cmp x offset_lit o offset_lit (tagwfT_keys x Hx)); [reflexivity | |];
    split; exact I.
Qed.

Lemma off_of_insert : forall x o, tg notagtag x -> off_of (insert_tag x offset_lit o) = o.
Proof. intros x o Hx. unfold off_of. rewrite get_offset_insert by exact Hx. reflexivity. Qed.

Definition has_offset (e : cell) : Prop := exists o, get_tag e offset_lit = Some o.
Definition stash_ok (s : state) : Prop := forall v, stash_vec s = Some v -> Forall has_offset v.

Lemma heap_input_tagwfT : forall s a x, tagwfT_state s -> nth_error (heap s) a = Some x -> tg notagtag x.
Proof.
  intros s a x (_ & B & _) E. rewrite Forall_forall in B. apply B. eapply nth_error_In; eauto.
Qed.

Theorem native_preserves_stash_ok : forall fo w f s,
  native_fn fo w = Some f -> tagwfT_state s -> stash_ok s ->
  match f s with
  | ROk _ s' => stash_ok s'
  | RErr _ _ s' => stash_ok s'
  | _ => True
  end.
Proof.
  intros fo w f s H HT Hs.
  assert (Keep : forall s', stash_vec s' = stash_vec s -> stash_ok s').
  { intros s' E v Hv. apply Hs. congruence. }
  destruct (native_stash_cases fo w f H) as [-> | [-> | Hk]].
  - pose proof (open_bitstr_stash s) as O. destruct (w_open_bitstr s); auto.
    destruct O as (v & x & o & V & X & _ & V'). intros v' Hv'. rewrite V' in Hv'. injection Hv' as <-.
    apply Forall_app. split; [apply Hs; exact V|]. constructor; [| constructor].
    exists o. apply get_offset_insert. eapply heap_input_tagwfT; eauto.
  - pose proof (close_bitstr_stash s) as C. destruct (w_close_bitstr s); auto.
    destruct C as (v & e & V & V'). intros v' Hv'. rewrite V' in Hv'. injection Hv' as <-.
    specialize (Hs _ V). apply Forall_app in Hs. apply Hs.
  - specialize (Hk s). destruct (f s); auto; apply Keep, stash_vec_cell, Hk.
Qed.

Definition stash_rel (s1 s2 : state) : Prop :=
  forall v1 v2, stash_vec s1 = Some v1 -> stash_vec s2 = Some v2 -> offs_rel v1 v2.

Definition srelK (s1 s2 : state) : Prop :=
  srel s1 s2 /\ tagwfT_state s1 /\ tagwfT_state s2 /\ stash_rel s1 s2.

Definition rrelK {A} (r1 r2 : res A) : Prop :=
  match r1, r2 with
  | ROk a s, ROk a' s' => a = a' /\ srelK s s'
  | RErr k p s, RErr k' p' s' => k = k' /\ option_map strip p = option_map strip p' /\ srelK s s'
  | RPanic, RPanic => True
  | RUnsup, RUnsup => True
  | _, _ => False
  end.

Lemma Forall2_app_inv_last : forall {A B} (R : A -> B -> Prop) l1 x1 l2 x2,
  Forall2 R (l1 ++ [x1]) (l2 ++ [x2]) -> Forall2 R l1 l2 /\ R x1 x2.
Proof.
  intros A B R l1 x1 l2 x2 H. apply Forall2_app_inv_l in H. destruct H as (l1' & l2' & H1 & H2 & E).
  inversion H2 as [| ? y ? ? Hxy Hnil]; subst. inversion Hnil; subst.
  apply app_inj_tail in E. destruct E as [-> ->]. auto.
Qed.

Lemma rrel_rrelK : forall (r1 r2 : res unit),
  rrel eq r1 r2 ->
  (forall s1' s2', res_state r1 = Some s1' -> res_state r2 = Some s2' ->
     tagwfT_state s1' /\ tagwfT_state s2' /\ stash_rel s1' s2') ->
  rrelK r1 r2.
Proof.
  intros r1 r2 R H. destruct r1, r2; cbn in *; try contradiction; auto.
  - destruct R as [-> R]. split; auto. destruct (H _ _ eq_refl eq_refl) as (A & B & C).
    split; [exact R | split; [exact A | split; [exact B | exact C]]].
  - destruct R as (-> & Ep & R). split; auto. split; auto.
    destruct (H _ _ eq_refl eq_refl) as (A & B & C).
    split; [exact R | split; [exact A | split; [exact B | exact C]]].
Qed.

Lemma stash_rel_keep : forall s1 s2 s1' s2', stash_rel s1 s2 ->
  stash_vec s1' = stash_vec s1 -> stash_vec s2' = stash_vec s2 -> stash_rel s1' s2'.
Proof. intros s1 s2 s1' s2' Ho E1 E2 v1 v2. rewrite E1, E2. apply Ho. Qed.

Theorem native_simK : forall fo w f s1 s2,
  native_fn fo w = Some f -> ~ In w design_excluded ->
  srelK s1 s2 -> rrelK (f s1) (f s2).
Proof.
  intros fo w f s1 s2 H Hx (Hs & T1 & T2 & Ho).
  assert (R : rrel eq (f s1) (f s2)).
  { destruct (not_excluded_cases w Hx) as [-> | Hr].
    - rewrite native_close in H. injection H as <-. apply close_bitstr_rel; auto.
    - apply (native_sim fo w f H Hr). exact Hs. }
  apply rrel_rrelK; [exact R|].
  intros s1' s2' E1 E2.
  pose proof (native_preserves_tagwfT fo w f s1 H T1) as P1.
  pose proof (native_preserves_tagwfT fo w f s2 H T2) as P2.
  split; [| split].
  { destruct (f s1); cbn in E1; try discriminate; injection E1 as <-; [exact P1 | apply P1]. }
  { destruct (f s2); cbn in E2; try discriminate; injection E2 as <-; [exact P2 | apply P2]. }
  clear P1 P2.
  destruct (native_stash_cases fo w f H) as [-> | [-> | Hk]].
  - (* open-bitstr: both runs push an entry whose offset is the R_OFFSET cell *)
    pose proof (open_bitstr_stash s1) as O1. pose proof (open_bitstr_stash s2) as O2.
    destruct (w_open_bitstr s1) as [u1 t1|k1 p1 t1| |], (w_open_bitstr s2) as [u2 t2|k2 p2 t2| |];
      cbn in R, E1, E2; try contradiction; try discriminate;
      injection E1 as <-; injection E2 as <-; [| exact (stash_rel_keep _ _ _ _ Ho O1 O2)].
    destruct O1 as (v1 & x1 & o1 & V1 & X1 & Of1 & V1'), O2 as (v2 & x2 & o2 & V2 & X2 & Of2 & V2').
    intros w1 w2 W1 W2. rewrite V1' in W1. rewrite V2' in W2. injection W1 as <-. injection W2 as <-.
    apply Forall2_app; [apply Ho; assumption|]. constructor; [| constructor].
    rewrite (off_of_insert x1 o1 (heap_input_tagwfT s1 R_INPUT x1 T1 X1)),
            (off_of_insert x2 o2 (heap_input_tagwfT s2 R_INPUT x2 T2 X2)).
    pose proof (lrel_nth _ _ R_OFFSET (srel_heap _ _ Hs)) as N. rewrite Of1, Of2 in N. exact N.
  - (* close-bitstr: both runs drop the last entry *)
    pose proof (close_bitstr_stash s1) as C1. pose proof (close_bitstr_stash s2) as C2.
    destruct (w_close_bitstr s1) as [u1 t1|k1 p1 t1| |], (w_close_bitstr s2) as [u2 t2|k2 p2 t2| |];
      cbn in R, E1, E2; try contradiction; try discriminate;
      injection E1 as <-; injection E2 as <-; [| exact (stash_rel_keep _ _ _ _ Ho C1 C2)].
    destruct C1 as (v1 & e1 & V1 & V1'), C2 as (v2 & e2 & V2 & V2').
    intros w1 w2 W1 W2. rewrite V1' in W1. rewrite V2' in W2. injection W1 as <-. injection W2 as <-.
    specialize (Ho _ _ V1 V2). apply Forall2_app_inv_last in Ho. apply Ho.
  - exact (stash_rel_keep _ _ _ _ Ho (kst_stash_vec f s1 s1' Hk E1) (kst_stash_vec f s2 s2' Hk E2)).
Qed.

Lemma tg_strip : forall T c, tg T (strip c).
Proof.
  intros T. induction c using cell_ind'; cbn [strip]; try (split; exact I); auto.
  - apply tg_vec, Forall_map. exact H.
  - apply tg_map, Forall_map. exact H.
Qed.

Lemma tg_map_strip : forall T l, Forall (tg T) (map strip l).
Proof. intros T l. apply Forall_map, Forall_forall. intros x _. apply tg_strip. Qed.

Lemma tg_keep_off : forall e, tg notagtag (keep_off e).
Proof.
  intro e. unfold keep_off. destruct (get_tag e offset_lit); [| apply tg_strip].
  apply deepT_tag. split; [cbn; apply is_tag_strip|]. split; [| apply tg_strip].
  constructor; [| constructor]. split; [apply tg_offset_lit | apply tg_strip].
Qed.

Lemma tg_keep_offs : forall st, tg notagtag (keep_offs st).
Proof.
  intro st. unfold keep_offs. destruct (value st); try apply tg_strip.
  apply tg_vec, Forall_map, Forall_forall. intros e _. apply tg_keep_off.
Qed.

Lemma tagwfT_strip_state_off : forall s, tagwfT_state (strip_state_off s).
Proof.
  intro s. unfold strip_state_off, tagwfT_state, tg_state. cbn [ds heap loops set_heap strip_state].
  split; [| split].
  - apply tg_map_strip.
  - apply Forall_list_set; [apply tg_map_strip | apply tg_keep_offs].
  - apply Forall_map, Forall_forall. intros l _. apply tg_strip.
Qed.

Theorem srelK_strip_off : forall s, tagwfT_state s -> srelK s (strip_state_off s).
Proof.
  intros s Hs. split; [apply srel_strip_off, tagwfT_state_tagwf, Hs|].
  split; [exact Hs|]. split; [apply tagwfT_strip_state_off|].
  intros v1 v2 V1 V2. rewrite (stash_vec_strip_off s v1 V1) in V2. injection V2 as <-.
  apply offs_rel_keep. apply (tagwfT_stash_off_ok s Hs). exact V1.
Qed.

Lemma rrelK_res_strip : forall (r1 r2 : res unit), rrelK r1 r2 -> res_strip r1 = res_strip r2.
Proof.
  intros r1 r2 H. destruct r1, r2; cbn in *; try contradiction; auto.
  - destruct H as [-> ((E & _) & _)]. rewrite E. reflexivity.
  - destruct H as (-> & Ep & ((E & _) & _)). rewrite E, Ep. reflexivity.
Qed.

Fixpoint run_seq (fs : list (M unit)) : M unit :=
  match fs with
  | [] => ret tt
  | f :: r => f ;; run_seq r
  end.

Definition plain_native (fo : fops) (f : M unit) : Prop :=
  exists w, native_fn fo w = Some f /\ ~ In w design_excluded.

Theorem run_seq_simK : forall fo fs,
  Forall (plain_native fo) fs ->
  forall s1 s2, srelK s1 s2 -> rrelK (run_seq fs s1) (run_seq fs s2).
Proof.
  intros fo fs HF. induction HF as [| f r (w & Hw & Hx) Hr IH]; intros s1 s2 Hs; cbn [run_seq].
  - cbn. split; auto.
  - unfold bind. pose proof (native_simK fo w f s1 s2 Hw Hx Hs) as R.
    destruct (f s1) as [[] t1|k1 p1 t1| |], (f s2) as [[] t2|k2 p2 t2| |]; cbn in R; try contradiction; auto.
    apply IH. apply R.
Qed.

(* with the plain strip_state the sequence open-bitstr ; close-bitstr already fails to commute *)
Definition ex_oc_state : state :=
  ex_state [CBits (mkcbs 0 8 [7%N])]
           [CInt 0; CTag [(CStr "offset", CInt 99); (CStr "zz", CInt 1)] ex_bits; CInt 8; CVec []; CNil; CInt 0].

Definition heap_of {A} (r : res A) : option (list cell) := option_map heap (res_state r).

Example ex_oc_tagwfT : tagwfT_state ex_oc_state.
Proof.
  unfold tagwfT_state, tg_state, ex_oc_state, ex_state. cbn [ds heap loops].
  repeat split; repeat constructor.
Qed.

Example ex_open_overwrites_user_offset :
  heap_of (w_open_bitstr ex_oc_state) =
  Some [CInt 0; CBits (mkcbs 0 8 [7%N]); CInt 0;
        CVec [CTag [(CStr "offset", CInt 8); (CStr "zz", CInt 1)] ex_bits]; CNil; CInt 0].
Proof. vm_compute. reflexivity. Qed.

Example ex_open_close_restores :
  heap_of (run_seq [w_open_bitstr; w_close_bitstr] ex_oc_state) =
    Some [CInt 0; ex_bits; CInt 8; CVec []; CNil; CInt 0] /\
  heap_of (run_seq [w_open_bitstr; w_close_bitstr] (strip_state_off ex_oc_state)) =
    Some [CInt 0; ex_bits; CInt 8; CVec []; CNil; CInt 0].
Proof. vm_compute. auto. Qed.

Definition ex_opened : state :=
  match w_open_bitstr ex_oc_state with ROk _ s => s | _ => ex_oc_state end.

Example ex_close_strip_variants :
  option_map (fun h => nth_error h R_OFFSET) (heap_of (w_close_bitstr ex_opened)) = Some (Some (CInt 8)) /\
  option_map (fun h => nth_error h R_OFFSET) (heap_of (w_close_bitstr (strip_state_off ex_opened))) = Some (Some (CInt 8)) /\
  option_map (fun h => nth_error h R_OFFSET) (heap_of (w_close_bitstr (strip_state ex_opened))) = Some (Some (CInt 0)) /\
  nth_error (heap (strip_state_off ex_opened)) R_STASH = Some (CVec [CTag [(CStr "offset", CInt 8)] ex_bits]).
Proof. vm_compute. auto. Qed.

Example close_nonvacuous : forall fo,
  tagwfT_state ex_oc_state /\ stash_ok ex_oc_state /\
  native_fn fo "open-bitstr"%string = Some w_open_bitstr /\
  native_fn fo "close-bitstr"%string = Some w_close_bitstr /\
  ~ In "close-bitstr"%string design_excluded /\ ~ In "open-bitstr"%string design_excluded /\
  nth_error (heap ex_oc_state) R_INPUT =
    Some (CTag [(CStr "offset", CInt 99); (CStr "zz", CInt 1)] ex_bits) /\
  heap_of (w_open_bitstr ex_oc_state) =
    Some [CInt 0; CBits (mkcbs 0 8 [7%N]); CInt 0;
          CVec [CTag [(CStr "offset", CInt 8); (CStr "zz", CInt 1)] ex_bits]; CNil; CInt 0] /\
  tagwfT_state ex_opened /\ stash_ok ex_opened /\
  nth_error (heap (strip_state_off ex_opened)) R_STASH = Some (CVec [CTag [(CStr "offset", CInt 8)] ex_bits]) /\
  option_map (fun h => nth_error h R_OFFSET) (heap_of (w_close_bitstr ex_opened)) = Some (Some (CInt 8)) /\
  option_map (fun h => nth_error h R_OFFSET) (heap_of (w_close_bitstr (strip_state_off ex_opened))) = Some (Some (CInt 8)) /\
  option_map (fun h => nth_error h R_OFFSET) (heap_of (w_close_bitstr (strip_state ex_opened))) = Some (Some (CInt 0)) /\
  res_strip (w_close_bitstr ex_opened) = res_strip (w_close_bitstr (strip_state_off ex_opened)).
Proof.
  intro fo.
  assert (T0 : tagwfT_state ex_oc_state) by exact ex_oc_tagwfT.
  assert (S0 : stash_ok ex_oc_state).
  { intros v Hv. vm_compute in Hv. injection Hv as <-. constructor. }
  pose proof (native_preserves_tagwfT fo _ _ ex_oc_state (native_open fo) T0) as T1.
  pose proof (native_preserves_stash_ok fo _ _ ex_oc_state (native_open fo) T0 S0) as S1.
  assert (E : w_open_bitstr ex_oc_state = ROk tt ex_opened) by (vm_compute; reflexivity).
  rewrite E in T1, S1.
  destruct ex_close_strip_variants as (A & B & C & D).
  assert (Xo : ~ In "open-bitstr"%string design_excluded) by (intro X; apply In_eqb in X; discriminate X).
  repeat (split; [first [assumption | reflexivity | exact ex_open_overwrites_user_offset
                        | exact close_not_excluded] |]).
  exact (strip_commutes_full_close_T fo _ _ ex_opened (native_close fo) close_not_excluded T1).
Qed.
