(* CollProofs.v: the collection laws of C12.  Association lists sorted by a total preorder are
   treated generically; the model's [assoc_find], [assoc_insert], [assoc_remove] are these at
   [cell_cmp], and at [scmp] on [tagwf] keys.  [cell_eqb] compares maps by lookup: tags never
   influence it, and on well-formed NaN-free cells it says what [cell_cmp _ _ = Eq] says.  Then
   the laws of find / insert / remove on maps of cells, map literals ([pairs_insert]), the
   association lists with [equal?] keys that maps refine, and concat / join on a vector of strings.
   (vectors, sort and the word-level statements are in CollVec.v / CollWords.v) *)
From Xeh Require Import Model.Prelude Model.Bits Model.Codec Model.Cell Model.Lexer Model.Fmt
                        Model.Vm Model.Words Proofs.BitsProofs Proofs.CellProofs.
From Coq Require Import Sorting.Sorted ZifyBool ZifyNat ZifyN.
Local Notation length := List.length.

Lemma find_app : forall {A} (p : A -> bool) l1 l2,
  find p (l1 ++ l2) = match find p l1 with Some x => Some x | None => find p l2 end.
Proof. induction l1; cbn; auto. intros. destruct (p a); auto. Qed.

Lemma find_ext_in : forall {A} (p q : A -> bool) l,
  (forall x, In x l -> p x = q x) -> find p l = find q l.
Proof. induction l; cbn; auto. intros H. rewrite H, IHl; auto. Qed.

Lemma sorted_app_inv : forall {A} (R : A -> A -> Prop) a b,
  StronglySorted R (a ++ b) ->
  StronglySorted R a /\ StronglySorted R b /\ Forall (fun x => Forall (R x) b) a.
Proof.
  induction a as [| x a IH]; cbn; intros b H.
  - repeat split; auto; constructor.
  - inversion H; subst. destruct (IH _ H2) as [S1 [S2 S3]].
    rewrite Forall_app in H3. destruct H3 as [F1 F2].
    repeat split; auto; constructor; auto.
Qed.

Section Assoc.
  Context {K V : Type} (cmp : K -> K -> comparison) (PO : preorder cmp).

  Definition gfindp (m : list (K * V)) (k : K) : option (K * V) :=
    find (fun kv => cmp_is_eq (cmp (fst kv) k)) m.
  Definition gfind (m : list (K * V)) (k : K) : option V := option_map snd (gfindp m k).

  Fixpoint ginsert (m : list (K * V)) (k : K) (v : V) : list (K * V) :=
    match m with
    | [] => [(k, v)]
    | (k', v') :: r =>
      match cmp k k' with
      | Lt => (k, v) :: m
      | Eq => (k, v) :: r
      | Gt => (k', v') :: ginsert r k v
      end
    end.

  Fixpoint gremove (m : list (K * V)) (k : K) : list (K * V) :=
    match m with
    | [] => []
    | (k', v') :: r =>
      match cmp k k' with
      | Eq => r
      | _ => (k', v') :: gremove r k
      end
    end.

  Definition glt (p q : K * V) : Prop := cmp (fst p) (fst q) = Lt.
  Definition gsorted (m : list (K * V)) : Prop := StronglySorted glt m.

  Lemma gfind_cons : forall k0 v0 r k,
    gfind ((k0, v0) :: r) k = if cmp_is_eq (cmp k0 k) then Some v0 else gfind r k.
  Proof. intros. unfold gfind, gfindp. cbn. destruct (cmp_is_eq (cmp k0 k)); reflexivity. Qed.

  Lemma gfind_nil : forall k, gfind [] k = None.
  Proof. reflexivity. Qed.

  Lemma ginsert_in : forall m k v p, In p (ginsert m k v) -> p = (k, v) \/ In p m.
  Proof.
    induction m as [| [k0 v0] r IH]; cbn; intros k v p H.
    - destruct H as [<-|[]]. auto.
    - destruct (cmp k k0); cbn in H.
      + destruct H as [<-|H]; auto.
      + destruct H as [<-|H]; auto.
      + destruct H as [<-|H]; auto. destruct (IH _ _ _ H); auto.
  Qed.

  Lemma gremove_in : forall m k p, In p (gremove m k) -> In p m.
  Proof.
    induction m as [| [k0 v0] r IH]; cbn; intros k p H; auto.
    destruct (cmp k k0); cbn in H; auto; destruct H as [<-|H]; eauto.
  Qed.

  Lemma below_tail : forall k k0 v0 r, cmp k k0 <> Gt -> Forall (glt (k0, v0)) r ->
    Forall (fun q => cmp k (fst q) = Lt) r.
  Proof.
    intros k k0 v0 r N. apply Forall_impl. intros q L. apply (po_le_lt_trans _ PO k k0); assumption.
  Qed.

  Lemma ginsert_sorted : forall m k v, gsorted m -> gsorted (ginsert m k v).
  Proof.
    induction m as [| [k0 v0] r IH]; intros k v S; cbn.
    - repeat constructor.
    - inversion S; subst. destruct (cmp k k0) eqn:E.
      + constructor; auto. apply (below_tail k k0 v0); [congruence | assumption].
      + constructor; auto. constructor; [exact E|]. apply (below_tail k k0 v0); [congruence | assumption].
      + constructor; [apply IH; assumption|]. rewrite Forall_forall in *. intros q Hq.
        apply ginsert_in in Hq. destruct Hq as [->|Hq]; auto.
        apply (po_gt_lt _ PO). assumption.
  Qed.

  Lemma gremove_sorted : forall m k, gsorted m -> gsorted (gremove m k).
  Proof.
    induction m as [| [k0 v0] r IH]; intros k S; cbn; auto.
    inversion S; subst.
    destruct (cmp k k0); auto; (constructor; [apply IH; assumption|]);
      rewrite Forall_forall in *; intros q Hq; apply gremove_in in Hq; auto.
  Qed.

  Lemma gfind_insert : forall m k v k',
    gfind (ginsert m k v) k' = if cmp_is_eq (cmp k k') then Some v else gfind m k'.
  Proof.
    induction m as [| [k0 v0] r IH]; intros k v k'.
    - cbn [ginsert]. rewrite gfind_cons. reflexivity.
    - cbn [ginsert]. destruct (cmp k k0) eqn:E.
      + rewrite !gfind_cons. rewrite <- (po_cong _ PO _ _ E k'). destruct (cmp_is_eq (cmp k k')); reflexivity.
      + rewrite gfind_cons. reflexivity.
      + rewrite !gfind_cons, IH.
        destruct (cmp_is_eq (cmp k0 k')) eqn:E0; auto.
        apply cmp_is_eq_true in E0.
        rewrite <- (po_cong_r _ PO _ _ E0 k), E. reflexivity.
  Qed.

  Lemma gfind_lt_none : forall m k, Forall (fun q => cmp k (fst q) = Lt) m -> gfind m k = None.
  Proof.
    induction m as [| [k0 v0] r IH]; intros k F; auto.
    inversion F; subst. rewrite gfind_cons. cbn [fst] in *.
    rewrite (po_anti _ PO), H1. cbn. auto.
  Qed.

  Lemma gfind_remove : forall m k k', gsorted m ->
    gfind (gremove m k) k' = if cmp_is_eq (cmp k k') then None else gfind m k'.
  Proof.
    induction m as [| [k0 v0] r IH]; intros k k' S.
    - cbn. destruct (cmp_is_eq (cmp k k')); reflexivity.
    - inversion S; subst. cbn [gremove].
      assert (Hne : cmp k k0 <> Eq ->
                gfind ((k0, v0) :: gremove r k) k' = if cmp_is_eq (cmp k k') then None else gfind ((k0, v0) :: r) k').
      { intro N. rewrite !gfind_cons, IH by assumption.
        destruct (cmp_is_eq (cmp k0 k')) eqn:E0; auto.
        apply cmp_is_eq_true in E0. rewrite <- (po_cong_r _ PO _ _ E0 k).
        destruct (cmp k k0); [contradiction | reflexivity | reflexivity]. }
      destruct (cmp k k0) eqn:E; try (apply Hne; congruence).
      rewrite gfind_cons. rewrite <- (po_cong _ PO _ _ E k').
      destruct (cmp_is_eq (cmp k k')) eqn:E1; auto.
      apply cmp_is_eq_true in E1. apply gfind_lt_none, (below_tail k' k0 v0); [| assumption].
      rewrite (po_cong _ PO _ _ (po_sym _ PO _ _ E1)), E. discriminate.
  Qed.

  Lemma ginsert_length : forall m k v, gsorted m ->
    length (ginsert m k v) = match gfind m k with Some _ => length m | None => S (length m) end.
  Proof.
    induction m as [| [k0 v0] r IH]; intros k v S; auto.
    inversion S; subst. cbn [ginsert]. rewrite gfind_cons.
    rewrite (po_anti _ PO k0 k). destruct (cmp k k0) eqn:E; cbn [CompOpp cmp_is_eq length].
    - reflexivity.
    - rewrite gfind_lt_none; auto. apply (below_tail k k0 v0); [congruence | assumption].
    - rewrite IH by assumption. destruct (gfind r k); reflexivity.
  Qed.

  Lemma gremove_lt : forall m k, Forall (fun q => cmp k (fst q) = Lt) m -> gremove m k = m.
  Proof.
    induction m as [| [k0 v0] r IH]; intros k F; auto.
    inversion F; subst. cbn [fst] in *. cbn [gremove]. rewrite H1. f_equal. auto.
  Qed.

  Lemma gremove_length : forall m k, gsorted m ->
    length (gremove m k) = match gfind m k with Some _ => pred (length m) | None => length m end.
  Proof.
    induction m as [| [k0 v0] r IH]; intros k S; auto.
    inversion S; subst. cbn [gremove]. rewrite gfind_cons.
    rewrite (po_anti _ PO k0 k). destruct (cmp k k0) eqn:E; cbn [CompOpp cmp_is_eq length].
    - reflexivity.
    - assert (F : Forall (fun q => cmp k (fst q) = Lt) r) by (apply (below_tail k k0 v0); [congruence | assumption]).
      rewrite (gfind_lt_none _ _ F), (gremove_lt _ _ F). reflexivity.
    - rewrite IH by assumption. destruct (gfind r k) eqn:F; auto.
      destruct r; [discriminate | reflexivity].
  Qed.

  Lemma gfind_in : forall m k v, gfind m k = Some v -> exists k', In (k', v) m /\ cmp k' k = Eq.
  Proof.
    intros m k v. unfold gfind, gfindp.
    destruct (find _ m) as [[k' v']|] eqn:E; cbn; intro H; try discriminate.
    injection H as ->. apply find_some in E. destruct E as [E1 E2]. cbn in E2.
    exists k'. split; auto. apply cmp_is_eq_true. assumption.
  Qed.

  Lemma gfind_sorted_in : forall m k0 v k, gsorted m -> In (k0, v) m -> cmp k0 k = Eq -> gfind m k = Some v.
  Proof.
    induction m as [| [k1 v1] r IH]; intros k0 v k S Hin E; [destruct Hin|].
    inversion S; subst. rewrite gfind_cons. destruct Hin as [Hq|Hin].
    - injection Hq as -> ->. rewrite E. reflexivity.
    - rewrite Forall_forall in H2. pose proof (H2 _ Hin) as L. unfold glt in L. cbn [fst] in L.
      rewrite (po_cong_r _ PO _ _ E) in L. rewrite L. cbn. eapply IH; eassumption.
  Qed.

  Lemma gsorted_keys_once : forall m i j p q, gsorted m ->
    nth_error m i = Some p -> nth_error m j = Some q -> cmp (fst p) (fst q) = Eq -> i = j.
  Proof.
    induction m as [| a r IH]; intros i j p q S Hi Hj E.
    - destruct i; discriminate.
    - inversion S; subst. rewrite Forall_forall in H2.
      destruct i, j; cbn in Hi, Hj; auto.
      + injection Hi as ->. apply nth_error_In in Hj. specialize (H2 _ Hj). unfold glt in H2. congruence.
      + injection Hj as ->. apply nth_error_In in Hi. specialize (H2 _ Hi). unfold glt in H2.
        rewrite (po_anti _ PO), H2 in E. discriminate.
      + f_equal. eapply IH; eassumption.
  Qed.

  Definition ginsert_all (l : list (K * V)) (m : list (K * V)) : list (K * V) :=
    fold_left (fun m kv => ginsert m (fst kv) (snd kv)) l m.

  Lemma ginsert_all_sorted : forall l m, gsorted m -> gsorted (ginsert_all l m).
  Proof.
    induction l as [| [k v] l IH]; intros m S; cbn; auto. apply IH, ginsert_sorted, S.
  Qed.

  Lemma gfind_insert_all : forall l m k,
    gfind (ginsert_all l m) k =
    match gfindp (rev l) k with Some kv => Some (snd kv) | None => gfind m k end.
  Proof.
    induction l as [| [k0 v0] l IH]; intros m k; cbn [ginsert_all fold_left rev]; auto.
    fold (ginsert_all l (ginsert m k0 v0)). rewrite IH. unfold gfindp at 2.
    rewrite find_app. fold (gfindp (rev l) k).
    destruct (gfindp (rev l) k); auto.
    cbn [fst snd find]. rewrite gfind_insert. destruct (cmp_is_eq (cmp k0 k)); reflexivity.
  Qed.

  Lemma ginsert_all_in : forall l m p, In p (ginsert_all l m) -> In p l \/ In p m.
  Proof.
    induction l as [| [k v] l IH]; intros m p H; cbn in *; auto.
    destruct (IH _ _ H) as [H1|H1]; auto. apply ginsert_in in H1. destruct H1; auto.
  Qed.

  Lemma gsorted_embed : forall x y, gsorted x -> gsorted y ->
    (forall p, In p x -> exists q, In q y /\ cmp (fst q) (fst p) = Eq) ->
    length x <= length y /\
    (length x = length y -> Forall2 (fun p q => cmp (fst p) (fst q) = Eq) x y).
  Proof.
    induction x as [| p x IH]; intros y Sx Sy Hex.
    - split; [cbn; lia|]. destruct y; cbn; intro; [constructor | discriminate].
    - destruct (Hex p (or_introl eq_refl)) as [q [Hq E]].
      apply in_split in Hq. destruct Hq as [y1 [y2 ->]].
      inversion Sx; subst.
      apply sorted_app_inv in Sy. destruct Sy as [S1 [S2 S3]].
      inversion S2; subst.
      assert (Hex' : forall p', In p' x -> exists q', In q' y2 /\ cmp (fst q') (fst p') = Eq).
      { intros p' Hp'. destruct (Hex p' (or_intror Hp')) as [q' [Hq' E']].
        exists q'. split; auto.
        rewrite Forall_forall in H2. pose proof (H2 _ Hp') as Lp. unfold glt in Lp.
        apply in_app_or in Hq'. destruct Hq' as [Hq' | [<- | Hq']]; auto; exfalso.
        - rewrite Forall_forall in S3. pose proof (S3 _ Hq') as F. apply Forall_inv in F.
          unfold glt in F.
          rewrite (po_cong_r _ PO _ _ E) in F.
          pose proof (po_trans _ PO _ _ _ F Lp). congruence.
        - rewrite (po_cong _ PO _ _ E) in E'. congruence. }
      destruct (IH y2 H1 H3 Hex') as [L F].
      rewrite app_length. cbn [length]. split; [lia|].
      intro Hl. destruct y1; [| cbn in Hl; lia]. cbn.
      constructor; [apply (po_sym _ PO); assumption | apply F; cbn in Hl; lia].
  Qed.
End Assoc.

Lemma gfind_ext : forall {K V} (c1 c2 : K -> K -> comparison) (m : list (K * V)) k,
  (forall q, In q m -> c1 (fst q) k = c2 (fst q) k) -> gfind c1 m k = gfind c2 m k.
Proof.
  intros K V c1 c2 m k H. unfold gfind, gfindp. f_equal. apply find_ext_in.
  intros q Hq. rewrite (H q Hq). reflexivity.
Qed.

Lemma ginsert_ext : forall {K V} (c1 c2 : K -> K -> comparison) (m : list (K * V)) k v,
  (forall q, In q m -> c1 k (fst q) = c2 k (fst q)) -> ginsert c1 m k v = ginsert c2 m k v.
Proof.
  induction m as [| [k0 v0] r IH]; intros k v H; cbn [ginsert]; auto.
  rewrite (H (k0, v0) (or_introl eq_refl) : c1 k k0 = c2 k k0).
  rewrite IH by (intros; apply H; right; assumption). reflexivity.
Qed.

Lemma gremove_ext : forall {K V} (c1 c2 : K -> K -> comparison) (m : list (K * V)) k,
  (forall q, In q m -> c1 k (fst q) = c2 k (fst q)) -> gremove c1 m k = gremove c2 m k.
Proof.
  induction m as [| [k0 v0] r IH]; intros k H; cbn [gremove]; auto.
  rewrite (H (k0, v0) (or_introl eq_refl) : c1 k k0 = c2 k k0).
  rewrite IH by (intros; apply H; right; assumption). reflexivity.
Qed.

Lemma assoc_find_generic : forall m k, assoc_find m k = gfind cell_cmp m k.
Proof. reflexivity. Qed.
Lemma assoc_insert_generic : forall m k v, assoc_insert m k v = ginsert cell_cmp m k v.
Proof. reflexivity. Qed.
Lemma assoc_remove_generic : forall m k, assoc_remove m k = gremove cell_cmp m k.
Proof. reflexivity. Qed.

Definition keys_tagwf (m : list (cell * cell)) : Prop := Forall (fun kv => tagwf (fst kv)) m.

Lemma keys_tagwf_in : forall m q, keys_tagwf m -> In q m -> tagwf (fst q).
Proof. intros m q Hm. apply (proj1 (Forall_forall _ m) Hm). Qed.

Lemma assoc_find_g : forall m k, keys_tagwf m -> tagwf k -> assoc_find m k = gfind scmp m k.
Proof.
  intros m k Hm Hk. apply gfind_ext. intros q Hq. apply cmp_strip; [eapply keys_tagwf_in|]; eassumption.
Qed.

Lemma assoc_insert_g : forall m k v, keys_tagwf m -> tagwf k -> assoc_insert m k v = ginsert scmp m k v.
Proof.
  intros m k v Hm Hk. apply ginsert_ext. intros q Hq. apply cmp_strip; [| eapply keys_tagwf_in]; eassumption.
Qed.

Lemma assoc_remove_g : forall m k, keys_tagwf m -> tagwf k -> assoc_remove m k = gremove scmp m k.
Proof.
  intros m k Hm Hk. apply gremove_ext. intros q Hq. apply cmp_strip; [| eapply keys_tagwf_in]; eassumption.
Qed.

Lemma keys_sorted_g : forall m, keys_tagwf m -> (keys_sorted m <-> gsorted scmp m).
Proof.
  intros m Hm. unfold keys_sorted, gsorted, glt.
  split; apply StronglySorted_ext_in; intros x y Hx Hy;
    rewrite cmp_strip by (eapply keys_tagwf_in; eassumption); auto.
Qed.

Lemma assoc_find_in : forall y k v, assoc_find y k = Some v -> exists k', In (k', v) y /\ cell_cmp k' k = Eq.
Proof. exact (gfind_in cell_cmp). Qed.

Lemma eqb_vec_vec : forall x y, cell_eqb (CVec x) (CVec y) = list_eqb cell_eqb x y.
Proof.
  intros x y. cbn [cell_eqb value]. revert y.
  induction x as [| p x IH]; destruct y as [| q y]; cbn [list_eqb]; auto.
  rewrite IH. reflexivity.
Qed.

Definition map_entry_eqb (eqb : cell -> cell -> bool) (find : cell -> option cell) (p : cell * cell) : bool :=
  match find (fst p) with Some v' => eqb (snd p) v' | None => false end.

Lemma eqb_map_map : forall x y,
  cell_eqb (CMap x) (CMap y) =
  (length x =? length y) && forallb (map_entry_eqb cell_eqb (assoc_find y)) x.
Proof.
  intros x y. cbn [cell_eqb value]. f_equal.
  induction x as [| p x IH]; cbn [forallb]; auto.
  rewrite IH. unfold map_entry_eqb. destruct (assoc_find y (fst p)); reflexivity.
Qed.

Definition seqb (a b : cell) : bool := cell_eqb (strip a) (strip b).

Lemma assoc_find_strip : forall y k,
  assoc_find (map strip_pair y) (strip k) = option_map strip (gfind scmp y k).
Proof.
  intros y k. induction y as [| [k0 v0] y IH]; [reflexivity|].
  cbn [map]. unfold strip_pair at 1. cbn [fst snd]. rewrite assoc_find_generic, !gfind_cons. fold (scmp k0 k).
  destruct (cmp_is_eq (scmp k0 k)); [reflexivity | exact IH].
Qed.

Lemma seqb_tag_l : forall t v b, seqb (CTag t v) b = seqb v b.
Proof. reflexivity. Qed.
Lemma seqb_peel_l : forall a b, seqb (peel a) b = seqb a b.
Proof. intros. unfold seqb. rewrite strip_peel. reflexivity. Qed.
Lemma seqb_peel_r : forall a b, seqb a (peel b) = seqb a b.
Proof. intros. unfold seqb. rewrite strip_peel. reflexivity. Qed.

Lemma list_eqb_map : forall {A B} (f : A -> B) (eqb : B -> B -> bool) a b,
  list_eqb eqb (map f a) (map f b) = list_eqb (fun x y => eqb (f x) (f y)) a b.
Proof. induction a; destruct b; cbn; auto. rewrite IHa. reflexivity. Qed.

Lemma list_eqb_ext_in : forall {A} (e1 e2 : A -> A -> bool) a b,
  (forall x y, In x a -> In y b -> e1 x y = e2 x y) -> list_eqb e1 a b = list_eqb e2 a b.
Proof.
  induction a; destruct b; cbn; auto. intros H. rewrite H by auto. rewrite IHa by auto. reflexivity.
Qed.

Lemma seqb_vec_vec : forall x y, seqb (CVec x) (CVec y) = list_eqb seqb x y.
Proof. intros. unfold seqb. cbn [strip]. rewrite eqb_vec_vec, list_eqb_map. reflexivity. Qed.

Lemma forallb_map : forall {A B} (f : A -> B) (p : B -> bool) l,
  forallb p (map f l) = forallb (fun x => p (f x)) l.
Proof. induction l; cbn; auto. rewrite IHl. reflexivity. Qed.

Lemma forallb_ext_in : forall {A} (p q : A -> bool) l,
  (forall x, In x l -> p x = q x) -> forallb p l = forallb q l.
Proof. induction l; cbn; auto. intros H. rewrite H, IHl; auto. Qed.

Lemma seqb_map_map : forall x y,
  seqb (CMap x) (CMap y) =
  (length x =? length y) && forallb (map_entry_eqb seqb (gfind scmp y)) x.
Proof.
  intros x y. unfold seqb at 1. cbn [strip].
  change (fun kv : cell * cell => (strip (fst kv), strip (snd kv))) with strip_pair.
  rewrite eqb_map_map, !map_length, forallb_map. f_equal.
  apply forallb_ext_in. intros p _. unfold map_entry_eqb.
  change (fst (strip_pair p)) with (strip (fst p)). rewrite assoc_find_strip.
  destruct (gfind scmp y (fst p)); reflexivity.
Qed.

Definition seqb_body (a b : cell) : bool :=
  match a, b with
  | CNil, CNil => true
  | CFlag x, CFlag y => Bool.eqb x y
  | CInt x, CInt y => (x =? y)%Z
  | CReal x, CReal y => f64_eqb x y
  | CStr x, CStr y => String.eqb x y
  | CBits x, CBits y => eq_with x y
  | CVec x, CVec y => list_eqb seqb x y
  | CMap x, CMap y => (length x =? length y) && forallb (map_entry_eqb seqb (gfind scmp y)) x
  | CFun f, CFun g => fnref_eqb f g
  | _, _ => false
  end.

Lemma seqb_unfold : forall a b, is_tag a = false -> is_tag b = false -> seqb a b = seqb_body a b.
Proof.
  intros a b Ha Hb.
  destruct a; try discriminate Ha; destruct b; try discriminate Hb;
    try reflexivity; try apply seqb_vec_vec; try apply seqb_map_map.
Qed.

Lemma seqb_peel : forall a b, seqb a b = seqb_body (peel a) (peel b).
Proof.
  intros a b. rewrite <- (seqb_peel_l a), <- (seqb_peel_r _ b). apply seqb_unfold; apply peel_notag.
Qed.

Lemma seqb_body_rank : forall a b, rank a <> rank b -> seqb_body a b = false.
Proof. intros a b H. destruct a, b; try reflexivity; now elim H. Qed.

Lemma eqb_value_r : forall a b, is_tag (value b) = false -> cell_eqb a b = cell_eqb a (value b).
Proof.
  intros a b Hb. induction a; cbn [cell_eqb]; rewrite ?(value_notag (value b)) by assumption; auto.
Qed.

Lemma eqb_tag_l : forall t v b, cell_eqb (CTag t v) b = cell_eqb v b.
Proof. reflexivity. Qed.

Theorem eqb_strip : forall a b, tagwf a -> tagwf b -> cell_eqb a b = seqb a b.
Proof.
  induction a using cell_ind'; intros b0 Ha Hb0;
    try (rewrite eqb_tag_l, seqb_tag_l; apply IHa; [apply Ha | assumption]; fail);
    destruct (tagwf_value _ Hb0) as [Hv Hn];
    rewrite (eqb_value_r _ b0 Hn); unfold seqb; rewrite <- (strip_value b0 Hb0);
    revert Hv Hn; generalize (value b0); clear b0 Hb0; intros y Hy Hn;
    destruct y; try discriminate Hn; try reflexivity.
  - fold (seqb (CVec l) (CVec l0)). rewrite eqb_vec_vec, seqb_vec_vec.
    apply deep_vec in Ha. apply deep_vec in Hy. destruct Ha as [_ Ha], Hy as [_ Hy].
    rewrite Forall_forall in *. apply list_eqb_ext_in.
    intros p q Hp Hq. apply H; [assumption | apply Ha; assumption | apply Hy; assumption].
  - fold (seqb (CMap m) (CMap m0)). rewrite eqb_map_map, seqb_map_map.
    apply tagwf_map in Ha. apply tagwf_map in Hy.
    assert (Ky : keys_tagwf m0) by (eapply Forall_impl; [| exact Hy]; intros kv [T _]; exact T).
    f_equal. apply forallb_ext_in. intros p Hp. unfold map_entry_eqb.
    rewrite Forall_forall in H, Ha, Hy. destruct (H _ Hp) as [H1 H2], (Ha _ Hp) as [Ha1 Ha2].
    rewrite <- (assoc_find_g _ _ Ky Ha1).
    destruct (assoc_find m0 (fst p)) as [v'|] eqn:E; auto.
    apply H2; auto. apply assoc_find_in in E. destruct E as [k' [E _]]. apply (Hy _ E).
Qed.

Lemma Forall2_impl : forall {A B} (R S : A -> B -> Prop),
  (forall a b, R a b -> S a b) -> forall x y, Forall2 R x y -> Forall2 S x y.
Proof. induction 2; constructor; auto. Qed.

Lemma Forall2_length : forall {A B} (R : A -> B -> Prop) x y, Forall2 R x y -> length x = length y.
Proof. induction 1; cbn; auto. Qed.

Lemma Forall2_in : forall {A B} (R : A -> B -> Prop) x y,
  Forall2 R x y -> Forall2 (fun p q => R p q /\ In p x /\ In q y) x y.
Proof.
  induction 1; constructor.
  - cbn. auto.
  - eapply Forall2_impl; [| exact IHForall2]. cbn. intros a b (H1 & H2 & H3). auto.
Qed.

Lemma Forall2_in_l : forall {A B} (R : A -> B -> Prop) x y p,
  Forall2 R x y -> In p x -> exists q, In q y /\ R p q.
Proof.
  induction 1; intros Hin; [destruct Hin|]; destruct Hin as [<-|Hin].
  - eexists; split; [left; reflexivity | assumption].
  - destruct (IHForall2 Hin) as [q [H1 H2]]. exists q. split; [right|]; assumption.
Qed.

Lemma list_cmp_eq_Forall2 : forall {A} (cmp : A -> A -> comparison) x y,
  list_cmp cmp x y = Eq <-> Forall2 (fun p q => cmp p q = Eq) x y.
Proof.
  induction x; destruct y; cbn; split; intro H; try discriminate; try constructor; try (inversion H; fail).
  - destruct (cmp a a0); try discriminate; reflexivity.
  - apply IHx. destruct (cmp a a0); try discriminate; assumption.
  - inversion H; subst. rewrite H3. apply IHx. assumption.
Qed.

Lemma list_eqb_Forall2 : forall {A} (eqb : A -> A -> bool) x y,
  list_eqb eqb x y = true <-> Forall2 (fun p q => eqb p q = true) x y.
Proof.
  induction x; destruct y; cbn; split; intro H; try discriminate; try constructor; try (inversion H; fail).
  - apply andb_true_iff in H. tauto.
  - apply IHx. apply andb_true_iff in H. tauto.
  - inversion H; subst. rewrite H3. apply IHx. assumption.
Qed.

(* the domain on which [equal?] agrees with the order *)
Definition eq_local (c : cell) : Prop :=
  match c with
  | CReal r => f64_is_nan r = false
  | CAny => False
  | CBits b => wf b
  | CMap m => gsorted scmp m
  | _ => True
  end.
Definition eqdom : cell -> Prop := deep eq_local.

Lemma eqdom_peel : forall c, eqdom c -> eqdom (peel c).
Proof. induction c; cbn; auto. intros [_ H]. auto. Qed.

Lemma real_cmp_eqb : forall x y, f64_is_nan x = false -> f64_is_nan y = false ->
  (real_cmp x y = Eq <-> f64_eqb x y = true).
Proof.
  intros x y Hx Hy. unfold real_cmp, f64_pcmp, f64_eqb. rewrite Hx, Hy. cbn.
  rewrite Z.compare_eq_iff, Z.eqb_eq. reflexivity.
Qed.

Lemma bits_cmp_eqb : forall x y, wf x -> wf y ->
  (list_cmp bool_cmp (abs x) (abs y) = Eq <-> eq_with x y = true).
Proof.
  intros x y Hx Hy. rewrite (list_cmp_eq_iff bool_cmp bool_cmp_eq_iff).
  symmetry. apply eq_with_spec; assumption.
Qed.

Theorem scmp_seqb : forall a b, eqdom a -> eqdom b -> (scmp a b = Eq <-> seqb a b = true).
Proof.
  induction a using cell_ind'; intros b0 Ha Hb0;
    try (rewrite scmp_tag_l, seqb_tag_l; apply IHa; [apply Ha | assumption]; fail);
    apply eqdom_peel in Hb0;
    rewrite <- (scmp_peel_r _ b0), <- (seqb_peel_r _ b0);
    revert Hb0; generalize (peel_notag b0); generalize (peel b0); clear b0; intros y Hn Hy;
    destruct y; try discriminate Hn; clear Hn;
    rewrite scmp_unfold, seqb_unfold by reflexivity; cbn [scmp_body seqb_body rank Nat.compare];
    try (split; discriminate); try tauto.
  - destruct b, b0; cbn; split; congruence.
  - rewrite Z.compare_eq_iff, Z.eqb_eq. reflexivity.
  - apply real_cmp_eqb; [apply (deep_here _ _ Ha) | apply (deep_here _ _ Hy)].
  - rewrite string_cmp_eq_iff, String.eqb_eq. reflexivity.
  - (* vectors *)
    apply deep_vec in Ha. apply deep_vec in Hy. destruct Ha as [_ Ha], Hy as [_ Hy].
    rewrite list_cmp_eq_Forall2, list_eqb_Forall2.
    rewrite Forall_forall in H, Ha, Hy.
    split; intro F; apply Forall2_in in F; (eapply Forall2_impl; [| exact F]); cbn;
      intros p q (F1 & F2 & F3); apply (H p F2 q (Ha p F2) (Hy q F3)); assumption.
  - (* maps: a key of the one is found in the other under the entry with the equal key *)
    apply deep_map in Ha. apply deep_map in Hy. destruct Ha as [Sx Ha], Hy as [Sy Hy].
    cbn in Sx, Sy. rewrite Forall_forall in H, Ha, Hy.
    assert (Hent : forall p q, In p m -> In q m0 -> scmp (fst p) (fst q) = Eq ->
              (scmp (snd p) (snd q) = Eq <-> map_entry_eqb seqb (gfind scmp m0) p = true)).
    { intros p [k' v'] Hp Hq E. unfold map_entry_eqb.
      rewrite (gfind_sorted_in scmp scmp_preorder m0 k' v' (fst p) Sy Hq (po_sym _ scmp_preorder _ _ E)).
      destruct (H p Hp) as [_ H2], (Ha p Hp), (Hy _ Hq). apply H2; assumption. }
    rewrite andb_true_iff, Nat.eqb_eq, forallb_forall, list_cmp_eq_Forall2. split.
    + intro E. split; [eapply Forall2_length; eassumption|].
      intros p Hp. destruct (Forall2_in_l _ _ _ p E Hp) as [q [Hq R]].
      unfold pair_cmp in R. destruct (scmp (fst p) (fst q)) eqn:E1; try discriminate.
      apply (Hent p q); assumption.
    + intros [Hl Hall].
      assert (Hex : forall p, In p m -> exists q, In q m0 /\ scmp (fst q) (fst p) = Eq).
      { intros p Hp. specialize (Hall p Hp). unfold map_entry_eqb in Hall.
        destruct (gfind scmp m0 (fst p)) as [v'|] eqn:E; try discriminate.
        apply gfind_in in E. destruct E as [k' E]. exists (k', v'). exact E. }
      destruct (gsorted_embed scmp scmp_preorder m m0 Sx Sy Hex) as [_ F]. specialize (F Hl).
      apply Forall2_in in F. eapply Forall2_impl; [| exact F]. cbn. intros p q (F1 & F2 & F3).
      unfold pair_cmp. rewrite F1. apply (Hent p q); auto.
  - apply fnref_cmp_eq_iff.
  - apply bits_cmp_eqb; [apply (deep_here _ _ Ha) | apply (deep_here _ _ Hy)].
  - destruct Ha as [[] _].
Qed.

Lemma ok_eqdom : forall c, cell_ok c -> NoNaN c -> eqdom c.
Proof.
  induction c using cell_ind'; intros Hok Hnn; try (split; [cbn; auto | exact I]; fail).
  - split; [apply (deep_here _ _ Hnn) | exact I].
  - apply cell_ok_vec in Hok. apply NoNaN_vec in Hnn. apply deep_vec. split; [exact I|].
    rewrite Forall_forall in *. intros x Hx. apply H; auto.
  - apply cell_ok_map in Hok. apply NoNaN_map in Hnn. destruct Hok as (S & _ & Hok).
    apply deep_map. split.
    + cbn. apply keys_sorted_g; auto. apply Forall_forall. intros kv Hkv.
      rewrite Forall_forall in Hok. apply cell_ok_tagwf, (Hok _ Hkv).
    + rewrite Forall_forall in *. intros kv Hkv.
      destruct (H _ Hkv) as [A B], (Hok _ Hkv), (Hnn _ Hkv). split; [apply A | apply B]; assumption.
  - split; [apply (deepT_here _ _ Hok) | exact I].
  - destruct Hnn as [[] _].
  - apply cell_ok_tag in Hok. destruct Hok as (_ & _ & Hok). destruct Hnn as [_ Hnn].
    split; [exact I | apply IHc; assumption].
Qed.

Theorem cmp_eq : forall a b, cell_ok a -> cell_ok b -> NoNaN a -> NoNaN b ->
  (cell_cmp a b = Eq <-> cell_eqb a b = true).
Proof.
  intros a b Ha Hb Na Nb.
  rewrite cmp_strip, eqb_strip by (apply cell_ok_tagwf; assumption).
  apply scmp_seqb; apply ok_eqdom; assumption.
Qed.

Lemma cmp_is_eq_eqb : forall a b, cell_ok a -> cell_ok b -> NoNaN a -> NoNaN b ->
  cmp_is_eq (cell_cmp a b) = cell_eqb a b.
Proof.
  intros a b Ha Hb Na Nb. pose proof (cmp_eq a b Ha Hb Na Nb) as H.
  destruct (cell_eqb a b).
  - apply cmp_is_eq_true, H. reflexivity.
  - destruct (cell_cmp a b); cbn; auto. destruct H as [H _]. discriminate (H eq_refl).
Qed.

Theorem eqb_refl : forall a, cell_ok a -> NoNaN a -> cell_eqb a a = true.
Proof. intros a Ha Na. apply cmp_eq; auto. apply cmp_refl, cell_ok_tagwf, Ha. Qed.

Theorem eqb_sym : forall a b, cell_ok a -> cell_ok b -> NoNaN a -> NoNaN b ->
  cell_eqb a b = cell_eqb b a.
Proof.
  intros a b Ha Hb Na Nb. rewrite <- !cmp_is_eq_eqb by assumption.
  rewrite (cmp_antisym a b) by (apply cell_ok_tagwf; assumption). destruct (cell_cmp b a); reflexivity.
Qed.

Theorem eqb_trans : forall a b c, cell_ok a -> cell_ok b -> cell_ok c -> NoNaN a -> NoNaN b -> NoNaN c ->
  cell_eqb a b = true -> cell_eqb b c = true -> cell_eqb a c = true.
Proof.
  intros a b c Ha Hb Hc Na Nb Nc E1 E2.
  apply cmp_eq in E1; auto. apply cmp_eq in E2; auto. apply cmp_eq; auto.
  apply (cmp_trans a b c Eq); auto using cell_ok_tagwf.
Qed.

Lemma insert_keys_tagwf : forall m k v, keys_tagwf m -> tagwf k -> keys_tagwf (assoc_insert m k v).
Proof.
  intros m k v Hm Hk. rewrite assoc_insert_g by assumption. unfold keys_tagwf in *.
  rewrite Forall_forall in *. intros p Hp. apply ginsert_in in Hp. destruct Hp as [->|Hp]; auto.
Qed.

Lemma remove_keys_tagwf : forall m k, keys_tagwf m -> tagwf k -> keys_tagwf (assoc_remove m k).
Proof.
  intros m k Hm Hk. rewrite assoc_remove_g by assumption. unfold keys_tagwf in *.
  rewrite Forall_forall in *. intros p Hp. apply gremove_in in Hp. auto.
Qed.

Lemma map_ok_keys_tagwf : forall m, map_ok m -> keys_tagwf m.
Proof.
  intros m H. apply cell_ok_map in H. destruct H as (_ & _ & H). unfold keys_tagwf.
  rewrite Forall_forall in *. intros p Hp. apply cell_ok_tagwf, (H p Hp).
Qed.

Lemma map_ok_sorted : forall m, map_ok m -> keys_sorted m.
Proof. intros m H. apply cell_ok_map in H. tauto. Qed.

Theorem find_insert_cmp : forall m k v k', keys_tagwf m -> tagwf k -> tagwf k' ->
  assoc_find (assoc_insert m k v) k' =
  if cmp_is_eq (cell_cmp k k') then Some v else assoc_find m k'.
Proof.
  intros m k v k' Hm Hk Hk'.
  rewrite (assoc_find_g (assoc_insert m k v)) by auto using insert_keys_tagwf.
  rewrite assoc_insert_g, assoc_find_g, cmp_strip by assumption.
  apply gfind_insert, scmp_preorder.
Qed.

Theorem find_remove_cmp : forall m k k', keys_tagwf m -> keys_sorted m -> tagwf k -> tagwf k' ->
  assoc_find (assoc_remove m k) k' =
  if cmp_is_eq (cell_cmp k k') then None else assoc_find m k'.
Proof.
  intros m k k' Hm Sm Hk Hk'.
  rewrite (assoc_find_g (assoc_remove m k)) by auto using remove_keys_tagwf.
  rewrite assoc_remove_g, assoc_find_g, cmp_strip by assumption.
  apply gfind_remove; [apply scmp_preorder | apply keys_sorted_g; assumption].
Qed.

Theorem find_insert : forall m k v k',
  map_ok m -> cell_ok k -> NoNaN k -> cell_ok k' -> NoNaN k' ->
  assoc_find (assoc_insert m k v) k' = if cell_eqb k k' then Some v else assoc_find m k'.
Proof.
  intros m k v k' Hm Hk Nk Hk' Nk'.
  rewrite find_insert_cmp by auto using map_ok_keys_tagwf, cell_ok_tagwf.
  rewrite cmp_is_eq_eqb by assumption. reflexivity.
Qed.

Theorem find_remove : forall m k k',
  map_ok m -> cell_ok k -> NoNaN k -> cell_ok k' -> NoNaN k' ->
  assoc_find (assoc_remove m k) k' = if cell_eqb k k' then None else assoc_find m k'.
Proof.
  intros m k k' Hm Hk Nk Hk' Nk'.
  rewrite find_remove_cmp by auto using map_ok_keys_tagwf, map_ok_sorted, cell_ok_tagwf.
  rewrite cmp_is_eq_eqb by assumption. reflexivity.
Qed.

Theorem insert_sorted : forall m k v, keys_tagwf m -> tagwf k -> keys_sorted m -> keys_sorted (assoc_insert m k v).
Proof.
  intros m k v Hm Hk S. apply keys_sorted_g; [apply insert_keys_tagwf; assumption|].
  rewrite assoc_insert_g by assumption. apply ginsert_sorted; [apply scmp_preorder|].
  apply keys_sorted_g; assumption.
Qed.

Theorem remove_sorted : forall m k, keys_tagwf m -> tagwf k -> keys_sorted m -> keys_sorted (assoc_remove m k).
Proof.
  intros m k Hm Hk S. apply keys_sorted_g; [apply remove_keys_tagwf; assumption|].
  rewrite assoc_remove_g by assumption. apply gremove_sorted.
  apply keys_sorted_g; assumption.
Qed.

Theorem insert_ok : forall m k v, map_ok m -> cell_ok k -> NoNaN k -> cell_ok v -> map_ok (assoc_insert m k v).
Proof.
  intros m k v Hm Hk Nk Hv.
  pose proof (map_ok_keys_tagwf _ Hm) as Tm. pose proof (cell_ok_tagwf _ Hk) as Tk.
  apply cell_ok_map in Hm. destruct Hm as (S & N & O).
  apply cell_ok_map. split; [apply insert_sorted; assumption|].
  rewrite assoc_insert_g by assumption.
  rewrite !Forall_forall in *.
  split; intros p Hp; apply ginsert_in in Hp; destruct Hp as [->|Hp]; cbn; auto.
Qed.

Theorem remove_ok : forall m k, map_ok m -> cell_ok k -> map_ok (assoc_remove m k).
Proof.
  intros m k Hm Hk.
  pose proof (map_ok_keys_tagwf _ Hm) as Tm. pose proof (cell_ok_tagwf _ Hk) as Tk.
  apply cell_ok_map in Hm. destruct Hm as (S & N & O).
  apply cell_ok_map. split; [apply remove_sorted; assumption|].
  rewrite assoc_remove_g by assumption.
  rewrite !Forall_forall in *.
  split; intros p Hp; apply gremove_in in Hp; auto.
Qed.

Theorem insert_length : forall m k v, keys_tagwf m -> keys_sorted m -> tagwf k ->
  length (assoc_insert m k v) =
  match assoc_find m k with Some _ => length m | None => S (length m) end.
Proof.
  intros m k v Hm S Hk. rewrite assoc_insert_g, assoc_find_g by assumption.
  apply ginsert_length; [apply scmp_preorder | apply keys_sorted_g; assumption].
Qed.

(* map literals: { v1 k1 v2 k2 ... } is the fold of the inserts, the last binding wins *)
Fixpoint pairs_of (l : list cell) : list (cell * cell) :=
  match l with
  | v :: k :: r => (k, v) :: pairs_of r
  | _ => []
  end.

Lemma pairs_insert_fold : forall l m,
  pairs_insert l m = fold_left (fun m kv => assoc_insert m (fst kv) (snd kv)) (pairs_of l) m.
Proof.
  fix IH 1. intros [| v [| k r]] m; cbn [pairs_insert pairs_of fold_left]; auto.
Qed.

Lemma fold_insert_g : forall l m, keys_tagwf l -> keys_tagwf m ->
  fold_left (fun m kv => assoc_insert m (fst kv) (snd kv)) l m = ginsert_all scmp l m /\
  keys_tagwf (ginsert_all scmp l m).
Proof.
  induction l as [| [k v] l IH]; intros m Hl Hm; cbn [fold_left ginsert_all]; auto.
  inversion Hl; subst. cbn [fst snd] in *.
  rewrite assoc_insert_g by assumption.
  apply IH; auto. rewrite <- assoc_insert_g by assumption. apply insert_keys_tagwf; assumption.
Qed.

Theorem pairs_insert_find : forall l m k, keys_tagwf (pairs_of l) -> keys_tagwf m -> tagwf k ->
  assoc_find (pairs_insert l m) k =
  match find (fun kv => cmp_is_eq (cell_cmp (fst kv) k)) (rev (pairs_of l)) with
  | Some kv => Some (snd kv)
  | None => assoc_find m k
  end.
Proof.
  intros l m k Hl Hm Hk. rewrite pairs_insert_fold.
  destruct (fold_insert_g _ _ Hl Hm) as [-> T].
  rewrite assoc_find_g by assumption. rewrite (gfind_insert_all scmp scmp_preorder).
  rewrite assoc_find_g by assumption. unfold gfindp.
  rewrite (find_ext_in (fun kv => cmp_is_eq (cell_cmp (fst kv) k)) (fun kv => cmp_is_eq (scmp (fst kv) k))).
  - reflexivity.
  - intros q Hq. apply in_rev in Hq. unfold keys_tagwf in Hl. rewrite Forall_forall in Hl.
    rewrite cmp_strip; auto.
Qed.

Theorem pairs_insert_sorted : forall l m, keys_tagwf (pairs_of l) -> keys_tagwf m -> keys_sorted m ->
  keys_sorted (pairs_insert l m) /\ keys_tagwf (pairs_insert l m).
Proof.
  intros l m Hl Hm S. rewrite pairs_insert_fold.
  destruct (fold_insert_g _ _ Hl Hm) as [-> T]. split; auto.
  apply keys_sorted_g; auto. apply ginsert_all_sorted; [apply scmp_preorder|].
  apply keys_sorted_g; assumption.
Qed.

(* the same law with the language's equality on well-formed NaN-free keys: the map literal is
   the association list of its pairs, read from the end *)
Theorem pairs_insert_find_eqb : forall l k,
  Forall (fun kv => cell_ok (fst kv) /\ NoNaN (fst kv)) (pairs_of l) -> cell_ok k -> NoNaN k ->
  assoc_find (pairs_insert l []) k =
  option_map snd (find (fun kv => cell_eqb (fst kv) k) (rev (pairs_of l))).
Proof.
  intros l k Hl Hk Nk.
  rewrite pairs_insert_find.
  - rewrite (find_ext_in (fun kv => cmp_is_eq (cell_cmp (fst kv) k)) (fun kv => cell_eqb (fst kv) k)).
    + destruct (find _ (rev (pairs_of l))); reflexivity.
    + intros q Hq. apply in_rev in Hq. rewrite Forall_forall in Hl. destruct (Hl _ Hq).
      apply cmp_is_eq_eqb; assumption.
  - unfold keys_tagwf. eapply Forall_impl; [| exact Hl]. intros a [H _]. apply cell_ok_tagwf, H.
  - constructor.
  - apply cell_ok_tagwf, Hk.
Qed.

(* the specification: an unsorted list of bindings, newest first, looked up with equal? *)
Definition al_find (l : list (cell * cell)) (k : cell) : option cell :=
  option_map snd (find (fun kv => cell_eqb (fst kv) k) l).
Definition al_insert (l : list (cell * cell)) (k v : cell) : list (cell * cell) := (k, v) :: l.
Definition al_remove (l : list (cell * cell)) (k : cell) : list (cell * cell) :=
  filter (fun kv => negb (cell_eqb (fst kv) k)) l.
Definition al_ok (l : list (cell * cell)) : Prop := Forall (fun kv => cell_ok (fst kv) /\ NoNaN (fst kv)) l.

Definition refines (m l : list (cell * cell)) : Prop :=
  forall k, cell_ok k -> NoNaN k -> assoc_find m k = al_find l k.

Lemma al_find_remove : forall l k k', al_ok l -> cell_ok k -> NoNaN k -> cell_ok k' -> NoNaN k' ->
  al_find (al_remove l k) k' = if cell_eqb k k' then None else al_find l k'.
Proof.
  intros l k k' Hl Hk Nk Hk' Nk'. unfold al_find, al_remove.
  induction Hl as [| [k0 v0] r [H0 N0] Hr IH]; cbn [filter find fst].
  - destruct (cell_eqb k k'); reflexivity.
  - destruct (cell_eqb k0 k) eqn:E0; cbn [negb].
    + rewrite IH. destruct (cell_eqb k k') eqn:E1; [reflexivity|].
      destruct (cell_eqb k0 k') eqn:E2; [| reflexivity].
      exfalso. rewrite (eqb_sym k0 k) in E0 by assumption.
      pose proof (eqb_trans k k0 k' Hk H0 Hk' Nk N0 Nk' E0 E2). congruence.
    + cbn [find fst]. destruct (cell_eqb k0 k') eqn:E2.
      * destruct (cell_eqb k k') eqn:E1; [| reflexivity].
        exfalso. rewrite (eqb_sym k k') in E1 by assumption.
        pose proof (eqb_trans k0 k' k H0 Hk' Hk N0 Nk' Nk E2 E1). congruence.
      * apply IH.
Qed.

Definition sep_of (sep : option string) : string := match sep with Some s => s | None => EmptyString end.

Lemma append_empty_r : forall s, String.append s EmptyString = s.
Proof. induction s; cbn; congruence. Qed.

Theorem join_cells_strings : forall f sep ts,
  join_cells (S f) sep (map CStr ts) = Some (String.concat (sep_of sep) ts).
Proof.
  intros f sep ts. unfold join_cells. fold join_cells. cbv zeta. rewrite map_length.
  match goal with |- ?g _ 0 = _ => set (go := g) end.
  assert (H : forall l k, k + length l = length ts ->
                          go (map CStr l) k = Some (String.concat (sep_of sep) l)).
  { induction l as [| t r IH]; intros k Hk; [reflexivity|].
    cbn [map]. unfold go at 1. fold go. cbn [value]. rewrite (IH (S k)) by (cbn in Hk; lia).
    f_equal. destruct r as [| t2 r].
    - cbn [String.concat]. cbn in Hk.
      destruct sep; cbn [sep_of]; [| apply append_empty_r].
      replace (S k <? length ts) with false by lia. apply append_empty_r.
    - cbn [String.concat]. cbn in Hk. destruct sep; cbn [sep_of]; auto.
      replace (S k <? length ts) with true by lia. reflexivity. }
  apply (H ts 0). reflexivity.
Qed.

(* a tactic that proves [cell_ok] / [NoNaN] / [map_ok] of concrete cells (for the examples)  *)
Ltac ok_tac :=
  repeat first
    [ match goal with
      | |- _ = _ => vm_compute; reflexivity
      | |- True => exact I
      | |- (_ <= _)%nat => cbn; lia
      | |- map_ok _ => unfold map_ok
      | |- cell_ok (CMap _) => apply (proj2 (cell_ok_map _)); split; [| split]
      | |- cell_ok (CTag _ _) => apply (proj2 (cell_ok_tag _ _)); split; [| split]
      | |- cell_ok (CVec _) => apply (proj2 (cell_ok_vec _))
      | |- NoNaN (CVec _) => apply (proj2 (NoNaN_vec _))
      | |- NoNaN (CMap _) => apply (proj2 (NoNaN_map _))
      | |- tagwf (CVec _) => apply (proj2 (tagwf_vec _))
      | |- tagwf (CMap _) => apply (proj2 (tagwf_map _))
      | |- keys_sorted _ => unfold keys_sorted
      | |- keys_tagwf _ => unfold keys_tagwf
      | |- Forall _ (_ :: _) => apply Forall_cons
      | |- Forall _ [] => apply Forall_nil
      | |- StronglySorted _ (_ :: _) => apply SSorted_cons
      | |- StronglySorted _ [] => apply SSorted_nil
      | |- _ /\ _ => split
      | |- ok_local _ => first [ exact I | cbn [ok_local] ]
      | |- nonan_local _ => first [ exact I | cbn [nonan_local] ]
      | |- notagtag _ => first [ exact I | cbn [notagtag] ]
      | |- wf _ => unfold wf; cbn [cstart cend cdata List.length]
      | |- cell_ok _ => split
      | |- NoNaN _ => split
      | |- tagwf _ => split
      | |- deep _ _ => split
      | |- deepT _ _ => split
      | |- (_ < _)%N => reflexivity
      end ].
