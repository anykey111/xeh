(* UnwindBuild.v (C10): every program of the builder keeps the invariant [binv] of
   UnwindInv.v: token reading, emission, the immediate words, meta blocks. *)
From Xeh Require Import Model.Prelude Model.Bits Model.Codec Model.Cell Model.Lexer Model.Fmt
                        Model.Vm Model.Words Model.Build.
From Xeh Require Import Proofs.WordProg Proofs.VmFrame Proofs.VmLimits Proofs.NoPanic Proofs.NoPanicBuild
                        Proofs.BuildUnwind Proofs.BuildLet Proofs.UnwindLists Proofs.UnwindFrame Proofs.UnwindInv.
Local Notation length := List.length.

Lemma mode_eqb_meta c : mode_eqb c MMeta = true -> c = MMeta.
Proof. destruct c; cbn; congruence. Qed.

Lemma code_emit_cases op s :
  (exists c d, code_emit op s = ROk tt (set_code (set_dbg s d) c)) \/ code_emit op s = RPanic.
Proof.
  unfold code_emit. cbv zeta. destruct (_ <? _)%nat; [left; eexists _, _; reflexivity|].
  destruct (_ =? _)%nat; [left; eexists _, _; reflexivity|right; reflexivity].
Qed.

Lemma emit_results_keeps : forall fuel s,
  match emit_results fuel s with
  | ROk _ r => nested r = nested s /\ input r = input s
  | RErr _ _ _ => False
  | _ => True
  end.
Proof.
  induction fuel as [|f IH]; intros s; [split; reflexivity|].
  rewrite emit_results_S. unfold bind at 1. unfold get.
  destruct (ds_len (cx s) <? length (ds s))%nat eqn:E; [|split; reflexivity]. unfold bind at 1.
  pose proof (wl_frame _ _ wl_pop_data s) as FR.
  destruct (pop_data s) as [c s1|k p s1| |] eqn:Ep; cbn [res_all] in FR; try exact I.
  - unfold bind, code_emit_value.
    destruct (code_emit_cases (load_value_opcode c) s1) as [(c' & d' & ->)| ->]; [|exact I].
    specialize (IH (set_code (set_dbg s1 d') c')). destruct (emit_results f _); auto.
    rewrite <- (fr_nested _ _ FR), <- (fr_input _ _ FR). exact IH.
  - unfold pop_data in Ep. destruct (ds s) as [|c r]; [cbn [length] in E; apply Nat.ltb_lt in E; lia|].
    rewrite E in Ep. discriminate.
Qed.

Section Builder.
  Variable fo : fops.
  Variable pr : string -> option Z.
  Variable rf : nat.
  Variable b : state.
  Variable m : mode.
  Hypothesis Hm : m <> MMeta.
  Hypothesis Hdl : length (dbg b) = length (code b).

  Local Notation binv := (binv b m).
  Local Notation binv0 := (binv0 b).
  Local Notation bp := (bp b m).
  Local Notation bpm := (bpm b m).

  Lemma bp_reads A (P : M A) : (forall s, res_all (reads_only s) (P s)) -> bp P.
  Proof.
    intros H s Hs. specialize (H s).
    destruct (P s); cbn [res_all] in *; auto; eapply binv_reads; eassumption.
  Qed.

  Lemma bp_get_token : bp (get_token pr).
  Proof. apply bp_reads, get_token_reads. Qed.

  Lemma bp_next_name : bp (next_name pr).
  Proof. apply bp_reads, next_name_reads. Qed.

  Lemma run_m_frame s : res_all (frame_rel s) (run_m fo rf s).
  Proof.
    unfold run_m. pose proof (run_frame_native fo rf s) as H. unfold nf.
    destruct (run (native_fn fo) rf s); [exact H|exact I].
  Qed.

  Lemma bpm_run_m : bpm (run_m fo rf).
  Proof.
    intros t H Hmode. pose proof (run_m_frame t) as FR.
    destruct (run_m fo rf t); cbn [res_all] in *; auto; eapply binv_frame; eauto.
  Qed.

  Definition bpmb {A} (P : M A) : Prop :=
    forall t, binv t -> cmode (cx t) = MMeta -> res_all binv (P t).

  Lemma bpmb_of_bp A (P : M A) : bp P -> bpmb P.
  Proof. intros H t Ht _. apply H, Ht. Qed.

  Lemma bpmb_bind A B (P : M A) (f : A -> M B) : bpm P -> (forall a, bpmb (f a)) -> bpmb (bind P f).
  Proof.
    intros HP Hf t Ht Hmode. unfold bind. specialize (HP t Ht Hmode).
    destruct (P t) as [a t1|k p t1| |]; cbn [res_all] in *; auto; [|apply HP].
    apply Hf; apply HP.
  Qed.

  Lemma bpmb_bind_bp A B (P : M A) (f : A -> M B) : bpmb P -> (forall a, bp (f a)) -> bpmb (bind P f).
  Proof.
    intros HP Hf t Ht Hmode. unfold bind. specialize (HP t Ht Hmode).
    destruct (P t) as [a t1|k p t1| |]; cbn [res_all] in *; auto. apply Hf, HP.
  Qed.

  (* the words that only make sense inside a meta block start with this test *)
  Lemma bp_meta_get B (k : state -> M B) e :
    (forall s0, bpmb (k s0)) ->
    bp (let* s := get in if negb (mode_eqb (cmode (cx s)) MMeta) then fail e None else k s).
  Proof.
    intros H t Ht. unfold bind, get.
    destruct (mode_eqb (cmode (cx t)) MMeta) eqn:E; cbn [negb]; [|exact Ht].
    apply H; [exact Ht|apply mode_eqb_meta, E].
  Qed.

  Lemma emit_results_inv : forall fuel t, binv0 t -> meta_ok b (cx t) ->
    match emit_results fuel t with ROk _ t' => binv0 t' | _ => True end.
  Proof.
    induction fuel as [|f IH]; intros t B MO; [exact B|].
    rewrite emit_results_S. unfold bind at 1. unfold get.
    destruct (ds_len (cx t) <? length (ds t))%nat; [|exact B]. unfold bind at 1.
    pose proof (wl_frame _ _ wl_pop_data t) as FR.
    destruct (pop_data t) as [c t1|k p t1| |]; cbn [res_all] in FR; try exact I.
    pose proof (binv0_frame b _ _ B MO FR) as B1.
    destruct (code_emit_binv0 b (load_value_opcode c) _ B1) as (t2 & E2 & B2 & C2 & _).
    unfold bind, code_emit_value. rewrite E2.
    assert (MO2 : meta_ok b (cx t2)) by (rewrite C2, (fr_cx _ _ FR); exact MO).
    specialize (IH t2 B2 MO2). destruct (emit_results f t2); auto.
  Qed.

  Lemma binv0_close_cut t : binv0 t -> meta_ok b (cx t) -> binv0 (close_cut t).
  Proof.
    intros B (_ & _ & Mc & _ & _ & _ & _ & Mi). unfold close_cut. cbv zeta.
    apply binv0_set_dict.
    - eapply binv0_code; [exact B|reflexivity..| | |]; st_simpl.
      + apply kprefix_firstn; [apply B|exact Mc].
      + apply prefix_firstn; [apply B|rewrite Hdl; exact Mc].
      + rewrite !firstn_length, (bi_dbglen b t B). reflexivity.
    - st_simpl. apply purge_dict_prefix; [apply B|exact Mi].
  Qed.

  Lemma close_meta_tail_inv prev t : binv0 t -> meta_ok b (cx t) ->
    match close_meta_tail prev t with
    | ROk _ t' => binv0 t' /\ cx t' = prev /\ nested t' = nested t
    | RErr _ _ _ => False
    | _ => True
    end.
  Proof.
    intros B MO. unfold close_meta_tail, bind, modify, get.
    pose proof (binv0_close_cut t B MO) as B3.
    assert (K : forall t4, binv0 t4 -> binv0 (set_cx t4 prev))
      by (intros t4; apply binv0_same; reflexivity).
    destruct (close_reemits prev (close_cut t)); [|split; [apply K, B3|split; reflexivity]].
    pose proof (emit_results_inv (S (length (ds (close_cut t)))) _ B3 MO) as X.
    pose proof (emit_results_keeps (S (length (ds (close_cut t)))) (close_cut t)) as Y.
    destruct (emit_results _ (close_cut t)) as [u t4|k p t4| |]; auto.
    split; [apply K, X|split; [reflexivity|apply Y]].
  Qed.

  (* the close runs what is left of the block; a failing run puts the popped context back *)
  Lemma close_meta_inv : bpmb (context_close fo rf).
  Proof.
    intros t HB Hmode. pose proof HB as [C B].
    destruct (chain_meta b m Hm t C Hmode) as (_ & prev & rest & En & ms & Ems & Fms).
    rewrite context_close_eq, En, Hmode.
    pose proof (run_m_frame (set_nested t rest)) as FR.
    destruct (run_m fo rf (set_nested t rest)) as [u t1|k p t1| |]; cbn [res_all] in FR; try exact I;
      pose proof (fr_nested _ _ FR) as N1; apply frame_rel_nested in FR;
      destruct (binv_frame b m Hm t _ HB Hmode FR) as [[C1 B1] M1].
    - destruct (chain_meta b m Hm _ C1 M1) as (MO & _).
      assert (B1' : binv0 t1) by (eapply binv0_same; [..|exact B1]; reflexivity).
      pose proof (close_meta_tail_inv prev t1 B1' MO) as X.
      destruct (close_meta_tail prev t1) as [u4 t4|k p t4| |]; auto; [|contradiction].
      destruct X as (X1 & X2 & X3). split; [|exact X1].
      exists ms. rewrite X2, X3, N1. split; assumption.
    - cbn [set_nested nested] in N1. rewrite N1, <- En. split; assumption.
  Qed.

  Ltac lens_of H :=
    let L := fresh "L" in
    pose proof (binv0_lens b _ (proj2 H)) as L; destruct L as (? & ? & ? & ? & ? & ? & ? & ?).

  Ltac bp_side :=
    cbn [flow_ok oflow_ok] in *; unfold code_origin in *;
    repeat match goal with H : _ /\ _ |- _ => destruct H end;
    repeat split; try exact I; try lia.

  Ltac bp_prim :=
    lazymatch goal with
    | |- bp (ret _) => apply bp_ret
    | |- bp (fail _ _) => apply bp_fail
    | |- bp unsup => apply bp_unsup
    | |- bp panic => apply bp_panic
    | |- bp (code_emit _) => apply bp_code_emit
    | |- bp (backpatch _ _) => apply bp_backpatch; bp_side
    | |- bp (backpatch_jump _ _) => apply bp_backpatch_jump; bp_side
    | |- bp (push_flow _) => apply bp_push_flow; bp_side
    | |- bp (alloc_heap _) => apply bp_alloc_heap
    | |- bp (context_open MMeta) => apply bp_context_open_meta; exact Hm
    | |- bp (intern_source _) => apply bp_intern_source
    | |- bp (get_token _) => apply bp_get_token
    | |- bp (next_name _) => apply bp_next_name
    end.

  (* one step through a term: a primitive, a fact already there, or a bind / a case split / the
     next definition; a read of the state brings the lengths of the invariant with it *)
  Ltac bp_step :=
    cbv beta zeta;
    first
      [ bp_prim
      | solve [ auto 2 with nocore ]
      | lazymatch goal with
        | |- bp (bind get _) =>
          apply bp_get_bind; let s0 := fresh "s0" in let Hs := fresh "Hs" in intros s0 Hs; lens_of Hs
        | |- bp (bind pop_flow _) => apply bp_bind_pop_flow; intros ? ?
        | |- bp (bind take_first_cond_flow _) => apply bp_bind_tfc; intros ? ?
        | |- bp (bind (dict_insert _ _) _) => eapply bp_bindq; [apply bpq_dict_insert | intros ? ?]
        | |- bp (bind _ _) => apply bp_bind; [ | intro ]
        | |- bp (match ?x with _ => _ end) => destruct x
        | |- bp ?w => let h := head_of w in unfold h
        end ].

  Ltac bp_solve := repeat bp_step.

  Lemma bp_endcase_loop : forall fuel org, bp (endcase_loop fuel org).
  Proof. induction fuel as [|f IH]; intros org; cbn [endcase_loop]; bp_solve. Qed.
  Lemma bp_repeat_loop : forall fuel, bp (repeat_loop fuel).
  Proof. induction fuel as [|f IH]; cbn [repeat_loop]; bp_solve. Qed.

  Lemma set_dict_len_prefix d i n d' (p : list dentry) :
    set_dict_len d i n = Some d' -> prefix_of p d -> length p <= i -> prefix_of p d'.
  Proof.
    unfold set_dict_len. destruct (nth_error d i) as [e|]; [|discriminate].
    destruct (dent e); try discriminate. intros E. injection E as <-.
    intros; apply prefix_list_set; assumption.
  Qed.

  Lemma bp_i_def_end : bp (i_def_end).
  Proof.
    unfold i_def_end. apply bp_bind_pop_flow. intros r Hr.
    destruct r as [f|]; [|bp_solve]. destruct f; try (bp_solve; fail).
    apply bp_bind; [apply bp_code_emit|intros _].
    apply bp_get_bind. intros s0 Hs. lens_of Hs. cbv zeta.
    destruct (nth_error (dict s0) dict_idx); [|bp_solve].
    destruct (set_dict_len (dict s0) dict_idx (code_origin s0 - start - 1)) as [d'|] eqn:E; [|bp_solve].
    apply bp_bind; [|intros _; bp_solve].
    apply bp_put, bp_set_dict; [exact Hs|].
    eapply set_dict_len_prefix; [exact E|exact (bi_dict b _ (proj2 Hs))|bp_side].
  Qed.

  Lemma binv_top_fun t idx st ls : binv t -> top_function_flow t = Some (idx, st, ls) ->
    length (dict b) <= idx /\ length (code b) <= st.
  Proof.
    intros H E. unfold top_function_flow in E.
    exact (find_fun_Forall (flow_ok b) _ _ _ _ E (binv_pending b m t H)).
  Qed.

  Lemma bp_i_immediate : bp (i_immediate).
  Proof.
    unfold i_immediate. apply bp_get_bind. intros s0 Hs.
    destruct (top_function_flow s0) as [[[idx st] ls]|] eqn:E; [|bp_solve].
    destruct (binv_top_fun _ _ _ _ Hs E) as [Hi _].
    destruct (nth_error (dict s0) idx) as [e|]; [|bp_solve].
    destruct (dent e); try (bp_solve; fail).
    apply bp_put, bp_set_dict; [exact Hs|].
    apply prefix_list_set; [exact (bi_dict b _ (proj2 Hs))|exact Hi].
  Qed.

  Lemma bp_build_local_variable name : bp (build_local_variable name).
  Proof.
    unfold build_local_variable. apply bp_get_bind. intros s0 Hs.
    destruct (top_function_flow s0) as [[[idx st] ls]|] eqn:E; [|bp_solve].
    cbv zeta. apply bp_bind; [|intros _; bp_solve].
    apply bp_put. apply binv_set_pending; [exact Hs|].
    apply set_fun_locals_Forall; [|apply (binv_pending b m); exact Hs].
    intros d st0 l0 X. exact X.
  Qed.

  Lemma bp_build_global_variable name : bp (build_global_variable name).
  Proof. bp_solve. Qed.

  Lemma bp_i_nested_end : bp (i_nested_end fo rf).
  Proof.
    apply bp_meta_get. intros s0.
    destruct (has_pending_flow s0); [apply bpmb_of_bp, bp_fail|apply close_meta_inv].
  Qed.

  Lemma bp_i_nested_inject : bp (i_nested_inject fo rf).
  Proof.
    apply bp_meta_get. intros s0. destruct (has_pending_flow s0); [apply bpmb_of_bp, bp_fail|].
    apply bpmb_bind; [apply (bpm_wl b m Hm); wl_solve|intros v].
    apply bpmb_bind; [apply (bpm_wl b m Hm); unfold join_str_vec; wl_solve|intros txt].
    apply bpmb_bind_bp; [apply close_meta_inv|intros _; apply bp_intern_source].
  Qed.

  (* [const] naming a constant that existed before the source was submitted *)
  Definition const_clobbers (dl : nat) (s : state) : bool :=
    match next_name pr s with
    | ROk n s' => match dict_pos s' n with Some pos => (pos <? dl)%nat | None => false end
    | _ => false
    end.

  Lemma i_const_inv t : binv t -> const_clobbers (length (dict b)) t = false ->
    res_all binv (i_const pr t).
  Proof.
    intros H CC. unfold i_const. unfold bind at 1. unfold const_clobbers in CC.
    pose proof (bp_next_name t H) as H1.
    destruct (next_name pr t) as [n t1|k p t1| |]; cbn [res_all] in *; auto.
    unfold bind at 1. unfold get.
    destruct (mode_eqb (cmode (cx t1)) MMeta) eqn:E; cbn [negb]; [|exact H1].
    apply mode_eqb_meta in E. unfold bind at 1.
    pose proof (wl_frame _ _ wl_pop_data t1) as FR.
    destruct (pop_data t1) as [v t2|k p t2| |]; cbn [res_all] in *; try exact I;
      [|exact (proj1 (binv_frame b m Hm _ _ H1 E FR))].
    pose proof (proj1 (binv_frame b m Hm _ _ H1 E FR)) as H2.
    unfold bind at 1. unfold get. unfold dict_pos in *. rewrite (fr_dict _ _ FR).
    destruct (dict_rpos (dict t1) n 0 None) as [pos|].
    - destruct (nth_error (dict t1) pos) as [e|]; [|exact H2].
      destruct (dent e); try exact H2.
      apply bp_set_dict; [exact H2|].
      rewrite <- (fr_dict _ _ FR). apply prefix_list_set; [exact (bi_dict b _ (proj2 H2))|].
      apply Nat.ltb_ge. exact CC.
    - assert (X : bp (let* _ := dict_insert n (DConst v) in ret tt)) by bp_solve.
      apply X. exact H2.
  Qed.

  Lemma bp_loop_loop : forall fuel lo st, length (code b) <= lo -> bp (loop_loop fuel lo st).
  Proof. induction fuel as [|f IH]; intros lo st Hlo; cbn [loop_loop]; bp_solve. Qed.

  Lemma bp_build_let_named w : bp (build_let_named w).
  Proof. pose proof bp_build_local_variable. pose proof bp_build_global_variable. bp_solve. Qed.
  Lemma bp_build_let_in f : bp (build_let_in pr f).
  Proof.
    exact (build_let_in_closed pr (@UnwindInv.bp b m) (bp_ret b m) (bp_fail b m) (bp_unsup b m) (bp_bind b m)
             bp_get_token (bp_code_emit b m) bp_build_let_named f).
  Qed.

  (* the field words act on the enum entry on top of the flow stack and, for `=`, on the data
     stack of the context the closed inner block returns to: harmless when that entry is
     pending in a meta context (it is whenever the enum was opened by the same source) *)
  Definition enum_field_bad (t : state) : bool :=
    match i_nested_end fo rf t with
    | ROk _ t1 => negb (has_pending_flow t1 && mode_eqb (cmode (cx t1)) MMeta)
    | _ => false
    end.

  (* `endenum` first closes the block it is in and then looks at the data stack of the context
     it returned to.  When that is not a meta context (an `endenum` without `enum`, inside a
     meta block) its data-stack mark, hence the outcome of the check, depends on the drive mode
     (finding E3): the watch reports it.  (The second close of `endenum` may run code that the
     enum's outer context still holds; a failure of that run puts the popped context back
     (the repair of D37), so the watch does not have to report that situation.) *)
  Definition enum_close_bad (t : state) : bool :=
    match i_nested_end fo rf t with
    | ROk _ t1 => negb (mode_eqb (cmode (cx t1)) MMeta)
    | _ => false
    end.

  Lemma pending_reads t t' : reads_only t t' -> has_pending_flow t' = has_pending_flow t.
  Proof. intros (inp & lt & ->). reflexivity. Qed.

  Lemma pending_frame t t' : frame_rel t t' -> has_pending_flow t' = has_pending_flow t.
  Proof. intros FR. unfold has_pending_flow. rewrite (fr_flows _ _ FR), (fr_cx _ _ FR). reflexivity. Qed.

  (* a pending flow entry lies above the flow stack of [b] *)
  Lemma enum_add_field_inv nm val t : binv t -> has_pending_flow t = true ->
    res_all binv (enum_add_field nm val t).
  Proof.
    intros [C B] P. unfold enum_add_field. unfold bind at 1. unfold get.
    destruct (bi_flows b t B) as [new [E F]]. pose proof (chain_above b m t C) as (_ & _ & Hfs & _).
    unfold has_pending_flow in P. apply Nat.ltb_lt in P. rewrite E, app_length in P.
    destruct new as [|f new']; [cbn [length] in P; lia|]. rewrite E. cbn [app].
    destruct f; try (split; assumption). destruct (val fields) as [v|]; [|split; assumption].
    cbv zeta. unfold bind at 1. unfold put.
    assert (X : bp (let* _ := dict_insert nm (DConst (CInt v)) in i_nested_begin))
      by (unfold i_nested_begin; bp_solve).
    apply X. split; [exact C|].
    apply (binv0_set_flows b t (FEnum name (fields ++ [(nm, v)]) :: new') B).
    inversion F; subst. constructor; [exact I|assumption].
  Qed.

  (* closing the field's block leaves the enum entry pending in a meta context: a name, and
     for `=` a value from the data stack, are read there *)
  Lemma enum_name_field_inv val t : binv t -> has_pending_flow t = true ->
    res_all binv ((let* nm := next_name pr in enum_add_field nm val) t).
  Proof.
    intros H P. unfold bind. pose proof (bp_next_name t H) as Y. pose proof (next_name_reads pr t) as K.
    destruct (next_name pr t) as [nm t2|k p t2| |]; cbn [res_all] in *; auto.
    apply enum_add_field_inv; [exact Y|]. rewrite (pending_reads _ _ K). exact P.
  Qed.

  Lemma i_enum_field_inv t : binv t -> enum_field_bad t = false ->
    res_all binv (i_enum_field fo pr rf t).
  Proof.
    intros H EB. unfold i_enum_field. unfold bind at 1. unfold enum_field_bad in EB.
    pose proof (bp_i_nested_end t H) as X.
    destruct (i_nested_end fo rf t) as [u t1|k p t1| |]; cbn [res_all] in *; auto.
    apply negb_false_iff, andb_true_iff in EB. apply enum_name_field_inv; [exact X|apply EB].
  Qed.

  Lemma i_enum_field_set_inv t : binv t -> enum_field_bad t = false ->
    res_all binv (i_enum_field_set fo pr rf t).
  Proof.
    intros H EB. unfold i_enum_field_set. unfold bind at 1. unfold enum_field_bad in EB.
    pose proof (bp_i_nested_end t H) as X.
    destruct (i_nested_end fo rf t) as [u t1|k p t1| |]; cbn [res_all] in *; auto.
    apply negb_false_iff, andb_true_iff in EB. destruct EB as [P1 E]. apply mode_eqb_meta in E.
    unfold bind at 1. pose proof (wl_frame _ _ wl_pop_data t1) as FR.
    destruct (pop_data t1) as [c t2|k p t2| |]; cbn [res_all] in *; try exact I;
      [|exact (proj1 (binv_frame b m Hm _ _ X E FR))].
    pose proof (proj1 (binv_frame b m Hm _ _ X E FR)) as H2.
    unfold bind at 1. unfold m_xint. destruct (value c); try exact H2.
    apply enum_name_field_inv; [exact H2|]. rewrite (pending_frame _ _ FR). exact P1.
  Qed.

  (* the situations in which a native immediate word does not keep the invariant *)
  Definition native_bad (dl : nat) (name : string) (t : state) : bool :=
    (String.eqb name "const" && const_clobbers dl t) ||
    (String.eqb name "endenum" && enum_close_bad t) ||
    ((String.eqb name "%enum-field" || String.eqb name "%enum-field-set") && enum_field_bad t).

  Definition bp_word (name : string) (w : M unit) : Prop :=
    forall t, binv t -> native_bad (length (dict b)) name t = false -> res_all binv (w t).

  Lemma bp_word_of name w : bp w -> bp_word name w.
  Proof. intros H t Ht _. apply H. exact Ht. Qed.

  Lemma bp_immediate_fn fuel name w : immediate_fn fo pr rf fuel name = Some w -> bp_word name w.
  Proof.
    intros H. unfold immediate_fn in H. cbv zeta in H.
    apply (table_find_row bp_word _ _ _) in H; [exact H|].
    pose proof (bp_build_let_in fuel). pose proof bp_endcase_loop. pose proof bp_repeat_loop.
    pose proof bp_loop_loop. pose proof bp_i_def_end. pose proof bp_i_immediate.
    pose proof bp_build_local_variable. pose proof bp_i_nested_end. pose proof bp_i_nested_inject.
    repeat (apply Forall_cons;
            [ cbn [fst snd];
              first [ apply bp_word_of; solve [bp_solve]
                    | (intros t Ht C; apply i_const_inv; [assumption | exact (proj1 (orb_false_elim _ _ (proj1 (orb_false_elim _ _ C))))])
                    | (intros t Ht C; apply i_enum_field_inv; [assumption | exact (proj2 (orb_false_elim _ _ C))])
                    | (intros t Ht C; apply i_enum_field_set_inv; [assumption | exact (proj2 (orb_false_elim _ _ C))]) ]
            | ]).
    apply Forall_nil.
  Qed.
End Builder.
