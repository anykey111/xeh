(* NoPanicBuild.v (C08 f): the builder.  [code_emit] is the place where the Rust code
   indexes the debug map next to the code vector; it panics only when the debug map is
   SHORTER than the code.  [cd_inv] (the debug map covers the code) is preserved by
   emission, by backpatching, by running code, by the truncations of context_close and
   build_unwind, hence by whole eval / compile calls; from a state satisfying it
   code_emit never panics.

   Nothing in the argument is special to [<=]: it is carried out for any relation between
   the two lengths that emission and truncation keep ([len_rel_ok]), and DbgMapAlign.v
   takes the instance [=] from here. *)
From Xeh Require Import Model.Prelude Model.Bits Model.Codec Model.Cell Model.Lexer Model.Fmt
                        Model.Vm Model.Words Model.Build Model.Boot.
From Xeh Require Import Proofs.VmFrame Proofs.VmLimits Proofs.NoPanic Proofs.BuildUnwind
                        Proofs.BuildShape Proofs.DbgMapVm Proofs.DbgMapGen.
From Xeh Require Export Proofs.BuildLet.
Local Notation length := List.length.

Definition cd_inv (s : state) : Prop := length (code s) <= length (dbg s).

Theorem code_emit_panic_iff : forall op s,
  code_emit op s = RPanic <-> length (dbg s) < length (code s).
Proof.
  intros op s. rewrite code_emit_eq. destruct (length (code s) <=? length (dbg s))%nat eqn:E.
  - apply Nat.leb_le in E. split; [discriminate|lia].
  - apply Nat.leb_gt in E. split; [intros _; exact E|reflexivity].
Qed.

Theorem code_emit_no_panic : forall op s, cd_inv s -> code_emit op s <> RPanic.
Proof. intros op s H E. apply code_emit_panic_iff in E. unfold cd_inv in H. lia. Qed.

(* [R a b] is read with a the length of the code, b that of the debug map.  An emission
   appends to both, or to the code alone under a longer map; context_close and
   build_unwind cut both at a common mark. *)
Definition len_rel_ok (R : nat -> nat -> Prop) : Prop :=
  (forall a b, R a b -> a <= b) /\
  (forall a b, R a b -> R (S a) (Nat.max b (S a))) /\
  (forall a b n, R a b -> R (Nat.min n a) (Nat.min n b)).

Lemma len_rel_le : len_rel_ok le.
Proof. split; [auto|]. split; intros; lia. Qed.

Section LenRel.
  Variable R : nat -> nat -> Prop.
  Hypothesis HR : len_rel_ok R.

  Definition lenrel (s : state) : Prop := R (length (code s)) (length (dbg s)).

  Lemma lenrel_eq s s' :
    length (code s') = length (code s) -> length (dbg s') = length (dbg s) -> lenrel s -> lenrel s'.
  Proof. unfold lenrel. intros -> ->. auto. Qed.

  Lemma lenrel_vm s s' : vmrel s s' -> lenrel s -> lenrel s'.
  Proof.
    intros V. destruct (vmrel_keeps _ _ V) as (A1 & A2 & _).
    apply lenrel_eq; [exact A1|rewrite A2; reflexivity].
  Qed.

  Lemma lenrel_data s s' : same_data s s' -> lenrel s -> lenrel s'.
  Proof. intros (A1 & A2 & _). apply lenrel_eq; congruence. Qed.

  Lemma lenrel_bk s s' : bk s s' -> lenrel s -> lenrel s'.
  Proof. intros (A1 & A2 & _). apply lenrel_eq; congruence. Qed.

  Lemma code_emit_lenrel op s : lenrel s -> res_all lenrel (code_emit op s).
  Proof.
    intros H. rewrite code_emit_eq. destruct (length (code s) <=? length (dbg s))%nat eqn:E; [|exact I].
    apply Nat.leb_le in E. cbn [res_all]. unfold lenrel. cbn [set_code set_dbg code dbg].
    rewrite app_length, emit_dbg_length by exact E. cbn [length]. rewrite Nat.add_1_r.
    apply HR. exact H.
  Qed.

  Lemma lenrel_emit op s s' : code_emit op s = ROk tt s' -> lenrel s -> lenrel s'.
  Proof. intros E H. pose proof (code_emit_lenrel op s H) as X. rewrite E in X. exact X. Qed.

  Lemma lenrel_cut s n : lenrel s ->
    lenrel (set_dbg (set_code s (firstn n (code s))) (firstn n (dbg s))).
  Proof.
    unfold lenrel. cbn [set_code set_dbg code dbg]. rewrite !firstn_length. apply HR.
  Qed.

  Theorem lenrel_build_unwind : forall depth inputs dsl heapl s,
    lenrel s -> lenrel (build_unwind depth inputs dsl heapl s).
  Proof.
    intros depth inputs dsl heapl s Hs.
    destruct (build_unwind_shape depth inputs dsl heapl s) as (c & c' & n' & ->).
    unfold lenrel in *. cbn [set_nested set_cx unwind_cut code dbg set_input]. rewrite !firstn_length.
    apply HR. exact Hs.
  Qed.

  Section Builder.
    Variable fo : fops.
    Variable pr : string -> option Z.
    Variable rf : nat.

    Theorem lenrel_close : forall s, lenrel s -> res_all lenrel (context_close fo rf s).
    Proof.
      intros s Hs. apply (close_data lenrel (fun _ => True)); auto.
      - exact lenrel_vm.
      - exact lenrel_data.
      - exact lenrel_emit.
      - intros s1 n _. apply lenrel_cut.
    Qed.

    Lemma lenrel_res_bk {A} (m : M A) : (forall s, res_all (bk s) (m s)) -> gp lenrel lenrel m.
    Proof. apply (gp_bk lenrel lenrel lenrel (fun _ h => h) (fun _ h => h)). exact lenrel_bk. Qed.

    Lemma lenrel_walk : walk_keeps fo pr rf lenrel lenrel lenrel.
    Proof.
      exact (gp_walk fo pr rf lenrel lenrel lenrel (fun _ h => h) (fun _ h => h) lenrel_vm lenrel_vm
               code_emit_lenrel (lenrel_res_bk _ (get_token_bk pr))
               (gq_tok0_same _ _ _ (lenrel_res_bk _ (get_token_bk pr)))
               (lenrel_res_bk _ (next_name_bk pr))
               (fun s Hs => Hs) (fun s Hs => lenrel_close s (proj1 Hs)) (fun t s Hs => Hs)).
    Qed.

    Theorem lenrel_build_from_source : forall fuel src m s,
      lenrel s -> res_all lenrel (build_from_source fo pr rf fuel src m s).
    Proof.
      intros fuel src m s Hs. unfold build_from_source, bind, context_open, intern_source.
      cbv beta iota zeta.
      match goal with |- context [build1 fo pr rf fuel ?d ?s1] =>
        pose proof (proj2 (proj2 lenrel_walk) fuel d s1 Hs) as H2;
        destruct (build1 fo pr rf fuel d s1) as [u2 s2|k p s2| |]; try exact I
      end.
      - apply lenrel_close. exact H2.
      - apply lenrel_build_unwind. exact H2.
    Qed.
  End Builder.

End LenRel.

Lemma code_emit_cd : forall op s, cd_inv s -> res_all cd_inv (code_emit op s).
Proof. exact (code_emit_lenrel le len_rel_le). Qed.

Lemma trunc_cd : forall s n, cd_inv s ->
  cd_inv (set_dbg (set_code s (firstn n (code s))) (firstn n (dbg s))).
Proof. exact (lenrel_cut le len_rel_le). Qed.

Lemma set_cx_cd : forall s c, cd_inv s -> cd_inv (set_cx s c).
Proof. intros s c H. exact H. Qed.

Definition P_dbg {A} (m : M A) : Prop := forall s, res_all (fun s' => dbg s' = dbg s) (m s).

Lemma wl_dbg : forall A (m : M A), wl m -> P_dbg m.
Proof.
  intros A m H s. eapply res_all_impl; [|exact (wl_frm A m H s)]. intros s' F. exact (proj1 (proj2 F)).
Qed.

Definition cdp {A} (m : M A) : Prop := forall s, cd_inv s -> res_all cd_inv (m s).

Lemma cdp_code_emit op : cdp (code_emit op).
Proof. exact (code_emit_cd op). Qed.

Lemma cdp_backpatch pos op : cdp (backpatch pos op).
Proof.
  intros s Hs. unfold backpatch. destruct (pos <? length (code s))%nat; [|exact I].
  exact (lenrel_vm le _ _ (vmrel_patch s pos op) Hs).
Qed.

Lemma cdp_backpatch_jump pos offs : cdp (backpatch_jump pos offs).
Proof.
  intros s Hs. unfold backpatch_jump.
  destruct (nth_error (code s) pos) as [op|]; [|exact Hs].
  destruct op; try exact I; apply cdp_backpatch; exact Hs.
Qed.

Lemma cdp_intern_source buf : cdp (intern_source buf).
Proof. intros s Hs. exact Hs. Qed.

Lemma cdp_get_token pr : cdp (get_token pr).
Proof. exact (lenrel_res_bk le _ (get_token_bk pr)). Qed.

Lemma cdp_next_name pr : cdp (next_name pr).
Proof. exact (lenrel_res_bk le _ (next_name_bk pr)). Qed.

Lemma cdp_endcase_loop : forall fuel org, cdp (endcase_loop fuel org).
Proof.
  intros fuel org.
  exact (gp_endcase_loop cd_inv cd_inv cd_inv (fun _ h => h) (fun _ h => h) (lenrel_vm le) fuel org).
Qed.

Lemma cdp_repeat_loop : forall fuel, cdp (repeat_loop fuel).
Proof.
  intros fuel.
  exact (gp_repeat_loop cd_inv cd_inv cd_inv (fun _ h => h) (fun _ h => h) (lenrel_vm le) code_emit_cd fuel).
Qed.

Lemma cdp_loop_loop : forall fuel a b, cdp (loop_loop fuel a b).
Proof.
  intros fuel a b.
  exact (gp_loop_loop cd_inv cd_inv cd_inv (fun _ h => h) (fun _ h => h) (lenrel_vm le) fuel a b).
Qed.

Lemma res_state_all {A} (P : state -> Prop) (r : res A) s' :
  res_all P r -> res_state r = Some s' -> P s'.
Proof. destruct r; cbn [res_all res_state]; intros H E; try discriminate; injection E as <-; exact H. Qed.

Section Api.
  Variable fo : fops.
  Variable pr : string -> option Z.

  (* the states an embedding program can reach through the API: eval, compile, next, run,
     rnext, setting limits, switching recording on / off.  Stated as "every property that
     holds of boot and is kept by every API call holds of s" (no inductive type, so that
     Props/C08.v can repeat the definition). *)
  Definition api_reach (s : state) : Prop :=
    forall P : state -> Prop,
      P boot ->
      (forall s rf bf src s', P s -> res_state (eval fo pr rf bf src s) = Some s' -> P s') ->
      (forall s rf bf src s', P s -> res_state (compile fo pr rf bf src s) = Some s' -> P s') ->
      (forall s s', P s -> res_state (next (native_fn fo) s) = Some s' -> P s') ->
      (forall s fuel r s', P s -> run (native_fn fo) fuel s = Some r -> res_state r = Some s' -> P s') ->
      (forall s s', P s -> res_state (rnext s) = Some s' -> P s') ->
      (forall s i h k, P s -> P (set_limits s i h k)) ->
      (forall s l, P s -> P (set_rlog s l)) ->
      P s.

  Lemma api_reach_closed (Inv : state -> Prop) :
    Inv boot ->
    (forall rf bf src s, Inv s -> res_all Inv (eval fo pr rf bf src s)) ->
    (forall rf bf src s, Inv s -> res_all Inv (compile fo pr rf bf src s)) ->
    (forall s, Inv s -> res_all Inv (next (native_fn fo) s)) ->
    (forall fuel s, Inv s -> match run (native_fn fo) fuel s with Some r => res_all Inv r | None => True end) ->
    (forall s, Inv s -> res_all Inv (rnext s)) ->
    (forall s i h k, Inv s -> Inv (set_limits s i h k)) ->
    (forall s l, Inv s -> Inv (set_rlog s l)) ->
    forall s, api_reach s -> Inv s.
  Proof.
    intros H0 He Hc Hn Hr Hb Hl Hg s H. apply H; clear s H.
    - exact H0.
    - intros s rf bf src s' IH E. exact (res_state_all _ _ _ (He rf bf src s IH) E).
    - intros s rf bf src s' IH E. exact (res_state_all _ _ _ (Hc rf bf src s IH) E).
    - intros s s' IH E. exact (res_state_all _ _ _ (Hn s IH) E).
    - intros s fuel r s' IH E1 E2. pose proof (Hr fuel s IH) as H. rewrite E1 in H.
      exact (res_state_all _ _ _ H E2).
    - intros s s' IH E. exact (res_state_all _ _ _ (Hb s IH) E).
    - exact Hl.
    - exact Hg.
  Qed.

  Lemma api_reach_inv (Inv : state -> Prop) :
    Inv boot ->
    (forall s s', vmrel s s' -> Inv s -> Inv s') ->
    (forall rf bf src s, Inv s -> res_all Inv (eval fo pr rf bf src s)) ->
    (forall rf bf src s, Inv s -> res_all Inv (compile fo pr rf bf src s)) ->
    forall s, api_reach s -> Inv s.
  Proof.
    intros H0 Hv He Hc.
    assert (X : forall s, Inv s -> forall s', vmrel s s' -> Inv s') by (intros s Hs s' V; exact (Hv _ _ V Hs)).
    apply api_reach_closed; try assumption.
    - intros s Hs. exact (proj1 (proj2 (machine_vmrel Inv fo s (X s Hs)))).
    - intros fuel s Hs. exact (proj1 (proj2 (proj2 (machine_vmrel Inv fo s (X s Hs)))) fuel).
    - intros s Hs. exact (proj2 (proj2 (proj2 (machine_vmrel Inv fo s (X s Hs))))).
    - intros s i h k. apply Hv. apply vmrel_frm. repeat split.
    - intros s l. apply Hv. apply vmrel_frm. repeat split.
  Qed.

  Theorem api_lenrel R : len_rel_ok R -> R 0 0 -> forall s, api_reach s -> lenrel R s.
  Proof.
    intros HR H0. apply api_reach_inv.
    - exact H0.
    - exact (lenrel_vm R).
    - intros rf bf src. exact (lenrel_build_from_source R HR fo pr rf bf src MEval).
    - intros rf bf src. exact (lenrel_build_from_source R HR fo pr rf bf src MCompile).
  Qed.

  (* the definition is not vacuous: boot is reachable (Props/C08.v), and so is what an eval
     leaves *)
  Lemma api_reach_eval : forall s rf bf src s', api_reach s ->
    res_state (eval fo pr rf bf src s) = Some s' -> api_reach s'.
  Proof.
    intros s rf bf src s' H E P H0 H1 H2 H3 H4 H5 H6 H7.
    eapply H1; [|exact E]. apply H; assumption.
  Qed.

End Api.
