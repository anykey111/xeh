(* UnwindIrr.v (C10 / C15): a stronger version [wx] of the syntactic class [wl] of VmFrame.v.
   A [wx] program reads the machine state only through the fields that matter for execution:
   the side condition of [wx_get_bind] says that the continuation is unchanged (by
   conversion) when the debug map, the sources, the input, the nested contexts, the meter,
   the reverse log, the captured output, the last-token record, the stop flag and the marks
   cs_len / fs_len / di_len of the current context are replaced by anything.  Every native
   word and every instruction is such a program (same proof as for [wl]). *)
From Xeh Require Import Model.Prelude Model.Bits Model.Codec Model.Cell Model.Lexer Model.Fmt
                        Model.Vm Model.Words Proofs.WordProg Proofs.VmFrame.
Local Notation length := List.length.

(* replace everything that execution does not read *)
Definition irr (s0 : state) (dg : list tokref) (so : list string) (inp : list inlex) (nes : list ctx)
               (me : Z) (rl : option (list rstep)) (ou : string) (lt : option tokref) (sg : bool)
               (cs fs di : nat) : state :=
  mkstate (dict s0) (heap s0) (code s0) dg so inp (ds s0) (rs s0) (flows s0) (loops s0) (special s0)
          (mkctx (ds_len (cx s0)) cs (rs_len (cx s0)) fs (ls_len (cx s0)) (ss_ptr (cx s0)) di
                 (cip (cx s0)) (cmode (cx s0)))
          nes me (insn_limit s0) (heap_limit s0) (stack_limit s0) rl ou lt sg.

Inductive wx : forall {A : Type}, M A -> Prop :=
| wx_ret : forall A (a : A), wx (ret a)
| wx_fail : forall A k p, wx (@fail A k p)
| wx_unsup : forall A, wx (@unsup A)
| wx_panic : forall A, wx (@panic A)
| wx_bind : forall A B (m : M A) (f : A -> M B), wx m -> (forall a, wx (f a)) -> wx (bind m f)
  (* reading the state: the continuation may use the dictionary, the heap, the code, the
     stacks, the limits and the marks ds_len / rs_len / ls_len / ss_ptr / ip / mode of the
     current context - nothing else *)
| wx_get_bind : forall B (k : state -> M B),
    (forall s0, wx (k s0)) ->
    (forall s0 dg so inp nes me rl ou lt sg cs fs di s,
        k (irr s0 dg so inp nes me rl ou lt sg cs fs di) s = k s0 s) ->
    wx (bind get k)
| wx_set_stopping : forall b, wx (modify (fun s => set_stopping s b))
| wx_push_data : forall c, wx (push_data c)
| wx_pop_data : wx pop_data
| wx_top_data : wx top_data
| wx_swap_data : wx swap_data
| wx_rot_data : wx rot_data
| wx_over_data : wx over_data
| wx_push_return : forall f, wx (push_return f)
| wx_pop_return : wx pop_return
| wx_top_frame : wx top_frame
| wx_push_loop : forall l, wx (push_loop l)
| wx_pop_loop : wx pop_loop
| wx_loop_next : wx loop_next
| wx_loop_set_items : forall c, wx (loop_set_items c)
| wx_push_special : forall p, wx (push_special p)
| wx_pop_special : wx pop_special
| wx_get_var : forall a, wx (get_var a)
| wx_set_var : forall a v, wx (set_var a v)
| wx_init_local : forall i v, wx (init_local i v)
| wx_set_ip : forall n, wx (set_ip n)
| wx_next_ip : wx next_ip
| wx_print : forall msg, wx (print msg).

Ltac wx_prim :=
  lazymatch goal with
  | |- wx (ret _) => apply wx_ret
  | |- wx (fail _ _) => apply wx_fail
  | |- wx unsup => apply wx_unsup
  | |- wx panic => apply wx_panic
  | |- wx (modify (fun s => set_stopping s _)) => apply wx_set_stopping
  | |- wx (push_data _) => apply wx_push_data
  | |- wx pop_data => apply wx_pop_data
  | |- wx top_data => apply wx_top_data
  | |- wx swap_data => apply wx_swap_data
  | |- wx rot_data => apply wx_rot_data
  | |- wx over_data => apply wx_over_data
  | |- wx (push_return _) => apply wx_push_return
  | |- wx pop_return => apply wx_pop_return
  | |- wx top_frame => apply wx_top_frame
  | |- wx (push_loop _) => apply wx_push_loop
  | |- wx pop_loop => apply wx_pop_loop
  | |- wx loop_next => apply wx_loop_next
  | |- wx (loop_set_items _) => apply wx_loop_set_items
  | |- wx (push_special _) => apply wx_push_special
  | |- wx pop_special => apply wx_pop_special
  | |- wx (get_var _) => apply wx_get_var
  | |- wx (set_var _ _) => apply wx_set_var
  | |- wx (init_local _ _) => apply wx_init_local
  | |- wx (set_ip _) => apply wx_set_ip
  | |- wx next_ip => apply wx_next_ip
  | |- wx (print _) => apply wx_print
  end.

Create HintDb wxdb.

Ltac wx_step :=
  cbv beta zeta;
  first
    [ wx_prim
    | solve [ auto 2 with wxdb nocore ]
    | lazymatch goal with
      | |- wx (bind get _) => apply wx_get_bind; [ intro | intros; reflexivity ]
      | |- wx (bind _ _) => apply wx_bind; [ | intro ]
      | |- wx (match ?x with _ => _ end) => destruct x
      | |- wx ?m => let h := head_of m in unfold h
      end ].

Ltac wx_solve := repeat wx_step.

Lemma wx_pop_n : forall n, wx (pop_n n).
Proof. induction n; cbn [pop_n]; wx_solve. Qed.
#[export] Hint Resolve wx_pop_n : wxdb.

Lemma wx_push_all : forall l, wx (push_all l).
Proof. induction l; cbn [push_all]; wx_solve. Qed.
#[export] Hint Resolve wx_push_all : wxdb.

Lemma wprog_wx c A (m : M A) : wprog c m -> wx m.
Proof.
  induction 1; try (constructor; auto; fail).
  apply wx_get_bind; [assumption|]. intros.
  rewrite (view_determines _ k H1 (irr s0 dg so inp nes me rl ou lt sg cs fs di) s0 eq_refl). reflexivity.
Qed.

Theorem native_wx : forall fo w f, native_fn fo w = Some f -> wx f.
Proof. intros fo w f H. exact (wprog_wx _ _ _ (native_wprog fo w f H)). Qed.

Lemma wx_exec_op : forall (nf : natives),
  (forall w f, nf w = Some f -> wx f) ->
  forall ip0 op, wx (exec_op nf ip0 op).
Proof.
  intros nf Hnf ip0 op. destruct op; cbn [exec_op];
    try (wx_solve; fail).
  destruct (nf w) eqn:E; wx_solve. eapply Hnf; eauto.
Qed.

(* one step of the machine, written with the combinators the walks know *)
Lemma fetch_and_run_eq nf s :
  fetch_and_run nf s =
  (let* s0 := get in
   meter_increase ;;
   let* s1 := get in
   match nth_error (code s1) (ip s0) with
   | None => panic
   | Some (OResolve name) =>
     match dict_entry s1 name with
     | None => fail EUnknown None
     | Some e =>
       (* the patched instruction is fetched again (and metered again) *)
       modify (fun s2 => set_code s2 (list_set (code s1) (ip s0) (resolve_op e))) ;;
       meter_increase ;;
       exec_op nf (ip s0) (resolve_op e)
     end
   | Some op => exec_op nf (ip s0) op
   end) s.
Proof.
  unfold fetch_and_run, bind, get, modify. destruct (meter_increase s) as [u s1| | |]; try reflexivity.
  destruct (nth_error (code s1) (ip s)) as [op|]; [|reflexivity]. destruct op; try reflexivity.
  destruct (dict_entry s1 name); [|reflexivity]. destruct (meter_increase _); reflexivity.
Qed.
