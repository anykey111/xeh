(* CompileProg.v: the simulation for blocks and statements, and for whole programs ([lay_top] /
   [layout_program]: definitions inline behind a jump), in terms of [okq]; its untraced
   consequences [agrees], and what [run] returns. *)
From Xeh Require Import Model.Prelude Model.Bits Model.Codec Model.Cell Model.Lexer Model.Fmt
                        Model.Vm Model.Words Model.Struct
                        Proofs.VmFrame Proofs.VmDrive Proofs.StructBase Proofs.CompileSim Proofs.CompileLayout Proofs.CompileStep
                        Proofs.CompileEval Proofs.CompileBwdStep Proofs.CompileFwd Proofs.CompileFwd2.
Local Notation length := List.length.

#[local] Arguments Z.add : simpl never.
#[local] Arguments Z.sub : simpl never.
#[local] Arguments Z.mul : simpl never.
#[local] Arguments Z.ltb : simpl never.
#[local] Arguments Z.leb : simpl never.
#[local] Arguments Z.eqb : simpl never.
#[local] Arguments Z.of_nat : simpl never.
#[local] Arguments Z.to_nat : simpl never.

Definition agrees (nf : natives) (s : state) (endp : nat) (bc : brk_ctx) (r : sres) : Prop :=
  match r with
  | SDone t' =>
    exists n s', steps nf n s = Some s' /\ ip s' = endp /\ sim t' s' /\
                 code s' = code s /\ rlog s' = None /\ insn_limit s' = None /\ rskeys s' = rskeys s
  | SBroke t' =>
    exists n s', steps nf n s = Some s' /\
                 nth_error (code s) (ip s') = Some (brk_op (ip s') bc) /\ bc <> BNone /\ sim t' s' /\
                 code s' = code s /\ rlog s' = None /\ insn_limit s' = None /\ rskeys s' = rskeys s
  | SFail k pl _ t' =>
    exists n sN s', steps nf n s = Some sN /\ insn_limit sN = None /\
                    fetch_and_run nf sN = RErr k pl s' /\ sim t' s'
  | SOut => True
  | SUnsup => True
  end.

Lemma okq_agrees : forall nf W U R s endp bc B r,
  okq nf (code s) W U R s endp bc B r -> agrees nf s endp bc r.
Proof.
  intros nf W U R s endp bc B r H. destruct r as [t'|t'|k pl p t'| |]; cbn [okq agrees] in *; auto.
  - destruct H as (s' & (n & Hn & _) & [M1 M2 M3] & I & Hs & K). exists n, s'. repeat (split; [assumption|]). assumption.
  - destruct H as (s' & (n & Hn & _) & _ & [M1 M2 M3] & Bk & Hne & Hs & K). exists n, s'.
    repeat (split; [assumption|]). assumption.
  - destruct H as (sN & s' & (n & Hn & _) & _ & [M1 M2 M3] & F & Hs). exists n, sN, s'. auto.
Qed.

Section Final.
  Variable fo : fops.
  Variable funs : list (nat * list stmt).
  Notation nf := (native_fn fo).

  Notation Wc := (call_weight funs).

  Lemma block_okq : forall U faddr fuel b org bc t s,
    funs_placed funs faddr (code s) -> funs_callee U funs -> wf_b b -> cg_b (callee U funs) b -> brk_ok bc b ->
    firstn (size_block b) (skipn org (code s)) = lay_block faddr b org bc ->
    rlog s = None -> insn_limit s = None -> ip s = org -> sim t s ->
    okq nf (code s) Wc U (inreg (rskeys s) org (org + size_block b)) s (org + size_block b) bc
        (fuel - wt_block b) (sblock fo funs fuel b t).
  Proof.
    intros U faddr fuel b org bc t s P Cf Wf Cl B C Hl Hi Hip Hs.
    apply (proj1 (fwdq_all fo funs faddr (code s) Wc U P Cf (call_weight_pos funs) (call_weight_ge funs) fuel));
      try assumption.
    - apply code_at_slice. rewrite lay_block_length. exact C.
    - split; auto.
  Qed.

  Lemma stmt_okq : forall U faddr fuel x org bc t s,
    funs_placed funs faddr (code s) -> funs_callee U funs -> wf_s x -> cg_s (callee U funs) x -> brk_ok_s bc x ->
    firstn (size_stmt x) (skipn org (code s)) = lay_stmt faddr x org bc ->
    rlog s = None -> insn_limit s = None -> ip s = org -> sim t s ->
    okq nf (code s) Wc U (inreg (rskeys s) org (org + size_stmt x)) s (org + size_stmt x) bc
        (fuel - wt_stmt x) (sstmt fo funs fuel x t).
  Proof.
    intros U faddr fuel x org bc t s P Cf Wf Cl B C Hl Hi Hip Hs.
    apply (proj2 (fwdq_all fo funs faddr (code s) Wc U P Cf (call_weight_pos funs) (call_weight_ge funs) fuel));
      try assumption.
    - apply code_at_slice. rewrite lay_stmt_length. exact C.
    - split; auto.
  Qed.

  Theorem fwd_block : forall faddr fuel b org bc t s,
    funs_placed funs faddr (code s) -> wf_b b -> brk_ok bc b ->
    firstn (size_block b) (skipn org (code s)) = lay_block faddr b org bc ->
    rlog s = None -> insn_limit s = None -> ip s = org -> sim t s ->
    agrees nf s (org + size_block b) bc (sblock fo funs fuel b t).
  Proof.
    intros. eapply okq_agrees. eapply (block_okq False); eauto using funs_callee_False, callee_False.
  Qed.

  Theorem fwd_stmt : forall faddr fuel x org bc t s,
    funs_placed funs faddr (code s) -> wf_s x -> brk_ok_s bc x ->
    firstn (size_stmt x) (skipn org (code s)) = lay_stmt faddr x org bc ->
    rlog s = None -> insn_limit s = None -> ip s = org -> sim t s ->
    agrees nf s (org + size_stmt x) bc (sstmt fo funs fuel x t).
  Proof.
    intros. eapply okq_agrees. eapply (stmt_okq False); eauto using funs_callee_False, callee_False_s.
  Qed.

  Fixpoint size_top (l : list stmt) : nat :=
    match l with
    | [] => 0
    | SDef g :: r => size_block (body_of funs g) + 2 + size_top r
    | x :: r => size_stmt x + size_top r
    end.

  Lemma lay_top_other : forall faddr x r org, (forall g, x <> SDef g) ->
    lay_top funs faddr (x :: r) org = lay_stmt faddr x org BNone ++ lay_top funs faddr r (org + size_stmt x).
  Proof. intros faddr x r org H. destruct x; try reflexivity. exfalso. eapply H. reflexivity. Qed.

  Lemma size_top_other : forall x r, (forall g, x <> SDef g) -> size_top (x :: r) = size_stmt x + size_top r.
  Proof. intros x r H. destruct x; try reflexivity. exfalso. eapply H. reflexivity. Qed.

  Lemma def_addrs_other : forall x r org, (forall g, x <> SDef g) ->
    def_addrs funs (x :: r) org = def_addrs funs r (org + size_stmt x).
  Proof. intros x r org H. destruct x; try reflexivity. exfalso. eapply H. reflexivity. Qed.

  Lemma is_def_dec : forall x, (exists g, x = SDef g) \/ (forall g, x <> SDef g).
  Proof. intro x. destruct x; try (right; intros; discriminate). left. eauto. Qed.

  Lemma lay_top_length : forall faddr l org, length (lay_top funs faddr l org) = size_top l.
  Proof.
    intros faddr. induction l as [|x r IH]; intro org; [reflexivity|].
    destruct (is_def_dec x) as [[g ->]|Hx].
    - cbn [lay_top size_top]. cbv zeta. rewrite app_length. cbn [length].
      rewrite lay_block_length, IH. lia.
    - rewrite lay_top_other, size_top_other by exact Hx. rewrite app_length, lay_stmt_length, IH. reflexivity.
  Qed.

  Lemma placed_in_top : forall faddr c l org g,
    code_at c org (lay_top funs faddr l org) -> In (SDef g) l ->
    let a := addr_lookup (def_addrs funs l org) g in
    code_at c a (lay_block faddr (body_of funs g) a BNone ++ [ORet]).
  Proof.
    intros faddr c. induction l as [|x r IH]; intros org g C Hin; [contradiction|].
    destruct (is_def_dec x) as [[g' ->]|Hx].
    - cbn [lay_top def_addrs addr_lookup] in *. cbv zeta in C.
      apply code_at_app in C. destruct C as [C0 C1]. cbn [length] in C1. rewrite lay_block_length in C1.
      apply code_at_cons in C0. destruct C0 as [_ C0].
      apply code_at_cons in C1. destruct C1 as [C1 C2].
      destruct (Nat.eqb_spec g' g) as [->|Hne].
      + apply code_at_app. split; [exact C0|]. rewrite lay_block_length. apply code_at_one.
        replace (S org + size_block (body_of funs g)) with (org + S (size_block (body_of funs g))) by lia. exact C1.
      + destruct Hin as [E|Hin]; [congruence|].
        apply IH; [|exact Hin].
        replace (S (org + S (size_block (body_of funs g')))) with (org + size_block (body_of funs g') + 2) in C2 by lia.
        exact C2.
    - destruct Hin as [E|Hin]; [exfalso; eapply Hx; eauto|].
      rewrite def_addrs_other by exact Hx. rewrite lay_top_other in C by exact Hx.
      apply code_at_app in C. destruct C as [_ C]. rewrite lay_stmt_length in C.
      apply IH; assumption.
  Qed.

  Definition prog_wf (l : list stmt) : Prop :=
    wf_b l /\ nb_b l /\
    Forall (fun gb => In (SDef (fst gb)) l /\ wf_b (snd gb) /\ nb_b (snd gb)) funs.

  Lemma fun_body_in : forall (fs : list (nat * list stmt)) g body,
    fun_body fs g = Some body -> In (g, body) fs.
  Proof.
    induction fs as [|[k b] r IH]; intros g body H; cbn [fun_body] in H; [discriminate|].
    destruct (Nat.eqb_spec k g) as [->|Hne].
    - injection H as <-. left. reflexivity.
    - right. apply IH. exact H.
  Qed.

  Lemma prog_placed : forall l org c,
    prog_wf l -> code_at c org (lay_top funs (addr_lookup (def_addrs funs l org)) l org) ->
    funs_placed funs (addr_lookup (def_addrs funs l org)) c.
  Proof.
    intros l org c (Wl & Nl & Hf) C g body Hg.
    pose proof (fun_body_in _ _ _ Hg) as Hin.
    rewrite Forall_forall in Hf. destruct (Hf _ Hin) as (Hd & Wb & Nb). cbn [fst snd] in *.
    split; [|split; assumption].
    pose proof (placed_in_top _ c l org g C Hd) as H. cbv zeta in H.
    unfold body_of in H. rewrite Hg in H. exact H.
  Qed.

  Lemma top_okq : forall U faddr c W,
    funs_placed funs faddr c -> funs_callee U funs -> 1 <= W ->
    (forall g body, fun_body funs g = Some body -> wt_block body <= W) ->
    forall l f org t s,
      wf_b l -> nb_b l -> cg_b (callee U funs) l -> code_at c org (lay_top funs faddr l org) ->
      mach c s -> ip s = org -> sim t s ->
      okq nf c W U (inreg (rskeys s) org (org + size_top l)) s (org + size_top l) BNone
          (f - wt_block l) (sblock fo funs f l t).
  Proof.
    intros U faddr c W P Cf HW HWb. induction l as [|x r IH]; intros f org t s Wf N Cl C M Hip Hs.
    - destruct f; [apply okq_out_small; lia|]. rewrite sblock_nil.
      apply okq_done_here; [assumption|assumption|cbn [size_top]; lia].
    - destruct f as [|f]; [apply okq_out_small; lia|]. rewrite sblock_cons.
      inversion Wf as [|x' r' Wx Wr]; subst x' r'. inversion N as [|x' r' Nx Nr]; subst x' r'.
      inversion Cl as [|x' r' Clx Clr]; subst x' r'.
      destruct (is_def_dec x) as [[g ->]|Hx].
      + destruct f as [|f]; [cbn [sstmt wt_block]; apply okq_out_small; lia|]. rewrite sstmt_SDef.
        cbn [lay_top size_top wt_block] in *. change (wt_stmt (SDef g)) with 1. cbv zeta in C.
        apply code_at_app in C. destruct C as [C0 C1]. cbn [length] in C1. rewrite lay_block_length in C1.
        apply code_at_cons in C0. destruct C0 as [C0 _].
        apply code_at_cons in C1. destruct C1 as [_ C2].
        rewrite <- Hip in C0.
        destruct (jump_to nf c s t _ M Hs C0) as (s1 & F & M1 & I1 & S1 & K1).
        eapply okq_step0; [reg_here|exact F|exact K1|]. rewrite jt_fwd in I1.
        eapply okq_sub; [apply (IH (S f) (org + size_block (body_of funs g) + 2) t s1); try assumption|reg_sub|lia|lia].
        * replace (S (org + S (size_block (body_of funs g)))) with (org + size_block (body_of funs g) + 2) in C2 by lia.
          exact C2.
        * lia.
      + rewrite lay_top_other in C by exact Hx. rewrite size_top_other by exact Hx. cbn [wt_block].
        apply code_at_app in C. destruct C as [Cx Cr]. rewrite lay_stmt_length in Cr.
        eapply okq_bind.
        * eapply okq_sub; [apply (proj2 (fwdq_all fo funs faddr c W U P Cf HW HWb f) x org BNone t s); try assumption; intro; assumption
                          |reg_sub|lia|reflexivity].
        * intros t1 s1 M1 I1 S1 K1.
          eapply okq_sub; [apply (IH f (org + size_stmt x) t1 s1); assumption|reg_sub|lia|lia].
        * intros t1 s1 HR1 M1 C1 Bn S1 _. apply okq_broke_here; assumption.
  Qed.

  Lemma program_okq : forall U l org prog fuel t s,
    layout_program funs l org = Some prog -> prog_wf l -> cg_b (callee U funs) l -> funs_callee U funs ->
    firstn (length prog) (skipn org (code s)) = prog ->
    rlog s = None -> insn_limit s = None -> ip s = org -> sim t s ->
    okq nf (code s) Wc U (inreg (rskeys s) org (org + length prog)) s (org + length prog) BNone
        (fuel - wt_block l) (sblock fo funs fuel l t).
  Proof.
    intros U l org prog fuel t s HL HW Cl Cf C Hl Hi Hip Hs.
    unfold layout_program in HL. destruct (well_placed funs l); [|discriminate]. injection HL as <-.
    apply code_at_slice in C. rewrite lay_top_length.
    eapply top_okq; try eassumption.
    - apply (prog_placed l org); assumption.
    - apply call_weight_pos.
    - apply call_weight_ge.
    - apply HW.
    - apply HW.
    - split; auto.
  Qed.

  Theorem fwd_program : forall l org prog fuel t s,
    layout_program funs l org = Some prog -> prog_wf l ->
    firstn (length prog) (skipn org (code s)) = prog ->
    rlog s = None -> insn_limit s = None -> ip s = org -> sim t s ->
    agrees nf s (org + length prog) BNone (sblock fo funs fuel l t).
  Proof.
    intros. eapply okq_agrees. eapply (program_okq False); eauto using funs_callee_False, callee_False.
  Qed.

  Lemma step_err_running : forall s k pl s',
    insn_limit s = None -> fetch_and_run nf s = RErr k pl s' -> is_running s = true.
  Proof.
    intros s k pl s' Hi H. unfold fetch_and_run, meter_increase in H. rewrite Hi in H.
    change (code (set_meter s (meter s + 1)%Z)) with (code s) in H.
    unfold is_running. apply Nat.ltb_lt. apply nth_error_Some.
    destruct (nth_error (code s) (ip s)); [discriminate|discriminate H].
  Qed.

  Lemma run_steps_err : forall n s sN k pl s' fuel,
    steps nf n s = Some sN -> is_running sN = true -> fetch_and_run nf sN = RErr k pl s' -> n < fuel ->
    run nf fuel s = Some (RErr k pl s').
  Proof.
    intros n s sN k pl s' fuel Hn Hr He Hlt.
    rewrite (run_is_stepping nf n s sN fuel Hn Hlt). rewrite Hr.
    destruct (fuel - n) as [|m] eqn:E; [lia|]. cbn [run]. rewrite Hr, He. reflexivity.
  Qed.

  (* the program is the tail of the code vector: the machine stops behind it *)
  Definition run_agrees (s : state) (r : sres) : Prop :=
    match r with
    | SDone t' =>
      exists N s', (forall k, N < k -> run nf k s = Some (ROk tt s')) /\ sim t' s'
    | SFail kd pl _ t' =>
      exists N s', (forall k, N < k -> run nf k s = Some (RErr kd pl s')) /\ sim t' s'
    | _ => True
    end.

  Theorem fwd_program_run : forall l org prog fuel t s,
    layout_program funs l org = Some prog -> prog_wf l ->
    skipn org (code s) = prog ->
    rlog s = None -> insn_limit s = None -> ip s = org -> sim t s ->
    run_agrees s (sblock fo funs fuel l t).
  Proof.
    intros l org prog fuel t s HL HW C Hl Hi Hip Hs.
    assert (C' : firstn (length prog) (skipn org (code s)) = prog) by (rewrite C; apply firstn_all).
    pose proof (fwd_program l org prog fuel t s HL HW C' Hl Hi Hip Hs) as H.
    destruct (sblock fo funs fuel l t) as [t'|t'|kd pl p t'| |]; cbn [agrees run_agrees] in *; auto.
    - destruct H as (n & s' & Hn & I' & S' & Cs & _).
      exists n, s'. split; [|exact S']. intros k Hk.
      rewrite (run_is_stepping nf n s s' k Hn Hk).
      assert (Hr : is_running s' = false).
      { unfold is_running. apply Nat.ltb_ge. rewrite Cs, I'. rewrite <- C. rewrite skipn_length. lia. }
      rewrite Hr. reflexivity.
    - destruct H as (n & sN & s' & Hn & HiN & F & S').
      exists n, s'. split; [|exact S']. intros k Hk.
      eapply run_steps_err; eauto. eapply step_err_running; eauto.
  Qed.
End Final.
