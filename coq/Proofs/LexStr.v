(* String literals at the level of the scanner lex_str: the escape table, one step of the scanner,
   what it returns for every text (loosely), and the reading of a written body (items). *)
From Xeh Require Import Model.Prelude Model.Cell Model.Lexer Model.Fmt.
From Xeh Require Import Proofs.LexLoc Proofs.LexBasic.
Local Open Scope string_scope.

(* the tokens from a lexer state on; [total] is the length of the whole text *)
Definition lex_from (rest : string) (pos total : nat) : list (tok * nat * nat) :=
  lex_all (S (String.length rest)) (mklex rest pos pos total).

Definition escape_value (c : ascii) : option ascii :=
  let n := byte_of c in
  if (n =? 92)%N then Some c                      (* backslash *)
  else if (n =? 34)%N then Some c                 (* quote *)
  else if (n =? 110)%N then Some (ascii_of_N 10)  (* n *)
  else if (n =? 114)%N then Some (ascii_of_N 13)  (* r *)
  else if (n =? 116)%N then Some (ascii_of_N 9)   (* t *)
  else None.

Lemma escape_ascii c v : escape_value c = Some v -> (byte_of c < 128)%N.
Proof.
  unfold escape_value. intros H.
  destruct (byte_of c =? 92)%N eqn:E1; [lia|]. destruct (byte_of c =? 34)%N eqn:E2; [lia|].
  destruct (byte_of c =? 110)%N eqn:E3; [lia|]. destruct (byte_of c =? 114)%N eqn:E4; [lia|].
  destruct (byte_of c =? 116)%N eqn:E5; [lia|discriminate].
Qed.

(* what the character after a backslash (whole, of any width) contributes *)
Definition esc_text (c2 : string) : option string :=
  match c2 with
  | String c "" => match escape_value c with Some v => Some (String v "") | None => None end
  | _ => None
  end.

Lemma esc_text_none c2 : (forall c, escape_value c <> None -> c2 <> String c "") -> esc_text c2 = None.
Proof.
  intros H. destruct c2 as [|c [|? ?]]; try reflexivity. cbn [esc_text].
  destruct (escape_value c) eqn:E; [|reflexivity]. exfalso. apply (H c); congruence.
Qed.

(* what the scanner does at the head of a text, and how many bytes that takes *)
Inductive str_step :=
| SCont (k : nat) (X : string)   (* X is appended to the value; the scan goes on *)
| SClose (k : nat)               (* a closing quote *)
| SUnterm (k : nat)              (* the text ends here, or after a last backslash *)
| SBadEsc (k : nat).             (* an unknown escape: the backslash and the character *)

Definition str_next (curly : bool) (s : string) : str_step :=
  match s with
  | "" => SUnterm 0
  | String c r =>
    if (byte_of c =? 92)%N then
      match take_char r with
      | None => SUnterm 1
      | Some (c2, _) =>
        match esc_text c2 with
        | Some X => SCont (S (String.length c2)) X
        | None => SBadEsc (S (String.length c2))
        end
      end
    else if (byte_of c =? 34)%N then SClose 1
    else if curly && starts_rdq s then SClose 3
    else SCont 1 (String c "")
  end.

Lemma take_char_advx r c2 r2 p : take_char r = Some (c2, r2) -> advx r p r2 (p + String.length c2).
Proof.
  destruct r as [|c r']; [discriminate|]. unfold take_char. intros H. injection H as <- <-.
  apply str_take_advx.
Qed.

Lemma take_char_ascii c r : (byte_of c < 128)%N -> take_char (String c r) = Some (String c "", r).
Proof.
  intros H. unfold take_char. destruct (ascii_width c H) as [-> _]. reflexivity.
Qed.

Lemma take_char_esc r c2 r2 Y : take_char r = Some (c2, r2) -> esc_text c2 = Some Y ->
  exists c0, r = String c0 r2 /\ c2 = String c0 "" /\ (byte_of c0 < 128)%N.
Proof.
  destruct r as [|x r']; [discriminate|]. unfold take_char. intros H He. injection H as <- <-.
  pose proof (utf8_width_pos x). destruct (utf8_width x) as [|w] eqn:Ew; [lia|]. cbn [str_take str_drop] in *.
  destruct (str_take w r'); [|discriminate He]. cbn [esc_text] in He.
  destruct (escape_value x) as [v|] eqn:Ev; [|discriminate].
  pose proof (escape_ascii x v Ev) as Ha. destruct (ascii_width x Ha) as [W _]. rewrite W in Ew. injection Ew as <-.
  exists x. auto.
Qed.

Lemma take_char_eq r c2 r2 : take_char r = Some (c2, r2) -> r2 = str_drop (String.length c2) r.
Proof.
  destruct r as [|c r']; [discriminate|]. unfold take_char. intros H. injection H as <- <-.
  generalize (utf8_width c) (String c r'). clear. intros w s. revert s.
  induction w as [|w IH]; intros [|c r]; try reflexivity. cbn [str_take str_drop String.length]. apply IH.
Qed.

(* the scanner's match on the character after a backslash: a table over all bytes *)
Lemma esc_match {A} (k : string -> A) (e : A) c2 :
  match c2 with
  | "\" => k "\"
  | String """" "" => k (String """" "")
  | "n" => k (String (ascii_of_N 10) "")
  | "r" => k (String (ascii_of_N 13) "")
  | "t" => k (String (ascii_of_N 9) "")
  | _ => e
  end = match esc_text c2 with Some X => k X | None => e end.
Proof. destruct c2 as [|[[] [] [] [] [] [] [] []] [|? ?]]; reflexivity. Qed.

Lemma lex_str_step curly f s pos tmp start endpos :
  lex_str curly (S f) s pos tmp start endpos =
  match str_next curly s with
  | SCont k X => lex_str curly f (str_drop k s) (pos + k) (tmp ++ X) start endpos
  | SClose k =>
    let r := str_drop k s in
    if next_is_ws_or_end r then (TLit (CStr tmp), r, pos + k) else (TErr PExpectWs start (pos + k), r, pos + k)
  | SUnterm k => (TErr PUntermStr pos endpos, "", pos + k)
  | SBadEsc k => (TErr PEscape pos (pos + k), str_drop k s, pos + k)
  end.
Proof.
  destruct s as [|c r]; cbn [lex_str str_next]; [rewrite Nat.add_0_r; reflexivity|].
  destruct (byte_of c =? 92)%N.
  - destruct (take_char r) as [[c2 r2]|] eqn:Et; [|rewrite Nat.add_1_r; reflexivity].
    cbv zeta. etransitivity; [exact (esc_match (fun X => lex_str curly f r2 _ (tmp ++ X) start endpos) _ c2)|].
    rewrite (take_char_eq r c2 r2 Et).
    destruct (esc_text c2); rewrite <- Nat.add_succ_comm; reflexivity.
  - destruct (byte_of c =? 34)%N; [cbv zeta; rewrite Nat.add_1_r; reflexivity|].
    destruct (curly && starts_rdq (String c r)); [reflexivity|rewrite Nat.add_1_r; reflexivity].
Qed.

(* a step stays inside the text and, if the scan goes on, consumes something; after a closing quote
   a character starts; where the literal is unterminated nothing is left *)
Lemma str_next_spec curly s :
  match str_next curly s with
  | SCont k _ => 0 < k <= String.length s
  | SClose k => k <= String.length s /\ (vsuf s -> valid_go (str_drop k s) 0 = true)
  | SUnterm k => k <= String.length s /\ str_drop k s = ""
  | SBadEsc k => k <= String.length s
  end.
Proof.
  destruct s as [|c r]; [split; reflexivity|]. cbn [str_next String.length].
  destruct (byte_of c =? 92)%N.
  - destruct (take_char r) as [[c2 r2]|] eqn:Et.
    + pose proof (advx_len _ _ _ _ (take_char_advx r c2 r2 0 Et)). destruct (esc_text c2); lia.
    + destruct r; [|discriminate]. split; [cbn [String.length]; lia|reflexivity].
  - destruct (byte_of c =? 34)%N eqn:E2.
    { split; [lia|]. intros Hv. apply (valid_ascii_tail c r Hv). lia. }
    destruct (curly && starts_rdq (String c r)) eqn:E3; [|lia].
    apply andb_prop in E3. destruct E3 as [_ E3]. apply starts_rdq_iff in E3. destruct E3 as [r3 E3].
    split; [apply (f_equal String.length) in E3; cbn in E3; lia|].
    rewrite E3. intros [need Hv]. destruct need; cbn in Hv |- *; [exact Hv|discriminate].
Qed.

(* the scanner returns a suffix of its text, at the matching position; it returns a literal or an
   error, and after a literal the suffix starts at a character boundary *)
Lemma lex_str_spec : forall curly f s pos tmp start endpos t s' pos',
  lex_str curly f s pos tmp start endpos = (t, s', pos') ->
  advx s pos s' pos' /\ lit_or_err t = true /\ (is_err t = false -> vsuf s -> valid_go s' 0 = true).
Proof.
  intros curly. induction f as [|f IH]; intros s pos tmp start endpos t s' pos' H.
  { cbn [lex_str] in H. injection H as <- <- <-. split; [apply advx_refl|]. split; [reflexivity|discriminate]. }
  rewrite lex_str_step in H. pose proof (str_next_spec curly s) as N.
  destruct (str_next curly s) as [k X|k|k|k].
  - destruct (IH _ _ _ _ _ _ _ _ H) as (B1 & B2 & B3). split; [|split; [exact B2|]].
    + eapply advx_trans; [apply advx_drop, N|exact B1].
    + intros Ht Hv. apply B3; [exact Ht|apply vsuf_drop; exact Hv].
  - cbv zeta in H. destruct (next_is_ws_or_end (str_drop k s)); injection H as <- <- <-;
      (split; [apply advx_drop, N|]); (split; [reflexivity|]); [|discriminate].
    intros _. apply N.
  - injection H as <- <- <-. rewrite <- (proj2 N).
    split; [apply advx_drop, N|]. split; [reflexivity|discriminate].
  - injection H as <- <- <-. split; [apply advx_drop, N|]. split; [reflexivity|discriminate].
Qed.

Lemma lex_str_fuel : forall curly f1 f2 s pos tmp start endpos,
  String.length s < f1 -> String.length s < f2 ->
  lex_str curly f1 s pos tmp start endpos = lex_str curly f2 s pos tmp start endpos.
Proof.
  intros curly. induction f1 as [|f1 IH]; intros f2 s pos tmp start endpos H1 H2; [lia|].
  destruct f2 as [|f2]; [lia|]. rewrite !lex_str_step.
  pose proof (str_next_spec curly s) as N. destruct (str_next curly s) as [k X|k|k|k]; try reflexivity.
  apply IH; rewrite str_drop_length; lia.
Qed.

Lemma lex_str_escape curly f c v r pos tmp start endpos : escape_value c = Some v ->
  lex_str curly (S f) (String "\" (String c r)) pos tmp start endpos =
  lex_str curly f r (pos + 2) (tmp ++ String v "") start endpos.
Proof.
  intros H. rewrite lex_str_step. cbn [str_next]. change (byte_of "\" =? 92)%N with true. cbv iota.
  rewrite (take_char_ascii c r (escape_ascii c v H)). cbn [esc_text]. rewrite H. reflexivity.
Qed.

Lemma lex_str_bad_escape curly f r c2 r2 pos tmp start endpos :
  take_char r = Some (c2, r2) -> (forall c, escape_value c <> None -> c2 <> String c "") ->
  lex_str curly (S f) (String "\" r) pos tmp start endpos =
  (TErr PEscape pos (S pos + String.length c2), r2, S pos + String.length c2).
Proof.
  intros Ht H. rewrite lex_str_step. cbn [str_next]. change (byte_of "\" =? 92)%N with true. cbv iota.
  rewrite Ht, (esc_text_none c2 H), (take_char_eq r c2 r2 Ht), <- Nat.add_succ_comm. reflexivity.
Qed.

Lemma lex_str_bad_escape_ascii curly f c r pos tmp start endpos :
  (byte_of c < 128)%N -> escape_value c = None ->
  lex_str curly (S f) (String "\" (String c r)) pos tmp start endpos = (TErr PEscape pos (pos + 2), r, pos + 2).
Proof.
  intros Ha H. rewrite (lex_str_bad_escape curly f (String c r) (String c "") r).
  - cbn [String.length]. replace (S pos + 1) with (pos + 2) by lia. reflexivity.
  - apply take_char_ascii. exact Ha.
  - intros c0 Hc0 E. injection E as ->. congruence.
Qed.

Lemma lex_str_trailing_backslash curly f pos tmp start endpos :
  lex_str curly (S f) "\" pos tmp start endpos = (TErr PUntermStr pos endpos, "", S pos).
Proof. reflexivity. Qed.

Lemma lex_str_end curly f pos tmp start endpos :
  lex_str curly (S f) "" pos tmp start endpos = (TErr PUntermStr pos endpos, "", pos).
Proof. reflexivity. Qed.

(* a body is a sequence of: an ordinary byte, a three-byte character led by E2 (the lead byte of
   the curly quotes) - other than the closing curly quote when the literal was opened by a curly
   quote ([curly] = true); in a straight-opened literal the closing curly quote is an ordinary
   character of the body - or an escape *)
Inductive sitem :=
| SByte (c : ascii)
| SE2 (c1 c2 : ascii)
| SEsc (c : ascii).

Definition plain_byte (c : ascii) : bool :=
  let n := byte_of c in negb (n =? 92)%N && negb (n =? 34)%N && negb (n =? 226)%N.

Definition sitem_ok (curly : bool) (i : sitem) : bool :=
  match i with
  | SByte c => plain_byte c
  | SE2 c1 c2 => plain_byte c1 && plain_byte c2 &&
                 negb (curly && ((byte_of c1 =? 128)%N && (byte_of c2 =? 157)%N))
  | SEsc c => match escape_value c with Some _ => true | None => false end
  end.

Definition e2 : ascii := ascii_of_N 226.

Definition sitem_text (i : sitem) : string :=
  match i with
  | SByte c => String c ""
  | SE2 c1 c2 => String e2 (String c1 (String c2 ""))
  | SEsc c => String "\" (String c "")
  end.

Definition sitem_value (i : sitem) : string :=
  match i with
  | SByte c => String c ""
  | SE2 c1 c2 => String e2 (String c1 (String c2 ""))
  | SEsc c => match escape_value c with Some v => String v "" | None => "" end
  end.

Fixpoint sitems_text (l : list sitem) : string :=
  match l with [] => "" | i :: r => sitem_text i ++ sitems_text r end.
Fixpoint sitems_value (l : list sitem) : string :=
  match l with [] => "" | i :: r => sitem_value i ++ sitems_value r end.

Definition is_closer (curly : bool) (q : string) : Prop := q = String """" "" \/ (curly = true /\ q = rdq).

Definition is_opener (curly : bool) (q : string) : Prop := q = if curly then ldq else String """" "".

Definition dq : string := String """" "".

Lemma cont_plain c : is_cont c = true -> plain_byte c = true.
Proof. unfold is_cont, plain_byte. lia. Qed.

Lemma lex_str_plain curly f c r pos tmp start endpos : plain_byte c = true ->
  lex_str curly (S f) (String c r) pos tmp start endpos = lex_str curly f r (S pos) (tmp ++ String c "") start endpos.
Proof.
  unfold plain_byte. intros H. rewrite lex_str_step. cbn [str_next].
  replace (byte_of c =? 92)%N with false by lia. replace (byte_of c =? 34)%N with false by lia.
  rewrite starts_rdq_false by lia. rewrite andb_false_r, Nat.add_1_r. reflexivity.
Qed.

Lemma lex_str_e2 curly f c1 c2 r pos tmp start endpos :
  negb (curly && ((byte_of c1 =? 128)%N && (byte_of c2 =? 157)%N)) = true ->
  lex_str curly (S f) (String e2 (String c1 (String c2 r))) pos tmp start endpos =
  lex_str curly f (String c1 (String c2 r)) (S pos) (tmp ++ String e2 "") start endpos.
Proof.
  intros H. rewrite lex_str_step. cbn [str_next].
  change (byte_of e2 =? 92)%N with false. change (byte_of e2 =? 34)%N with false. cbv iota.
  cbn [starts_rdq]. change (byte_of e2 =? 226)%N with true. cbn [andb].
  apply negb_true_iff in H. rewrite H, Nat.add_1_r. reflexivity.
Qed.

Lemma lex_str_close curly f q rest pos tmp start endpos : is_closer curly q ->
  lex_str curly (S f) (q ++ rest) pos tmp start endpos =
  if next_is_ws_or_end rest then (TLit (CStr tmp), rest, pos + String.length q)
  else (TErr PExpectWs start (pos + String.length q), rest, pos + String.length q).
Proof.
  intros [->| [-> ->]]; rewrite lex_str_step; reflexivity.
Qed.

Lemma lex_str_item curly i f more pos tmp start endpos :
  sitem_ok curly i = true -> String.length (sitem_text i ++ more) < f ->
  lex_str curly f (sitem_text i ++ more) pos tmp start endpos =
  lex_str curly f more (pos + String.length (sitem_text i)) (tmp ++ sitem_value i) start endpos.
Proof.
  intros Hi Hf. destruct f as [|f]; [lia|].
  destruct i as [c|c1 c2|c]; cbn [sitem_text sitem_value sitem_ok append String.length] in *.
  - rewrite lex_str_plain by exact Hi. replace (pos + 1) with (S pos) by lia. apply lex_str_fuel; lia.
  - apply andb_prop in Hi. destruct Hi as [Hi H3]. apply andb_prop in Hi. destruct Hi as [H1 H2].
    rewrite lex_str_e2 by exact H3.
    destruct f as [|f]; [lia|]. rewrite lex_str_plain by exact H1.
    destruct f as [|f]; [lia|]. rewrite lex_str_plain by exact H2.
    rewrite !app_assoc_s. cbn [append]. replace (pos + 3) with (S (S (S pos))) by lia. apply lex_str_fuel; lia.
  - destruct (escape_value c) as [v|] eqn:Ev; [|discriminate].
    rewrite (lex_str_escape curly f c v _ pos tmp start endpos Ev). apply lex_str_fuel; lia.
Qed.

Lemma lex_str_items_then : forall curly items f more pos tmp start endpos,
  forallb (sitem_ok curly) items = true -> String.length (sitems_text items ++ more) < f ->
  lex_str curly f (sitems_text items ++ more) pos tmp start endpos =
  lex_str curly f more (pos + String.length (sitems_text items)) (tmp ++ sitems_value items) start endpos.
Proof.
  intros curly. induction items as [|i items IH]; intros f more pos tmp start endpos Hok Hf.
  - cbn [sitems_text sitems_value append String.length]. rewrite app_nil_r_s, Nat.add_0_r. reflexivity.
  - cbn [forallb] in Hok. apply andb_prop in Hok. destruct Hok as [Hi Hok].
    cbn [sitems_text sitems_value] in *. rewrite app_assoc_s in *.
    rewrite lex_str_item by assumption. rewrite app_length_s in Hf.
    rewrite IH by (try assumption; lia). rewrite app_length_s, app_assoc_s, Nat.add_assoc. reflexivity.
Qed.

Lemma lex_str_items : forall curly items f q rest pos tmp start endpos,
  forallb (sitem_ok curly) items = true -> is_closer curly q ->
  String.length (sitems_text items ++ q ++ rest) < f ->
  lex_str curly f (sitems_text items ++ q ++ rest) pos tmp start endpos =
  let p' := pos + String.length (sitems_text items) + String.length q in
  if next_is_ws_or_end rest then (TLit (CStr (tmp ++ sitems_value items)), rest, p')
  else (TErr PExpectWs start p', rest, p').
Proof.
  intros curly items f q rest pos tmp start endpos Hok Hq Hf.
  rewrite lex_str_items_then by assumption.
  destruct f as [|f]; [lia|]. rewrite (lex_str_close curly f q rest _ _ start endpos Hq). reflexivity.
Qed.

Lemma lex_str_unterminated : forall curly items f pos tmp start endpos,
  forallb (sitem_ok curly) items = true -> String.length (sitems_text items) < f ->
  lex_str curly f (sitems_text items) pos tmp start endpos =
  (TErr PUntermStr (pos + String.length (sitems_text items)) endpos, "", pos + String.length (sitems_text items)).
Proof.
  intros curly items f pos tmp start endpos Hok Hf.
  rewrite <- (app_nil_r_s (sitems_text items)) at 1.
  rewrite lex_str_items_then; [|exact Hok|rewrite app_nil_r_s; exact Hf].
  destruct f as [|f]; [lia|]. reflexivity.
Qed.

Fixpoint print_items (s : string) : list sitem :=
  match s with
  | "" => []
  | String c r =>
    let n := byte_of c in
    (if (n =? 34)%N then SEsc c
     else if (n =? 92)%N then SEsc c
     else if (n =? 10)%N then SEsc "n"
     else if (n =? 13)%N then SEsc "r"
     else if (n =? 9)%N then SEsc "t"
     else SByte c) :: print_items r
  end.

Lemma fmt_str_body_items : forall s b, fmt_str_body s = Some b ->
  forall curly, forallb (sitem_ok curly) (print_items s) = true /\ sitems_text (print_items s) = b /\
  sitems_value (print_items s) = s.
Proof.
  induction s as [|c r IH]; intros b H curly; cbn [fmt_str_body] in H.
  - injection H as <-. repeat split.
  - destruct (fmt_str_body r) as [r'|] eqn:Er; [|discriminate].
    destruct (IH r' eq_refl curly) as (I1 & I2 & I3).
    cbn [print_items forallb sitems_text sitems_value]. rewrite I1, I2, I3.
    (* an escaped character: the byte test determines c *)
    destruct (byte_of c =? 34)%N eqn:E1; [injection H as <-; apply byte_eqb in E1; subst c; repeat split|].
    destruct (byte_of c =? 92)%N eqn:E2; [injection H as <-; apply byte_eqb in E2; subst c; repeat split|].
    destruct (byte_of c =? 10)%N eqn:E3; [injection H as <-; apply byte_eqb in E3; subst c; repeat split|].
    destruct (byte_of c =? 13)%N eqn:E4; [injection H as <-; apply byte_eqb in E4; subst c; repeat split|].
    destruct (byte_of c =? 9)%N eqn:E5; [injection H as <-; apply byte_eqb in E5; subst c; repeat split|].
    destruct ((32 <=? byte_of c)%N && (byte_of c <? 127)%N) eqn:E6; [|discriminate].
    injection H as <-. cbn [sitem_ok sitem_text sitem_value append andb]. repeat split.
    unfold plain_byte. lia.
Qed.

Lemma fmt_cell_str f s b : fmt_str_body s = Some b ->
  (fl_fit f && (75 <? String.length s)%nat = false) -> fmt_cell f (CStr s) = Some (dq ++ b ++ dq).
Proof. intros H Hf. cbn [fmt_cell]. rewrite Hf, H. reflexivity. Qed.
