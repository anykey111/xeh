(* MetaInline.v (C11): a successful build is a chain of token steps; a whole meta block
   compared with compiling its result values as literals at the place of the block. *)
From Xeh Require Import Model.Prelude Model.Bits Model.Codec Model.Cell Model.Lexer Model.Fmt
                        Model.Vm Model.Words Model.Build.
From Xeh Require Import Proofs.VmFrame Proofs.VmLimits Proofs.NoPanic Proofs.NoPanicBuild Proofs.NoPanicFlow
                        Proofs.MetaBase Proofs.MetaPurge Proofs.MetaBuild Proofs.MetaClose Proofs.MetaPrefix
                        Proofs.MetaPrefixBuild Proofs.MetaPrefixWords Proofs.MetaBlock Proofs.MetaSeg.
Local Notation length := List.length.
Local Open Scope string_scope.
Local Open Scope list_scope.

(* compiling a list of values as literals, first element first *)
Fixpoint emit_values (vs : list cell) : M unit :=
  match vs with
  | [] => ret tt
  | v :: r => code_emit_value v ;; emit_values r
  end.

Lemma emit_values_spec : forall vs s, cd_inv s ->
  exists s1, emit_values vs s = ROk tt s1 /\ code s1 = code s ++ map load_value_opcode vs /\
             dict s1 = dict s /\ score s1 = score s /\ cd_inv s1.
Proof.
  induction vs as [|v r IH]; intros s Hcd; cbn [emit_values].
  - exists s. split; [reflexivity|]. cbn [map]. rewrite app_nil_r.
    split; [reflexivity|]. split; [reflexivity|]. split; [reflexivity|exact Hcd].
  - unfold code_emit_value at 1.
    destruct (code_emit_run (load_value_opcode v) s Hcd) as (s1 & E & C1 & D1 & _ & _ & _ & Hcd1).
    pose proof (scorep_code_emit (load_value_opcode v) s) as Sc. rewrite E in Sc. cbn [res_all] in Sc.
    destruct (IH s1 Hcd1) as (s2 & E2 & C2 & D2 & Sc2 & Hcd2).
    exists s2. unfold bind. rewrite E. split; [exact E2|].
    cbn [map]. rewrite C2, C1, <- app_assoc. repeat split; congruence.
Qed.

Section Inline.
  Variable fo : fops.
  Variable pr : string -> option Z.
  Variable rf : nat.

  (* no token that [build1 fuel] reads from [s] on is a word of the enum builder *)
  Fixpoint enum_free (fuel : nat) (s : state) : Prop :=
    match fuel with
    | O => True
    | S f =>
      forall s1 t s2, pre_run fo rf s = ROk tt s1 -> get_token pr s1 = ROk t s2 ->
        enum_tok s2 t = false /\ forall s3, tok_act fo pr rf f t s2 = ROk tt s3 -> enum_free f s3
    end.

  Theorem build1_step f d s s' : enum_free (S f) s -> build1 fo pr rf (S f) d s = ROk tt s' ->
    (exists s1 s2, pre_run fo rf s = ROk tt s1 /\ get_token pr s1 = ROk BEnd s2 /\
                   build_end d s2 = ROk tt s') \/
    (exists s3, tstep fo pr rf f s s3 /\ enum_free f s3 /\ build1 fo pr rf f d s3 = ROk tt s').
  Proof.
    intros EF. rewrite build1_S. unfold bind at 1.
    destruct (pre_run fo rf s) as [[] s1|? ? ?| |] eqn:E1; try discriminate.
    unfold bind at 1. destruct (get_token pr s1) as [t s2|? ? ?| |] eqn:E2; try discriminate.
    destruct (EF s1 t s2 E1 E2) as [Hn Hk].
    destruct t as [|w|c].
    - intros E. left. exists s1, s2. repeat split; assumption.
    - unfold bind. destruct (tok_act fo pr rf f (BWord w) s2) as [[] s3|? ? ?| |] eqn:E3; try discriminate.
      intros E. right. exists s3. split; [|split; [apply Hk; reflexivity|exact E]].
      exists s1, (BWord w), s2. repeat split; try assumption. discriminate.
    - unfold bind. destruct (tok_act fo pr rf f (BLit c) s2) as [[] s3|? ? ?| |] eqn:E3; try discriminate.
      intros E. right. exists s3. split; [|split; [apply Hk; reflexivity|exact E]].
      exists s1, (BLit c), s2. repeat split; try assumption. discriminate.
  Qed.

  Lemma bpath_cons s s1 x : anystep fo pr rf s s1 -> bpath fo pr rf 0 s1 x -> bpath fo pr rf 0 s x.
  Proof.
    intros St Hb. induction Hb as [|x y Hb IH Sy Hd].
    - eapply bp_snoc; [apply bp_nil|exact St|lia].
    - eapply bp_snoc; [exact IH|exact Sy|lia].
  Qed.

  Theorem build1_path : forall f d s s', enum_free f s -> build1 fo pr rf f d s = ROk tt s' ->
    exists x s1, bpath fo pr rf 0 s x /\ pre_run fo rf x = ROk tt s1 /\ get_token pr s1 = ROk BEnd s' /\
                 depth s' = d /\ has_pending_flow s' = false.
  Proof.
    induction f as [|f IH]; intros d s s' EF E; [discriminate|].
    destruct (build1_step f d s s' EF E) as [(s1 & s2 & E1 & E2 & E3)|(s3 & St & EF3 & E3)].
    - exists s, s1. split; [apply bp_nil|]. split; [exact E1|].
      unfold build_end, bind, get in E3.
      destruct (negb (length (nested s2) =? d)%nat) eqn:En; [discriminate|].
      destruct (has_pending_flow s2) eqn:Ep; [discriminate|].
      injection E3 as <-. split; [exact E2|]. split; [|exact Ep].
      apply negb_false_iff, Nat.eqb_eq in En. exact En.
    - destruct (IH d s3 s' EF3 E3) as (x & s1 & Hb & R).
      exists x, s1. split; [|exact R]. eapply bpath_cons; [exists f; exact St|exact Hb].
  Qed.

  (* the block was opened in a state t whose context is not a meta context *)
  Theorem block_inline t u t' :
    wfm t -> cd_inv t -> cmode (cx t) <> MMeta ->
    bpath fo pr rf (S (depth t)) (opened t) u ->
    anystep fo pr rf u t' -> depth t' <= depth t ->
    exists vs ts tc,
      emit_values vs t = ROk tt ts /\
      (t' = tc \/ exists txt, t' = interned txt tc) /\
      rpatch (code ts) (code tc) /\ heap tc = heap ts /\ ds tc = ds ts /\
      cx tc = cx ts /\ nested tc = nested ts /\ flows tc = flows ts /\
      (exists d' k, cpatch (dict ts) d' /\ dict tc = d' ++ k /\ Forall (fun e => is_dconst e = true) k) /\
      (exists a, rs tc = a ++ rs ts) /\ (exists a, loops tc = a ++ loops ts) /\
      (exists a, special tc = a ++ special ts).
  Proof.
    intros W Hcd Hnm Hb St Hd.
    destruct (block_theorem fo pr rf t u t' W Hcd Hb St Hd) as (_ & w1 & Hw & Fl & D).
    destruct (block_spec_outside t w1 W Hcd Hnm Hw Fl)
      as (B1 & B2 & B3 & B4 & Bd & (c' & Rc & Ec) & (d' & Rd & Ed) & _ & Kr & Kl & Ks).
    destruct (emit_values_spec (results w1) t Hcd) as (ts & Ev & Ct & Dt & Sc & _).
    unfold score in Sc. injection Sc as S1 S2 S3 S4 S5 S6 S7 S8.
    exists (results w1), ts, (close_state w1 (cx t)).
    split; [exact Ev|]. split; [exact D|].
    split; [rewrite Ct, Ec; apply rpatch_app; exact Rc|].
    split; [congruence|]. split; [congruence|]. split; [congruence|]. split; [congruence|]. split; [congruence|].
    split; [exists d', (purge_all (skipn (length (dict t)) (dict w1))); rewrite Dt;
            split; [exact Rd|split; [exact Ed|apply purge_all_const]]|].
    rewrite S5, S6, S7.
    split; [apply keeps_all; exact Kr|]. split; [apply keeps_all; exact Kl|apply keeps_all; exact Ks].
  Qed.

  (* no late-bound call in the code before the block: the code is exactly code ++ literals *)
  Lemma load_not_resolve c name : load_value_opcode c <> OResolve name.
  Proof. destruct c; cbn [load_value_opcode]; try discriminate. destruct (in_i64 z); discriminate. Qed.

  Lemma no_resolve_app c vs : no_resolve c -> no_resolve (c ++ map load_value_opcode vs).
  Proof.
    intros H i name E. destruct (Nat.lt_ge_cases i (length c)) as [Hi|Hi].
    - rewrite nth_error_app1 in E by exact Hi. exact (H i name E).
    - rewrite nth_error_app2 in E by exact Hi. apply nth_error_In in E. apply in_map_iff in E.
      destruct E as (v & Ev & _). exact (load_not_resolve v name Ev).
  Qed.

  Theorem block_inline_exact t u t' :
    wfm t -> cd_inv t -> cmode (cx t) <> MMeta -> no_resolve (code t) ->
    bpath fo pr rf (S (depth t)) (opened t) u -> anystep fo pr rf u t' -> depth t' <= depth t ->
    exists vs ts tc,
      emit_values vs t = ROk tt ts /\ (t' = tc \/ exists txt, t' = interned txt tc) /\
      code tc = code ts /\ heap tc = heap ts /\ ds tc = ds ts /\ cx tc = cx ts /\
      nested tc = nested ts /\ flows tc = flows ts.
  Proof.
    intros W Hcd Hnm Hnr Hb St Hd.
    destruct (block_inline t u t' W Hcd Hnm Hb St Hd)
      as (vs & ts & tc & Ev & D & Rc & A1 & A2 & A3 & A4 & A5 & _).
    exists vs, ts, tc. split; [exact Ev|]. split; [exact D|].
    split; [|repeat split; assumption].
    apply rpatch_no_resolve; [|exact Rc].
    destruct (emit_values_spec vs t Hcd) as (ts' & Ev' & Ct & _). rewrite Ev in Ev'. injection Ev' as <-.
    rewrite Ct. apply no_resolve_app. exact Hnr.
  Qed.
End Inline.
