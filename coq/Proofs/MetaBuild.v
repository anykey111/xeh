(* MetaBuild.v (C11): the frame [sealed] for the builder.

   Every program of the compiler front end except the words that open or close a context
   ([ctx_word]: #( , #) , ~) and the four words of the enum builder) keeps [sealed] when started
   in a meta context: it leaves the heap, the context stack and the context marks alone and
   touches no stack below its mark.  This covers the other immediate words of the table (control
   structures, definitions, let patterns, var, const, ...), user-defined immediate words and the
   execution of pending code before each token.

   [bprog c m] describes what those immediate words are made of: the builder's primitives,
   composed by bind, reading the state anywhere but on the data stack.  The table is walked once
   ([immediate_bprog]); a frame whose leaves need no side condition follows by induction. *)
From Xeh Require Import Model.Prelude Model.Bits Model.Codec Model.Cell Model.Lexer Model.Fmt
                        Model.Vm Model.Words Model.Build.
From Xeh Require Import Proofs.WordProg Proofs.BuildLet Proofs.VmFrame Proofs.VmLimits Proofs.NoPanic
                        Proofs.NoPanicBuild Proofs.NoPanicFlow
                        Proofs.MetaBase.
Local Notation length := List.length.
Local Open Scope list_scope.
Local Open Scope string_scope.

(* programs that leave the sealed fields alone *)
Definition scorep {A} (m : M A) : Prop := forall s, res_all (fun s' => score s' = score s) (m s).

Lemma scorep_ret A (a : A) : scorep (ret a).
Proof. intros s. reflexivity. Qed.
Lemma scorep_fail A k p : scorep (@fail A k p).
Proof. intros s. reflexivity. Qed.
Lemma scorep_unsup A : scorep (@unsup A).
Proof. intros s. exact I. Qed.
Lemma scorep_bind A B (m : M A) (f : A -> M B) : scorep m -> (forall a, scorep (f a)) -> scorep (bind m f).
Proof.
  intros Hm Hf s. unfold bind. specialize (Hm s).
  destruct (m s) as [a s1|k p s1| |]; cbn [res_all] in *; auto.
  specialize (Hf a s1). destruct (f a s1); cbn [res_all] in *; auto; congruence.
Qed.

Lemma scorep_code_emit op : scorep (code_emit op).
Proof.
  intros s. unfold code_emit. cbv zeta.
  destruct (_ <? _)%nat; [reflexivity|]. destruct (_ =? _)%nat; [reflexivity|exact I].
Qed.

Lemma scorep_backpatch pos op : scorep (backpatch pos op).
Proof. intros s. unfold backpatch. destruct (_ <? _)%nat; [reflexivity|exact I]. Qed.

Lemma scorep_backpatch_jump pos offs : scorep (backpatch_jump pos offs).
Proof.
  intros s. unfold backpatch_jump. destruct (nth_error (code s) pos) as [op|]; [|reflexivity].
  destruct op; try exact I; apply scorep_backpatch.
Qed.

Lemma scorep_dict_insert name e : scorep (dict_insert name e).
Proof. intros s. reflexivity. Qed.

Lemma scorep_intern_source buf : scorep (intern_source buf).
Proof. intros s. reflexivity. Qed.

Section Tokens.
  Variable pr : string -> option Z.

  Lemma scorep_next_token : forall fuel, scorep (next_token pr fuel).
  Proof.
    induction fuel as [|f IH]; intros s; cbn [next_token]; [exact I|].
    destruct (input s) as [|il rest]; [reflexivity|]. cbv zeta.
    destruct (lex_next_nonws _ _) as [t l'].
    destruct t; try exact I; try reflexivity.
    - specialize (IH (set_input (set_last_tok (set_input s (mkinlex (in_src il) l' :: rest))
                                              (Some (in_src il, lstart l', lpos l'))) rest)).
      destruct (next_token pr f _); cbn [res_all] in *; auto.
    - destruct (pr text); reflexivity.
  Qed.

  Lemma scorep_get_token : scorep (get_token pr).
  Proof. intros s. unfold get_token. apply scorep_next_token. Qed.

  Lemma scorep_next_name : scorep (next_name pr).
  Proof.
    intros s. unfold next_name. cbv zeta. pose proof (scorep_get_token s) as H.
    destruct (get_token pr s) as [t s1|k p s1| |]; cbn [res_all] in *; auto.
    destruct t; cbn [res_all]; try exact H; destruct (last_tok s); exact H.
  Qed.
End Tokens.

Lemma fp_scorep A (m : M A) : scorep m -> fp SF m.
Proof.
  intros H s [Hm W]. specialize (H s). cbn [SF fr_rel].
  destruct (m s); cbn [res_all] in *; auto; apply sealed_score; assumption.
Qed.

Lemma sealed_flows s fl' : wfm s -> keeps (fs_len (cx s)) (flows s) fl' -> sealed s (set_flows s fl').
Proof.
  intros (H1 & H2 & H3 & H4 & H5) K. unfold sealed. cbn [set_flows heap nested cx ds rs loops special flows].
  repeat split; try reflexivity; try assumption; apply K.
Qed.

Lemma fps_push_flow f : fp SF (push_flow f).
Proof.
  intros s [Hm W]. unfold push_flow, modify. cbn [res_all SF fr_rel]. apply sealed_flows; [exact W|].
  apply (keeps_app _ [f]). apply W.
Qed.

Lemma skipn_pending s : fs_len (cx s) <= length (flows s) ->
  skipn (length (pending s)) (flows s) = lastn (fs_len (cx s)) (flows s).
Proof. intros H. unfold lastn, pending. f_equal. rewrite firstn_length. lia. Qed.

Lemma keeps_pending s a' : fs_len (cx s) <= length (flows s) ->
  keeps (fs_len (cx s)) (flows s) (a' ++ skipn (length (pending s)) (flows s)).
Proof.
  intros H. rewrite skipn_pending by exact H.
  destruct (flows_split s H) as [E1 E2]. rewrite E1 at 1.
  apply keeps_app_l. rewrite E2. lia.
Qed.

Lemma fps_pop_flow : fp SF pop_flow.
Proof.
  intros s [Hm W]. unfold pop_flow. cbn [SF fr_rel].
  destruct (flows s) as [|f r] eqn:E; [apply sealed_refl; exact W|].
  destruct (_ <? _)%nat eqn:El; [|apply sealed_refl; exact W].
  cbn [res_all]. apply sealed_flows; [exact W|]. apply Nat.ltb_lt in El. rewrite E.
  unfold keeps. cbn [length] in *. split; [lia|]. symmetry. apply lastn_cons. lia.
Qed.

Lemma fps_take : fp SF take_first_cond_flow.
Proof.
  intros s [Hm W]. unfold take_first_cond_flow. cbv zeta. cbn [SF fr_rel].
  destruct (take_cond (pending s)) as [[f act']|]; [|apply sealed_refl; exact W].
  cbn [res_all]. apply sealed_flows; [exact W|]. apply keeps_pending. apply W.
Qed.

Lemma sealed_set_dict s d' : wfm s -> sealed s (set_dict s d').
Proof. intros W. apply sealed_score; [exact W|reflexivity]. Qed.

Lemma sealed_set_locals s ls : wfm s ->
  sealed s (set_flows s (set_fun_locals (pending s) ls ++ skipn (length (pending s)) (flows s))).
Proof. intros W. apply sealed_flows; [exact W|]. apply keeps_pending. apply W. Qed.

(* the four words of the enum builder (`enum`, `endenum` and the two field words, which close
   the inner block of the enum and open the next one), by the name of their native function *)
Definition enum_native (name : string) : bool :=
  String.eqb name "enum" || String.eqb name "endenum" ||
  String.eqb name "%enum-field" || String.eqb name "%enum-field-set".

(* the words that open or close a context: the three bracket words and the enum builder *)
Definition ctx_word (name : string) : bool :=
  String.eqb name "#(" || String.eqb name "#)" || String.eqb name "~)" || enum_native name.

(* a dictionary entry that is not a user-defined immediate word *)
Definition plain_entry (e : entry) : bool :=
  match e with DFun true (FInterp _) _ => false | _ => true end.

(* the two words that need a meta context or make a user-defined immediate word *)
Definition imm_cap (name : string) : bool := String.eqb name "const" || String.eqb name "immediate".

(* Four words update the dictionary or the flow stack of the state they have just read
   ([put (set_dict s _)] under [get]); they are leaves.  [c] says whether `const` and
   `immediate` may occur. *)
Inductive bprog (c : bool) : forall {A}, M A -> Prop :=
| bp_ret A (a : A) : bprog c (ret a)
| bp_fail A k p : bprog c (@fail A k p)
| bp_unsup A : bprog c (@unsup A)
| bp_bind A B (m : M A) (f : A -> M B) : bprog c m -> (forall a, bprog c (f a)) -> bprog c (bind m f)
| bp_get B (k : state -> M B) :
    (forall s, bprog c (k s)) -> (forall s l, k (set_ds s l) = k s) -> bprog c (bind get k)
| bp_code_emit op : bprog c (code_emit op)
| bp_backpatch pos op : bprog c (backpatch pos op)
| bp_backpatch_jump pos offs : bprog c (backpatch_jump pos offs)
| bp_push_flow f : bprog c (push_flow f)
| bp_pop_flow : bprog c pop_flow
| bp_take : bprog c take_first_cond_flow
| bp_dict_insert name e : plain_entry e = true -> bprog c (dict_insert name e)
| bp_alloc_nil : bprog c (alloc_heap CNil)
| bp_get_token pr : bprog c (get_token pr)
| bp_next_name pr : bprog c (next_name pr)
| bp_def_end : bprog c i_def_end
| bp_local name : bprog c (build_local_variable name)
| bp_immediate : c = true -> bprog c i_immediate
| bp_const pr : c = true -> bprog c (i_const pr).

Create HintDb bpdb.
#[export] Hint Resolve bp_ret bp_fail bp_unsup bp_code_emit bp_backpatch bp_backpatch_jump bp_push_flow
  bp_pop_flow bp_take bp_dict_insert bp_alloc_nil bp_get_token bp_next_name bp_def_end bp_local
  bp_immediate bp_const : bpdb.
#[export] Hint Extern 1 (_ = true) => reflexivity : bpdb.

Ltac bp_step :=
  cbv beta zeta;
  first
    [ solve [ auto 2 with bpdb nocore ]
    | lazymatch goal with
      | |- bprog _ (bind get _) => apply bp_get; [ intro | intros; reflexivity ]
      | |- bprog _ (bind _ _) => apply bp_bind; [ | intro ]
      | |- bprog _ (match ?x with _ => _ end) => destruct x
      | |- bprog _ ?m => let h := head_of m in unfold h
      end ].

Section Words.
  Variable c : bool.

  Lemma bp_endcase_loop : forall fuel org, bprog c (endcase_loop fuel org).
  Proof. induction fuel as [|f IH]; intros org; cbn [endcase_loop]; repeat bp_step. Qed.
  Lemma bp_repeat_loop : forall fuel, bprog c (repeat_loop fuel).
  Proof. induction fuel as [|f IH]; cbn [repeat_loop]; repeat bp_step. Qed.
  Lemma bp_loop_loop : forall fuel a b, bprog c (loop_loop fuel a b).
  Proof. induction fuel as [|f IH]; intros a b; cbn [loop_loop]; repeat bp_step. Qed.

  Lemma bp_global name : bprog c (build_global_variable name).
  Proof. repeat bp_step. Qed.
  Lemma bp_let_named w : bprog c (build_let_named w).
  Proof. pose proof bp_global. repeat bp_step. Qed.

  Lemma bp_build_let pr f :
    bprog c (build_let_in pr f) /\ bprog c (build_let_tags pr f) /\ bprog c (build_let_map pr f) /\
    (forall i, bprog c (build_let_vec pr f i)).
  Proof.
    apply (build_let_closed pr (fun A m => bprog c m)); intros;
      first [ apply bp_bind; assumption | apply bp_let_named | auto with bpdb nocore ].
  Qed.
End Words.
#[export] Hint Resolve bp_endcase_loop bp_repeat_loop bp_loop_loop bp_global : bpdb.

Section Table.
  Variable fo : fops.
  Variable pr : string -> option Z.
  Variable rf : nat.

  Lemma immediate_bprog fuel name w :
    immediate_fn fo pr rf fuel name = Some w -> ctx_word name = false -> bprog (imm_cap name) w.
  Proof.
    intros H. unfold immediate_fn in H. cbv zeta in H.
    apply (table_find_row (fun n m => ctx_word n = false -> bprog (imm_cap n) m)) with (2 := H).
    pose proof (fun cc => proj1 (bp_build_let cc pr fuel)) as HL.
    repeat (apply Forall_cons;
            [ cbn [fst snd]; intros Hcw; first [ discriminate Hcw | repeat bp_step ] | ]).
    apply Forall_nil.
  Qed.
End Table.

(* the words that update the state in place *)
Lemma fps_put_dict s d' : fpa SF s (put (set_dict s d')).
Proof. apply fpa_put. intros [_ W]. apply sealed_set_dict. exact W. Qed.

#[export] Hint Resolve fps_put_dict : fpdb.
#[export] Hint Extern 1 (fpa SF _ (push_flow _)) => apply fps_push_flow : fpdb.
#[export] Hint Extern 1 (fpa SF _ pop_flow) => apply fps_pop_flow : fpdb.
#[export] Hint Extern 1 (fpa SF _ take_first_cond_flow) => apply fps_take : fpdb.
#[export] Hint Extern 1 (fpa SF _ (alloc_heap _)) => apply fp_alloc_heap : fpdb.
#[export] Hint Extern 1 (fpa SF _ (run_m _ _)) => apply fp_run_m : fpdb.
#[export] Hint Extern 1 (fpa SF _ (code_emit _)) => apply (fp_scorep _ _ (scorep_code_emit _)) : fpdb.
#[export] Hint Extern 1 (fpa SF _ (backpatch_jump _ _)) =>
  apply (fp_scorep _ _ (scorep_backpatch_jump _ _)) : fpdb.
#[export] Hint Extern 1 (fpa SF _ (dict_insert _ _)) => apply (fp_scorep _ _ (scorep_dict_insert _ _)) : fpdb.
#[export] Hint Extern 1 (fpa SF _ (next_name _)) => apply (fp_scorep _ _ (scorep_next_name _)) : fpdb.
#[export] Hint Extern 1 (fpa SF _ pop_data) => apply (wl_sealed _ _ wl_pop_data) : fpdb.
#[export] Hint Extern 1 (fpa SF _ (push_return _)) => apply (wl_sealed _ _ (wl_push_return _)) : fpdb.
#[export] Hint Extern 1 (fpa SF _ (set_ip _)) => apply (wl_sealed _ _ (wl_set_ip _)) : fpdb.

Lemma fps_i_def_end : fp SF i_def_end.
Proof. unfold i_def_end. repeat fp_step. Qed.

Lemma fps_i_immediate : fp SF i_immediate.
Proof. unfold i_immediate. repeat fp_step. Qed.

Lemma fps_i_const pr : fp SF (i_const pr).
Proof. unfold i_const. repeat fp_step. Qed.

Lemma fps_build_local_variable name s : fpa SF s (build_local_variable name).
Proof.
  revert s. change (fp SF (build_local_variable name)). unfold build_local_variable. repeat fp_step.
  match goal with H : fr_pre SF _ |- _ => apply sealed_set_locals, H end.
Qed.

Lemma bprog_sealed c A (m : M A) : bprog c m -> fp SF m.
Proof.
  induction 1.
  - apply fp_ret.
  - apply fp_fail.
  - apply fp_unsup.
  - apply fp_bind; assumption.
  - intros s. apply fpa_get_bind. apply H0.
  - apply fp_scorep, scorep_code_emit.
  - apply fp_scorep, scorep_backpatch.
  - apply fp_scorep, scorep_backpatch_jump.
  - apply fps_push_flow.
  - apply fps_pop_flow.
  - apply fps_take.
  - apply fp_scorep, scorep_dict_insert.
  - apply fp_alloc_heap.
  - apply fp_scorep, scorep_get_token.
  - apply fp_scorep, scorep_next_name.
  - apply fps_i_def_end.
  - intros s. apply fps_build_local_variable.
  - apply fps_i_immediate.
  - apply fps_i_const.
Qed.

Lemma fps_endcase_loop : forall fuel org s, fpa SF s (endcase_loop fuel org).
Proof. intros fuel org. exact (bprog_sealed false _ _ (bp_endcase_loop _ fuel org)). Qed.

Lemma fps_repeat_loop : forall fuel s, fpa SF s (repeat_loop fuel).
Proof. intros fuel. exact (bprog_sealed false _ _ (bp_repeat_loop _ fuel)). Qed.

Lemma fps_loop_loop : forall fuel a b s, fpa SF s (loop_loop fuel a b).
Proof. intros fuel a b. exact (bprog_sealed false _ _ (bp_loop_loop _ fuel a b)). Qed.

Lemma fps_vec_collect p : fp SF (vec_collect_till_ptr p).
Proof. apply wl_sealed. wl_solve. Qed.

Lemma fps_build_global_variable name s : fpa SF s (build_global_variable name).
Proof. exact (bprog_sealed false _ _ (bp_global _ name) s). Qed.

Lemma fps_code_emit_value v s : fpa SF s (code_emit_value v).
Proof. exact (fp_scorep _ _ (scorep_code_emit _) s). Qed.

Lemma fps_build_let_named w s : fpa SF s (build_let_named w).
Proof. exact (bprog_sealed false _ _ (bp_let_named _ w) s). Qed.
Lemma fps_build_let_match v s : fpa SF s (build_let_match v).
Proof. unfold build_let_match. repeat fp_step. Qed.
Lemma fps_let_vec_next i s : fpa SF s (let_vec_next i).
Proof. unfold let_vec_next. repeat fp_step. Qed.
