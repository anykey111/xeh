(* UnwindRel.v (C10 / C15): the builder run from two related states.  [mrel R P]: the
   program P maps states related by R to results with the same value or the same error whose
   states are related again.  The walk through the immediate words is done once, for every R
   that keeps what they read ([core]) and is kept by what they write; the words that read
   more (the mode and the data-stack mark of the context, the nested contexts) are hypotheses.
   The token loop [build1] is done once as well, from rules for its five steps. *)
From Xeh Require Import Model.Prelude Model.Bits Model.Codec Model.Cell Model.Lexer Model.Fmt
                        Model.Vm Model.Words Model.Build.
From Xeh Require Import Proofs.WordProg Proofs.VmFrame Proofs.VmLimits Proofs.BuildLet Proofs.UnwindLists.
Local Notation length := List.length.
Local Open Scope string_scope.

Lemma bind_get B (k : state -> M B) s : (let* x := get in k x) s = k s s.
Proof. reflexivity. Qed.

Section Rel.
  Variable R : state -> state -> Prop.

  Definition rres {A} (r r' : res A) : Prop :=
    match r, r' with
    | ROk a s, ROk a' s' => a = a' /\ R s s'
    | RErr k p s, RErr k' p' s' => k = k' /\ p = p' /\ R s s'
    | RPanic, RPanic => True
    | RUnsup, RUnsup => True
    | _, _ => False
    end.

  Definition mrel {A} (P : M A) : Prop := forall s s', R s s' -> rres (P s) (P s').

  Lemma mrel_ret A (a : A) : mrel (ret a).
  Proof. intros s s' H. split; [reflexivity|exact H]. Qed.
  Lemma mrel_fail A k p : mrel (@fail A k p).
  Proof. intros s s' H. repeat split. exact H. Qed.
  Lemma mrel_unsup A : mrel (@unsup A).
  Proof. intros s s' H. exact I. Qed.
  Lemma mrel_panic A : mrel (@panic A).
  Proof. intros s s' H. exact I. Qed.

  (* the one rule about sequencing: used for [bind], and where the second program is related
     only under a condition on the first state *)
  Lemma rres_bind A B (P : M A) (f : A -> M B) s s' :
    rres (P s) (P s') ->
    (forall a t t', P s = ROk a t -> R t t' -> rres (f a t) (f a t')) ->
    rres (bind P f s) (bind P f s').
  Proof.
    intros HP Hf. unfold bind.
    destruct (P s) as [a t|k p t| |]; destruct (P s') as [a' t'|k' p' t'| |]; cbn [rres] in *;
      try contradiction; auto.
    destruct HP as [<- HR]. apply (Hf a t t' eq_refl HR).
  Qed.

  Lemma mrel_bind A B (P : M A) (f : A -> M B) : mrel P -> (forall a, mrel (f a)) -> mrel (bind P f).
  Proof. intros HP Hf s s' H. apply rres_bind; [apply HP, H|]. intros a t t' _. apply Hf. Qed.

  Lemma mrel_modify f : (forall s s', R s s' -> R (f s) (f s')) -> mrel (modify f).
  Proof. intros Hf s s' H. split; [reflexivity|apply Hf, H]. Qed.
End Rel.

Definition diag (I : state -> Prop) (s s' : state) : Prop := s' = s /\ I s.

Lemma rres_diag (I : state -> Prop) A (r : res A) : res_all I r -> rres (diag I) r r.
Proof. destruct r; cbn; auto; repeat split; assumption. Qed.

Lemma diag_rres (I : state -> Prop) A (r : res A) : rres (diag I) r r -> res_all I r.
Proof. destruct r; cbn; auto; intros H; apply H. Qed.

(* what the immediate words read: the dictionary, the heap, the code, the four stacks, the
   flow stack, the limits, and the marks of the context except its mode and its data-stack mark *)
Definition core (s : state) : state :=
  mkstate (dict s) (heap s) (code s) [] [] [] (ds s) (rs s) (flows s) (loops s) (special s)
          (mkctx 0 (cs_len (cx s)) (rs_len (cx s)) (fs_len (cx s)) (ls_len (cx s)) (ss_ptr (cx s))
                 (di_len (cx s)) (cip (cx s)) MMeta)
          [] 0%Z (insn_limit s) (heap_limit s) (stack_limit s) None "" None false.

Section Walk.
  Variable fo : fops.
  Variable pr : string -> option Z.
  Variable rf : nat.
  Variable R : state -> state -> Prop.

  Local Notation mrel := (mrel R).
  Local Notation rres := (rres R).

  Hypothesis R_core : forall s s', R s s' -> core s' = core s.
  Hypothesis R_set_code : forall s s' c, R s s' -> R (set_code s c) (set_code s' c).
  Hypothesis R_set_dict : forall s s' d, R s s' -> R (set_dict s d) (set_dict s' d).
  Hypothesis R_set_flows : forall s s' f, R s s' -> R (set_flows s f) (set_flows s' f).
  Hypothesis H_emit : forall op, mrel (code_emit op).
  Hypothesis H_alloc : forall v, mrel (alloc_heap v).
  Hypothesis H_open : mrel (context_open MMeta).
  Hypothesis H_tok : mrel (get_token pr).
  Hypothesis H_name : mrel (next_name pr).
  (* the words that read the mode or the data-stack mark of the context *)
  Hypothesis H_nested_end : mrel (i_nested_end fo rf).
  Hypothesis H_nested_inject : mrel (i_nested_inject fo rf).
  Hypothesis H_const : mrel (i_const pr).
  (* the situations the related build excludes *)
  Variable nbad : string -> state -> bool.
  Definition mrel_word (name : string) (w : M unit) : Prop :=
    forall s s', R s s' -> nbad name s = false -> rres (w s) (w s').
  Hypothesis H_field_set : mrel_word "%enum-field-set" (i_enum_field_set fo pr rf).
  Hypothesis H_endenum : mrel_word "endenum" (i_endenum fo rf).

  Lemma R_read {B} (f : state -> B) s s' : (forall x, f x = f (core x)) -> R s s' -> f s' = f s.
  Proof. intros Hf H. rewrite (Hf s'), (Hf s), (R_core s s' H). reflexivity. Qed.

  Lemma mrel_get_bind B (k : state -> M B) :
    (forall s0, k s0 = k (core s0)) -> (forall s0, mrel (k s0)) -> mrel (bind get k).
  Proof. intros H1 H2 s s' H. unfold bind, get. rewrite (R_read k s s' H1 H). apply H2, H. Qed.

  Lemma mrel_read B (k : state -> M B) : (forall s0, k s0 = k (core s0)) -> (forall s0, mrel (k s0)) ->
    mrel (fun s => k s s).
  Proof. exact (mrel_get_bind B k). Qed.

  Lemma mrel_set_code c : mrel (modify (fun s => set_code s c)).
  Proof. apply mrel_modify. intros. apply R_set_code. assumption. Qed.
  Lemma mrel_set_dict d : mrel (modify (fun s => set_dict s d)).
  Proof. apply mrel_modify. intros. apply R_set_dict. assumption. Qed.
  Lemma mrel_set_flows f : mrel (modify (fun s => set_flows s f)).
  Proof. apply mrel_modify. intros. apply R_set_flows. assumption. Qed.

  Lemma mrel_backpatch pos op : mrel (backpatch pos op).
  Proof.
    apply (mrel_read _ (fun s0 s => if (pos <? length (code s0))%nat
                                    then modify (fun s => set_code s (list_set (code s0) pos op)) s else panic s));
      [reflexivity|].
    intros s0. destruct (_ <? _)%nat; [apply mrel_set_code|apply mrel_panic].
  Qed.

  Lemma mrel_backpatch_jump pos offs : mrel (backpatch_jump pos offs).
  Proof.
    apply (mrel_read _ (fun s0 s => match nth_error (code s0) pos with
                                    | None => RErr EInternal None s
                                    | Some (OJump _) => backpatch pos (OJump offs) s
                                    | Some (OJumpIf _) => backpatch pos (OJumpIf offs) s
                                    | Some (OJumpIfNot _) => backpatch pos (OJumpIfNot offs) s
                                    | Some (OCaseOf _) => backpatch pos (OCaseOf offs) s
                                    | Some _ => RPanic
                                    end)); [reflexivity|].
    intros s0. destruct (nth_error (code s0) pos) as [[]|];
      first [apply mrel_backpatch|apply mrel_panic|apply mrel_fail].
  Qed.

  Lemma mrel_push_flow f : mrel (push_flow f).
  Proof.
    apply (mrel_read _ (fun s0 => modify (fun s => set_flows s (f :: flows s0)))); [reflexivity|].
    intros s0. apply mrel_set_flows.
  Qed.

  Lemma mrel_pop_flow : mrel pop_flow.
  Proof.
    apply (mrel_read _ (fun s0 s => match flows s0 with
                                    | f :: r => if (fs_len (cx s0) <? length (flows s0))%nat
                                                then (modify (fun s => set_flows s r) ;; ret (Some f)) s
                                                else ROk None s
                                    | [] => ROk None s
                                    end)); [reflexivity|].
    intros s0. destruct (flows s0); [apply mrel_ret|]. destruct (_ <? _)%nat; [|apply mrel_ret].
    apply mrel_bind; [apply mrel_set_flows|intros _; apply mrel_ret].
  Qed.

  Lemma mrel_take_first_cond_flow : mrel take_first_cond_flow.
  Proof.
    apply (mrel_read _ (fun s0 s => match take_cond (pending s0) with
                                    | Some (f, act') =>
                                      (modify (fun s => set_flows s (act' ++ skipn (length (pending s0)) (flows s0))) ;;
                                       ret (Some f)) s
                                    | None => ROk None s
                                    end)); [reflexivity|].
    intros s0. destruct (take_cond (pending s0)) as [[f act']|]; [|apply mrel_ret].
    apply mrel_bind; [apply mrel_set_flows|intros _; apply mrel_ret].
  Qed.

  Lemma mrel_dict_insert name e : mrel (dict_insert name e).
  Proof.
    apply (mrel_read _ (fun s0 => modify (fun s => set_dict s (dict s0 ++ [mkdent name e])) ;;
                                  ret (length (dict s0)))); [reflexivity|].
    intros s0. apply mrel_bind; [apply mrel_set_dict|intros _; apply mrel_ret].
  Qed.

  Ltac mr_prim :=
    lazymatch goal with
    | |- mrel (ret _) => apply mrel_ret
    | |- mrel (fail _ _) => apply mrel_fail
    | |- mrel unsup => apply mrel_unsup
    | |- mrel panic => apply mrel_panic
    | |- mrel (code_emit _) => apply H_emit
    | |- mrel (backpatch _ _) => apply mrel_backpatch
    | |- mrel (backpatch_jump _ _) => apply mrel_backpatch_jump
    | |- mrel (push_flow _) => apply mrel_push_flow
    | |- mrel pop_flow => apply mrel_pop_flow
    | |- mrel take_first_cond_flow => apply mrel_take_first_cond_flow
    | |- mrel (dict_insert _ _) => apply mrel_dict_insert
    | |- mrel (alloc_heap _) => apply H_alloc
    | |- mrel (context_open MMeta) => apply H_open
    | |- mrel (get_token _) => apply H_tok
    | |- mrel (next_name _) => apply H_name
    end.

  (* one step through a term: a primitive, a fact already there, or a bind / a read of the
     state (which must go through [core]) / a case split / the next definition *)
  Ltac mr_step :=
    cbv beta zeta;
    first
      [ mr_prim
      | assumption
      | match goal with H : forall _, _ |- _ => apply H end
      | lazymatch goal with
        | |- mrel (bind get _) => apply mrel_get_bind; [ intro; reflexivity | intro ]
        | |- mrel (bind _ _) => apply mrel_bind; [ | intro ]
        | |- mrel (match ?x with _ => _ end) => destruct x
        | |- mrel ?w => let h := head_of w in unfold h
        end ].

  Ltac mr_solve := repeat mr_step.

  Lemma mrel_endcase_loop : forall fuel org, mrel (endcase_loop fuel org).
  Proof. induction fuel as [|f IH]; intros org; cbn [endcase_loop]; mr_solve. Qed.
  Lemma mrel_repeat_loop : forall fuel, mrel (repeat_loop fuel).
  Proof. induction fuel as [|f IH]; cbn [repeat_loop]; mr_solve. Qed.
  Lemma mrel_loop_loop : forall fuel lo st, mrel (loop_loop fuel lo st).
  Proof. induction fuel as [|f IH]; intros lo st; cbn [loop_loop]; mr_solve. Qed.

  (* the words that write back a state they have read *)
  Lemma mrel_i_immediate : mrel i_immediate.
  Proof.
    intros s s' H. unfold i_immediate. rewrite !bind_get.
    rewrite (R_read top_function_flow s s' (fun _ => eq_refl) H), (R_read dict s s' (fun _ => eq_refl) H).
    destruct (top_function_flow s) as [[[idx st] ls]|]; [|apply mrel_fail, H].
    destruct (nth_error (dict s) idx) as [e|]; [|apply mrel_fail, H].
    destruct (dent e); try exact (mrel_fail R _ _ _ s s' H). split; [reflexivity|apply R_set_dict, H].
  Qed.

  Lemma mrel_i_def_end : mrel i_def_end.
  Proof.
    unfold i_def_end. apply mrel_bind; [apply mrel_pop_flow|intros fl].
    destruct fl as [f|]; [|apply mrel_fail]. destruct f; try exact (mrel_fail R _ _ _).
    apply mrel_bind; [apply H_emit|intros _]. intros s s' H. rewrite !bind_get. cbv zeta.
    rewrite (R_read code_origin s s' (fun _ => eq_refl) H), (R_read dict s s' (fun _ => eq_refl) H).
    destruct (nth_error (dict s) dict_idx); [|apply mrel_fail, H].
    destruct (set_dict_len (dict s) dict_idx (code_origin s - start - 1)); [|exact I].
    unfold bind at 1 2. unfold put. apply mrel_backpatch_jump, R_set_dict, H.
  Qed.

  Lemma mrel_build_local_variable name : mrel (build_local_variable name).
  Proof.
    intros s s' H. unfold build_local_variable. rewrite !bind_get.
    rewrite (R_read top_function_flow s s' (fun _ => eq_refl) H), (R_read pending s s' (fun _ => eq_refl) H),
            (R_read flows s s' (fun _ => eq_refl) H).
    destruct (top_function_flow s) as [[[idx st] ls]|]; [|apply mrel_fail, H].
    cbv zeta. unfold bind, put. apply H_emit, R_set_flows, H.
  Qed.

  Lemma mrel_enum_add_field nm val : mrel (enum_add_field nm val).
  Proof.
    intros s s' H. unfold enum_add_field. rewrite !bind_get.
    rewrite (R_read flows s s' (fun _ => eq_refl) H).
    destruct (flows s) as [|f r]; [apply mrel_fail, H|]. destruct f; try exact (mrel_fail R _ _ _ s s' H).
    destruct (val fields) as [v|]; [|apply mrel_fail, H].
    cbv zeta. unfold bind at 1 3. unfold put.
    assert (X : mrel (let* _ := dict_insert nm (DConst (CInt v)) in i_nested_begin)) by mr_solve.
    apply X, R_set_flows, H.
  Qed.

  Lemma mrel_build_let_named w : mrel (build_let_named w).
  Proof. pose proof mrel_build_local_variable. mr_solve. Qed.

  Lemma mrel_build_let_in f : mrel (build_let_in pr f).
  Proof.
    exact (build_let_in_closed pr (@UnwindRel.mrel R) (mrel_ret R) (mrel_fail R) (mrel_unsup R) (mrel_bind R)
             H_tok H_emit mrel_build_let_named f).
  Qed.

  Lemma mrel_i_enum_field : mrel (i_enum_field fo pr rf).
  Proof. pose proof mrel_enum_add_field. mr_solve. Qed.

  Lemma mrel_word_of name w : mrel w -> mrel_word name w.
  Proof. intros H s s' Hs _. apply H, Hs. Qed.

  Lemma mrel_immediate_fn fuel name w : immediate_fn fo pr rf fuel name = Some w -> mrel_word name w.
  Proof.
    intros H. unfold immediate_fn in H. cbv zeta in H.
    apply (table_find_row mrel_word _ _ _) in H; [exact H|].
    pose proof (mrel_build_let_in fuel).
    pose proof mrel_endcase_loop. pose proof mrel_repeat_loop. pose proof mrel_loop_loop.
    pose proof mrel_i_immediate. pose proof mrel_i_def_end. pose proof mrel_build_local_variable.
    pose proof mrel_i_enum_field.
    repeat (apply Forall_cons;
            [ cbn [fst snd]; first [ exact H_field_set | exact H_endenum | apply mrel_word_of; mr_solve ] | ]).
    apply Forall_nil.
  Qed.

  (* whether user-defined immediate words are excluded as well *)
  Variable ubad : bool.
  Hypothesis H_interp : ubad = false -> forall fuel x, mrel (run_immediate fo pr rf fuel (FInterp x)).

  Definition word_bad (s : state) (name : string) : bool :=
    match dict_entry s name with
    | Some (DFun true (FInterp _) _) => ubad
    | Some (DFun true (FNative w) _) => nbad w s
    | _ => false
    end.

  Lemma rres_build_word f name s s' : R s s' -> word_bad s name = false ->
    rres (build_word fo pr rf f name s) (build_word fo pr rf f name s').
  Proof.
    intros H BW. unfold build_word. rewrite !bind_get.
    rewrite (R_read (fun s => dict_entry s name) s s' (fun _ => eq_refl) H). unfold word_bad in BW.
    destruct (dict_entry s name) as [[c|a|imm fr len]|]; try (apply H_emit, H); [|apply mrel_fail, H].
    destruct imm; [|destruct fr; apply H_emit, H].
    destruct fr as [x|w]; [apply (H_interp BW), H|]. unfold run_immediate.
    destruct (immediate_fn fo pr rf f w) as [prog|] eqn:E; [|exact I].
    apply (mrel_immediate_fn f w prog E); assumption.
  Qed.
End Walk.

Definition runs_first (s : state) : bool := mode_eqb (cmode (cx s)) MMeta && negb (has_pending_flow s).

Section Loop.
  Variable fo : fops.
  Variable pr : string -> option Z.
  Variable rf : nat.
  Variable wbad : state -> string -> bool.

  (* replays the token loop of [build1] and reports whether it meets a word that [wbad] excludes *)
  Fixpoint watch (fuel depth : nat) (s : state) : bool :=
    match fuel with
    | O => false
    | S f =>
      match (if mode_eqb (cmode (cx s)) MMeta && negb (has_pending_flow s) then run_m fo rf else ret tt) s with
      | ROk _ s0 =>
        match get_token pr s0 with
        | ROk (BLit v) s1 =>
          match code_emit_value v s1 with ROk _ s2 => watch f depth s2 | _ => false end
        | ROk (BWord name) s1 =>
          let via_word :=
              wbad s1 name ||
              match build_word fo pr rf f name s1 with ROk _ s2 => watch f depth s2 | _ => false end in
          match top_function_flow s1 with
          | Some (_, _, ls) =>
            match rposition ls name 0 None with
            | Some i => match code_emit (OLoadLocal i) s1 with ROk _ s2 => watch f depth s2 | _ => false end
            | None => via_word
            end
          | None => via_word
          end
        | _ => false
        end
      | _ => false
      end
    end.

  Variable R : state -> state -> Prop.
  Local Notation mrel := (mrel R).
  Local Notation rres := (rres R).

  Hypothesis L_first : forall s s', R s s' -> runs_first s' = runs_first s.
  Hypothesis L_run : forall s s', R s s' -> runs_first s = true -> rres (run_m fo rf s) (run_m fo rf s').
  Hypothesis L_tok : mrel (get_token pr).
  Hypothesis L_emit : forall op, mrel (code_emit op).
  Hypothesis L_end : forall depth,
    mrel (let* s' := get in
          if negb (length (nested s') =? depth)%nat then fail EContext None
          else if has_pending_flow s' then fail EFlow None
          else ret tt).
  Hypothesis L_tff : forall s s', R s s' -> top_function_flow s' = top_function_flow s.
  Hypothesis L_word : forall f name s s', R s s' -> wbad s name = false ->
    rres (build_word fo pr rf f name s) (build_word fo pr rf f name s').

  Theorem rres_build1 : forall fuel depth s s', R s s' -> watch fuel depth s = false ->
    rres (build1 fo pr rf fuel depth s) (build1 fo pr rf fuel depth s').
  Proof.
    induction fuel as [|f IH]; intros depth s s' H CB; cbn [build1]; [exact I|].
    cbn [watch] in CB. rewrite !bind_get.
    fold (runs_first s) in *. fold (runs_first s'). rewrite (L_first s s' H).
    (* the run that precedes the token *)
    apply rres_bind.
    { destruct (runs_first s) eqn:E; [apply L_run; assumption|apply mrel_ret, H]. }
    intros u t t' E0 Ht. rewrite E0 in CB.
    apply rres_bind; [apply L_tok, Ht|]. intros tk t1 t1' E1 H1. rewrite E1 in CB.
    (* whatever is compiled for the token, the two loops go on from related states *)
    assert (W : forall (P : M unit) cb, rres (P t1) (P t1') ->
                match P t1 with ROk _ s2 => watch f depth s2 | _ => false end = cb -> cb = false ->
                rres ((P ;; build1 fo pr rf f depth) t1) ((P ;; build1 fo pr rf f depth) t1')).
    { intros P cb X <- C. apply rres_bind; [exact X|]. intros u2 t2 t2' E2 H2. rewrite E2 in C.
      apply IH; assumption. }
    destruct tk as [|name|v].
    - apply L_end, H1.
    - rewrite !bind_get, (L_tff t1 t1' H1). cbv zeta in CB.
      assert (V : wbad t1 name ||
                  match build_word fo pr rf f name t1 with ROk _ s2 => watch f depth s2 | _ => false end = false ->
                  rres ((build_word fo pr rf f name;; build1 fo pr rf f depth) t1)
                       ((build_word fo pr rf f name;; build1 fo pr rf f depth) t1')).
      { intros CW. apply orb_false_iff in CW. destruct CW as [C1 C2].
        exact (W _ _ (L_word f name t1 t1' H1 C1) eq_refl C2). }
      destruct (top_function_flow t1) as [[[idx st] ls]|]; [|exact (V CB)].
      destruct (rposition ls name 0 None) as [i|]; [|exact (V CB)].
      exact (W _ _ (L_emit (OLoadLocal i) t1 t1' H1) eq_refl CB).
    - exact (W _ _ (L_emit (load_value_opcode v) t1 t1' H1) eq_refl CB).
  Qed.
End Loop.

Lemma watch_none fo pr rf : forall fuel depth s, watch fo pr rf (fun _ _ => false) fuel depth s = false.
Proof.
  induction fuel as [|f IH]; intros depth s; cbn [watch]; [reflexivity|].
  match goal with |- context [?P s] => destruct (P s) as [u s0| | |] end; try reflexivity.
  destruct (get_token pr s0) as [[|name|v] s1| | |]; try reflexivity.
  - assert (V : false || match build_word fo pr rf f name s1 with
                         | ROk _ s2 => watch fo pr rf (fun _ _ => false) f depth s2 | _ => false end = false)
      by (destruct (build_word fo pr rf f name s1); cbn; auto).
    cbv zeta. destruct (top_function_flow s1) as [[[idx st] ls]|]; [|exact V].
    destruct (rposition ls name 0 None); [|exact V]. destruct (code_emit _ s1); auto.
  - destruct (code_emit_value v s1); auto.
Qed.
