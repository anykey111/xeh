(* PackDefs.v: the vocabulary of the C07 statements: typed fields, what packing a field
   produces, how it is handed to >bitstr, how it is read back, and which value is expected.
   Definitions only. *)
From Xeh Require Import Model.Prelude Model.Bits Model.Codec Model.Cell Model.Lexer Model.Fmt
                        Model.Vm Model.Words.
From Xeh Require Import Proofs.CodecBasic Proofs.VmStep Proofs.CursorDefs.
Local Notation length := List.length.

Inductive field :=
| FInt (w : nat) (signed : bool) (o : order) (v : Z)   (* v w int! / uint!, any v *)
| FF32 (o : order) (v : Z)                              (* a real (binary64 pattern) packed as 32 bits *)
| FF64 (o : order) (v : Z)                              (* a real packed as 64 bits *)
| FBits (b : cbs)
| FStr (t : string)                                     (* a string: its UTF-8 bytes *)
| FBytes (l : list N).                                  (* a vector of byte values *)

Section Pack.
  Variable fo : fops.

  Definition pack_field (f : field) : cbs :=
    match f with
    | FInt w _ o v => from_int v w o
    | FF32 o v => from_fbits 4 o (f_to_f32 fo v)
    | FF64 o v => from_fbits 8 o v
    | FBits b => b
    | FStr t => from_bytes (bytes_of_string t)
    | FBytes l => from_bytes l
    end.

  Definition width (f : field) : nat :=
    match f with
    | FInt w _ _ _ => w
    | FF32 _ _ => 32
    | FF64 _ _ => 64
    | FBits b => clen b
    | FStr t => 8 * length (bytes_of_string t)
    | FBytes l => 8 * length l
    end.

  Definition field_bits (f : field) : list bool := abs (pack_field f).
  Definition fields_bits (fs : list field) : list bool := flat_map field_bits fs.
  Definition total_width (fs : list field) : nat := fold_right (fun f a => width f + a) 0 fs.

  Definition field_ok (f : field) : Prop :=
    match f with
    | FBits b => wf b
    | FBytes l => Forall (fun x => (x < 256)%N) l
    | _ => True
    end.

  (* the fields the reading words can take back: uint up to 127 bits, int up to 128 *)
  Definition field_rd_ok (f : field) : Prop :=
    field_ok f /\
    match f with
    | FInt w false _ _ => 1 <= w <= 127
    | FInt w true _ _ => 1 <= w <= 128
    | _ => True
    end.

  (* concatenation of packed fields, as >bitstr and emit do it *)
  Definition pack (fs : list field) : cbs :=
    fold_left (fun acc f => Bits.append false acc (pack_field f)) fs (mkcbs 0 0 []).

  Definition field_item (f : field) : cell :=
    match f with
    | FStr t => CStr t
    | FBytes l => CVec (map (fun x => CInt (Z.of_N x)) l)
    | _ => CBits (pack_field f)
    end.

  Definition pack_word (f : field) : M unit :=
    match f with
    | FInt w _ o _ => pack_int (Z.of_nat w) o
    | FF32 o _ => pack_float fo 32 o
    | FF64 o _ => pack_float fo 64 o
    | _ => ret tt
    end.
  Definition field_arg (f : field) : cell :=
    match f with
    | FInt _ _ _ v => CInt v
    | FF32 _ v | FF64 _ v => CReal v
    | _ => field_item f
    end.

  Definition read_field (f : field) : M unit :=
    match f with
    | FInt w false o _ => read_unsigned (Z.of_nat w) o
    | FInt w true o _ => read_signed (Z.of_nat w) o
    | FF32 o _ => read_float fo 32 o
    | FF64 o _ => read_float fo 64 o
    | f => read_bits (Z.of_nat (width f))
    end.

  Fixpoint read_fields (fs : list field) : M unit :=
    match fs with
    | [] => ret tt
    | f :: r => read_field f ;; read_fields r
    end.

  (* what reading the field back yields: the original value reduced to the field's width *)
  Definition field_value (f : field) (c : cell) : Prop :=
    match f with
    | FInt w false _ v => value c = CInt (v mod 2 ^ Z.of_nat w)
    | FInt w true _ v => value c = CInt (sext w (v mod 2 ^ Z.of_nat w))
    | FF32 _ v => value c = CReal (f_of_f32 fo (f_to_f32 fo v mod 2 ^ 32))
    | FF64 _ v => value c = CReal (v mod 2 ^ 64)
    | f => exists b, c = CBits b /\ wf b /\ abs b = field_bits f
    end.
End Pack.

Definition h_output (h : list cell) : option cbs :=
  match nth_error h R_OUTPUT with
  | Some c => match value c with CBits b => Some b | _ => None end
  | None => None
  end.
Definition h_outlen (h : list cell) : option Z :=
  match nth_error h R_OUTLEN with
  | Some c => match value c with CInt z => Some z | _ => None end
  | None => None
  end.

(* interception is on: `output` holds a well-formed bit-string [ob], `output-length` [n] *)
Definition emitting (s : state) (ob : cbs) (n : Z) : Prop :=
  notmeta s /\ 6 <= length (heap s) /\ ds_len (cx s) <= length (ds s) /\
  h_output (heap s) = Some ob /\ wf ob /\ h_outlen (heap s) = Some n /\ (0 <= n)%Z.

Fixpoint emit_all (cs : list cbs) : M unit :=
  match cs with
  | [] => ret tt
  | c :: r => push_data (CBits c) ;; w_emit ;; emit_all r
  end.

(* the XEH source  [ v1 w1 int!  v2 w2 uint!  x f64!  "str"  [ 1 2 3 ] ... ] >bitstr :
   %vec-begin, then per field its value (and width) and packing word, %vec-end, >bitstr *)
Section Build.
  Variable fo : fops.
  Fixpoint push_fields (fs : list field) : M unit :=
    match fs with
    | [] => ret tt
    | f :: r => push_data (field_arg fo f) ;; pack_word fo f ;; push_fields r
    end.
  Definition build (fs : list field) : M unit :=
    w_vec_begin ;; push_fields fs ;; w_vec_end ;; w_into_bitstr.
End Build.

(* at the level of source text the order is chosen with `big` / `little`, widths are literals:
     big v w int!     little x 64 float!     "str"     [ 1 2 3 ]
   and read back with     big w int     little 64 float     n bits *)
Definition big_flag (o : order) : bool := match o with Big => true | Little => false end.

Section Surface.
  Variable fo : fops.

  Definition pack_src (f : field) : M unit :=
    match f with
    | FInt w _ o v =>
      w_set_order (big_flag o) ;; push_data (CInt v) ;; push_data (cnat w) ;;
      with_size (fun n => with_order (pack_int n))
    | FF32 o v =>
      w_set_order (big_flag o) ;; push_data (CReal v) ;; push_data (cnat 32) ;;
      with_size (fun n => with_order (pack_float fo n))
    | FF64 o v =>
      w_set_order (big_flag o) ;; push_data (CReal v) ;; push_data (cnat 64) ;;
      with_size (fun n => with_order (pack_float fo n))
    | f => push_data (field_item fo f)
    end.

  Fixpoint push_fields_src (fs : list field) : M unit :=
    match fs with
    | [] => ret tt
    | f :: r => pack_src f ;; push_fields_src r
    end.

  Definition build_src (fs : list field) : M unit :=
    w_vec_begin ;; push_fields_src fs ;; w_vec_end ;; w_into_bitstr.

  Definition read_src (f : field) : M unit :=
    match f with
    | FInt w false o _ =>
      w_set_order (big_flag o) ;; push_data (cnat w) ;; with_size (fun n => with_order (read_unsigned n))
    | FInt w true o _ =>
      w_set_order (big_flag o) ;; push_data (cnat w) ;; with_size (fun n => with_order (read_signed n))
    | FF32 o _ =>
      w_set_order (big_flag o) ;; push_data (cnat 32) ;; with_size (fun n => with_order (read_float fo n))
    | FF64 o _ =>
      w_set_order (big_flag o) ;; push_data (cnat 64) ;; with_size (fun n => with_order (read_float fo n))
    | f => push_data (cnat (width f)) ;; with_size read_bits
    end.

  Fixpoint read_fields_src (fs : list field) : M unit :=
    match fs with
    | [] => ret tt
    | f :: r => read_src f ;; read_fields_src r
    end.

  Definition parse_back_src (fs : list field) : M unit :=
    w_open_bitstr ;; read_fields_src fs ;; w_remain.
End Surface.
