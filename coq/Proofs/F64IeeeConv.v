(* F64IeeeConv.v: the integer-arithmetic conversions of Model/F64c.v agree with Flocq:
   rne_shr is ZnearestE of a / 2^k, rounding of m * 2^e to binary64 in integer terms,
   f64_of_int = Flocq's binary_normalize, f64_to_int = saturated Ztrunc, f64_round = ZnearestA. *)
From Coq Require Import ZArith Reals Lia Lra Psatz.
From Flocq Require Import Core.Core IEEE754.BinarySingleNaN IEEE754.Binary IEEE754.Bits.
From Xeh Require Import Model.Prelude Model.Cell Model.F64c Model.Words Model.Boot Model.F64.
From Xeh Require Import Proofs.ArithNum Proofs.F64cProofs Proofs.F64Ieee.
Local Open Scope Z_scope.

Lemma bpow2 k : 0 <= k -> bpow radix2 k = IZR (2 ^ k).
Proof. intros H. rewrite <- (IZR_Zpower radix2) by exact H. reflexivity. Qed.

Lemma nearest_shr choice a k : 0 <= a -> 0 < k ->
  Znearest choice (IZR a * bpow radix2 (- k)) =
  let q := a / 2 ^ k in
  match a mod 2 ^ k ?= 2 ^ (k - 1) with
  | Lt => q | Eq => if choice q then q + 1 else q | Gt => q + 1
  end.
Proof.
  intros Ha Hk. cbv zeta.
  set (P := 2 ^ k). set (h := 2 ^ (k - 1)).
  assert (HP : P = 2 * h). { unfold P, h. replace k with (1 + (k - 1)) at 1 by lia. rewrite Z.pow_add_r by lia. reflexivity. }
  assert (Hh : 0 < h) by (apply Z.pow_pos_nonneg; lia).
  pose proof (Z.div_mod a P ltac:(lia)) as DM. pose proof (Z.mod_pos_bound a P ltac:(lia)) as MB.
  set (q := a / P) in *. set (r := a mod P) in *.
  rewrite bpow_opp, (bpow2 k) by lia. fold P.
  assert (RP : (0 < IZR P)%R) by (apply IZR_lt; lia).
  assert (Fl : Zfloor (IZR a * / IZR P) = q). { apply (Zfloor_div a P). lia. }
  assert (Fr : (IZR a * / IZR P - IZR q = IZR r * / IZR P)%R).
  { rewrite DM. rewrite plus_IZR, mult_IZR. field. lra. }
  assert (Cmp : Rcompare (IZR r * / IZR P) (/ 2) = (r ?= h)).
  { rewrite <- (Rcompare_mult_r (IZR P)) by exact RP.
    replace (IZR r * / IZR P * IZR P)%R with (IZR r) by (field; lra).
    replace (/ 2 * IZR P)%R with (IZR h) by (rewrite HP, mult_IZR; field).
    apply Rcompare_IZR. }
  unfold Znearest. rewrite Fl, Fr, Cmp.
  assert (Ce : r <> 0 -> Zceil (IZR a * / IZR P) = q + 1).
  { intros Hr. rewrite Zceil_floor_neq; [rewrite Fl; reflexivity|]. rewrite Fl. intros E.
    assert (IZR r * / IZR P = 0)%R as E2 by lra.
    apply Rmult_integral in E2. destruct E2 as [E2|E2].
    - apply eq_IZR in E2. contradiction.
    - pose proof (Rinv_0_lt_compat _ RP). lra. }
  destruct (Z.compare_spec r h) as [E|L|G].
  - destruct (choice q); [|reflexivity]. apply Ce. lia.
  - reflexivity.
  - apply Ce. lia.
Qed.

Lemma rne_shr_nearest a k : 0 <= a -> 0 < k ->
  ZnearestE (IZR a * bpow radix2 (- k)) = rne_shr a k.
Proof.
  intros Ha Hk. rewrite nearest_shr by assumption. cbv zeta.
  unfold rne_shr. replace (k <=? 0) with false by lia. cbv zeta.
  rewrite <- Z.negb_even.
  destruct (Z.compare_spec (a mod 2 ^ k) (2 ^ (k - 1))) as [E|L|G].
  - replace (2 ^ (k - 1) <? a mod 2 ^ k) with false by lia. replace (a mod 2 ^ k =? 2 ^ (k - 1)) with true by lia.
    reflexivity.
  - replace (2 ^ (k - 1) <? a mod 2 ^ k) with false by lia. replace (a mod 2 ^ k =? 2 ^ (k - 1)) with false by lia.
    reflexivity.
  - replace (2 ^ (k - 1) <? a mod 2 ^ k) with true by lia. reflexivity.
Qed.

Lemma half_up_nearest a k : 0 <= a -> 0 < k ->
  ZnearestA (IZR a * bpow radix2 (- k)) = if 2 ^ (k - 1) <=? a mod 2 ^ k then a / 2 ^ k + 1 else a / 2 ^ k.
Proof.
  intros Ha Hk. rewrite nearest_shr by assumption. cbv zeta.
  assert (0 <= a / 2 ^ k) by (apply Z.div_pos; [lia|apply Z.pow_pos_nonneg; lia]).
  replace (0 <=? a / 2 ^ k) with true by lia.
  destruct (Z.compare_spec (a mod 2 ^ k) (2 ^ (k - 1))) as [E|L|G].
  - replace (2 ^ (k - 1) <=? a mod 2 ^ k) with true by lia. reflexivity.
  - replace (2 ^ (k - 1) <=? a mod 2 ^ k) with false by lia. reflexivity.
  - replace (2 ^ (k - 1) <=? a mod 2 ^ k) with true by lia. reflexivity.
Qed.

Lemma nearest_IZR choice n : Znearest choice (IZR n) = n.
Proof. apply Znearest_imp. rewrite Rminus_diag_eq by reflexivity. rewrite Rabs_R0. lra. Qed.

Lemma nearestA_opp x : ZnearestA (- x) = - ZnearestA x.
Proof.
  rewrite Znearest_opp. f_equal. unfold Znearest.
  destruct (Rcompare (x - IZR (Zfloor x)) (/ 2)); try reflexivity.
  replace (negb (0 <=? - (Zfloor x + 1))) with (0 <=? Zfloor x) by lia. reflexivity.
Qed.

Lemma nearestA_cond s x : ZnearestA (cond_Ropp s x) = cond_Zopp s (ZnearestA x).
Proof. destruct s; cbn [cond_Ropp cond_Zopp]; [apply nearestA_opp|reflexivity]. Qed.

Lemma Zdigits_bitlen a : 0 < a -> Zdigits radix2 a = bitlen a.
Proof.
  intros Ha. symmetry. pose proof (Zdigits_correct radix2 a) as C.
  rewrite Z.abs_eq in C by lia.
  assert (0 < Zdigits radix2 a) by (apply Zdigits_gt_0; lia).
  apply bitlen_unique; [lia|]. exact C.
Qed.

(* rounding m * 2^e (m > 0) to binary64: the significand is shifted to the canonical exponent *)
Lemma round_scaled a e : 0 < a ->
  let c := Z.max (bitlen a + e - 53) (-1074) in
  rnd64 (IZR a * bpow radix2 e) = (IZR (rne_shr a (c - e)) * bpow radix2 c)%R.
Proof.
  intros Ha c. unfold round.
  assert (X : (IZR a * bpow radix2 e)%R = F2R (Float radix2 a e)) by reflexivity.
  assert (Hc : cexp radix2 (FLT_exp (-1074) 53) (IZR a * bpow radix2 e) = c).
  { unfold cexp. rewrite X, mag_F2R_Zdigits by lia. rewrite Zdigits_bitlen by exact Ha. reflexivity. }
  unfold scaled_mantissa. rewrite Hc. unfold F2R. cbn [Fnum Fexp]. f_equal. f_equal.
  rewrite Rmult_assoc, <- bpow_plus.
  destruct (Z.leb_spec (c - e) 0) as [K|K].
  - unfold rne_shr. replace (c - e <=? 0) with true by lia.
    replace (e + - c) with (- (c - e)) by lia. rewrite bpow2 by lia. rewrite <- mult_IZR. apply nearest_IZR.
  - replace (e + - c) with (- (c - e)) by lia. apply rne_shr_nearest; lia.
Qed.

Lemma fval_mag p : f64_pat p -> f64_exp p <> 2047 ->
  fval p = cond_Ropp (f64_neg p) (IZR (f64_mant p) * bpow radix2 (f64_ex p)).
Proof. intros H F. rewrite (fval_spec p H F), F2R_cond_Zopp. reflexivity. Qed.

Lemma fval_pack s E m : 1 <= E -> 2 ^ 52 <= m <= 2 ^ 53 -> (E <= 2045 \/ (E <= 2046 /\ m < 2 ^ 53)) ->
  let p := f64_sign_bit s + E * 2 ^ 52 + (m - 2 ^ 52) in
  f64_pat p /\ f64_neg p = s /\ f64_exp p <> 2047 /\
  fval p = cond_Ropp s (IZR m * bpow radix2 (E - 1075)).
Proof.
  intros HE Hm Hov p.
  destruct (Z.eq_dec m (2 ^ 53)) as [M|M].
  - assert (Ep : p = f64_sign_bit s + (E + 1) * 2 ^ 52 + 0) by (unfold p; rewrite M, p53, p52; lia).
    destruct (f64_fields s (E + 1) 0 ltac:(lia) ltac:(rewrite p52; lia)) as (P1 & P2 & P3 & P4).
    cbv zeta in P1, P2, P3, P4. rewrite <- Ep in P1, P2, P3, P4.
    split; [exact P1|]. split; [exact P4|]. split; [lia|].
    rewrite (fval_mag p P1) by lia. rewrite P4. unfold f64_mant, f64_ex. rewrite P2, P3.
    replace (E + 1 =? 0) with false by lia. f_equal. rewrite M.
    replace (E + 1 - 1075) with (1 + (E - 1075)) by lia. rewrite bpow_plus.
    replace (2 ^ 52 + 0) with (2 ^ 52) by lia.
    change (2 ^ 53) with (2 ^ 52 * 2). rewrite mult_IZR. change (bpow radix2 1) with 2%R. ring.
  - destruct (f64_fields s E (m - 2 ^ 52) ltac:(lia) ltac:(rewrite p52 in *; rewrite p53 in *; lia)) as (P1 & P2 & P3 & P4).
    cbv zeta in P1, P2, P3, P4. fold p in P1, P2, P3, P4.
    split; [exact P1|]. split; [exact P4|]. split; [lia|].
    rewrite (fval_mag p P1) by lia. rewrite P4. unfold f64_mant, f64_ex. rewrite P2, P3.
    replace (E =? 0) with false by lia. f_equal. f_equal. f_equal. lia.
Qed.

Lemma fval_pack_sub s n : 0 <= n <= 2 ^ 52 ->
  let p := f64_sign_bit s + n in
  f64_pat p /\ f64_neg p = s /\ f64_exp p <> 2047 /\
  fval p = cond_Ropp s (IZR n * bpow radix2 (-1074)).
Proof.
  intros Hn p.
  destruct (Z.eq_dec n (2 ^ 52)) as [M|M].
  - assert (Ep : p = f64_sign_bit s + 1 * 2 ^ 52 + 0) by (unfold p; rewrite M; lia).
    destruct (f64_fields s 1 0 ltac:(lia) ltac:(rewrite p52; lia)) as (P1 & P2 & P3 & P4).
    cbv zeta in P1, P2, P3, P4. rewrite <- Ep in P1, P2, P3, P4.
    split; [exact P1|]. split; [exact P4|]. split; [lia|].
    rewrite (fval_mag p P1) by lia. rewrite P4. unfold f64_mant, f64_ex. rewrite P2, P3.
    cbn [Z.eqb]. rewrite M. f_equal.
  - assert (Ep : p = f64_sign_bit s + 0 * 2 ^ 52 + n) by (unfold p; lia).
    destruct (f64_fields s 0 n ltac:(lia) ltac:(lia)) as (P1 & P2 & P3 & P4).
    cbv zeta in P1, P2, P3, P4. rewrite <- Ep in P1, P2, P3, P4.
    split; [exact P1|]. split; [exact P4|]. split; [lia|].
    rewrite (fval_mag p P1) by lia. rewrite P4. unfold f64_mant, f64_ex. rewrite P2, P3.
    reflexivity.
Qed.

#[local] Instance prec53 : Prec_gt_0 53 := eq_refl.

Lemma sig_of_rne a : sig_of a = rne_shr a (bitlen a - 53).
Proof.
  unfold sig_of, rne_shr. cbv zeta.
  destruct (Z.leb_spec (bitlen a) 53).
  - replace (bitlen a - 53 <=? 0) with true by lia. f_equal. f_equal. lia.
  - replace (bitlen a - 53 <=? 0) with false by lia. reflexivity.
Qed.

Lemma cond_Ropp_0 s : cond_Ropp s 0 = 0%R.
Proof. destruct s; cbn; lra. Qed.

Lemma scaled_lt m e j n : 0 <= j -> m < 2 ^ j -> j + e <= n -> (IZR m * bpow radix2 e < bpow radix2 n)%R.
Proof.
  intros Hj Hm Hn. apply Rlt_le_trans with (bpow radix2 j * bpow radix2 e)%R.
  - apply Rmult_lt_compat_r; [apply bpow_gt_0|]. rewrite bpow2 by exact Hj. apply IZR_lt, Hm.
  - rewrite <- bpow_plus. apply bpow_le, Hn.
Qed.
Lemma scaled_ge m e j n : 0 <= j -> 2 ^ j <= m -> n <= j + e -> (bpow radix2 n <= IZR m * bpow radix2 e)%R.
Proof.
  intros Hj Hm Hn. apply Rle_trans with (bpow radix2 j * bpow radix2 e)%R.
  - rewrite <- bpow_plus. apply bpow_le, Hn.
  - apply Rmult_le_compat_r; [apply bpow_ge_0|]. rewrite bpow2 by exact Hj. apply IZR_le, Hm.
Qed.

(* a significand that rounding carried up to 2^53 needs no case of its own: packed as it is,
   it runs over into the exponent field *)
Lemma pack_carry s E m :
  (let '(m', E') := if m =? 2 ^ 53 then (2 ^ 52, E + 1) else (m, E) in
   if 2047 <=? E' then f64_sign_bit s + 2047 * 2 ^ 52 else f64_sign_bit s + E' * 2 ^ 52 + (m' - 2 ^ 52))
  = if 2047 <=? (if m =? 2 ^ 53 then E + 1 else E) then f64_inf s
    else f64_sign_bit s + E * 2 ^ 52 + (m - 2 ^ 52).
Proof.
  destruct (Z.eqb_spec m (2 ^ 53)) as [->|]; [|reflexivity].
  destruct (2047 <=? E + 1); [reflexivity|]. rewrite p52, p53. lia.
Qed.

Lemma of_scaled_correct neg m e : 0 < m ->
  let p := f64_of_scaled neg m e in
  let v := rnd64 (IZR m * bpow radix2 e) in
  f64_pat p /\ f64_neg p = neg /\
  ((v < bpow radix2 1024)%R -> f64_exp p <> 2047 /\ fval p = cond_Ropp neg v) /\
  ((bpow radix2 1024 <= v)%R -> p = f64_inf neg).
Proof.
  intros Hm p v. unfold p, f64_of_scaled. replace (m =? 0) with false by lia. cbv zeta.
  destruct (bitlen_spec m Hm) as (L1 & L2 & L3). set (L := bitlen m) in *.
  pose proof (round_scaled m e Hm) as RS. cbv zeta in RS. fold L in RS. fold v in RS.
  destruct (Z.ltb_spec 0 (e + (L - 53) + 1075)) as [G|G].
  - replace (Z.max (L + e - 53) (-1074)) with (e + (L - 53)) in RS by lia.
    replace (e + (L - 53) - e) with (L - 53) in RS by lia.
    pose proof (sig_of_range m Hm) as SR. rewrite sig_of_rne in SR. fold L in SR.
    set (m53 := rne_shr m (L - 53)) in *. set (E := e + (L - 53) + 1075) in *.
    replace (e + (L - 53)) with (E - 1075) in RS by (unfold E; lia).
    rewrite pack_carry.
    destruct (Z.leb_spec 2047 (if m53 =? 2 ^ 53 then E + 1 else E)) as [O|O].
    + assert (Hv : (bpow radix2 1024 <= v)%R).
      { rewrite RS. destruct (Z.eqb_spec m53 (2 ^ 53)); [apply (scaled_ge _ _ 53)|apply (scaled_ge _ _ 52)]; lia. }
      split; [apply inf_pat|]. split; [destruct neg; reflexivity|]. split; [lra|reflexivity].
    + assert (Hv : (v < bpow radix2 1024)%R).
      { rewrite RS. destruct (Z.eqb_spec m53 (2 ^ 53)); [apply (scaled_lt _ _ 54)|apply (scaled_lt _ _ 53)];
          rewrite ?p53 in *; lia. }
      destruct (fval_pack neg E m53 ltac:(lia) SR ltac:(destruct (m53 =? 2 ^ 53) eqn:Q; lia)) as (P1 & P2 & P3 & P4).
      cbv zeta in P1, P2, P3, P4. rewrite <- RS in P4.
      split; [exact P1|]. split; [exact P2|]. split; [auto|lra].
  - replace (Z.max (L + e - 53) (-1074)) with (-1074) in RS by lia.
    replace (-1074 - e) with (- (e + 1074)) in RS by lia.
    set (k := - (e + 1074)) in *. set (n := rne_shr m k) in *.
    assert (Hn : 0 <= n <= 2 ^ 52).
    { unfold n. destruct (Z.leb_spec k 0) as [K|K].
      - unfold rne_shr. replace (k <=? 0) with true by lia.
        assert (0 < 2 ^ (- k)) by (apply Z.pow_pos_nonneg; lia).
        assert (m * 2 ^ (- k) < 2 ^ L * 2 ^ (- k)) by nia.
        rewrite <- Z.pow_add_r in * by lia.
        assert (2 ^ (L + - k) <= 2 ^ 52) by (apply Z.pow_le_mono_r; lia). nia.
      - pose proof (rne_shr_bounds m k ltac:(lia) K) as RB.
        assert (0 < 2 ^ k) by (apply Z.pow_pos_nonneg; lia).
        assert (0 <= m / 2 ^ k) by (apply Z.div_pos; lia).
        assert (m / 2 ^ k < 2 ^ 52).
        { apply Z.div_lt_upper_bound; [lia|].
          assert (2 ^ L <= 2 ^ (k + 52)) by (apply Z.pow_le_mono_r; lia).
          rewrite Z.pow_add_r in * by lia. lia. }
        lia. }
    assert (Hv : (v < bpow radix2 1024)%R) by (rewrite RS; apply (scaled_lt _ _ 53); rewrite ?p52, ?p53 in *; lia).
    destruct (fval_pack_sub neg n Hn) as (P1 & P2 & P3 & P4). cbv zeta in P1, P2, P3, P4. rewrite <- RS in P4.
    split; [exact P1|]. split; [exact P2|]. split; [auto|lra].
Qed.

Lemma rnd64_small x : (Rabs x < bpow radix2 1023)%R -> (Rabs (rnd64 x) < bpow radix2 1024)%R.
Proof.
  intros H. apply Rle_lt_trans with (bpow radix2 1023); [|apply bpow_lt; lia].
  apply abs_round_le_generic; try typeclasses eauto.
  - apply generic_format_bpow. unfold FLT_exp. lia.
  - lra.
Qed.

Lemma rnd64_exact m e : Z.abs m < 2 ^ 53 -> -1074 <= e ->
  rnd64 (IZR m * bpow radix2 e) = (IZR m * bpow radix2 e)%R.
Proof.
  intros Hm He. apply round_generic; [typeclasses eauto|]. apply generic_format_FLT.
  exists (Float radix2 m e); [reflexivity|exact Hm|exact He].
Qed.

Lemma of_mag_scaled s a : 0 <= a -> bitlen a <= 1023 -> f64_of_mag s a = f64_of_scaled s a 0.
Proof.
  intros Ha L2. unfold f64_of_mag, f64_of_scaled. destruct (Z.eqb_spec a 0) as [A0|A0]; [reflexivity|]. cbv zeta.
  destruct (bitlen_spec a ltac:(lia)) as (L1 & _).
  pose proof (sig_of_range a ltac:(lia)) as SR. rewrite sig_of_rne in SR.
  replace (0 <? 0 + (bitlen a - 53) + 1075) with true by lia. rewrite pack_carry.
  replace (2047 <=? (if rne_shr a (bitlen a - 53) =? 2 ^ 53 then 0 + (bitlen a - 53) + 1075 + 1 else 0 + (bitlen a - 53) + 1075))
    with false by (destruct (rne_shr a (bitlen a - 53) =? 2 ^ 53); lia).
  destruct (Z.leb_spec (bitlen a) 53) as [S|S].
  - unfold rne_shr. replace (bitlen a - 53 <=? 0) with true by lia.
    replace (- (bitlen a - 53)) with (53 - bitlen a) by lia. lia.
  - destruct (Z.eqb_spec (rne_shr a (bitlen a - 53)) (2 ^ 53)) as [Q|Q]; [rewrite Q, p52, p53|]; lia.
Qed.

(* the bound is on the bit length: a hypothesis a < 2^1023 would put a 1023-bit numeral into every
   certificate of [lia] below *)
Lemma of_mag_correct s a : 0 <= a -> bitlen a <= 1023 ->
  let p := f64_of_mag s a in
  f64_pat p /\ f64_neg p = s /\ f64_exp p <> 2047 /\ fval p = cond_Ropp s (rnd64 (IZR a)).
Proof.
  intros Ha L p. unfold p. rewrite of_mag_scaled by assumption.
  destruct (Z.eq_dec a 0) as [A0|A0].
  - rewrite A0, round_0 by typeclasses eauto.
    destruct (fval_pack_sub s 0 ltac:(lia)) as (P1 & P2 & P3 & P4). cbv zeta in P1, P2, P3, P4.
    rewrite Z.add_0_r, Rmult_0_l in *. auto.
  - destruct (of_scaled_correct s a 0 ltac:(lia)) as (P1 & P2 & P3 & _). cbv zeta in P1, P2, P3.
    change (bpow radix2 0) with 1%R in P3. rewrite Rmult_1_r in P3.
    destruct P3 as (P3 & P4); [|auto].
    apply Rle_lt_trans with (1 := Rle_abs _). apply rnd64_small.
    destruct (bitlen_spec a ltac:(lia)) as (L1 & _ & L3).
    rewrite Rabs_pos_eq by (apply IZR_le, Ha).
    apply Rlt_le_trans with (bpow radix2 (bitlen a)); [rewrite bpow2 by lia; apply IZR_lt, L3|apply bpow_le, L].
Qed.

(* Flocq's correctly rounded conversion of an integer *)
Definition b64_of_Z (z : Z) : binary64 := binary_normalize 53 1024 eq_refl eq_refl mode_NE z 0 false.

Lemma fval_of_int z : Z.abs z < 2 ^ 1023 ->
  fval (f64_of_int z) = rnd64 (IZR z) /\ f64_exp (f64_of_int z) <> 2047 /\ f64_neg (f64_of_int z) = (z <? 0) /\
  f64_pat (f64_of_int z).
Proof.
  intros Hz. unfold f64_of_int.
  pose proof (bitlen_bound _ 1023 ltac:(discriminate) Hz) as L. clear Hz.
  destruct (of_mag_correct (z <? 0) (Z.abs z) (Z.abs_nonneg z) L) as (P1 & P2 & P3 & P4). cbv zeta in P1, P2, P3, P4.
  split; [|split; [exact P3|split; [exact P2|exact P1]]]. rewrite P4.
  assert (V : IZR z = cond_Ropp (z <? 0) (IZR (Z.abs z))).
  { destruct (Z.ltb_spec z 0); cbn [cond_Ropp]; rewrite <- ?opp_IZR; f_equal; lia. }
  rewrite V. destruct (z <? 0); cbn [cond_Ropp]; [|reflexivity]. rewrite round_NE_opp. reflexivity.
Qed.

Lemma f64_of_int_flocq z : Z.abs z < 2 ^ 1023 -> f64_of_int z = bits_of_b64 (b64_of_Z z).
Proof.
  intros Hz. destruct (fval_of_int z Hz) as (V & F & S & P).
  rewrite <- (bits_round_trip _ P). f_equal.
  pose proof (binary_normalize_correct 53 1024 eq_refl eq_refl mode_NE z 0 false) as C.
  assert (FZ : F2R (Float radix2 z 0) = IZR z) by (unfold F2R; cbn; ring).
  rewrite FZ, Rlt_bool_true in C.
  2:{ apply rnd64_small. rewrite <- abs_IZR, bpow2 by discriminate. apply IZR_lt. exact Hz. }
  destruct C as (C1 & C2 & C3). fold (b64_of_Z z) in C1, C2, C3. clear Hz.
  apply B2R_Bsign_inj.
  - apply fin_true; assumption.
  - exact C2.
  - rewrite V, C1. reflexivity.
  - rewrite b64_sign by exact P. rewrite S, C3, Rcompare_IZR. destruct (Z.compare_spec z 0); lia.
Qed.

Lemma of_int_exact m k : Z.abs m < 2 ^ 53 -> 0 <= k -> Z.abs (m * 2 ^ k) < 2 ^ 1023 ->
  fval (f64_of_int (m * 2 ^ k)) = IZR (m * 2 ^ k).
Proof.
  intros Hm Hk Hz. destruct (fval_of_int _ Hz) as (V & _). rewrite V. clear Hz.
  rewrite mult_IZR, <- bpow2 by exact Hk. apply rnd64_exact; lia.
Qed.

Definition clamp128 (v : Z) : Z := if v <? i128_min then i128_min else if i128_max <? v then i128_max else v.

Lemma Ztrunc_cond s x : Ztrunc (cond_Ropp s x) = cond_Zopp s (Ztrunc x).
Proof. destruct s; cbn [cond_Ropp cond_Zopp]; [apply Ztrunc_opp|reflexivity]. Qed.

Lemma trunc_scaled m e : 0 <= m ->
  Ztrunc (IZR m * bpow radix2 e) = if 0 <=? e then m * 2 ^ e else m / 2 ^ (- e).
Proof.
  intros Hm. destruct (Z.leb_spec 0 e) as [He|He].
  - rewrite bpow2 by exact He. rewrite <- mult_IZR. apply Ztrunc_IZR.
  - replace e with (- (- e)) at 1 by lia. rewrite bpow_opp, bpow2 by lia.
    rewrite Ztrunc_floor.
    + apply (Zfloor_div m (2 ^ (- e))). apply Z.pow_nonzero; lia.
    + apply Rmult_le_pos; [apply IZR_le; exact Hm|].
      apply Rlt_le, Rinv_0_lt_compat, IZR_lt. apply Z.pow_pos_nonneg; lia.
Qed.

Lemma to_int_correct p : f64_pat p ->
  f64_to_int p =
  if f64_is_nan p then 0
  else if f64_exp p =? 2047 then (if f64_neg p then i128_min else i128_max)
  else clamp128 (Ztrunc (fval p)).
Proof.
  intros Hp. unfold f64_to_int. destruct (f64_is_nan p); [reflexivity|].
  destruct (Z.eqb_spec (f64_exp p) 2047) as [E|E]; [reflexivity|].
  rewrite (fval_mag p Hp E), Ztrunc_cond.
  destruct (f64_decompose p Hp) as (_ & He & Hm).
  assert (M0 : 0 <= f64_mant p) by (unfold f64_mant; rewrite p52 in *; destruct (f64_exp p =? 0); lia).
  rewrite trunc_scaled by exact M0. cbv zeta.
  destruct (Z.leb_spec 0 (f64_ex p)) as [X|X]; [|reflexivity].
  destruct (Z.ltb_spec 200 (f64_ex p)) as [Y|Y]; [|reflexivity].
  assert (M1 : 2 ^ 52 <= f64_mant p).
  { revert Y. unfold f64_mant, f64_ex. destruct (Z.eqb_spec (f64_exp p) 0); lia. }
  assert (B : 2 ^ 200 <= f64_mant p * 2 ^ f64_ex p).
  { assert (2 ^ 200 <= 2 ^ f64_ex p) by (apply Z.pow_le_mono_r; lia).
    assert (0 < 2 ^ 52) by reflexivity. nia. }
  assert (G : i128_max < 2 ^ 200) by reflexivity. assert (G2 : - 2 ^ 200 < i128_min) by reflexivity. assert (G3 : i128_min < 0) by reflexivity.
  unfold clamp128. destruct (f64_neg p); cbn [cond_Zopp].
  + replace (- 2 ^ 200 <? i128_min) with true by lia.
    replace (- (f64_mant p * 2 ^ f64_ex p) <? i128_min) with true by lia. reflexivity.
  + replace (2 ^ 200 <? i128_min) with false by lia. replace (i128_max <? 2 ^ 200) with true by lia.
    replace (f64_mant p * 2 ^ f64_ex p <? i128_min) with false by lia.
    replace (i128_max <? f64_mant p * 2 ^ f64_ex p) with true by lia. reflexivity.
Qed.

(* f64::round: nearest integer, halves away from zero, sign kept *)
Lemma round_nonfinite p : f64_exp p = 2047 -> f64_round p = p.
Proof. intros E. unfold f64_round. rewrite E. reflexivity. Qed.

Lemma round_correct p : f64_pat p -> f64_exp p <> 2047 ->
  let r := f64_round p in
  f64_pat r /\ f64_exp r <> 2047 /\ f64_neg r = f64_neg p /\ fval r = IZR (ZnearestA (fval p)).
Proof.
  intros Hp Fp. cbv zeta. unfold f64_round.
  replace (f64_exp p =? 2047) with false by lia.
  destruct (f64_decompose p Hp) as (_ & He & Hm).
  rewrite (fval_mag p Hp Fp). rewrite nearestA_cond.
  destruct (Z.leb_spec 1075 (f64_exp p)) as [G|G].
  - split; [exact Hp|]. split; [exact Fp|]. split; [reflexivity|].
    rewrite (fval_mag p Hp Fp). unfold f64_ex. replace (f64_exp p =? 0) with false by lia.
    rewrite bpow2 by lia. rewrite <- mult_IZR, nearest_IZR.
    destruct (f64_neg p); cbn [cond_Ropp cond_Zopp]; [rewrite opp_IZR|]; reflexivity.
  - cbv zeta.
    set (m := f64_mant p). set (k := - f64_ex p).
    assert (Hk : 0 < k) by (unfold k, f64_ex; destruct (Z.eqb_spec (f64_exp p) 0); lia).
    assert (Hm0 : 0 <= m < 2 ^ 53).
    { unfold m, f64_mant. rewrite p52 in *. rewrite p53. destruct (f64_exp p =? 0); lia. }
    replace (f64_ex p) with (- k) by (unfold k; lia).
    rewrite half_up_nearest by lia.
    set (q' := if 2 ^ (k - 1) <=? m mod 2 ^ k then m / 2 ^ k + 1 else m / 2 ^ k).
    assert (Hq : 0 <= q' <= 2 ^ 52).
    { assert (0 < 2 ^ k) by (apply Z.pow_pos_nonneg; lia).
      assert (0 <= m / 2 ^ k) by (apply Z.div_pos; lia).
      assert (m / 2 ^ k < 2 ^ 52).
      { apply Z.div_lt_upper_bound; [lia|]. assert (2 <= 2 ^ k).
        { change 2 with (2 ^ 1) at 1. apply Z.pow_le_mono_r; lia. }
        rewrite p53 in Hm0. rewrite p52. lia. }
      unfold q'. destruct (2 ^ (k - 1) <=? m mod 2 ^ k); lia. }
    destruct (of_mag_correct (f64_neg p) q' (proj1 Hq)) as (P1 & P2 & P3 & P4).
    { pose proof (bitlen_bound q' 53 ltac:(discriminate) ltac:(rewrite ?p52, ?p53 in *; lia)). lia. }
    cbv zeta in P1, P2, P3, P4.
    split; [exact P1|]. split; [exact P3|]. split; [exact P2|].
    pose proof (rnd64_exact q' 0 ltac:(rewrite ?p52, ?p53 in *; lia) ltac:(lia)) as X.
    change (bpow radix2 0) with 1%R in X. rewrite Rmult_1_r in X. rewrite P4, X.
    destruct (f64_neg p); cbn [cond_Ropp cond_Zopp]; [rewrite opp_IZR|]; reflexivity.
Qed.

Lemma round_FIX rnd x : round radix2 (FIX_exp 0) rnd x = IZR (rnd x).
Proof.
  unfold round, scaled_mantissa, cexp, FIX_exp, F2R. cbn [Fnum Fexp Z.opp bpow]. rewrite !Rmult_1_r. reflexivity.
Qed.

Definition b64_round_away (b : binary64) : binary64 := Bnearbyint 53 1024 eq_refl unop_nan_pl64 mode_NA b.

Lemma round_flocq p : f64_pat p -> f64_round p = bits_of_b64 (b64_round_away (b64_of_bits p)).
Proof.
  intros Hp. destruct (Z.eq_dec (f64_exp p) 2047) as [E|E].
  - rewrite round_nonfinite by exact E. rewrite <- (bits_round_trip p Hp) at 1. f_equal.
    destruct (b64_cases p Hp) as [(Z0 & _)|[(_ & _ & B)|[(_ & pl & H & B)|(F & _)]]].
    + rewrite (is_zero_fields p Hp), E in Z0. discriminate Z0.
    + rewrite B. reflexivity.
    + rewrite B. reflexivity.
    + contradiction.
  - destruct (round_correct p Hp E) as (R1 & R2 & R3 & R4). cbv zeta in R1, R2, R3, R4.
    rewrite <- (bits_round_trip _ R1). f_equal.
    destruct (Bnearbyint_correct 53 1024 eq_refl unop_nan_pl64 mode_NA (b64_of_bits p)) as (C1 & C2 & C3).
    fold (b64_round_away (b64_of_bits p)) in C1, C2, C3.
    rewrite (fin_true p Hp E) in C2.
    apply B2R_Bsign_inj.
    + apply fin_true; assumption.
    + exact C2.
    + rewrite R4, C1, round_FIX. reflexivity.
    + rewrite b64_sign by exact R1. rewrite R3, C3; [rewrite b64_sign by exact Hp; reflexivity|].
      destruct (b64_round_away (b64_of_bits p)); try reflexivity; discriminate C2.
Qed.

