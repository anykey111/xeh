(* EnumGenEx.v (C11): the hypotheses of EnumGenMain.v are checkable by computation and hold of
   real text on the boot state; the overflow branch. *)
From Xeh Require Import Model.Prelude Model.Bits Model.Codec Model.Cell Model.Lexer Model.Fmt
                        Model.Vm Model.Words Model.Build Model.Boot.
From Xeh Require Import Proofs.VmFrame Proofs.NoPanicBuild Proofs.MetaBase Proofs.MetaPurge Proofs.EnumGen Proofs.EnumGenMain
                        Proofs.UnwindMain Proofs.UnwindWitness.
Local Notation length := List.length.
Local Open Scope string_scope.
Local Open Scope list_scope.

Section Check.
  Variable pr : string -> option Z.

  Definition nn_step (i : list inlex) (l : option tokref) : option (string * list inlex * option tokref) :=
    match next_name pr (tk_skel i l) with ROk w r => Some (w, input r, last_tok r) | _ => None end.
  Definition gt_step (i : list inlex) (l : option tokref) : option (string * list inlex * option tokref) :=
    match get_token pr (tk_skel i l) with ROk (BWord w) r => Some (w, input r, last_tok r) | _ => None end.

  Lemma skel_fix r i l : r = tk_upd (tk_skel i l) r -> r = tk_skel (input r) (last_tok r).
  Proof. intros H. rewrite H at 1. reflexivity. Qed.

  Lemma nn_step_reads i l w i' l' : nn_step i l = Some (w, i', l') -> reads pr i l w i' l'.
  Proof.
    unfold nn_step. intros H. apply reads_skel.
    pose proof (next_name_indep pr (tk_skel i l)) as X.
    change (input (tk_skel i l)) with i in X. change (last_tok (tk_skel i l)) with l in X.
    destruct (next_name pr (tk_skel i l)) as [w0 r|? ? ?| |]; try discriminate.
    injection H as <- <- <-. cbn [rmap] in X. injection X as X. f_equal. apply (skel_fix r i l X).
  Qed.

  Lemma gt_step_reads i l w i' l' : gt_step i l = Some (w, i', l') -> tokreads pr i l w i' l'.
  Proof.
    unfold gt_step. intros H. apply tokreads_skel.
    pose proof (get_token_indep pr (tk_skel i l)) as X.
    change (input (tk_skel i l)) with i in X. change (last_tok (tk_skel i l)) with l in X.
    destruct (get_token pr (tk_skel i l)) as [tk r|? ? ?| |]; try discriminate.
    destruct tk as [|w0|]; try discriminate.
    injection H as <- <- <-. cbn [rmap] in X. injection X as X. f_equal. apply (skel_fix r i l X).
  Qed.

  (* does the pending input (i, l) continue with ": f1 ... : fn endenum" ? *)
  Fixpoint check_fields (i : list inlex) (l : option tokref) (fs : list string) : option (list inlex * option tokref) :=
    match fs with
    | [] => match gt_step i l with
            | Some (w, i2, l2) => if String.eqb w "endenum" then Some (i2, l2) else None
            | None => None
            end
    | f :: r =>
      match gt_step i l with
      | Some (w, i0, l0) =>
        if String.eqb w ":" then
          match nn_step i0 l0 with
          | Some (w1, i1, l1) => if String.eqb w1 f then check_fields i1 l1 r else None
          | None => None
          end
        else None
      | None => None
      end
    end.

  Lemma check_fields_sound : forall fs i l i2 l2,
    check_fields i l fs = Some (i2, l2) -> feeds_fields pr i l fs i2 l2.
  Proof.
    induction fs as [|f fs IH]; intros i l i2 l2 H; cbn [check_fields] in H.
    - destruct (gt_step i l) as [[[w i3] l3]|] eqn:G; [|discriminate].
      destruct (String.eqb w "endenum") eqn:E; [|discriminate]. apply String.eqb_eq in E. subst w.
      injection H as <- <-. apply ff_end. apply gt_step_reads. exact G.
    - destruct (gt_step i l) as [[[w i0] l0]|] eqn:G; [|discriminate].
      destruct (String.eqb w ":") eqn:E; [|discriminate]. apply String.eqb_eq in E. subst w.
      destruct (nn_step i0 l0) as [[[w1 i1] l1]|] eqn:N; [|discriminate].
      destruct (String.eqb w1 f) eqn:E1; [|discriminate]. apply String.eqb_eq in E1. subst w1.
      eapply ff_field; [apply gt_step_reads; exact G|apply nn_step_reads; exact N|apply IH; exact H].
  Qed.

  (* the whole hypothesis of enum_seq_spec about the text, as a boolean *)
  Definition check_enum_text (s : state) (E : string) (fs : list string) : option (list inlex * option tokref) :=
    match nn_step (input s) (last_tok s) with
    | Some (w, i1, l1) => if String.eqb w E then check_fields i1 l1 fs else None
    | None => None
    end.

  Theorem enum_seq_checked fo rf s E fs i2 l2 :
    enum_pre_b s = true -> check_enum_text s E fs = Some (i2, l2) ->
    (Z.of_nat (length fs) <= two127)%Z ->
    enum_seq fo pr rf (length fs) s = ROk tt (efinal s (numbered 0 fs) i2 l2).
  Proof.
    intros P C Hn. unfold check_enum_text in C.
    destruct (nn_step (input s) (last_tok s)) as [[[w i1] l1]|] eqn:N; [|discriminate].
    destruct (String.eqb w E) eqn:Ew; [|discriminate]. apply String.eqb_eq in Ew. subst w.
    eapply enum_seq_spec; [apply enum_pre_b_sound; exact P|apply nn_step_reads; exact N|
                           apply check_fields_sound; exact C|exact Hn].
  Qed.
End Check.

Definition ex_txt : string := "enum Color : Red : Green : Blue : Alpha endenum".
(* the state in which build1 has just read the token `enum` of ex_txt, submitted to eval on boot *)
Definition ex_s : state :=
  match get_token wit_pr (wit_opened ex_txt boot) with ROk _ s => s | _ => boot end.

Lemma ex_hypotheses :
  enum_pre_b boot = true /\ enum_pre_b ex_s = true /\
  exists i2 l2, check_enum_text wit_pr ex_s "Color" ["Red"; "Green"; "Blue"; "Alpha"] = Some (i2, l2).
Proof.
  vm_compute. split; [reflexivity|]. split; [reflexivity|]. eexists. eexists. reflexivity.
Qed.

(* the theorem applied, and the agreement with what eval really does with the text: the same
   dictionary (old ++ the constants in purge order), everything else as in boot *)
Lemma ex_applied :
  exists i2 l2,
    enum_seq wit_fo wit_pr 999 4 ex_s =
      ROk tt (efinal ex_s [("Red", 0%Z); ("Green", 1%Z); ("Blue", 2%Z); ("Alpha", 3%Z)] i2 l2) /\
    enum_order (map const_of [("Red", 0%Z); ("Green", 1%Z); ("Blue", 2%Z); ("Alpha", 3%Z)]) =
      [mkdent "Alpha" (DConst (CInt 3)); mkdent "Blue" (DConst (CInt 2));
       mkdent "Red" (DConst (CInt 0)); mkdent "Green" (DConst (CInt 1))] /\
    match wit_eval ex_txt boot with
    | ROk _ s' => dict s' = dict boot ++ enum_order (map const_of [("Red", 0%Z); ("Green", 1%Z); ("Blue", 2%Z); ("Alpha", 3%Z)]) /\
                  same_machine (set_dict boot (dict s')) s'
    | _ => False
    end.
Proof.
  destruct ex_hypotheses as (_ & P & i2 & l2 & C).
  exists i2, l2. split.
  - apply (enum_seq_checked wit_pr wit_fo 999 ex_s "Color" ["Red"; "Green"; "Blue"; "Alpha"] i2 l2 P C).
    vm_compute. discriminate.
  - split; [reflexivity|]. unfold same_machine. vm_compute. repeat split; reflexivity.
Qed.

(* a field without value after a field whose value is i128::MAX: the field word fails with
   EOverflow before anything is defined (field_overflow), the build is rejected and - C10 - unwound *)
Definition ovf_txt : string := "enum E 170141183460469231731687303715884105727 = A : B endenum".
