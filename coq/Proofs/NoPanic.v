(* NoPanic.v (C08): the mirror never returns the panic outcome.

   (a) every native word; (b) fetch_and_run / next / run; (c) rnext / reverse_changes.
   The lexer, the bit-string library and the builder are in NoPanicLex.v, NoPanicBits.v,
   NoPanicBuild.v (debug-map invariant) and NoPanicFlow.v (flow-stack invariant, API theorem).

   [np m := forall s, m s <> RPanic] holds of every program made of the logging primitives
   ([wprog], whatever its capabilities: no primitive returns the panic outcome), hence of
   every native word and of [exec_op]. *)
From Xeh Require Import Model.Prelude Model.Bits Model.Codec Model.Cell Model.Lexer Model.Fmt
                        Model.Vm Model.Words.
From Xeh Require Import Proofs.VmFrame.
Local Notation length := List.length.

Definition np {A} (m : M A) : Prop := forall s, m s <> RPanic.

Lemma np_bind A B (m : M A) (f : A -> M B) : np m -> (forall a, np (f a)) -> np (bind m f).
Proof.
  intros Hm Hf s. unfold bind. specialize (Hm s).
  destruct (m s) as [a s1|k p s1| |]; try discriminate; [apply Hf|contradiction].
Qed.

(* every branch of a primitive ends in an outcome that is not the panic *)
Ltac np_cases :=
  repeat match goal with
         | |- context [match ?x with _ => _ end] => destruct x
         end;
  discriminate.

Lemma wprog_np c A (m : M A) : wprog c m -> np m.
Proof.
  induction 1;
    try (intros s;
         cbv [push_data pop_data top_data swap_data rot_data over_data push_return pop_return
              top_frame push_loop pop_loop loop_next loop_set_items push_special pop_special
              get_var set_var init_local set_ip next_ip print modify ret fail unsup];
         np_cases).
  - apply np_bind; assumption.
  - intros s. unfold bind, get. apply H0.
Qed.

Theorem native_np : forall fo w f, native_fn fo w = Some f -> np f.
Proof. intros fo w f H. exact (wprog_np _ _ _ (native_wprog fo w f H)). Qed.

Lemma np_pop_data : np pop_data.
Proof. exact (wprog_np all_caps _ _ (wp_pop_data _)). Qed.
Lemma np_push_return f : np (push_return f).
Proof. intros s. discriminate. Qed.
Lemma np_set_ip n : np (set_ip n).
Proof. intros s. discriminate. Qed.

Lemma np_pop_n : forall n, np (pop_n n).
Proof. intro n. exact (wprog_np all_caps _ _ (wp_pop_n _ n)). Qed.

Lemma np_push_all : forall l, np (push_all l).
Proof. intro l. exact (wprog_np all_caps _ _ (wp_push_all _ l)). Qed.

Lemma np_meter_increase : np meter_increase.
Proof. intros s. unfold meter_increase. np_cases. Qed.

Lemma nth_error_running : forall s, is_running s = true -> nth_error (code s) (ip s) <> None.
Proof.
  intros s H. unfold is_running in H. apply Nat.ltb_lt in H.
  apply nth_error_Some. exact H.
Qed.

Section Step.
  Variable fo : fops.

  (* the panic outcome of fetch_and_run is exactly the out-of-range fetch *)
  Theorem far_panic_iff : forall s,
    fetch_and_run (native_fn fo) s = RPanic <-> (is_running s = false /\ mlim s (meter s) = false).
  Proof.
    intros s. split.
    - intros E. pose proof (far_spec_holds (native_fn fo) s) as FS. rewrite E in FS.
      inversion FS as [ | Hm Hn | op Hm Hn Hr Hx | | | name e Hm Hn Hd Hm2 Hx ].
      + split; [|exact Hm]. unfold is_running. apply Nat.ltb_ge.
        apply nth_error_None. exact Hn.
      + exfalso. exact (wprog_np _ _ _ (exec_op_wprog _ (native_wprog_all fo) _ _) _ Hx).
      + exfalso. exact (wprog_np _ _ _ (exec_op_wprog _ (native_wprog_all fo) _ _) _ Hx).
    - intros [Hr Hm]. unfold fetch_and_run. rewrite meter_increase_eq, Hm.
      change (code (set_meter s (meter s + 1)%Z)) with (code s).
      unfold is_running in Hr. apply Nat.ltb_ge in Hr.
      apply nth_error_None in Hr. rewrite Hr. reflexivity.
  Qed.

  Theorem far_no_panic : forall s, is_running s = true -> fetch_and_run (native_fn fo) s <> RPanic.
  Proof.
    intros s Hr E. apply far_panic_iff in E. destruct E as [E _]. congruence.
  Qed.

  Theorem next_no_panic : forall s, next (native_fn fo) s <> RPanic.
  Proof.
    intros s. unfold next. destruct (is_running s) eqn:E; [|discriminate].
    apply far_no_panic. exact E.
  Qed.

  Theorem run_no_panic : forall fuel s, run (native_fn fo) fuel s <> Some RPanic.
  Proof.
    induction fuel as [|f IH]; intros s; cbn [run]; [discriminate|].
    destruct (is_running s) eqn:E; [|discriminate].
    pose proof (far_no_panic s E) as H.
    destruct (fetch_and_run (native_fn fo) s) as [u s1|k p s1| |]; try discriminate.
    - apply IH.
    - contradiction.
  Qed.
End Step.

Theorem reverse_changes_no_panic : forall r s, reverse_changes r s <> RPanic.
Proof.
  intros r s. destruct r; unfold reverse_changes; try np_cases.
  pose proof (np_pop_data s) as H. destruct (pop_data s); try discriminate. contradiction.
Qed.

Lemma rnext_loop_no_panic : forall fuel s, rnext_loop fuel s <> RPanic.
Proof.
  induction fuel as [|f IH]; intros s; cbn [rnext_loop]; [discriminate|].
  destruct (log_pop s) as [[r s']|]; [|discriminate].
  destruct r; try discriminate;
    match goal with
    | |- context [reverse_changes ?r s'] =>
      pose proof (reverse_changes_no_panic r s') as H;
      destruct (reverse_changes r s'); try discriminate; [apply IH|contradiction]
    end.
Qed.

Theorem rnext_no_panic : forall s, rnext s <> RPanic.
Proof.
  intros s. unfold rnext. destruct (log_pop s) as [[r s']|]; [|apply rnext_loop_no_panic].
  pose proof (reverse_changes_no_panic r s') as H.
  destruct (reverse_changes r s'); try discriminate; [apply rnext_loop_no_panic|contradiction].
Qed.
