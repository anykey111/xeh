(* VmDrive.v: how a program is driven does not change what it does (statements of Props/C15.v). *)
From Xeh Require Import Model.Prelude Model.Bits Model.Codec Model.Cell Model.Lexer Model.Fmt
                        Model.Vm Model.Words Proofs.VmPrim Proofs.VmFrame Proofs.VmFetch.
Local Notation length := List.length.

#[local] Arguments Z.add : simpl never.
#[local] Arguments Z.sub : simpl never.
#[local] Arguments Z.mul : simpl never.
#[local] Arguments Z.ltb : simpl never.
#[local] Arguments Z.leb : simpl never.
#[local] Arguments Z.eqb : simpl never.
#[local] Arguments Z.of_nat : simpl never.
#[local] Arguments Z.to_nat : simpl never.

(* a step that does not panic starts from a running machine *)
Lemma step_ok_running : forall nf s u s', fetch_and_run nf s = ROk u s' -> is_running s = true.
Proof.
  intros nf s u s' H. unfold is_running. apply Nat.ltb_lt, nth_error_Some. intros E.
  destruct (mlim s (meter s)) eqn:E0; [rewrite far_limit in H by exact E0|rewrite far_panic in H by assumption];
    discriminate H.
Qed.

Theorem run_is_stepping : forall nf n s sn fuel,
  steps nf n s = Some sn -> n < fuel ->
  run nf fuel s = (if is_running sn then run nf (fuel - n) sn else Some (ROk tt sn)).
Proof.
  intros nf n s sn fuel H. revert fuel. revert n s sn H.
  apply (steps_ind nf (fun n s sn => forall fuel, n < fuel ->
           run nf fuel s = if is_running sn then run nf (fuel - n) sn else Some (ROk tt sn)));
    [intros s [|f] Hlt|intros n s s1 sn E _ IH [|f] Hlt]; try lia; cbn [run Nat.sub].
  - destruct (is_running s); reflexivity.
  - rewrite (step_ok_running _ _ _ _ E), E. apply IH. lia.
Qed.

Definition P_log {A} (m : M A) : Prop := forall s, res_map erase_log (m s) = m (erase_log s).

Lemma unread_erase_log : unread erase_log.
Proof. constructor; reflexivity. Qed.
Lemma logs_through_erase_log : logs_through erase_log.
Proof. intros e s. unfold add_rstep, erase_log. cbn [rlog set_rlog]. destruct (rlog s); reflexivity. Qed.

Lemma wprog_log : forall c A (m : M A), wprog c m -> P_log m.
Proof.
  induction 1;
    try (intro s; symmetry; eapply (prim_unread _ unread_erase_log logs_through_erase_log); constructor; fail);
    try (intro s; reflexivity).
  - intro s. unfold bind. rewrite <- (IHwprog s).
    destruct (m s) as [a s1 | k p s1 | |]; cbn [res_map]; try reflexivity.
    apply H1.
  - intro s. unfold bind, get. rewrite (view_determines _ k H1 (erase_log s) s eq_refl). apply H0.
  - intro s. symmetry. apply (push_data_unread _ unread_erase_log logs_through_erase_log). reflexivity.
  - intro s. symmetry. apply (over_data_unread _ unread_erase_log logs_through_erase_log). reflexivity.
Qed.

Section WithTable.
  Variable nf : natives.
  Hypothesis Hnf : forall w f, nf w = Some f -> wprog all_caps f.

  Lemma exec_op_log : forall ip0 op, P_log (exec_op nf ip0 op).
  Proof. intros. eapply wprog_log, exec_op_wprog, Hnf. Qed.

  (* on the erased state the step takes the same branch *)
  Lemma recording_transparent_gen : forall s,
    res_map erase_log (fetch_and_run nf s) = fetch_and_run nf (erase_log s).
  Proof.
    apply (far_ind nf (fun s r => res_map erase_log r = fetch_and_run nf (erase_log s))).
    - intros s E0. symmetry. apply far_limit. exact E0.
    - intros s E0 E1. symmetry. apply far_panic; assumption.
    - intros s op E0 E1 N. rewrite (far_plain nf (erase_log s) op E0 E1 N). apply exec_op_log.
    - intros s name E0 E1 E2. symmetry. apply (far_unknown nf (erase_log s) name); assumption.
    - intros s name e r E0 E1 E2 _ IH. rewrite (far_resolve nf (erase_log s) name e E0 E1 E2). exact IH.
  Qed.

  Lemma recording_transparent_run_gen : forall fuel s,
    option_map (res_map erase_log) (run nf fuel s) = run nf fuel (erase_log s).
  Proof.
    induction fuel as [|f IH]; intro s; cbn [run option_map]; [ reflexivity | ].
    change (is_running (erase_log s)) with (is_running s).
    destruct (is_running s); [ | reflexivity ].
    rewrite <- (recording_transparent_gen s).
    destruct (fetch_and_run nf s) as [u s1 | k p s1 | |]; cbn [res_map option_map]; try reflexivity.
    apply IH.
  Qed.
End WithTable.

Theorem recording_transparent : forall fo s,
  res_map erase_log (fetch_and_run (native_fn fo) s) = fetch_and_run (native_fn fo) (erase_log s).
Proof. intro fo. apply recording_transparent_gen. apply native_wprog_all. Qed.

Theorem recording_transparent_run : forall fo fuel s,
  option_map (res_map erase_log) (run (native_fn fo) fuel s) = run (native_fn fo) fuel (erase_log s).
Proof. intro fo. apply recording_transparent_run_gen. apply native_wprog_all. Qed.
