(* VmReplayWords.v: every native word, every opcode and one whole instruction step respect
   [eq_rev] (C02, replay half). *)
From Xeh Require Import Model.Prelude Model.Bits Model.Codec Model.Cell Model.Lexer Model.Fmt Model.Vm Model.Words.
From Xeh Require Import Proofs.VmFrame Proofs.VmFetch Proofs.VmRevBase Proofs.VmRevWords Proofs.VmRev Proofs.VmReplayBase.
Local Notation length := List.length.

#[local] Arguments Z.add : simpl never.
#[local] Arguments Z.sub : simpl never.
#[local] Arguments Z.mul : simpl never.
#[local] Arguments Z.ltb : simpl never.
#[local] Arguments Z.leb : simpl never.
#[local] Arguments Z.eqb : simpl never.
#[local] Arguments Z.of_nat : simpl never.
#[local] Arguments Z.to_nat : simpl never.

Theorem native_rel : forall fo w f, native_fn fo w = Some f -> rel_ok f.
Proof. intros fo w f H. exact (wprog_rel _ _ _ (native_wprog fo w f H)). Qed.

Lemma rel_exec_op : forall (nf : natives),
  (forall w f, nf w = Some f -> rel_ok f) ->
  forall ip0 op, rel_ok (exec_op nf ip0 op).
Proof.
  intros nf Hnf ip0 op. destruct op; cbn [exec_op];
    try (apply (wprog_rel all_caps); wp_solve; fail).
  destruct (nf w) eqn:E; [|apply rel_unsup].
  apply rel_bind; [eapply Hnf; eauto|intro; apply (wprog_rel all_caps); wp_solve].
Qed.

(* The instruction meter is the one thing a step reads that [eq_rev] ignores: the step fails
   with ELimit when the meter has reached the instruction limit.  [meter_ok j s]: at least [j]
   more increments are allowed. *)
Definition meter_ok (j : Z) (s : state) : Prop :=
  match insn_limit s with Some l => (meter s + j <= l)%Z | None => True end.

Lemma meter_ok_nolimit j s : insn_limit s = None -> meter_ok j s.
Proof. unfold meter_ok. intros ->. exact I. Qed.

Lemma meter_ok_mlim j d s : meter_ok j s -> (d < j)%Z -> mlim s (meter s + d)%Z = false.
Proof.
  unfold meter_ok, mlim. destruct (insn_limit s); auto. intros. apply Z.leb_gt. lia.
Qed.

Section Step.
  Variable nf : natives.
  Hypothesis Hnf : forall w f, nf w = Some f -> rel_ok f.

  (* the limit checks of a step come out the same on both sides: the results are related.
     A related state is the same state with another meter and output ([eq_rev_mo]), so code,
     instruction pointer and dictionary are literally the same. *)
  Lemma far_rel_mo : forall a z o,
    mlim a (meter a) = mlim a z ->
    (forall name, nth_error (code a) (ip a) = Some (OResolve name) -> mlim a (meter a + 1)%Z = mlim a (z + 1)%Z) ->
    res_rel (fetch_and_run nf a) (fetch_and_run nf (mo z o a)).
  Proof.
    intros a z o. revert z.
    apply (far_ind nf (fun a r => forall z, mlim a (meter a) = mlim a z ->
        (forall name, nth_error (code a) (ip a) = Some (OResolve name) -> mlim a (meter a + 1)%Z = mlim a (z + 1)%Z) ->
        res_rel r (fetch_and_run nf (mo z o a)))); clear a; intros a.
    - intros E0 z M0 _. rewrite (far_limit nf (mo z o a)); [reflexivity|]. rewrite <- E0, M0. reflexivity.
    - intros E0 E1 z M0 _. rewrite (far_panic nf (mo z o a)); [reflexivity| |exact E1]. rewrite <- E0, M0. reflexivity.
    - intros op E0 E1 N z M0 _. rewrite (far_plain nf (mo z o a) op); [| |exact E1|exact N].
      + apply rel_exec_op; [exact Hnf|reflexivity].
      + rewrite <- E0, M0. reflexivity.
    - intros name E0 E1 E2 z M0 _. rewrite (far_unknown nf (mo z o a) name); [reflexivity| |exact E1|exact E2].
      rewrite <- E0, M0. reflexivity.
    - intros name e r E0 E1 E2 Ap IH z M0 M1. rewrite (far_resolve nf (mo z o a) name e); [| |exact E1|exact E2].
      + apply (IH (z + 1)%Z); [exact (M1 name E1)|].
        intros name' E1'. unfold at_resolve in Ap. rewrite E1' in Ap. discriminate Ap.
      + rewrite <- E0, M0. reflexivity.
  Qed.

  Lemma far_rel_gen : forall a b,
    eq_rev a b ->
    mlim a (meter a) = mlim b (meter b) ->
    (forall name, nth_error (code a) (ip a) = Some (OResolve name) ->
                  mlim a (meter a + 1)%Z = mlim b (meter b + 1)%Z) ->
    res_rel (fetch_and_run nf a) (fetch_and_run nf b).
  Proof.
    intros a b E M0 M1. rewrite (eq_rev_mo a b E) at 1. apply far_rel_mo.
    - rewrite M0. unfold mlim. rewrite (f_equal insn_limit E : insn_limit a = insn_limit b). reflexivity.
    - intros name E1. rewrite (M1 name E1). unfold mlim.
      rewrite (f_equal insn_limit E : insn_limit a = insn_limit b). reflexivity.
  Qed.

  (* any opcode, room for the two increments of a patched Resolve *)
  Lemma far_rel : forall a b,
    eq_rev a b -> meter_ok 2 a -> meter_ok 2 b ->
    res_rel (fetch_and_run nf a) (fetch_and_run nf b).
  Proof.
    intros a b E Ma Mb. apply far_rel_gen; [exact E| |intros _ _].
    - pose proof (meter_ok_mlim 2 0 a Ma ltac:(lia)) as La. pose proof (meter_ok_mlim 2 0 b Mb ltac:(lia)) as Lb.
      rewrite Z.add_0_r in La, Lb. congruence.
    - rewrite (meter_ok_mlim 2 1 a Ma), (meter_ok_mlim 2 1 b Mb) by lia. reflexivity.
  Qed.

  (* an instruction other than Resolve is metered once *)
  Lemma far_rel_nr : forall a b,
    eq_rev a b -> not_resolve a -> meter_ok 1 a -> meter_ok 1 b ->
    res_rel (fetch_and_run nf a) (fetch_and_run nf b).
  Proof.
    intros a b E Hn Ma Mb. apply far_rel_gen; [exact E| |intros name E1; contradiction (Hn name E1)].
    pose proof (meter_ok_mlim 1 0 a Ma ltac:(lia)) as La. pose proof (meter_ok_mlim 1 0 b Mb ltac:(lia)) as Lb.
    rewrite Z.add_0_r in La, Lb. congruence.
  Qed.
End Step.

(* the statements for the table of native words *)
Theorem step_congruence : forall fo a b,
  eq_rev a b -> meter_ok 2 a -> meter_ok 2 b ->
  res_rel_cases (fetch_and_run (native_fn fo) a) (fetch_and_run (native_fn fo) b).
Proof.
  intros fo a b E Ma Mb. apply res_rel_iff. apply far_rel; auto. apply native_rel.
Qed.

Theorem step_congruence_nr : forall fo a b,
  eq_rev a b -> not_resolve a -> meter_ok 1 a -> meter_ok 1 b ->
  res_rel_cases (fetch_and_run (native_fn fo) a) (fetch_and_run (native_fn fo) b).
Proof.
  intros fo a b E Hn Ma Mb. apply res_rel_iff. apply far_rel_nr; auto. apply native_rel.
Qed.

Theorem step_congruence_nolimit : forall fo a b,
  eq_rev a b -> insn_limit a = None ->
  res_rel_cases (fetch_and_run (native_fn fo) a) (fetch_and_run (native_fn fo) b).
Proof.
  intros fo a b E L. apply step_congruence; auto; apply meter_ok_nolimit; auto.
  rewrite <- (f_equal insn_limit E : insn_limit a = insn_limit b). exact L.
Qed.

(* every native word by itself *)
Theorem word_congruence : forall fo w f a b,
  native_fn fo w = Some f -> eq_rev a b -> res_rel_cases (f a) (f b).
Proof. intros fo w f a b H E. apply res_rel_iff. eapply native_rel; eauto. Qed.

(* two states that differ in the meter only; the limit stops one of them *)
Definition lim_a : state :=
  mkstate [] [] [ONop] [] [] [] [] [] [] [] [] (mkctx 0 0 0 0 0 0 0 0 MEval) []
          0%Z (Some 1%Z) None None (Some []) EmptyString None false.
Definition lim_b : state := set_meter lim_a 1%Z.

Theorem step_congruence_needs_meter :
  ~ (forall fo a b, eq_rev a b ->
       res_rel_cases (fetch_and_run (native_fn fo) a) (fetch_and_run (native_fn fo) b)).
Proof.
  intro H. specialize (H cex_fo lim_a lim_b (eq_refl _)).
  vm_compute in H. exact H.
Qed.

Print Assumptions step_congruence.
Print Assumptions step_congruence_nr.
Print Assumptions word_congruence.
Print Assumptions step_congruence_needs_meter.
