(* UnwindInv.v (C10): the invariant of a build in progress, relative to the state [b] in
   which the source was submitted.  Everything the builder does happens ABOVE what [b] held:
   code / debug map / dictionary / heap only grow past their old length (backpatching and
   the updates of definitions touch new cells only, because every pending flow entry points
   into new code), the four stacks and the flow stack keep their old part at the bottom, and
   the chain of contexts is [meta blocks ++ the context opened for the source ++ the old
   chain]. *)
From Xeh Require Import Model.Prelude Model.Bits Model.Codec Model.Cell Model.Lexer Model.Fmt
                        Model.Vm Model.Words Model.Build.
From Xeh Require Import Proofs.VmFrame Proofs.VmLimits Proofs.UnwindLists Proofs.UnwindFrame.
Local Notation length := List.length.

Ltac st_simpl :=
  cbn [set_code set_dbg set_dict set_flows set_cx set_nested set_input set_last_tok set_sources
       set_heap set_ds set_rs set_loops set_special set_meter set_rlog set_out set_stopping
       dict heap code dbg sources input ds rs flows loops special cx nested meter insn_limit
       heap_limit stack_limit rlog out last_tok stopping].

Definition reads_only (s s' : state) : Prop := exists inp lt, s' = set_last_tok (set_input s inp) lt.

Lemma reads_only_refl s : reads_only s s.
Proof. exists (input s), (last_tok s). destruct s; reflexivity. Qed.

Section Tokens.
  Variable pr : string -> option Z.

  Lemma next_token_reads : forall fuel s, res_all (reads_only s) (next_token pr fuel s).
  Proof.
    induction fuel as [|f IH]; intros s; cbn [next_token]; [exact I|].
    destruct (input s) as [|il rest]; [apply reads_only_refl|]. cbv zeta.
    destruct (lex_next_nonws _ _) as [t l'].
    destruct t; try exact I; try (eexists _, _; reflexivity).
    - match goal with |- context [next_token pr f ?x] => specialize (IH x); destruct (next_token pr f x) end;
        cbn [res_all] in *; auto; destruct IH as (inp & lt & ->); eexists _, _; reflexivity.
    - destruct (pr text); eexists _, _; reflexivity.
  Qed.

  Lemma get_token_reads s : res_all (reads_only s) (get_token pr s).
  Proof. apply next_token_reads. Qed.

  Lemma next_name_reads s : res_all (reads_only s) (next_name pr s).
  Proof.
    unfold next_name. cbv zeta. pose proof (get_token_reads s) as H.
    destruct (get_token pr s) as [t s1|k p s1| |]; cbn [res_all] in *; auto.
    destruct t; cbn [res_all]; try exact H; destruct (last_tok s); try exact H;
      destruct H as (inp & lt & ->); eexists _, _; reflexivity.
  Qed.
End Tokens.

Section Inv.
  Variable b : state.      (* the state in which the source was submitted *)
  Variable m : mode.       (* the mode it was submitted in *)

  (* the context [context_open m] creates in [b] *)
  Definition tmp_ctx : ctx :=
    mkctx (if mode_eqb (cmode (cx b)) m then ds_len (cx b) else length (ds b))
          (length (code b)) (length (rs b)) (length (flows b)) (length (loops b))
          (length (special b)) (length (dict b)) (length (code b)) m.

  Definition above (c : ctx) : Prop :=
    length (code b) <= cs_len c /\ length (rs b) <= rs_len c /\ length (flows b) <= fs_len c /\
    length (loops b) <= ls_len c /\ length (special b) <= ss_ptr c /\ length (dict b) <= di_len c.

  Definition meta_ok (c : ctx) : Prop := cmode c = MMeta /\ length (ds b) <= ds_len c /\ above c.

  Definition flow_ok (f : flow) : Prop :=
    match f with
    | FIf o | FElse o | FBegin o | FWhile o | FBreak o | FCaseOf o | FCaseEndOf o => length (code b) <= o
    | FFun d st _ => length (dict b) <= d /\ length (code b) <= st
    | FDo a _ => length (code b) <= a
    | _ => True
    end.

  Definition chain_ok (t : state) : Prop :=
    exists metas, cx t :: nested t = metas ++ tmp_ctx :: cx b :: nested b /\ Forall meta_ok metas.

  Record binv0 (t : state) : Prop := mk_binv0 {
    bi_code : kprefix (code b) (code t);
    bi_dbg : prefix_of (dbg b) (dbg t);
    bi_dbglen : length (dbg t) = length (code t);
    bi_dict : prefix_of (dict b) (dict t);
    bi_heap : prefix_of (heap b) (heap t);
    bi_flows : exists new, flows t = new ++ flows b /\ Forall flow_ok new;
    bi_ds : suffix_of (ds b) (ds t);
    bi_rs : suffix_of (rs b) (rs t);
    bi_loops : suffix_of (loops b) (loops t);
    bi_special : suffix_of (special b) (special t);
    bi_lim : insn_limit t = insn_limit b /\ heap_limit t = heap_limit b /\ stack_limit t = stack_limit b;
    bi_rlog : rlog t = None <-> rlog b = None }.

  Definition binv (t : state) : Prop := chain_ok t /\ binv0 t.

  Lemma binv0_same t t' :
    code t' = code t -> dbg t' = dbg t -> dict t' = dict t -> heap t' = heap t ->
    flows t' = flows t -> ds t' = ds t -> rs t' = rs t -> loops t' = loops t ->
    special t' = special t ->
    insn_limit t' = insn_limit t -> heap_limit t' = heap_limit t -> stack_limit t' = stack_limit t ->
    rlog t' = rlog t ->
    binv0 t -> binv0 t'.
  Proof.
    intros E1 E2 E3 E4 E5 E6 E7 E8 E9 E10 E11 E12 E13 [].
    constructor; rewrite ?E1, ?E2, ?E3, ?E4, ?E5, ?E6, ?E7, ?E8, ?E9, ?E10, ?E11, ?E12, ?E13; assumption.
  Qed.

  Lemma chain_same t t' : cx t' = cx t -> nested t' = nested t -> chain_ok t -> chain_ok t'.
  Proof. intros E1 E2 [ms H]. exists ms. rewrite E1, E2. exact H. Qed.

  Lemma binv_same t t' :
    cx t' = cx t -> nested t' = nested t ->
    code t' = code t -> dbg t' = dbg t -> dict t' = dict t -> heap t' = heap t ->
    flows t' = flows t -> ds t' = ds t -> rs t' = rs t -> loops t' = loops t ->
    special t' = special t ->
    insn_limit t' = insn_limit t -> heap_limit t' = heap_limit t -> stack_limit t' = stack_limit t ->
    rlog t' = rlog t ->
    binv t -> binv t'.
  Proof.
    intros E1 E2 E3 E4 E5 E6 E7 E8 E9 E10 E11 E12 E13 E14 E15 [C B]. split.
    - eapply chain_same; eauto.
    - eapply binv0_same; eauto.
  Qed.

  Lemma binv_reads t t' : reads_only t t' -> binv t -> binv t'.
  Proof. intros (inp & lt & ->). apply binv_same; reflexivity. Qed.

  Lemma binv0_code t t' : binv0 t ->
    dict t' = dict t -> heap t' = heap t -> flows t' = flows t -> ds t' = ds t -> rs t' = rs t ->
    loops t' = loops t -> special t' = special t ->
    insn_limit t' = insn_limit t -> heap_limit t' = heap_limit t -> stack_limit t' = stack_limit t ->
    rlog t' = rlog t ->
    kprefix (code b) (code t') -> prefix_of (dbg b) (dbg t') -> length (dbg t') = length (code t') ->
    binv0 t'.
  Proof.
    intros [] E3 E4 E5 E6 E7 E8 E9 E10 E11 E12 E13 Hc Hd Hl.
    constructor; rewrite ?E3, ?E4, ?E5, ?E6, ?E7, ?E8, ?E9, ?E10, ?E11, ?E12, ?E13; assumption.
  Qed.

  Lemma binv0_set_dict t d : binv0 t -> prefix_of (dict b) d -> binv0 (set_dict t d).
  Proof. intros [] Hd. constructor; st_simpl; assumption. Qed.

  Lemma binv0_set_heap t h : binv0 t -> prefix_of (heap b) h -> binv0 (set_heap t h).
  Proof. intros [] Hh. constructor; st_simpl; assumption. Qed.

  Lemma binv0_set_flows t new : binv0 t -> Forall flow_ok new -> binv0 (set_flows t (new ++ flows b)).
  Proof. intros [] Hf. constructor; st_simpl; try assumption. exists new. split; [reflexivity|exact Hf]. Qed.

  Hypothesis Hm : m <> MMeta.

  Lemma tmp_above : above tmp_ctx.
  Proof. unfold above, tmp_ctx. cbn. repeat split; apply Nat.le_refl. Qed.

  Lemma chain_above t : chain_ok t -> above (cx t).
  Proof.
    intros [ms [E F]]. destruct ms as [|c ms]; cbn [app] in E; injection E as -> _.
    - apply tmp_above.
    - inversion F as [|? ? [_ [_ A]] _]; subst. exact A.
  Qed.

  Lemma chain_meta t : chain_ok t -> cmode (cx t) = MMeta ->
    meta_ok (cx t) /\ exists prev rest, nested t = prev :: rest /\
      exists ms, prev :: rest = ms ++ tmp_ctx :: cx b :: nested b /\ Forall meta_ok ms.
  Proof.
    intros [ms [E F]] Hmode. destruct ms as [|c ms]; cbn [app] in E; injection E as E1 E2.
    - rewrite E1 in Hmode. cbn in Hmode. congruence.
    - inversion F as [|? ? Hc Hms]; subst. split; [exact Hc|].
      destruct ms as [|c' ms']; cbn [app] in E2.
      + exists tmp_ctx, (cx b :: nested b). split; [exact E2|]. exists []. split; [reflexivity|constructor].
      + exists c', (ms' ++ tmp_ctx :: cx b :: nested b). split; [exact E2|].
        exists (c' :: ms'). split; [reflexivity|exact Hms].
  Qed.

  Lemma chain_nonmeta t : chain_ok t -> cmode (cx t) <> MMeta ->
    cx t = tmp_ctx /\ nested t = cx b :: nested b.
  Proof.
    intros [ms [E F]] Hmode. destruct ms as [|c ms]; cbn [app] in E; injection E as E1 E2.
    - split; assumption.
    - inversion F as [|? ? [Hc _] _]; subst. congruence.
  Qed.

  Lemma binv0_lens t : binv0 t ->
    length (code b) <= length (code t) /\ length (dict b) <= length (dict t) /\
    length (flows b) <= length (flows t) /\ length (ds b) <= length (ds t) /\
    length (rs b) <= length (rs t) /\ length (loops b) <= length (loops t) /\
    length (special b) <= length (special t) /\ length (heap b) <= length (heap t).
  Proof.
    intros B. destruct (bi_flows t B) as [new [E _]].
    repeat split; try (apply kprefix_length, B); try (apply prefix_length, B); try (apply suffix_length, B).
    rewrite E, app_length. lia.
  Qed.

  Lemma binv_flows_split t : binv t ->
    exists act rest, flows t = act ++ rest ++ flows b /\ pending t = act /\
      skipn (length act) (flows t) = rest ++ flows b /\ Forall flow_ok act /\ Forall flow_ok rest.
  Proof.
    intros [C B]. pose proof (chain_above t C) as (_ & _ & Hfs & _).
    destruct (bi_flows t B) as [new [E F]].
    set (k := length (flows t) - fs_len (cx t)).
    assert (Hk : k <= length new).
    { unfold k. rewrite E, app_length. lia. }
    assert (Ea : pending t = firstn k new).
    { unfold pending. fold k. rewrite E, firstn_app.
      replace (k - length new) with 0 by lia. cbn [firstn]. apply app_nil_r. }
    exists (firstn k new), (skipn k new). repeat split.
    - rewrite app_assoc, firstn_skipn. exact E.
    - exact Ea.
    - rewrite firstn_length, Nat.min_l by exact Hk. rewrite E, skipn_app.
      replace (k - length new) with 0 by lia. reflexivity.
    - apply Forall_firstn. exact F.
    - apply Forall_skipn. exact F.
  Qed.

  Lemma binv_pending t : binv t -> Forall flow_ok (pending t).
  Proof. intros H. destruct (binv_flows_split t H) as (act & rest & _ & -> & _ & F & _). exact F. Qed.

  Lemma binv_set_pending t act' : binv t -> Forall flow_ok act' ->
    binv (set_flows t (act' ++ skipn (length (pending t)) (flows t))).
  Proof.
    intros H F'. destruct (binv_flows_split t H) as (act & rest & E & Ep & Es & Fa & Fr).
    rewrite Ep, Es, app_assoc. split; [exact (proj1 H)|].
    apply binv0_set_flows; [exact (proj2 H)|]. apply Forall_app. split; assumption.
  Qed.

  Definition bp {A} (P : M A) : Prop := forall t, binv t -> res_all binv (P t).
  Definition bpq {A} (P : M A) (Q : A -> Prop) : Prop :=
    forall t, binv t ->
      match P t with ROk a t' => binv t' /\ Q a | RErr _ _ t' => binv t' | _ => True end.

  Lemma bp_ret A (a : A) : bp (ret a).
  Proof. intros t H. exact H. Qed.
  Lemma bp_fail A k p : bp (@fail A k p).
  Proof. intros t H. exact H. Qed.
  Lemma bp_unsup A : bp (@unsup A).
  Proof. intros t H. exact I. Qed.
  Lemma bp_panic A : bp (@panic A).
  Proof. intros t H. exact I. Qed.
  Lemma bp_bind A B (P : M A) (f : A -> M B) : bp P -> (forall a, bp (f a)) -> bp (bind P f).
  Proof.
    intros HP Hf t Ht. unfold bind. specialize (HP t Ht).
    destruct (P t) as [a t1|k p t1| |]; cbn [res_all] in *; auto. apply Hf. exact HP.
  Qed.
  Lemma bp_bindq A B (P : M A) (Q : A -> Prop) (f : A -> M B) :
    bpq P Q -> (forall a, Q a -> bp (f a)) -> bp (bind P f).
  Proof.
    intros HP Hf t Ht. unfold bind. specialize (HP t Ht).
    destruct (P t) as [a t1|k p t1| |]; cbn [res_all] in *; auto. destruct HP as [H1 H2]. apply Hf; assumption.
  Qed.
  Lemma bp_get_bind B (k : state -> M B) : (forall s0, binv s0 -> bp (k s0)) -> bp (bind get k).
  Proof. intros H t Ht. unfold bind, get. apply H; exact Ht. Qed.
  Lemma bp_put s' : binv s' -> bp (put s').
  Proof. intros H t _. exact H. Qed.

  Lemma code_emit_binv0 op t : binv0 t ->
    exists t', code_emit op t = ROk tt t' /\ binv0 t' /\ cx t' = cx t /\ nested t' = nested t.
  Proof.
    intros B. unfold code_emit. cbv zeta.
    rewrite <- (bi_dbglen t B), Nat.ltb_irrefl, Nat.eqb_refl.
    eexists. split; [reflexivity|]. split; [|split; reflexivity].
    eapply binv0_code; [exact B|reflexivity..| | |]; st_simpl.
    - apply kprefix_app, B.
    - apply prefix_app, B.
    - rewrite !app_length, (bi_dbglen t B). reflexivity.
  Qed.

  Lemma bp_code_emit op : bp (code_emit op).
  Proof.
    intros t [C B]. destruct (code_emit_binv0 op t B) as (t' & -> & B' & Ec & En).
    split; [exact (chain_same t t' Ec En C)|exact B'].
  Qed.

  Lemma bp_backpatch pos op : length (code b) <= pos -> bp (backpatch pos op).
  Proof.
    intros Hpos t [C B]. unfold backpatch. destruct (pos <? length (code t))%nat; [|exact I].
    split; [exact C|]. eapply binv0_code; [exact B|reflexivity..| | |]; st_simpl.
    - apply kprefix_list_set; [apply B|exact Hpos].
    - apply B.
    - rewrite list_set_length. apply B.
  Qed.

  Lemma bp_backpatch_jump pos offs : length (code b) <= pos -> bp (backpatch_jump pos offs).
  Proof.
    intros Hpos t Ht. unfold backpatch_jump.
    destruct (nth_error (code t) pos) as [op|]; [|exact Ht].
    destruct op; try exact I; apply bp_backpatch; assumption.
  Qed.

  Lemma bp_push_flow f : flow_ok f -> bp (push_flow f).
  Proof.
    intros Hf t [C B]. destruct (bi_flows t B) as [new [E F]].
    unfold push_flow, modify. rewrite E. split; [exact C|].
    apply (binv0_set_flows t (f :: new) B). constructor; assumption.
  Qed.

  Definition oflow_ok (r : option flow) : Prop := match r with Some f => flow_ok f | None => True end.

  Lemma bpq_pop_flow : bpq pop_flow oflow_ok.
  Proof.
    intros t H. unfold pop_flow. destruct (flows t) as [|f r] eqn:Ef; [split; [exact H|exact I]|].
    destruct (fs_len (cx t) <? length (f :: r))%nat eqn:El; [|split; [exact H|exact I]].
    apply Nat.ltb_lt in El. rewrite <- Ef in El.
    pose proof (binv_pending t H) as FP. unfold pending in FP. rewrite Ef in FP.
    rewrite <- Ef in FP at 1.
    destruct (length (flows t) - fs_len (cx t)) as [|k] eqn:Ek; [lia|].
    cbn [firstn] in FP. inversion FP as [|? ? Hf _]; subst.
    split; [|exact Hf].
    pose proof (binv_set_pending t (firstn k r) H) as X.
    unfold pending in X. rewrite Ek, Ef in X.
    assert (Hk : k <= length r).
    { rewrite Ef in Ek. cbn [length] in Ek. lia. }
    cbn [firstn length] in X. rewrite firstn_length, Nat.min_l in X by exact Hk.
    cbn [skipn] in X. rewrite firstn_skipn in X. apply X.
    inversion FP; subst. assumption.
  Qed.

  Lemma bpq_take_first_cond_flow : bpq take_first_cond_flow oflow_ok.
  Proof.
    intros t H. unfold take_first_cond_flow. cbv zeta.
    destruct (take_cond (pending t)) as [[f act']|] eqn:E; [|split; [exact H|exact I]].
    destruct (take_cond_Forall flow_ok _ _ _ E (binv_pending t H)) as (A & B & _).
    split; [|exact A]. apply binv_set_pending; assumption.
  Qed.

  Lemma bp_bind_pop_flow B (k : option flow -> M B) :
    (forall r, oflow_ok r -> bp (k r)) -> bp (bind pop_flow k).
  Proof. intros H. eapply bp_bindq; [apply bpq_pop_flow|exact H]. Qed.

  Lemma bp_bind_tfc B (k : option flow -> M B) :
    (forall r, oflow_ok r -> bp (k r)) -> bp (bind take_first_cond_flow k).
  Proof. intros H. eapply bp_bindq; [apply bpq_take_first_cond_flow|exact H]. Qed.

  Lemma bp_set_dict t d' : binv t -> prefix_of (dict b) d' -> binv (set_dict t d').
  Proof. intros [C B] Hd. split; [exact C|apply binv0_set_dict; assumption]. Qed.

  Lemma bpq_dict_insert name e : bpq (dict_insert name e) (fun idx => length (dict b) <= idx).
  Proof.
    intros t H. pose proof (bi_dict t (proj2 H)) as Hd. unfold dict_insert. split.
    - apply bp_set_dict; [exact H|apply prefix_app, Hd].
    - apply prefix_length, Hd.
  Qed.

  Lemma bp_alloc_heap v : bp (alloc_heap v).
  Proof.
    intros t [C B]. unfold alloc_heap. destruct (mode_eqb _ _); [split; assumption|].
    destruct (limit_reached _ _); [split; assumption|].
    split; [exact C|]. apply binv0_set_heap; [exact B|apply prefix_app, B].
  Qed.

  Lemma bp_context_open_meta : bp (context_open MMeta).
  Proof.
    intros t [C B]. unfold context_open. cbv zeta. cbn [res_all]. split.
    - destruct C as [ms [E F]]. unfold chain_ok. st_simpl.
      match goal with |- context [mkctx ?a ?b0 ?c ?d ?e ?f ?g ?h MMeta] =>
        exists (mkctx a b0 c d e f g h MMeta :: ms) end.
      split; [cbn [app]; rewrite E; reflexivity|]. constructor; [|exact F].
      pose proof (binv0_lens t B) as (L1 & L2 & L3 & L4 & L5 & L6 & L7 & L8).
      unfold meta_ok, above. cbn [cmode ds_len cs_len rs_len fs_len ls_len ss_ptr di_len].
      repeat split; try assumption.
      destruct (mode_eqb (cmode (cx t)) MMeta) eqn:Em; [|exact L4].
      assert (Hc : cmode (cx t) = MMeta) by (destruct (cmode (cx t)); cbn in Em; congruence).
      destruct ms as [|c ms']; cbn [app] in E; injection E as E1 E2.
      + rewrite E1 in Hc. cbn in Hc. congruence.
      + inversion F as [|? ? [_ [Hd _]] _]; subst. exact Hd.
    - eapply binv0_same; [..|exact B]; reflexivity.
  Qed.

  Lemma bp_intern_source buf : bp (intern_source buf).
  Proof. intros t H. unfold intern_source. cbn [res_all]. eapply binv_same; [..|exact H]; reflexivity. Qed.

  (* code that runs at build time (meta mode only) *)

  Lemma binv0_frame t t' : binv0 t -> meta_ok (cx t) -> frame_rel t t' -> binv0 t'.
  Proof.
    intros [H1 H2 H3 H4 H5 H6 H7 H8 H9 H10 H11 H12] (Mm & Md & Mc & Mr & Mf & Ml & Ms & Mi).
    unfold frame_rel.
    intros (A1 & A2 & A3 & A4 & A5 & A6 & A7 & A8 & A9 & A10 & A11 & A12 & A13 & A14 & A15 & A16 & A17 & A18 & A19).
    constructor.
    - eapply code_keep_kprefix; eassumption.
    - rewrite A2. exact H2.
    - rewrite A2. destruct A18 as [A18 _]. congruence.
    - rewrite A1. exact H4.
    - rewrite A13 by exact Mm. exact H5.
    - rewrite A3. exact H6.
    - apply A14; [exact H7|exact Md].
    - apply A15; [exact H8|exact Mr].
    - apply A16; [exact H9|exact Ml].
    - apply A17; [exact H10|exact Ms].
    - destruct H11 as (G1 & G2 & G3). repeat split; congruence.
    - split; intros X; [apply H12, A19, X|apply A19, H12, X].
  Qed.

  Lemma binv_frame t t' : binv t -> cmode (cx t) = MMeta -> frame_rel t t' ->
    binv t' /\ cmode (cx t') = MMeta.
  Proof.
    intros [C B] Hmode FR. destruct (chain_meta t C Hmode) as [MO _].
    pose proof (fr_nested _ _ FR) as A4. pose proof (fr_cx _ _ FR) as A11.
    split; [split|].
    - destruct C as [ms [E F]]. destruct ms as [|c ms]; cbn [app] in E; injection E as E1 E2.
      + rewrite E1 in Hmode. cbn in Hmode. congruence.
      + exists (set_ctx_ip c (cip (cx t')) :: ms). rewrite A11, A4, E1, E2. split; [reflexivity|].
        inversion F; subst. constructor; assumption.
    - eapply binv0_frame; eassumption.
    - rewrite A11. exact Hmode.
  Qed.

  Definition bpm {A} (P : M A) : Prop :=
    forall t, binv t -> cmode (cx t) = MMeta ->
      res_all (fun t' => binv t' /\ cmode (cx t') = MMeta) (P t).

  Lemma bpm_wl A (P : M A) : wl P -> bpm P.
  Proof.
    intros HW t H Hmode. pose proof (wl_frame A P HW t) as FR.
    destruct (P t); cbn [res_all] in *; auto; eapply binv_frame; eauto.
  Qed.
End Inv.
