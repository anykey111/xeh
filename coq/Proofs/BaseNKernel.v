(* BaseNKernel.v: one group of each text encoding of Model/BaseN.v.
   The regrouping of bytes into 6-bit / 5-bit symbols and back is put in div/mod form and
   left to [lia]; that the alphabets and the inverse tables agree is checked by evaluation
   over the 32, 64 and 85 symbols. *)
From Xeh Require Import Model.Prelude Model.BaseN.
From Coq Require Import ZifyBool ZifyNat ZifyN.
Local Ltac Zify.zify_post_hook ::= Z.div_mod_to_equations.
Local Open Scope N_scope.

(* Sweeps over an initial segment of N: only the alphabet tables below are checked this way. *)
Definition rangeN (n : nat) : list N := map N.of_nat (seq 0 n).

Lemma sweep1 n (P : N -> bool) :
  forallb P (rangeN n) = true -> forall x, x < N.of_nat n -> P x = true.
Proof.
  intros H x Hx. rewrite forallb_forall in H. apply H.
  unfold rangeN. apply in_map_iff. exists (N.to_nat x). split; [lia|]. apply in_seq. lia.
Qed.

Lemma land_mask x m j : m = N.ones j -> N.land x m = x mod 2 ^ j.
Proof. intros ->. apply N.land_ones. Qed.

Lemma shiftr_mask x m k j : N.shiftr m k = N.ones j -> N.shiftr (N.land x m) k = (x / 2 ^ k) mod 2 ^ j.
Proof. intros H. rewrite N.shiftr_land, H, N.land_ones, N.shiftr_div_pow2. reflexivity. Qed.

(* no bit of [a] is below position k, no bit of [b] at or above it *)
Lemma lor_add a b k : a mod 2 ^ k = 0 -> b < 2 ^ k -> N.lor a b = a + b.
Proof.
  intros Ha Hb.
  assert (D : N.land a b = 0).
  { apply N.bits_inj_0. intro n. rewrite N.land_spec.
    destruct (N.lt_ge_cases n k) as [L|L].
    - rewrite <- (N.mod_pow2_bits_low a k n L), Ha, N.bits_0. reflexivity.
    - rewrite <- (N.mod_small b (2 ^ k) Hb), (N.mod_pow2_bits_high b k n L). apply andb_false_r. }
  rewrite <- (N.lxor_lor a b D). symmetry. apply N.add_nocarry_lxor, D.
Qed.

(* two lists of the same length whose entries are equal by linear arithmetic *)
Ltac entrywise_lia := repeat (apply (f_equal2 cons); [lia|]); reflexivity.

Lemma b8_mod x : b8 x = x mod 256.
Proof. apply (N.land_ones x 8). Qed.

Definition b64_idx3 (b0 b1 b2 : N) : list N :=
  [ N.shiftr b0 2;
    N.lor (N.shiftl (N.land b0 3) 4) (N.shiftr b1 4);
    N.lor (N.shiftl (N.land b1 15) 2) (N.shiftr b2 6);
    N.land b2 63 ].
Definition b64_idx2 (b0 b1 : N) : list N :=
  [ N.shiftr b0 2;
    N.lor (N.shiftl (N.land b0 3) 4) (N.shiftr b1 4);
    N.shiftl (N.land b1 15) 2 ].
Definition b64_idx1 (b0 : N) : list N :=
  [ N.shiftr b0 2; N.shiftl (N.land b0 3) 4 ].

Lemma b64_idx3_arith b0 b1 b2 : b1 < 256 -> b2 < 256 ->
  b64_idx3 b0 b1 b2 = [ b0 / 4; (b0 mod 4) * 16 + b1 / 16; (b1 mod 16) * 4 + b2 / 64; b2 mod 64 ].
Proof.
  intros H1 H2. unfold b64_idx3.
  rewrite (land_mask b0 3 2 eq_refl), (land_mask b1 15 4 eq_refl), (land_mask b2 63 6 eq_refl).
  rewrite !N.shiftl_mul_pow2, !N.shiftr_div_pow2.
  rewrite (lor_add _ _ 4), (lor_add _ _ 2) by lia.
  reflexivity.
Qed.
Lemma b64_idx2_arith b0 b1 : b1 < 256 ->
  b64_idx2 b0 b1 = [ b0 / 4; (b0 mod 4) * 16 + b1 / 16; (b1 mod 16) * 4 ].
Proof.
  intros H1. unfold b64_idx2.
  rewrite (land_mask b0 3 2 eq_refl), (land_mask b1 15 4 eq_refl).
  rewrite !N.shiftl_mul_pow2, !N.shiftr_div_pow2.
  rewrite (lor_add _ _ 4) by lia.
  reflexivity.
Qed.
Lemma b64_idx1_arith b0 : b64_idx1 b0 = [ b0 / 4; (b0 mod 4) * 16 ].
Proof.
  unfold b64_idx1. rewrite (land_mask b0 3 2 eq_refl), N.shiftl_mul_pow2, N.shiftr_div_pow2. reflexivity.
Qed.

Lemma b64_d0 a b : a < 64 -> b < 64 -> b8 (N.lor (N.shiftl a 2) (N.shiftr b 4)) = a * 4 + b / 16.
Proof.
  intros H0 H1. rewrite b8_mod, N.shiftl_mul_pow2, N.shiftr_div_pow2, (lor_add _ _ 2) by lia. lia.
Qed.
Lemma b64_d1 b c : b < 64 -> c < 64 -> b8 (N.lor (N.shiftl b 4) (N.shiftr c 2)) = (b mod 16) * 16 + c / 4.
Proof.
  intros H0 H1. rewrite b8_mod, N.shiftl_mul_pow2, N.shiftr_div_pow2, (lor_add _ _ 4) by lia. lia.
Qed.
Lemma b64_d2 c d : c < 64 -> d < 64 -> b8 (N.lor (N.shiftl c 6) d) = (c mod 4) * 64 + d.
Proof.
  intros H0 H1. rewrite b8_mod, N.shiftl_mul_pow2, (lor_add _ _ 6) by lia. lia.
Qed.

Lemma b64_idx3_lt b0 b1 b2 : b0 < 256 -> b1 < 256 -> b2 < 256 ->
  Forall (fun v => v < 64) (b64_idx3 b0 b1 b2).
Proof. intros H0 H1 H2. rewrite b64_idx3_arith by assumption. repeat constructor; lia. Qed.
Lemma b64_idx2_lt b0 b1 : b0 < 256 -> b1 < 256 -> Forall (fun v => v < 64) (b64_idx2 b0 b1).
Proof. intros H0 H1. rewrite b64_idx2_arith by assumption. repeat constructor; lia. Qed.
Lemma b64_idx1_lt b0 : b0 < 256 -> Forall (fun v => v < 64) (b64_idx1 b0).
Proof. intros H0. rewrite b64_idx1_arith. repeat constructor; lia. Qed.

Lemma b64_kernel3 b0 b1 b2 f r : b0 < 256 -> b1 < 256 -> b2 < 256 ->
  b64_dec_quads (S f) (b64_idx3 b0 b1 b2 ++ r) = [b0; b1; b2] ++ b64_dec_quads f r.
Proof.
  intros H0 H1 H2. rewrite b64_idx3_arith by assumption. cbn [app b64_dec_quads].
  rewrite b64_d0, b64_d1, b64_d2 by lia. entrywise_lia.
Qed.
Lemma b64_kernel2 b0 b1 f : b0 < 256 -> b1 < 256 ->
  b64_dec_quads (S f) (b64_idx2 b0 b1) = [b0; b1] /\ N.land (last (b64_idx2 b0 b1) 0) 3 = 0.
Proof.
  intros H0 H1. rewrite b64_idx2_arith by assumption. cbn [b64_dec_quads last].
  rewrite b64_d0, b64_d1 by lia. split.
  - entrywise_lia.
  - rewrite (land_mask _ 3 2 eq_refl). lia.
Qed.
Lemma b64_kernel1 b0 f : b0 < 256 ->
  b64_dec_quads (S f) (b64_idx1 b0) = [b0] /\ N.land (last (b64_idx1 b0) 0) 15 = 0.
Proof.
  intros H0. rewrite b64_idx1_arith. cbn [b64_dec_quads last].
  rewrite b64_d0 by lia. split.
  - entrywise_lia.
  - rewrite (land_mask _ 15 4 eq_refl). lia.
Qed.

Lemma b64_sym_alpha i : i < 64 ->
  b64_sym (nthN b64_alphabet i) = Some i /\ nthN b64_alphabet i <> 61.
Proof.
  intros H.
  assert (E : (match b64_sym (nthN b64_alphabet i) with Some j => j =? i | None => false end
               && negb (nthN b64_alphabet i =? 61)) = true).
  { apply (sweep1 64 (fun i => match b64_sym (nthN b64_alphabet i) with Some j => j =? i | None => false end
               && negb (nthN b64_alphabet i =? 61))); [vm_compute; reflexivity | lia]. }
  apply andb_prop in E. destruct E as [E1 E2].
  destruct (b64_sym (nthN b64_alphabet i)) as [j|]; [|discriminate].
  apply N.eqb_eq in E1. subst j. split; [reflexivity|].
  intro C. rewrite C in E2. discriminate.
Qed.

Lemma b64_sym_some c v : b64_sym c = Some v -> In c b64_alphabet.
Proof.
  intros H.
  destruct (N.lt_ge_cases c 128) as [L|L].
  - assert (E : (match b64_sym c with Some _ => existsb (N.eqb c) b64_alphabet | None => true end) = true).
    { apply (sweep1 128 (fun c => match b64_sym c with Some _ => existsb (N.eqb c) b64_alphabet | None => true end));
        [vm_compute; reflexivity | lia]. }
    rewrite H in E. apply existsb_exists in E. destruct E as (x & Hx & Ex).
    apply N.eqb_eq in Ex. subst x. assumption.
  - exfalso. unfold b64_sym in H.
    repeat match type of H with
           | (if ?b then _ else _) = _ => destruct b eqn:?; [ lia | ]
           end.
    discriminate.
Qed.

Definition b32_idx (b0 b1 b2 b3 b4 : N) : list N :=
  [ N.shiftr (N.land b0 248) 3;
    N.lor (N.shiftl (N.land b0 7) 2) (N.shiftr (N.land b1 192) 6);
    N.shiftr (N.land b1 62) 1;
    N.lor (N.shiftl (N.land b1 1) 4) (N.shiftr (N.land b2 240) 4);
    N.lor (N.shiftl (N.land b2 15) 1) (N.shiftr b3 7);
    N.shiftr (N.land b3 124) 2;
    N.lor (N.shiftl (N.land b3 3) 3) (N.shiftr (N.land b4 224) 5);
    N.land b4 31 ].

Lemma b32_chunk_idx al b0 b1 b2 b3 b4 :
  b32_chunk al b0 b1 b2 b3 b4 = map (nthN al) (b32_idx b0 b1 b2 b3 b4).
Proof. reflexivity. Qed.

Lemma b32_idx_arith b0 b1 b2 b3 b4 : b1 < 256 -> b2 < 256 -> b3 < 256 -> b4 < 256 ->
  b32_idx b0 b1 b2 b3 b4
  = [ (b0 / 8) mod 32; (b0 mod 8) * 4 + b1 / 64; (b1 / 2) mod 32; (b1 mod 2) * 16 + b2 / 16;
      (b2 mod 16) * 2 + b3 / 128; (b3 / 4) mod 32; (b3 mod 4) * 8 + b4 / 32; b4 mod 32 ].
Proof.
  intros H1 H2 H3 H4. unfold b32_idx.
  rewrite (shiftr_mask b0 248 3 5 eq_refl), (shiftr_mask b1 192 6 2 eq_refl), (shiftr_mask b1 62 1 5 eq_refl),
    (shiftr_mask b2 240 4 4 eq_refl), (shiftr_mask b3 124 2 5 eq_refl), (shiftr_mask b4 224 5 3 eq_refl).
  rewrite (land_mask b0 7 3 eq_refl), (land_mask b1 1 1 eq_refl), (land_mask b2 15 4 eq_refl),
    (land_mask b3 3 2 eq_refl), (land_mask b4 31 5 eq_refl).
  rewrite !N.shiftl_mul_pow2, N.shiftr_div_pow2.
  rewrite (lor_add _ _ 2), (lor_add _ _ 4), (lor_add _ _ 1), (lor_add _ _ 3) by lia.
  entrywise_lia.
Qed.

Lemma b32_d0 g0 g1 : g0 < 32 -> g1 < 32 -> b8 (N.lor (N.shiftl g0 3) (N.shiftr g1 2)) = g0 * 8 + g1 / 4.
Proof.
  intros H0 H1. rewrite b8_mod, N.shiftl_mul_pow2, N.shiftr_div_pow2, (lor_add _ _ 3) by lia. lia.
Qed.
Lemma b32_d1 g1 g2 g3 : g1 < 32 -> g2 < 32 -> g3 < 32 ->
  b8 (N.lor (N.lor (N.shiftl g1 6) (N.shiftl g2 1)) (N.shiftr g3 4)) = (g1 mod 4) * 64 + g2 * 2 + g3 / 16.
Proof.
  intros H0 H1 H2. rewrite b8_mod, !N.shiftl_mul_pow2, N.shiftr_div_pow2.
  rewrite (lor_add (_ * _) _ 6), (lor_add _ _ 1) by lia. lia.
Qed.
Lemma b32_d2 g3 g4 : g3 < 32 -> g4 < 32 -> b8 (N.lor (N.shiftl g3 4) (N.shiftr g4 1)) = (g3 mod 16) * 16 + g4 / 2.
Proof.
  intros H0 H1. rewrite b8_mod, N.shiftl_mul_pow2, N.shiftr_div_pow2, (lor_add _ _ 4) by lia. lia.
Qed.
Lemma b32_d3 g4 g5 g6 : g4 < 32 -> g5 < 32 -> g6 < 32 ->
  b8 (N.lor (N.lor (N.shiftl g4 7) (N.shiftl g5 2)) (N.shiftr g6 3)) = (g4 mod 2) * 128 + g5 * 4 + g6 / 8.
Proof.
  intros H0 H1 H2. rewrite b8_mod, !N.shiftl_mul_pow2, N.shiftr_div_pow2.
  rewrite (lor_add (_ * _) _ 7), (lor_add _ _ 2) by lia. lia.
Qed.
Lemma b32_d4 g6 g7 : g6 < 32 -> g7 < 32 -> b8 (N.lor (N.shiftl g6 5) g7) = (g6 mod 8) * 32 + g7.
Proof.
  intros H0 H1. rewrite b8_mod, N.shiftl_mul_pow2, (lor_add _ _ 5) by lia. lia.
Qed.

Lemma b32_idx_lt b0 b1 b2 b3 b4 : b0 < 256 -> b1 < 256 -> b2 < 256 -> b3 < 256 -> b4 < 256 ->
  Forall (fun v => v < 32) (b32_idx b0 b1 b2 b3 b4).
Proof.
  intros H0 H1 H2 H3 H4. rewrite b32_idx_arith by assumption. repeat constructor; lia.
Qed.

Lemma b32_kernel b0 b1 b2 b3 b4 : b0 < 256 -> b1 < 256 -> b2 < 256 -> b3 < 256 -> b4 < 256 ->
  b32_dec_chunk (b32_idx b0 b1 b2 b3 b4) = [b0; b1; b2; b3; b4].
Proof.
  intros H0 H1 H2 H3 H4. rewrite b32_idx_arith by assumption. unfold b32_dec_chunk. cbn [nth].
  rewrite b32_d0, b32_d1, b32_d2, b32_d3, b32_d4 by lia.
  entrywise_lia.
Qed.

(* symbols of a group that only depend on zero bytes are zero: this is what makes
   the truncated-and-padded tail of the encoder decode like a full group *)
Lemma b32_idx_tail1 b0 : firstn 2 (b32_idx b0 0 0 0 0) ++ repeat 0 6 = b32_idx b0 0 0 0 0.
Proof. reflexivity. Qed.
Lemma b32_idx_tail2 b0 b1 : firstn 4 (b32_idx b0 b1 0 0 0) ++ repeat 0 4 = b32_idx b0 b1 0 0 0.
Proof. reflexivity. Qed.
Lemma b32_idx_tail3 b0 b1 b2 : firstn 5 (b32_idx b0 b1 b2 0 0) ++ repeat 0 3 = b32_idx b0 b1 b2 0 0.
Proof. reflexivity. Qed.
Lemma b32_idx_tail4 b0 b1 b2 b3 : firstn 7 (b32_idx b0 b1 b2 b3 0) ++ repeat 0 1 = b32_idx b0 b1 b2 b3 0.
Proof. reflexivity. Qed.

Definition b32_al (a : b32alpha) : list N := match a with Rfc4648 => rfc_alphabet | Crockford => crock_alphabet end.
Definition b32_inv (a : b32alpha) : list N := match a with Rfc4648 => rfc_inv | Crockford => crock_inv end.

Lemma b32_sym_alpha a i : i < 32 ->
  b32_sym (b32_inv a) (nthN (b32_al a) i) = Some i /\ nthN (b32_al a) i <> 61 /\ nthN (b32_al a) i < 128.
Proof.
  intros H.
  assert (E : (match b32_sym (b32_inv a) (nthN (b32_al a) i) with Some j => j =? i | None => false end
               && negb (nthN (b32_al a) i =? 61) && (nthN (b32_al a) i <? 128)) = true).
  { destruct a.
    - apply (sweep1 32 (fun i => match b32_sym rfc_inv (nthN rfc_alphabet i) with Some j => j =? i | None => false end
               && negb (nthN rfc_alphabet i =? 61) && (nthN rfc_alphabet i <? 128))); [vm_compute; reflexivity | lia].
    - apply (sweep1 32 (fun i => match b32_sym crock_inv (nthN crock_alphabet i) with Some j => j =? i | None => false end
               && negb (nthN crock_alphabet i =? 61) && (nthN crock_alphabet i <? 128))); [vm_compute; reflexivity | lia]. }
  apply andb_prop in E. destruct E as [E E3]. apply andb_prop in E. destruct E as [E1 E2].
  destruct (b32_sym (b32_inv a) (nthN (b32_al a) i)) as [j|]; [|discriminate].
  apply N.eqb_eq in E1. subst j. split; [reflexivity|]. split.
  - intro C. rewrite C in E2. discriminate.
  - apply N.ltb_lt. assumption.
Qed.

Lemma rfc_sym_pad : b32_sym rfc_inv 61 = Some 0.
Proof. reflexivity. Qed.

(* the characters the decoders accept: the alphabet in either case, for RFC 4648 the
   padding character, for Crockford the aliases I, L (one) and O (zero) *)
Definition b32_accepts (a : b32alpha) (c : N) : Prop :=
  In (to_upper c) (b32_al a) \/
  match a with Rfc4648 => c = 61 | Crockford => In (to_upper c) [73; 76; 79] end.

Lemma b32_sym_some a c v : b32_sym (b32_inv a) c = Some v -> b32_accepts a c.
Proof.
  intros H. unfold b32_accepts.
  destruct (N.lt_ge_cases c 128) as [L|L].
  - assert (E : (match b32_sym (b32_inv a) c with
                 | Some _ => existsb (N.eqb (to_upper c)) (b32_al a)
                             || match a with Rfc4648 => c =? 61 | Crockford => existsb (N.eqb (to_upper c)) [73; 76; 79] end
                 | None => true end) = true).
    { destruct a.
      - apply (sweep1 128 (fun c => match b32_sym rfc_inv c with
                 | Some _ => existsb (N.eqb (to_upper c)) rfc_alphabet || (c =? 61)
                 | None => true end)); [vm_compute; reflexivity | lia].
      - apply (sweep1 128 (fun c => match b32_sym crock_inv c with
                 | Some _ => existsb (N.eqb (to_upper c)) crock_alphabet || existsb (N.eqb (to_upper c)) [73; 76; 79]
                 | None => true end)); [vm_compute; reflexivity | lia]. }
    rewrite H in E. apply orb_prop in E. destruct E as [E|E].
    + left. apply existsb_exists in E. destruct E as (x & Hx & Ex).
      apply N.eqb_eq in Ex. rewrite Ex. assumption.
    + right. destruct a.
      * apply N.eqb_eq. assumption.
      * apply existsb_exists in E. destruct E as (x & Hx & Ex).
        apply N.eqb_eq in Ex. rewrite Ex. assumption.
  - exfalso. unfold b32_sym, to_upper in H.
    replace ((97 <=? c) && (c <=? 122)) with false in H by lia.
    destruct (c <? 48) eqn:E1; [discriminate|].
    replace (43 <=? c - 48) with true in H by lia. discriminate.
Qed.

Definition z85_digits (n : N) : list N :=
  [ (n / 52200625) mod 85; (n / 614125) mod 85; (n / 7225) mod 85; (n / 85) mod 85; n mod 85 ].

Lemma z85_enc_num_digits n : z85_enc_num n = map (nthN z85_letters) (z85_digits n).
Proof. reflexivity. Qed.

Lemma z85_digits_lt n : Forall (fun v => v < 85) (z85_digits n).
Proof. unfold z85_digits. repeat constructor; apply N.mod_lt; discriminate. Qed.

Definition z85_horner (ds : list N) (acc : N) : N := fold_left (fun a d => a * 85 + d) ds acc.

Lemma z85_letter i : i < 85 ->
  32 < nthN z85_letters i /\ nthN z85_letters i < 128 /\
  nthN z85_octets (nthN z85_letters i - 32) = i /\
  (nthN z85_letters i = 35 <-> i = 84).
Proof.
  intros H.
  assert (E : ((32 <? nthN z85_letters i) && (nthN z85_letters i <? 128) &&
               (nthN z85_octets (nthN z85_letters i - 32) =? i) &&
               (Bool.eqb (nthN z85_letters i =? 35) (i =? 84))) = true).
  { apply (sweep1 85 (fun i => (32 <? nthN z85_letters i) && (nthN z85_letters i <? 128) &&
               (nthN z85_octets (nthN z85_letters i - 32) =? i) &&
               (Bool.eqb (nthN z85_letters i =? 35) (i =? 84)))); [vm_compute; reflexivity | lia]. }
  apply andb_prop in E. destruct E as [E E4]. apply andb_prop in E. destruct E as [E E3].
  apply andb_prop in E. destruct E as [E1 E2].
  apply N.ltb_lt in E1, E2. apply N.eqb_eq in E3. apply Bool.eqb_prop in E4.
  repeat split; try assumption.
  - intros C. apply N.eqb_eq. rewrite <- E4. apply N.eqb_eq. assumption.
  - intros C. apply N.eqb_eq. rewrite E4. apply N.eqb_eq. assumption.
Qed.

Lemma z85_chunk_num_letters : forall ds acc, Forall (fun v => v < 85) ds ->
  z85_chunk_num (map (nthN z85_letters) ds) acc = Some (z85_horner ds acc).
Proof.
  induction ds as [|d ds IH]; intros acc HF; [reflexivity|].
  inversion HF as [|? ? Hd HF']; subst.
  destruct (z85_letter d Hd) as (L1 & L2 & L3 & _).
  cbn [map z85_chunk_num z85_horner fold_left].
  replace ((nthN z85_letters d <=? 32) || (128 <=? nthN z85_letters d)) with false by lia.
  rewrite L3. replace (d =? 255) with false by lia. apply IH. assumption.
Qed.

Lemma z85_chunk_num_in : forall l acc n c, z85_chunk_num l acc = Some n -> In c l -> In c z85_letters.
Proof.
  induction l as [|x l IH]; intros acc n c H Hin; [contradiction|].
  cbn [z85_chunk_num] in H.
  destruct ((x <=? 32) || (128 <=? x)) eqn:E1; [discriminate|].
  destruct (nthN z85_octets (x - 32) =? 255) eqn:E2; [discriminate|].
  destruct Hin as [->|Hin]; [|eapply IH; eassumption].
  assert (E : ((c <=? 32) || (128 <=? c) || (nthN z85_octets (c - 32) =? 255)
               || existsb (N.eqb c) z85_letters) = true).
  { apply (sweep1 128 (fun c => (c <=? 32) || (128 <=? c) || (nthN z85_octets (c - 32) =? 255)
               || existsb (N.eqb c) z85_letters)); [vm_compute; reflexivity | lia]. }
  rewrite E1, E2 in E. cbn [orb] in E. apply existsb_exists in E. destruct E as (y & Hy & Ey).
  apply N.eqb_eq in Ey. subst y. assumption.
Qed.

Lemma z85_horner_digits n : n < 4437053125 -> z85_horner (z85_digits n) 0 = n.
Proof.
  intros H. unfold z85_horner, z85_digits. cbn [fold_left].
  change 52200625 with (85 * (85 * (85 * 85))). change 614125 with (85 * (85 * 85)).
  change 7225 with (85 * 85).
  rewrite <- !N.div_div by discriminate. lia.
Qed.

Lemma be32_lt b0 b1 b2 b3 : b0 < 256 -> b1 < 256 -> b2 < 256 -> b3 < 256 -> be32 b0 b1 b2 b3 < 4294967296.
Proof. intros. unfold be32. lia. Qed.

Lemma be_bytes32_be32 b0 b1 b2 b3 : b0 < 256 -> b1 < 256 -> b2 < 256 -> b3 < 256 ->
  be_bytes32 (be32 b0 b1 b2 b3) = [b0; b1; b2; b3].
Proof.
  intros H0 H1 H2 H3. unfold be_bytes32, be32.
  change 16777216 with (256 * (256 * 256)). change 65536 with (256 * 256).
  rewrite <- !N.div_div by discriminate.
  entrywise_lia.
Qed.

Lemma z85_group_kernel n : n < 4294967296 -> z85_decode_chunk (z85_enc_num n) = Some (be_bytes32 n).
Proof.
  intros H. unfold z85_decode_chunk. rewrite z85_enc_num_digits.
  rewrite z85_chunk_num_letters by apply z85_digits_lt.
  rewrite z85_horner_digits by lia.
  replace (4294967295 <? n) with false by lia. reflexivity.
Qed.

(* the first letter of a full group is never '#' *)
Lemma z85_group_first n : n < 4294967296 -> nth 0 (z85_enc_num n) 0 <> 35.
Proof.
  intros H. rewrite z85_enc_num_digits. unfold z85_digits. cbn [map nth].
  intro C. apply z85_letter in C; [|apply N.mod_lt; discriminate]. lia.
Qed.
