(* TagSim.v: running a native word commutes with stripping all tags (C13 strip_commutes).

   [strip_state] removes the tags of every cell held by the machine state (data stack, heap,
   loop collections, locals, reverse log); code and dictionary are left alone - no native
   word reads them.  Two states are related ([srel]) when they are equal after stripping and
   hold only [tagwf] cells; [sim R m1 m2] says that two programs started in related states
   end in related results (same result kind, same error kind, payloads equal after
   stripping, values related by R).  Every primitive is [sim], [sim] is closed under [bind],
   and each word that does not read tags is [sim eq] (TagWords.v). *)
From Xeh Require Import Model.Prelude Model.Bits Model.Codec Model.Cell Model.Lexer Model.Fmt
                        Model.Vm Model.Words Proofs.BitsProofs Proofs.CellProofs Proofs.CollProofs
                        Proofs.CollVec Proofs.TagProofs Proofs.WordProg.
From Coq Require Import Sorting.Sorted ZifyBool ZifyNat ZifyN.
Local Notation length := List.length.

Definition strip_frame (f : frame) : frame := mkframe (fn_addr f) (return_to f) (map strip (locals f)).
Definition strip_loop (l : loopr) : loopr := mkloop (strip (l_items l)) (l_start l) (l_end l).
Definition strip_rstep (r : rstep) : rstep :=
  match r with
  | RPushData c => RPushData (strip c)
  | RPushReturn f => RPushReturn (strip_frame f)
  | RPushLoop l => RPushLoop (strip_loop l)
  | RLoopNextBack l => RLoopNextBack (strip_loop l)
  | RSetLocals l => RSetLocals (map strip l)
  | RSwapRef a c => RSwapRef a (strip c)
  | x => x
  end.

Definition strip_state (s : state) : state :=
  mkstate (dict s) (map strip (heap s)) (code s) (dbg s) (sources s) (input s)
          (map strip (ds s)) (map strip_frame (rs s)) (flows s) (map strip_loop (loops s)) (special s)
          (cx s) (nested s) (meter s) (insn_limit s) (heap_limit s) (stack_limit s)
          (option_map (map strip_rstep) (rlog s)) (out s) (last_tok s) (stopping s).

Definition res_strip {A} (r : res A) : res A :=
  match r with
  | ROk a s => ROk a (strip_state s)
  | RErr k p s => RErr k (option_map strip p) (strip_state s)
  | RPanic => RPanic
  | RUnsup => RUnsup
  end.

(* the invariant: no cell the machine holds has a doubly wrapped tag *)
Definition tagwf_state (s : state) : Prop :=
  Forall tagwf (ds s) /\ Forall tagwf (heap s) /\ Forall (fun l => tagwf (l_items l)) (loops s).

Lemma map_idem : forall {A} (f : A -> A), (forall x, f (f x) = f x) -> forall l, map f (map f l) = map f l.
Proof. intros A f H l. rewrite map_map. apply map_ext. exact H. Qed.

Lemma map_strip_idem : forall l, map strip (map strip l) = map strip l.
Proof. exact (map_idem strip strip_idem). Qed.

Lemma strip_frame_idem : forall f, strip_frame (strip_frame f) = strip_frame f.
Proof. intros [a b l]. unfold strip_frame. cbn. rewrite map_strip_idem. reflexivity. Qed.
Lemma strip_loop_idem : forall l, strip_loop (strip_loop l) = strip_loop l.
Proof. intros [a b c]. unfold strip_loop. cbn. rewrite strip_idem. reflexivity. Qed.
Lemma strip_rstep_idem : forall r, strip_rstep (strip_rstep r) = strip_rstep r.
Proof.
  destruct r; cbn; rewrite ?strip_idem, ?strip_frame_idem, ?strip_loop_idem, ?map_strip_idem; reflexivity.
Qed.

Lemma strip_state_idem : forall s, strip_state (strip_state s) = strip_state s.
Proof.
  intro s. unfold strip_state. cbn.
  rewrite !map_strip_idem, (map_idem _ strip_frame_idem), (map_idem _ strip_loop_idem).
  destruct (rlog s); cbn [option_map]; rewrite ?(map_idem _ strip_rstep_idem); reflexivity.
Qed.

Lemma Forall_map_strip : forall l, Forall tagwf (map strip l).
Proof. intro l. apply Forall_map, Forall_forall. intros x _. apply tagwf_strip. Qed.

Lemma tagwf_strip_state : forall s, tagwf_state (strip_state s).
Proof.
  intro s. unfold tagwf_state, strip_state. cbn. repeat split; try apply Forall_map_strip.
  apply Forall_map, Forall_forall. intros l _. apply tagwf_strip.
Qed.

Lemma strip_set_ds : forall s d, strip_state (set_ds s d) = set_ds (strip_state s) (map strip d).
Proof. reflexivity. Qed.
Lemma strip_set_heap : forall s d, strip_state (set_heap s d) = set_heap (strip_state s) (map strip d).
Proof. reflexivity. Qed.
Lemma strip_set_loops : forall s d, strip_state (set_loops s d) = set_loops (strip_state s) (map strip_loop d).
Proof. reflexivity. Qed.
Lemma strip_set_special : forall s d, strip_state (set_special s d) = set_special (strip_state s) d.
Proof. reflexivity. Qed.
Lemma strip_set_out : forall s d, strip_state (set_out s d) = set_out (strip_state s) d.
Proof. reflexivity. Qed.
Lemma strip_set_stopping : forall s d, strip_state (set_stopping s d) = set_stopping (strip_state s) d.
Proof. reflexivity. Qed.
Lemma strip_add_rstep : forall r s, strip_state (add_rstep r s) = add_rstep (strip_rstep r) (strip_state s).
Proof. intros r s. unfold add_rstep. cbn. destruct (rlog s); reflexivity. Qed.

Lemma ds_add_rstep : forall r s, ds (add_rstep r s) = ds s.
Proof. intros. unfold add_rstep. destruct (rlog s); reflexivity. Qed.
Lemma heap_add_rstep : forall r s, heap (add_rstep r s) = heap s.
Proof. intros. unfold add_rstep. destruct (rlog s); reflexivity. Qed.
Lemma loops_add_rstep : forall r s, loops (add_rstep r s) = loops s.
Proof. intros. unfold add_rstep. destruct (rlog s); reflexivity. Qed.
Lemma cx_add_rstep : forall r s, cx (add_rstep r s) = cx s.
Proof. intros. unfold add_rstep. destruct (rlog s); reflexivity. Qed.
Lemma special_add_rstep : forall r s, special (add_rstep r s) = special s.
Proof. intros. unfold add_rstep. destruct (rlog s); reflexivity. Qed.
Lemma stack_limit_add_rstep : forall r s, stack_limit (add_rstep r s) = stack_limit s.
Proof. intros. unfold add_rstep. destruct (rlog s); reflexivity. Qed.

Lemma tagwf_state_add_rstep : forall r s, tagwf_state (add_rstep r s) <-> tagwf_state s.
Proof. intros. unfold tagwf_state. rewrite ds_add_rstep, heap_add_rstep, loops_add_rstep. reflexivity. Qed.

Definition crel (a b : cell) : Prop := strip a = strip b /\ tagwf a /\ tagwf b.
Definition lrel (l l' : list cell) : Prop := map strip l = map strip l' /\ Forall tagwf l /\ Forall tagwf l'.
Definition tagwf2 (kv : cell * cell) : Prop := tagwf (fst kv) /\ tagwf (snd kv).
Definition mrel (m m' : list (cell * cell)) : Prop :=
  map strip_pair m = map strip_pair m' /\ Forall tagwf2 m /\ Forall tagwf2 m'.
Definition orel {A} (R : A -> A -> Prop) (o o' : option A) : Prop :=
  match o, o' with Some a, Some a' => R a a' | None, None => True | _, _ => False end.

Definition srel (s1 s2 : state) : Prop :=
  strip_state s1 = strip_state s2 /\ tagwf_state s1 /\ tagwf_state s2.

Definition rrel {A} (R : A -> A -> Prop) (r1 r2 : res A) : Prop :=
  match r1, r2 with
  | ROk a s, ROk a' s' => R a a' /\ srel s s'
  | RErr k p s, RErr k' p' s' => k = k' /\ option_map strip p = option_map strip p' /\ srel s s'
  | RPanic, RPanic => True
  | RUnsup, RUnsup => True
  | _, _ => False
  end.

Definition sim {A} (R : A -> A -> Prop) (m1 m2 : M A) : Prop :=
  forall s1 s2, srel s1 s2 -> rrel R (m1 s1) (m2 s2).

Lemma crel_refl : forall c, tagwf c -> crel c c.
Proof. intros c H. split; auto. Qed.
Lemma crel_strip : forall c, tagwf c -> crel c (strip c).
Proof. intros c H. split; [symmetry; apply strip_idem | split; [assumption | apply tagwf_strip]]. Qed.
Lemma lrel_refl : forall l, Forall tagwf l -> lrel l l.
Proof. intros l H. split; auto. Qed.

Lemma srel_strip : forall s, tagwf_state s -> srel s (strip_state s).
Proof.
  intros s H. split; [symmetry; apply strip_state_idem | split; [assumption | apply tagwf_strip_state]].
Qed.

Section SrelProj.
  Variables s1 s2 : state.
  Hypothesis H : srel s1 s2.
  Lemma srel_ds : lrel (ds s1) (ds s2).
  Proof. destruct H as (E & T1 & T2). split; [exact (f_equal ds E) | split; [apply T1 | apply T2]]. Qed.
  Lemma srel_heap : lrel (heap s1) (heap s2).
  Proof. destruct H as (E & T1 & T2). split; [exact (f_equal heap E) | split; [apply T1 | apply T2]]. Qed.
  Lemma srel_loops : map strip_loop (loops s1) = map strip_loop (loops s2).
  Proof. destruct H as (E & _). exact (f_equal loops E). Qed.
  Lemma srel_cx : cx s1 = cx s2.
  Proof. destruct H as (E & _). exact (f_equal cx E). Qed.
  Lemma srel_special : special s1 = special s2.
  Proof. destruct H as (E & _). exact (f_equal special E). Qed.
  Lemma srel_stack_limit : stack_limit s1 = stack_limit s2.
  Proof. destruct H as (E & _). exact (f_equal stack_limit E). Qed.
  Lemma srel_out : out s1 = out s2.
  Proof. destruct H as (E & _). exact (f_equal out E). Qed.
  Lemma srel_ds_length : length (ds s1) = length (ds s2).
  Proof. destruct srel_ds as [E _]. rewrite <- (map_length strip (ds s1)), E. apply map_length. Qed.
  Lemma srel_loops_length : length (loops s1) = length (loops s2).
  Proof. rewrite <- (map_length strip_loop (loops s1)), srel_loops. apply map_length. Qed.
End SrelProj.

Lemma lrel_length : forall l l', lrel l l' -> length l = length l'.
Proof. intros l l' [E _]. rewrite <- (map_length strip l), E. apply map_length. Qed.
Lemma mrel_length : forall m m', mrel m m' -> length m = length m'.
Proof. intros m m' [E _]. rewrite <- (map_length strip_pair m), E. apply map_length. Qed.

Lemma lrel_cons_inv : forall c l c' l', lrel (c :: l) (c' :: l') -> crel c c' /\ lrel l l'.
Proof.
  intros c l c' l' (E & T1 & T2). cbn in E. injection E as E1 E2.
  inversion T1; inversion T2; subst. repeat split; auto.
Qed.
Lemma lrel_nil_inv_l : forall l', lrel [] l' -> l' = [].
Proof. intros [|] (E & _); [reflexivity | discriminate]. Qed.
Lemma lrel_cons : forall c l c' l', crel c c' -> lrel l l' -> lrel (c :: l) (c' :: l').
Proof.
  intros c l c' l' (E1 & A1 & B1) (E2 & A2 & B2). split; [cbn; congruence|]. split; constructor; auto.
Qed.
Lemma lrel_nil : lrel [] [].
Proof. split; [reflexivity | split; constructor]. Qed.

Lemma lrel_shape : forall l l', lrel l l' ->
  match l, l' with
  | [], [] => True
  | c :: r, c' :: r' => crel c c' /\ lrel r r'
  | _, _ => False
  end.
Proof.
  intros [| c r] [| c' r'] H; auto.
  - destruct H as [E _]. discriminate.
  - destruct H as [E _]. discriminate.
  - apply lrel_cons_inv. assumption.
Qed.

Lemma lrel_map_op : forall (f : list cell -> list cell) l l',
  (forall g (x : list cell), map g (f x) = f (map g x)) -> (forall x, incl (f x) x) ->
  lrel l l' -> lrel (f l) (f l').
Proof.
  intros f l l' Hc Hi (E & T1 & T2). split; [rewrite !Hc, E; reflexivity|].
  split; eapply Forall_incl; eauto.
Qed.

Lemma lrel_rev : forall l l', lrel l l' -> lrel (rev l) (rev l').
Proof.
  intros l l'. apply (lrel_map_op (@rev cell)); [intros; apply map_rev | intros x a Ha; apply in_rev; exact Ha].
Qed.
Lemma lrel_app : forall a a' b b', lrel a a' -> lrel b b' -> lrel (a ++ b) (a' ++ b').
Proof.
  intros a a' b b' (E1 & A1 & B1) (E2 & A2 & B2). split; [rewrite !map_app; congruence|].
  split; apply Forall_app; auto.
Qed.
Lemma lrel_firstn : forall n l l', lrel l l' -> lrel (firstn n l) (firstn n l').
Proof.
  intros n l l'. apply (lrel_map_op (firstn n)); [intros; symmetry; apply firstn_map | intro; apply incl_firstn].
Qed.
Lemma lrel_skipn : forall n l l', lrel l l' -> lrel (skipn n l) (skipn n l').
Proof.
  intros n l l'. apply (lrel_map_op (skipn n)); [intros; symmetry; apply skipn_map | intro; apply incl_skipn].
Qed.

Lemma lrel_nth : forall l l' i, lrel l l' -> orel crel (nth_error l i) (nth_error l' i).
Proof.
  intros l l' i (E & T1 & T2).
  pose proof (f_equal (fun x => nth_error x i) E) as N. cbn in N. rewrite !nth_error_map in N.
  destruct (nth_error l i) eqn:E1, (nth_error l' i) eqn:E2; cbn in *; try discriminate; auto.
  injection N as N. apply nth_error_In in E1, E2. rewrite Forall_forall in T1, T2.
  repeat split; auto.
Qed.

Lemma crel_value : forall c c', crel c c' -> crel (value c) (value c').
Proof.
  intros c c' (E & T1 & T2). split; [rewrite !strip_value_any; assumption|].
  split; apply tagwf_value; assumption.
Qed.

(* the shapes of two related looked-through values *)
Inductive vrel : cell -> cell -> Prop :=
| vr_nil : vrel CNil CNil
| vr_flag : forall b, vrel (CFlag b) (CFlag b)
| vr_int : forall z, vrel (CInt z) (CInt z)
| vr_real : forall r, vrel (CReal r) (CReal r)
| vr_str : forall s, vrel (CStr s) (CStr s)
| vr_vec : forall l l', lrel l l' -> vrel (CVec l) (CVec l')
| vr_map : forall m m', mrel m m' -> vrel (CMap m) (CMap m')
| vr_fun : forall f, vrel (CFun f) (CFun f)
| vr_bits : forall b, vrel (CBits b) (CBits b)
| vr_any : vrel CAny CAny.

Lemma crel_vrel : forall c c', crel c c' -> vrel (value c) (value c').
Proof.
  intros c c' H.
  assert (N1 : is_tag (value c) = false) by (apply tagwf_value, H).
  assert (N2 : is_tag (value c') = false) by (apply tagwf_value, H).
  apply crel_value in H. destruct H as (E & T1 & T2).
  revert E T1 T2 N1 N2. generalize (value c) (value c'). intros x y E T1 T2 N1 N2.
  destruct x; try discriminate N1; destruct y; try discriminate N2; cbn [strip] in E;
    try discriminate E; try (injection E as <-); try constructor.
  - apply tagwf_vec in T1. apply tagwf_vec in T2. injection E as E. split; auto.
  - apply tagwf_map in T1. apply tagwf_map in T2. injection E as E. split; auto.
Qed.

Lemma vrel_strip : forall v v', vrel v v' -> strip v = strip v'.
Proof.
  destruct 1; cbn [strip]; auto.
  - destruct H as [E _]. congruence.
  - destruct H as [E _]. f_equal. exact E.
Qed.

Lemma vrel_crel : forall v v', vrel v v' -> crel v v'.
Proof.
  intros v v' H. split; [apply vrel_strip; assumption|].
  destruct H; try (split; split; exact I).
  - destruct H as (_ & A & B). split; apply tagwf_vec; assumption.
  - destruct H as (_ & A & B). split; apply tagwf_map; assumption.
Qed.

Definition looprel (a b : list loopr) : Prop :=
  map strip_loop a = map strip_loop b /\
  Forall (fun l => tagwf (l_items l)) a /\ Forall (fun l => tagwf (l_items l)) b.

Lemma srel_looprel : forall s1 s2, srel s1 s2 -> looprel (loops s1) (loops s2).
Proof. intros s1 s2 (E & T1 & T2). split; [exact (f_equal loops E) | split; [apply T1 | apply T2]]. Qed.

Lemma srel_set_ds : forall s1 s2 d1 d2, srel s1 s2 -> lrel d1 d2 -> srel (set_ds s1 d1) (set_ds s2 d2).
Proof.
  intros s1 s2 d1 d2 (E & T1 & T2) (Ed & D1 & D2). split; [rewrite !strip_set_ds, E, Ed; reflexivity|].
  split; (split; [assumption | split; [apply T1 || apply T2 | apply T1 || apply T2]]).
Qed.

Lemma srel_set_heap : forall s1 s2 d1 d2, srel s1 s2 -> lrel d1 d2 -> srel (set_heap s1 d1) (set_heap s2 d2).
Proof.
  intros s1 s2 d1 d2 (E & T1 & T2) (Ed & D1 & D2). split; [rewrite !strip_set_heap, E, Ed; reflexivity|].
  split; (split; [apply T1 || apply T2 | split; [assumption | apply T1 || apply T2]]).
Qed.

Lemma srel_set_loops : forall s1 s2 d1 d2, srel s1 s2 -> looprel d1 d2 -> srel (set_loops s1 d1) (set_loops s2 d2).
Proof.
  intros s1 s2 d1 d2 (E & T1 & T2) (Ed & D1 & D2). split; [rewrite !strip_set_loops, E, Ed; reflexivity|].
  split; (split; [apply T1 || apply T2 | split; [apply T1 || apply T2 | assumption]]).
Qed.

Lemma srel_set_special : forall s1 s2 d, srel s1 s2 -> srel (set_special s1 d) (set_special s2 d).
Proof. intros s1 s2 d (E & T1 & T2). split; [rewrite !strip_set_special, E; reflexivity | split; assumption]. Qed.

Lemma srel_set_out : forall s1 s2 d, srel s1 s2 -> srel (set_out s1 d) (set_out s2 d).
Proof. intros s1 s2 d (E & T1 & T2). split; [rewrite !strip_set_out, E; reflexivity | split; assumption]. Qed.

Lemma srel_set_stopping : forall s1 s2 d, srel s1 s2 -> srel (set_stopping s1 d) (set_stopping s2 d).
Proof. intros s1 s2 d (E & T1 & T2). split; [rewrite !strip_set_stopping, E; reflexivity | split; assumption]. Qed.

Lemma srel_add_rstep : forall s1 s2 r1 r2, srel s1 s2 -> strip_rstep r1 = strip_rstep r2 ->
  srel (add_rstep r1 s1) (add_rstep r2 s2).
Proof.
  intros s1 s2 r1 r2 (E & T1 & T2) Er. split; [rewrite !strip_add_rstep, E, Er; reflexivity|].
  split; apply tagwf_state_add_rstep; assumption.
Qed.

Lemma sim_ret : forall A (R : A -> A -> Prop) a a', R a a' -> sim R (ret a) (ret a').
Proof. intros A R a a' H s1 s2 Hs. cbn. auto. Qed.

Lemma sim_ret_eq : forall A (a : A), sim eq (ret a) (ret a).
Proof. intros. apply sim_ret. reflexivity. Qed.

Lemma sim_fail : forall A (R : A -> A -> Prop) k p p',
  option_map strip p = option_map strip p' -> sim R (fail k p) (fail k p').
Proof. intros A R k p p' H s1 s2 Hs. cbn. auto. Qed.

Lemma sim_unsup : forall A (R : A -> A -> Prop), sim R unsup unsup.
Proof. intros A R s1 s2 Hs. exact I. Qed.
Lemma sim_panic : forall A (R : A -> A -> Prop), sim R panic panic.
Proof. intros A R s1 s2 Hs. exact I. Qed.

Lemma sim_bind : forall A B (RA : A -> A -> Prop) (RB : B -> B -> Prop) m1 m2 f1 f2,
  sim RA m1 m2 -> (forall a a', RA a a' -> sim RB (f1 a) (f2 a')) -> sim RB (bind m1 f1) (bind m2 f2).
Proof.
  intros A B RA RB m1 m2 f1 f2 Hm Hf s1 s2 H. unfold bind. specialize (Hm s1 s2 H).
  destruct (m1 s1), (m2 s2); cbn in Hm; try contradiction; auto.
  destruct Hm. apply Hf; assumption.
Qed.

Lemma sim_get_bind : forall B (R : B -> B -> Prop) (k1 k2 : state -> M B),
  (forall s1 s2, srel s1 s2 -> sim R (k1 s1) (k2 s2)) -> sim R (bind get k1) (bind get k2).
Proof. intros B R k1 k2 H s1 s2 Hs. unfold bind, get. apply H; assumption. Qed.

Lemma sim_weaken : forall A (R S : A -> A -> Prop) m1 m2, (forall a a', R a a' -> S a a') -> sim R m1 m2 -> sim S m1 m2.
Proof.
  intros A R S m1 m2 H Hm s1 s2 Hs. specialize (Hm s1 s2 Hs).
  destruct (m1 s1), (m2 s2); cbn in *; auto. destruct Hm; auto.
Qed.

Lemma sim_pop_data : sim crel pop_data pop_data.
Proof.
  intros s1 s2 H. unfold pop_data.
  pose proof (srel_ds _ _ H) as D. pose proof (srel_ds_length _ _ H) as L. rewrite (srel_cx _ _ H), L.
  pose proof (lrel_shape _ _ D) as Sh.
  destruct (ds s1) as [| c r], (ds s2) as [| c' r']; try contradiction; cbn [rrel]; auto.
  destruct Sh as [Hc Hr].
  destruct (ds_len (cx s2) <? length (c' :: r')); cbn [rrel]; auto.
  split; auto. apply srel_add_rstep; [apply srel_set_ds; assumption|]. cbn. f_equal. apply Hc.
Qed.

Lemma sim_top_data : sim crel top_data top_data.
Proof.
  intros s1 s2 H. unfold top_data.
  pose proof (srel_ds _ _ H) as D. pose proof (srel_ds_length _ _ H) as L. rewrite (srel_cx _ _ H), L.
  pose proof (lrel_shape _ _ D) as Sh.
  destruct (ds s1) as [| c r], (ds s2) as [| c' r']; try contradiction; cbn [rrel]; auto.
  destruct Sh as [Hc Hr].
  destruct (ds_len (cx s2) <? length (c' :: r')); cbn [rrel]; auto.
Qed.

Lemma sim_push_data : forall c c', crel c c' -> sim eq (push_data c) (push_data c').
Proof.
  intros c c' Hc s1 s2 H. unfold push_data.
  rewrite (srel_stack_limit _ _ H), (srel_ds_length _ _ H).
  destruct (limit_reached (stack_limit s2) (length (ds s2))); cbn [rrel]; auto.
  split; auto. apply srel_set_ds; [apply srel_add_rstep; auto|].
  apply lrel_cons; [assumption | apply srel_ds; assumption].
Qed.

Lemma sim_dup_data : sim eq dup_data dup_data.
Proof. unfold dup_data. eapply sim_bind; [apply sim_top_data|]. intros. apply sim_push_data. assumption. Qed.

Lemma data_depth_srel : forall s1 s2, srel s1 s2 -> data_depth s1 = data_depth s2.
Proof. intros s1 s2 H. unfold data_depth. rewrite (srel_cx _ _ H), (srel_ds_length _ _ H). reflexivity. Qed.

Lemma sim_swap_data : sim eq swap_data swap_data.
Proof.
  intros s1 s2 H. unfold swap_data. rewrite (data_depth_srel _ _ H).
  pose proof (srel_ds _ _ H) as D. pose proof (lrel_shape _ _ D) as Sh.
  destruct (ds s1) as [| a r], (ds s2) as [| a' r']; try contradiction; cbn [rrel]; auto.
  destruct Sh as [Ha Hr]. pose proof (lrel_shape _ _ Hr) as Sh2.
  destruct r as [| b r], r' as [| b' r']; try contradiction; cbn [rrel]; auto.
  destruct Sh2 as [Hb Hr2].
  destruct (2 <=? data_depth s2); cbn [rrel]; auto.
  split; auto. apply srel_set_ds; [apply srel_add_rstep; auto|].
  repeat apply lrel_cons; assumption.
Qed.

Lemma sim_rot_data : sim eq rot_data rot_data.
Proof.
  intros s1 s2 H. unfold rot_data. rewrite (data_depth_srel _ _ H).
  pose proof (srel_ds _ _ H) as D. pose proof (lrel_shape _ _ D) as Sh.
  destruct (ds s1) as [| a r], (ds s2) as [| a' r']; try contradiction; cbn [rrel]; auto.
  destruct Sh as [Ha Hr]. pose proof (lrel_shape _ _ Hr) as Sh2.
  destruct r as [| b r], r' as [| b' r']; try contradiction; cbn [rrel]; auto.
  destruct Sh2 as [Hb Hr2]. pose proof (lrel_shape _ _ Hr2) as Sh3.
  destruct r as [| c r], r' as [| c' r']; try contradiction; cbn [rrel]; auto.
  destruct Sh3 as [Hc Hr3].
  destruct (3 <=? data_depth s2); cbn [rrel]; auto.
  split; auto. apply srel_set_ds; [apply srel_add_rstep; auto|].
  repeat apply lrel_cons; assumption.
Qed.

Lemma sim_over_data : sim eq over_data over_data.
Proof.
  intros s1 s2 H. unfold over_data. rewrite (data_depth_srel _ _ H).
  pose proof (srel_ds _ _ H) as D. pose proof (lrel_shape _ _ D) as Sh.
  destruct (ds s1) as [| a r] eqn:E1, (ds s2) as [| a' r'] eqn:E2; try contradiction; cbn [rrel]; auto.
  destruct Sh as [Ha Hr]. pose proof (lrel_shape _ _ Hr) as Sh2.
  destruct r as [| b r], r' as [| b' r']; try contradiction; cbn [rrel]; auto.
  destruct Sh2 as [Hb Hr2].
  destruct (2 <=? data_depth s2); cbn [rrel]; auto.
  apply sim_push_data; [assumption|]. apply srel_add_rstep; auto.
Qed.

Lemma sim_push_special : forall p, sim eq (push_special p) (push_special p).
Proof.
  intros p s1 s2 H. unfold push_special. cbn [rrel]. split; auto.
  rewrite (srel_special _ _ H). apply srel_set_special. apply srel_add_rstep; auto.
Qed.

Lemma sim_pop_special : sim eq pop_special pop_special.
Proof.
  intros s1 s2 H. unfold pop_special. rewrite (srel_special _ _ H), (srel_cx _ _ H).
  destruct (special s2) as [| p r]; cbn [rrel]; auto.
  destruct (ss_ptr (cx s2) <? length (p :: r)); cbn [rrel]; auto.
  split; auto. apply srel_add_rstep; auto. apply srel_set_special. assumption.
Qed.

Lemma mode_srel : forall s1 s2, srel s1 s2 -> cmode (cx s1) = cmode (cx s2).
Proof. intros s1 s2 H. rewrite (srel_cx _ _ H). reflexivity. Qed.

Lemma sim_get_var : forall a, sim crel (get_var a) (get_var a).
Proof.
  intros a s1 s2 H. unfold get_var. rewrite (mode_srel _ _ H).
  destruct (mode_eqb (cmode (cx s2)) MMeta); cbn [rrel]; auto.
  pose proof (lrel_nth _ _ a (srel_heap _ _ H)) as N.
  destruct (nth_error (heap s1) a), (nth_error (heap s2) a); cbn in N; try contradiction; cbn [rrel]; auto.
Qed.

Lemma lrel_list_set : forall l l' i v v', lrel l l' -> crel v v' -> lrel (list_set l i v) (list_set l' i v').
Proof.
  intros l l' i v v' (E & A & B) (Ev & Av & Bv). split; [rewrite !map_list_set, E, Ev; reflexivity|].
  split; apply Forall_list_set; assumption.
Qed.

Lemma sim_set_var : forall a v v', crel v v' -> sim eq (set_var a v) (set_var a v').
Proof.
  intros a v v' Hv s1 s2 H. unfold set_var. rewrite (mode_srel _ _ H).
  destruct (mode_eqb (cmode (cx s2)) MMeta); cbn [rrel]; auto.
  pose proof (lrel_nth _ _ a (srel_heap _ _ H)) as N.
  destruct (nth_error (heap s1) a), (nth_error (heap s2) a); cbn in N; try contradiction; cbn [rrel]; auto.
  split; auto. apply srel_add_rstep; [| cbn; f_equal; apply N].
  apply srel_set_heap; auto. apply lrel_list_set; auto. apply srel_heap; assumption.
Qed.

Lemma sim_print : forall msg, sim eq (print msg) (print msg).
Proof.
  intros msg s1 s2 H. unfold print. cbn [rrel]. split; auto. rewrite (srel_out _ _ H).
  apply srel_set_out. assumption.
Qed.

Lemma sim_set_stopping : forall b, sim eq (modify (fun s => set_stopping s b)) (modify (fun s => set_stopping s b)).
Proof. intros b s1 s2 H. unfold modify. cbn [rrel]. split; auto. apply srel_set_stopping. assumption. Qed.

Lemma looprel_shape : forall a b, looprel a b ->
  match a, b with
  | [], [] => True
  | l :: r, l' :: r' => (crel (l_items l) (l_items l') /\ l_start l = l_start l' /\ l_end l = l_end l') /\ looprel r r'
  | _, _ => False
  end.
Proof.
  intros [| l r] [| l' r'] (E & A & B); auto; try discriminate.
  cbn in E. injection E as E1 E2 E3 E4. inversion A; inversion B; subst.
  repeat split; auto.
Qed.

Lemma looprel_cons : forall l l' r r', crel (l_items l) (l_items l') -> l_start l = l_start l' -> l_end l = l_end l' ->
  looprel r r' -> looprel (l :: r) (l' :: r').
Proof.
  intros l l' r r' (E & A & B) Es Ee (Er & Ar & Br). split.
  - cbn. unfold strip_loop at 1 3. rewrite E, Es, Ee, Er. reflexivity.
  - split; constructor; auto.
Qed.

Lemma sim_loop_set_items : forall c c', crel c c' -> sim eq (loop_set_items c) (loop_set_items c').
Proof.
  intros c c' Hc s1 s2 H. unfold loop_set_items.
  rewrite (srel_cx _ _ H), (srel_loops_length _ _ H).
  pose proof (looprel_shape _ _ (srel_looprel _ _ H)) as Sh.
  destruct (loops s1) as [| l r], (loops s2) as [| l' r']; try contradiction; cbn [rrel]; auto.
  destruct Sh as [(Hi & Hs & He) Hr].
  destruct (ls_len (cx s2) <? length (l' :: r')); cbn [rrel]; auto.
  split; auto. apply srel_add_rstep.
  - apply srel_set_loops; auto. apply looprel_cons; auto.
  - cbn. f_equal. unfold strip_loop. destruct Hi as [Hi _]. rewrite Hi, Hs, He. reflexivity.
Qed.

Ltac by_vrel H :=
  let V := fresh "V" in let S := fresh "S" in
  pose proof (crel_vrel _ _ H) as V; pose proof (vrel_strip _ _ V) as S;
  revert V S;
  match type of H with crel ?c ?c' => generalize (value c) (value c') end;
  intros ? ? V S; destruct V.

(* an accessor returns what it finds under the tag wrapper, or fails with the value or the cell *)
Ltac sim_acc H :=
  by_vrel H;
  lazymatch goal with
  | |- sim _ (ret _) (ret _) => first [ apply sim_ret_eq | apply sim_ret; assumption ]
  | |- sim _ (fail _ _) (fail _ _) => apply sim_fail; cbn; f_equal; first [ assumption | exact (proj1 H) ]
  | |- _ => idtac
  end.

Lemma sim_m_xint : forall c c', crel c c' -> sim eq (m_xint c) (m_xint c').
Proof. intros c c' H. unfold m_xint. sim_acc H. Qed.
Lemma sim_m_real : forall c c', crel c c' -> sim eq (m_real c) (m_real c').
Proof. intros c c' H. unfold m_real. sim_acc H. Qed.
Lemma sim_m_str : forall c c', crel c c' -> sim eq (m_str c) (m_str c').
Proof. intros c c' H. unfold m_str. sim_acc H. Qed.
Lemma sim_m_bits : forall c c', crel c c' -> sim eq (m_bits c) (m_bits c').
Proof. intros c c' H. unfold m_bits. sim_acc H. Qed.
Lemma sim_m_vec : forall c c', crel c c' -> sim lrel (m_vec c) (m_vec c').
Proof. intros c c' H. unfold m_vec. sim_acc H. Qed.
Lemma sim_m_map : forall c c', crel c c' -> sim mrel (m_map c) (m_map c').
Proof. intros c c' H. unfold m_map. sim_acc H. Qed.
Lemma sim_m_bool : forall c c', crel c c' -> sim eq (m_bool c) (m_bool c').
Proof. intros c c' H. unfold m_bool. sim_acc H. Qed.
Lemma sim_m_cond : forall c c', crel c c' -> sim eq (m_cond c) (m_cond c').
Proof. intros c c' H. unfold m_cond. sim_acc H. Qed.
Lemma sim_m_isize : forall c c', crel c c' -> sim eq (m_isize c) (m_isize c').
Proof.
  intros c c' H. unfold m_isize. sim_acc H.
  destruct (in_isize z); [apply sim_ret_eq | apply sim_fail; reflexivity].
Qed.
Lemma sim_m_usize : forall c c', crel c c' -> sim eq (m_usize c) (m_usize c').
Proof.
  intros c c' H. unfold m_usize. sim_acc H.
  destruct (z <? 0)%Z; [apply sim_fail; cbn; f_equal; exact (proj1 H)|].
  destruct (in_usize z); [apply sim_ret_eq | apply sim_fail; reflexivity].
Qed.

Lemma crel_eqb : forall a a' b b', crel a a' -> crel b b' -> cell_eqb a b = cell_eqb a' b'.
Proof.
  intros a a' b b' (Ea & A1 & A2) (Eb & B1 & B2). rewrite !eqb_strip by assumption.
  unfold seqb. rewrite Ea, Eb. reflexivity.
Qed.
Lemma crel_cmp : forall a a' b b', crel a a' -> crel b b' -> cell_cmp a b = cell_cmp a' b'.
Proof.
  intros a a' b b' (Ea & A1 & A2) (Eb & B1 & B2). rewrite !cmp_strip by assumption.
  unfold scmp. rewrite Ea, Eb. reflexivity.
Qed.

Lemma tagwf_atoms :
  tagwf CNil /\ (forall b, tagwf (CFlag b)) /\ (forall z, tagwf (CInt z)) /\ (forall r, tagwf (CReal r)) /\
  (forall s, tagwf (CStr s)) /\ (forall f, tagwf (CFun f)) /\ (forall b, tagwf (CBits b)) /\ tagwf CAny.
Proof. repeat split. Qed.

Lemma crel_nil : crel CNil CNil.            Proof. apply crel_refl. split; exact I. Qed.
Lemma crel_flag : forall b, crel (CFlag b) (CFlag b). Proof. intro. apply crel_refl. split; exact I. Qed.
Lemma crel_cflag : forall b, crel (cflag b) (cflag b). Proof. intro. apply crel_refl. split; exact I. Qed.
Lemma crel_int : forall z, crel (CInt z) (CInt z).   Proof. intro. apply crel_refl. split; exact I. Qed.
Lemma crel_cint : forall z, crel (cint z) (cint z).   Proof. intro. apply crel_refl. split; exact I. Qed.
Lemma crel_cnat : forall n, crel (cnat n) (cnat n).   Proof. intro. apply crel_refl. split; exact I. Qed.
Lemma crel_real : forall z, crel (CReal z) (CReal z). Proof. intro. apply crel_refl. split; exact I. Qed.
Lemma crel_str : forall z, crel (CStr z) (CStr z).   Proof. intro. apply crel_refl. split; exact I. Qed.
Lemma crel_bits : forall z, crel (CBits z) (CBits z). Proof. intro. apply crel_refl. split; exact I. Qed.
Lemma crel_vec : forall l l', lrel l l' -> crel (CVec l) (CVec l').
Proof. intros. apply vrel_crel. constructor. assumption. Qed.
Lemma crel_map : forall l l', mrel l l' -> crel (CMap l) (CMap l').
Proof. intros. apply vrel_crel. constructor. assumption. Qed.

Lemma crel_with_tags : forall c c' t t', crel c c' -> crel (with_tags c t) (with_tags c' t').
Proof.
  intros c c' t t' (E & A & B). split; [rewrite !strip_with_tags; assumption|].
  split; apply tagwf_with_tags; assumption.
Qed.

Lemma crel_strip_eq : forall c c', crel c c' -> strip c = strip c'.
Proof. intros c c' H. exact (proj1 H). Qed.

Create HintDb creldb.
#[export] Hint Resolve crel_strip_eq vrel_strip : creldb.
#[export] Hint Resolve crel_nil crel_flag crel_cflag crel_int crel_cint crel_cnat crel_real crel_str crel_bits
  crel_vec crel_map crel_with_tags lrel_rev lrel_app lrel_firstn lrel_skipn lrel_cons lrel_nil crel_value : creldb.

Lemma mrel_keys : forall m m', mrel m m' -> keys_tagwf m /\ keys_tagwf m'.
Proof.
  intros m m' (_ & A & B). unfold keys_tagwf. split; eapply Forall_impl; try eassumption; intros a [H _]; exact H.
Qed.

Lemma find_strip_g : forall m k, keys_tagwf m -> tagwf k ->
  option_map strip (assoc_find m k) = assoc_find (map strip_pair m) (strip k).
Proof.
  intros m k Hm Hk. rewrite assoc_find_strip. f_equal. rewrite assoc_find_g by assumption. reflexivity.
Qed.

Lemma mrel_find : forall m m' k k', mrel m m' -> crel k k' -> orel crel (assoc_find m k) (assoc_find m' k').
Proof.
  intros m m' k k' Hm (Ek & K1 & K2). destruct (mrel_keys _ _ Hm) as [T1 T2]. destruct Hm as (E & A & B).
  pose proof (find_strip_g m k T1 K1) as F1. pose proof (find_strip_g m' k' T2 K2) as F2.
  rewrite E, Ek, <- F2 in F1.
  destruct (assoc_find m k) as [v|] eqn:E1, (assoc_find m' k') as [v'|] eqn:E2; cbn in *; try discriminate; auto.
  injection F1 as F1. apply assoc_find_in in E1, E2. destruct E1 as (k1 & I1 & _), E2 as (k2 & I2 & _).
  rewrite Forall_forall in A, B. split; auto. split; [apply (A _ I1) | apply (B _ I2)].
Qed.

Lemma scmp_strip_both : forall a b, scmp (strip a) (strip b) = scmp a b.
Proof. intros. rewrite scmp_strip_l, scmp_strip_r. reflexivity. Qed.

Lemma ginsert_strip : forall m k v,
  map strip_pair (ginsert scmp m k v) = ginsert scmp (map strip_pair m) (strip k) (strip v).
Proof.
  induction m as [| [k0 v0] r IH]; intros k v; cbn [ginsert map]; auto.
  change (strip_pair (k0, v0)) with (strip k0, strip v0). cbn [ginsert]. rewrite scmp_strip_both.
  destruct (scmp k k0); cbn [map]; auto. rewrite IH. reflexivity.
Qed.

Lemma gremove_strip : forall m k,
  map strip_pair (gremove scmp m k) = gremove scmp (map strip_pair m) (strip k).
Proof.
  induction m as [| [k0 v0] r IH]; intros k; cbn [gremove map]; auto.
  change (strip_pair (k0, v0)) with (strip k0, strip v0). cbn [gremove]. rewrite scmp_strip_both.
  destruct (scmp k k0); cbn [map]; auto; rewrite IH; reflexivity.
Qed.

Lemma mrel_insert : forall m m' k k' v v', mrel m m' -> crel k k' -> crel v v' ->
  mrel (assoc_insert m k v) (assoc_insert m' k' v').
Proof.
  intros m m' k k' v v' Hm (Ek & K1 & K2) (Ev & V1 & V2). destruct (mrel_keys _ _ Hm) as [T1 T2].
  destruct Hm as (E & A & B). rewrite !assoc_insert_g by assumption. split.
  - rewrite !ginsert_strip, E, Ek, Ev. reflexivity.
  - rewrite !Forall_forall in *. split; intros p Hp; apply ginsert_in in Hp; destruct Hp as [->|Hp]; auto; split; auto.
Qed.

Lemma mrel_remove : forall m m' k k', mrel m m' -> crel k k' -> mrel (assoc_remove m k) (assoc_remove m' k').
Proof.
  intros m m' k k' Hm (Ek & K1 & K2). destruct (mrel_keys _ _ Hm) as [T1 T2].
  destruct Hm as (E & A & B). rewrite !assoc_remove_g by assumption. split.
  - rewrite !gremove_strip, E, Ek. reflexivity.
  - rewrite !Forall_forall in *. split; intros p Hp; apply gremove_in in Hp; auto.
Qed.

Lemma mrel_nil : mrel [] [].
Proof. split; [reflexivity | split; constructor]. Qed.

Lemma mrel_nth : forall m m' i, mrel m m' ->
  orel (fun p q => crel (fst p) (fst q) /\ crel (snd p) (snd q)) (nth_error m i) (nth_error m' i).
Proof.
  intros m m' i (E & T1 & T2).
  pose proof (f_equal (fun x => nth_error x i) E) as N. cbn in N. rewrite !nth_error_map in N.
  destruct (nth_error m i) as [[k v]|] eqn:E1, (nth_error m' i) as [[k' v']|] eqn:E2; cbn in *; try discriminate; auto.
  injection N as N1 N2. apply nth_error_In in E1, E2. rewrite Forall_forall in T1, T2.
  destruct (T1 _ E1), (T2 _ E2). repeat split; auto.
Qed.

Lemma pairs_insert_rel : forall l l' m m', lrel l l' -> mrel m m' -> mrel (pairs_insert l m) (pairs_insert l' m').
Proof.
  fix IH 1. intros [| v [| k r]] l' m m' Hl Hm.
  - apply lrel_nil_inv_l in Hl. subst. assumption.
  - pose proof (lrel_shape _ _ Hl) as Sh. destruct l' as [| v' r']; try contradiction.
    destruct Sh as [_ Hr]. apply lrel_nil_inv_l in Hr. subst. assumption.
  - pose proof (lrel_shape _ _ Hl) as Sh. destruct l' as [| v' r']; try contradiction.
    destruct Sh as [Hv Hr]. pose proof (lrel_shape _ _ Hr) as Sh2. destruct r' as [| k' r']; try contradiction.
    destruct Sh2 as [Hk Hr2]. cbn [pairs_insert]. apply IH; auto. apply mrel_insert; assumption.
Qed.

Lemma lrel_sort : forall l l', lrel l l' -> lrel (sort_cells l) (sort_cells l').
Proof.
  intros l l' (E & A & B). split; [rewrite !sort_cells_strip, E by assumption; reflexivity|].
  split; apply sort_cells_Forall; assumption.
Qed.

Lemma map_slice_list : forall {A B} (f : A -> B) l st en, map f (slice_list l st en) = slice_list (map f l) st en.
Proof. intros. unfold slice_list. rewrite map_length, <- firstn_map, <- skipn_map. reflexivity. Qed.

Lemma lrel_slice : forall l l' st en, lrel l l' -> lrel (slice_list l st en) (slice_list l' st en).
Proof.
  intros l l' st en. apply (lrel_map_op (fun x => slice_list x st en)); [intros; apply map_slice_list |].
  intros x a Ha. apply incl_firstn, incl_skipn in Ha. exact Ha.
Qed.
#[export] Hint Resolve lrel_sort lrel_slice mrel_insert mrel_remove mrel_nil pairs_insert_rel : creldb.

Lemma crel_find_default : forall m m' k k', mrel m m' -> crel k k' ->
  crel (match assoc_find m k with Some x => x | None => CNil end)
       (match assoc_find m' k' with Some x => x | None => CNil end).
Proof.
  intros m m' k k' Hm Hk. pose proof (mrel_find _ _ _ _ Hm Hk) as F.
  destruct (assoc_find m k), (assoc_find m' k'); cbn in F; try contradiction; auto. apply crel_nil.
Qed.

Lemma crel_insert_tag : forall c c' k k' v v', crel c c' -> crel (insert_tag c k v) (insert_tag c' k' v').
Proof. intros. unfold insert_tag. apply crel_with_tags. assumption. Qed.
Lemma crel_remove_tag : forall c c' k k', crel c c' -> crel (remove_tag c k) (remove_tag c' k').
Proof. intros. unfold remove_tag. apply crel_with_tags. assumption. Qed.
#[export] Hint Resolve crel_find_default crel_insert_tag crel_remove_tag : creldb.

Create HintDb simdb.
#[export] Hint Constants Opaque : simdb.
#[export] Hint Resolve sim_pop_data sim_top_data sim_dup_data sim_swap_data sim_rot_data sim_over_data
  sim_push_special sim_pop_special sim_get_var sim_print sim_set_stopping sim_unsup sim_panic sim_ret_eq
  sim_m_xint sim_m_real sim_m_str sim_m_bits sim_m_vec sim_m_map sim_m_isize sim_m_bool sim_m_cond sim_m_usize
  : simdb.

Ltac sim_pure := first [ solve [ auto 7 with creldb nocore ] | reflexivity | idtac ].

Ltac lens :=
  repeat match goal with
         | H : lrel ?l ?l' |- context [length ?l] => rewrite (lrel_length l l' H)
         | H : mrel ?l ?l' |- context [length ?l] => rewrite (mrel_length l l' H)
         end.

Ltac eqbs :=
  repeat match goal with
         | Ha : crel ?a ?a', Hb : crel ?b ?b' |- context [cell_eqb ?a ?b] =>
           rewrite (crel_eqb a a' b b' Ha Hb)
         | Ha : crel ?a ?a' |- context [cell_eqb ?a CNil] =>
           rewrite (crel_eqb a a' CNil CNil Ha crel_nil)
         | Ha : crel ?a ?a' |- context [cell_eqb ?a (cint ?z)] =>
           rewrite (crel_eqb a a' (cint z) (cint z) Ha (crel_cint z))
         end.

Ltac sim_go :=
  cbv beta zeta; lens; eqbs;
  lazymatch goal with
  | |- sim _ (ret _) (ret _) => first [ apply sim_ret_eq | apply sim_ret; sim_pure ]
  | |- sim _ (fail _ _) (fail _ _) =>
    apply sim_fail; cbn [option_map]; try solve [ reflexivity | f_equal; auto with creldb nocore ]
  | |- sim _ unsup unsup => apply sim_unsup
  | |- sim _ panic panic => apply sim_panic
  | |- sim _ (push_data _) (push_data _) => apply sim_push_data; sim_pure
  | |- sim _ (set_var _ _) (set_var _ _) => apply sim_set_var; sim_pure
  | |- sim _ (loop_set_items _) (loop_set_items _) => apply sim_loop_set_items; sim_pure
  | |- sim _ (bind get _) (bind get _) => idtac
  | |- sim _ (bind _ _) (bind _ _) =>
    eapply sim_bind;
    [ sim_go
    | let a := fresh "a" in let a' := fresh "a'" in let Ha := fresh "Ha" in
      intros a a' Ha; try (subst a'); sim_go ]
  | |- sim _ (match value ?c with _ => _ end) (match value ?c' with _ => _ end) =>
    lazymatch goal with
    | H : crel c c' |- _ => by_vrel H; cbv beta iota; lens; sim_go
    | _ => idtac
    end
  | |- sim _ (match nth_error ?l ?i with _ => _ end) (match nth_error ?l' ?i with _ => _ end) =>
    lazymatch goal with
    | H : lrel l l' |- _ =>
      let N := fresh "N" in
      pose proof (lrel_nth l l' i H) as N;
      destruct (nth_error l i), (nth_error l' i); cbn [orel] in N; try contradiction; sim_go
    | H : mrel l l' |- _ =>
      let N := fresh "N" in
      pose proof (mrel_nth l l' i H) as N;
      destruct (nth_error l i) as [[? ?]|], (nth_error l' i) as [[? ?]|]; cbn [orel fst snd] in N;
      try contradiction; try (destruct N); sim_go
    | _ => idtac
    end
  | |- sim _ (match assoc_find ?m ?k with _ => _ end) (match assoc_find ?m' ?k' with _ => _ end) =>
    lazymatch goal with
    | H : mrel m m', Hk : crel k k' |- _ =>
      let N := fresh "N" in
      pose proof (mrel_find m m' k k' H Hk) as N;
      destruct (assoc_find m k), (assoc_find m' k'); cbn [orel] in N; try contradiction; sim_go
    | _ => idtac
    end
  | |- sim _ (if ?b then _ else _) (if ?b then _ else _) => destruct b; sim_go
  | |- sim _ (match ?x with _ => _ end) (match ?x with _ => _ end) => destruct x; sim_go
  | |- sim _ ?m ?m' =>
    first [ solve [ eauto 3 with simdb nocore ]
          | let h := head_of m in tryif unfold h then sim_go else idtac ]
  end.
