(* C03 - a cloned interpreter is an independent snapshot; re-running it is deterministic.

   Two layers, as in the design.
   (i)  Store.v: bit-string buffers are shared (Rc) and mutated in place when uniquely owned.
        [store_inv st live]: the strong count of every buffer is the number of live handles
        on it and every live handle is well formed.  It is preserved by every operation
        (1); an operation never changes what another live handle denotes (2); the result
        denotes what the list-level operation denotes (3).  [h :: L] reads "the handle the
        operation consumes, and the other live handles".
   (ii) the interpreter model: every container of [state] is a value, so a clone is the
        state itself and evaluation is a function of (state, source) (4).
   Property theorems only: each is a lemma of Proofs/StoreProofs.v, Proofs/StoreDetach.v or
   Proofs/SnapshotProofs.v, or follows from one in a few lines. *)
From Xeh Require Import Model.Prelude Model.Bits Model.Store.
From Xeh Require Import Model.Cell Model.Vm Model.Words Model.Build.
From Xeh Require Proofs.StoreProofs Proofs.SnapshotProofs Proofs.StoreDetach.
Local Notation length := List.length.
Local Open Scope nat_scope.
Local Open Scope list_scope.

Definition pop_ok (o : pop) : Prop :=
  match o with PNew d _ => Forall (fun x => (x < 256)%N) d | _ => True end.

Definition consumes (o : pop) : option nat :=
  match o with
  | PDrop i | PDetach i | PAppend i _ | PInvert i | PInsert i _ _ => Some i
  | _ => None
  end.

Definition survivors (live : list handle) (o : pop) : list handle :=
  match consumes o with Some i => remove_nth live i | None => live end.

Definition pool_enabled (live : list handle) (o : pop) : bool :=
  let geth i := nth i live (mkh 0 0 0) in
  match o with
  | PNew _ _ => true
  | PClone i | PDrop i | PDetach i | PInvert i => i <? length live
  | PSubstr i s e =>
    (i <? length live) && ((s <=? e) && (hstart (geth i) <=? s) && (e <=? hend (geth i)))
  | PAppend i j => (i <? length live) && (j <? length live) && negb (i =? j)
  | PInsert i k j =>
    (i <? length live) && (j <? length live) && negb (i =? j) &&
    (k <=? hend (geth i) - hstart (geth i))
  end.

Definition pool_result (st : store) (live : list handle) (o : pop) : list (list bool) :=
  let v i := habs st (nth i live (mkh 0 0 0)) in
  match o with
  | PNew d _ => [abs (from_bytes d)]
  | PClone i => [v i]
  | PDrop _ => []
  | PSubstr i s e => [firstn (e - s) (skipn (s - hstart (nth i live (mkh 0 0 0))) (v i))]
  | PDetach i => [v i]
  | PAppend i j => [v i ++ v j]
  | PInvert i => [map negb (v i)]
  | PInsert i k j => [firstn k (v i) ++ v j ++ skipn k (v i)]
  end.

(* where handle number k of the pool is after the operation; None = consumed *)
Definition track (live : list handle) (o : pop) (k : nat) : option nat :=
  if pool_enabled live o then
    match consumes o with
    | Some i => if k =? i then None else Some (if i <? k then k - 1 else k)
    | None => Some k
    end
  else Some k.

Fixpoint survives (ops : list pop) (sp : store * list handle) (k : nat) : option nat :=
  match ops with
  | [] => Some k
  | o :: r => match track (snd sp) o k with
              | Some k' => survives r (pool_step sp o) k'
              | None => None
              end
  end.

(* (1) the invariant is preserved *)

Theorem C03_store_inv_step : forall st live o,
  store_inv st live -> pop_ok o ->
  let '(st', live') := pool_step (st, live) o in store_inv st' live'.
Proof. exact StoreProofs.pool_step_inv. Qed.
Check C03_store_inv_step : forall st live o,
  store_inv st live -> pop_ok o ->
  let '(st', live') := pool_step (st, live) o in store_inv st' live'.

Theorem C03_store_inv_run : forall ops, Forall pop_ok ops ->
  store_inv (fst (pool_run ops)) (snd (pool_run ops)).
Proof.
  intros ops HF. unfold pool_run.
  apply StoreProofs.pool_fold_inv; [exact StoreProofs.store_inv_empty|exact HF].
Qed.
Check C03_store_inv_run : forall ops, Forall pop_ok ops ->
  store_inv (fst (pool_run ops)) (snd (pool_run ops)).

(* (2) isolation *)

(* one operation: every live handle other than the consumed one is still live and
   denotes the same bits *)
Theorem C03_isolation_step : forall st live o st' live' g,
  store_inv st live -> pop_ok o -> pool_step (st, live) o = (st', live') ->
  In g (survivors live o) -> habs st' g = habs st g /\ In g live'.
Proof. exact StoreProofs.pool_step_isolation. Qed.
Check C03_isolation_step : forall st live o st' live' g,
  store_inv st live -> pop_ok o -> pool_step (st, live) o = (st', live') ->
  In g (survivors live o) -> habs st' g = habs st g /\ In g live'.

(* the same by position in the pool *)
Theorem C03_isolation_indexed : forall st live o st' live' k k' g,
  store_inv st live -> pop_ok o -> pool_step (st, live) o = (st', live') ->
  nth_error live k = Some g -> track live o k = Some k' ->
  nth_error live' k' = Some g /\ habs st' g = habs st g.
Proof. exact StoreProofs.pool_step_track. Qed.
Check C03_isolation_indexed : forall st live o st' live' k k' g,
  store_inv st live -> pop_ok o -> pool_step (st, live) o = (st', live') ->
  nth_error live k = Some g -> track live o k = Some k' ->
  nth_error live' k' = Some g /\ habs st' g = habs st g.

(* a snapshot handle through any run of operations on the other handles of the pool:
   as long as it is not itself consumed it denotes what it denoted *)
Theorem C03_snapshot_run : forall ops st live k k' g,
  store_inv st live -> Forall pop_ok ops ->
  nth_error live k = Some g -> survives ops (st, live) k = Some k' ->
  let '(st', live') := fold_left pool_step ops (st, live) in
  nth_error live' k' = Some g /\ habs st' g = habs st g.
Proof. exact StoreProofs.pool_snapshot. Qed.
Check C03_snapshot_run : forall ops st live k k' g,
  store_inv st live -> Forall pop_ok ops ->
  nth_error live k = Some g -> survives ops (st, live) k = Some k' ->
  let '(st', live') := fold_left pool_step ops (st, live) in
  nth_error live' k' = Some g /\ habs st' g = habs st g.

(* (3) the pool evolves as the list-level semantics says *)

Theorem C03_pool_view_step : forall st live o,
  store_inv st live -> pop_ok o ->
  pool_view (pool_step (st, live) o) =
  if pool_enabled live o then map (habs st) (survivors live o) ++ pool_result st live o
  else pool_view (st, live).
Proof. exact StoreProofs.pool_view_step. Qed.
Check C03_pool_view_step : forall st live o,
  store_inv st live -> pop_ok o ->
  pool_view (pool_step (st, live) o) =
  if pool_enabled live o then map (habs st) (survivors live o) ++ pool_result st live o
  else pool_view (st, live).

Theorem C03_disabled_noop : forall st live o,
  pool_enabled live o = false -> pool_step (st, live) o = (st, live).
Proof. exact StoreProofs.pool_disabled_noop. Qed.
Check C03_disabled_noop : forall st live o,
  pool_enabled live o = false -> pool_step (st, live) o = (st, live).

(* (1)(2)(3) per operation of Store.v *)

Theorem C03_new : forall st L d bo st' h,
  store_inv st L -> Forall (fun x => (x < 256)%N) d -> h_new st d bo = (st', h) ->
  store_inv st' (h :: L) /\ (forall g, In g L -> view st' g = view st g) /\
  view st' h = from_bytes d.
Proof. exact StoreProofs.h_new_spec. Qed.
Check C03_new : forall st L d bo st' h,
  store_inv st L -> Forall (fun x => (x < 256)%N) d -> h_new st d bo = (st', h) ->
  store_inv st' (h :: L) /\ (forall g, In g L -> view st' g = view st g) /\
  view st' h = from_bytes d.

Theorem C03_clone : forall st h L st' h',
  store_inv st (h :: L) -> h_clone st h = (st', h') ->
  store_inv st' (h' :: h :: L) /\ (forall g, view st' g = view st g) /\ h' = h.
Proof. exact StoreProofs.h_clone_spec. Qed.
Check C03_clone : forall st h L st' h',
  store_inv st (h :: L) -> h_clone st h = (st', h') ->
  store_inv st' (h' :: h :: L) /\ (forall g, view st' g = view st g) /\ h' = h.

Theorem C03_drop : forall st h L,
  store_inv st (h :: L) ->
  store_inv (h_drop st h) L /\ (forall g, view (h_drop st h) g = view st g).
Proof. exact StoreProofs.h_drop_spec. Qed.
Check C03_drop : forall st h L,
  store_inv st (h :: L) ->
  store_inv (h_drop st h) L /\ (forall g, view (h_drop st h) g = view st g).

Theorem C03_substr : forall st h L s e,
  store_inv st (h :: L) ->
  match h_substr st h s e with
  | Some (st', h') =>
    s <= e /\ hstart h <= s /\ e <= hend h /\
    store_inv st' (h' :: h :: L) /\ (forall g, view st' g = view st g) /\
    habs st' h' = firstn (e - s) (skipn (s - hstart h) (habs st h))
  | None => ~ (s <= e /\ hstart h <= s /\ e <= hend h)
  end.
Proof. exact StoreProofs.h_substr_spec. Qed.
Check C03_substr : forall st h L s e,
  store_inv st (h :: L) ->
  match h_substr st h s e with
  | Some (st', h') =>
    s <= e /\ hstart h <= s /\ e <= hend h /\
    store_inv st' (h' :: h :: L) /\ (forall g, view st' g = view st g) /\
    habs st' h' = firstn (e - s) (skipn (s - hstart h) (habs st h))
  | None => ~ (s <= e /\ hstart h <= s /\ e <= hend h)
  end.

(* detach: in place iff uniquely owned and starting at bit 0; either way nobody else sees a change, the bits are
   the same and the result is uniquely owned *)
Theorem C03_detach : forall st h L st' h',
  store_inv st (h :: L) -> h_detach st h = (st', h') ->
  store_inv st' (h' :: L) /\ (forall g, In g L -> view st' g = view st g) /\
  habs st' h' = habs st h /\ strong (sget st' (hptr h')) = 1.
Proof. exact StoreProofs.h_detach_spec. Qed.
Check C03_detach : forall st h L st' h',
  store_inv st (h :: L) -> h_detach st h = (st', h') ->
  store_inv st' (h' :: L) /\ (forall g, In g L -> view st' g = view st g) /\
  habs st' h' = habs st h /\ strong (sget st' (hptr h')) = 1.

(* when detach copies: in place iff the strong count is 1 AND the value starts at bit 0 (a
   uniquely owned slice with a non-zero start is copied and rebased like a shared one), and
   under the invariant "strong count 1" means that no other live handle is on the buffer *)
Theorem C03_unique_iff_unshared : forall st h L, store_inv st (h :: L) ->
  (strong (sget st (hptr h)) = 1 <-> forall g, In g L -> hptr g <> hptr h).
Proof.
  intros st h L HI. destruct (StoreProofs.store_inv_head _ _ _ HI) as [Hp _].
  destruct HI as [H1 _]. rewrite (H1 _ Hp). cbn [count_ptr]. rewrite Nat.eqb_refl.
  rewrite <- StoreProofs.count_ptr_zero_iff. lia.
Qed.
Check C03_unique_iff_unshared : forall st h L, store_inv st (h :: L) ->
  (strong (sget st (hptr h)) = 1 <-> forall g, In g L -> hptr g <> hptr h).

Theorem C03_detach_in_place : forall st h,
  strong (sget st (hptr h)) = 1 -> hstart h = 0 -> h_detach st h = (st, h).
Proof. intros st h H H0. unfold h_detach. rewrite H, H0. reflexivity. Qed.
Check C03_detach_in_place : forall st h,
  strong (sget st (hptr h)) = 1 -> hstart h = 0 -> h_detach st h = (st, h).

Theorem C03_detach_copies : forall st h,
  strong (sget st (hptr h)) <> 1 \/ hstart h <> 0 ->
  hptr (snd (h_detach st h)) = length st /\ length (fst (h_detach st h)) = S (length st).
Proof. exact StoreProofs.h_detach_copies. Qed.
Check C03_detach_copies : forall st h,
  strong (sget st (hptr h)) <> 1 \/ hstart h <> 0 ->
  hptr (snd (h_detach st h)) = length st /\ length (fst (h_detach st h)) = S (length st).

Theorem C03_make_mut : forall st h L st' h',
  store_inv st (h :: L) -> h_make_mut st h = (st', h') ->
  store_inv st' (h' :: L) /\ (forall g, In g L -> view st' g = view st g) /\
  view st' h' = view st h /\ strong (sget st' (hptr h')) = 1.
Proof. exact StoreProofs.h_make_mut_spec. Qed.
Check C03_make_mut : forall st h L st' h',
  store_inv st (h :: L) -> h_make_mut st h = (st', h') ->
  store_inv st' (h' :: L) /\ (forall g, In g L -> view st' g = view st g) /\
  view st' h' = view st h /\ strong (sget st' (hptr h')) = 1.

Theorem C03_append_bits_mut : forall st h t L st' h',
  store_inv st (h :: L) -> In t L -> h_append_bits_mut st h t = (st', h') ->
  store_inv st' (h' :: L) /\ (forall g, In g L -> view st' g = view st g) /\
  habs st' h' = habs st h ++ habs st t.
Proof.
  intros st h t L st' h' HI Ht E.
  apply (StoreProofs.sim_spec st _ _ _ _ _ (StoreProofs.h_append_bits_mut_sim _ _ _ _ _ _ HI Ht E)).
  apply BitsMirror.append_bits_mut_spec;
    [apply (StoreProofs.store_inv_head _ _ _ HI)|apply (StoreProofs.store_inv_wf _ _ t HI), or_intror, Ht].
Qed.
Check C03_append_bits_mut : forall st h t L st' h',
  store_inv st (h :: L) -> In t L -> h_append_bits_mut st h t = (st', h') ->
  store_inv st' (h' :: L) /\ (forall g, In g L -> view st' g = view st g) /\
  habs st' h' = habs st h ++ habs st t.

Theorem C03_append : forall st h t L st' h',
  store_inv st (h :: L) -> In t L -> h_append st h t = (st', h') ->
  store_inv st' (h' :: L) /\ (forall g, In g L -> view st' g = view st g) /\
  habs st' h' = habs st h ++ habs st t.
Proof. exact StoreProofs.h_append_spec. Qed.
Check C03_append : forall st h t L st' h',
  store_inv st (h :: L) -> In t L -> h_append st h t = (st', h') ->
  store_inv st' (h' :: L) /\ (forall g, In g L -> view st' g = view st g) /\
  habs st' h' = habs st h ++ habs st t.

Theorem C03_invert : forall st h L st' h',
  store_inv st (h :: L) -> h_invert st h = (st', h') ->
  store_inv st' (h' :: L) /\ (forall g, In g L -> view st' g = view st g) /\
  habs st' h' = map negb (habs st h).
Proof. exact StoreProofs.h_invert_spec. Qed.
Check C03_invert : forall st h L st' h',
  store_inv st (h :: L) -> h_invert st h = (st', h') ->
  store_inv st' (h' :: L) /\ (forall g, In g L -> view st' g = view st g) /\
  habs st' h' = map negb (habs st h).

Theorem C03_insert : forall st h i s L,
  store_inv st (h :: L) -> In s L ->
  match h_insert st h i s with
  | Some (st', h') =>
    i <= hend h - hstart h /\
    store_inv st' (h' :: L) /\ (forall g, In g L -> view st' g = view st g) /\
    habs st' h' = firstn i (habs st h) ++ habs st s ++ skipn i (habs st h)
  | None => hend h - hstart h < i
  end.
Proof. exact StoreProofs.h_insert_spec. Qed.
Check C03_insert : forall st h i s L,
  store_inv st (h :: L) -> In s L ->
  match h_insert st h i s with
  | Some (st', h') =>
    i <= hend h - hstart h /\
    store_inv st' (h' :: L) /\ (forall g, In g L -> view st' g = view st g) /\
    habs st' h' = firstn i (habs st h) ++ habs st s ++ skipn i (habs st h)
  | None => hend h - hstart h < i
  end.

(* the interpreter model applies the VALUE-level operations of Bits.v ([Bits.append false],
   [invert false]); whatever the sharing situation ([u] = any answer of
   Rc::strong_count == 1) the handle operation denotes the same bits *)
Theorem C03_append_agrees_with_value_level : forall st h t L st' h' u,
  store_inv st (h :: L) -> In t L -> h_append st h t = (st', h') ->
  habs st' h' = abs (Bits.append u (view st h) (view st t)).
Proof.
  intros st h t L st' h' u HI Ht E. unfold habs. f_equal.
  apply (StoreProofs.h_append_sim _ _ _ _ _ _ HI Ht E).
Qed.
Check C03_append_agrees_with_value_level : forall st h t L st' h' u,
  store_inv st (h :: L) -> In t L -> h_append st h t = (st', h') ->
  habs st' h' = abs (Bits.append u (view st h) (view st t)).

Theorem C03_invert_agrees_with_value_level : forall st h L st' h' u,
  store_inv st (h :: L) -> h_invert st h = (st', h') ->
  habs st' h' = abs (invert u (view st h)).
Proof.
  intros st h L st' h' u HI E. rewrite (proj2 (proj2 (StoreProofs.h_invert_spec _ _ _ _ _ HI E))).
  symmetry. apply BitsProofs.invert_spec, (StoreProofs.store_inv_head _ _ _ HI).
Qed.
Check C03_invert_agrees_with_value_level : forall st h L st' h' u,
  store_inv st (h :: L) -> h_invert st h = (st', h') ->
  habs st' h' = abs (invert u (view st h)).

Theorem C03_insert_agrees_with_value_level : forall st h i s L u,
  store_inv st (h :: L) -> In s L ->
  match h_insert st h i s, insert u (view st h) i (view st s) with
  | Some (st', h'), Some r => habs st' h' = abs r
  | None, None => True
  | _, _ => False
  end.
Proof.
  intros st h i s L u HI Hs. pose proof (StoreProofs.h_insert_sim _ _ i _ _ HI Hs) as H.
  destruct (h_insert st h i s) as [[st' h']|].
  - destruct H as (_ & _ & N). rewrite N. reflexivity.
  - rewrite H. exact I.
Qed.
Check C03_insert_agrees_with_value_level : forall st h i s L u,
  store_inv st (h :: L) -> In s L ->
  match h_insert st h i s, insert u (view st h) i (view st s) with
  | Some (st', h'), Some r => habs st' h' = abs r
  | None, None => True
  | _, _ => False
  end.

(* (4) the interpreter level: clone s = s *)

Definition clone_state (s : state) : state := s.

(* the state an eval call leaves behind (result or error) *)
Definition eval_state (fo : fops) (pr : string -> option Z) (rf bf : nat)
           (s : state) (src : string) : state :=
  match res_state (eval fo pr rf bf src s) with Some s' => s' | None => s end.

Definition run_path (fo : fops) (pr : string -> option Z) (rf bf : nat)
           (srcs : list string) (s : state) : state :=
  fold_left (eval_state fo pr rf bf) srcs s.

Theorem C03_eval_functional : forall fo pr rf bf src s1 s2,
  s1 = s2 -> eval fo pr rf bf src s1 = eval fo pr rf bf src s2.
Proof. exact SnapshotProofs.eval_functional. Qed.
Check C03_eval_functional : forall fo pr rf bf src s1 s2,
  s1 = s2 -> eval fo pr rf bf src s1 = eval fo pr rf bf src s2.

Theorem C03_eval_on_clone : forall fo pr rf bf src s,
  eval fo pr rf bf src (clone_state s) = eval fo pr rf bf src s.
Proof. exact SnapshotProofs.eval_on_clone. Qed.
Check C03_eval_on_clone : forall fo pr rf bf src s,
  eval fo pr rf bf src (clone_state s) = eval fo pr rf bf src s.

Theorem C03_snapshot_unchanged : forall fo pr rf bf srcs s,
  let snap := clone_state s in
  let s' := run_path fo pr rf bf srcs s in
  snap = s /\ run_path fo pr rf bf srcs snap = s'.
Proof. exact SnapshotProofs.snapshot_unchanged. Qed.
Check C03_snapshot_unchanged : forall fo pr rf bf srcs s,
  let snap := clone_state s in
  let s' := run_path fo pr rf bf srcs s in
  snap = s /\ run_path fo pr rf bf srcs snap = s'.

Theorem C03_clone_tree : forall fo pr rf bf p q s,
  run_path fo pr rf bf (p ++ q) s = run_path fo pr rf bf q (clone_state (run_path fo pr rf bf p s)).
Proof. exact SnapshotProofs.clone_tree. Qed.
Check C03_clone_tree : forall fo pr rf bf p q s,
  run_path fo pr rf bf (p ++ q) s = run_path fo pr rf bf q (clone_state (run_path fo pr rf bf p s)).

Definition b8 (x : N) : list bool := abs (from_bytes [x]).

(* share then mutate: a value 0xAA, a clone, a slice of it (three handles on one buffer);
   the original is inverted (copies, because shared), then the inverted value is appended
   to IN PLACE (it is uniquely owned now): clone and slice still read 0xAA / its nibble *)
Example C03_isolation_nonvacuous :
  let ops := [PNew [170%N] false; PClone 0; PSubstr 0 2 6; PInvert 0; PAppend 2 0] in
  Forall pop_ok ops /\
  pool_view (pool_run ops) = [b8 170; firstn 4 (skipn 2 (b8 170)); b8 85 ++ b8 170] /\
  length (fst (pool_run ops)) = 2.
Proof. vm_compute. split; [repeat constructor|split; reflexivity]. Qed.

(* a uniquely owned value is modified in place: no new buffer *)
Example C03_in_place_nonvacuous :
  let sp := pool_run [PNew [170%N] false; PInvert 0] in
  pool_view sp = [b8 85] /\ length (fst sp) = 1.
Proof. vm_compute. split; reflexivity. Qed.

(* why isolation is stated for the SURVIVORS (positions) and not for handle values: the
   result of an in-place operation can be the same handle value as the consumed argument *)
Example C03_consumed_handle_value_is_reused :
  let sp := pool_run [PNew [170%N] false] in
  let sp' := pool_step sp (PInvert 0) in
  snd sp' = snd sp /\ pool_view sp = [b8 170] /\ pool_view sp' = [b8 85].
Proof. vm_compute. repeat split; reflexivity. Qed.

(* the snapshot theorem applies: handle 1 survives the whole run at index 0 *)
Example C03_snapshot_nonvacuous :
  let sp := pool_run [PNew [170%N] false; PClone 0] in
  survives [PInvert 0; PNew [1%N] true; PAppend 1 2] sp 1 = Some 0.
Proof. vm_compute. reflexivity. Qed.

(* (5) who else holds a buffer does not show in the representation of a result.

   [h_detach] works in place only when the strong count is 1 AND the handle starts at bit 0;
   otherwise it copies and rebases to bit 0.  (Were a uniquely owned slice with a non-zero
   start kept in place, the start offset of the result of append / invert / insert would
   depend on whether another interpreter clone still held the buffer.) *)

(* (5a) the range of the result handle: start 0 whatever the strong counts - no invariant,
   no hypothesis on the store at all *)
Theorem C03_detach_start : forall st h st' h', h_detach st h = (st', h') ->
  hstart h' = 0 /\ hend h' = hend h - hstart h.
Proof. exact StoreDetach.h_detach_range. Qed.
Check C03_detach_start : forall st h st' h', h_detach st h = (st', h') ->
  hstart h' = 0 /\ hend h' = hend h - hstart h.

Theorem C03_append_start : forall st h t st' h', h_append st h t = (st', h') ->
  hstart h' = 0 /\ hend h' = (hend h - hstart h) + (hend t - hstart t).
Proof. exact StoreDetach.h_append_range. Qed.
Check C03_append_start : forall st h t st' h', h_append st h t = (st', h') ->
  hstart h' = 0 /\ hend h' = (hend h - hstart h) + (hend t - hstart t).

Theorem C03_invert_start : forall st h st' h', h_invert st h = (st', h') ->
  hstart h' = 0 /\ hend h' = hend h - hstart h.
Proof. exact StoreDetach.h_invert_range. Qed.
Check C03_invert_start : forall st h st' h', h_invert st h = (st', h') ->
  hstart h' = 0 /\ hend h' = hend h - hstart h.

Theorem C03_insert_start : forall st h i s st' h', h_insert st h i s = Some (st', h') ->
  hstart h + i <= hend h /\
  hstart h' = 0 /\ hend h' = (hend h - hstart h) + (hend s - hstart s).
Proof. exact StoreDetach.h_insert_range. Qed.
Check C03_insert_start : forall st h i s st' h', h_insert st h i s = Some (st', h') ->
  hstart h + i <= hend h /\
  hstart h' = 0 /\ hend h' = (hend h - hstart h) + (hend s - hstart s).

(* (5b) the whole view of the result handle (range AND backing bytes) is the value-level
   operation of Bits.v on the views of the operands: for detach / invert with the ownership
   flag "strong count is 1", for append / insert with EVERY flag - in particular with the
   [false] the interpreter model uses *)
Theorem C03_detach_view : forall st h st' h', h_detach st h = (st', h') ->
  view st' h' = detach (strong (sget st (hptr h)) =? 1) (view st h).
Proof. exact StoreProofs.h_detach_view. Qed.
Check C03_detach_view : forall st h st' h', h_detach st h = (st', h') ->
  view st' h' = detach (strong (sget st (hptr h)) =? 1) (view st h).

Theorem C03_append_view : forall st h t L st' h' u,
  store_inv st (h :: L) -> In t L -> h_append st h t = (st', h') ->
  view st' h' = Bits.append u (view st h) (view st t).
Proof.
  intros st h t L st' h' u HI Ht E. apply (StoreProofs.h_append_sim _ _ _ _ _ _ HI Ht E).
Qed.
Check C03_append_view : forall st h t L st' h' u,
  store_inv st (h :: L) -> In t L -> h_append st h t = (st', h') ->
  view st' h' = Bits.append u (view st h) (view st t).

Theorem C03_invert_view : forall st h L st' h',
  store_inv st (h :: L) -> h_invert st h = (st', h') ->
  view st' h' = invert (strong (sget st (hptr h)) =? 1) (view st h).
Proof. intros st h L st' h' HI E. apply (StoreProofs.h_invert_sim _ _ _ _ _ HI E). Qed.
Check C03_invert_view : forall st h L st' h',
  store_inv st (h :: L) -> h_invert st h = (st', h') ->
  view st' h' = invert (strong (sget st (hptr h)) =? 1) (view st h).

Theorem C03_insert_view : forall st h i s L u,
  store_inv st (h :: L) -> In s L ->
  match h_insert st h i s, insert u (view st h) i (view st s) with
  | Some (st', h'), Some r => view st' h' = r
  | None, None => True
  | _, _ => False
  end.
Proof.
  intros st h i s L u HI Hs. pose proof (StoreProofs.h_insert_sim _ _ i _ _ HI Hs) as H.
  destruct (h_insert st h i s) as [[st' h']|].
  - destruct H as (_ & _ & N). rewrite N. reflexivity.
  - rewrite H. exact I.
Qed.
Check C03_insert_view : forall st h i s L u,
  store_inv st (h :: L) -> In s L ->
  match h_insert st h i s, insert u (view st h) i (view st s) with
  | Some (st', h'), Some r => view st' h' = r
  | None, None => True
  | _, _ => False
  end.

(* (5c) two stores / pools whose operand handles have the same views - they differ only in
   who else holds the buffers (strong counts, other live handles, pointers) - give result
   handles with the same [hstart], [hend] and bits.  For append / insert the whole view of the
   result is the same; for detach / invert the backing bytes beyond the value may differ
   (C03_bytes_beyond_the_value_may_differ). *)
Theorem C03_detach_ownership_independent : forall st1 h1 L1 st1' h1' st2 h2 L2 st2' h2',
  store_inv st1 (h1 :: L1) -> store_inv st2 (h2 :: L2) ->
  view st1 h1 = view st2 h2 ->
  h_detach st1 h1 = (st1', h1') -> h_detach st2 h2 = (st2', h2') ->
  hstart h1' = hstart h2' /\ hend h1' = hend h2' /\ habs st1' h1' = habs st2' h2'.
Proof.
  intros st1 h1 L1 st1' h1' st2 h2 L2 st2' h2' I1 I2 Ev.
  apply (StoreDetach.h_detach_same_bits _ _ _ _ _ _ _ _ _ _ I1 I2), StoreProofs.habs_of_view, Ev.
Qed.
Check C03_detach_ownership_independent : forall st1 h1 L1 st1' h1' st2 h2 L2 st2' h2',
  store_inv st1 (h1 :: L1) -> store_inv st2 (h2 :: L2) ->
  view st1 h1 = view st2 h2 ->
  h_detach st1 h1 = (st1', h1') -> h_detach st2 h2 = (st2', h2') ->
  hstart h1' = hstart h2' /\ hend h1' = hend h2' /\ habs st1' h1' = habs st2' h2'.

Theorem C03_append_ownership_independent : forall st1 h1 t1 L1 st1' h1' st2 h2 t2 L2 st2' h2',
  store_inv st1 (h1 :: L1) -> In t1 L1 -> store_inv st2 (h2 :: L2) -> In t2 L2 ->
  view st1 h1 = view st2 h2 -> view st1 t1 = view st2 t2 ->
  h_append st1 h1 t1 = (st1', h1') -> h_append st2 h2 t2 = (st2', h2') ->
  hstart h1' = hstart h2' /\ hend h1' = hend h2' /\ habs st1' h1' = habs st2' h2' /\
  view st1' h1' = view st2' h2'.
Proof. exact StoreDetach.h_append_ownership_indep. Qed.
Check C03_append_ownership_independent : forall st1 h1 t1 L1 st1' h1' st2 h2 t2 L2 st2' h2',
  store_inv st1 (h1 :: L1) -> In t1 L1 -> store_inv st2 (h2 :: L2) -> In t2 L2 ->
  view st1 h1 = view st2 h2 -> view st1 t1 = view st2 t2 ->
  h_append st1 h1 t1 = (st1', h1') -> h_append st2 h2 t2 = (st2', h2') ->
  hstart h1' = hstart h2' /\ hend h1' = hend h2' /\ habs st1' h1' = habs st2' h2' /\
  view st1' h1' = view st2' h2'.

Theorem C03_invert_ownership_independent : forall st1 h1 L1 st1' h1' st2 h2 L2 st2' h2',
  store_inv st1 (h1 :: L1) -> store_inv st2 (h2 :: L2) ->
  view st1 h1 = view st2 h2 ->
  h_invert st1 h1 = (st1', h1') -> h_invert st2 h2 = (st2', h2') ->
  hstart h1' = hstart h2' /\ hend h1' = hend h2' /\ habs st1' h1' = habs st2' h2'.
Proof.
  intros st1 h1 L1 st1' h1' st2 h2 L2 st2' h2' I1 I2 Ev.
  apply (StoreDetach.h_invert_same_bits _ _ _ _ _ _ _ _ _ _ I1 I2), StoreProofs.habs_of_view, Ev.
Qed.
Check C03_invert_ownership_independent : forall st1 h1 L1 st1' h1' st2 h2 L2 st2' h2',
  store_inv st1 (h1 :: L1) -> store_inv st2 (h2 :: L2) ->
  view st1 h1 = view st2 h2 ->
  h_invert st1 h1 = (st1', h1') -> h_invert st2 h2 = (st2', h2') ->
  hstart h1' = hstart h2' /\ hend h1' = hend h2' /\ habs st1' h1' = habs st2' h2'.

Theorem C03_insert_ownership_independent : forall st1 h1 s1 L1 st2 h2 s2 L2 i,
  store_inv st1 (h1 :: L1) -> In s1 L1 -> store_inv st2 (h2 :: L2) -> In s2 L2 ->
  view st1 h1 = view st2 h2 -> view st1 s1 = view st2 s2 ->
  match h_insert st1 h1 i s1, h_insert st2 h2 i s2 with
  | Some (st1', h1'), Some (st2', h2') =>
    hstart h1' = hstart h2' /\ hend h1' = hend h2' /\ habs st1' h1' = habs st2' h2' /\
    view st1' h1' = view st2' h2'
  | None, None => True
  | _, _ => False
  end.
Proof. exact StoreDetach.h_insert_ownership_indep. Qed.
Check C03_insert_ownership_independent : forall st1 h1 s1 L1 st2 h2 s2 L2 i,
  store_inv st1 (h1 :: L1) -> In s1 L1 -> store_inv st2 (h2 :: L2) -> In s2 L2 ->
  view st1 h1 = view st2 h2 -> view st1 s1 = view st2 s2 ->
  match h_insert st1 h1 i s1, h_insert st2 h2 i s2 with
  | Some (st1', h1'), Some (st2', h2') =>
    hstart h1' = hstart h2' /\ hend h1' = hend h2' /\ habs st1' h1' = habs st2' h2' /\
    view st1' h1' = view st2' h2'
  | None, None => True
  | _, _ => False
  end.

(* (5d) the same under the weaker relation "the operands denote the same BITS" (their offsets
   and buffers may differ too): range and bits of the result are functions of the operands'
   bits alone *)
Theorem C03_detach_same_bits : forall st1 h1 L1 st1' h1' st2 h2 L2 st2' h2',
  store_inv st1 (h1 :: L1) -> store_inv st2 (h2 :: L2) ->
  habs st1 h1 = habs st2 h2 ->
  h_detach st1 h1 = (st1', h1') -> h_detach st2 h2 = (st2', h2') ->
  hstart h1' = hstart h2' /\ hend h1' = hend h2' /\ habs st1' h1' = habs st2' h2'.
Proof. exact StoreDetach.h_detach_same_bits. Qed.
Check C03_detach_same_bits : forall st1 h1 L1 st1' h1' st2 h2 L2 st2' h2',
  store_inv st1 (h1 :: L1) -> store_inv st2 (h2 :: L2) ->
  habs st1 h1 = habs st2 h2 ->
  h_detach st1 h1 = (st1', h1') -> h_detach st2 h2 = (st2', h2') ->
  hstart h1' = hstart h2' /\ hend h1' = hend h2' /\ habs st1' h1' = habs st2' h2'.

Theorem C03_append_same_bits : forall st1 h1 t1 L1 st1' h1' st2 h2 t2 L2 st2' h2',
  store_inv st1 (h1 :: L1) -> In t1 L1 -> store_inv st2 (h2 :: L2) -> In t2 L2 ->
  habs st1 h1 = habs st2 h2 -> habs st1 t1 = habs st2 t2 ->
  h_append st1 h1 t1 = (st1', h1') -> h_append st2 h2 t2 = (st2', h2') ->
  hstart h1' = hstart h2' /\ hend h1' = hend h2' /\ habs st1' h1' = habs st2' h2'.
Proof.
  intros st1 h1 t1 L1 st1' h1' st2 h2 t2 L2 st2' h2' I1 T1 I2 T2 Eh Et E1 E2.
  destruct (StoreDetach.h_append_repr _ _ _ _ _ _ I1 T1 E1) as (-> & -> & ->).
  destruct (StoreDetach.h_append_repr _ _ _ _ _ _ I2 T2 E2) as (-> & -> & ->).
  rewrite Eh, Et. auto.
Qed.
Check C03_append_same_bits : forall st1 h1 t1 L1 st1' h1' st2 h2 t2 L2 st2' h2',
  store_inv st1 (h1 :: L1) -> In t1 L1 -> store_inv st2 (h2 :: L2) -> In t2 L2 ->
  habs st1 h1 = habs st2 h2 -> habs st1 t1 = habs st2 t2 ->
  h_append st1 h1 t1 = (st1', h1') -> h_append st2 h2 t2 = (st2', h2') ->
  hstart h1' = hstart h2' /\ hend h1' = hend h2' /\ habs st1' h1' = habs st2' h2'.

Theorem C03_invert_same_bits : forall st1 h1 L1 st1' h1' st2 h2 L2 st2' h2',
  store_inv st1 (h1 :: L1) -> store_inv st2 (h2 :: L2) ->
  habs st1 h1 = habs st2 h2 ->
  h_invert st1 h1 = (st1', h1') -> h_invert st2 h2 = (st2', h2') ->
  hstart h1' = hstart h2' /\ hend h1' = hend h2' /\ habs st1' h1' = habs st2' h2'.
Proof. exact StoreDetach.h_invert_same_bits. Qed.
Check C03_invert_same_bits : forall st1 h1 L1 st1' h1' st2 h2 L2 st2' h2',
  store_inv st1 (h1 :: L1) -> store_inv st2 (h2 :: L2) ->
  habs st1 h1 = habs st2 h2 ->
  h_invert st1 h1 = (st1', h1') -> h_invert st2 h2 = (st2', h2') ->
  hstart h1' = hstart h2' /\ hend h1' = hend h2' /\ habs st1' h1' = habs st2' h2'.

Theorem C03_insert_same_bits : forall st1 h1 s1 L1 st2 h2 s2 L2 i,
  store_inv st1 (h1 :: L1) -> In s1 L1 -> store_inv st2 (h2 :: L2) -> In s2 L2 ->
  habs st1 h1 = habs st2 h2 -> habs st1 s1 = habs st2 s2 ->
  match h_insert st1 h1 i s1, h_insert st2 h2 i s2 with
  | Some (st1', h1'), Some (st2', h2') =>
    hstart h1' = hstart h2' /\ hend h1' = hend h2' /\ habs st1' h1' = habs st2' h2'
  | None, None => True
  | _, _ => False
  end.
Proof. exact StoreDetach.h_insert_same_bits. Qed.
Check C03_insert_same_bits : forall st1 h1 s1 L1 st2 h2 s2 L2 i,
  store_inv st1 (h1 :: L1) -> In s1 L1 -> store_inv st2 (h2 :: L2) -> In s2 L2 ->
  habs st1 h1 = habs st2 h2 -> habs st1 s1 = habs st2 s2 ->
  match h_insert st1 h1 i s1, h_insert st2 h2 i s2 with
  | Some (st1', h1'), Some (st2', h2') =>
    hstart h1' = hstart h2' /\ hend h1' = hend h2' /\ habs st1' h1' = habs st2' h2'
  | None, None => True
  | _, _ => False
  end.

(* non-vacuity, on reachable pools.  A slice [4, 12) of ab cd; in pool A the original value
   has been dropped (the slice is uniquely owned), in pool B it is still live (the buffer is
   shared).  Both detach to a handle [0, 8) with the bits of bc. *)
Example C03_detach_unique_vs_shared :
  let spA := pool_run [PNew [171; 205]%N false; PSubstr 0 4 12; PDrop 0; PDetach 0] in
  let spB := pool_run [PNew [171; 205]%N false; PSubstr 0 4 12; PDetach 1] in
  let hA := nth 0 (snd spA) (mkh 0 0 0) in
  let hB := nth 1 (snd spB) (mkh 0 0 0) in
  (hstart hA, hend hA) = (0, 8) /\ (hstart hB, hend hB) = (0, 8) /\
  habs (fst spA) hA = habs (fst spB) hB /\
  habs (fst spA) hA = abs (from_bytes [188%N]).
Proof. vm_compute. repeat split; reflexivity. Qed.

(* append / invert / insert on the uniquely owned and on the shared slice: same range, bits *)
Example C03_ops_unique_vs_shared :
  let pre := [PNew [171; 205]%N false; PNew [15%N] false; PSubstr 0 4 12] in
  let res ops := let sp := pool_run ops in
                 let h := nth (length (snd sp) - 1) (snd sp) (mkh 0 0 0) in
                 (hstart h, hend h, habs (fst sp) h) in
  res (pre ++ [PDrop 0; PAppend 1 0]) = res (pre ++ [PAppend 2 1]) /\
  res (pre ++ [PDrop 0; PInvert 1]) = res (pre ++ [PInvert 2]) /\
  res (pre ++ [PDrop 0; PInsert 1 3 0]) = res (pre ++ [PInsert 2 3 1]) /\
  fst (fst (res (pre ++ [PDrop 0; PInvert 1]))) = 0.
Proof. vm_compute. repeat split; reflexivity. Qed.

(* what may still differ between the two ownership situations: the backing bytes beyond the
   value - a 4-bit value at the start of the byte ff is detached in place when uniquely owned
   (stale bits stay), copied and left-aligned when the original is live *)
Example C03_bytes_beyond_the_value_may_differ :
  let spA := pool_run [PNew [255%N] false; PSubstr 0 0 4; PDrop 0; PDetach 0] in
  let spB := pool_run [PNew [255%N] false; PSubstr 0 0 4; PDetach 1] in
  let hA := nth 0 (snd spA) (mkh 0 0 0) in
  let hB := nth 1 (snd spB) (mkh 0 0 0) in
  (hstart hA, hend hA) = (hstart hB, hend hB) /\ habs (fst spA) hA = habs (fst spB) hB /\
  cdata (view (fst spA) hA) = [255%N] /\ cdata (view (fst spB) hB) = [240%N].
Proof. vm_compute. repeat split; reflexivity. Qed.
