(* CompileParse3.v: a parsed source whose layout exists is a well-formed program. *)
From Xeh Require Import Model.Prelude Model.Bits Model.Codec Model.Cell Model.Lexer Model.Fmt
                        Model.Vm Model.Words Model.Struct
                        Proofs.CompileLayout Proofs.CompileProg Proofs.CompileParse Proofs.CompileParse2.
Local Notation length := List.length.

Fixpoint ndb (l : list stmt) : bool :=
  match l with [] => false | y :: r => nested_def y || ndb r end.
Fixpoint nda (l : list arm) : bool :=
  match l with [] => false | (pre, _, body) :: r => ndb pre || ndb body || nda r end.

Lemma nd_If : forall p t, nested_def (SIf p t) = ndb t.
Proof. reflexivity. Qed.
Lemma nd_IfE : forall p t e, nested_def (SIfE p t e) = ndb t || ndb e.
Proof. reflexivity. Qed.
Lemma nd_Case : forall arms d, nested_def (SCase arms d) = nda arms || ndb d.
Proof. reflexivity. Qed.
Lemma nd_Until : forall b p, nested_def (SUntil b p) = ndb b.
Proof. reflexivity. Qed.
Lemma nd_Repeat : forall b, nested_def (SRepeat b) = ndb b.
Proof. reflexivity. Qed.
Lemma nd_While : forall c p b, nested_def (SWhile c p b) = ndb c || ndb b.
Proof. reflexivity. Qed.
Lemma nd_Do : forall p b pl, nested_def (SDo p b pl) = ndb b.
Proof. reflexivity. Qed.

Lemma nested_nodefs : forall x, nested_def x = false -> ddefs x = [].
Proof.
  apply (stmt_ind2 (fun x => nested_def x = false -> ddefs x = [])
                   (fun l => ndb l = false -> ddefs_b l = [])
                   (fun a => nda a = false -> ddefs_a a = [])); try reflexivity.
  - intros x r Hx Hr H. cbn [ndb] in H. apply Bool.orb_false_elim in H. destruct H as [H1 H2].
    cbn [ddefs_b]. rewrite (Hx H1), (Hr H2). reflexivity.
  - intros pre p body r Hpre Hbody Hr H. cbn [nda] in H. apply Bool.orb_false_elim in H. destruct H as [H1 H3].
    apply Bool.orb_false_elim in H1. destruct H1 as [H1 H2].
    cbn [ddefs_a]. rewrite (Hpre H1), (Hbody H2), (Hr H3). reflexivity.
  - intros p t Ht H. rewrite nd_If in H. rewrite ddefs_If. auto.
  - intros p t e Ht He H. rewrite nd_IfE in H. apply Bool.orb_false_elim in H. destruct H as [H1 H2].
    rewrite ddefs_IfE, (Ht H1), (He H2). reflexivity.
  - intros arms d Ha Hd H. rewrite nd_Case in H. apply Bool.orb_false_elim in H. destruct H as [H1 H2].
    rewrite ddefs_Case, (Ha H1), (Hd H2). reflexivity.
  - intros b p Hb H. rewrite nd_Until in H. rewrite ddefs_Until. auto.
  - intros b Hb H. rewrite nd_Repeat in H. rewrite ddefs_Repeat. auto.
  - intros c p b Hc Hb H. rewrite nd_While in H. apply Bool.orb_false_elim in H. destruct H as [H1 H2].
    rewrite ddefs_While, (Hc H1), (Hb H2). reflexivity.
  - intros p b pl Hb H. rewrite nd_Do in H. rewrite ddefs_Do. auto.
  - intros g H. discriminate.
Qed.

Lemma top_defs : forall l,
  forallb (fun x => match x with SDef _ => true | _ => negb (nested_def x) end) l = true ->
  forall g, In g (ddefs_b l) -> In (SDef g) l.
Proof.
  induction l as [|x r IH]; intros H g Hin; [contradiction|].
  cbn [forallb] in H. apply andb_prop in H. destruct H as [H1 H2].
  cbn [ddefs_b] in Hin. apply in_app_or in Hin. destruct Hin as [Hin|Hin].
  - destruct (is_def_dec x) as [[g' ->]|Hx].
    + cbn [ddefs] in Hin. destruct Hin as [->|[]]. left. reflexivity.
    + assert (E : nested_def x = false).
      { destruct x; try (apply Bool.negb_true_iff in H1; exact H1). exfalso. eapply Hx. reflexivity. }
      rewrite (nested_nodefs x E) in Hin. contradiction.
  - right. apply IH; assumption.
Qed.

(* [parse_source] and [seval_source] are related to their [pseq] by rewriting with these two
   equations; a conversion in the other direction (the unfolded form first) is slow to check *)
Lemma parse_source_eq : forall fo pr src heap0,
  parse_source fo pr src heap0 =
  match pseq fo pr (S (S (length (lex_string src)))) (lex_string src) (mkpenv [] [] 0 heap0 None 0 0) [] [] false with
  | POk body "" _ _ e _ => Some (body, Struct.funs e, nheap e)
  | _ => None
  end.
Proof. reflexivity. Qed.

Lemma seval_source_eq : forall fo pr fuel src s,
  seval_source fo pr fuel src s =
  match pseq fo pr (S (S (length (lex_string src)))) (lex_string src)
             (mkpenv [] [] 0 (length (heap s)) None 0 0) [] [] false with
  | PErr k => CBuildErr k
  | PUnsup => CUnsupported
  | POk body "" _ _ e _ =>
    CRun (sblock fo (Struct.funs e) fuel body (set_heap s (heap s ++ repeat CNil (nheap e - length (heap s)))))
  | POk _ _ _ _ _ _ => CBuildErr EFlow
  end.
Proof. reflexivity. Qed.

Lemma parse_source_inv : forall fo pr src heap0 l funs n,
  parse_source fo pr src heap0 = Some (l, funs, n) ->
  exists tp rest e brk,
    pseq fo pr (S (S (length (lex_string src)))) (lex_string src) (mkpenv [] [] 0 heap0 None 0 0) [] [] false
    = POk l "" tp rest e brk /\
    funs = Struct.funs e /\ n = nheap e.
Proof.
  intros fo pr src heap0 l funs n H. rewrite parse_source_eq in H.
  destruct (pseq fo pr (S (S (length (lex_string src)))) (lex_string src) (mkpenv [] [] 0 heap0 None 0 0) [] [] false)
    as [body term tp rest e brk| |]; try discriminate.
  destruct term; [|discriminate]. injection H as <- <- <-. eauto 8.
Qed.

Theorem parse_prog_wf : forall fo pr src heap0 l funs n,
  parse_source fo pr src heap0 = Some (l, funs, n) ->
  well_placed funs l = true ->
  prog_wf funs l.
Proof.
  intros fo pr src heap0 l funs n H HW.
  destruct (parse_source_inv _ _ _ _ _ _ _ H) as (tp & rest & e & brk' & E & -> & _).
  pose proof (spec_all fo pr (S (S (length (lex_string src)))) (lex_string src) (mkpenv [] [] 0 heap0 None 0 0) [] [] false
                       ltac:(constructor)) as G.
  rewrite E in G. cbn [good_res] in G. destruct G as (news & Hb & W & B & [Ei _] & F & _ & D).
  cbn [rev app] in Hb. subst news.
  specialize (D eq_refl). subst brk'. destruct (B eq_refl) as [_ N].
  split; [apply wf_b_Forall; exact W|]. split; [apply nb_b_Forall; exact N|].
  unfold well_placed in HW. apply andb_prop in HW. destruct HW as [HW _].
  rewrite Forall_forall. intros gb Hgb. unfold funs_good in F. rewrite Forall_forall in F.
  split; [|apply F; exact Hgb].
  apply top_defs; [exact HW|]. cbn [Struct.funs map app] in Ei. apply Ei. apply in_map. exact Hgb.
Qed.

Lemma layout_well_placed : forall funs l org prog,
  layout_program funs l org = Some prog -> well_placed funs l = true.
Proof. intros funs l org prog H. unfold layout_program in H. destruct (well_placed funs l); [reflexivity|discriminate]. Qed.

Lemma seval_source_is : forall fo pr fuel src t0 l funs n,
  parse_source fo pr src (length (heap t0)) = Some (l, funs, n) ->
  seval_source fo pr fuel src t0 =
  CRun (sblock fo funs fuel l (set_heap t0 (heap t0 ++ repeat CNil (n - length (heap t0))))).
Proof.
  intros fo pr fuel src t0 l funs n H.
  destruct (parse_source_inv _ _ _ _ _ _ _ H) as (tp & rest & e & brk' & E & -> & ->).
  rewrite seval_source_eq, E. reflexivity.
Qed.
