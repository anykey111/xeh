(* Numeric texts below Lex::next: the scan to the next whitespace, written digits with separators,
   the conversion of a cleaned literal with its sign, the token a numeric text denotes. *)
From Xeh Require Import Model.Prelude Model.Cell Model.Lexer Model.Fmt.
From Xeh Require Import Proofs.LexBasic Proofs.LexNum.
Local Open Scope string_scope.

(* what the numeric scan keeps: everything but the separators *)
Fixpoint strip_us (s : string) : string :=
  match s with
  | "" => ""
  | String c r => if (byte_of c =? 95)%N then strip_us r else String c (strip_us r)
  end.

Fixpoint has_dot (s : string) : bool :=
  match s with
  | "" => false
  | String c r => (byte_of c =? 46)%N || has_dot r
  end.

Lemma strip_us_app a b : strip_us (a ++ b) = strip_us a ++ strip_us b.
Proof.
  induction a as [|c a IH]; [reflexivity|]. cbn [append strip_us].
  destruct (byte_of c =? 95)%N; [exact IH|]. cbn [append]. rewrite IH. reflexivity.
Qed.

Lemma scan_word_stop rest n numeric tmp dot : next_is_ws_or_end rest = true ->
  scan_word rest n numeric tmp dot = (rest, n, tmp, dot).
Proof. destruct rest as [|c r]; cbn [next_is_ws_or_end scan_word]; [reflexivity|]. intros ->. reflexivity. Qed.

Lemma scan_word_run : forall body rest n numeric tmp dot, no_ws body = true -> next_is_ws_or_end rest = true ->
  scan_word (body ++ rest) n numeric tmp dot =
  (rest, n + String.length body, (if numeric then tmp ++ strip_us body else tmp),
   dot || (numeric && has_dot body)).
Proof.
  induction body as [|c body IH]; intros rest n numeric tmp dot Hb Hr.
  - cbn [append String.length strip_us has_dot]. rewrite scan_word_stop by exact Hr.
    rewrite Nat.add_0_r, app_nil_r_s, andb_false_r, orb_false_r. destruct numeric; reflexivity.
  - cbn [no_ws] in Hb. apply andb_prop in Hb. destruct Hb as [Hc Hb].
    cbn [append scan_word String.length strip_us has_dot].
    destruct (is_ws c); [discriminate|]. cbv zeta.
    rewrite IH by assumption. replace (S n + String.length body) with (n + S (String.length body)) by lia.
    destruct numeric; cbn [andb]; [|rewrite !orb_false_r; reflexivity].
    rewrite <- orb_assoc. destruct (byte_of c =? 95)%N; cbn [negb]; [reflexivity|].
    rewrite app_assoc_s. reflexivity.
Qed.

Inductive sgn := SNone | SMinus | SPlus.
Definition sgn_text (sg : sgn) : string := match sg with SNone => "" | SMinus => "-" | SPlus => "+" end.
Definition sgn_apply (sg : sgn) (z : Z) : Z := match sg with SMinus => (- z)%Z | _ => z end.

Definition numeric_tok (start p4 : nat) (c0 : ascii) (radix : option N) (tmp : string) (dot : bool) : tok :=
  if dot then
    match radix with Some _ => TErr PFloat start p4 | None => TReal tmp end
  else
    match int_from_str_radix tmp
            (match radix with Some x => x | None => if (byte_of c0 =? 48)%N then 16%N else 10%N end) with
    | Some v => TLit (CInt v)
    | None => TErr PInt start p4
    end.

Inductive rmark := RHex | RBin | ROct.
Definition rmark_text (m : rmark) : string := match m with RHex => "x" | RBin => "b" | ROct => "o" end.
Definition rmark_radix (m : rmark) : N := match m with RHex => 16%N | RBin => 2%N | ROct => 8%N end.

Definition radix_mark (s : string) : option N :=
  match s with
  | String c _ => if (byte_of c =? 98)%N then Some 2%N else if (byte_of c =? 120)%N then Some 16%N
                  else if (byte_of c =? 111)%N then Some 8%N else None
  | "" => None
  end.

Lemma sign_split_sgn sg c r : byte_of c <> 45%N -> byte_of c <> 43%N ->
  sign_split (sgn_text sg ++ String c r) = (match sg with SMinus => true | _ => false end, String c r).
Proof. intros H1 H2. destruct sg; [apply sign_split_other; assumption|reflexivity|reflexivity]. Qed.

Inductive nitem := NDig (up : bool) (d : N) | NSep.

Definition nitem_char (i : nitem) : ascii :=
  match i with NDig up d => digit_char up d | NSep => "_"%char end.

Fixpoint nitems_text (l : list nitem) : string :=
  match l with [] => "" | i :: r => String (nitem_char i) (nitems_text r) end.

Fixpoint nitems_digits (l : list nitem) : list N :=
  match l with [] => [] | NDig _ d :: r => d :: nitems_digits r | NSep :: r => nitems_digits r end.

Definition nitem_ok (radix : N) (i : nitem) : bool :=
  match i with NDig _ d => (d <? radix)%N | NSep => true end.

Definition int_tok (sg : sgn) (radix : N) (items : list nitem) (a b : nat) : tok :=
  match nitems_digits items with
  | [] => TErr PInt a b
  | _ => let v := sgn_apply sg (digits_value (Z.of_N radix) (nitems_digits items) 0) in
         if in_i128 v then TLit (CInt v) else TErr PInt a b
  end.

Lemma nitems_text_length items : String.length (nitems_text items) = List.length items.
Proof. induction items as [|i items IH]; [reflexivity|]. cbn [nitems_text String.length List.length]. rewrite IH. reflexivity. Qed.

Lemma nitems_text_app a b : nitems_text (a ++ b) = nitems_text a ++ nitems_text b.
Proof. induction a as [|i a IH]; [reflexivity|]. cbn [app nitems_text append]. rewrite IH. reflexivity. Qed.

Lemma nitems_no_ws radix items : (radix <= 36)%N -> forallb (nitem_ok radix) items = true ->
  no_ws (nitems_text items) = true /\ has_dot (nitems_text items) = false.
Proof.
  intros Hr. induction items as [|i items IH]; intros H; [split; reflexivity|].
  cbn [forallb] in H. apply andb_prop in H. destruct H as [Hi H]. destruct (IH H) as (I1 & I2).
  cbn [nitems_text no_ws has_dot]. rewrite I1, I2.
  destruct i as [up d|]; cbn [nitem_char nitem_ok] in *; [|split; reflexivity].
  pose proof (digit_char_range up d ltac:(lia)) as Hc. cbv zeta in Hc. unfold is_ws. split; lia.
Qed.

Lemma digits_val_nitems radix : (radix <= 36)%N -> forall items acc,
  forallb (nitem_ok radix) items = true ->
  digits_val radix (strip_us (nitems_text items)) acc =
  Some (digits_value (Z.of_N radix) (nitems_digits items) acc).
Proof.
  intros Hr. induction items as [|i items IH]; intros acc H; [reflexivity|].
  cbn [forallb] in H. apply andb_prop in H. destruct H as [Hi H].
  destruct i as [up d|]; cbn [nitems_text nitem_char strip_us nitems_digits nitem_ok digits_value] in *.
  - pose proof (digit_char_range up d ltac:(lia)) as Hc. cbv zeta in Hc.
    replace (byte_of (digit_char up d) =? 95)%N with false by lia.
    cbn [digits_val]. rewrite digit_val_char by lia. rewrite Hi. apply IH. exact H.
  - apply IH. exact H.
Qed.

Lemma nitems_head radix items : (radix <= 36)%N -> forallb (nitem_ok radix) items = true ->
  match strip_us (nitems_text items) with
  | "" => nitems_digits items = []
  | String c _ => byte_of c <> 45%N /\ byte_of c <> 43%N /\ nitems_digits items <> []
  end.
Proof.
  intros Hr. induction items as [|i items IH]; intros H; [reflexivity|].
  cbn [forallb] in H. apply andb_prop in H. destruct H as [Hi H].
  destruct i as [up d|]; cbn [nitems_text nitem_char strip_us nitems_digits nitem_ok] in *; [|apply IH; exact H].
  pose proof (digit_char_range up d ltac:(lia)) as Hc. cbv zeta in Hc.
  replace (byte_of (digit_char up d) =? 95)%N with false by lia. repeat split; try lia. discriminate.
Qed.

Lemma int_from_str_sgn sg radix items : (radix <= 36)%N -> forallb (nitem_ok radix) items = true ->
  int_from_str_radix (sgn_text sg ++ strip_us (nitems_text items)) radix =
  match nitems_digits items with
  | [] => None
  | _ => let v := sgn_apply sg (digits_value (Z.of_N radix) (nitems_digits items) 0) in
         if in_i128 v then Some v else None
  end.
Proof.
  intros Hr H. pose proof (nitems_head radix items Hr H) as Hh.
  pose proof (digits_val_nitems radix Hr items 0%Z H) as Hv.
  rewrite int_from_str_radix_unfold.
  destruct (strip_us (nitems_text items)) as [|c body] eqn:Ec.
  - rewrite Hh. destruct sg; reflexivity.
  - destruct Hh as (N1 & N2 & N3). rewrite sign_split_sgn by assumption. rewrite Hv.
    destruct (nitems_digits items) as [|d0 ds]; [congruence|]. destruct sg; reflexivity.
Qed.

Lemma numeric_tok_int start p4 c0 radix rdx sg items :
  (rdx <= 36)%N -> forallb (nitem_ok rdx) items = true ->
  rdx = match radix with Some x => x | None => if (byte_of c0 =? 48)%N then 16%N else 10%N end ->
  numeric_tok start p4 c0 radix (sgn_text sg ++ strip_us (nitems_text items)) false = int_tok sg rdx items start p4.
Proof.
  intros Hr H E. unfold numeric_tok, int_tok. rewrite <- E. rewrite int_from_str_sgn by assumption.
  destruct (nitems_digits items); [reflexivity|]. cbv zeta.
  destruct (in_i128 _); reflexivity.
Qed.

Lemma digits_value_lead0 radix ds : digits_value radix (0%N :: ds) 0 = digits_value radix ds 0.
Proof. cbn [digits_value]. f_equal. Qed.

Lemma digits_val_bad radix : forall a c b acc,
  match digit_val c with Some v => (v <? radix)%N | None => false end = false ->
  digits_val radix (a ++ String c b) acc = None.
Proof.
  induction a as [|x a IH]; intros c b acc H; cbn [append digits_val].
  - destruct (digit_val c) as [v|]; [rewrite H|]; reflexivity.
  - destruct (digit_val x) as [v|]; [|reflexivity]. destruct (v <? radix)%N; [|reflexivity]. apply IH. exact H.
Qed.

Lemma int_from_str_bad sg radix c0 a c b : byte_of c0 <> 45%N -> byte_of c0 <> 43%N ->
  match digit_val c with Some v => (v <? radix)%N | None => false end = false ->
  int_from_str_radix (sgn_text sg ++ String c0 (a ++ String c b)) radix = None.
Proof.
  intros N1 N2 H. rewrite int_from_str_radix_unfold, sign_split_sgn by assumption.
  change (String c0 (a ++ String c b)) with (String c0 a ++ String c b). rewrite digits_val_bad by exact H.
  reflexivity.
Qed.
