(* F64IeeeRem.v: fl_rem (fmod) is exact: x - trunc(x / y) * y with the sign of x. *)
From Coq Require Import ZArith Reals Lia Lra Psatz ZifyBool.
From Flocq Require Import Core.Core IEEE754.BinarySingleNaN IEEE754.Binary IEEE754.Bits.
From Xeh Require Import Model.Prelude Model.Cell Model.F64c Model.Words Model.Boot Model.F64.
From Xeh Require Import Proofs.ArithNum Proofs.F64cProofs Proofs.F64Ieee Proofs.F64IeeeConv.
Local Open Scope Z_scope.

Lemma fval_scaled p e : f64_pat p -> f64_exp p <> 2047 -> e <= f64_ex p ->
  fval p = (IZR (cond_Zopp (f64_neg p) (f64_mant p * 2 ^ (f64_ex p - e))) * bpow radix2 e)%R.
Proof.
  intros Hp Fp He. rewrite (fval_mag p Hp Fp), IZR_cond_Zopp, <- cond_Ropp_mult_l. f_equal.
  rewrite mult_IZR, <- bpow2 by lia. rewrite Rmult_assoc, <- bpow_plus. f_equal. f_equal. lia.
Qed.

Lemma fmod_real a b e : b <> 0 ->
  (IZR a * bpow radix2 e - IZR (Ztrunc ((IZR a * bpow radix2 e) / (IZR b * bpow radix2 e))) * (IZR b * bpow radix2 e)
   = IZR (Z.rem a b) * bpow radix2 e)%R.
Proof.
  intros Hb.
  assert (Rb : IZR b <> 0%R) by (apply not_0_IZR; exact Hb).
  pose proof (bpow_gt_0 radix2 e) as Be.
  replace ((IZR a * bpow radix2 e) / (IZR b * bpow radix2 e))%R with (IZR a / IZR b)%R by (field; lra).
  rewrite Ztrunc_div by exact Hb.
  pose proof (Z.quot_rem' a b) as QR.
  replace (Z.rem a b) with (a - b * Z.quot a b) by lia.
  rewrite minus_IZR, mult_IZR. ring.
Qed.

Lemma rem_signs sx sy X Y : 0 <= X -> 0 < Y ->
  Z.rem (cond_Zopp sx X) (cond_Zopp sy Y) = cond_Zopp sx (X mod Y).
Proof.
  intros HX HY. destruct sx, sy; cbn [cond_Zopp];
  rewrite ?Z.rem_opp_r', ?Z.rem_opp_l'; rewrite Z.rem_mod_nonneg by lia; reflexivity.
Qed.

Lemma mant_bounds p : f64_pat p -> 0 <= f64_mant p < 2 ^ 53 /\ -1074 <= f64_ex p <= 972 /\
  (f64_exp p <> 2047 -> f64_ex p <= 971) /\ (f64_is_zero p = false -> f64_exp p <> 2047 -> 0 < f64_mant p).
Proof.
  intros Hp. destruct (f64_decompose p Hp) as (_ & He & Hm). rewrite (is_zero_fields p Hp).
  unfold f64_mant, f64_ex. rewrite p52 in *. rewrite p53.
  destruct (Z.eqb_spec (f64_exp p) 0); repeat split; lia.
Qed.

Lemma rem_correct x y : f64_pat x -> f64_pat y -> f64_exp x <> 2047 -> f64_exp y <> 2047 -> f64_is_zero y = false ->
  let r := fl_rem x y in
  f64_pat r /\ f64_exp r <> 2047 /\ f64_neg r = f64_neg x /\
  fval r = (fval x - IZR (Ztrunc (fval x / fval y)) * fval y)%R.
Proof.
  intros Hx Hy Fx Fy Zy. cbv zeta. unfold fl_rem. rewrite !pat_id by assumption. cbv zeta.
  assert (Nx : f64_is_nan x = false) by (apply finite_not_nan; assumption).
  assert (Ny : f64_is_nan y = false) by (apply finite_not_nan; assumption).
  rewrite Nx, Ny, Zy. replace (f64_exp x =? 2047) with false by lia. replace (f64_exp y =? 2047) with false by lia.
  cbn [orb].
  destruct (mant_bounds x Hx) as (Mx & Ex & Ex' & _). destruct (mant_bounds y Hy) as (My & Ey & Ey' & My').
  specialize (Ex' Fx). specialize (Ey' Fy). specialize (My' Zy Fy).
  set (e := Z.min (f64_ex x) (f64_ex y)).
  set (X := f64_mant x * 2 ^ (f64_ex x - e)). set (Y := f64_mant y * 2 ^ (f64_ex y - e)).
  assert (HX : 0 <= X) by (unfold X; apply Z.mul_nonneg_nonneg; [lia|apply Z.pow_nonneg; lia]).
  assert (HY : 0 < Y) by (unfold Y; apply Z.mul_pos_pos; [lia|apply Z.pow_pos_nonneg; unfold e; lia]).
  assert (VAL : (fval x - IZR (Ztrunc (fval x / fval y)) * fval y
                 = cond_Ropp (f64_neg x) (IZR (X mod Y) * bpow radix2 e))%R).
  { rewrite (fval_scaled x e Hx Fx) by (unfold e; lia). rewrite (fval_scaled y e Hy Fy) by (unfold e; lia).
    fold X Y. rewrite fmod_real by (destruct (f64_neg y); cbn [cond_Zopp]; lia).
    rewrite rem_signs by assumption. rewrite IZR_cond_Zopp, <- cond_Ropp_mult_l. reflexivity. }
  rewrite VAL.
  destruct (f64_is_zero x) eqn:Zx.
  - (* a zero dividend is returned as it is *)
    split; [exact Hx|]. split; [exact Fx|]. split; [reflexivity|].
    assert (f64_mant x = 0).
    { rewrite (is_zero_fields x Hx) in Zx. unfold f64_mant. replace (f64_exp x =? 0) with true by lia. lia. }
    assert (X0 : X = 0) by (unfold X; lia). rewrite X0, Z.mod_0_l by lia. rewrite Rmult_0_l.
    rewrite (fval_mag x Hx Fx). replace (f64_mant x) with 0 by lia. rewrite Rmult_0_l. reflexivity.
  - pose proof (Z.mod_pos_bound X Y HY) as RB. set (R := X mod Y) in *.
    assert (R53 : R < 2 ^ 53).
    { destruct (Z.le_ge_cases (f64_ex x) (f64_ex y)) as [C|C].
      - assert (X = f64_mant x) as XE by (unfold X, e; rewrite Z.min_l by lia; rewrite Z.sub_diag; lia).
        assert (R <= X) by (apply Z.mod_le; lia). lia.
      - assert (Y = f64_mant y) as YE by (unfold Y, e; rewrite Z.min_r by lia; rewrite Z.sub_diag; lia). lia. }
    destruct (Z.eq_dec R 0) as [R0|R0].
    + unfold f64_of_scaled. rewrite R0. cbn [Z.eqb].
      destruct (fval_pack_sub (f64_neg x) 0 ltac:(lia)) as (P1 & P2 & P3 & P4). cbv zeta in P1, P2, P3, P4.
      rewrite Z.add_0_r in *.
      split; [exact P1|]. split; [exact P3|]. split; [exact P2|]. rewrite P4, !Rmult_0_l. reflexivity.
    + destruct (of_scaled_correct (f64_neg x) R e ltac:(lia)) as (P1 & P2 & P3 & _). cbv zeta in P1, P2, P3.
      assert (V : rnd64 (IZR R * bpow radix2 e) = (IZR R * bpow radix2 e)%R)
        by (apply rnd64_exact; unfold e; lia).
      rewrite V in P3. destruct P3 as (P3 & P4).
      { apply (scaled_lt _ _ 53); unfold e; lia. }
      split; [exact P1|]. split; [exact P3|]. split; [exact P2|]. exact P4.
Qed.

Lemma rem_special x y : f64_pat x -> f64_pat y ->
  (f64_is_nan x || f64_is_nan y || (f64_exp x =? 2047) || f64_is_zero y = true -> fl_rem x y = f64_default_nan) /\
  (f64_exp x <> 2047 -> f64_exp y = 2047 -> f64_man y = 0 -> fl_rem x y = x).
Proof.
  intros Hx Hy. unfold fl_rem. rewrite !pat_id by assumption. cbv zeta. split.
  - intros ->. reflexivity.
  - intros Fx Ey My.
    assert (Nx : f64_is_nan x = false) by (apply finite_not_nan; assumption).
    assert (Ny : f64_is_nan y = false) by (unfold f64_is_nan; rewrite My; rewrite Bool.andb_false_r; reflexivity).
    assert (Zy : f64_is_zero y = false) by (rewrite (is_zero_fields y Hy), Ey; reflexivity).
    rewrite Nx, Ny, Zy. replace (f64_exp x =? 2047) with false by lia. rewrite Ey. reflexivity.
Qed.
