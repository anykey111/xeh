(* VmStep.v: a small weakest-precondition calculus for programs of the monad [M],
   used to execute the native words symbolically in CursorProofs.v / PackProofs.v.

   [sim s s'] says that [s'] differs from [s] at most in the data stack, the heap and
   the reverse log; [st s0 s d h] describes an intermediate state [s] reached from [s0]
   by its data stack [d] and heap [h]. *)
From Xeh Require Import Model.Prelude Model.Bits Model.Codec Model.Cell Model.Lexer Model.Fmt
                        Model.Vm Model.Words.
From Coq Require Import ZifyBool ZifyNat ZifyN.
Local Notation length := List.length.

#[local] Arguments Z.add : simpl never.
#[local] Arguments Z.sub : simpl never.
#[local] Arguments Z.mul : simpl never.
#[local] Arguments Z.ltb : simpl never.
#[local] Arguments Z.leb : simpl never.
#[local] Arguments Z.eqb : simpl never.
#[local] Arguments Z.of_nat : simpl never.
#[local] Arguments Z.to_nat : simpl never.

Definition core (s : state) : state := set_rlog (set_heap (set_ds s []) []) None.
Definition sim (s s' : state) : Prop := core s' = core s.

Lemma sim_refl s : sim s s.
Proof. reflexivity. Qed.

Lemma sim_trans a b c : sim a b -> sim b c -> sim a c.
Proof. unfold sim. congruence. Qed.

Lemma sim_sym a b : sim a b -> sim b a.
Proof. unfold sim. congruence. Qed.

Lemma sim_cx s s' : sim s s' -> cx s' = cx s.
Proof. intros H. apply (f_equal cx) in H. exact H. Qed.

Lemma sim_slim s s' : sim s s' -> stack_limit s' = stack_limit s.
Proof. intros H. apply (f_equal stack_limit) in H. exact H. Qed.

Lemma core_add_rstep r s : core (add_rstep r s) = core s.
Proof. unfold add_rstep. destruct (rlog s); reflexivity. Qed.

Lemma ds_add_rstep r s : ds (add_rstep r s) = ds s.
Proof. unfold add_rstep. destruct (rlog s); reflexivity. Qed.

Lemma heap_add_rstep r s : heap (add_rstep r s) = heap s.
Proof. unfold add_rstep. destruct (rlog s); reflexivity. Qed.

Definition notmeta (s : state) : Prop := mode_eqb (cmode (cx s)) MMeta = false.

Lemma sim_notmeta s s' : sim s s' -> notmeta s -> notmeta s'.
Proof. unfold notmeta. intros H. rewrite (sim_cx _ _ H). auto. Qed.

Definition st (s0 s : state) (d h : list cell) : Prop := ds s = d /\ heap s = h /\ sim s0 s.

Lemma st_init s : st s s (ds s) (heap s).
Proof. repeat split. Qed.

Lemma list_set_len {A} : forall (l : list A) i v, length (list_set l i v) = length l.
Proof.
  induction l as [|x r IH]; intros [|i] v; cbn [list_set length]; auto.
Qed.

Lemma nth_list_set_same {A} : forall (l : list A) i v, i < length l ->
  nth_error (list_set l i v) i = Some v.
Proof.
  induction l as [|x r IH]; intros [|i] v H; cbn [length] in H; try lia; cbn [list_set nth_error].
  - reflexivity.
  - apply IH. lia.
Qed.

Lemma nth_list_set_other {A} : forall (l : list A) i j v, i <> j ->
  nth_error (list_set l i v) j = nth_error l j.
Proof.
  induction l as [|x r IH]; intros [|i] [|j] v H; cbn [list_set nth_error]; try reflexivity; try lia.
  apply IH. lia.
Qed.

Definition wp {A} (m : M A) (s : state)
           (Q : A -> state -> Prop) (E : ekind -> option cell -> state -> Prop) (U : Prop) : Prop :=
  match m s with
  | ROk a s' => Q a s'
  | RErr k p s' => E k p s'
  | RPanic => False
  | RUnsup => U
  end.

Lemma wp_ret {A} (a : A) s (Q : _ -> state -> Prop) (E : ekind -> option cell -> state -> Prop) (U : Prop) : Q a s -> wp (ret a) s Q E U.
Proof. auto. Qed.

Lemma wp_fail {A : Type} k p s (Q : A -> state -> Prop) (E : ekind -> option cell -> state -> Prop) (U : Prop) : E k p s -> wp (fail k p) s Q E U.
Proof. auto. Qed.

Lemma wp_unsup {A : Type} s (Q : A -> state -> Prop) (E : ekind -> option cell -> state -> Prop) (U : Prop) : U -> wp unsup s Q E U.
Proof. auto. Qed.

Lemma wp_bind {A B} (m : M A) (f : A -> M B) s (Q : _ -> state -> Prop) (E : ekind -> option cell -> state -> Prop) (U : Prop) :
  wp m s (fun a s1 => wp (f a) s1 Q E U) E U -> wp (bind m f) s Q E U.
Proof.
  unfold wp, bind. destruct (m s); auto.
Qed.

Lemma wp_conseq {A} (m : M A) s (Q Q' : A -> state -> Prop) (E E' : ekind -> option cell -> state -> Prop)
      (U U' : Prop) :
  wp m s Q E U ->
  (forall a s', Q a s' -> Q' a s') -> (forall k p s', E k p s' -> E' k p s') -> (U -> U') ->
  wp m s Q' E' U'.
Proof.
  unfold wp. destruct (m s); auto.
Qed.

Lemma wp_get {B} (k : state -> M B) s (Q : _ -> state -> Prop) (E : ekind -> option cell -> state -> Prop) (U : Prop) : wp (k s) s Q E U -> wp (bind get k) s Q E U.
Proof. auto. Qed.

Lemma wp_pop_data s0 s d h (Q : _ -> state -> Prop) (E : ekind -> option cell -> state -> Prop) (U : Prop) :
  st s0 s d h ->
  (forall c r s', d = c :: r -> st s0 s' r h -> Q c s') ->
  E EUnderflow None s ->
  wp pop_data s Q E U.
Proof.
  intros (Hd & Hh & Hs) HQ HE. unfold wp, pop_data. rewrite Hd.
  destruct d as [|c r]; [exact HE|].
  destruct (ds_len (cx s) <? length (c :: r)); [|exact HE].
  apply (HQ c r); [reflexivity|]. repeat split.
  - rewrite ds_add_rstep. reflexivity.
  - rewrite heap_add_rstep. exact Hh.
  - unfold sim. rewrite core_add_rstep. exact Hs.
Qed.

Lemma wp_push_data c s0 s d h (Q : _ -> state -> Prop) (E : ekind -> option cell -> state -> Prop) (U : Prop) :
  st s0 s d h ->
  (limit_reached (stack_limit s0) (length d) = false -> forall s', st s0 s' (c :: d) h -> Q tt s') ->
  (limit_reached (stack_limit s0) (length d) = true -> E ELimit None s) ->
  wp (push_data c) s Q E U.
Proof.
  intros (Hd & Hh & Hs) HQ HE. unfold wp, push_data.
  rewrite (sim_slim _ _ Hs), Hd.
  destruct (limit_reached (stack_limit s0) (length d)); [auto|].
  apply HQ; [reflexivity|]. repeat split.
  - change (heap (add_rstep RPopData s) = h). rewrite heap_add_rstep. exact Hh.
  - unfold sim. change (core (set_ds (add_rstep RPopData s) (c :: d))) with (core (add_rstep RPopData s)).
    rewrite core_add_rstep. exact Hs.
Qed.

Lemma wp_get_var a c s0 s d h (Q : _ -> state -> Prop) (E : ekind -> option cell -> state -> Prop) (U : Prop) :
  st s0 s d h -> notmeta s0 -> nth_error h a = Some c ->
  Q c s -> wp (get_var a) s Q E U.
Proof.
  intros (Hd & Hh & Hs) Hm Ha HQ. unfold wp, get_var.
  rewrite (sim_notmeta _ _ Hs Hm), Hh, Ha. exact HQ.
Qed.

Lemma wp_set_var a v s0 s d h (Q : _ -> state -> Prop) (E : ekind -> option cell -> state -> Prop) (U : Prop) :
  st s0 s d h -> notmeta s0 -> a < length h ->
  (forall s', st s0 s' d (list_set h a v) -> Q tt s') ->
  wp (set_var a v) s Q E U.
Proof.
  intros (Hd & Hh & Hs) Hm Ha HQ. unfold wp, set_var.
  rewrite (sim_notmeta _ _ Hs Hm), Hh.
  destruct (nth_error h a) as [old|] eqn:En.
  - apply HQ. repeat split.
    + rewrite ds_add_rstep. exact Hd.
    + rewrite heap_add_rstep. cbn [heap set_heap]. reflexivity.
    + unfold sim. rewrite core_add_rstep. exact Hs.
  - apply nth_error_None in En. lia.
Qed.

(* typed accessors *)
Lemma wp_m_bits c s (Q : _ -> state -> Prop) (E : ekind -> option cell -> state -> Prop) (U : Prop) :
  (forall b, value c = CBits b -> Q b s) ->
  ((forall b, value c <> CBits b) -> E EType (Some (value c)) s) ->
  wp (m_bits c) s Q E U.
Proof.
  intros HQ HE. unfold wp, m_bits.
  destruct (value c) eqn:Ev; try (apply HE; intros; discriminate).
  apply HQ. reflexivity.
Qed.

Lemma wp_m_vec c s (Q : _ -> state -> Prop) (E : ekind -> option cell -> state -> Prop) (U : Prop) :
  (forall l, value c = CVec l -> Q l s) ->
  ((forall l, value c <> CVec l) -> E EType (Some (value c)) s) ->
  wp (m_vec c) s Q E U.
Proof.
  intros HQ HE. unfold wp, m_vec.
  destruct (value c) eqn:Ev; try (apply HE; intros; discriminate).
  apply HQ. reflexivity.
Qed.

Lemma wp_m_xint c s (Q : _ -> state -> Prop) (E : ekind -> option cell -> state -> Prop) (U : Prop) :
  (forall z, value c = CInt z -> Q z s) ->
  ((forall z, value c <> CInt z) -> E EType (Some (value c)) s) ->
  wp (m_xint c) s Q E U.
Proof.
  intros HQ HE. unfold wp, m_xint.
  destruct (value c) eqn:Ev; try (apply HE; intros; discriminate).
  apply HQ. reflexivity.
Qed.

Lemma wp_m_real c s (Q : _ -> state -> Prop) (E : ekind -> option cell -> state -> Prop) (U : Prop) :
  (forall z, value c = CReal z -> Q z s) ->
  ((forall z, value c <> CReal z) -> E EType (Some (value c)) s) ->
  wp (m_real c) s Q E U.
Proof.
  intros HQ HE. unfold wp, m_real.
  destruct (value c) eqn:Ev; try (apply HE; intros; discriminate).
  apply HQ. reflexivity.
Qed.

(* [m_usize]: an integer in [0, 2^64), otherwise a type error (not an integer, or negative)
   or an overflow error *)
Definition is_usize (c : cell) (z : Z) : Prop := value c = CInt z /\ (0 <= z < two64)%Z.

Lemma wp_m_usize c s (Q : _ -> state -> Prop) (E : ekind -> option cell -> state -> Prop) (U : Prop) :
  (forall z, is_usize c z -> Q z s) ->
  ((forall z, ~ is_usize c z) -> forall k p, k = EType \/ k = EOverflow -> E k p s) ->
  wp (m_usize c) s Q E U.
Proof.
  intros HQ HE. unfold wp, m_usize.
  destruct (value c) as [| |z| | | | | | | |] eqn:Ev; cbv beta iota delta [fail];
    try (apply HE; [intros z0 [H0 _]; congruence | auto]).
  destruct (Z.ltb_spec z 0); cbv beta iota delta [fail].
  - apply HE; [|auto]. intros z0 [Hz0 Hz1]. assert (z0 = z) by congruence. lia.
  - unfold in_usize. destruct (Z.ltb_spec z two64).
    + replace (0 <=? z)%Z with true by lia. cbn [andb]. apply HQ. split; [exact Ev|lia].
    + replace ((0 <=? z)%Z && false) with false by (destruct (0 <=? z)%Z; reflexivity).
      cbv beta iota delta [fail].
      apply HE; [|auto]. intros z0 [Hz0 Hz1]. assert (z0 = z) by congruence. lia.
Qed.

(* progress forms: the primitives succeed when their side conditions hold *)
Lemma wp_pop_data_ok c r s0 s h (Q : _ -> state -> Prop) (E : ekind -> option cell -> state -> Prop) (U : Prop) :
  st s0 s (c :: r) h -> ds_len (cx s0) < length (c :: r) ->
  (forall s', st s0 s' r h -> Q c s') ->
  wp pop_data s Q E U.
Proof.
  intros (Hd & Hh & Hs) Hlen HQ. unfold wp, pop_data. rewrite Hd, (sim_cx _ _ Hs).
  replace (ds_len (cx s0) <? length (c :: r)) with true by lia.
  apply HQ. repeat split.
  - rewrite ds_add_rstep. reflexivity.
  - rewrite heap_add_rstep. exact Hh.
  - unfold sim. rewrite core_add_rstep. exact Hs.
Qed.

Lemma wp_push_data_ok c s0 s d h (Q : _ -> state -> Prop) (E : ekind -> option cell -> state -> Prop) (U : Prop) :
  st s0 s d h -> limit_reached (stack_limit s0) (length d) = false ->
  (forall s', st s0 s' (c :: d) h -> Q tt s') ->
  wp (push_data c) s Q E U.
Proof.
  intros Hst Hroom HQ. eapply wp_push_data; eauto. intros Hlim. congruence.
Qed.

(* a program that cannot fail returns normally *)
Lemma wp_total {A} (m : M A) s (Q : A -> state -> Prop) :
  wp m s Q (fun _ _ _ => False) False -> exists a s', m s = ROk a s' /\ Q a s'.
Proof. unfold wp. destruct (m s); try contradiction. eauto. Qed.

Lemma st_trans s0 s1 s2 d1 h1 d2 h2 : st s0 s1 d1 h1 -> st s1 s2 d2 h2 -> st s0 s2 d2 h2.
Proof. intros (_ & _ & Hs1) (Hd & Hh & Hs2). repeat split; auto. eapply sim_trans; eauto. Qed.
