(* C09 (IEEE part) - the real-number words are IEEE-754 binary64 arithmetic.
   Props/C09.v shows that on reals every word is exactly the operation of the record [fo : fops];
   this file states what the concrete instance [flocq_fops] of Model/F64.v (the one extracted and
   compared against the implementation) means on REAL NUMBERS: a pattern [p : Z] (64 bits) denotes
   the real [fval p]; + - * / are the correctly rounded (to nearest, ties to even) results,
   overflow gives the infinity of the right sign, NaN / infinite operands follow the IEEE table;
   the integer-arithmetic conversions of Model/F64c.v ARE Flocq's correctly rounded conversions;
   comparison is IEEE comparison; fmod is exact.

   EXCEPTION to the closed-context rule (this file only): the theorems depend on the axioms of
   Flocq / the Coq Reals library and on nothing else -
     Classical_Prop.classic, ClassicalDedekindReals.sig_not_dec,
     ClassicalDedekindReals.sig_forall_dec, FunctionalExtensionality.functional_extensionality_dep
   Print Assumptions, per theorem: "closed" in the comment above a statement = Closed under the
   global context; every other theorem lists exactly these four.  Already the DEFINITIONS
   b64_of_bits, fl_add, fl_sub, fl_mul, fl_div (hence flocq_fops) carry the four, because Flocq's
   operations embed proofs about real numbers; so does every statement that mentions them, even
   when its proof is pure integer reasoning (C09_ieee_compare, C09_ieee_nan_propagates, ...).

   NaN caveat.  IEEE-754 leaves the sign and payload of a NaN RESULT open.  The model (Flocq's
   binary64 with payloads, [binop_nan_pl64]) returns the first NaN operand UNCHANGED (a signalling
   NaN is not quieted) and 0x7ff8000000000000 for an invalid operation; fl_rem returns
   0x7ff8000000000000 for every NaN case.  Hardware differs in exactly these bits (x86-64 SSE:
   0xfff8000000000000 for inf - inf, 0 * inf, 0 / 0, fmod(inf, y); signalling NaNs are quieted).
   What is IEEE-mandated - NaN in, NaN out; invalid operation gives a NaN - is what the theorems
   below should be read as; the exact patterns are statements about the model only. *)
From Coq Require Import ZArith Reals Lia.
From Flocq Require Import Core.Core IEEE754.BinarySingleNaN IEEE754.Binary IEEE754.Bits.
From Xeh Require Import Model.Prelude Model.Bits Model.Cell Model.Vm Model.F64c Model.Words Model.Boot Model.F64.
From Xeh Require Import Proofs.WordRun Proofs.ArithNum Proofs.ArithProofs Proofs.F64cProofs.
From Xeh Require Import Proofs.F64Ieee Proofs.F64IeeeConv Proofs.F64IeeeCmp Proofs.F64IeeeRem.
Local Notation length := List.length.
Local Open Scope Z_scope.

Definition f64_pat (r : Z) : Prop := 0 <= r < 2 ^ 64.
(* the real number denoted by a pattern (0 for infinities and NaN, as Flocq's B2R) *)
Definition fval (p : Z) : R := B2R 53 1024 (b64_of_bits p).
(* rounding to binary64: to nearest, ties to even, gradual underflow (emin = -1074, 53 bits) *)
Definition rnd64 (x : R) : R := round radix2 (FLT_exp (-1074) 53) ZnearestE x.
Definition f64_finite (p : Z) : Prop := f64_exp p <> 2047.
Definition f64_inf (s : bool) : Z := f64_sign_bit s + 2047 * 2 ^ 52.
Definition f64_zero (s : bool) : Z := f64_sign_bit s.
Definition f64_default_nan : Z := 2047 * 2 ^ 52 + 2 ^ 51.
Definition clamp128 (v : Z) : Z := if v <? i128_min then i128_min else if i128_max <? v then i128_max else v.
(* Flocq's correctly rounded conversion of an integer, and its round-half-away / truncation *)
Definition b64_of_Z (z : Z) : binary64 := binary_normalize 53 1024 eq_refl eq_refl mode_NE z 0 false.
Definition b64_round_away (b : binary64) : binary64 := Bnearbyint 53 1024 eq_refl unop_nan_pl64 mode_NA b.

(* the instance: the real operations of the words are fl_* and the conversions of F64c.v *)
Example C09_ieee_instance :
  f_add flocq_fops = fl_add /\ f_sub flocq_fops = fl_sub /\ f_mul flocq_fops = fl_mul /\
  f_div flocq_fops = fl_div /\ f_rem flocq_fops = fl_rem /\ f_min flocq_fops = fl_min /\
  f_max flocq_fops = fl_max /\ f_of_int flocq_fops = f64_of_int /\ f_to_int flocq_fops = f64_to_int /\
  f_round flocq_fops = f64_round.
Proof. repeat split. Qed.

(* 1. bit patterns <-> Flocq floats *)
(* axioms: the four (carried by the DEFINITION of b64_of_bits).  Every one of the 2^64 patterns survives the round trip: NaN payloads and signs are
   preserved (Flocq's binary_float carries the payload; there is no canonical NaN) *)
Theorem C09_ieee_bits_round_trip : forall p, f64_pat p -> bits_of_b64 (b64_of_bits p) = p.
Proof. exact bits_round_trip. Qed.
Check C09_ieee_bits_round_trip : forall p, f64_pat p -> bits_of_b64 (b64_of_bits p) = p.

(* axioms: the four *)
Theorem C09_ieee_b64_round_trip : forall b : binary64,
  b64_of_bits (bits_of_b64 b) = b /\ f64_pat (bits_of_b64 b).
Proof. exact (fun b => conj (b64_round_trip b) (bits_range b)). Qed.
Check C09_ieee_b64_round_trip : forall b : binary64,
  b64_of_bits (bits_of_b64 b) = b /\ f64_pat (bits_of_b64 b).

(* closed.  fl_add .. fl_rem reduce their operands mod 2^64 first; on patterns this is the identity *)
Theorem C09_ieee_pat : forall z, f64_pat (pat z) /\ (f64_pat z -> pat z = z).
Proof. exact (fun z => conj (pat_range z) (pat_id z)). Qed.
Check C09_ieee_pat : forall z, f64_pat (pat z) /\ (f64_pat z -> pat z = z).

(* axioms: the four.  A NaN pattern is the Flocq NaN with the same sign and the same payload *)
Theorem C09_ieee_nan_payload : forall p, f64_pat p -> f64_is_nan p = true ->
  exists H, b64_of_bits p = B754_nan 53 1024 (f64_neg p) (Z.to_pos (f64_man p)) H.
Proof. exact nan_payload. Qed.
Check C09_ieee_nan_payload : forall p, f64_pat p -> f64_is_nan p = true ->
  exists H, b64_of_bits p = B754_nan 53 1024 (f64_neg p) (Z.to_pos (f64_man p)) H.

(* axioms: classic, sig_not_dec, sig_forall_dec, functional_extensionality_dep (through R).
   The fields the model reads (Cell.v: f64_exp f64_man f64_neg f64_is_nan; F64c.v: f64_mant f64_ex)
   are the class, sign and value of the Flocq float:
   value = (-1)^sign * mant * 2^ex for a finite pattern *)
Theorem C09_ieee_fields : forall p, f64_pat p ->
  is_nan 53 1024 (b64_of_bits p) = f64_is_nan p /\
  is_finite 53 1024 (b64_of_bits p) = negb (f64_exp p =? 2047) /\
  Bsign 53 1024 (b64_of_bits p) = f64_neg p /\
  (f64_finite p -> fval p = F2R (Float radix2 (cond_Zopp (f64_neg p) (f64_mant p)) (f64_ex p))) /\
  (f64_exp p = 2047 -> fval p = 0%R).
Proof. exact fields_summary. Qed.
Check C09_ieee_fields : forall p, f64_pat p ->
  is_nan 53 1024 (b64_of_bits p) = f64_is_nan p /\
  is_finite 53 1024 (b64_of_bits p) = negb (f64_exp p =? 2047) /\
  Bsign 53 1024 (b64_of_bits p) = f64_neg p /\
  (f64_finite p -> fval p = F2R (Float radix2 (cond_Zopp (f64_neg p) (f64_mant p)) (f64_ex p))) /\
  (f64_exp p = 2047 -> fval p = 0%R).

(* axioms: the four.  Zero test on a finite pattern *)
Theorem C09_ieee_zero : forall p, f64_pat p -> f64_finite p -> (fval p = 0%R <-> f64_is_zero p = true).
Proof. exact fval_zero_iff. Qed.
Check C09_ieee_zero : forall p, f64_pat p -> f64_finite p -> (fval p = 0%R <-> f64_is_zero p = true).

(* 2. + - * / are correctly rounded *)
(* axioms: the four (all theorems of this section).
   Finite operands.  If the rounded exact sum stays below 2^1024 the result is finite and IS the
   rounded exact sum, with the IEEE sign of a zero sum (+0 unless both operands are negative);
   otherwise it is the infinity with the sign of the operands *)
Theorem C09_ieee_add : forall x y, f64_pat x -> f64_pat y -> f64_finite x -> f64_finite y ->
  ((Rabs (rnd64 (fval x + fval y)) < bpow radix2 1024)%R ->
     fval (fl_add x y) = rnd64 (fval x + fval y) /\ f64_finite (fl_add x y) /\
     f64_neg (fl_add x y) = match Rcompare (fval x + fval y) 0 with
                            | Eq => f64_neg x && f64_neg y | Lt => true | Gt => false end) /\
  ((bpow radix2 1024 <= Rabs (rnd64 (fval x + fval y)))%R ->
     fl_add x y = f64_inf (f64_neg x) /\ f64_neg x = f64_neg y).
Proof. exact add_correct. Qed.
Check C09_ieee_add : forall x y, f64_pat x -> f64_pat y -> f64_finite x -> f64_finite y ->
  ((Rabs (rnd64 (fval x + fval y)) < bpow radix2 1024)%R ->
     fval (fl_add x y) = rnd64 (fval x + fval y) /\ f64_finite (fl_add x y) /\
     f64_neg (fl_add x y) = match Rcompare (fval x + fval y) 0 with
                            | Eq => f64_neg x && f64_neg y | Lt => true | Gt => false end) /\
  ((bpow radix2 1024 <= Rabs (rnd64 (fval x + fval y)))%R ->
     fl_add x y = f64_inf (f64_neg x) /\ f64_neg x = f64_neg y).

Theorem C09_ieee_sub : forall x y, f64_pat x -> f64_pat y -> f64_finite x -> f64_finite y ->
  ((Rabs (rnd64 (fval x - fval y)) < bpow radix2 1024)%R ->
     fval (fl_sub x y) = rnd64 (fval x - fval y) /\ f64_finite (fl_sub x y) /\
     f64_neg (fl_sub x y) = match Rcompare (fval x - fval y) 0 with
                            | Eq => f64_neg x && negb (f64_neg y) | Lt => true | Gt => false end) /\
  ((bpow radix2 1024 <= Rabs (rnd64 (fval x - fval y)))%R ->
     fl_sub x y = f64_inf (f64_neg x) /\ f64_neg x = negb (f64_neg y)).
Proof. exact sub_correct. Qed.
Check C09_ieee_sub : forall x y, f64_pat x -> f64_pat y -> f64_finite x -> f64_finite y ->
  ((Rabs (rnd64 (fval x - fval y)) < bpow radix2 1024)%R ->
     fval (fl_sub x y) = rnd64 (fval x - fval y) /\ f64_finite (fl_sub x y) /\
     f64_neg (fl_sub x y) = match Rcompare (fval x - fval y) 0 with
                            | Eq => f64_neg x && negb (f64_neg y) | Lt => true | Gt => false end) /\
  ((bpow radix2 1024 <= Rabs (rnd64 (fval x - fval y)))%R ->
     fl_sub x y = f64_inf (f64_neg x) /\ f64_neg x = negb (f64_neg y)).

Theorem C09_ieee_mul : forall x y, f64_pat x -> f64_pat y -> f64_finite x -> f64_finite y ->
  ((Rabs (rnd64 (fval x * fval y)) < bpow radix2 1024)%R ->
     fval (fl_mul x y) = rnd64 (fval x * fval y) /\ f64_finite (fl_mul x y) /\
     f64_neg (fl_mul x y) = xorb (f64_neg x) (f64_neg y)) /\
  ((bpow radix2 1024 <= Rabs (rnd64 (fval x * fval y)))%R ->
     fl_mul x y = f64_inf (xorb (f64_neg x) (f64_neg y))).
Proof. exact mul_correct. Qed.
Check C09_ieee_mul : forall x y, f64_pat x -> f64_pat y -> f64_finite x -> f64_finite y ->
  ((Rabs (rnd64 (fval x * fval y)) < bpow radix2 1024)%R ->
     fval (fl_mul x y) = rnd64 (fval x * fval y) /\ f64_finite (fl_mul x y) /\
     f64_neg (fl_mul x y) = xorb (f64_neg x) (f64_neg y)) /\
  ((bpow radix2 1024 <= Rabs (rnd64 (fval x * fval y)))%R ->
     fl_mul x y = f64_inf (xorb (f64_neg x) (f64_neg y))).

(* the divisor is a non-zero finite number *)
Theorem C09_ieee_div : forall x y, f64_pat x -> f64_pat y -> f64_finite x -> f64_finite y -> fval y <> 0%R ->
  ((Rabs (rnd64 (fval x / fval y)) < bpow radix2 1024)%R ->
     fval (fl_div x y) = rnd64 (fval x / fval y) /\ f64_finite (fl_div x y) /\
     f64_neg (fl_div x y) = xorb (f64_neg x) (f64_neg y)) /\
  ((bpow radix2 1024 <= Rabs (rnd64 (fval x / fval y)))%R ->
     fl_div x y = f64_inf (xorb (f64_neg x) (f64_neg y))).
Proof. exact div_correct. Qed.
Check C09_ieee_div : forall x y, f64_pat x -> f64_pat y -> f64_finite x -> f64_finite y -> fval y <> 0%R ->
  ((Rabs (rnd64 (fval x / fval y)) < bpow radix2 1024)%R ->
     fval (fl_div x y) = rnd64 (fval x / fval y) /\ f64_finite (fl_div x y) /\
     f64_neg (fl_div x y) = xorb (f64_neg x) (f64_neg y)) /\
  ((bpow radix2 1024 <= Rabs (rnd64 (fval x / fval y)))%R ->
     fl_div x y = f64_inf (xorb (f64_neg x) (f64_neg y))).

(* NaN in, NaN out: the first NaN operand, unchanged (see the caveat at the top) *)
Theorem C09_ieee_nan_propagates : forall x y, f64_pat x -> f64_pat y -> f64_is_nan x || f64_is_nan y = true ->
  let r := if f64_is_nan x then x else y in
  fl_add x y = r /\ fl_sub x y = r /\ fl_mul x y = r /\ fl_div x y = r.
Proof. exact nan_propagates. Qed.
Check C09_ieee_nan_propagates : forall x y, f64_pat x -> f64_pat y -> f64_is_nan x || f64_is_nan y = true ->
  let r := if f64_is_nan x then x else y in
  fl_add x y = r /\ fl_sub x y = r /\ fl_mul x y = r /\ fl_div x y = r.

(* The invalid operations: inf + (-inf), inf - inf, inf * 0, 0 * inf, 0 / 0, inf / inf
   give a NaN (the model's default quiet NaN 0x7ff8000000000000) *)
Theorem C09_ieee_invalid_operations : forall s t,
  fl_add (f64_inf s) (f64_inf (negb s)) = f64_default_nan /\
  fl_sub (f64_inf s) (f64_inf s) = f64_default_nan /\
  fl_mul (f64_inf s) (f64_zero t) = f64_default_nan /\
  fl_mul (f64_zero t) (f64_inf s) = f64_default_nan /\
  fl_div (f64_zero s) (f64_zero t) = f64_default_nan /\
  fl_div (f64_inf s) (f64_inf t) = f64_default_nan.
Proof. destruct s, t; vm_compute; repeat split. Qed.
Check C09_ieee_invalid_operations : forall s t,
  fl_add (f64_inf s) (f64_inf (negb s)) = f64_default_nan /\
  fl_sub (f64_inf s) (f64_inf s) = f64_default_nan /\
  fl_mul (f64_inf s) (f64_zero t) = f64_default_nan /\
  fl_mul (f64_zero t) (f64_inf s) = f64_default_nan /\
  fl_div (f64_zero s) (f64_zero t) = f64_default_nan /\
  fl_div (f64_inf s) (f64_inf t) = f64_default_nan.

(* An infinity with a finite operand y (for * : y non-zero) *)
Theorem C09_ieee_infinite_operand : forall s y, f64_pat y -> f64_finite y ->
  fl_add (f64_inf s) y = f64_inf s /\ fl_add y (f64_inf s) = f64_inf s /\
  fl_sub (f64_inf s) y = f64_inf s /\ fl_sub y (f64_inf s) = f64_inf (negb s) /\
  fl_div (f64_inf s) y = f64_inf (xorb s (f64_neg y)) /\
  fl_div y (f64_inf s) = f64_zero (xorb (f64_neg y) s) /\
  (f64_is_zero y = false ->
   fl_mul (f64_inf s) y = f64_inf (xorb s (f64_neg y)) /\ fl_mul y (f64_inf s) = f64_inf (xorb (f64_neg y) s)).
Proof. exact inf_ops. Qed.
Check C09_ieee_infinite_operand : forall s y, f64_pat y -> f64_finite y ->
  fl_add (f64_inf s) y = f64_inf s /\ fl_add y (f64_inf s) = f64_inf s /\
  fl_sub (f64_inf s) y = f64_inf s /\ fl_sub y (f64_inf s) = f64_inf (negb s) /\
  fl_div (f64_inf s) y = f64_inf (xorb s (f64_neg y)) /\
  fl_div y (f64_inf s) = f64_zero (xorb (f64_neg y) s) /\
  (f64_is_zero y = false ->
   fl_mul (f64_inf s) y = f64_inf (xorb s (f64_neg y)) /\ fl_mul y (f64_inf s) = f64_inf (xorb (f64_neg y) s)).

Theorem C09_ieee_two_infinities : forall s t,
  fl_add (f64_inf s) (f64_inf s) = f64_inf s /\ fl_sub (f64_inf s) (f64_inf (negb s)) = f64_inf s /\
  fl_mul (f64_inf s) (f64_inf t) = f64_inf (xorb s t).
Proof. destruct s, t; vm_compute; repeat split. Qed.
Check C09_ieee_two_infinities : forall s t,
  fl_add (f64_inf s) (f64_inf s) = f64_inf s /\ fl_sub (f64_inf s) (f64_inf (negb s)) = f64_inf s /\
  fl_mul (f64_inf s) (f64_inf t) = f64_inf (xorb s t).

(* The OPERATION x / 0 for a non-zero finite x is the infinity with the xor of the signs
   (the IEEE divide-by-zero result) ... *)
Theorem C09_ieee_div_by_zero : forall x y, f64_pat x -> f64_pat y -> f64_finite x ->
  f64_is_zero x = false -> f64_is_zero y = true ->
  fl_div x y = f64_inf (xorb (f64_neg x) (f64_neg y)).
Proof. exact div_by_zero. Qed.
Check C09_ieee_div_by_zero : forall x y, f64_pat x -> f64_pat y -> f64_finite x ->
  f64_is_zero x = false -> f64_is_zero y = true ->
  fl_div x y = f64_inf (xorb (f64_neg x) (f64_neg y)).

(* ... but the WORD / never gets there: a zero divisor (either sign) is a division error
   before the operation is reached; otherwise the word is fl_div (C09_div_real at flocq_fops) *)
Theorem C09_ieee_div_word : forall s a b rest x y,
  args2 s a b rest -> room s rest -> value a = CReal x -> value b = CReal y ->
  w_div flocq_fops s = if f64_is_zero y then err2 s a b rest EDivZero None
                       else ok2 s a b rest (CReal (fl_div x y)).
Proof. exact (div_real flocq_fops). Qed.
Check C09_ieee_div_word : forall s a b rest x y,
  args2 s a b rest -> room s rest -> value a = CReal x -> value b = CReal y ->
  w_div flocq_fops s = if f64_is_zero y then err2 s a b rest EDivZero None
                       else ok2 s a b rest (CReal (fl_div x y)).

(* The other words at flocq_fops *)
Theorem C09_ieee_words : forall s a b rest x y,
  args2 s a b rest -> room s rest -> value a = CReal x -> value b = CReal y ->
  w_add flocq_fops s = ok2 s a b rest (CReal (fl_add x y)) /\
  w_sub flocq_fops s = ok2 s a b rest (CReal (fl_sub x y)) /\
  w_mul flocq_fops s = ok2 s a b rest (CReal (fl_mul x y)) /\
  w_rem flocq_fops s = ok2 s a b rest (CReal (fl_rem x y)) /\
  w_min flocq_fops s = ok2 s a b rest (CReal (fl_min x y)) /\
  w_max flocq_fops s = ok2 s a b rest (CReal (fl_max x y)).
Proof.
  exact (fun s a b rest x y A R Va Vb =>
    conj (arith_real_rr _ _ s a b rest x y A R Va Vb)
   (conj (arith_real_rr _ _ s a b rest x y A R Va Vb)
   (conj (arith_real_rr _ _ s a b rest x y A R Va Vb)
   (conj (arith_real_rr _ _ s a b rest x y A R Va Vb)
   (conj (arith_real_rr _ _ s a b rest x y A R Va Vb)
         (arith_real_rr _ _ s a b rest x y A R Va Vb)))))).
Qed.
Check C09_ieee_words : forall s a b rest x y,
  args2 s a b rest -> room s rest -> value a = CReal x -> value b = CReal y ->
  w_add flocq_fops s = ok2 s a b rest (CReal (fl_add x y)) /\
  w_sub flocq_fops s = ok2 s a b rest (CReal (fl_sub x y)) /\
  w_mul flocq_fops s = ok2 s a b rest (CReal (fl_mul x y)) /\
  w_rem flocq_fops s = ok2 s a b rest (CReal (fl_rem x y)) /\
  w_min flocq_fops s = ok2 s a b rest (CReal (fl_min x y)) /\
  w_max flocq_fops s = ok2 s a b rest (CReal (fl_max x y)).

(* 3. the conversions agree with Flocq *)
(* axioms: the four.  i128 -> f64 in integer arithmetic (bit length, shift, round half to even)
   IS Flocq's correctly rounded conversion, for every |z| < 2^1023 (the i128 range and far beyond;
   f64_of_mag has no overflow branch, see C09_ieee_of_int_range_needed) *)
Theorem C09_ieee_of_int_flocq : forall z, Z.abs z < 2 ^ 1023 -> f64_of_int z = bits_of_b64 (b64_of_Z z).
Proof. exact f64_of_int_flocq. Qed.
Check C09_ieee_of_int_flocq : forall z, Z.abs z < 2 ^ 1023 -> f64_of_int z = bits_of_b64 (b64_of_Z z).

(* axioms: the four.  Its value is the integer rounded to nearest even; finite; sign of z *)
Theorem C09_ieee_of_int_value : forall z, Z.abs z < 2 ^ 1023 ->
  fval (f64_of_int z) = rnd64 (IZR z) /\ f64_finite (f64_of_int z) /\ f64_neg (f64_of_int z) = (z <? 0) /\
  f64_pat (f64_of_int z).
Proof. exact fval_of_int. Qed.
Check C09_ieee_of_int_value : forall z, Z.abs z < 2 ^ 1023 ->
  fval (f64_of_int z) = rnd64 (IZR z) /\ f64_finite (f64_of_int z) /\ f64_neg (f64_of_int z) = (z <? 0) /\
  f64_pat (f64_of_int z).

(* axioms: the four.  Exact whenever the integer has at most 53 significant bits
   (k = 0: every |z| < 2^53; m = 1: every power of two) *)
Theorem C09_ieee_of_int_exact : forall m k, Z.abs m < 2 ^ 53 -> 0 <= k -> Z.abs (m * 2 ^ k) < 2 ^ 1023 ->
  fval (f64_of_int (m * 2 ^ k)) = IZR (m * 2 ^ k).
Proof. exact of_int_exact. Qed.
Check C09_ieee_of_int_exact : forall m k, Z.abs m < 2 ^ 53 -> 0 <= k -> Z.abs (m * 2 ^ k) < 2 ^ 1023 ->
  fval (f64_of_int (m * 2 ^ k)) = IZR (m * 2 ^ k).

(* axioms: the four.  f64 -> i128: NaN gives 0, an infinity saturates, a finite value is truncated
   toward zero and saturated to the i128 range *)
Theorem C09_ieee_to_int : forall p, f64_pat p ->
  f64_to_int p =
  if f64_is_nan p then 0
  else if f64_exp p =? 2047 then (if f64_neg p then i128_min else i128_max)
  else clamp128 (Ztrunc (fval p)).
Proof. exact to_int_correct. Qed.
Check C09_ieee_to_int : forall p, f64_pat p ->
  f64_to_int p =
  if f64_is_nan p then 0
  else if f64_exp p =? 2047 then (if f64_neg p then i128_min else i128_max)
  else clamp128 (Ztrunc (fval p)).

(* axioms: the four.  The same with Flocq's Btrunc *)
Theorem C09_ieee_to_int_flocq : forall p, f64_pat p -> f64_finite p ->
  f64_to_int p = clamp128 (Btrunc 53 1024 (b64_of_bits p)).
Proof.
  intros p Hp E. rewrite (to_int_correct p Hp), (finite_not_nan p E).
  replace (f64_exp p =? 2047) with false by (symmetry; apply Z.eqb_neq, E).
  replace (Btrunc 53 1024 (b64_of_bits p)) with (Ztrunc (fval p)); [reflexivity|].
  apply eq_IZR. rewrite Btrunc_correct by reflexivity. symmetry. apply round_FIX.
Qed.
Check C09_ieee_to_int_flocq : forall p, f64_pat p -> f64_finite p ->
  f64_to_int p = clamp128 (Btrunc 53 1024 (b64_of_bits p)).

(* axioms: the four.  round: the nearest integer, halves away from zero (ZnearestA), the sign is
   kept (so -0.4 rounds to -0), the result is finite *)
Theorem C09_ieee_round : forall p, f64_pat p -> f64_finite p ->
  let r := f64_round p in
  f64_pat r /\ f64_finite r /\ f64_neg r = f64_neg p /\ fval r = IZR (ZnearestA (fval p)).
Proof. exact round_correct. Qed.
Check C09_ieee_round : forall p, f64_pat p -> f64_finite p ->
  let r := f64_round p in
  f64_pat r /\ f64_finite r /\ f64_neg r = f64_neg p /\ fval r = IZR (ZnearestA (fval p)).

(* closed.  Infinities and NaN are returned unchanged *)
Theorem C09_ieee_round_nonfinite : forall p, f64_exp p = 2047 -> f64_round p = p.
Proof. exact round_nonfinite. Qed.
Check C09_ieee_round_nonfinite : forall p, f64_exp p = 2047 -> f64_round p = p.

(* axioms: the four.  On EVERY pattern round is Flocq's Bnearbyint in mode_NA *)
Theorem C09_ieee_round_flocq : forall p, f64_pat p -> f64_round p = bits_of_b64 (b64_round_away (b64_of_bits p)).
Proof. exact round_flocq. Qed.
Check C09_ieee_round_flocq : forall p, f64_pat p -> f64_round p = bits_of_b64 (b64_round_away (b64_of_bits p)).

(* 4. comparisons *)
(* axioms: the four (through b64_of_bits; the proof itself is integer reasoning).
   The partial comparison of the model (order of the sign-magnitude key, None on NaN)
   IS Flocq's IEEE comparison, on all patterns: -0 = +0, -inf < finite < +inf, NaN unordered *)
Theorem C09_ieee_compare : forall p q, f64_pat p -> f64_pat q ->
  f64_pcmp p q = b64_compare (b64_of_bits p) (b64_of_bits q).
Proof. exact pcmp_flocq. Qed.
Check C09_ieee_compare : forall p q, f64_pat p -> f64_pat q ->
  f64_pcmp p q = b64_compare (b64_of_bits p) (b64_of_bits q).

(* axioms: the four.  On finite operands it is the order of the real values *)
Theorem C09_ieee_compare_finite : forall p q, f64_pat p -> f64_pat q -> f64_finite p -> f64_finite q ->
  f64_pcmp p q = Some (Rcompare (fval p) (fval q)) /\
  (f64_key p ?= f64_key q) = Rcompare (fval p) (fval q).
Proof. exact pcmp_real. Qed.
Check C09_ieee_compare_finite : forall p q, f64_pat p -> f64_pat q -> f64_finite p -> f64_finite q ->
  f64_pcmp p q = Some (Rcompare (fval p) (fval q)) /\
  (f64_key p ?= f64_key q) = Rcompare (fval p) (fval q).

(* axioms: the four.  Hence the six comparison words on finite reals (f = is_lt .. is_ne) *)
Theorem C09_ieee_cmp_word : forall f s a b rest x y,
  args2 s a b rest -> room s rest -> value a = CReal x -> value b = CReal y ->
  f64_pat x -> f64_pat y -> f64_finite x -> f64_finite y ->
  w_cmp f s = ok2 s a b rest (CFlag (f (Rcompare (fval x) (fval y)))).
Proof.
  intros f s a b rest x y A R Va Vb Hx Hy Fx Fy.
  destruct (pcmp_real x y Hx Hy Fx Fy) as (_ & K). unfold fval. rewrite <- K.
  apply cmp_real; try assumption; apply finite_not_nan; assumption.
Qed.
Check C09_ieee_cmp_word : forall f s a b rest x y,
  args2 s a b rest -> room s rest -> value a = CReal x -> value b = CReal y ->
  f64_pat x -> f64_pat y -> f64_finite x -> f64_finite y ->
  w_cmp f s = ok2 s a b rest (CFlag (f (Rcompare (fval x) (fval y)))).

(* closed.  The two zeros are equal; the infinities bound every non-NaN pattern *)
Theorem C09_ieee_zeros_and_infinities : forall p, f64_pat p -> f64_is_nan p = false ->
  (forall s, f64_key (f64_zero s) = 0) /\
  f64_key (f64_inf true) <= f64_key p <= f64_key (f64_inf false) /\
  (f64_finite p -> f64_key (f64_inf true) < f64_key p < f64_key (f64_inf false)).
Proof. exact (fun p Hp N => conj key_zero (key_bounds p Hp N)). Qed.
Check C09_ieee_zeros_and_infinities : forall p, f64_pat p -> f64_is_nan p = false ->
  (forall s, f64_key (f64_zero s) = 0) /\
  f64_key (f64_inf true) <= f64_key p <= f64_key (f64_inf false) /\
  (f64_finite p -> f64_key (f64_inf true) < f64_key p < f64_key (f64_inf false)).

(* closed.  Unordered operands (the property leaves the result open): the model and the
   implementation treat them as EQUAL - so == <= >= answer true and < > <> answer false on a NaN,
   whereas IEEE's == is false and <> is true on unordered operands *)
Theorem C09_ieee_compare_unordered : forall f s a b rest x y,
  (f64_pcmp x y = None <-> f64_is_nan x || f64_is_nan y = true) /\
  (args2 s a b rest -> room s rest -> value a = CReal x -> value b = CReal y ->
   f64_is_nan x || f64_is_nan y = true ->
   w_cmp f s = ok2 s a b rest (CFlag (f Eq))).
Proof.
  intros f s a b rest x y. split; [apply pcmp_none|]. intros A R Va Vb N.
  rewrite (cmp_real_gen f s a b rest x y A R Va Vb). unfold f64_pcmp. rewrite N. reflexivity.
Qed.
Check C09_ieee_compare_unordered : forall f s a b rest x y,
  (f64_pcmp x y = None <-> f64_is_nan x || f64_is_nan y = true) /\
  (args2 s a b rest -> room s rest -> value a = CReal x -> value b = CReal y ->
   f64_is_nan x || f64_is_nan y = true ->
   w_cmp f s = ok2 s a b rest (CFlag (f Eq))).

(* axioms: the four.  zero? positive? negative? on a finite real *)
Theorem C09_ieee_sign_tests : forall r, f64_pat r -> f64_finite r ->
  f64_is_zero r = Req_bool (fval r) 0 /\ f64_pos r = Rlt_bool 0 (fval r) /\ f64_negv r = Rlt_bool (fval r) 0.
Proof. exact sign_tests_real_value. Qed.
Check C09_ieee_sign_tests : forall r, f64_pat r -> f64_finite r ->
  f64_is_zero r = Req_bool (fval r) 0 /\ f64_pos r = Rlt_bool 0 (fval r) /\ f64_negv r = Rlt_bool (fval r) 0.

(* closed (the NaN part) / axioms: the four (the value part).  min max: a NaN operand is ignored (f64::min / f64::max); on finite
   operands the result is one of the operands and has the smaller / larger value (for -0 and +0
   either may be returned: the values are equal) *)
Theorem C09_ieee_minmax_nan : forall x y,
  (f64_is_nan x = true -> fl_min x y = y /\ fl_max x y = y) /\
  (f64_is_nan x = false -> f64_is_nan y = true -> fl_min x y = x /\ fl_max x y = x).
Proof. intros x y. unfold fl_min, fl_max. split; [intros ->|intros -> ->]; split; reflexivity. Qed.
Check C09_ieee_minmax_nan : forall x y,
  (f64_is_nan x = true -> fl_min x y = y /\ fl_max x y = y) /\
  (f64_is_nan x = false -> f64_is_nan y = true -> fl_min x y = x /\ fl_max x y = x).

Theorem C09_ieee_minmax : forall x y, f64_pat x -> f64_pat y -> f64_finite x -> f64_finite y ->
  (fl_min x y = x \/ fl_min x y = y) /\ (fl_max x y = x \/ fl_max x y = y) /\
  fval (fl_min x y) = Rmin (fval x) (fval y) /\ fval (fl_max x y) = Rmax (fval x) (fval y).
Proof. exact minmax_real. Qed.
Check C09_ieee_minmax : forall x y, f64_pat x -> f64_pat y -> f64_finite x -> f64_finite y ->
  (fl_min x y = x \/ fl_min x y = y) /\ (fl_max x y = x \/ fl_max x y = y) /\
  fval (fl_min x y) = Rmin (fval x) (fval y) /\ fval (fl_max x y) = Rmax (fval x) (fval y).

(* 5. rem on reals is fmod, exact *)
(* axioms: the four.  Finite x, finite non-zero y: x - trunc(x / y) * y with NO rounding, finite,
   with the sign of x (also when the result is zero) *)
Theorem C09_ieee_rem : forall x y, f64_pat x -> f64_pat y -> f64_finite x -> f64_finite y -> f64_is_zero y = false ->
  let r := fl_rem x y in
  f64_pat r /\ f64_finite r /\ f64_neg r = f64_neg x /\
  fval r = (fval x - IZR (Ztrunc (fval x / fval y)) * fval y)%R.
Proof. exact rem_correct. Qed.
Check C09_ieee_rem : forall x y, f64_pat x -> f64_pat y -> f64_finite x -> f64_finite y -> f64_is_zero y = false ->
  let r := fl_rem x y in
  f64_pat r /\ f64_finite r /\ f64_neg r = f64_neg x /\
  fval r = (fval x - IZR (Ztrunc (fval x / fval y)) * fval y)%R.

(* closed.  NaN operand, infinite x or zero y: a NaN (the default one; payloads are NOT propagated);
   finite x and infinite y: x.  The WORD rem does not raise a division error on reals
   (C09_rem_real): x 0.0 rem is NaN *)
Theorem C09_ieee_rem_special : forall x y, f64_pat x -> f64_pat y ->
  (f64_is_nan x || f64_is_nan y || (f64_exp x =? 2047) || f64_is_zero y = true -> fl_rem x y = f64_default_nan) /\
  (f64_finite x -> f64_exp y = 2047 -> f64_man y = 0 -> fl_rem x y = x).
Proof. exact rem_special. Qed.
Check C09_ieee_rem_special : forall x y, f64_pat x -> f64_pat y ->
  (f64_is_nan x || f64_is_nan y || (f64_exp x =? 2047) || f64_is_zero y = true -> fl_rem x y = f64_default_nan) /\
  (f64_finite x -> f64_exp y = 2047 -> f64_man y = 0 -> fl_rem x y = x).

(* axioms: the four.  The packing function used by fl_rem: m * 2^e (m > 0) correctly rounded,
   infinity on overflow (fl_rem only uses it on exactly representable values) *)
Theorem C09_ieee_of_scaled : forall neg m e, 0 < m ->
  let p := f64_of_scaled neg m e in
  let v := rnd64 (IZR m * bpow radix2 e) in
  f64_pat p /\ f64_neg p = neg /\
  ((v < bpow radix2 1024)%R -> f64_finite p /\ fval p = cond_Ropp neg v) /\
  ((bpow radix2 1024 <= v)%R -> p = f64_inf neg).
Proof. exact of_scaled_correct. Qed.
Check C09_ieee_of_scaled : forall neg m e, 0 < m ->
  let p := f64_of_scaled neg m e in
  let v := rnd64 (IZR m * bpow radix2 e) in
  f64_pat p /\ f64_neg p = neg /\
  ((v < bpow radix2 1024)%R -> f64_finite p /\ fval p = cond_Ropp neg v) /\
  ((bpow radix2 1024 <= v)%R -> p = f64_inf neg).

(* concrete values (vm_compute) *)
(* 1.5 + 2.25 = 3.75; 0.1 + 0.2 = 0.30000000000000004; 1 / 3; DBL_MAX + DBL_MAX = +inf;
   the smallest subnormal times 0.5 underflows to +0 (tie to even) *)
Example C09_ieee_values_arith :
  fl_add 0x3ff8000000000000 0x4002000000000000 = 0x400e000000000000 /\
  fl_add 0x3fb999999999999a 0x3fc999999999999a = 0x3fd3333333333334 /\
  fl_div 0x3ff0000000000000 0x4008000000000000 = 0x3fd5555555555555 /\
  fl_add 0x7fefffffffffffff 0x7fefffffffffffff = f64_inf false /\
  fl_mul 0x0000000000000001 0x3fe0000000000000 = f64_zero false /\
  fl_sub 0x3ff0000000000000 0x3ff0000000000000 = f64_zero false.
Proof. vm_compute. repeat split. Qed.

(* 2^53 + 1 -> 2^53 (tie to even), 2^53 + 3 -> 2^53 + 4; -2.5 >int = -2; round 2.5 = 3, round -0.5 = -1,
   round 0.49999999999999994 = 0; 5.5 rem 2 = 1.5, -5.5 rem 2 = -1.5 *)
Example C09_ieee_values_conv :
  f64_of_int (2 ^ 53 + 1) = 0x4340000000000000 /\ f64_of_int (2 ^ 53 + 3) = 0x4340000000000002 /\
  f64_of_int i128_max = 0x47e0000000000000 /\ f64_of_int i128_min = 0xc7e0000000000000 /\
  f64_to_int 0xc004000000000000 = -2 /\ f64_to_int (f64_inf true) = i128_min /\
  f64_to_int 0x47e0000000000000 = i128_max /\
  f64_round 0x4004000000000000 = 0x4008000000000000 /\ f64_round 0xbfe0000000000000 = 0xbff0000000000000 /\
  f64_round 0x3fdfffffffffffff = 0 /\
  fl_rem 0x4016000000000000 0x4000000000000000 = 0x3ff8000000000000 /\
  fl_rem 0xc016000000000000 0x4000000000000000 = 0xbff8000000000000.
Proof. vm_compute. repeat split. Qed.

(* the model keeps a signalling NaN as it is (hardware quiets it: 0x7ff8000000000001) *)
Example C09_ieee_snan_not_quieted :
  fl_add 0x7ff0000000000001 0x3ff0000000000000 = 0x7ff0000000000001 /\
  f64_round 0x7ff0000000000001 = 0x7ff0000000000001.
Proof. vm_compute. split; reflexivity. Qed.

(* the range hypothesis of C09_ieee_of_int_flocq cannot be dropped altogether: f64_of_mag has no
   overflow branch (2^1024 happens to give +inf, 2^1025 gives -0); integers of the language are i128 *)
Example C09_ieee_of_int_range_needed :
  f64_of_int (2 ^ 1024) = f64_inf false /\ f64_of_int (2 ^ 1025) = f64_zero true.
Proof. vm_compute. split; reflexivity. Qed.

(* the hypotheses are satisfiable: 1.5 + 2.25 does not overflow, DBL_MAX + DBL_MAX does *)
Example C09_ieee_nonvacuous :
  let a := 0x3ff8000000000000 in let b := 0x4002000000000000 in let m := 0x7fefffffffffffff in
  f64_pat a /\ f64_pat b /\ f64_pat m /\ f64_finite a /\ f64_finite b /\ f64_finite m /\
  (Rabs (rnd64 (fval a + fval b)) < bpow radix2 1024)%R /\
  (bpow radix2 1024 <= Rabs (rnd64 (fval m + fval m)))%R.
Proof. exact nonvacuous_add. Qed.
