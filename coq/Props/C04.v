(* C04 - bit-string operations depend only on the bit sequence, never on how it
   is stored.  Property theorems only: each is a lemma proved in Proofs/ or follows from
   one in a few lines.  [wf c] admits ANY representation: any offset, any slack after the
   range, any stale bits outside it; [u] is the answer of Rc::strong_count == 1,
   so both values cover "whatever the value's history". *)
From Xeh Require Import Model.Prelude Model.Bits Proofs.BitsBasic Proofs.BitsProofs.
From Xeh Require Proofs.BitsDetach.



Theorem C04_bits : forall c, wf c -> bits c = map b2n (abs c).
Proof. exact BitsMirror.bits_spec. Qed.
Check C04_bits : forall c, wf c -> bits c = map b2n (abs c).

Theorem C04_iter8 : forall c, wf c -> iter8 c = map grp (chunk8 (abs c)).
Proof. exact iter8_spec. Qed.
Check C04_iter8 : forall c, wf c -> iter8 c = map grp (chunk8 (abs c)).

Theorem C04_seek : forall c pos, wf c ->
  match seek c pos with
  | Some r => cstart c <= pos <= cend c /\ wf r /\ abs r = skipn (pos - cstart c) (abs c)
  | None => ~ (cstart c <= pos <= cend c)
  end.
Proof. exact seek_spec. Qed.
Check C04_seek : forall c pos, wf c ->
  match seek c pos with
  | Some r => cstart c <= pos <= cend c /\ wf r /\ abs r = skipn (pos - cstart c) (abs c)
  | None => ~ (cstart c <= pos <= cend c)
  end.

Theorem C04_read : forall c n, wf c ->
  match read c n with
  | Some (r, rest) => n <= clen c /\ wf r /\ wf rest /\
                      abs r = firstn n (abs c) /\ abs rest = skipn n (abs c)
  | None => clen c < n
  end.
Proof. exact split_at_spec. Qed.
Check C04_read : forall c n, wf c ->
  match read c n with
  | Some (r, rest) => n <= clen c /\ wf r /\ wf rest /\
                      abs r = firstn n (abs c) /\ abs rest = skipn n (abs c)
  | None => clen c < n
  end.

Theorem C04_peek : forall c n, wf c ->
  match peek c n with
  | Some r => n <= clen c /\ wf r /\ abs r = firstn n (abs c)
  | None => clen c < n
  end.
Proof. exact peek_spec. Qed.
Check C04_peek : forall c n, wf c ->
  match peek c n with
  | Some r => n <= clen c /\ wf r /\ abs r = firstn n (abs c)
  | None => clen c < n
  end.

Theorem C04_substr : forall c s e, wf c ->
  match substr c s e with
  | Some r => s <= e /\ cstart c <= s /\ e <= cend c /\ wf r /\
              abs r = firstn (e - s) (skipn (s - cstart c) (abs c))
  | None => ~ (s <= e /\ cstart c <= s /\ e <= cend c)
  end.
Proof. exact substr_spec. Qed.
Check C04_substr : forall c s e, wf c ->
  match substr c s e with
  | Some r => s <= e /\ cstart c <= s /\ e <= cend c /\ wf r /\
              abs r = firstn (e - s) (skipn (s - cstart c) (abs c))
  | None => ~ (s <= e /\ cstart c <= s /\ e <= cend c)
  end.

Theorem C04_split_at : forall c i, wf c ->
  match split_at c i with
  | Some (l, r) => i <= clen c /\ wf l /\ wf r /\
                   abs l = firstn i (abs c) /\ abs r = skipn i (abs c)
  | None => clen c < i
  end.
Proof. exact split_at_spec. Qed.
Check C04_split_at : forall c i, wf c ->
  match split_at c i with
  | Some (l, r) => i <= clen c /\ wf l /\ wf r /\
                   abs l = firstn i (abs c) /\ abs r = skipn i (abs c)
  | None => clen c < i
  end.

Theorem C04_detach : forall u c, wf c -> wf (detach u c) /\ abs (detach u c) = abs c.
Proof. exact detach_spec. Qed.
Check C04_detach : forall u c, wf c -> wf (detach u c) /\ abs (detach u c) = abs c.

Theorem C04_append : forall u c t, wf c -> wf t ->
  wf (append u c t) /\ abs (append u c t) = abs c ++ abs t.
Proof. exact append_spec. Qed.
Check C04_append : forall u c t, wf c -> wf t ->
  wf (append u c t) /\ abs (append u c t) = abs c ++ abs t.

Theorem C04_insert : forall u c i s, wf c -> wf s ->
  match insert u c i s with
  | Some r => i <= clen c /\ wf r /\ abs r = firstn i (abs c) ++ abs s ++ skipn i (abs c)
  | None => clen c < i
  end.
Proof. exact insert_spec. Qed.
Check C04_insert : forall u c i s, wf c -> wf s ->
  match insert u c i s with
  | Some r => i <= clen c /\ wf r /\ abs r = firstn i (abs c) ++ abs s ++ skipn i (abs c)
  | None => clen c < i
  end.

Theorem C04_invert : forall u c, wf c ->
  wf (invert u c) /\ abs (invert u c) = map negb (abs c).
Proof. exact invert_spec. Qed.
Check C04_invert : forall u c, wf c ->
  wf (invert u c) /\ abs (invert u c) = map negb (abs c).

Theorem C04_eq_with : forall a b, wf a -> wf b -> (eq_with a b = true <-> abs a = abs b).
Proof. exact eq_with_spec. Qed.
Check C04_eq_with : forall a b, wf a -> wf b -> (eq_with a b = true <-> abs a = abs b).

Theorem C04_to_hex : forall c, wf c ->
  to_hex_digits c =
  flat_map (fun g => (if 4 <? length g then [N.shiftr (bits_to_N g) 4] else []) ++ [N.land (bits_to_N g) 15])
           (chunk8 (abs c)).
Proof.
  intros c Hc. unfold to_hex_digits. rewrite iter8_spec by assumption.
  rewrite BitsLists.flat_map_map'. reflexivity.
Qed.
Check C04_to_hex : forall c, wf c ->
  to_hex_digits c =
  flat_map (fun g => (if 4 <? length g then [N.shiftr (bits_to_N g) 4] else []) ++ [N.land (bits_to_N g) 15])
           (chunk8 (abs c)).

Theorem C04_to_bytes : forall c, wf c ->
  to_bytes c = if clen c mod 8 =? 0 then Some (map bits_to_N (chunk8 (abs c))) else None.
Proof. exact to_bytes_spec. Qed.
Check C04_to_bytes : forall c, wf c ->
  to_bytes c = if clen c mod 8 =? 0 then Some (map bits_to_N (chunk8 (abs c))) else None.

Theorem C04_bytestr : forall c, wf c ->
  bytestr c = if clen c mod 8 =? 0 then Some (map bits_to_N (chunk8 (abs c))) else None.
Proof. exact bytestr_spec. Qed.
Check C04_bytestr : forall c, wf c ->
  bytestr c = if clen c mod 8 =? 0 then Some (map bits_to_N (chunk8 (abs c))) else None.

Theorem C04_slice : forall c d, wf c -> slice c = Some d -> d = map bits_to_N (chunk8 (abs c)).
Proof.
  intros c d Hc. unfold slice. destruct (is_u8_slice c) eqn:Es; [|discriminate].
  intros E. injection E as <-. apply BitsMirror.bytes_of_spec; assumption.
Qed.
Check C04_slice : forall c d, wf c -> slice c = Some d -> d = map bits_to_N (chunk8 (abs c)).

Theorem C04_padding : forall c, wf c -> to_bytes_with_padding c = map bits_to_N (chunk8 (abs c)).
Proof. exact padding_spec. Qed.
Check C04_padding : forall c, wf c -> to_bytes_with_padding c = map bits_to_N (chunk8 (abs c)).

Theorem C04_from_bits : forall l, wf (of_bools l) /\ abs (of_bools l) = l.
Proof. exact of_bools_spec. Qed.
Check C04_from_bits : forall l, wf (of_bools l) /\ abs (of_bools l) = l.



Theorem C04_from_hex : forall ds, Forall (fun d => (d < 16)%N) ds ->
  wf (from_hex ds) /\ abs (from_hex ds) = flat_map nibble_bits ds.
Proof. intros ds Hds. rewrite (from_hex_canon ds Hds). apply BitsMirror.canon_spec. Qed.
Check C04_from_hex : forall ds, Forall (fun d => (d < 16)%N) ds ->
  wf (from_hex ds) /\ abs (from_hex ds) = flat_map nibble_bits ds.

(* the hypotheses are satisfiable by a value with slack after its range and stale
   bits inside its last byte: a uniquely owned 4-bit slice of ff 34 *)
Example C04_nonvacuous :
  wf (mkcbs 0 4 [255; 52]%N) /\
  abs (append true (mkcbs 0 4 [255; 52]%N) (mkcbs 0 4 [0]%N))
  = [true; true; true; true; false; false; false; false].
Proof. split; [repeat split; try (cbn; lia); repeat constructor | reflexivity]. Qed.

(* The representation of a detached value does not depend on the ownership flag.

   [detach u c] keeps [c] as it is only when [u] holds (uniquely owned) AND [c] starts at bit
   0; in every other case it copies and rebases to bit 0.  (Were a uniquely owned slice with a
   non-zero start kept, the start offset of the result of append / invert / insert -
   observable through `open-bitstr offset` - would depend on who else held the buffer.) *)

(* the start offset of a detached value is 0 in ALL cases; the two cases of the definition *)
Theorem C04_detach_start : forall u c,
  cstart (detach u c) = 0 /\
  ((u = true /\ cstart c = 0 /\ detach u c = c) \/
   (~ (u = true /\ cstart c = 0) /\ detach u c = detach false c)).
Proof. exact BitsDetach.detach_start. Qed.
Check C04_detach_start : forall u c,
  cstart (detach u c) = 0 /\
  ((u = true /\ cstart c = 0 /\ detach u c = c) \/
   (~ (u = true /\ cstart c = 0) /\ detach u c = detach false c)).

(* start, end and bits of a detached value, in closed form: no [u] on the right-hand sides *)
Theorem C04_detach_repr : forall u c, wf c ->
  cstart (detach u c) = 0 /\ cend (detach u c) = clen c /\ abs (detach u c) = abs c.
Proof.
  intros u c Hc. split; [apply detach_cstart|]. split; [apply detach_cend|].
  exact (proj2 (detach_spec u c Hc)).
Qed.
Check C04_detach_repr : forall u c, wf c ->
  cstart (detach u c) = 0 /\ cend (detach u c) = clen c /\ abs (detach u c) = abs c.

Theorem C04_detach_ownership_independent : forall u u' c, wf c ->
  cstart (detach u c) = cstart (detach u' c) /\
  cend (detach u c) = cend (detach u' c) /\
  abs (detach u c) = abs (detach u' c).
Proof.
  intros u u' c Hc. destruct (C04_detach_repr u c Hc) as (A1 & A2 & A3).
  destruct (C04_detach_repr u' c Hc) as (B1 & B2 & B3).
  rewrite A1, A2, A3, B1, B2, B3. repeat split; reflexivity.
Qed.
Check C04_detach_ownership_independent : forall u u' c, wf c ->
  cstart (detach u c) = cstart (detach u' c) /\
  cend (detach u c) = cend (detach u' c) /\
  abs (detach u c) = abs (detach u' c).

(* append: the result starts at bit 0 for every ownership flag (no hypothesis at all) ... *)
Theorem C04_append_start : forall u c t,
  cstart (append u c t) = 0 /\ cend (append u c t) = clen c + clen t.
Proof.
  intros u c t. unfold append.
  destruct (BitsMirror.append_bits_mut_range (detach u c) t) as [-> ->].
  rewrite detach_cstart, detach_cend. split; reflexivity.
Qed.
Check C04_append_start : forall u c t,
  cstart (append u c t) = 0 /\ cend (append u c t) = clen c + clen t.

(* ... and the WHOLE result - start, end, and the backing bytes - is the same on both paths:
   append_bits_mut cuts the buffer back to the value and clears the stale bits first *)
Theorem C04_append_ownership_independent : forall u u' c t, wf c ->
  append u c t = append u' c t.
Proof. exact BitsDetach.append_indep. Qed.
Check C04_append_ownership_independent : forall u u' c t, wf c ->
  append u c t = append u' c t.

(* insert: same *)
Theorem C04_insert_start : forall u c i s, cstart c <= cend c ->
  match insert u c i s with
  | Some r => i <= clen c /\ cstart r = 0 /\ cend r = clen c + clen s
  | None => clen c < i
  end.
Proof. exact BitsDetach.insert_range. Qed.
Check C04_insert_start : forall u c i s, cstart c <= cend c ->
  match insert u c i s with
  | Some r => i <= clen c /\ cstart r = 0 /\ cend r = clen c + clen s
  | None => clen c < i
  end.

Theorem C04_insert_ownership_independent : forall u u' c i s, wf c ->
  insert u c i s = insert u' c i s.
Proof. exact BitsDetach.insert_indep. Qed.
Check C04_insert_ownership_independent : forall u u' c i s, wf c ->
  insert u c i s = insert u' c i s.

(* invert: start, end and bits are the same on both paths; the backing bytes beyond the
   value are NOT (see C04_bytes_beyond_the_value_may_differ) *)
Theorem C04_invert_start : forall u c,
  cstart (invert u c) = 0 /\ cend (invert u c) = clen c.
Proof.
  intros u c. unfold invert. cbv zeta. cbn [cstart cend].
  rewrite detach_cstart, detach_cend. split; reflexivity.
Qed.
Check C04_invert_start : forall u c,
  cstart (invert u c) = 0 /\ cend (invert u c) = clen c.

Theorem C04_invert_ownership_independent : forall u u' c, wf c ->
  cstart (invert u c) = cstart (invert u' c) /\
  cend (invert u c) = cend (invert u' c) /\
  abs (invert u c) = abs (invert u' c).
Proof.
  intros u u' c Hc.
  destruct (C04_invert_start u c) as [-> ->]. destruct (C04_invert_start u' c) as [-> ->].
  rewrite (proj2 (invert_spec u c Hc)), (proj2 (invert_spec u' c Hc)). repeat split; reflexivity.
Qed.
Check C04_invert_ownership_independent : forall u u' c, wf c ->
  cstart (invert u c) = cstart (invert u' c) /\
  cend (invert u c) = cend (invert u' c) /\
  abs (invert u c) = abs (invert u' c).

(* what still depends on [u]: the backing bytes of detach / invert outside the value.  A
   4-bit value at the start of the byte ff is kept with its stale bits when uniquely owned,
   copied and left-aligned otherwise; with a slack byte the buffers even differ in length. *)
Example C04_bytes_beyond_the_value_may_differ :
  let c := mkcbs 0 4 [255%N] in
  wfb c = true /\ cdata (detach true c) = [255%N] /\ cdata (detach false c) = [240%N] /\
  cdata (invert true c) = [15%N] /\ cdata (invert false c) = [0%N].
Proof. vm_compute. repeat split; reflexivity. Qed.

Example C04_slack_bytes_may_differ :
  let c := mkcbs 0 4 [255; 52]%N in
  wfb c = true /\ cdata (detach true c) = [255; 52]%N /\ cdata (detach false c) = [240%N].
Proof. vm_compute. repeat split; reflexivity. Qed.

(* the copying case for a uniquely owned value, non-vacuously: a slice [4, 12) of ab cd is rebased *)
Example C04_unique_slice_is_rebased :
  let c := mkcbs 4 12 [171; 205]%N in
  wfb c = true /\ detach true c = mkcbs 0 8 [188%N] /\ detach true c = detach false c.
Proof. vm_compute. repeat split; reflexivity. Qed.
