(* C14 (continued) - resource limits along whole executions, what a limit failure leaves
   behind, independence of results from limits, recovery, build time, the meter.

   Vocabulary (all from Model/Vm.v unless said otherwise):
     set_limits (set_meter s mt) i h k   the machine [s] with meter reading [mt] and limits i h k
     res_map f r                         the result [r] with [f] applied to its state
     erase_lim s  (Proofs)               = set_limits (set_meter s 0) None None None
     push_only op / never_pushes op      (Proofs) classes of opcodes, spelled out below *)
From Xeh Require Import Model.Prelude Model.Bits Model.Cell Model.Lexer Model.Vm Model.Words Model.Build Model.Boot.
From Xeh Require Import Proofs.VmLimits Proofs.UnwindWitness Proofs.VmLimitsRunStep Proofs.VmLimitsRunFail
                        Proofs.VmLimitsRunRun Proofs.VmLimitsRunSummary.
Local Notation length := List.length.
Local Open Scope string_scope.

(* ---------- the vocabulary, spelled out ---------- *)
Theorem C14_erase_lim_means : forall s, erase_lim s = set_limits (set_meter s 0%Z) None None None.
Proof. reflexivity. Qed.
Check C14_erase_lim_means : forall s, erase_lim s = set_limits (set_meter s 0%Z) None None None.

(* two states with the same [erase_lim] agree on everything but the meter and the limits *)
Theorem C14_erase_lim_eq_means : forall a b, erase_lim a = erase_lim b ->
  dict a = dict b /\ heap a = heap b /\ code a = code b /\ ds a = ds b /\ rs a = rs b /\
  loops a = loops b /\ special a = special b /\ cx a = cx b /\ out a = out b /\ rlog a = rlog b /\
  flows a = flows b /\ nested a = nested b /\ stopping a = stopping b.
Proof. exact erase_lim_eq_fields. Qed.
Check C14_erase_lim_eq_means : forall a b, erase_lim a = erase_lim b ->
  dict a = dict b /\ heap a = heap b /\ code a = code b /\ ds a = ds b /\ rs a = rs b /\
  loops a = loops b /\ special a = special b /\ cx a = cx b /\ out a = out b /\ rlog a = rlog b /\
  flows a = flows b /\ nested a = nested b /\ stopping a = stopping b.

Theorem C14_push_only_means : forall op,
  push_only op = match op with
                 | OLoad _ | OLoadNil | OLoadI64 _ | OLoadF64 _ | OLoadStr _ | OLoadCell _ | OLoadLocal _ => true
                 | ONative w => String.eqb w "dup" || String.eqb w "depth"
                 | _ => false
                 end.
Proof. reflexivity. Qed.
Check C14_push_only_means : forall op,
  push_only op = match op with
                 | OLoad _ | OLoadNil | OLoadI64 _ | OLoadF64 _ | OLoadStr _ | OLoadCell _ | OLoadLocal _ => true
                 | ONative w => String.eqb w "dup" || String.eqb w "depth"
                 | _ => false
                 end.

Theorem C14_never_pushes_means : forall op,
  never_pushes op = match op with
                    | ONop | OCall _ | ORet | OJumpIf _ | OJumpIfNot _ | OJump _ | ODo _ | OBreak _
                    | OLoop _ | OCaseOf _ | OStore _ | OInitLocal _ => true
                    | _ => false
                    end.
Proof. reflexivity. Qed.
Check C14_never_pushes_means : forall op,
  never_pushes op = match op with
                    | ONop | OCall _ | ORet | OJumpIf _ | OJumpIfNot _ | OJump _ | ODo _ | OBreak _
                    | OLoop _ | OCaseOf _ | OStore _ | OInitLocal _ => true
                    | _ => false
                    end.

(* ================================================================================== *)
(* 2. WHAT AN OPERATION THAT FAILS WITH A LIMIT ERROR LEAVES BEHIND                    *)
(* ================================================================================== *)

(* Every limit failure of an instruction (any opcode, any native word) has one of three causes:
   (a) the instruction limit at the first fetch: the state is exactly unchanged;
   (b) the instruction limit at the second fetch of a [late] word: the cell has been resolved
       and the first fetch counted, nothing else;
   (c) a push refused by the stack limit inside the instruction: the state left is the one at
       the refused push (the stack is full in it), the meter advanced by one (two after a
       resolution). *)
Theorem C14_limit_failure_cause : forall fo s p s',
  fetch_and_run (native_fn fo) s = RErr ELimit p s' ->
  p = None /\
  ((exists N, insn_limit s = Some N /\ (N <= meter s)%Z /\ s' = s) \/
   (exists N name e,
      insn_limit s = Some N /\ (meter s + 1 = N)%Z /\
      nth_error (code s) (ip s) = Some (OResolve name) /\ dict_entry s name = Some e /\
      s' = set_code (set_meter s (meter s + 1)%Z) (list_set (code s) (ip s) (resolve_op e))) \/
   (exists S, stack_limit s = Some S /\ (S <= Z.of_nat (length (ds s')))%Z /\
              (forall N, insn_limit s = Some N -> (meter s < N)%Z) /\
              (meter s' = meter s + 1 \/ meter s' = meter s + 2)%Z)).
Proof. exact limit_failure_cause_x. Qed.
Check C14_limit_failure_cause : forall fo s p s',
  fetch_and_run (native_fn fo) s = RErr ELimit p s' ->
  p = None /\
  ((exists N, insn_limit s = Some N /\ (N <= meter s)%Z /\ s' = s) \/
   (exists N name e,
      insn_limit s = Some N /\ (meter s + 1 = N)%Z /\
      nth_error (code s) (ip s) = Some (OResolve name) /\ dict_entry s name = Some e /\
      s' = set_code (set_meter s (meter s + 1)%Z) (list_set (code s) (ip s) (resolve_op e))) \/
   (exists S, stack_limit s = Some S /\ (S <= Z.of_nat (length (ds s')))%Z /\
              (forall N, insn_limit s = Some N -> (meter s < N)%Z) /\
              (meter s' = meter s + 1 \/ meter s' = meter s + 2)%Z)).

(* The fields a failed instruction cannot have changed, for every opcode and every native word:
   everything except the data stack, the special stack (vector / map marks), the reverse log,
   the meter, and the resolution of [late] cells.  In particular the ip, the return and loop
   stacks, the heap, the output and the stopping flag are as before: in every native word the
   writes to heap / output / loop record come after the last push.  Of the data and special
   stacks the cells hidden below the marks of the current context are untouched, and recording
   is neither switched on nor off. *)
Theorem C14_limit_failure_frame : forall fo s p s',
  fetch_and_run (native_fn fo) s = RErr ELimit p s' ->
  dict s' = dict s /\ dbg s' = dbg s /\ sources s' = sources s /\ input s' = input s /\
  flows s' = flows s /\ nested s' = nested s /\ last_tok s' = last_tok s /\
  insn_limit s' = insn_limit s /\ heap_limit s' = heap_limit s /\ stack_limit s' = stack_limit s /\
  cx s' = cx s /\ rs s' = rs s /\ loops s' = loops s /\
  heap s' = heap s /\ out s' = out s /\ stopping s' = stopping s /\
  length (code s') = length (code s) /\
  (forall i op, nth_error (code s) i = Some op -> (forall n, op <> OResolve n) -> nth_error (code s') i = Some op) /\
  (meter s <= meter s' <= meter s + 2)%Z /\
  (forall h u, ds s = (u ++ h)%list -> length h <= ds_len (cx s) -> exists u', ds s' = (u' ++ h)%list) /\
  (forall h u, special s = (u ++ h)%list -> length h <= ss_ptr (cx s) -> exists u', special s' = (u' ++ h)%list) /\
  (rlog s' = None <-> rlog s = None).
Proof. exact limit_failure_frame_x. Qed.
Check C14_limit_failure_frame : forall fo s p s',
  fetch_and_run (native_fn fo) s = RErr ELimit p s' ->
  dict s' = dict s /\ dbg s' = dbg s /\ sources s' = sources s /\ input s' = input s /\
  flows s' = flows s /\ nested s' = nested s /\ last_tok s' = last_tok s /\
  insn_limit s' = insn_limit s /\ heap_limit s' = heap_limit s /\ stack_limit s' = stack_limit s /\
  cx s' = cx s /\ rs s' = rs s /\ loops s' = loops s /\
  heap s' = heap s /\ out s' = out s /\ stopping s' = stopping s /\
  length (code s') = length (code s) /\
  (forall i op, nth_error (code s) i = Some op -> (forall n, op <> OResolve n) -> nth_error (code s') i = Some op) /\
  (meter s <= meter s' <= meter s + 2)%Z /\
  (forall h u, ds s = (u ++ h)%list -> length h <= ds_len (cx s) -> exists u', ds s' = (u' ++ h)%list) /\
  (forall h u, special s = (u ++ h)%list -> length h <= ss_ptr (cx s) -> exists u', special s' = (u' ++ h)%list) /\
  (rlog s' = None <-> rlog s = None).

(* instructions that only push (literals, variable and local loads, dup, depth): the failed
   instruction leaves the state it found; only the meter has advanced when the stack limit
   (not the instruction limit) was the cause *)
Theorem C14_push_only_failure_unchanged : forall fo s op p s',
  fetch_and_run (native_fn fo) s = RErr ELimit p s' ->
  nth_error (code s) (ip s) = Some op -> push_only op = true ->
  s' = s \/ s' = set_meter s (meter s + 1)%Z.
Proof. intros fo. apply push_only_failure_unchanged. Qed.
Check C14_push_only_failure_unchanged : forall fo s op p s',
  fetch_and_run (native_fn fo) s = RErr ELimit p s' ->
  nth_error (code s) (ip s) = Some op -> push_only op = true ->
  s' = s \/ s' = set_meter s (meter s + 1)%Z.

(* instructions that never push (jumps, calls, returns, loops, stores): a limit failure can only
   be the instruction limit, and nothing has changed *)
Theorem C14_never_pushes_failure_unchanged : forall fo s op p s',
  fetch_and_run (native_fn fo) s = RErr ELimit p s' ->
  nth_error (code s) (ip s) = Some op -> never_pushes op = true ->
  s' = s /\ exists N, insn_limit s = Some N /\ (N <= meter s)%Z.
Proof. intros fo. apply never_pushes_failure. Qed.
Check C14_never_pushes_failure_unchanged : forall fo s op p s',
  fetch_and_run (native_fn fo) s = RErr ELimit p s' ->
  nth_error (code s) (ip s) = Some op -> never_pushes op = true ->
  s' = s /\ exists N, insn_limit s = Some N /\ (N <= meter s)%Z.

(* FINDING.  "The operation that would exceed a limit ... leaves the machine state exactly as it
   was" is FALSE for the stack limit in general: a native word that has already popped operands,
   taken a vector mark off the special stack, or pushed part of its results when a push is
   refused, is not rolled back. *)
Theorem C14_failed_step_unchanged_refuted :
  ~ (forall fo s p s', fetch_and_run (native_fn fo) s = RErr ELimit p s' ->
       ds s' = ds s /\ special s' = special s).
Proof. exact failed_step_unchanged_refuted. Qed.
Check C14_failed_step_unchanged_refuted :
  ~ (forall fo s p s', fetch_and_run (native_fn fo) s = RErr ELimit p s' ->
       ds s' = ds s /\ special s' = special s).

Theorem C14_failed_step_operands_refuted :
  ~ (forall fo s p s', fetch_and_run (native_fn fo) s = RErr ELimit p s' -> ds s' = ds s).
Proof. exact failed_step_operands_refuted. Qed.
Check C14_failed_step_operands_refuted :
  ~ (forall fo s p s', fetch_and_run (native_fn fo) s = RErr ELimit p s' -> ds s' = ds s).

(* Replayable witnesses (boot state, evaluation of a source text, then [run] after lifting the
   limit).  [wit_eval src s] = eval with the test oracle; [lw_nf] = the native words.
   W1  stack limit 2; eval "1 2 [ ]"  -> limit error; the mark of "[" is gone from the special
       stack; lifting the limit and resuming gives a FLOW error, the unlimited machine gives
       the stack  [] 2 1. *)
Theorem C14_resume_vec_end_refuted :
  (exists s', w1_fail = RErr ELimit None s') /\
  lw_obs (wit_state w1_fail) = ([CInt 2; CInt 1], [], 3, true) /\
  steps lw_nf 3 w1_compiled = Some w1_before /\
  nth_error (code w1_before) (ip w1_before) = Some (ONative "%vec-end") /\
  insn_limit w1_before = None /\ stack_limit w1_before = Some 2%Z /\
  ds w1_before = [CInt 2; CInt 1] /\ special w1_before = [2] /\
  (exists s', fetch_and_run lw_nf w1_before = RErr ELimit None s' /\
              ds s' = [CInt 2; CInt 1] /\ special s' = []) /\
  lw_kind w1_resumed = Some EFlow /\
  (exists s', wit_eval "1 2 [ ]" boot = ROk tt s' /\ ds s' = [CVec []; CInt 2; CInt 1]).
Proof. exact vec_end_not_rolled_back. Qed.
Check C14_resume_vec_end_refuted :
  (exists s', w1_fail = RErr ELimit None s') /\
  lw_obs (wit_state w1_fail) = ([CInt 2; CInt 1], [], 3, true) /\
  steps lw_nf 3 w1_compiled = Some w1_before /\
  nth_error (code w1_before) (ip w1_before) = Some (ONative "%vec-end") /\
  insn_limit w1_before = None /\ stack_limit w1_before = Some 2%Z /\
  ds w1_before = [CInt 2; CInt 1] /\ special w1_before = [2] /\
  (exists s', fetch_and_run lw_nf w1_before = RErr ELimit None s' /\
              ds s' = [CInt 2; CInt 1] /\ special s' = []) /\
  lw_kind w1_resumed = Some EFlow /\
  (exists s', wit_eval "1 2 [ ]" boot = ROk tt s' /\ ds s' = [CVec []; CInt 2; CInt 1]).

Example C14_w1_definitions :
  w1_s0 = set_limits boot None None (Some 2%Z) /\ w1_fail = wit_eval "1 2 [ ]" w1_s0 /\
  w1_compiled = wit_state (compile wit_fo wit_pr wit_rf wit_fuel "1 2 [ ]" w1_s0) /\
  w1_resumed = run lw_nf 100 (set_limits (wit_state w1_fail) None None None).
Proof. repeat split; reflexivity. Qed.

(* W2  eval "1 2 3 4 5" without limit; stack limit 3 (below the depth, allowed by the
       property); eval "+" -> limit error with 4 and 5 popped; resumed without limit it adds
       2 and 3 (stack 5 1) where the unlimited machine has 9 3 2 1. *)
Theorem C14_resume_operands_refuted :
  ds w2_s0 = [CInt 5; CInt 4; CInt 3; CInt 2; CInt 1] /\
  (exists s', w2_fail = RErr ELimit None s') /\
  ds (wit_state w2_fail) = [CInt 3; CInt 2; CInt 1] /\
  lw_kind w2_resumed = None /\ ds (lw_state w2_resumed) = [CInt 5; CInt 1] /\
  (exists s', wit_eval "+" (set_limits w2_s0 None None None) = ROk tt s' /\
              ds s' = [CInt 9; CInt 3; CInt 2; CInt 1]).
Proof. exact operands_not_restored. Qed.
Check C14_resume_operands_refuted :
  ds w2_s0 = [CInt 5; CInt 4; CInt 3; CInt 2; CInt 1] /\
  (exists s', w2_fail = RErr ELimit None s') /\
  ds (wit_state w2_fail) = [CInt 3; CInt 2; CInt 1] /\
  lw_kind w2_resumed = None /\ ds (lw_state w2_resumed) = [CInt 5; CInt 1] /\
  (exists s', wit_eval "+" (set_limits w2_s0 None None None) = ROk tt s' /\
              ds s' = [CInt 9; CInt 3; CInt 2; CInt 1]).

Example C14_w2_definitions :
  w2_s0 = set_limits (wit_state (wit_eval "1 2 3 4 5" boot)) None None (Some 3%Z) /\
  w2_fail = wit_eval "+" w2_s0 /\
  w2_resumed = run lw_nf 100 (set_limits (wit_state w2_fail) None None None).
Proof. repeat split; reflexivity. Qed.

(* W3  eval "1 [ 7 8 9 ]" without limit; stack limit 3 (above the depth 2); eval "unbox" ->
       limit error with the vector gone and 7 8 pushed; resumed: type error. *)
Theorem C14_resume_unbox_refuted :
  ds w3_s0 = [CVec [CInt 7; CInt 8; CInt 9]; CInt 1] /\
  (exists s', w3_fail = RErr ELimit None s') /\
  ds (wit_state w3_fail) = [CInt 8; CInt 7; CInt 1] /\
  lw_kind w3_resumed = Some EType /\
  (exists s', wit_eval "unbox" (set_limits w3_s0 None None None) = ROk tt s' /\
              ds s' = [CInt 9; CInt 8; CInt 7; CInt 1]).
Proof. exact unbox_partial_push. Qed.
Check C14_resume_unbox_refuted :
  ds w3_s0 = [CVec [CInt 7; CInt 8; CInt 9]; CInt 1] /\
  (exists s', w3_fail = RErr ELimit None s') /\
  ds (wit_state w3_fail) = [CInt 8; CInt 7; CInt 1] /\
  lw_kind w3_resumed = Some EType /\
  (exists s', wit_eval "unbox" (set_limits w3_s0 None None None) = ROk tt s' /\
              ds s' = [CInt 9; CInt 8; CInt 7; CInt 1]).

Example C14_w3_definitions :
  w3_s0 = set_limits (wit_state (wit_eval "1 [ 7 8 9 ]" boot)) None None (Some 3%Z) /\
  w3_fail = wit_eval "unbox" w3_s0 /\
  w3_resumed = run lw_nf 100 (set_limits (wit_state w3_fail) None None None).
Proof. repeat split; reflexivity. Qed.

(* W4  stack limit 2; eval "[ 5 6 ] foreach loop" -> limit error inside %foreach-init with the
       length pushed and the start index refused; resumed: type error; unlimited: empty stack *)
Theorem C14_resume_foreach_refuted :
  (exists s', w4_fail = RErr ELimit None s') /\
  ds (wit_state w4_fail) = [CInt 2; CVec [CInt 5; CInt 6]] /\
  lw_kind w4_resumed = Some EType /\
  (exists s', wit_eval "[ 5 6 ] foreach loop" boot = ROk tt s' /\ ds s' = []).
Proof. exact foreach_init_partial_push. Qed.
Check C14_resume_foreach_refuted :
  (exists s', w4_fail = RErr ELimit None s') /\
  ds (wit_state w4_fail) = [CInt 2; CVec [CInt 5; CInt 6]] /\
  lw_kind w4_resumed = Some EType /\
  (exists s', wit_eval "[ 5 6 ] foreach loop" boot = ROk tt s' /\ ds s' = []).

Example C14_w4_definitions :
  w4_s0 = set_limits boot None None (Some 2%Z) /\ w4_fail = wit_eval "[ 5 6 ] foreach loop" w4_s0 /\
  w4_resumed = run lw_nf 100 (set_limits (wit_state w4_fail) None None None).
Proof. repeat split; reflexivity. Qed.

(* W5  [over] on a full stack while recording writes its reverse-log entry before the push is
       refused (the only difference it leaves; stepping back consumes the entry harmlessly) *)
Example C14_ex_over_logs_before_failing :
  (exists s', w5_fail = RErr ELimit None s') /\
  ds (wit_state w5_fail) = [CInt 2; CInt 1] /\ rlog (wit_state w5_fail) = Some [ROverData] /\
  (exists s', rnext (wit_state w5_fail) = ROk tt s' /\ ds s' = [CInt 2; CInt 1] /\ rlog s' = Some []).
Proof. exact over_logs_before_failing. Qed.

(* W6  the positive case: a literal on a full stack; resuming after lifting the limit works *)
Example C14_ex_literal_failure_resumes :
  (exists s', w6_fail = RErr ELimit None s') /\
  ds (wit_state w6_fail) = [CInt 2; CInt 1] /\
  lw_kind w6_resumed = None /\ ds (lw_state w6_resumed) = [CInt 3; CInt 2; CInt 1].
Proof. exact literal_failure_resumes. Qed.

(* ================================================================================== *)
(* 3. LIMITS NEVER CHANGE A RESULT; RECOVERY                                            *)
(* ================================================================================== *)

(* Limits only ever turn a result into a limit failure.  If an instruction does not fail with
   ELimit under the limits of [s], then under any meter reading [mt] and limits [i h k] that
   leave at least as much room (stack: k >= the old limit; instructions: i - mt >= old limit -
   old meter; the heap limit plays no role at run time) it returns the same value or the same
   error with the same payload, and the same state up to meter and limits. *)
Theorem C14_limits_only_fail_step : forall fo s r mt i h k,
  fetch_and_run (native_fn fo) s = r -> (forall p x, r <> RErr ELimit p x) ->
  (forall S', k = Some S' -> exists S, stack_limit s = Some S /\ (S <= S')%Z) ->
  (forall N', i = Some N' -> exists N, insn_limit s = Some N /\ (N - meter s <= N' - mt)%Z) ->
  fetch_and_run (native_fn fo) (set_limits (set_meter s mt) i h k) =
  res_map (fun x => set_limits (set_meter x (mt + (meter x - meter s))%Z) i h k) r.
Proof.
  intros fo s r mt i h k H Hne Hk Hi. subst r.
  apply (far_relim _ (VmLimitsRunBase.native_wlx fo) s mt i h k);
    [apply lim_le_of; exact Hk|apply room_le_of; exact Hi|apply not_limit_is_elimit; exact Hne].
Qed.
Check C14_limits_only_fail_step : forall fo s r mt i h k,
  fetch_and_run (native_fn fo) s = r -> (forall p x, r <> RErr ELimit p x) ->
  (forall S', k = Some S' -> exists S, stack_limit s = Some S /\ (S <= S')%Z) ->
  (forall N', i = Some N' -> exists N, insn_limit s = Some N /\ (N - meter s <= N' - mt)%Z) ->
  fetch_and_run (native_fn fo) (set_limits (set_meter s mt) i h k) =
  res_map (fun x => set_limits (set_meter x (mt + (meter x - meter s))%Z) i h k) r.

(* in particular: whatever does not fail with ELimit is what the unlimited machine does *)
Theorem C14_step_on_unlimited : forall fo s r,
  fetch_and_run (native_fn fo) s = r -> (forall p x, r <> RErr ELimit p x) ->
  fetch_and_run (native_fn fo) (set_limits s None None None) = res_map (fun x => set_limits x None None None) r.
Proof. exact step_on_unlimited. Qed.
Check C14_step_on_unlimited : forall fo s r,
  fetch_and_run (native_fn fo) s = r -> (forall p x, r <> RErr ELimit p x) ->
  fetch_and_run (native_fn fo) (set_limits s None None None) = res_map (fun x => set_limits x None None None) r.

(* after a failure that left the state unchanged (push-only instruction): retrying under any
   new meter / limits is executing the instruction from the state before the failure *)
Theorem C14_retry_after_push_only_failure : forall fo s op p s' mt i h k,
  fetch_and_run (native_fn fo) s = RErr ELimit p s' ->
  nth_error (code s) (ip s) = Some op -> push_only op = true ->
  fetch_and_run (native_fn fo) (set_limits (set_meter s' mt) i h k) =
  fetch_and_run (native_fn fo) (set_limits (set_meter s mt) i h k).
Proof.
  intros fo s op p s' mt i h k H Hop Hc.
  destruct (push_only_failure_unchanged fo s op p s' H Hop Hc) as [-> | ->]; reflexivity.
Qed.
Check C14_retry_after_push_only_failure : forall fo s op p s' mt i h k,
  fetch_and_run (native_fn fo) s = RErr ELimit p s' ->
  nth_error (code s) (ip s) = Some op -> push_only op = true ->
  fetch_and_run (native_fn fo) (set_limits (set_meter s' mt) i h k) =
  fetch_and_run (native_fn fo) (set_limits (set_meter s mt) i h k).

(* the same for executions of any length *)
Theorem C14_limits_only_fail_steps : forall fo n s sn mt i h k,
  steps (native_fn fo) n s = Some sn ->
  (forall S', k = Some S' -> exists S, stack_limit s = Some S /\ (S <= S')%Z) ->
  (forall N', i = Some N' -> exists N, insn_limit s = Some N /\ (N - meter s <= N' - mt)%Z) ->
  steps (native_fn fo) n (set_limits (set_meter s mt) i h k) =
  Some (set_limits (set_meter sn (mt + (meter sn - meter s))%Z) i h k).
Proof.
  intros fo n s sn mt i h k H Hk Hi.
  apply (steps_relim _ (VmLimitsRunBase.native_wlx fo) n s sn mt i h k H);
    [apply lim_le_of; exact Hk|apply room_le_of; exact Hi].
Qed.
Check C14_limits_only_fail_steps : forall fo n s sn mt i h k,
  steps (native_fn fo) n s = Some sn ->
  (forall S', k = Some S' -> exists S, stack_limit s = Some S /\ (S <= S')%Z) ->
  (forall N', i = Some N' -> exists N, insn_limit s = Some N /\ (N - meter s <= N' - mt)%Z) ->
  steps (native_fn fo) n (set_limits (set_meter s mt) i h k) =
  Some (set_limits (set_meter sn (mt + (meter sn - meter s))%Z) i h k).

Theorem C14_limits_only_fail_run : forall fo fuel s r mt i h k,
  run (native_fn fo) fuel s = Some r -> (forall p x, r <> RErr ELimit p x) ->
  (forall S', k = Some S' -> exists S, stack_limit s = Some S /\ (S <= S')%Z) ->
  (forall N', i = Some N' -> exists N, insn_limit s = Some N /\ (N - meter s <= N' - mt)%Z) ->
  run (native_fn fo) fuel (set_limits (set_meter s mt) i h k) =
  Some (res_map (fun x => set_limits (set_meter x (mt + (meter x - meter s))%Z) i h k) r).
Proof.
  intros fo fuel s r mt i h k H Hne Hk Hi.
  apply (run_relim _ (VmLimitsRunBase.native_wlx fo) fuel s r mt i h k H);
    [apply not_limit_is_elimit; exact Hne|apply lim_le_of; exact Hk|apply room_le_of; exact Hi].
Qed.
Check C14_limits_only_fail_run : forall fo fuel s r mt i h k,
  run (native_fn fo) fuel s = Some r -> (forall p x, r <> RErr ELimit p x) ->
  (forall S', k = Some S' -> exists S, stack_limit s = Some S /\ (S <= S')%Z) ->
  (forall N', i = Some N' -> exists N, insn_limit s = Some N /\ (N - meter s <= N' - mt)%Z) ->
  run (native_fn fo) fuel (set_limits (set_meter s mt) i h k) =
  Some (res_map (fun x => set_limits (set_meter x (mt + (meter x - meter s))%Z) i h k) r).

Theorem C14_run_on_unlimited : forall fo fuel s r,
  run (native_fn fo) fuel s = Some r -> (forall p x, r <> RErr ELimit p x) ->
  run (native_fn fo) fuel (set_limits s None None None) = Some (res_map (fun x => set_limits x None None None) r).
Proof.
  intros fo fuel s r H Hne.
  change (set_limits s None None None) with (unlimited s). rewrite unlimited_relim.
  rewrite (run_relim _ (VmLimitsRunBase.native_wlx fo) fuel s r (meter s) None None None H (not_limit_is_elimit _ Hne) I I).
  f_equal. destruct r; cbn [res_map]; try reflexivity; f_equal; apply relim_meter_unlimited.
Qed.
Check C14_run_on_unlimited : forall fo fuel s r,
  run (native_fn fo) fuel s = Some r -> (forall p x, r <> RErr ELimit p x) ->
  run (native_fn fo) fuel (set_limits s None None None) = Some (res_map (fun x => set_limits x None None None) r).

(* without limits there is no limit error *)
Theorem C14_unlimited_never_limit : forall fo fuel s r,
  insn_limit s = None -> stack_limit s = None -> run (native_fn fo) fuel s = Some r ->
  forall p x, r <> RErr ELimit p x.
Proof.
  intros fo fuel s r Hi Hs H. apply is_elimit_not_limit.
  eapply (run_unlimited_never_limit _ (VmLimitsRunBase.native_wlx fo)); eauto.
Qed.
Check C14_unlimited_never_limit : forall fo fuel s r,
  insn_limit s = None -> stack_limit s = None -> run (native_fn fo) fuel s = Some r ->
  forall p x, r <> RErr ELimit p x.

(* RECOVERY.  Run n instructions, hit a limit at instruction n+1 that left the state unchanged
   (no stack limit is set, so the cause is the instruction limit; or the failing instruction is
   push-only; or the instruction limit is exhausted at that instruction), give the machine any
   new meter reading and limits, resume.  If the resumed run
   is not stopped by a limit again, its result - value or error, data stack, heap, output,
   loops, return stack, everything but meter and limits - is the one the machine without
   limits reaches from the initial state.
   NOT covered, and false (W1-W4 above): a stack-limit failure inside a word that pops or
   pushes several cells. *)
Theorem C14_recover_steps : forall fo n s0 sn p se,
  steps (native_fn fo) n s0 = Some sn ->
  fetch_and_run (native_fn fo) sn = RErr ELimit p se ->
  (stack_limit s0 = None \/
   (exists op, nth_error (code sn) (ip sn) = Some op /\ push_only op = true) \/
   (exists N, insn_limit sn = Some N /\ (N <= meter sn)%Z)) ->
  forall mt i h k fuel r,
    run (native_fn fo) fuel (set_limits (set_meter se mt) i h k) = Some r ->
    (forall q x, r <> RErr ELimit q x) ->
    exists sn' r', steps (native_fn fo) n (set_limits s0 None None None) = Some sn' /\
                   run (native_fn fo) fuel sn' = Some r' /\
                   res_map erase_lim r' = res_map erase_lim r.
Proof. exact recover_steps_x. Qed.
Check C14_recover_steps : forall fo n s0 sn p se,
  steps (native_fn fo) n s0 = Some sn ->
  fetch_and_run (native_fn fo) sn = RErr ELimit p se ->
  (stack_limit s0 = None \/
   (exists op, nth_error (code sn) (ip sn) = Some op /\ push_only op = true) \/
   (exists N, insn_limit sn = Some N /\ (N <= meter sn)%Z)) ->
  forall mt i h k fuel r,
    run (native_fn fo) fuel (set_limits (set_meter se mt) i h k) = Some r ->
    (forall q x, r <> RErr ELimit q x) ->
    exists sn' r', steps (native_fn fo) n (set_limits s0 None None None) = Some sn' /\
                   run (native_fn fo) fuel sn' = Some r' /\
                   res_map erase_lim r' = res_map erase_lim r.

(* the same from [run] to [run], for the instruction limit *)
Theorem C14_recover_insn_limit_run : forall fo fuel0 s0 p se,
  stack_limit s0 = None ->
  run (native_fn fo) fuel0 s0 = Some (RErr ELimit p se) ->
  forall mt i h fuel r,
    run (native_fn fo) fuel (set_limits (set_meter se mt) i h None) = Some r ->
    (forall q x, r <> RErr ELimit q x) ->
    exists r', run (native_fn fo) (fuel0 + fuel) (set_limits s0 None None None) = Some r' /\
               res_map erase_lim r' = res_map erase_lim r.
Proof.
  intros fo fuel0 s0 p se Hs H0 mt i h fuel r Hr Hne.
  exact (recover_run_insn _ (VmLimitsRunBase.native_wlx fo) fuel0 s0 p se Hs H0 mt i h fuel r Hr
                          (not_limit_is_elimit _ Hne)).
Qed.
Check C14_recover_insn_limit_run : forall fo fuel0 s0 p se,
  stack_limit s0 = None ->
  run (native_fn fo) fuel0 s0 = Some (RErr ELimit p se) ->
  forall mt i h fuel r,
    run (native_fn fo) fuel (set_limits (set_meter se mt) i h None) = Some r ->
    (forall q x, r <> RErr ELimit q x) ->
    exists r', run (native_fn fo) (fuel0 + fuel) (set_limits s0 None None None) = Some r' /\
               res_map erase_lim r' = res_map erase_lim r.

(* raising the limits is enough in the recoverable cases: with room for two fetches, and no stack
   limit or a push-only instruction below the stack limit, the instruction is not stopped by a
   limit (so by C14_step_on_unlimited it does what the unlimited machine does) *)
Theorem C14_raised_limits_no_failure : forall fo t p x,
  (forall N, insn_limit t = Some N -> (meter t + 2 <= N)%Z) ->
  (stack_limit t = None \/
   exists op S, nth_error (code t) (ip t) = Some op /\ push_only op = true /\
                stack_limit t = Some S /\ (Z.of_nat (length (ds t)) < S)%Z) ->
  fetch_and_run (native_fn fo) t <> RErr ELimit p x.
Proof. exact raised_limits_no_failure. Qed.
Check C14_raised_limits_no_failure : forall fo t p x,
  (forall N, insn_limit t = Some N -> (meter t + 2 <= N)%Z) ->
  (stack_limit t = None \/
   exists op S, nth_error (code t) (ip t) = Some op /\ push_only op = true /\
                stack_limit t = Some S /\ (Z.of_nat (length (ds t)) < S)%Z) ->
  fetch_and_run (native_fn fo) t <> RErr ELimit p x.

(* ================================================================================== *)
(* 1. BOUNDS ALONG EVERY EXECUTION                                                      *)
(* ================================================================================== *)
Theorem C14_steps_bounds : forall fo n s0 sn,
  steps (native_fn fo) n s0 = Some sn ->
  insn_limit sn = insn_limit s0 /\ heap_limit sn = heap_limit s0 /\ stack_limit sn = stack_limit s0 /\
  length (heap sn) = length (heap s0) /\
  (forall N, insn_limit s0 = Some N -> (meter s0 <= N)%Z -> (meter sn <= N)%Z) /\
  (forall S, stack_limit s0 = Some S -> length (ds sn) <= Nat.max (Z.to_nat S) (length (ds s0))).
Proof. exact steps_bounds_x. Qed.
Check C14_steps_bounds : forall fo n s0 sn,
  steps (native_fn fo) n s0 = Some sn ->
  insn_limit sn = insn_limit s0 /\ heap_limit sn = heap_limit s0 /\ stack_limit sn = stack_limit s0 /\
  length (heap sn) = length (heap s0) /\
  (forall N, insn_limit s0 = Some N -> (meter s0 <= N)%Z -> (meter sn <= N)%Z) /\
  (forall S, stack_limit s0 = Some S -> length (ds sn) <= Nat.max (Z.to_nat S) (length (ds s0))).

(* the final state of [run], whether it stopped normally or on any error *)
Theorem C14_run_bounds : forall fo fuel s0 r s',
  run (native_fn fo) fuel s0 = Some r -> res_state r = Some s' ->
  insn_limit s' = insn_limit s0 /\ heap_limit s' = heap_limit s0 /\ stack_limit s' = stack_limit s0 /\
  length (heap s') = length (heap s0) /\
  (forall N, insn_limit s0 = Some N -> (meter s0 <= N)%Z -> (meter s' <= N)%Z) /\
  (forall S, stack_limit s0 = Some S -> length (ds s') <= Nat.max (Z.to_nat S) (length (ds s0))).
Proof.
  intros fo fuel s0 r s' H Hr.
  destruct (run_bounded _ (VmLimitsRunBase.native_wlx fo) fuel s0 r s' H Hr) as (A1 & A2 & A3 & A4 & A5 & A6 & A7).
  repeat split; assumption.
Qed.
Check C14_run_bounds : forall fo fuel s0 r s',
  run (native_fn fo) fuel s0 = Some r -> res_state r = Some s' ->
  insn_limit s' = insn_limit s0 /\ heap_limit s' = heap_limit s0 /\ stack_limit s' = stack_limit s0 /\
  length (heap s') = length (heap s0) /\
  (forall N, insn_limit s0 = Some N -> (meter s0 <= N)%Z -> (meter s' <= N)%Z) /\
  (forall S, stack_limit s0 = Some S -> length (ds s') <= Nat.max (Z.to_nat S) (length (ds s0))).

(* [run] executes at most N instructions after the limit was set (meter 0) *)
Theorem C14_run_at_most_N : forall fo fuel s N,
  insn_limit s = Some N -> meter s = 0%Z -> (0 <= N)%Z ->
  (forall s', run (native_fn fo) fuel s = Some (ROk tt s') ->
     exists n, steps (native_fn fo) n s = Some s' /\ (Z.of_nat n <= N)%Z) /\
  (forall k p se, run (native_fn fo) fuel s = Some (RErr k p se) ->
     exists n sn, steps (native_fn fo) n s = Some sn /\ fetch_and_run (native_fn fo) sn = RErr k p se /\
                  (Z.of_nat n <= N)%Z).
Proof. exact run_at_most_N. Qed.
Check C14_run_at_most_N : forall fo fuel s N,
  insn_limit s = Some N -> meter s = 0%Z -> (0 <= N)%Z ->
  (forall s', run (native_fn fo) fuel s = Some (ROk tt s') ->
     exists n, steps (native_fn fo) n s = Some s' /\ (Z.of_nat n <= N)%Z) /\
  (forall k p se, run (native_fn fo) fuel s = Some (RErr k p se) ->
     exists n sn, steps (native_fn fo) n s = Some sn /\ fetch_and_run (native_fn fo) sn = RErr k p se /\
                  (Z.of_nat n <= N)%Z).

(* ================================================================================== *)
(* 5. WHAT THE METER COUNTS                                                             *)
(* ================================================================================== *)
(* The meter advances on every executed instruction whether or not an instruction limit is set
   (no hypothesis on [insn_limit]): by one, and by TWO for the instruction that resolves a
   [late] cell (the patched instruction is fetched, and metered, again).  So "every instruction
   is counted exactly once" holds for code without unresolved [late] cells, and a resolving
   instruction costs two units of the budget. *)
Theorem C14_meter_step : forall fo s s',
  fetch_and_run (native_fn fo) s = ROk tt s' ->
  meter s' = (meter s + (match nth_error (code s) (ip s) with Some (OResolve _) => 2 | _ => 1 end))%Z.
Proof. exact meter_step. Qed.
Check C14_meter_step : forall fo s s',
  fetch_and_run (native_fn fo) s = ROk tt s' ->
  meter s' = (meter s + (match nth_error (code s) (ip s) with Some (OResolve _) => 2 | _ => 1 end))%Z.

Theorem C14_meter_next : forall fo s s',
  next (native_fn fo) s = ROk tt s' ->
  meter s' = (meter s + (if is_running s
                         then match nth_error (code s) (ip s) with Some (OResolve _) => 2 | _ => 1 end
                         else 0))%Z.
Proof.
  intros fo s s' H. unfold next in H. destruct (is_running s).
  - apply (meter_step fo). exact H.
  - injection H as <-. lia.
Qed.
Check C14_meter_next : forall fo s s',
  next (native_fn fo) s = ROk tt s' ->
  meter s' = (meter s + (if is_running s
                         then match nth_error (code s) (ip s) with Some (OResolve _) => 2 | _ => 1 end
                         else 0))%Z.

Theorem C14_meter_steps : forall fo n s sn,
  steps (native_fn fo) n s = Some sn ->
  (meter s + Z.of_nat n <= meter sn <= meter s + 2 * Z.of_nat n)%Z /\
  (Forall (fun op => forall name, op <> OResolve name) (code s) -> meter sn = (meter s + Z.of_nat n)%Z).
Proof. exact meter_steps. Qed.
Check C14_meter_steps : forall fo n s sn,
  steps (native_fn fo) n s = Some sn ->
  (meter s + Z.of_nat n <= meter sn <= meter s + 2 * Z.of_nat n)%Z /\
  (Forall (fun op => forall name, op <> OResolve name) (code s) -> meter sn = (meter s + Z.of_nat n)%Z).

Theorem C14_meter_run : forall fo fuel s s',
  run (native_fn fo) fuel s = Some (ROk tt s') ->
  exists n, n < fuel /\ steps (native_fn fo) n s = Some s' /\ is_running s' = false /\
    (meter s + Z.of_nat n <= meter s' <= meter s + 2 * Z.of_nat n)%Z /\
    (Forall (fun op => forall name, op <> OResolve name) (code s) -> meter s' = (meter s + Z.of_nat n)%Z).
Proof. exact meter_run. Qed.
Check C14_meter_run : forall fo fuel s s',
  run (native_fn fo) fuel s = Some (ROk tt s') ->
  exists n, n < fuel /\ steps (native_fn fo) n s = Some s' /\ is_running s' = false /\
    (meter s + Z.of_nat n <= meter s' <= meter s + 2 * Z.of_nat n)%Z /\
    (Forall (fun op => forall name, op <> OResolve name) (code s) -> meter s' = (meter s + Z.of_nat n)%Z).

(* "exactly once" fails for the resolving instruction (witness: late foo : bar foo ; : foo 5 ; bar,
   fifth instruction) *)
Theorem C14_meter_exactly_once_refuted :
  ~ (forall fo s s', fetch_and_run (native_fn fo) s = ROk tt s' -> meter s' = (meter s + 1)%Z).
Proof. exact meter_exactly_once_refuted. Qed.
Check C14_meter_exactly_once_refuted :
  ~ (forall fo s s', fetch_and_run (native_fn fo) s = ROk tt s' -> meter s' = (meter s + 1)%Z).

(* code run at build time (meta blocks, immediate words) is metered in the same way *)
Theorem C14_meter_run_m : forall fo rf s s',
  run_m fo rf s = ROk tt s' ->
  exists n, n < rf /\ steps (native_fn fo) n s = Some s' /\ is_running s' = false /\
    (meter s + Z.of_nat n <= meter s' <= meter s + 2 * Z.of_nat n)%Z /\
    (Forall (fun op => forall name, op <> OResolve name) (code s) -> meter s' = (meter s + Z.of_nat n)%Z).
Proof.
  intros fo rf s s' H. unfold run_m, nf in H.
  destruct (run (native_fn fo) rf s) as [r|] eqn:E; [|discriminate H]. subst r.
  exact (meter_run fo rf s s' E).
Qed.
Check C14_meter_run_m : forall fo rf s s',
  run_m fo rf s = ROk tt s' ->
  exists n, n < rf /\ steps (native_fn fo) n s = Some s' /\ is_running s' = false /\
    (meter s + Z.of_nat n <= meter s' <= meter s + 2 * Z.of_nat n)%Z /\
    (Forall (fun op => forall name, op <> OResolve name) (code s) -> meter s' = (meter s + Z.of_nat n)%Z).

(* ================================================================================== *)
(* 4. BUILD TIME                                                                        *)
(* ================================================================================== *)
(* For every source and every state: whatever the builder does (token reading, emission,
   control structures, definitions, [var] and [let] allocating variables, meta blocks and
   user-defined immediate words running code, the unwinding of a rejected source), in the state
   it returns - success or error -
   the limits are unchanged, the meter has not gone back and has not passed the instruction
   limit (code run at build time is metered by the same meter), the heap is within the heap
   limit or has not grown, the data stack is within the stack limit or has not grown. *)
Theorem C14_build1_bounds : forall fo pr rf fuel depth s r s',
  build1 fo pr rf fuel depth s = r -> res_state r = Some s' ->
  insn_limit s' = insn_limit s /\ heap_limit s' = heap_limit s /\ stack_limit s' = stack_limit s /\
  (meter s <= meter s')%Z /\
  (forall N, insn_limit s = Some N -> (meter s <= N)%Z -> (meter s' <= N)%Z) /\
  (forall H, heap_limit s = Some H -> length (heap s') <= Nat.max (Z.to_nat H) (length (heap s))) /\
  (forall S, stack_limit s = Some S -> length (ds s') <= Nat.max (Z.to_nat S) (length (ds s))).
Proof. exact Proofs.VmLimitsRunBuild.build1_limits. Qed.
Check C14_build1_bounds : forall fo pr rf fuel depth s r s',
  build1 fo pr rf fuel depth s = r -> res_state r = Some s' ->
  insn_limit s' = insn_limit s /\ heap_limit s' = heap_limit s /\ stack_limit s' = stack_limit s /\
  (meter s <= meter s')%Z /\
  (forall N, insn_limit s = Some N -> (meter s <= N)%Z -> (meter s' <= N)%Z) /\
  (forall H, heap_limit s = Some H -> length (heap s') <= Nat.max (Z.to_nat H) (length (heap s))) /\
  (forall S, stack_limit s = Some S -> length (ds s') <= Nat.max (Z.to_nat S) (length (ds s))).

Theorem C14_eval_bounds : forall fo pr rf fuel src s r s',
  eval fo pr rf fuel src s = r -> res_state r = Some s' ->
  insn_limit s' = insn_limit s /\ heap_limit s' = heap_limit s /\ stack_limit s' = stack_limit s /\
  (meter s <= meter s')%Z /\
  (forall N, insn_limit s = Some N -> (meter s <= N)%Z -> (meter s' <= N)%Z) /\
  (forall H, heap_limit s = Some H -> length (heap s') <= Nat.max (Z.to_nat H) (length (heap s))) /\
  (forall S, stack_limit s = Some S -> length (ds s') <= Nat.max (Z.to_nat S) (length (ds s))).
Proof. exact Proofs.VmLimitsRunBuild.eval_limits. Qed.
Check C14_eval_bounds : forall fo pr rf fuel src s r s',
  eval fo pr rf fuel src s = r -> res_state r = Some s' ->
  insn_limit s' = insn_limit s /\ heap_limit s' = heap_limit s /\ stack_limit s' = stack_limit s /\
  (meter s <= meter s')%Z /\
  (forall N, insn_limit s = Some N -> (meter s <= N)%Z -> (meter s' <= N)%Z) /\
  (forall H, heap_limit s = Some H -> length (heap s') <= Nat.max (Z.to_nat H) (length (heap s))) /\
  (forall S, stack_limit s = Some S -> length (ds s') <= Nat.max (Z.to_nat S) (length (ds s))).

Theorem C14_compile_bounds : forall fo pr rf fuel src s r s',
  compile fo pr rf fuel src s = r -> res_state r = Some s' ->
  insn_limit s' = insn_limit s /\ heap_limit s' = heap_limit s /\ stack_limit s' = stack_limit s /\
  (meter s <= meter s')%Z /\
  (forall N, insn_limit s = Some N -> (meter s <= N)%Z -> (meter s' <= N)%Z) /\
  (forall H, heap_limit s = Some H -> length (heap s') <= Nat.max (Z.to_nat H) (length (heap s))) /\
  (forall S, stack_limit s = Some S -> length (ds s') <= Nat.max (Z.to_nat S) (length (ds s))).
Proof. exact Proofs.VmLimitsRunBuild.compile_limits. Qed.
Check C14_compile_bounds : forall fo pr rf fuel src s r s',
  compile fo pr rf fuel src s = r -> res_state r = Some s' ->
  insn_limit s' = insn_limit s /\ heap_limit s' = heap_limit s /\ stack_limit s' = stack_limit s /\
  (meter s <= meter s')%Z /\
  (forall N, insn_limit s = Some N -> (meter s <= N)%Z -> (meter s' <= N)%Z) /\
  (forall H, heap_limit s = Some H -> length (heap s') <= Nat.max (Z.to_nat H) (length (heap s))) /\
  (forall S, stack_limit s = Some S -> length (ds s') <= Nat.max (Z.to_nat S) (length (ds s))).

(* Code run at build time ([run_m]: a meta block, a user-defined immediate word, the pending
   code before each token in a meta context).  The stack limit is on the ABSOLUTE size of the
   data stack: above k = ds_len (cx s) hidden cells the block sees a limit of S - k. *)
Theorem C14_run_m_bounds : forall fo rf s r s',
  run_m fo rf s = r -> res_state r = Some s' ->
  insn_limit s' = insn_limit s /\ heap_limit s' = heap_limit s /\ stack_limit s' = stack_limit s /\
  length (heap s') = length (heap s) /\ (meter s <= meter s')%Z /\
  (forall N, insn_limit s = Some N -> (meter s <= N)%Z -> (meter s' <= N)%Z) /\
  (forall S, stack_limit s = Some S -> length (ds s') <= Nat.max (Z.to_nat S) (length (ds s))) /\
  ds_len (cx s') = ds_len (cx s) /\
  (forall S, stack_limit s = Some S ->
     data_depth s' <= Nat.max (Z.to_nat S - ds_len (cx s)) (data_depth s)).
Proof. exact run_m_bounds_x. Qed.
Check C14_run_m_bounds : forall fo rf s r s',
  run_m fo rf s = r -> res_state r = Some s' ->
  insn_limit s' = insn_limit s /\ heap_limit s' = heap_limit s /\ stack_limit s' = stack_limit s /\
  length (heap s') = length (heap s) /\ (meter s <= meter s')%Z /\
  (forall N, insn_limit s = Some N -> (meter s <= N)%Z -> (meter s' <= N)%Z) /\
  (forall S, stack_limit s = Some S -> length (ds s') <= Nat.max (Z.to_nat S) (length (ds s))) /\
  ds_len (cx s') = ds_len (cx s) /\
  (forall S, stack_limit s = Some S ->
     data_depth s' <= Nat.max (Z.to_nat S - ds_len (cx s)) (data_depth s)).

(* a push succeeds exactly when the visible depth is below S - k *)
Theorem C14_push_visible_room : forall c s S,
  stack_limit s = Some S -> ds_len (cx s) <= length (ds s) ->
  (exists s', push_data c s = ROk tt s') <->
  (Z.of_nat (data_depth s) < S - Z.of_nat (ds_len (cx s)))%Z.
Proof. exact Proofs.VmLimitsRunBuild.push_visible_room. Qed.
Check C14_push_visible_room : forall c s S,
  stack_limit s = Some S -> ds_len (cx s) <= length (ds s) ->
  (exists s', push_data c s = ROk tt s') <->
  (Z.of_nat (data_depth s) < S - Z.of_nat (ds_len (cx s)))%Z.

(* ================================================================================== *)
(* NON-VACUITY: the hypotheses hold on concrete states built from [boot]                *)
(* ================================================================================== *)
Definition c14_compiled (src : string) (s : state) : state :=
  wit_state (compile wit_fo wit_pr wit_rf wit_fuel src s).
Definition c14_after (n : nat) (s : state) : state :=
  match steps lw_nf n s with Some x => x | None => boot end.
Definition c14_far (s : state) : res unit := fetch_and_run lw_nf s.

(* cause (a): the instruction limit at the first fetch; the state is returned unchanged *)
Definition c14_insn : state := set_limits (c14_compiled "1 2 3 + +" boot) (Some 3%Z) None None.
Example C14_ex_cause_insn :
  steps lw_nf 3 c14_insn = Some (c14_after 3 c14_insn) /\
  meter (c14_after 3 c14_insn) = 3%Z /\
  c14_far (c14_after 3 c14_insn) = RErr ELimit None (c14_after 3 c14_insn) /\
  lw_kind (run lw_nf 100 c14_insn) = Some ELimit /\
  ds (lw_state (run lw_nf 100 c14_insn)) = [CInt 3; CInt 2; CInt 1].
Proof. do 4 (split; [vm_compute; reflexivity|]). vm_compute; reflexivity. Qed.

(* cause (b): the second fetch of a [late] word; the cell is resolved, the meter is N *)
Definition c14_late : state :=
  set_limits (c14_compiled "late foo : bar foo ; : foo 5 ; bar bar" boot) (Some 6%Z) None None.
Example C14_ex_cause_insn_resolve :
  steps lw_nf 5 c14_late = Some (c14_after 5 c14_late) /\
  meter (c14_after 5 c14_late) = 5%Z /\
  nth_error (code (c14_after 5 c14_late)) (ip (c14_after 5 c14_late)) = Some (OResolve "foo") /\
  dict_entry (c14_after 5 c14_late) "foo" = Some (DFun false (FInterp 7) (Some 2)) /\
  (exists s', c14_far (c14_after 5 c14_late) = RErr ELimit None s' /\ meter s' = 6%Z /\
              nth_error (code s') (ip s') = Some (OCall 7)).
Proof.
  do 4 (split; [vm_compute; reflexivity|]).
  exists (wit_state (c14_far (c14_after 5 c14_late))).
  split; [vm_compute; reflexivity|]. split; vm_compute; reflexivity.
Qed.

(* cause (c) is W1 (C14_resume_vec_end_refuted); a push-only instance: *)
Example C14_ex_push_only :
  let s := c14_after 2 (c14_compiled "1 2 3" w6_s0) in
  nth_error (code s) (ip s) = Some (OLoadI64 3) /\ push_only (OLoadI64 3) = true /\
  stack_limit s = Some 2%Z /\ insn_limit s = None /\
  c14_far s = RErr ELimit None (set_meter s (meter s + 1)%Z).
Proof. cbv zeta. do 4 (split; [vm_compute; reflexivity|]). vm_compute; reflexivity. Qed.

(* limits do not change results: hypotheses of C14_limits_only_fail_run on a real run *)
Definition c14_lim : state := set_limits (c14_compiled "1 2 + 4 *" boot) (Some 10%Z) (Some 9%Z) (Some 5%Z).
Example C14_ex_limits_only_fail :
  lw_kind (run lw_nf 100 c14_lim) = None /\ ds (lw_state (run lw_nf 100 c14_lim)) = [CInt 12] /\
  meter (lw_state (run lw_nf 100 c14_lim)) = 5%Z /\
  (exists S, stack_limit c14_lim = Some S /\ (S <= 7)%Z) /\
  (exists N, insn_limit c14_lim = Some N /\ (N - meter c14_lim <= 20 - 3)%Z) /\
  lw_kind (run lw_nf 100 (set_limits (set_meter c14_lim 3%Z) (Some 20%Z) None (Some 7%Z))) = None /\
  meter (lw_state (run lw_nf 100 (set_limits (set_meter c14_lim 3%Z) (Some 20%Z) None (Some 7%Z)))) = 8%Z.
Proof.
  do 3 (split; [vm_compute; reflexivity|]).
  split; [exists 5%Z; split; [reflexivity|lia]|].
  split; [exists 10%Z; split; [reflexivity|vm_compute; discriminate]|].
  split; vm_compute; reflexivity.
Qed.

(* recovery after the instruction limit: all hypotheses of C14_recover_insn_limit_run *)
Example C14_ex_recover_insn :
  let se := lw_state (run lw_nf 100 c14_insn) in
  stack_limit c14_insn = None /\
  run lw_nf 100 c14_insn = Some (RErr ELimit None se) /\
  lw_kind (run lw_nf 100 (set_limits (set_meter se 0%Z) (Some 100%Z) None None)) = None /\
  ds (lw_state (run lw_nf 100 (set_limits (set_meter se 0%Z) (Some 100%Z) None None))) = [CInt 6] /\
  ds (lw_state (run lw_nf 200 (set_limits c14_insn None None None))) = [CInt 6].
Proof. cbv zeta. do 4 (split; [vm_compute; reflexivity|]). vm_compute; reflexivity. Qed.

(* recovery after a stack-limit failure of a push-only instruction: hypotheses of C14_recover_steps *)
Example C14_ex_recover_push_only :
  let s0 := c14_compiled "1 2 3" w6_s0 in
  let sn := c14_after 2 s0 in
  steps lw_nf 2 s0 = Some sn /\
  (exists se, c14_far sn = RErr ELimit None se /\
     lw_kind (run lw_nf 100 (set_limits (set_meter se 7%Z) None None (Some 3%Z))) = None /\
     ds (lw_state (run lw_nf 100 (set_limits (set_meter se 7%Z) None None (Some 3%Z)))) = [CInt 3; CInt 2; CInt 1]) /\
  stack_limit s0 = Some 2%Z /\
  nth_error (code sn) (ip sn) = Some (OLoadI64 3) /\ push_only (OLoadI64 3) = true.
Proof.
  cbv zeta. split; [vm_compute; reflexivity|]. split.
  - exists (wit_state (c14_far (c14_after 2 (c14_compiled "1 2 3" w6_s0)))).
    split; [vm_compute; reflexivity|]. split; vm_compute; reflexivity.
  - do 2 (split; [vm_compute; reflexivity|]). vm_compute; reflexivity.
Qed.

(* bounds along a run that is stopped by the stack limit *)
Example C14_ex_run_bounds :
  let s0 := set_limits (c14_compiled "1 2 3 4 5" boot) (Some 50%Z) None (Some 3%Z) in
  lw_kind (run lw_nf 100 s0) = Some ELimit /\
  length (ds (lw_state (run lw_nf 100 s0))) = 3 /\ meter (lw_state (run lw_nf 100 s0)) = 4%Z /\
  length (heap (lw_state (run lw_nf 100 s0))) = length (heap s0).
Proof. cbv zeta. do 3 (split; [vm_compute; reflexivity|]). vm_compute; reflexivity. Qed.

(* the meter: five instructions, five units; a resolving instruction costs two *)
Example C14_ex_meter :
  meter (lw_state (run lw_nf 100 (set_limits c14_lim None None None))) = 5%Z /\
  length (code c14_lim) = 5 /\
  (let s := c14_after 5 (set_limits c14_late None None None) in
   nth_error (code s) (ip s) = Some (OResolve "foo") /\
   meter (c14_after 6 (set_limits c14_late None None None)) = (meter s + 2)%Z).
Proof. cbv zeta. do 3 (split; [vm_compute; reflexivity|]). vm_compute; reflexivity. Qed.

(* build time: the heap limit stops [var]; the rejected source is unwound (heap back to 6) *)
Example C14_ex_build_heap :
  let s := set_limits boot None (Some 7%Z) None in
  length (heap s) = 6 /\
  (exists s', wit_eval "0 var x" s = ROk tt s' /\ length (heap s') = 7) /\
  (exists s', wit_eval "0 var x 0 var y" s = RErr ELimit None s' /\ length (heap s') = 6 /\
              length (dict s') = length (dict s)).
Proof.
  cbv zeta. split; [reflexivity|]. split.
  - exists (wit_state (wit_eval "0 var x" (set_limits boot None (Some 7%Z) None))).
    split; vm_compute; reflexivity.
  - exists (wit_state (wit_eval "0 var x 0 var y" (set_limits boot None (Some 7%Z) None))).
    split; [vm_compute; reflexivity|]. split; vm_compute; reflexivity.
Qed.

(* build time: a meta block opened above two cells under a stack limit of 4 may push two *)
Definition c14_78 : state := set_limits (wit_state (wit_eval "7 8" boot)) None None (Some 4%Z).
Example C14_ex_build_meta_stack :
  (exists s', wit_eval "#( 1 2 #) drop drop" c14_78 = ROk tt s' /\ ds s' = [CInt 8; CInt 7]) /\
  (exists s', wit_eval "#( 1 2 3 #)" c14_78 = RErr ELimit None s' /\ ds s' = [CInt 8; CInt 7]) /\
  (let s := wit_state (context_open MMeta c14_78) in
   ds_len (cx s) = 2 /\ data_depth s = 0 /\ stack_limit s = Some 4%Z /\
   exists s', push_data (CInt 1) s = ROk tt s').
Proof.
  split; [exists (wit_state (wit_eval "#( 1 2 #) drop drop" c14_78)); split; vm_compute; reflexivity|].
  split; [exists (wit_state (wit_eval "#( 1 2 3 #)" c14_78)); split; vm_compute; reflexivity|].
  cbv zeta. do 3 (split; [vm_compute; reflexivity|]).
  exists (wit_state (push_data (CInt 1) (wit_state (context_open MMeta c14_78)))). vm_compute; reflexivity.
Qed.

(* build time: code run in a meta block is metered and stopped by the instruction limit *)
Example C14_ex_build_meter :
  (exists s', wit_eval "#( 1 2 3 + + #)" (set_limits boot (Some 4%Z) None None) = RErr ELimit None s' /\
              meter s' = 4%Z) /\
  (exists s', wit_eval "#( 1 2 3 + + #)" (set_limits boot (Some 20%Z) None None) = ROk tt s' /\
              meter s' = 6%Z /\ ds s' = [CInt 6]).
Proof.
  split.
  - exists (wit_state (wit_eval "#( 1 2 3 + + #)" (set_limits boot (Some 4%Z) None None))).
    split; vm_compute; reflexivity.
  - exists (wit_state (wit_eval "#( 1 2 3 + + #)" (set_limits boot (Some 20%Z) None None))).
    split; [vm_compute; reflexivity|]. split; vm_compute; reflexivity.
Qed.
