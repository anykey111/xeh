(* DumpUtf8.v: the words dump, dump-at and bitstr>utf8.
   - dump / dump-at print and change nothing else: heap (input, offset, stash) and data stack are those before
     (dump-at consumes its argument), on failure the state is the one before (dump) or the one after the pop;
   - bitstr>utf8 is characterised completely; it accepts exactly the well-formed byte sequences of the Unicode
     table ([utf8_valid]), among them all ASCII, and returns the same bytes as a string. *)
From Xeh Require Import Model.Prelude Model.Bits Model.Codec Model.Cell Model.Lexer Model.Fmt Model.Vm Model.Words.
From Coq Require Import Lia ZifyBool ZifyN ZifyNat.
Local Notation length := List.length.

Section DumpUtf8.
  Variable fo : fops.

  Definition prints_only (s : state) (r : res unit) : Prop :=
    match r with
    | ROk _ s' => exists t, s' = set_out s (String.append (out s) t)
    | RErr _ _ s' => s' = s
    | RPanic => False
    | RUnsup => True
    end.

  (* dump-at's worker either fails at once or prints the dump text of a window of the input *)
  Lemma dump_bitstr_at_cases start s :
    (exists k p, dump_bitstr_at start s = RErr k p s) \/
    exists c b, nth_error (heap s) R_INPUT = Some c /\ value c = CBits b /\
      let e := Z.min (Z.of_nat (cend b)) (Z.min (start + dump_window) (two64 - 1)) in
      ((start <=? e) && (Z.of_nat (cstart b) <=? start) && (e <=? Z.of_nat (cend b)))%Z = true /\
      dump_bitstr_at start s =
      match fmt_bitstr_dump (mkcbs (Z.to_nat start) (Z.to_nat e) (cdata b)) with
      | Some t => print t s
      | None => RUnsup
      end.
  Proof.
    unfold dump_bitstr_at, current_input, bind, get_var, m_bits, ret, fail, unsup.
    destruct (mode_eqb (cmode (cx s)) MMeta); [left; eauto|].
    destruct (nth_error (heap s) R_INPUT) as [c|] eqn:Ec; [|left; eauto].
    destruct (value c) eqn:Ev; try solve [left; eauto]. cbv zeta.
    match goal with |- context [if ?b then _ else _] => destruct b eqn:Eb end; [|left; eauto].
    right. exists c, b. split; [reflexivity|]. split; [exact Ev|]. split; [exact Eb|].
    destruct (fmt_bitstr_dump _); reflexivity.
  Qed.

  Lemma dump_bitstr_at_prints_only : forall start s, prints_only s (dump_bitstr_at start s).
  Proof.
    intros start s. destruct (dump_bitstr_at_cases start s) as [(k & p & ->)|(c & b & _ & _ & _ & ->)];
      [reflexivity|].
    match goal with |- context [fmt_bitstr_dump ?x] => destruct (fmt_bitstr_dump x) as [t|] end; [|exact I].
    exists t. reflexivity.
  Qed.

  (* dump: the offset cell is read, then the worker runs in the same state *)
  Lemma w_dump_cases s :
    (exists k p, w_dump s = RErr k p s) \/ exists z, w_dump s = dump_bitstr_at z s.
  Proof.
    unfold w_dump, current_offset, bind, get_var, m_usize, ret, fail.
    destruct (mode_eqb (cmode (cx s)) MMeta); [left; eauto|].
    destruct (nth_error (heap s) R_OFFSET) as [c|]; [|left; eauto].
    destruct (value c); try solve [left; eauto].
    destruct (_ <? 0)%Z; [left; eauto|]. destruct (in_usize _); [right; eauto|left; eauto].
  Qed.

  (* dump-at: the argument is popped (and logged), then the worker runs *)
  Lemma w_dump_at_cases s :
    (exists k p, w_dump_at s = RErr k p s) \/
    exists c rest, ds s = c :: rest /\
      ((exists k p, w_dump_at s = RErr k p (add_rstep (RPushData c) (set_ds s rest))) \/
       exists z, w_dump_at s = dump_bitstr_at z (add_rstep (RPushData c) (set_ds s rest))).
  Proof.
    unfold w_dump_at, with_size, bind, pop_data.
    destruct (ds s) as [|c rest] eqn:Ed; [left; eauto|].
    destruct (ds_len (cx s) <? length (c :: rest))%nat; [|left; eauto].
    right. exists c, rest. split; [reflexivity|]. unfold m_usize, ret, fail.
    destruct (value c); try solve [left; eauto].
    destruct (_ <? 0)%Z; [left; eauto|]. destruct (in_usize _); [right; eauto|left; eauto].
  Qed.

  (* from there on only the output grows *)
  Lemma w_dump_at_prints_only : forall s,
    match w_dump_at s with
    | ROk _ s' => exists c rest t, ds s = c :: rest /\
                    s' = set_out (add_rstep (RPushData c) (set_ds s rest))
                                 (String.append (out s) t)
    | RErr _ _ s' => s' = s \/ exists c rest, ds s = c :: rest /\ s' = add_rstep (RPushData c) (set_ds s rest)
    | RPanic => False
    | RUnsup => True
    end.
  Proof.
    intros s. destruct (w_dump_at_cases s) as [(k & p & ->)|(c & rest & Ed & [(k & p & ->)|(z & ->)])];
      [left; reflexivity|right; eauto|].
    set (s1 := add_rstep (RPushData c) (set_ds s rest)).
    pose proof (dump_bitstr_at_prints_only z s1) as H. unfold prints_only in H.
    destruct (dump_bitstr_at z s1) as [u s'|k p s'| |]; try exact H.
    - destruct H as (t & ->). exists c, rest, t. split; [exact Ed|].
      assert (Eo : out s1 = out s).
      { unfold s1, add_rstep. destruct (rlog (set_ds s rest)); reflexivity. }
      rewrite Eo. reflexivity.
    - right. exists c, rest. split; [exact Ed|exact H].
  Qed.

  Lemma dump_row_advance : forall ncols pos it b h a p i,
    dump_row ncols pos it = (b, h, a, p, i) ->
    i = skipn ncols it /\ p = (pos + list_sum (map snd (firstn ncols it)))%nat /\
    String.length a = ncols.
  Proof.
    induction ncols as [|k IH]; intros pos it b h a p i H.
    - cbn [dump_row] in H. injection H as <- <- <- <- <-. cbn. repeat split; try reflexivity; lia.
    - cbn [dump_row] in H. destruct it as [|[x nb] r].
      + destruct (dump_row k pos []) as [[[[b1 h1] a1] p1] i1] eqn:E.
        injection H as <- <- <- <- <-. destruct (IH _ _ _ _ _ _ _ E) as (Hi & Hp & Ha).
        rewrite skipn_nil in Hi. rewrite firstn_nil in Hp. cbn in Hp. cbn.
        repeat split; [assumption|assumption|congruence].
      + destruct (dump_row k (pos + nb) r) as [[[[b1 h1] a1] p1] i1] eqn:E.
        injection H as <- <- <- <- <-. destruct (IH _ _ _ _ _ _ _ E) as (Hi & Hp & Ha).
        cbn. repeat split; [assumption|rewrite Hp; rewrite Nat.add_assoc; reflexivity|congruence].
  Qed.

  Lemma w_bitstr_to_utf8_spec : forall s c rest b,
    ds s = c :: rest -> (ds_len (cx s) < length (ds s))%nat -> value c = CBits b ->
    w_bitstr_to_utf8 s =
      let s1 := add_rstep (RPushData c) (set_ds s rest) in
      match bytestr b with
      | None => RErr EToBytestr None s1
      | Some bytes => if utf8_valid bytes then push_data (CStr (string_of_bytes bytes)) s1
                      else RErr EParse None s1
      end.
  Proof.
    intros s c rest b Ed Hl Hv. unfold w_bitstr_to_utf8, bind, pop_data. rewrite Ed.
    rewrite Ed in Hl. apply Nat.ltb_lt in Hl. rewrite Hl.
    unfold m_bits. rewrite Hv. unfold ret. cbv zeta.
    destruct (bytestr b) as [bytes|]; [|reflexivity].
    destruct (utf8_valid bytes); reflexivity.
  Qed.

  Lemma w_bitstr_to_utf8_type_error : forall s c rest,
    ds s = c :: rest -> (ds_len (cx s) < length (ds s))%nat ->
    (forall b, value c <> CBits b) ->
    w_bitstr_to_utf8 s = RErr EType (Some (value c)) (add_rstep (RPushData c) (set_ds s rest)).
  Proof.
    intros s c rest Ed Hl Hv. unfold w_bitstr_to_utf8, bind, pop_data. rewrite Ed.
    rewrite Ed in Hl. apply Nat.ltb_lt in Hl. rewrite Hl.
    unfold m_bits. destruct (value c) eqn:E; try reflexivity. exfalso. eapply Hv. reflexivity.
  Qed.

  Lemma utf8_valid_ascii : forall l, Forall (fun x => (x < 128)%N) l -> utf8_valid l = true.
  Proof.
    induction 1 as [|x l Hx _ IH]; [reflexivity|]. cbn [utf8_valid].
    apply N.ltb_lt in Hx. rewrite Hx. exact IH.
  Qed.

  (* a valid text starts with an ASCII byte or a lead byte, never with a continuation byte or one of the
     bytes UTF-8 never uses (192, 193, 245..255) *)
  Lemma utf8_valid_head : forall a r, utf8_valid (a :: r) = true ->
    (a < 128)%N \/ (194 <= a <= 244)%N.
  Proof.
    intros a r H. cbn [utf8_valid] in H.
    destruct (N.ltb_spec a 128); [left; assumption|right].
    destruct ((194 <=? a) && (a <=? 223))%N eqn:E1; [lia|].
    destruct ((224 <=? a) && (a <=? 239))%N eqn:E2; [lia|].
    destruct ((240 <=? a) && (a <=? 244))%N eqn:E3; [lia|discriminate].
  Qed.

  Lemma string_of_bytes_of_string : forall t, string_of_bytes (bytes_of_string t) = t.
  Proof.
    induction t as [|a t IH]; [reflexivity|].
    cbn [bytes_of_string string_of_bytes fold_right]. unfold byte_of. rewrite ascii_N_embedding.
    f_equal. exact IH.
  Qed.

  Lemma bytes_of_string_of_bytes : forall l, Forall (fun x => (x < 256)%N) l ->
    bytes_of_string (string_of_bytes l) = l.
  Proof.
    induction 1 as [|x l Hx _ IH]; [reflexivity|].
    cbn [string_of_bytes fold_right bytes_of_string]. unfold byte_of.
    rewrite N_ascii_embedding by exact Hx. f_equal. exact IH.
  Qed.
End DumpUtf8.
