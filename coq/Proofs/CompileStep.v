(* CompileStep.v: one machine step seen through the relation of CompileSim.v. *)
From Xeh Require Import Model.Prelude Model.Bits Model.Codec Model.Cell Model.Lexer Model.Fmt
                        Model.Vm Model.Words Model.Struct
                        Proofs.VmFrame Proofs.CompileSim Proofs.CompileLayout.
Local Notation length := List.length.

#[local] Arguments Z.add : simpl never.
#[local] Arguments Z.sub : simpl never.
#[local] Arguments Z.mul : simpl never.
#[local] Arguments Z.ltb : simpl never.
#[local] Arguments Z.leb : simpl never.
#[local] Arguments Z.eqb : simpl never.
#[local] Arguments Z.of_nat : simpl never.
#[local] Arguments Z.to_nat : simpl never.

Lemma jt_fwd : forall p k, jump_target p (Z.of_nat k) = p + k.
Proof. intros. unfold jump_target. lia. Qed.
Lemma jt_back : forall p k, k <= p -> jump_target p (- Z.of_nat k)%Z = p - k.
Proof. intros. unfold jump_target. lia. Qed.
Lemma jt_rel : forall p t, jump_target p (rel p t) = t.
Proof. intros. unfold jump_target, rel. lia. Qed.

Record mach (c : list opcode) (s : state) : Prop := mkmach {
  m_code : code s = c;
  m_rlog : rlog s = None;
  m_lim : insn_limit s = None
}.

Definition rskeys (s : state) : list (nat * nat) := map fkey (rs s).

Lemma mach_set_ip : forall c s n, mach c s -> mach c (set_ip_raw s n).
Proof. intros c s n [H1 H2 H3]. split; assumption. Qed.
Lemma mach_set_meter : forall c s n, mach c s -> mach c (set_meter s n).
Proof. intros c s n [H1 H2 H3]. split; assumption. Qed.

Lemma mach_keep : forall c s s', mach c s -> keep s s' -> mach c s'.
Proof. intros c s s' [H1 H2 H3] (_&_&K3&K4&K5&_). split; congruence. Qed.

Lemma set_ip_off : forall n s, rlog s = None -> set_ip n s = ROk tt (set_ip_raw s n).
Proof. intros n s H. unfold set_ip. rewrite add_rstep_off by exact H. reflexivity. Qed.
Lemma next_ip_off : forall s, rlog s = None -> next_ip s = ROk tt (set_ip_raw s (S (ip s))).
Proof. intros s H. unfold next_ip. rewrite add_rstep_off by exact H. reflexivity. Qed.

Lemma bind_assoc : forall A B C (m : M A) (f : A -> M B) (g : B -> M C) s,
  bind (bind m f) g s = bind m (fun a => bind (f a) g) s.
Proof. intros. unfold bind. destruct (m s); reflexivity. Qed.

Lemma fetch_plain : forall nf s op,
  insn_limit s = None -> nth_error (code s) (ip s) = Some op -> (forall n, op <> OResolve n) ->
  fetch_and_run nf s = exec_op nf (ip s) op (set_meter s (meter s + 1)%Z).
Proof.
  intros nf s op Hl Hn Hr. unfold fetch_and_run, meter_increase. rewrite Hl.
  change (code (set_meter s (meter s + 1)%Z)) with (code s). rewrite Hn.
  destruct op; try reflexivity. exfalso. eapply Hr. reflexivity.
Qed.

Section Run.
  Variable nf : natives.
  Variable c : list opcode.

  Definition reaches (s s' : state) : Prop := exists n, steps nf n s = Some s'.

  Lemma reaches_refl : forall s, reaches s s.
  Proof. intro s. exists 0. reflexivity. Qed.

  Lemma reaches_step : forall s s1 s', fetch_and_run nf s = ROk tt s1 -> reaches s1 s' -> reaches s s'.
  Proof. intros s s1 s' H [n Hn]. exists (S n). cbn [steps]. rewrite H. exact Hn. Qed.

  Lemma steps_app : forall n m s s1 s2, steps nf n s = Some s1 -> steps nf m s1 = Some s2 -> steps nf (n + m) s = Some s2.
  Proof.
    induction n as [|n IH]; intros m s s1 s2 H1 H2.
    - cbn in H1. injection H1 as <-. exact H2.
    - cbn [steps Nat.add] in *. destruct (fetch_and_run nf s) as [u s'| | |]; try discriminate.
      eapply IH; eauto.
  Qed.

  Lemma reaches_trans : forall a b d, reaches a b -> reaches b d -> reaches a d.
  Proof. intros a b d [n Hn] [m Hm]. exists (n + m). eapply steps_app; eauto. Qed.

  Definition after (s s1 : state) : Prop :=
    mach c s1 /\ ip s1 = ip s /\ rskeys s1 = rskeys s.

  Lemma step_par : forall A (m : M A) (km : A -> M unit) t s op,
    par m -> sim t s -> mach c s ->
    nth_error c (ip s) = Some op -> (forall n, op <> OResolve n) ->
    (forall s1, exec_op nf (ip s) op s1 = bind m km s1) ->
    match m t with
    | ROk a t' => exists s1, fetch_and_run nf s = km a s1 /\ sim t' s1 /\ after s s1
    | RErr k pl t' => exists s', fetch_and_run nf s = RErr k pl s' /\ sim t' s'
    | RPanic => fetch_and_run nf s = RPanic
    | RUnsup => fetch_and_run nf s = RUnsup
    end.
  Proof.
    intros A m km t s op Hp Hs M Hn Hr He.
    destruct M as [Mc Ml Mi].
    rewrite (fetch_plain nf s op Mi) by (rewrite ?Mc; assumption). rewrite He. unfold bind.
    assert (Hs' : sim t (set_meter s (meter s + 1)%Z)) by (apply sim_set_meter_r; exact Hs).
    specialize (Hp t _ Hs' Ml).
    destruct (m t) as [a t1|k p t1| |], (m (set_meter s (meter s + 1)%Z)) as [b s1|k' p' s1| |];
      cbn [rrel] in Hp; try contradiction; auto.
    - destruct Hp as (<- & S1 & K1). exists s1. split; [reflexivity|]. split; [exact S1|].
      destruct K1 as (K1&K2&K3&K4&K5&K6). split; [|split].
      + split; [ rewrite K3; exact Mc | rewrite K5; exact Ml | rewrite K4; exact Mi ].
      + exact K1.
      + exact K6.
    - destruct Hp as (<- & <- & S1 & K1). exists s1. split; [reflexivity|exact S1].
  Qed.
End Run.
