(* TagClose.v: the one native word outside the design's exclusion list that does not commute with
   [strip_state] is close-bitstr, and the only reason is the "offset" tag that open-bitstr puts on
   the inputs it stashes in the heap slot R_STASH.  If that slot is left alone (every other cell
   of the machine - data stack, the rest of the heap, loops, locals, log - is stripped), close-bitstr
   commutes with stripping too: the case of [close_bitstr_rel] (TagClose2.v) in which the two
   stashes are the same cell. *)
From Xeh Require Import Model.Prelude Model.Bits Model.Codec Model.Cell Model.Lexer Model.Fmt
                        Model.Vm Model.BaseN Model.Words Proofs.BitsProofs Proofs.CellProofs Proofs.CollProofs
                        Proofs.TagProofs Proofs.TagSim Proofs.TagWords Proofs.TagFresh Proofs.TagClose2.
Local Notation length := List.length.

(* no doubly wrapped tag anywhere, tag maps included *)
Definition tagwfT : cell -> Prop := tg notagtag.

Theorem close_bitstr_same_stash : forall s1 s2,
  srel s1 s2 ->
  nth_error (heap s1) R_STASH = nth_error (heap s2) R_STASH ->
  (forall st, nth_error (heap s1) R_STASH = Some st -> tagwfT st) ->
  res_strip (w_close_bitstr s1) = res_strip (w_close_bitstr s2).
Proof.
  intros s1 s2 H E Hst. apply rrel_res_strip, close_bitstr_rel; [exact H|].
  intros v1 v2 V1 V2. unfold stash_vec in V2. rewrite <- E in V2. fold (stash_vec s1) in V2.
  rewrite V1 in V2. injection V2 as <-.
  apply offs_rel_refl. exact (tgT_stash_off_ok s1 Hst v1 V1).
Qed.

Definition strip_state_keep_stash (s : state) : state :=
  set_heap (strip_state s) (list_set (map strip (heap s)) R_STASH (nth R_STASH (heap s) CNil)).

Lemma srel_keep_stash : forall s, tagwf_state s -> srel s (strip_state_keep_stash s).
Proof.
  intros s Hs. apply srel_strip_but_stash; [exact Hs | reflexivity |].
  destruct (nth_in_or_default R_STASH (heap s) CNil) as [Hin|Hd]; [| rewrite Hd; split; exact I].
  destruct Hs as (_ & B & _). rewrite Forall_forall in B. auto.
Qed.

Theorem close_bitstr_commutes_keep_stash : forall s,
  tagwf_state s -> (forall st, nth_error (heap s) R_STASH = Some st -> tagwfT st) ->
  res_strip (w_close_bitstr s) = res_strip (w_close_bitstr (strip_state_keep_stash s)).
Proof.
  intros s Hs Hst. apply close_bitstr_same_stash; auto using srel_keep_stash.
  destruct (nth_error (heap s) R_STASH) as [st|] eqn:E.
  - symmetry. rewrite <- (nth_error_nth _ _ CNil E). exact (stash_strip_but_stash s _ st E).
  - apply nth_error_None in E. symmetry. apply nth_error_None.
    unfold strip_state_keep_stash. cbn [heap set_heap]. rewrite list_set_length, map_length. assumption.
Qed.
