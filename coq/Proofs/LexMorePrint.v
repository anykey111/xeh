(* Numeric literals at the level of Lex::next: every text that starts like a number (optional sign,
   a digit) and integer literals in every radix with separators; printing an integer (decimal, or
   base 2 / 8 / 16 with the radix prefix) and reading the text back. *)
From Xeh Require Import Model.Prelude Model.Cell Model.Lexer Model.Fmt.
From Xeh Require Import Proofs.LexBasic Proofs.LexNum Proofs.LexMoreNum Proofs.LexNext.
Local Open Scope string_scope.

Lemma lex_next_numeric l sg c0 r :
  is_digit c0 = true -> lrest l = sgn_text sg ++ String c0 r ->
  lex_next l =
  let '(radix, tmp1, r3, p3) :=
      num_stage2 (byte_of c0 =? 48)%N (sgn_text sg ++ String c0 "") r
                 (lpos l + String.length (sgn_text sg) + 1) in
  word_finish l (Some c0) radix tmp1 r3 p3.
Proof.
  intros Hc Hl. pose proof (digit_byte c0 Hc) as Hb.
  destruct sg; cbn [sgn_text append String.length] in *.
  - rewrite (lex_next_other l c0 r Hl); [|unfold is_ws; lia|lia|apply starts_ldq_false; lia|lia].
    unfold lex_word. cbv zeta. rewrite Hl. destruct (ascii_width c0 ltac:(lia)) as [-> _]. cbn [str_drop].
    unfold num_stage1. rewrite Hc. cbn [is0_of]. rewrite Nat.add_0_r. reflexivity.
  - rewrite (lex_next_other l "-" _ Hl eq_refl eq_refl (starts_ldq_false "-" _ eq_refl) eq_refl).
    unfold lex_word. cbv zeta. rewrite Hl. change (utf8_width "-") with 1. cbn [str_drop].
    unfold num_stage1. change (is_digit "-") with false.
    change ((byte_of "-" =? 45)%N || (byte_of "-" =? 43)%N) with true. cbv iota. rewrite Hc.
    cbn [is0_of]. replace (S (lpos l + 1)) with (lpos l + 1 + 1) by lia. reflexivity.
  - rewrite (lex_next_other l "+" _ Hl eq_refl eq_refl (starts_ldq_false "+" _ eq_refl) eq_refl).
    unfold lex_word. cbv zeta. rewrite Hl. change (utf8_width "+") with 1. cbn [str_drop].
    unfold num_stage1. change (is_digit "+") with false.
    change ((byte_of "+" =? 45)%N || (byte_of "+" =? 43)%N) with true. cbv iota. rewrite Hc.
    cbn [is0_of]. replace (S (lpos l + 1)) with (lpos l + 1 + 1) by lia. reflexivity.
Qed.

Lemma str_pop_sgn0 sg : str_pop (sgn_text sg ++ "0") = sgn_text sg.
Proof. destruct sg; reflexivity. Qed.

Lemma lex_next_numeric_plain l sg c0 body rest :
  is_digit c0 = true -> lrest l = sgn_text sg ++ String c0 (body ++ rest) ->
  no_ws body = true -> next_is_ws_or_end rest = true ->
  ((byte_of c0 =? 48)%N = true -> radix_mark (body ++ rest) = None) ->
  let p4 := lpos l + String.length (sgn_text sg) + 1 + String.length body in
  lex_next l =
  (numeric_tok (lpos l) p4 c0 None (sgn_text sg ++ String c0 (strip_us body)) (has_dot body),
   mklex rest p4 (lpos l) (llen l)).
Proof.
  intros Hc Hl Hb Hr Hm p4. rewrite (lex_next_numeric l sg c0 (body ++ rest) Hc Hl).
  rewrite num_stage2_eq.
  replace (if (byte_of c0 =? 48)%N then radix_mark (body ++ rest) else None) with (@None N)
    by (destruct (byte_of c0 =? 48)%N; [symmetry; exact (Hm eq_refl)|reflexivity]).
  rewrite word_finish_eq by assumption.
  rewrite app_assoc_s. cbn [append]. reflexivity.
Qed.

Lemma lex_next_numeric_marked l sg (m : rmark) body rest :
  lrest l = sgn_text sg ++ "0" ++ rmark_text m ++ body ++ rest ->
  no_ws body = true -> next_is_ws_or_end rest = true ->
  let p4 := lpos l + String.length (sgn_text sg) + 2 + String.length body in
  lex_next l =
  (numeric_tok (lpos l) p4 "0" (Some (rmark_radix m)) (sgn_text sg ++ strip_us body) (has_dot body),
   mklex rest p4 (lpos l) (llen l)).
Proof.
  intros Hl Hb Hr p4.
  assert (Hl' : lrest l = sgn_text sg ++ String "0" (rmark_text m ++ body ++ rest)) by exact Hl.
  rewrite (lex_next_numeric l sg "0" _ eq_refl Hl').
  rewrite num_stage2_eq. change (byte_of "0" =? 48)%N with true. cbv iota.
  replace (radix_mark (rmark_text m ++ body ++ rest)) with (Some (rmark_radix m)) by (destruct m; reflexivity).
  replace (str_drop 1 (rmark_text m ++ body ++ rest)) with (body ++ rest) by (destruct m; reflexivity).
  rewrite str_pop_sgn0.
  rewrite word_finish_eq by assumption. subst p4. cbv zeta.
  replace (S (lpos l + String.length (sgn_text sg) + 1) + String.length body)
    with (lpos l + String.length (sgn_text sg) + 2 + String.length body) by lia.
  reflexivity.
Qed.

Lemma lex_next_int_marked l sg (m : rmark) items rest :
  let radix := rmark_radix m in
  forallb (nitem_ok radix) items = true -> next_is_ws_or_end rest = true ->
  lrest l = sgn_text sg ++ "0" ++ rmark_text m ++ nitems_text items ++ rest ->
  let p4 := lpos l + String.length (sgn_text sg) + 2 + List.length items in
  lex_next l = (int_tok sg radix items (lpos l) p4, mklex rest p4 (lpos l) (llen l)).
Proof.
  intros radix Hok Hr Hl p4.
  assert (R36 : (radix <= 36)%N) by (subst radix; destruct m; discriminate).
  destruct (nitems_no_ws radix items R36 Hok) as (I1 & I2).
  rewrite (lex_next_numeric_marked l sg m (nitems_text items) rest Hl I1 Hr). cbv zeta.
  rewrite I2, nitems_text_length.
  rewrite (numeric_tok_int (lpos l) _ "0" (Some radix) radix sg items R36 Hok eq_refl). reflexivity.
Qed.

Lemma lex_next_int_decimal l sg up d0 items rest :
  (1 <= d0 <= 9)%N -> forallb (nitem_ok 10) items = true -> next_is_ws_or_end rest = true ->
  lrest l = sgn_text sg ++ nitems_text (NDig up d0 :: items) ++ rest ->
  let p4 := lpos l + String.length (sgn_text sg) + 1 + List.length items in
  lex_next l = (int_tok sg 10 (NDig up d0 :: items) (lpos l) p4, mklex rest p4 (lpos l) (llen l)).
Proof.
  intros Hd Hok Hr Hl p4.
  assert (D10 : (d0 <? 10)%N = true) by lia.
  destruct (nitems_no_ws 10 items ltac:(discriminate) Hok) as (I1 & I2).
  pose proof (digit_char_byte up d0 ltac:(lia)) as Hb. rewrite D10 in Hb.
  assert (Hc : is_digit (digit_char up d0) = true) by (unfold is_digit; clear - Hb Hd; lia).
  assert (H0 : (byte_of (digit_char up d0) =? 48)%N = false) by (clear - Hb Hd; lia).
  cbn [nitems_text nitem_char append] in Hl.
  rewrite (lex_next_numeric_plain l sg (digit_char up d0) (nitems_text items) rest Hc Hl I1 Hr).
  2:{ rewrite H0. discriminate. }
  cbv zeta. rewrite I2, nitems_text_length.
  rewrite <- (numeric_tok_int (lpos l) _ (digit_char up d0) None 10%N sg (NDig up d0 :: items)).
  - cbn [nitems_text nitem_char strip_us].
    replace (byte_of (digit_char up d0) =? 95)%N with false by (clear - Hb Hd; lia). reflexivity.
  - discriminate.
  - cbn [forallb nitem_ok]. rewrite Hok, D10. reflexivity.
  - rewrite H0. reflexivity.
Qed.

(* [sign] 0 followed by digits-and-separators other than the markers b / x / o: HEXADECIMAL *)
Lemma lex_next_int_leading_zero l sg items rest :
  forallb (nitem_ok 16) items = true -> next_is_ws_or_end rest = true ->
  radix_mark (nitems_text items ++ rest) = None ->
  lrest l = sgn_text sg ++ "0" ++ nitems_text items ++ rest ->
  let p4 := lpos l + String.length (sgn_text sg) + 1 + List.length items in
  lex_next l = (int_tok sg 16 (NDig false 0 :: items) (lpos l) p4, mklex rest p4 (lpos l) (llen l)).
Proof.
  intros Hok Hr Hm Hl p4.
  destruct (nitems_no_ws 16 items ltac:(discriminate) Hok) as (I1 & I2).
  assert (Hl' : lrest l = sgn_text sg ++ String "0" (nitems_text items ++ rest)) by exact Hl.
  rewrite (lex_next_numeric_plain l sg "0" (nitems_text items) rest eq_refl Hl' I1 Hr (fun _ => Hm)).
  cbv zeta. rewrite I2, nitems_text_length.
  rewrite <- (numeric_tok_int (lpos l) _ "0" None 16%N sg (NDig false 0 :: items));
    [reflexivity|discriminate| |reflexivity].
  cbn [forallb nitem_ok]. rewrite Hok. reflexivity.
Qed.

Lemma digits_value_app radix : forall a b acc,
  digits_value radix (a ++ b) acc = digits_value radix b (digits_value radix a acc).
Proof. induction a as [|d a IH]; intros b acc; [reflexivity|]. cbn [app digits_value]. apply IH. Qed.

Lemma digits_go_base base up : (2 <= base <= 36)%Z -> forall fuel z acc,
  (0 <= z < base ^ Z.of_nat fuel)%Z -> 0 < fuel ->
  exists ds, digits_go fuel base up z acc = nitems_text (map (NDig up) ds) ++ acc /\
             Forall (fun d => (d < Z.to_N base)%N) ds /\
             (forall a, digits_value base ds a = (a * base ^ Z.of_nat (List.length ds) + z)%Z) /\
             (z = 0%Z -> ds = [0%N]) /\ (z <> 0%Z -> exists d0 ds', ds = d0 :: ds' /\ d0 <> 0%N).
Proof.
  intros Hb. induction fuel as [|f IH]; intros z acc Hz Hf; [lia|].
  cbn [digits_go]. cbv zeta.
  assert (Hm : (0 <= z mod base < base)%Z) by (apply Z.mod_pos_bound; lia).
  pose proof (Z.div_mod z base ltac:(lia)) as Hdm.
  destruct (z / base =? 0)%Z eqn:Eq.
  - exists [Z.to_N (z mod base)]. cbn [map nitems_text nitem_char append List.length digits_value].
    split; [reflexivity|]. split; [constructor; [lia|constructor]|]. split; [|split].
    + intros a. rewrite Z2N.id by lia. change (Z.of_nat 1) with 1%Z. rewrite Z.pow_1_r. lia.
    + intros ->. reflexivity.
    + intros Hne. eexists _, []. split; [reflexivity|]. lia.
  - assert (Hq : (0 <= z / base < base ^ Z.of_nat f)%Z).
    { rewrite Nat2Z.inj_succ, Z.pow_succ_r in Hz by lia. split; [apply Z.div_pos; lia|].
      apply Z.div_lt_upper_bound; lia. }
    assert (Hf' : 0 < f).
    { destruct f; [|lia]. change (base ^ Z.of_nat 0)%Z with 1%Z in Hq. lia. }
    destruct (IH (z / base)%Z (String (digit_char up (Z.to_N (z mod base))) acc) Hq Hf')
      as (ds & E1 & E2 & E3 & _ & E5).
    exists (ds ++ [Z.to_N (z mod base)])%list. rewrite E1. rewrite map_app, nitems_text_app, app_assoc_s.
    cbn [map nitems_text nitem_char append].
    split; [reflexivity|]. split; [|split; [|split]].
    + apply Forall_app. split; [exact E2|]. constructor; [lia|constructor].
    + intros a. rewrite digits_value_app, E3. cbn [digits_value]. rewrite Z2N.id by lia.
      rewrite app_length. cbn [List.length]. rewrite Nat2Z.inj_add. change (Z.of_nat 1) with 1%Z.
      rewrite Z.pow_add_r by lia. rewrite Z.pow_1_r. lia.
    + intros ->. discriminate.
    + intros _. destruct (E5 ltac:(lia)) as (d0 & ds' & -> & Hd0). eexists _, _. split; [reflexivity|exact Hd0].
Qed.

Lemma nitems_digits_map up ds : nitems_digits (map (NDig up) ds) = ds.
Proof. induction ds as [|d ds IH]; [reflexivity|]. cbn [map nitems_digits]. rewrite IH. reflexivity. Qed.

Lemma nitems_ok_map up radix ds : Forall (fun d => (d < radix)%N) ds ->
  forallb (nitem_ok radix) (map (NDig up) ds) = true.
Proof.
  induction 1 as [|d ds Hd _ IH]; [reflexivity|]. cbn [map forallb nitem_ok]. rewrite IH.
  replace (d <? radix)%N with true by lia. reflexivity.
Qed.

Lemma pow2_130 : (two128 < 2 ^ Z.of_nat 130)%Z.
Proof. vm_compute. reflexivity. Qed.

Lemma digits_items radix up z : (2 <= radix <= 36)%N -> (0 <= z < two128)%Z ->
  exists ds, digits (Z.of_N radix) up z = nitems_text (map (NDig up) ds) /\
             forallb (nitem_ok radix) (map (NDig up) ds) = true /\
             digits_value (Z.of_N radix) ds 0 = z /\
             (z = 0%Z -> ds = [0%N]) /\ (z <> 0%Z -> exists d0 ds', ds = d0 :: ds' /\ d0 <> 0%N).
Proof.
  intros Hr Hz. pose proof pow2_130 as P2.
  assert (Hpow : (2 ^ Z.of_nat 130 <= Z.of_N radix ^ Z.of_nat 130)%Z) by (apply Z.pow_le_mono_l; lia).
  destruct (digits_go_base (Z.of_N radix) up ltac:(lia) 130 z "" ltac:(lia) ltac:(lia))
    as (ds & E1 & E2 & E3 & E4 & E5).
  exists ds. unfold digits. rewrite E1, app_nil_r_s. split; [reflexivity|].
  split; [apply nitems_ok_map; rewrite N2Z.id in E2; exact E2|]. split; [rewrite E3; lia|]. split; assumption.
Qed.

Lemma in_i128_bounds z : in_i128 z = true -> (- two127 <= z <= two127 - 1)%Z.
Proof. unfold in_i128, i128_min, i128_max. lia. Qed.

Lemma two128_two127 : (two128 = 2 * two127)%Z /\ (0 < two127)%Z.
Proof. split; vm_compute; reflexivity. Qed.

Lemma print_read_int_next : forall l z rest, in_i128 z = true -> next_is_ws_or_end rest = true ->
  lrest l = fmt_int fmt_default z ++ rest ->
  let p' := lpos l + String.length (fmt_int fmt_default z) in
  lex_next l = (TLit (CInt z), mklex rest p' (lpos l) (llen l)).
Proof.
  intros l z rest Hi Hr Hl p'. pose proof (in_i128_bounds z Hi) as Hb. destruct two128_two127 as [P128 P127].
  set (sg := if (z <? 0)%Z then SMinus else SNone).
  destruct (digits_items 10 false (Z.abs z) ltac:(lia) ltac:(lia)) as (ds & E1 & E2 & E3 & E4 & E5).
  assert (Et : fmt_int fmt_default z = sgn_text sg ++ nitems_text (map (NDig false) ds)).
  { rewrite <- E1. subst sg. change (fmt_int fmt_default z)
      with (if (z <? 0)%Z then "-" ++ digits 10 false (- z) else digits 10 false z).
    change (Z.of_N 10) with 10%Z. clear. generalize (digits 10 false). intros D.
    destruct (z <? 0)%Z eqn:En; [rewrite Z.abs_neq by lia|rewrite Z.abs_eq by lia]; reflexivity. }
  assert (Ev : sgn_apply sg (Z.abs z) = z) by (subst sg; destruct (z <? 0)%Z eqn:En; cbn [sgn_apply]; lia).
  assert (Elen : String.length (fmt_int fmt_default z) = String.length (sgn_text sg) + List.length ds).
  { rewrite Et, app_length_s, nitems_text_length, map_length. reflexivity. }
  subst p'. rewrite Elen, Nat.add_assoc. rewrite Et, app_assoc_s in Hl.
  assert (Etok : forall rdx d0 items a b, (nitems_digits (NDig false d0 :: items)) = ds ->
            digits_value (Z.of_N rdx) ds 0 = Z.abs z -> int_tok sg rdx (NDig false d0 :: items) a b = TLit (CInt z)).
  { intros rdx d0 items a b Ed Hv. unfold int_tok. rewrite Ed. destruct ds; [discriminate|].
    cbv zeta. rewrite Hv, Ev, Hi. reflexivity. }
  destruct (Z.eq_dec z 0) as [Hz|Hz].
  - (* the text 0 reads as a hexadecimal zero *)
    assert (Eds : ds = [0%N]) by (apply E4; lia). subst ds. cbn [map] in Hl.
    rewrite (lex_next_int_leading_zero l sg [] rest eq_refl Hr); [| |exact Hl].
    + cbv zeta. rewrite (Etok 16%N 0%N [] _ _ eq_refl) by (cbn; lia). cbn [List.length]. rewrite Nat.add_0_r. reflexivity.
    + destruct rest as [|c r]; [reflexivity|]. cbn [next_is_ws_or_end] in Hr. cbn [nitems_text append radix_mark].
      rewrite !(ws_not c) by (try assumption; lia). reflexivity.
  - destruct (E5 ltac:(lia)) as (d0 & ds' & -> & Hd0). cbn [map forallb nitem_ok] in E2, Hl.
    apply andb_prop in E2. destruct E2 as [Hd Hok].
    rewrite (lex_next_int_decimal l sg false d0 (map (NDig false) ds') rest ltac:(clear - Hd Hd0; lia) Hok Hr Hl).
    cbv zeta. rewrite (Etok 10%N d0 _ _ _); [|cbn [nitems_digits]; rewrite nitems_digits_map; reflexivity|exact E3].
    rewrite map_length. cbn [List.length]. f_equal. f_equal. lia.
Qed.

(* the marker, base and digit case the printer uses for a flags word *)
Definition fmt_mark (f : Z) : option rmark :=
  if (fl_base f =? 2)%Z then Some RBin
  else if (fl_base f =? 8)%Z then Some ROct
  else if (fl_base f =? 16)%Z then Some RHex else None.

Lemma fmt_int_marked f z m : fmt_mark f = Some m -> fl_prefix f = true ->
  fmt_int f z = "0" ++ rmark_text m ++
                digits (Z.of_N (rmark_radix m)) (match m with RHex => fl_upcase f | _ => false end) (z mod two128).
Proof.
  unfold fmt_mark, fmt_int. intros Hm Hp. rewrite Hp.
  (* with [digits] abstract the three equations are syntactic; otherwise conversion unfolds it *)
  generalize digits. intros D.
  destruct (fl_base f =? 2)%Z; [injection Hm as <-; reflexivity|].
  destruct (fl_base f =? 8)%Z; [injection Hm as <-; reflexivity|].
  destruct (fl_base f =? 16)%Z; [injection Hm as <-; reflexivity|discriminate].
Qed.

Lemma print_read_int_radix_next : forall l f z rest,
  (fl_base f = 2 \/ fl_base f = 8 \/ fl_base f = 16)%Z -> fl_prefix f = true -> (0 <= z)%Z -> in_i128 z = true ->
  next_is_ws_or_end rest = true ->
  lrest l = fmt_int f z ++ rest ->
  let p' := lpos l + String.length (fmt_int f z) in
  lex_next l = (TLit (CInt z), mklex rest p' (lpos l) (llen l)).
Proof.
  intros l f z rest Hbase Hp Hz Hi Hr Hl p'. pose proof (in_i128_bounds z Hi) as Hb.
  destruct two128_two127 as [P128 P127].
  assert (Hm : exists m, fmt_mark f = Some m).
  { unfold fmt_mark. destruct Hbase as [E|[E|E]]; rewrite E; eexists; reflexivity. }
  destruct Hm as [m Hm].
  set (radix := rmark_radix m). set (up := match m with RHex => fl_upcase f | _ => false end).
  assert (Hrad : (2 <= radix <= 36)%N) by (subst radix; destruct m; split; discriminate).
  destruct (digits_items radix up z Hrad ltac:(clear - Hz Hb P128; lia)) as (ds & E1 & Hok & E3 & E4 & _).
  assert (Et : fmt_int f z = "0" ++ rmark_text m ++ nitems_text (map (NDig up) ds)).
  { rewrite (fmt_int_marked f z m Hm Hp), Z.mod_small by (clear - Hz Hb P128; lia). fold radix up. rewrite E1. reflexivity. }
  assert (Hl' : lrest l = sgn_text SNone ++ "0" ++ rmark_text m ++ nitems_text (map (NDig up) ds) ++ rest).
  { rewrite Hl, Et. cbn [sgn_text append]. rewrite app_assoc_s. reflexivity. }
  rewrite (lex_next_int_marked l SNone m _ rest Hok Hr Hl'). cbv zeta. fold radix.
  assert (Elen : String.length (fmt_int f z) = 2 + List.length (map (NDig up) ds)).
  { rewrite Et. rewrite !app_length_s, nitems_text_length. destruct m; reflexivity. }
  subst p'. rewrite Elen. cbn [sgn_text String.length]. rewrite Nat.add_0_r, <- Nat.add_assoc.
  unfold int_tok. rewrite nitems_digits_map, E3. destruct ds as [|d0 ds']; [cbn in E3|]; cbv zeta; cbn [sgn_apply].
  - discriminate (E4 (eq_sym E3)).
  - rewrite Hi. reflexivity.
Qed.

