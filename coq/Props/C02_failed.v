(* C02 (continued) - a run that ENDS IN A FAILED STEP can be rewound and replayed.
   Property theorems only; proofs in Proofs/VmReplayFailed.v.

   Setting: n successful steps lead from s to sn; the next step fails (RErr e p) and leaves the
   machine in sf.  Words pop their operands before they check them, so sf usually contains
   partial, logged changes.
     failed_back sn sf = 1  if the failed step logged something (log_len sn < log_len sf),
                         0  if it logged nothing (then sf is sn up to meter / captured output).
   The hypothesis [stopping sf = stopping sn] (the about-to-stop flag is not part of the reversible
   state) is necessary (C02_rnext_undoes_failed_step in Props/C02.v) and holds for every word but
   `exit` (C02_failed_stopping_noexit). *)
From Xeh Require Import Model.Prelude Model.Bits Model.Cell Model.Vm Model.Words Proofs.VmRev
                        Proofs.VmReplayBase Proofs.VmReplayWords Proofs.VmReplay Proofs.VmReplayFailed.

(* a failed step that logged nothing changed nothing that eq_rev sees *)
Theorem C02_failed_step_no_log : forall fo s k p s',
  recording s = true -> wf_marks s -> not_resolve s ->
  fetch_and_run (native_fn fo) s = RErr k p s' -> log_len s' <= log_len s ->
  stopping s' = stopping s ->
  eq_rev s' s.
Proof. exact failed_step_no_log. Qed.
Check C02_failed_step_no_log : forall fo s k p s',
  recording s = true -> wf_marks s -> not_resolve s ->
  fetch_and_run (native_fn fo) s = RErr k p s' -> log_len s' <= log_len s ->
  stopping s' = stopping s ->
  eq_rev s' s.

(* both cases in one statement: failed_back backward steps undo the failed step *)
Theorem C02_failed_step_undone : forall fo s k p s',
  recording s = true -> log_ok s -> wf_marks s -> not_resolve s ->
  fetch_and_run (native_fn fo) s = RErr k p s' -> stopping s' = stopping s ->
  exists s'', rnexts (failed_back s s') s' = Some s'' /\ eq_rev s'' s.
Proof. exact failed_step_undone. Qed.
Check C02_failed_step_undone : forall fo s k p s',
  recording s = true -> log_ok s -> wf_marks s -> not_resolve s ->
  fetch_and_run (native_fn fo) s = RErr k p s' -> stopping s' = stopping s ->
  exists s'', rnexts (failed_back s s') s' = Some s'' /\ eq_rev s'' s.

(* every word other than `exit` leaves the about-to-stop flag alone when it fails *)
Theorem C02_failed_stopping_noexit : forall fo s k p s',
  not_resolve s -> fetch_and_run (native_fn fo) s = RErr k p s' ->
  nth_error (code s) (ip s) <> Some (ONative "exit") ->
  stopping s' = stopping s.
Proof. exact failed_step_stopping_noexit. Qed.
Check C02_failed_stopping_noexit : forall fo s k p s',
  not_resolve s -> fetch_and_run (native_fn fo) s = RErr k p s' ->
  nth_error (code s) (ip s) <> Some (ONative "exit") ->
  stopping s' = stopping s.

(* REWIND.  From the failed state, failed_back + k backward steps reach the state the original
   run had after n - k steps, for every k <= n. *)
Theorem C02_failed_rewind : forall fo n k s sn e p sf,
  recording s = true -> log_ok s -> wf_marks s ->
  (forall m sm, m <= n -> steps (native_fn fo) m s = Some sm -> not_resolve sm) ->
  steps (native_fn fo) n s = Some sn ->
  fetch_and_run (native_fn fo) sn = RErr e p sf -> stopping sf = stopping sn ->
  k <= n ->
  exists s' sm, rnexts (failed_back sn sf + k) sf = Some s' /\
                steps (native_fn fo) (n - k) s = Some sm /\ eq_rev s' sm.
Proof. exact rewind_failed. Qed.
Check C02_failed_rewind : forall fo n k s sn e p sf,
  recording s = true -> log_ok s -> wf_marks s ->
  (forall m sm, m <= n -> steps (native_fn fo) m s = Some sm -> not_resolve sm) ->
  steps (native_fn fo) n s = Some sn ->
  fetch_and_run (native_fn fo) sn = RErr e p sf -> stopping sf = stopping sn ->
  k <= n ->
  exists s' sm, rnexts (failed_back sn sf + k) sf = Some s' /\
                steps (native_fn fo) (n - k) s = Some sm /\ eq_rev s' sm.

(* the failed step logged partial changes: the first backward step undoes them, k more rewind *)
Theorem C02_failed_rewind_logged : forall fo n k s sn e p sf,
  recording s = true -> log_ok s -> wf_marks s ->
  (forall m sm, m <= n -> steps (native_fn fo) m s = Some sm -> not_resolve sm) ->
  steps (native_fn fo) n s = Some sn ->
  fetch_and_run (native_fn fo) sn = RErr e p sf -> log_len sn < log_len sf -> stopping sf = stopping sn ->
  k <= n ->
  exists s' sm, rnexts (S k) sf = Some s' /\ steps (native_fn fo) (n - k) s = Some sm /\ eq_rev s' sm.
Proof.
  intros fo n k s sn e p sf Hr Hl Hw Hn Hs Hf Hlen Hstop Hk.
  destruct (rewind_failed fo n k s sn e p sf Hr Hl Hw Hn Hs Hf Hstop Hk) as (s' & sm & A & B & C).
  unfold failed_back in A. apply Nat.ltb_lt in Hlen. rewrite Hlen in A. eauto.
Qed.
Check C02_failed_rewind_logged : forall fo n k s sn e p sf,
  recording s = true -> log_ok s -> wf_marks s ->
  (forall m sm, m <= n -> steps (native_fn fo) m s = Some sm -> not_resolve sm) ->
  steps (native_fn fo) n s = Some sn ->
  fetch_and_run (native_fn fo) sn = RErr e p sf -> log_len sn < log_len sf -> stopping sf = stopping sn ->
  k <= n ->
  exists s' sm, rnexts (S k) sf = Some s' /\ steps (native_fn fo) (n - k) s = Some sm /\ eq_rev s' sm.

(* the failed step logged nothing: sf is the last good state, k backward steps rewind *)
Theorem C02_failed_rewind_nolog : forall fo n k s sn e p sf,
  recording s = true -> log_ok s -> wf_marks s ->
  (forall m sm, m <= n -> steps (native_fn fo) m s = Some sm -> not_resolve sm) ->
  steps (native_fn fo) n s = Some sn ->
  fetch_and_run (native_fn fo) sn = RErr e p sf -> log_len sf <= log_len sn -> stopping sf = stopping sn ->
  k <= n ->
  eq_rev sf sn /\
  exists s' sm, rnexts k sf = Some s' /\ steps (native_fn fo) (n - k) s = Some sm /\ eq_rev s' sm.
Proof.
  intros fo n k s sn e p sf Hr Hl Hw Hn Hs Hf Hlen Hstop Hk.
  destruct (VmRev.steps_invariants fo n s sn Hr Hl Hw Hs) as (Ir & Il & Iw).
  split; [eapply failed_step_no_log; eauto|].
  destruct (rewind_failed fo n k s sn e p sf Hr Hl Hw Hn Hs Hf Hstop Hk) as (s' & sm & A & B & C).
  unfold failed_back in A. apply Nat.ltb_ge in Hlen. rewrite Hlen in A. eauto.
Qed.
Check C02_failed_rewind_nolog : forall fo n k s sn e p sf,
  recording s = true -> log_ok s -> wf_marks s ->
  (forall m sm, m <= n -> steps (native_fn fo) m s = Some sm -> not_resolve sm) ->
  steps (native_fn fo) n s = Some sn ->
  fetch_and_run (native_fn fo) sn = RErr e p sf -> log_len sf <= log_len sn -> stopping sf = stopping sn ->
  k <= n ->
  eq_rev sf sn /\
  exists s' sm, rnexts k sf = Some s' /\ steps (native_fn fo) (n - k) s = Some sm /\ eq_rev s' sm.

(* REWIND AND REPLAY.  ... and stepping forward k times from there leads to the state before the
   failing step again, where the next step fails with the same error kind and payload, in a state
   related to sf.  The meter is not rewound (C02_round_trip_unmetered_refuted), so the replay needs
   room for k + 1 metered instructions counted from sf. *)
Theorem C02_failed_rewind_replay : forall fo n k s sn e p sf,
  recording s = true -> log_ok s -> wf_marks s ->
  (forall m sm, m <= n -> steps (native_fn fo) m s = Some sm -> not_resolve sm) ->
  steps (native_fn fo) n s = Some sn ->
  fetch_and_run (native_fn fo) sn = RErr e p sf -> stopping sf = stopping sn ->
  k <= n -> meter_ok (Z.of_nat k + 1) sf ->
  exists s' sm b' sf',
    rnexts (failed_back sn sf + k) sf = Some s' /\
    steps (native_fn fo) (n - k) s = Some sm /\ eq_rev s' sm /\
    steps (native_fn fo) k s' = Some b' /\ eq_rev b' sn /\
    fetch_and_run (native_fn fo) b' = RErr e p sf' /\ eq_rev sf' sf.
Proof. exact rewind_replay_failed. Qed.
Check C02_failed_rewind_replay : forall fo n k s sn e p sf,
  recording s = true -> log_ok s -> wf_marks s ->
  (forall m sm, m <= n -> steps (native_fn fo) m s = Some sm -> not_resolve sm) ->
  steps (native_fn fo) n s = Some sn ->
  fetch_and_run (native_fn fo) sn = RErr e p sf -> stopping sf = stopping sn ->
  k <= n -> meter_ok (Z.of_nat k + 1) sf ->
  exists s' sm b' sf',
    rnexts (failed_back sn sf + k) sf = Some s' /\
    steps (native_fn fo) (n - k) s = Some sm /\ eq_rev s' sm /\
    steps (native_fn fo) k s' = Some b' /\ eq_rev b' sn /\
    fetch_and_run (native_fn fo) b' = RErr e p sf' /\ eq_rev sf' sf.

(* the same with checkable hypotheses: no Resolve instruction in the code, no instruction limit,
   the failing instruction is not the word `exit` *)
Theorem C02_failed_rewind_replay_plain : forall fo n k s sn e p sf,
  recording s = true -> log_ok s -> wf_marks s -> resolve_freeb s = true -> insn_limit s = None ->
  steps (native_fn fo) n s = Some sn ->
  fetch_and_run (native_fn fo) sn = RErr e p sf ->
  nth_error (code sn) (ip sn) <> Some (ONative "exit") ->
  k <= n ->
  exists s' sm b' sf',
    rnexts (failed_back sn sf + k) sf = Some s' /\
    steps (native_fn fo) (n - k) s = Some sm /\ eq_rev s' sm /\
    steps (native_fn fo) k s' = Some b' /\ eq_rev b' sn /\
    fetch_and_run (native_fn fo) b' = RErr e p sf' /\ eq_rev sf' sf.
Proof. exact rewind_replay_failed_plain. Qed.
Check C02_failed_rewind_replay_plain : forall fo n k s sn e p sf,
  recording s = true -> log_ok s -> wf_marks s -> resolve_freeb s = true -> insn_limit s = None ->
  steps (native_fn fo) n s = Some sn ->
  fetch_and_run (native_fn fo) sn = RErr e p sf ->
  nth_error (code sn) (ip sn) <> Some (ONative "exit") ->
  k <= n ->
  exists s' sm b' sf',
    rnexts (failed_back sn sf + k) sf = Some s' /\
    steps (native_fn fo) (n - k) s = Some sm /\ eq_rev s' sm /\
    steps (native_fn fo) k s' = Some b' /\ eq_rev b' sn /\
    fetch_and_run (native_fn fo) b' = RErr e p sf' /\ eq_rev sf' sf.

(* once the failed step is undone, any interleaving of Fwd / Back moves within the positions
   0..n of the run (C02_walk's vocabulary) is tracked again, invariants included *)
Theorem C02_failed_walk : forall fo n s sn e p sf s0 w q,
  recording s = true -> log_ok s -> wf_marks s ->
  (forall m sm, m <= n -> steps (native_fn fo) m s = Some sm -> not_resolve sm) ->
  steps (native_fn fo) n s = Some sn ->
  fetch_and_run (native_fn fo) sn = RErr e p sf -> stopping sf = stopping sn ->
  rnexts (failed_back sn sf) sf = Some s0 ->
  meter_ok (Z.of_nat (fwd_count w)) s0 ->
  walk_pos n w n = Some q ->
  exists cur sq, walk (native_fn fo) w s0 = Some cur /\ steps (native_fn fo) q s = Some sq /\
                 eq_rev cur sq /\ recording cur = true /\ log_ok cur /\ wf_marks cur.
Proof. exact walk_after_failed. Qed.
Check C02_failed_walk : forall fo n s sn e p sf s0 w q,
  recording s = true -> log_ok s -> wf_marks s ->
  (forall m sm, m <= n -> steps (native_fn fo) m s = Some sm -> not_resolve sm) ->
  steps (native_fn fo) n s = Some sn ->
  fetch_and_run (native_fn fo) sn = RErr e p sf -> stopping sf = stopping sn ->
  rnexts (failed_back sn sf) sf = Some s0 ->
  meter_ok (Z.of_nat (fwd_count w)) s0 ->
  walk_pos n w n = Some q ->
  exists cur sq, walk (native_fn fo) w s0 = Some cur /\ steps (native_fn fo) q s = Some sq /\
                 eq_rev cur sq /\ recording cur = true /\ log_ok cur /\ wf_marks cur.

(* ---------- non-vacuity ---------- *)
From Xeh Require Import Model.Build Model.Boot.

(* the 5th step, `+`, pops "a" and 3 (two log entries) and then fails with a type error *)
Definition c02f_prog : string := "1 2 3 ""a"" + 7"%string.
Definition c02f_start : state :=
  match compile cex_fo (fun _ => None) 1000 1000 c02f_prog (set_rlog boot (Some [])) with
  | ROk _ s => s
  | _ => boot
  end.
Definition c02f_after (n : nat) : state :=
  match steps (native_fn cex_fo) n c02f_start with Some s => s | None => boot end.
Definition c02f_failed : state :=
  match fetch_and_run (native_fn cex_fo) (c02f_after 4) with RErr _ _ s => s | _ => boot end.

Example C02_failed_example_hypotheses :
  recording c02f_start = true /\ log_ok c02f_start /\ resolve_freeb c02f_start = true /\
  insn_limit c02f_start = None /\
  code c02f_start = [OLoadI64 1; OLoadI64 2; OLoadI64 3; OLoadStr "a"; ONative "+"; OLoadI64 7] /\
  steps (native_fn cex_fo) 4 c02f_start = Some (c02f_after 4) /\
  ds (c02f_after 4) = [CStr "a"; CInt 3; CInt 2; CInt 1] /\
  fetch_and_run (native_fn cex_fo) (c02f_after 4) = RErr EType (Some (CStr "a")) c02f_failed /\
  ds c02f_failed = [CInt 2; CInt 1] /\
  log_len (c02f_after 4) = 8 /\ log_len c02f_failed = 10 /\ failed_back (c02f_after 4) c02f_failed = 1 /\
  nth_error (code (c02f_after 4)) (ip (c02f_after 4)) = Some (ONative "+").
Proof.
  split; [vm_compute; reflexivity|]. split; [vm_compute; exact I|].
  do 9 (split; [vm_compute; reflexivity|]). split; vm_compute; reflexivity.
Qed.
Example C02_failed_example_wf_marks : wf_marks c02f_start.
Proof. unfold wf_marks. vm_compute. repeat split; constructor. Qed.

(* rewound fully (1 + 4 backward steps reach the start), replayed (4 steps), and the 5th step
   fails again in the same way; the meter shows that the steps were executed again *)
Example C02_failed_example_rewind_replay :
  exists s' b' sf',
    rnexts 5 c02f_failed = Some s' /\ eq_rev s' c02f_start /\ ds s' = [] /\ ip s' = 0 /\
    rlog s' = Some [] /\
    steps (native_fn cex_fo) 4 s' = Some b' /\ eq_rev b' (c02f_after 4) /\
    fetch_and_run (native_fn cex_fo) b' = RErr EType (Some (CStr "a")) sf' /\
    eq_rev sf' c02f_failed /\ meter c02f_failed = 5%Z /\ meter sf' = 10%Z.
Proof.
  (* the witnesses are named by what computes them: an evaluated state in the proof term would be
     traversed again at every conjunct *)
  pose (s' := match rnexts 5 c02f_failed with Some s => s | None => boot end).
  pose (b' := match steps (native_fn cex_fo) 4 s' with Some s => s | None => boot end).
  pose (sf' := match fetch_and_run (native_fn cex_fo) b' with RErr _ _ s => s | _ => boot end).
  exists s', b', sf'.
  do 9 (split; [vm_compute; reflexivity|]). split; vm_compute; reflexivity.
Qed.

(* partial rewinding: 1 + 2 backward steps reach position 2 *)
Example C02_failed_example_partial :
  exists s', rnexts 3 c02f_failed = Some s' /\ eq_rev s' (c02f_after 2) /\ ds s' = [CInt 2; CInt 1] /\ ip s' = 2.
Proof.
  exists (match rnexts 3 c02f_failed with Some s => s | None => boot end).
  split; [vm_compute; reflexivity|]. split; [vm_compute; reflexivity|].
  split; vm_compute; reflexivity.
Qed.

(* the other case: `drop` on an empty stack fails without having logged anything *)
Definition c02g_prog : string := "1 drop drop 7"%string.
Definition c02g_start : state :=
  match compile cex_fo (fun _ => None) 1000 1000 c02g_prog (set_rlog boot (Some [])) with
  | ROk _ s => s
  | _ => boot
  end.
Definition c02g_after (n : nat) : state :=
  match steps (native_fn cex_fo) n c02g_start with Some s => s | None => boot end.
Definition c02g_failed : state :=
  match fetch_and_run (native_fn cex_fo) (c02g_after 2) with RErr _ _ s => s | _ => boot end.

Example C02_failed_example_nolog :
  recording c02g_start = true /\ log_ok c02g_start /\ resolve_freeb c02g_start = true /\
  steps (native_fn cex_fo) 2 c02g_start = Some (c02g_after 2) /\
  (exists e p, fetch_and_run (native_fn cex_fo) (c02g_after 2) = RErr e p c02g_failed) /\
  log_len c02g_failed = log_len (c02g_after 2) /\ failed_back (c02g_after 2) c02g_failed = 0 /\
  eq_rev c02g_failed (c02g_after 2) /\ meter c02g_failed = 3%Z /\ meter (c02g_after 2) = 2%Z /\
  exists s', rnexts 2 c02g_failed = Some s' /\ eq_rev s' c02g_start.
Proof.
  split; [vm_compute; reflexivity|]. split; [vm_compute; exact I|].
  split; [vm_compute; reflexivity|]. split; [vm_compute; reflexivity|].
  split; [do 2 eexists; vm_compute; reflexivity|].
  do 5 (split; [vm_compute; reflexivity|]).
  exists (match rnexts 2 c02g_failed with Some s => s | None => boot end).
  split; vm_compute; reflexivity.
Qed.
