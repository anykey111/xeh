(* UnwindFrame.v (C10): what running code can NOT do.  [frame_rel s s']: a program built
   from the logging primitives (every native word, every instruction, hence [run]) keeps the
   dictionary, the debug map, the flow stack, the nested contexts, the input, the sources and
   the limits; keeps every mark and the mode of the current context (only its ip moves);
   keeps the length of the heap, and the heap itself in meta mode; keeps the part of each of
   the four stacks that lies below the mark of the current context; and changes the code only
   by resolving [OResolve] cells. *)
From Xeh Require Import Model.Prelude Model.Bits Model.Codec Model.Cell Model.Lexer Model.Fmt
                        Model.Vm Model.Words Model.Build.
From Xeh Require Import Proofs.VmFrame Proofs.VmLimits Proofs.UnwindLists.
Local Notation length := List.length.

Definition is_resolve (op : opcode) : bool := match op with OResolve _ => true | _ => false end.

Definition code_keep (c c' : list opcode) : Prop :=
  length c' = length c /\
  forall i op, nth_error c i = Some op -> is_resolve op = false -> nth_error c' i = Some op.

Definition below {A} (mark : nat) (l l' : list A) : Prop :=
  forall h, suffix_of h l -> length h <= mark -> suffix_of h l'.

Definition frame_rel (s s' : state) : Prop :=
  dict s' = dict s /\ dbg s' = dbg s /\ flows s' = flows s /\ nested s' = nested s /\
  input s' = input s /\ sources s' = sources s /\ last_tok s' = last_tok s /\
  insn_limit s' = insn_limit s /\ heap_limit s' = heap_limit s /\ stack_limit s' = stack_limit s /\
  cx s' = set_ctx_ip (cx s) (cip (cx s')) /\
  length (heap s') = length (heap s) /\
  (cmode (cx s) = MMeta -> heap s' = heap s) /\
  below (ds_len (cx s)) (ds s) (ds s') /\
  below (rs_len (cx s)) (rs s) (rs s') /\
  below (ls_len (cx s)) (loops s) (loops s') /\
  below (ss_ptr (cx s)) (special s) (special s') /\
  code_keep (code s) (code s') /\
  (rlog s' = None <-> rlog s = None).

Lemma fr_dict s s' : frame_rel s s' -> dict s' = dict s.
Proof. intros H. apply H. Qed.
Lemma fr_dbg s s' : frame_rel s s' -> dbg s' = dbg s.
Proof. intros H. apply H. Qed.
Lemma fr_flows s s' : frame_rel s s' -> flows s' = flows s.
Proof. intros H. apply H. Qed.
Lemma fr_nested s s' : frame_rel s s' -> nested s' = nested s.
Proof. intros H. apply H. Qed.
Lemma fr_input s s' : frame_rel s s' -> input s' = input s.
Proof. intros H. apply H. Qed.
Lemma fr_cx s s' : frame_rel s s' -> cx s' = set_ctx_ip (cx s) (cip (cx s')).
Proof. intros H. apply H. Qed.
Lemma fr_code s s' : frame_rel s s' -> code_keep (code s) (code s').
Proof. intros H. apply H. Qed.

(* the nested contexts are neither read nor written *)
Lemma frame_rel_nested t n s1 : frame_rel (set_nested t n) s1 -> frame_rel t (set_nested s1 (nested t)).
Proof. intros H. repeat split; try apply H; try apply (fr_code _ _ H). Qed.

Lemma code_keep_refl c : code_keep c c.
Proof. split; [reflexivity|]. intros i op H _. exact H. Qed.

Lemma code_keep_trans a b c : code_keep a b -> code_keep b c -> code_keep a c.
Proof.
  intros [A1 A2] [B1 B2]. split; [congruence|].
  intros i op H Hr. apply B2; [|exact Hr]. apply A2; assumption.
Qed.

Lemma below_refl {A} n (l : list A) : below n l l.
Proof. intros h H _. exact H. Qed.

Lemma set_ctx_ip_self c : set_ctx_ip c (cip c) = c.
Proof. destruct c; reflexivity. Qed.

Lemma frame_rel_refl s : frame_rel s s.
Proof.
  unfold frame_rel. rewrite set_ctx_ip_self.
  repeat split; try reflexivity; try apply below_refl; try (intros i op H _; exact H); auto.
Qed.

Lemma frame_rel_trans a b c : frame_rel a b -> frame_rel b c -> frame_rel a c.
Proof.
  unfold frame_rel.
  intros (A1 & A2 & A3 & A4 & A5 & A6 & A7 & A8 & A9 & A10 & A11 & A12 & A13 & A14 & A15 & A16 & A17 & A18 & A19)
         (B1 & B2 & B3 & B4 & B5 & B6 & B7 & B8 & B9 & B10 & B11 & B12 & B13 & B14 & B15 & B16 & B17 & B18 & B19).
  assert (Em : cmode (cx b) = cmode (cx a)) by (rewrite A11; reflexivity).
  assert (E1 : ds_len (cx b) = ds_len (cx a)) by (rewrite A11; reflexivity).
  assert (E2 : rs_len (cx b) = rs_len (cx a)) by (rewrite A11; reflexivity).
  assert (E3 : ls_len (cx b) = ls_len (cx a)) by (rewrite A11; reflexivity).
  assert (E4 : ss_ptr (cx b) = ss_ptr (cx a)) by (rewrite A11; reflexivity).
  repeat split; try congruence.
  - rewrite B11, A11. reflexivity.
  - intros H. rewrite B13 by congruence. apply A13. exact H.
  - intros h H1 H2. apply B14; [apply A14; assumption|lia].
  - intros h H1 H2. apply B15; [apply A15; assumption|lia].
  - intros h H1 H2. apply B16; [apply A16; assumption|lia].
  - intros h H1 H2. apply B17; [apply A17; assumption|lia].
  - destruct A18, B18. congruence.
  - intros i op H Hr. apply B18; [|exact Hr]. apply A18; assumption.
  - intros H. apply A19, B19, H.
  - intros H. apply B19, A19, H.
Qed.

Ltac nat_norm :=
  repeat match goal with
         | H : (_ <? _)%nat = true |- _ => apply Nat.ltb_lt in H
         | H : (_ <? _)%nat = false |- _ => apply Nat.ltb_ge in H
         | H : (_ <=? _)%nat = true |- _ => apply Nat.leb_le in H
         | H : (_ <=? _)%nat = false |- _ => apply Nat.leb_gt in H
         end.

Ltac suf_solve H :=
  nat_norm; cbn [length] in *;
  repeat (apply suffix_tail in H; [|cbn [length]; lia]);
  repeat apply suffix_cons; exact H.

Ltac frame_fin :=
  cbv [res_all]; try exact I;
  cbv [frame_rel below code_keep set_ctx_ip
       dict heap code dbg sources input ds rs flows loops special cx nested meter insn_limit
       heap_limit stack_limit rlog out last_tok stopping
       ds_len cs_len rs_len fs_len ls_len ss_ptr di_len cip cmode];
  repeat match goal with |- _ /\ _ => split end;
  try reflexivity;
  try (rewrite ?list_set_length; reflexivity);
  try (intros; assumption);
  try (intros ?Hm; subst; discriminate);
  try (split; intro; discriminate);
  try tauto;
  try (let h := fresh "h" in let Hs := fresh "Hs" in let Hl := fresh "Hl" in
       intros h Hs Hl; suf_solve Hs).

Ltac frame_prim :=
  let s := fresh "s" in
  intro s; destruct_state s;
  match goal with c : ctx |- _ => destruct c end;
  cbv [push_data pop_data top_data swap_data rot_data over_data push_return pop_return top_frame
       push_loop pop_loop loop_next loop_set_items push_special pop_special get_var set_var
       init_local set_ip next_ip print modify ret fail unsup panic
       add_rstep limit_reached data_depth ip set_ip_raw
       set_ds set_rs set_loops set_special set_heap set_cx set_rlog set_out set_stopping
       dict heap code dbg sources input ds rs flows loops special cx nested meter insn_limit
       heap_limit stack_limit rlog out last_tok stopping
       ds_len cs_len rs_len fs_len ls_len ss_ptr di_len cip cmode];
  break_matches;
  frame_fin.

Definition P_frame {A} (m : M A) : Prop := forall s, res_all (frame_rel s) (m s).

Lemma wl_frame : forall A (m : M A), wl m -> P_frame m.
Proof.
  induction 1; try (frame_prim; fail).
  - intro s. unfold bind. specialize (IHwl s).
    destruct (m s) as [a s1 | k p s1 | |]; cbn [res_all] in *; auto.
    specialize (H1 a s1). destruct (f a s1); cbn [res_all] in *; auto;
      eapply frame_rel_trans; eauto.
  - intro s. unfold bind, get. apply H0.
Qed.

Lemma code_keep_resolve c i name op :
  nth_error c i = Some (OResolve name) -> code_keep c (list_set c i op).
Proof.
  intros H. split; [apply list_set_length|].
  intros j op' Hj Hr. destruct (Nat.eq_dec j i) as [->|Hne].
  - rewrite H in Hj. injection Hj as <-. discriminate.
  - revert i j H Hj Hne. induction c as [|x c IH]; intros i j H Hj Hne; [destruct j; discriminate|].
    destruct i as [|i]; destruct j as [|j]; cbn [list_set nth_error] in *; try congruence.
    eapply IH; eauto.
Qed.

Section WithTable.
  Variable nf : natives.
  Hypothesis Hnf : forall w f, nf w = Some f -> wl f.

  Lemma exec_op_frame : forall i o s, res_all (frame_rel s) (exec_op nf i o s).
  Proof. intros. apply wl_frame. apply wl_exec_op. exact Hnf. Qed.

  Lemma frame_rel_from s0 s s' :
    dict s0 = dict s -> dbg s0 = dbg s -> flows s0 = flows s -> nested s0 = nested s ->
    input s0 = input s -> sources s0 = sources s -> last_tok s0 = last_tok s ->
    insn_limit s0 = insn_limit s -> heap_limit s0 = heap_limit s -> stack_limit s0 = stack_limit s ->
    cx s0 = cx s -> heap s0 = heap s -> ds s0 = ds s -> rs s0 = rs s -> loops s0 = loops s ->
    special s0 = special s -> code_keep (code s) (code s0) -> rlog s0 = rlog s ->
    frame_rel s0 s' -> frame_rel s s'.
  Proof.
    intros E1 E2 E3 E4 E5 E6 E7 E8 E9 E10 E11 E12 E13 E14 E15 E16 CK E17 H.
    unfold frame_rel in *.
    rewrite E1, E2, E3, E4, E5, E6, E7, E8, E9, E10, E11, E12, E13, E14, E15, E16, E17 in H.
    destruct H as (A1 & A2 & A3 & A4 & A5 & A6 & A7 & A8 & A9 & A10 & A11 & A12 & A13 & A14 & A15 & A16 & A17 & A18 & A19).
    repeat split; try assumption; try (destruct A18; destruct CK; congruence).
    - intros i op Hi Hr. apply A18; [|exact Hr]. apply CK; assumption.
    - apply A19.
    - apply A19.
  Qed.

  Lemma far_frame : forall s, res_all (frame_rel s) (fetch_and_run nf s).
  Proof.
    intros s. pose proof (far_spec_holds nf s) as FS.
    assert (CK : forall e, code_keep (code s) (code s) /\
                 (forall name, nth_error (code s) (ip s) = Some (OResolve name) ->
                               code_keep (code s) (list_set (code s) (ip s) e))).
    { intros e. split; [apply code_keep_refl|]. intros name Hn. eapply code_keep_resolve; exact Hn. }
    inversion FS; cbn [res_all]; try exact I; try apply frame_rel_refl;
      lazymatch goal with
      | |- context [exec_op nf ?i ?o ?s1] =>
        pose proof (exec_op_frame i o s1) as X; destruct (exec_op nf i o s1);
        cbn [res_all] in *; auto;
        (eapply frame_rel_from; [..|exact X]; try reflexivity;
         cbn [set_code set_meter code];
         first [apply code_keep_refl | eapply (proj2 (CK _)); eassumption])
      | |- _ =>
        eapply frame_rel_from; [..|apply frame_rel_refl]; try reflexivity;
        cbn [set_code set_meter code];
        first [apply code_keep_refl | eapply (proj2 (CK _)); eassumption]
      end.
  Qed.

  Lemma run_frame : forall fuel s,
    match run nf fuel s with Some r => res_all (frame_rel s) r | None => True end.
  Proof.
    induction fuel as [|f IH]; intros s; cbn [run]; [exact I|].
    destruct (is_running s); [|apply frame_rel_refl].
    pose proof (far_frame s) as H.
    destruct (fetch_and_run nf s) as [u s1|k p s1| |]; cbn [res_all] in *; auto.
    specialize (IH s1). destruct (run nf f s1) as [r|]; [|exact I].
    destruct r; cbn [res_all] in *; auto; eapply frame_rel_trans; eauto.
  Qed.
End WithTable.

Theorem run_frame_native : forall fo fuel s,
  match run (native_fn fo) fuel s with Some r => res_all (frame_rel s) r | None => True end.
Proof. intros fo. apply run_frame. apply native_wl. Qed.

Lemma nth_error_firstn_lt {A} : forall n (l : list A) i, i < n -> nth_error (firstn n l) i = nth_error l i.
Proof.
  induction n as [|n IH]; intros l i H; [lia|].
  destruct l as [|x l]; [destruct i; reflexivity|].
  destruct i as [|i]; cbn [firstn nth_error]; [reflexivity|]. apply IH. lia.
Qed.

Lemma code_keep_prefix p c c' :
  Forall (fun op => is_resolve op = false) p -> prefix_of p c -> code_keep c c' -> prefix_of p c'.
Proof.
  intros Hp Hc [HL HK]. exists (skipn (length p) c').
  rewrite <- (firstn_skipn (length p) c') at 1. f_equal.
  pose proof (prefix_length _ _ Hc) as Hlen.
  apply nth_error_ext_len.
  - rewrite firstn_length. lia.
  - intros i x Hi.
    assert (Hlt : i < length p) by (apply nth_error_Some; congruence).
    rewrite nth_error_firstn_lt by exact Hlt.
    apply HK.
    + rewrite (prefix_nth _ _ _ Hc Hlt). exact Hi.
    + rewrite Forall_forall in Hp. apply Hp. eapply nth_error_In. exact Hi.
Qed.

Definition kprefix (p l : list opcode) : Prop := exists c' e, l = c' ++ e /\ code_keep p c'.

Lemma kprefix_refl p : kprefix p p.
Proof. exists p, []. split; [rewrite app_nil_r; reflexivity|apply code_keep_refl]. Qed.

Lemma kprefix_length p l : kprefix p l -> length p <= length l.
Proof. intros (c' & e & -> & [HL _]). rewrite app_length. lia. Qed.

Lemma kprefix_app p l x : kprefix p l -> kprefix p (l ++ x).
Proof. intros (c' & e & -> & H). exists c', (e ++ x). split; [rewrite app_assoc; reflexivity|exact H]. Qed.

Lemma kprefix_list_set p l i v : kprefix p l -> length p <= i -> kprefix p (list_set l i v).
Proof.
  intros (c' & e & -> & H) Hi. destruct H as [HL HK].
  rewrite list_set_app_r by lia. exists c', (list_set e (i - length c') v). split; [reflexivity|split; assumption].
Qed.

Lemma kprefix_firstn p l n : kprefix p l -> length p <= n -> kprefix p (firstn n l).
Proof.
  intros (c' & e & -> & H) Hn. destruct H as [HL HK].
  rewrite firstn_app, firstn_all2 by lia. exists c', (firstn (n - length c') e). split; [reflexivity|split; assumption].
Qed.

Lemma kprefix_firstn_keep p l : kprefix p l -> code_keep p (firstn (length p) l).
Proof.
  intros (c' & e & -> & H). destruct H as [HL HK].
  rewrite <- HL. rewrite firstn_app, Nat.sub_diag, firstn_all. cbn [firstn]. rewrite app_nil_r.
  split; assumption.
Qed.

Lemma code_keep_kprefix p c c2 : kprefix p c -> code_keep c c2 -> kprefix p c2.
Proof.
  intros (c' & e & -> & [HL HK]) [HL2 HK2]. rewrite app_length in HL2.
  exists (firstn (length c') c2), (skipn (length c') c2). split; [symmetry; apply firstn_skipn|].
  split.
  - rewrite firstn_length. lia.
  - intros i op Hi Hr.
    assert (Hlt : i < length c') by (rewrite HL; apply nth_error_Some; congruence).
    rewrite nth_error_firstn_lt by exact Hlt.
    apply HK2; [|exact Hr]. rewrite nth_error_app1 by exact Hlt. apply HK; assumption.
Qed.

Lemma code_keep_eq p c : Forall (fun op => is_resolve op = false) p -> code_keep p c -> c = p.
Proof.
  intros Hp [HL HK]. apply nth_error_ext_len; [exact HL|].
  intros i x Hi. apply HK; [exact Hi|]. rewrite Forall_forall in Hp. apply Hp. eapply nth_error_In. exact Hi.
Qed.

Lemma kprefix_prefix p l : Forall (fun op => is_resolve op = false) p -> kprefix p l -> prefix_of p l.
Proof. intros Hp (c' & e & -> & H). rewrite (code_keep_eq p c' Hp H). exists e. reflexivity. Qed.
