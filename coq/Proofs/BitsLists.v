(* List-level facts: seq/firstn/skipn, ubi, chunks8, getbit of built and updated buffers. *)
From Xeh Require Import Model.Prelude Model.Bits Proofs.BitsBasic Proofs.BitsKernel.
From Coq Require Import ZifyBool ZifyNat ZifyN.
Local Ltac Zify.zify_post_hook ::= Z.div_mod_to_equations.

Definition bytes_ok (d : list N) : Prop := Forall (fun x => (x < 256)%N) d.

Lemma firstn_seq' : forall n s len, firstn n (seq s len) = seq s (Nat.min n len).
Proof.
  induction n as [|n IH]; intros s len.
  - reflexivity.
  - destruct len as [|len]; [reflexivity|].
    cbn [seq firstn Nat.min]. f_equal. apply IH.
Qed.

Lemma skipn_seq' : forall n s len, skipn n (seq s len) = seq (s + n) (len - n).
Proof.
  induction n as [|n IH]; intros s len.
  - rewrite Nat.add_0_r, Nat.sub_0_r. reflexivity.
  - destruct len as [|len]; [reflexivity|].
    cbn [seq skipn]. rewrite IH. f_equal; lia.
Qed.

Lemma firstn_map_seq {A} (g : nat -> A) n s len :
  firstn n (map g (seq s len)) = map g (seq s (Nat.min n len)).
Proof. rewrite firstn_map, firstn_seq'. reflexivity. Qed.

Lemma skipn_map_seq {A} (g : nat -> A) n s len :
  skipn n (map g (seq s len)) = map g (seq (s + n) (len - n)).
Proof. rewrite skipn_map, skipn_seq'. reflexivity. Qed.

Lemma map_nth_seq {A} (d : A) : forall l p,
  map (fun i => nth (i - p) l d) (seq p (length l)) = l.
Proof.
  induction l as [|x l IH]; intros p; cbn [length seq map].
  - reflexivity.
  - rewrite Nat.sub_diag. cbn [nth]. f_equal.
    rewrite <- (IH (S p)) at 2. apply map_ext_in. intros i Hi.
    apply in_seq in Hi. replace (i - p) with (S (i - S p)) by lia. reflexivity.
Qed.

Lemma map_nth_seq0 {A} (d : A) l :
  map (fun i => nth i l d) (seq 0 (length l)) = l.
Proof.
  rewrite <- (map_nth_seq d l 0) at 2. apply map_ext. intros i.
  rewrite Nat.sub_0_r. reflexivity.
Qed.

Lemma nth_map_seq {A} (f : nat -> A) d s n i :
  nth i (map f (seq s n)) d = if i <? n then f (s + i) else d.
Proof.
  destruct (i <? n) eqn:E.
  - rewrite (nth_indep _ d (f 0)) by (rewrite map_length, seq_length; lia).
    rewrite map_nth, seq_nth by lia. reflexivity.
  - apply nth_overflow. rewrite map_length, seq_length. lia.
Qed.

Lemma nth_firstn' {A} (d : A) : forall n l k,
  nth k (firstn n l) d = if k <? n then nth k l d else d.
Proof.
  induction n as [|n IH]; intros l k.
  - cbn [firstn]. destruct k; reflexivity.
  - destruct l as [|x l].
    + cbn [firstn]. destruct k; destruct (_ <? _); reflexivity.
    + cbn [firstn]. destruct k as [|k]; [reflexivity|].
      cbn [nth]. rewrite IH. reflexivity.
Qed.

Lemma nth_skipn' {A} (d : A) : forall n l k, nth k (skipn n l) d = nth (n + k) l d.
Proof.
  induction n as [|n IH]; intros l k.
  - reflexivity.
  - destruct l as [|x l].
    + cbn [skipn]. destruct k; reflexivity.
    + cbn [skipn Nat.add nth]. apply IH.
Qed.

Lemma ubi_spec n :
  (n mod 8 = 0 /\ (0 <? n mod 8) = false /\ ubi n = n / 8) \/
  (0 < n mod 8 /\ (0 <? n mod 8) = true /\ ubi n = n / 8 + 1).
Proof.
  unfold ubi. destruct (0 <? n mod 8) eqn:E; [right|left]; repeat split; lia.
Qed.

Lemma ubi_ge n : n <= 8 * ubi n.
Proof. destruct (ubi_spec n) as [(H1 & _ & ->)|(H1 & _ & ->)]; lia. Qed.

Lemma ubi_le n m : n <= 8 * m -> ubi n <= m.
Proof. intros H. destruct (ubi_spec n) as [(H1 & _ & ->)|(H1 & _ & ->)]; lia. Qed.

Lemma ubi_aligned n : n mod 8 = 0 -> ubi n = n / 8.
Proof. intros H. destruct (ubi_spec n) as [(_ & _ & ->)|(? & _ & _)]; lia. Qed.

Lemma chunks8_nil {A} fuel : @chunks8 A fuel [] = [].
Proof. destruct fuel; reflexivity. Qed.

Lemma chunks8_cons {A} fuel (l : list A) : l <> [] ->
  chunks8 (S fuel) l = firstn 8 l :: chunks8 fuel (skipn 8 l).
Proof. intros H. destruct l; [congruence|reflexivity]. Qed.

Lemma concat_chunks8 {A} : forall fuel (l : list A),
  length l <= fuel -> concat (chunks8 fuel l) = l.
Proof.
  induction fuel as [|fuel IH]; intros l Hl.
  - destruct l; [reflexivity|cbn [length] in Hl; lia].
  - destruct l as [|x l]; [reflexivity|].
    rewrite chunks8_cons by discriminate. cbn [concat].
    rewrite IH.
    + apply firstn_skipn.
    + rewrite skipn_length. cbn [length] in *. lia.
Qed.

Lemma concat_chunk8 {A} (l : list A) : concat (chunk8 l) = l.
Proof. apply concat_chunks8. lia. Qed.

Lemma chunks8_lengths {A B} : forall fuel (la : list A) (lb : list B),
  length la = length lb ->
  map (@length A) (chunks8 fuel la) = map (@length B) (chunks8 fuel lb).
Proof.
  induction fuel as [|fuel IH]; intros la lb Hl.
  - reflexivity.
  - destruct la as [|x la], lb as [|y lb]; try (cbn [length] in Hl; discriminate).
    + reflexivity.
    + rewrite !chunks8_cons by discriminate. cbn [map]. f_equal.
      * rewrite !firstn_length. rewrite Hl. reflexivity.
      * apply IH. rewrite !skipn_length. rewrite Hl. reflexivity.
Qed.

Lemma chunks8_len_le8 {A} : forall fuel (l : list A),
  Forall (fun g => length g <= 8) (chunks8 fuel l).
Proof.
  induction fuel as [|fuel IH]; intros l.
  - constructor.
  - destruct l as [|x l]; [constructor|].
    rewrite chunks8_cons by discriminate. constructor.
    + apply firstn_le_length.
    + apply IH.
Qed.

Lemma chunks8_length {A} : forall fuel (l : list A),
  length l <= fuel -> length (chunks8 fuel l) = ubi (length l).
Proof.
  induction fuel as [|fuel IH]; intros l Hl.
  - destruct l; [reflexivity|cbn [length] in Hl; lia].
  - destruct l as [|x l]; [reflexivity|].
    rewrite chunks8_cons by discriminate. cbn [length].
    rewrite IH by (rewrite skipn_length; cbn [length] in *; lia).
    rewrite skipn_length. cbn [length].
    destruct (ubi_spec (S (length l))) as [(? & _ & ->)|(? & _ & ->)];
      destruct (ubi_spec (S (length l) - 8)) as [(? & _ & ->)|(? & _ & ->)]; lia.
Qed.

Lemma chunk8_length {A} (l : list A) : length (chunk8 l) = ubi (length l).
Proof. apply chunks8_length. lia. Qed.

Lemma list_eqb_spec {A} (eqb : A -> A -> bool) :
  (forall x y, eqb x y = true <-> x = y) ->
  forall a b, list_eqb eqb a b = true <-> a = b.
Proof.
  intros Heq. induction a as [|x a IH]; intros [|y b]; cbn [list_eqb].
  - tauto.
  - split; discriminate.
  - split; discriminate.
  - rewrite andb_true_iff, Heq, IH. split.
    + intros [-> ->]. reflexivity.
    + intros E. injection E as -> ->. tauto.
Qed.

Lemma pair_eqb_spec x y : pair_eqb x y = true <-> x = y.
Proof.
  unfold pair_eqb. destruct x as [a n], y as [b m]. cbn [fst snd].
  rewrite andb_true_iff, N.eqb_eq, Nat.eqb_eq. split.
  - intros [-> ->]. reflexivity.
  - intros E. injection E as -> ->. tauto.
Qed.

Lemma nthb_lt d i : bytes_ok d -> (nthb d i < 256)%N.
Proof.
  intros Hd. unfold nthb. destruct (lt_dec i (length d)) as [Hi|Hi].
  - unfold bytes_ok in Hd. rewrite Forall_nth in Hd. apply Hd. exact Hi.
  - rewrite nth_overflow by lia. lia.
Qed.

Lemma getbit_tb d i : getbit d i = tb (nthb d (i / 8)) (i mod 8).
Proof. reflexivity. Qed.

Lemma tb_0 k : tb 0 k = false.
Proof. unfold tb. apply N.bits_0. Qed.

Lemma getbit_overflow d i : 8 * length d <= i -> getbit d i = false.
Proof.
  intros H. rewrite getbit_tb. unfold nthb. rewrite nth_overflow by lia. apply tb_0.
Qed.

Lemma getbit_nil i : getbit [] i = false.
Proof. apply getbit_overflow. cbn [length]. lia. Qed.

Lemma getbit_cons x d i :
  getbit (x :: d) i = if i <? 8 then tb x i else getbit d (i - 8).
Proof.
  rewrite !getbit_tb. unfold nthb. destruct (i <? 8) eqn:E.
  - replace (i / 8) with 0 by lia. replace (i mod 8) with i by lia. reflexivity.
  - replace (i / 8) with (S ((i - 8) / 8)) by lia.
    replace ((i - 8) mod 8) with (i mod 8) by lia. reflexivity.
Qed.

Lemma getbit_app d1 d2 i :
  getbit (d1 ++ d2) i =
  if i <? 8 * length d1 then getbit d1 i else getbit d2 (i - 8 * length d1).
Proof.
  rewrite !getbit_tb. unfold nthb. destruct (i <? 8 * length d1) eqn:E.
  - rewrite app_nth1 by lia. reflexivity.
  - rewrite app_nth2 by lia.
    replace ((i - 8 * length d1) / 8) with (i / 8 - length d1) by lia.
    replace ((i - 8 * length d1) mod 8) with (i mod 8) by lia. reflexivity.
Qed.

Lemma getbit_firstn n d i :
  getbit (firstn n d) i = if i <? 8 * n then getbit d i else false.
Proof.
  rewrite !getbit_tb. unfold nthb. rewrite nth_firstn'.
  destruct (i <? 8 * n) eqn:E.
  - replace (i / 8 <? n) with true by lia. reflexivity.
  - replace (i / 8 <? n) with false by lia. apply tb_0.
Qed.

Lemma getbit_repeat0 n i : getbit (repeat 0%N n) i = false.
Proof.
  rewrite getbit_tb. unfold nthb. rewrite nth_repeat. apply tb_0.
Qed.

Lemma resize_length d n : length (resize d n) = n.
Proof.
  unfold resize. rewrite app_length, firstn_length, repeat_length. lia.
Qed.

Lemma getbit_resize d n i :
  getbit (resize d n) i = if i <? 8 * n then getbit d i else false.
Proof.
  unfold resize. rewrite getbit_app, firstn_length, getbit_firstn, getbit_repeat0.
  destruct (i <? 8 * n) eqn:E1; destruct (i <? 8 * Nat.min n (length d)) eqn:E2;
    try reflexivity.
  symmetry. apply getbit_overflow. lia.
Qed.

Lemma bytes_ok_firstn n d : bytes_ok d -> bytes_ok (firstn n d).
Proof.
  unfold bytes_ok. rewrite !Forall_forall. intros H x Hx. apply H.
  rewrite <- (firstn_skipn n d). apply in_or_app. left. exact Hx.
Qed.

Lemma bytes_ok_skipn n d : bytes_ok d -> bytes_ok (skipn n d).
Proof.
  unfold bytes_ok. rewrite !Forall_forall. intros H x Hx. apply H.
  rewrite <- (firstn_skipn n d). apply in_or_app. right. exact Hx.
Qed.

Lemma bytes_ok_repeat0 n : bytes_ok (repeat 0%N n).
Proof.
  unfold bytes_ok. rewrite Forall_forall. intros x Hx.
  apply repeat_spec in Hx. subst x. lia.
Qed.

Lemma bytes_ok_resize d n : bytes_ok d -> bytes_ok (resize d n).
Proof.
  intros H. unfold resize, bytes_ok. apply Forall_app. split.
  - apply bytes_ok_firstn, H.
  - apply bytes_ok_repeat0.
Qed.

Lemma bytes_ok_app d1 d2 : bytes_ok d1 -> bytes_ok d2 -> bytes_ok (d1 ++ d2).
Proof. intros H1 H2. apply Forall_app. split; assumption. Qed.

Lemma upd_length : forall d j f, length (upd d j f) = length d.
Proof.
  induction d as [|x d IH]; intros j f.
  - reflexivity.
  - destruct j; cbn [upd length]; [reflexivity|]. rewrite IH. reflexivity.
Qed.

Lemma nth_upd_same : forall d j f, j < length d ->
  nth j (upd d j f) 0%N = f (nth j d 0%N).
Proof.
  induction d as [|x d IH]; intros j f Hj; cbn [length] in Hj.
  - lia.
  - destruct j; cbn [upd nth]; [reflexivity|]. apply IH. lia.
Qed.

Lemma nth_upd_other : forall d j f k, k <> j ->
  nth k (upd d j f) 0%N = nth k d 0%N.
Proof.
  induction d as [|x d IH]; intros j f k Hk.
  - reflexivity.
  - destruct j, k; cbn [upd nth]; try reflexivity; try lia.
    apply IH. lia.
Qed.

Lemma getbit_upd d j f i : j < length d ->
  getbit (upd d j f) i =
  if i / 8 =? j then tb (f (nthb d j)) (i mod 8) else getbit d i.
Proof.
  intros Hj. rewrite !getbit_tb. unfold nthb. destruct (i / 8 =? j) eqn:E.
  - apply Nat.eqb_eq in E. rewrite E. rewrite nth_upd_same by assumption. reflexivity.
  - apply Nat.eqb_neq in E. rewrite nth_upd_other by assumption. reflexivity.
Qed.

Lemma bytes_ok_upd : forall d j f, bytes_ok d ->
  (forall y, (y < 256)%N -> (f y < 256)%N) -> bytes_ok (upd d j f).
Proof.
  unfold bytes_ok. induction d as [|x d IH]; intros j f Hd Hf.
  - constructor.
  - inversion Hd as [|? ? Hx Hd']; subst.
    destruct j; cbn [upd]; constructor; auto.
Qed.

(* a byte update [f] that applies [g] to bit [pos mod 8] and leaves the other bits alone *)
Lemma getbit_upd_bit d pos f (g : bool -> bool) i : bytes_ok d -> pos < 8 * length d ->
  (forall j, j < 8 ->
     tb (f (nthb d (pos / 8))) j = if j =? pos mod 8 then g (tb (nthb d (pos / 8)) j) else tb (nthb d (pos / 8)) j) ->
  getbit (upd d (pos / 8) f) i = if i =? pos then g (getbit d i) else getbit d i.
Proof.
  intros Hd Hp Hf. rewrite getbit_upd by lia. rewrite getbit_tb.
  destruct (i / 8 =? pos / 8) eqn:E.
  - apply Nat.eqb_eq in E. rewrite Hf by lia. rewrite <- E.
    replace (i mod 8 =? pos mod 8) with (i =? pos) by lia. reflexivity.
  - replace (i =? pos) with false; [reflexivity|].
    symmetry. apply Nat.eqb_neq. intros ->. apply Nat.eqb_neq in E. lia.
Qed.

Lemma getbit_or1 d pos b i : bytes_ok d -> pos < 8 * length d ->
  getbit (upd d (pos / 8) (fun y => N.lor y (N.shiftl (b2n b) (N.of_nat (7 - pos mod 8))))) i
  = if i =? pos then getbit d i || b else getbit d i.
Proof.
  intros Hd Hp. apply (getbit_upd_bit d pos _ (fun x => x || b)); [exact Hd|exact Hp|].
  intros j Hj. rewrite (proj2 (or_kernel _ b (pos mod 8) (nthb_lt _ _ Hd) ltac:(lia))) by exact Hj.
  destruct (j =? pos mod 8); [rewrite andb_true_r|rewrite andb_false_r, orb_false_r]; reflexivity.
Qed.

Lemma getbit_xor1 d pos i : bytes_ok d -> pos < 8 * length d ->
  getbit (upd d (pos / 8) (fun y => N.lxor y (N.shiftl 1 (N.of_nat (7 - pos mod 8))))) i
  = if i =? pos then negb (getbit d i) else getbit d i.
Proof.
  intros Hd Hp. apply (getbit_upd_bit d pos _ negb); [exact Hd|exact Hp|].
  intros j Hj. rewrite (proj2 (xor_kernel _ (pos mod 8) (nthb_lt _ _ Hd) ltac:(lia))) by exact Hj.
  destruct (j =? pos mod 8); [apply xorb_true_r|apply xorb_false_r].
Qed.

Lemma bytes_ok_or1 d j b s : bytes_ok d -> s < 8 ->
  bytes_ok (upd d j (fun y => N.lor y (N.shiftl (b2n b) (N.of_nat (7 - s))))).
Proof.
  intros Hd Hs. apply bytes_ok_upd; [assumption|].
  intros y Hy. apply (or_kernel y b s Hy Hs).
Qed.

Lemma bytes_ok_xor1 d j s : bytes_ok d -> s < 8 ->
  bytes_ok (upd d j (fun y => N.lxor y (N.shiftl 1 (N.of_nat (7 - s))))).
Proof.
  intros Hd Hs. apply bytes_ok_upd; [assumption|].
  intros y Hy. apply (xor_kernel y s Hy Hs).
Qed.

Lemma or_bits_length : forall bs d pos, length (or_bits d pos bs) = length d.
Proof.
  induction bs as [|x bs IH]; intros d pos; cbn [or_bits].
  - reflexivity.
  - rewrite IH. apply upd_length.
Qed.

Lemma bytes_ok_or_bits : forall bs d pos, bytes_ok d ->
  bytes_ok (or_bits d pos (map b2n bs)).
Proof.
  induction bs as [|x bs IH]; intros d pos Hd; cbn [or_bits map].
  - assumption.
  - apply IH. apply bytes_ok_or1; [assumption|lia].
Qed.

Lemma getbit_or_bits : forall bs d pos i, bytes_ok d ->
  pos + length bs <= 8 * length d ->
  getbit (or_bits d pos (map b2n bs)) i = getbit d i || ((pos <=? i) && nth (i - pos) bs false).
Proof.
  induction bs as [|x bs IH]; intros d pos i Hd Hl; cbn [or_bits map length] in *.
  - destruct (i - pos); rewrite andb_false_r, orb_false_r; reflexivity.
  - rewrite IH by (try apply bytes_ok_or1; try rewrite upd_length; assumption || lia).
    rewrite getbit_or1 by (assumption || lia).
    destruct (i =? pos) eqn:E1.
    + apply Nat.eqb_eq in E1. subst i. rewrite Nat.sub_diag, Nat.leb_refl.
      replace (S pos <=? pos) with false by lia. cbn [nth andb]. apply orb_false_r.
    + destruct (S pos <=? i) eqn:E2.
      * replace (pos <=? i) with true by lia.
        replace (i - pos) with (S (i - S pos)) by lia. reflexivity.
      * replace (pos <=? i) with false by lia. reflexivity.
Qed.

Lemma xor_bits_length : forall n d pos, length (xor_bits d pos n) = length d.
Proof.
  induction n as [|n IH]; intros d pos; cbn [xor_bits].
  - reflexivity.
  - rewrite IH. apply upd_length.
Qed.

Lemma bytes_ok_xor_bits : forall n d pos, bytes_ok d -> bytes_ok (xor_bits d pos n).
Proof.
  induction n as [|n IH]; intros d pos Hd; cbn [xor_bits].
  - assumption.
  - apply IH. apply bytes_ok_xor1; [assumption|lia].
Qed.

Lemma getbit_xor_bits : forall n d pos i, bytes_ok d ->
  pos + n <= 8 * length d ->
  getbit (xor_bits d pos n) i =
  if (pos <=? i) && (i <? pos + n) then negb (getbit d i) else getbit d i.
Proof.
  induction n as [|n IH]; intros d pos i Hd Hl; cbn [xor_bits].
  - replace ((pos <=? i) && (i <? pos + 0)) with false by lia. reflexivity.
  - rewrite IH by (try apply bytes_ok_xor1; try rewrite upd_length; assumption || lia).
    rewrite getbit_xor1 by (assumption || lia).
    destruct (i =? pos) eqn:E1.
    + apply Nat.eqb_eq in E1. subst i.
      replace ((S pos <=? pos) && (pos <? S pos + n)) with false by lia.
      replace ((pos <=? pos) && (pos <? pos + S n)) with true by lia. reflexivity.
    + replace ((pos <=? i) && (i <? pos + S n)) with ((S pos <=? i) && (i <? S pos + n)) by lia.
      reflexivity.
Qed.

Lemma byte_ext x y : (x < 256)%N -> (y < 256)%N -> (forall k, k < 8 -> tb x k = tb y k) -> x = y.
Proof.
  intros Hx Hy H. rewrite <- (bits_to_N_tb x Hx), <- (bits_to_N_tb y Hy). f_equal.
  apply map_ext_in. intros k Hk. apply in_seq in Hk. apply H. lia.
Qed.

Lemma bytes_ext d1 d2 : bytes_ok d1 -> bytes_ok d2 -> length d1 = length d2 ->
  (forall i, getbit d1 i = getbit d2 i) -> d1 = d2.
Proof.
  intros H1 H2 HL H. apply (nth_ext _ _ 0%N 0%N HL). intros j Hj.
  apply byte_ext; [exact (nthb_lt d1 j H1)|exact (nthb_lt d2 j H2)|].
  intros k Hk. specialize (H (8 * j + k)). rewrite !getbit_tb in H.
  replace ((8 * j + k) / 8) with j in H by lia.
  replace ((8 * j + k) mod 8) with k in H by lia. exact H.
Qed.

Lemma map_seq_ext {A} (f g : nat -> A) : forall k s t,
  (forall j, j < k -> f (s + j) = g (t + j)) ->
  map f (seq s k) = map g (seq t k).
Proof.
  induction k as [|k IH]; intros s t H.
  - reflexivity.
  - cbn [seq map]. f_equal.
    + specialize (H 0 ltac:(lia)). rewrite !Nat.add_0_r in H. exact H.
    + apply IH. intros j Hj. specialize (H (S j) ltac:(lia)).
      replace (S s + j) with (s + S j) by lia.
      replace (S t + j) with (t + S j) by lia. exact H.
Qed.

Lemma getbit_skipn a d i : getbit (skipn a d) i = getbit d (8 * a + i).
Proof.
  rewrite !getbit_tb. unfold nthb. rewrite nth_skipn'.
  replace ((8 * a + i) / 8) with (a + i / 8) by lia.
  replace ((8 * a + i) mod 8) with (i mod 8) by lia. reflexivity.
Qed.

Lemma flat_map_map' {A B C} (f : B -> list C) (g : A -> B) l :
  flat_map f (map g l) = flat_map (fun x => f (g x)) l.
Proof.
  induction l as [|x l IH]; cbn [map flat_map]; [reflexivity|]. rewrite IH. reflexivity.
Qed.
