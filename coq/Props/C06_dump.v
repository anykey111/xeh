(* C06 (continuation) - the inspection words `dump` and `dump-at` of the parsing cursor.
   They belong to the cursor vocabulary (they read `input` and `offset`).
   What C06 needs of them: they print and change nothing else - input, offset, stash (the heap) and the data stack
   are those before (`dump-at` consumes its one argument), and a failing `dump` leaves the state as it was.
   [prints_only s r]: r is a normal return in the state s with text appended to the captured output, or an error in
   exactly s; never a panic. *)
From Xeh Require Import Model.Prelude Model.Bits Model.Codec Model.Cell Model.Lexer Model.Fmt Model.Vm Model.Words.
From Xeh Require Import Proofs.DumpUtf8 Proofs.DumpFuel.
Local Notation length := List.length.

Theorem C06_dump_prints_only : forall s, prints_only s (w_dump s).
Proof.
  intros s. destruct (w_dump_cases s) as [(k & p & ->)|(z & ->)];
    [reflexivity|apply dump_bitstr_at_prints_only].
Qed.
Check C06_dump_prints_only : forall s, prints_only s (w_dump s).

Theorem C06_dump_keeps_cursor : forall s u s',
  w_dump s = ROk u s' -> heap s' = heap s /\ ds s' = ds s /\ cx s' = cx s /\ rlog s' = rlog s.
Proof.
  intros s u s' H. pose proof (C06_dump_prints_only s) as P. rewrite H in P. destruct P as (t & ->).
  repeat split.
Qed.
Check C06_dump_keeps_cursor : forall s u s',
  w_dump s = ROk u s' -> heap s' = heap s /\ ds s' = ds s /\ cx s' = cx s /\ rlog s' = rlog s.

Theorem C06_dump_fails_clean : forall s k p s', w_dump s = RErr k p s' -> s' = s.
Proof. intros s k p s' H. pose proof (C06_dump_prints_only s) as P. rewrite H in P. exact P. Qed.
Check C06_dump_fails_clean : forall s k p s', w_dump s = RErr k p s' -> s' = s.

Theorem C06_dump_at_prints_only : forall s,
  match w_dump_at s with
  | ROk _ s' => exists c rest t, ds s = c :: rest /\
                  s' = set_out (add_rstep (RPushData c) (set_ds s rest)) (String.append (out s) t)
  | RErr _ _ s' => s' = s \/ exists c rest, ds s = c :: rest /\ s' = add_rstep (RPushData c) (set_ds s rest)
  | RPanic => False
  | RUnsup => True
  end.
Proof. exact w_dump_at_prints_only. Qed.
Check C06_dump_at_prints_only : forall s,
  match w_dump_at s with
  | ROk _ s' => exists c rest t, ds s = c :: rest /\
                  s' = set_out (add_rstep (RPushData c) (set_ds s rest)) (String.append (out s) t)
  | RErr _ _ s' => s' = s \/ exists c rest, ds s = c :: rest /\ s' = add_rstep (RPushData c) (set_ds s rest)
  | RPanic => False
  | RUnsup => True
  end.

Theorem C06_dump_at_keeps_cursor : forall s u s',
  w_dump_at s = ROk u s' -> heap s' = heap s /\ exists c, ds s = c :: ds s'.
Proof.
  intros s u s' H. pose proof (C06_dump_at_prints_only s) as P. rewrite H in P.
  destruct P as (c & rest & t & Ed & ->). split.
  - unfold add_rstep. destruct (rlog (set_ds s rest)); reflexivity.
  - exists c. rewrite Ed. f_equal. unfold add_rstep. destruct (rlog (set_ds s rest)); reflexivity.
Qed.
Check C06_dump_at_keeps_cursor : forall s u s',
  w_dump_at s = ROk u s' -> heap s' = heap s /\ exists c, ds s = c :: ds s'.

(* a row of the dump consumes at most [ncols] groups of the iterator, advances the printed position by exactly
   their bits and has exactly [ncols] characters in its text column *)
Theorem C06_dump_row_advance : forall ncols pos it b h a p i,
  dump_row ncols pos it = (b, h, a, p, i) ->
  i = skipn ncols it /\ p = (pos + list_sum (map snd (firstn ncols it)))%nat /\ String.length a = ncols.
Proof. exact dump_row_advance. Qed.
Check C06_dump_row_advance : forall ncols pos it b h a p i,
  dump_row ncols pos it = (b, h, a, p, i) ->
  i = skipn ncols it /\ p = (pos + list_sum (map snd (firstn ncols it)))%nat /\ String.length a = ncols.

(* the words are the interpreter's *)
Theorem C06_dump_words : forall fo,
  native_fn fo "dump"%string = Some w_dump /\ native_fn fo "dump-at"%string = Some w_dump_at.
Proof. intro fo. split; reflexivity. Qed.
Check C06_dump_words : forall fo,
  native_fn fo "dump"%string = Some w_dump /\ native_fn fo "dump-at"%string = Some w_dump_at.

(* non-vacuity: six bytes of input, cursor at bit 3: one line, position "00000,3", six whole groups and the rest *)
Example C06_dump_example :
  fmt_bitstr_dump (mkcbs 3 48 [65; 226; 130; 172; 66; 255]%N)
  = Some ("00000,3: 0f 14 15 62 17 1f      ...b..  " ++ String (Ascii.ascii_of_N 10) "")%string.
Proof. vm_compute. reflexivity. Qed.

(* the line loop always ends: for a well-formed input `dump` / `dump-at` never leave the model *)
Theorem C06_dump_text_total : forall c, wf c -> fmt_bitstr_dump c <> None.
Proof. exact fmt_bitstr_dump_total. Qed.
Check C06_dump_text_total : forall c, wf c -> fmt_bitstr_dump c <> None.

Theorem C06_dump_in_model : forall s, input_wf s -> w_dump s <> RUnsup.
Proof.
  intros s Hin. destruct (w_dump_cases s) as [(k & p & ->)|(z & ->)];
    [discriminate|apply dump_bitstr_at_in_model; exact Hin].
Qed.
Check C06_dump_in_model : forall s, input_wf s -> w_dump s <> RUnsup.

Theorem C06_dump_at_in_model : forall s, input_wf s -> w_dump_at s <> RUnsup.
Proof.
  intros s Hin. destruct (w_dump_at_cases s) as [(k & p & ->)|(c & rest & _ & [(k & p & ->)|(z & ->)])];
    [discriminate|discriminate|].
  apply dump_bitstr_at_in_model. intros c0 b H1 H2. apply (Hin c0 b); [|exact H2].
  unfold add_rstep in H1. destruct (rlog (set_ds s rest)); exact H1.
Qed.
Check C06_dump_at_in_model : forall s, input_wf s -> w_dump_at s <> RUnsup.

(* every 8-bit group of a well-formed value has at least one bit and together they have exactly its bits *)
Theorem C06_iter8_groups : forall c, wf c ->
  Forall (fun g => 0 < snd g) (iter8 c) /\ list_sum (map snd (iter8 c)) = clen c.
Proof. exact iter8_groups. Qed.
Check C06_iter8_groups : forall c, wf c ->
  Forall (fun g => 0 < snd g) (iter8 c) /\ list_sum (map snd (iter8 c)) = clen c.
