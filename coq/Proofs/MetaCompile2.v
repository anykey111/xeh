(* MetaCompile2.v (C11): token steps outside meta blocks, whole builds, compile.

   Every token step taken in a non-meta context either keeps [R5], or opens a meta block, or
   is a use of the word `immediate`.  A whole meta block is an [R5] step of the context it was
   opened in.  Hence a successful compile leaves the data stack as it was and extends the heap
   by nil cells only - unless the source uses `immediate` at its top level. *)
From Xeh Require Import Model.Prelude Model.Bits Model.Codec Model.Cell Model.Lexer Model.Fmt
                        Model.Vm Model.Words Model.Build.
From Xeh Require Import Proofs.VmFrame Proofs.VmLimits Proofs.NoPanic Proofs.NoPanicBuild Proofs.NoPanicFlow
                        Proofs.MetaBase Proofs.MetaPurge Proofs.MetaBuild Proofs.MetaClose Proofs.MetaPrefix
                        Proofs.MetaPrefixBuild Proofs.MetaPrefixWords Proofs.MetaBlock Proofs.MetaSeg
                        Proofs.MetaInline Proofs.MetaCompile.
Local Notation length := List.length.
Local Open Scope string_scope.
Local Open Scope list_scope.

Lemma dict_rfind_in : forall d name acc e,
  dict_rfind d name acc = Some e -> acc = Some e \/ exists x, In x d /\ dent x = e.
Proof.
  induction d as [|x d IH]; intros name acc e H; cbn [dict_rfind] in H; [left; exact H|].
  destruct (IH _ _ _ H) as [E|(y & Hy & Ey)].
  - destruct (String.eqb (dname x) name); [|left; exact E].
    injection E as <-. right. exists x. split; [left; reflexivity|reflexivity].
  - right. exists y. split; [right; exact Hy|exact Ey].
Qed.

Lemma no_user_imm_entry s name x len :
  no_user_imm (dict s) -> dict_entry s name = Some (DFun true (FInterp x) len) -> False.
Proof.
  intros Hn E. unfold dict_entry in E. destruct (dict_rfind_in _ _ _ _ E) as [C|(y & Hy & Ey)]; [discriminate|].
  unfold no_user_imm in Hn. rewrite Forall_forall in Hn. specialize (Hn y Hy).
  unfold user_imm in Hn. rewrite Ey in Hn. discriminate.
Qed.

Lemma R5_depth a b : R5 a b -> depth b = depth a.
Proof. intros (N & _). unfold depth. rewrite N. reflexivity. Qed.

Lemma R5_interned txt s : Pre5 s -> R5 s (interned txt s).
Proof.
  intros P.
  exact (fp5_quiet _ _ (scorep_intern_source txt) (cdp_intern_source txt)
                   (dictp_corep _ _ (corep_intern_source txt)) s P).
Qed.

Section Quiet.
  Variable fo : fops.
  Variable pr : string -> option Z.
  Variable rf : nat.

  Definition imm_use (t : btok) (s : state) : Prop :=
    exists name len, t = BWord name /\ dict_entry s name = Some (DFun true (FNative "immediate") len).

  Definition imm_step (x y : state) : Prop :=
    exists f s1 t s2, pre_run fo rf x = ROk tt s1 /\ get_token pr s1 = ROk t s2 /\ imm_use t s2 /\
                      tok_act fo pr rf f t s2 = ROk tt y.

  Lemma i_const_not_meta s : cmode (cx s) <> MMeta -> forall s', i_const pr s <> ROk tt s'.
  Proof.
    intros Hm s' E. unfold i_const in E. unfold bind at 1 in E.
    pose proof (scorep_next_name pr s) as Sc.
    destruct (next_name pr s) as [name s1|? ? ?| |]; try discriminate.
    cbn [res_all] in Sc. unfold score in Sc. injection Sc as _ _ Ecx _ _ _ _ _.
    unfold bind at 1 in E. unfold get at 1 in E. rewrite Ecx in E.
    rewrite (not_meta_eqb _ Hm) in E. discriminate.
  Qed.

  (* the two words outside [bprog false] *)
  Lemma imm_cap_cases fuel n w : immediate_fn fo pr rf fuel n = Some w -> imm_cap n = true ->
    w = i_const pr \/ n = "immediate".
  Proof.
    unfold imm_cap. intros H Hc. apply orb_true_iff in Hc. destruct Hc as [Hc|Hc]; apply String.eqb_eq in Hc.
    - subst n. change (Some (i_const pr) = Some w) in H. injection H as <-. left. reflexivity.
    - right. exact Hc.
  Qed.

  Lemma cls5_build_word f name s s' : enum_tok s (BWord name) = false ->
    Pre5 s -> build_word fo pr rf f name s = ROk tt s' ->
    R5 s s' \/ s' = opened s \/
    exists len, dict_entry s name = Some (DFun true (FNative "immediate") len).
  Proof.
    intros Hne P E. pose proof P as (Hm & _ & _ & Hn). cbn [enum_tok] in Hne.
    destruct (build_word_ok fo pr rf f name s s' E)
      as [(op & Eo)|[(x & len & Ed & Er)|(n & w & len & Ed & Ei & Ew)]].
    - left. pose proof (fp5_code_emit op s P) as H. rewrite Eo in H. exact H.
    - exfalso. eapply no_user_imm_entry; eassumption.
    - rewrite Ed in Hne. destruct (ctx_word n) eqn:Ec.
      + (* of the bracket words only #( succeeds outside a meta context *)
        destruct (immediate_fn_ctx fo pr rf f n w Ei Ec Hne) as [[_ ->]|[[_ ->]|[_ ->]]].
        * unfold i_nested_begin in Ew. rewrite context_open_meta in Ew. injection Ew as <-. auto.
        * unfold i_nested_end, bind, get in Ew. rewrite (not_meta_eqb _ Hm) in Ew. discriminate.
        * unfold i_nested_inject, bind, get in Ew. rewrite (not_meta_eqb _ Hm) in Ew. discriminate.
      + destruct (imm_cap n) eqn:Ei2.
        * destruct (imm_cap_cases f n w Ei Ei2) as [->| ->].
          -- exfalso. eapply i_const_not_meta; eassumption.
          -- right. right. exists len. exact Ed.
        * left. assert (Ec5 : ctx5_word n = false) by (unfold ctx5_word; rewrite Ec, Ei2; reflexivity).
          pose proof (fp5_immediate_fn fo pr rf f n w Ei Ec5 s P) as H. rewrite Ew in H. exact H.
  Qed.

  Lemma cls5_tok_act f t s s' : enum_tok s t = false -> Pre5 s -> tok_act fo pr rf f t s = ROk tt s' ->
    R5 s s' \/ s' = opened s \/ imm_use t s.
  Proof.
    intros Hne P E. destruct (tok_act_ok fo pr rf f t s s' E) as [[_ ->]|[(op & Eo)|(name & -> & Eb)]].
    - left. apply R5_refl. exact P.
    - left. pose proof (fp5_code_emit op s P) as H. rewrite Eo in H. exact H.
    - destruct (cls5_build_word f name s s' Hne P Eb) as [H|[H|(len & H)]]; auto.
      right. right. exists name, len. split; [reflexivity|exact H].
  Qed.

  Lemma pre_run_not_meta s : cmode (cx s) <> MMeta -> pre_run fo rf s = ROk tt s.
  Proof. intros H. unfold pre_run, bind, get. rewrite (not_meta_eqb _ H). reflexivity. Qed.

  (* every token step outside a meta context *)
  Theorem tstep_cls5 f s s' : Pre5 s -> tstep fo pr rf f s s' ->
    R5 s s' \/ (exists s2, R5 s s2 /\ s' = opened s2) \/ imm_step s s'.
  Proof.
    intros P (s1 & t & s2 & E1 & E2 & Ht & Hne & E3).
    pose proof (pre_run_not_meta s (proj1 P)) as E0. rewrite E0 in E1. injection E1 as <-.
    pose proof (fp5_get_token pr s P) as H2.
    rewrite E2 in H2. cbn [res_all F5 fr_rel] in H2.
    pose proof (R5_keep _ _ P H2) as P2.
    destruct (cls5_tok_act f t s2 s' Hne P2 E3) as [H|[H|H]].
    - left. eapply R5_trans; eassumption.
    - right. left. exists s2. split; assumption.
    - right. right. exists f, s, t, s2. repeat split; assumption.
  Qed.

  (* a whole meta block, seen from the non-meta context it was opened in *)
  Theorem block_R5 a w1 : Pre5 a ->
    R2 (length (code a)) (length (dict a)) (inner a) w1 -> flows w1 = flows a ->
    R5 a (close_state w1 (cx a)).
  Proof.
    intros P H Fl. pose proof P as (Hm & W & Hcd & Hn).
    destruct (block_spec_outside a w1 W Hcd Hm H Fl)
      as (B1 & B2 & B3 & B4 & Bd & (c' & Rc & Ec) & (d' & Rd & Ed) & Eg & Kr & Kl & Ks).
    set (t' := close_state w1 (cx a)) in *.
    unfold R5. rewrite B1, B2, B3, B4, Bd.
    split; [reflexivity|]. split; [reflexivity|]. split; [reflexivity|].
    split; [exact Kr|]. split; [exact Kl|]. split; [exact Ks|].
    split; [apply keeps_refl; apply W|].
    split; [exists 0; cbn [repeat]; rewrite app_nil_r; reflexivity|].
    split.
    - unfold cd_inv in *. destruct Rc as [Lc _].
      rewrite Ec, Eg, !app_length, map_length, repeat_length, firstn_length, Lc. lia.
    - (* a patched entry is a constant, and so is what the purge leaves *)
      rewrite Ed. apply Forall_app. split.
      + destruct Rd as [Ld Hd]. unfold no_user_imm in *. rewrite Forall_forall in *.
        intros e He. destruct (In_nth_error _ _ He) as (i & Ei).
        destruct (Hd i) as [E|(e0 & e1 & E0 & E1 & _ & _ & C1)].
        * apply Hn. eapply nth_error_In. rewrite <- E. exact Ei.
        * rewrite Ei in E1. injection E1 as <-. unfold is_dconst in C1. unfold user_imm.
          destruct (dent e); try discriminate. reflexivity.
      + pose proof (purge_all_const (skipn (length (dict a)) (dict w1))) as Hc.
        unfold no_user_imm. rewrite Forall_forall in *. intros e He. specialize (Hc e He).
        unfold is_dconst in Hc. unfold user_imm. destruct (dent e); try discriminate. reflexivity.
  Qed.

  Definition J (s x : state) : Prop :=
    (depth x = depth s /\ R5 s x) \/
    (exists a, R5 s a /\ bpath fo pr rf (S (depth a)) (opened a) x) \/
    (exists y z, bpath fo pr rf 0 s y /\ depth y = depth s /\ imm_step y z).

  Lemma J_path s x : Pre5 s -> bpath fo pr rf 0 s x -> J s x.
  Proof.
    intros P Hb. induction Hb as [|x y Hb IH Sy _].
    - left. split; [reflexivity|apply R5_refl; exact P].
    - destruct IH as [[Dx Hx]|[(a & Ha & Hb2)|H3]].
      + pose proof (R5_keep _ _ P Hx) as Px. destruct Sy as (f & St).
        destruct (tstep_cls5 f x y Px St) as [H|[(s2 & H & ->)|H]].
        * left. split; [rewrite (R5_depth _ _ H); exact Dx|eapply R5_trans; eassumption].
        * right. left. exists s2. split; [eapply R5_trans; eassumption|apply bp_nil].
        * right. right. exists x, y. repeat split; assumption.
      + pose proof (R5_keep _ _ P Ha) as Pa.
        destruct (le_lt_dec (S (depth a)) (depth y)) as [Hd|Hd].
        * right. left. exists a. split; [exact Ha|]. eapply bp_snoc; eassumption.
        * destruct (block_theorem fo pr rf a x y (proj1 (proj2 Pa)) (proj1 (proj2 (proj2 Pa))) Hb2 Sy)
            as (_ & w1 & Hw & Fl & D); [lia|].
          pose proof (block_R5 a w1 Pa Hw Fl) as Hy.
          assert (Hy' : R5 a y).
          { destruct D as [->|(txt & ->)]; [exact Hy|].
            eapply R5_trans; [exact Hy|]. apply R5_interned. eapply R5_keep; eassumption. }
          left. split; [rewrite (R5_depth _ _ Hy'), (R5_depth _ _ Ha); reflexivity|].
          eapply R5_trans; eassumption.
      + right. right. exact H3.
  Qed.

  Definition mopened (m : mode) (s : state) : state :=
    set_nested
      (set_cx s (mkctx (if mode_eqb (cmode (cx s)) m then ds_len (cx s) else length (ds s))
                       (length (code s)) (length (rs s)) (length (flows s)) (length (loops s))
                       (length (special s)) (length (dict s)) (length (code s)) m))
      (cx s :: nested s).

  Lemma build_open m src s :
    (context_open m ;; intern_source src) s = ROk tt (interned src (mopened m s)).
  Proof. reflexivity. Qed.

  Lemma Pre5_mopened m src s : m <> MMeta -> wfm s -> cd_inv s -> no_user_imm (dict s) ->
    Pre5 (interned src (mopened m s)).
  Proof.
    intros Hm (W1 & W2 & W3 & W4 & W5) Hcd Hn. split; [exact Hm|]. split; [|split; assumption].
    unfold wfm, interned, mopened.
    cbn [set_input set_sources set_nested set_cx cx ds rs loops special flows ds_len rs_len ls_len ss_ptr fs_len].
    repeat split; try lia. destruct (mode_eqb _ _); lia.
  Qed.

  (* nothing is executed outside meta blocks *)
  Theorem build_quiet m fuel src s s2 :
    m <> MMeta -> wfm s -> cd_inv s -> no_user_imm (dict s) ->
    enum_free fo pr rf fuel (interned src (mopened m s)) ->
    build1 fo pr rf fuel (S (depth s)) (interned src (mopened m s)) = ROk tt s2 ->
    R5 (interned src (mopened m s)) s2 \/
    (exists y z, bpath fo pr rf 0 (interned src (mopened m s)) y /\ depth y = S (depth s) /\ imm_step y z).
  Proof.
    intros Hm W Hcd Hn EF Eb.
    set (s1 := interned src (mopened m s)) in *.
    pose proof (Pre5_mopened m src s Hm W Hcd Hn) as P1. fold s1 in P1.
    destruct (build1_path fo pr rf _ _ _ _ EF Eb) as (x & x1 & Hb & E1 & E2 & Dd & _).
    (* pre_run and get_token do not change the context stack *)
    assert (Dx : depth x = depth s1).
    { pose proof (scorep_get_token pr x1) as S2. rewrite E2 in S2. cbn [res_all] in S2.
      unfold score in S2. injection S2 as _ N2 _ _ _ _ _ _.
      assert (N1 : nested x1 = nested x).
      { unfold pre_run, bind, get in E1.
        destruct (mode_eqb (cmode (cx x)) MMeta && negb (has_pending_flow x)).
        - pose proof (run_m_fr fo rf x) as Fr. rewrite E1 in Fr. apply Fr.
        - injection E1 as <-. reflexivity. }
      unfold depth in *. rewrite <- N1, <- N2. exact Dd. }
    destruct (J_path s1 x P1 Hb) as [[_ Hx]|[(a & Ha & Hb2)|(y & z & H3)]].
    - left.
      pose proof (R5_keep _ _ P1 Hx) as Px.
      rewrite (pre_run_not_meta x (proj1 Px)) in E1. injection E1 as <-.
      pose proof (fp5_get_token pr x Px) as H2.
      rewrite E2 in H2. cbn [res_all F5 fr_rel] in H2.
      exact (R5_trans _ _ _ Hx H2).
    - exfalso. pose proof (bpath_depth fo pr rf (S (depth a)) (opened a) x (le_n _) Hb2) as D.
      rewrite (R5_depth _ _ Ha) in D. lia.
    - right. exists y, z. destruct H3 as (A & B & C). repeat split; try assumption.
  Qed.

  (* the state after context_open MCompile *)
  Definition copened (s : state) : state :=
    set_nested
      (set_cx s (mkctx (if mode_eqb (cmode (cx s)) MCompile then ds_len (cx s) else length (ds s))
                       (length (code s)) (length (rs s)) (length (flows s)) (length (loops s))
                       (length (special s)) (length (dict s)) (length (code s)) MCompile))
      (cx s :: nested s).

  Theorem compile_quiet fuel src s s' :
    wfm s -> cd_inv s -> no_user_imm (dict s) ->
    enum_free fo pr rf fuel (interned src (copened s)) ->
    compile fo pr rf fuel src s = ROk tt s' ->
    (ds s' = ds s /\ exists k, heap s' = heap s ++ repeat CNil k) \/
    (exists y z, bpath fo pr rf 0 (interned src (copened s)) y /\ depth y = S (depth s) /\ imm_step y z).
  Proof.
    intros W Hcd Hn EF E. change (copened s) with (mopened MCompile s) in *.
    unfold compile, build_from_source in E. cbv zeta in E. rewrite build_open in E.
    set (s1 := interned src (mopened MCompile s)) in *.
    change (length (nested s1)) with (S (depth s)) in E.
    destruct (build1 fo pr rf fuel (S (depth s)) s1) as [[] s2|? ? ?| |] eqn:Eb; try discriminate.
    destruct (build_quiet MCompile fuel src s s2 ltac:(discriminate) W Hcd Hn EF Eb) as [H|H]; [|right; exact H].
    left. pose proof H as (N & C & D & _ & _ & _ & _ & Hh & _).
    rewrite (context_close_compile fo rf s2 (cx s) (nested s)) in E by (rewrite ?C; assumption || reflexivity).
    injection E as <-. split; [exact D|exact Hh].
  Qed.

  (* eval = the quiet build phase followed by the run of the compiled code *)
  Theorem eval_phases fuel src s s' :
    wfm s -> cd_inv s -> no_user_imm (dict s) ->
    enum_free fo pr rf fuel (interned src (mopened MEval s)) ->
    eval fo pr rf fuel src s = ROk tt s' ->
    (exists s2 s3,
       build1 fo pr rf fuel (S (depth s)) (interned src (mopened MEval s)) = ROk tt s2 /\
       R5 (interned src (mopened MEval s)) s2 /\
       run_m fo rf (set_nested s2 (nested s)) = ROk tt s3 /\
       s' = set_cx s3 (if mode_eqb (cmode (cx s)) MEval then set_ctx_ip (cx s) (ip s3) else cx s)) \/
    (exists y z, bpath fo pr rf 0 (interned src (mopened MEval s)) y /\ depth y = S (depth s) /\ imm_step y z).
  Proof.
    intros W Hcd Hn EF E. unfold eval, build_from_source in E. cbv zeta in E.
    rewrite build_open in E.
    set (s1 := interned src (mopened MEval s)) in *.
    change (length (nested s1)) with (S (depth s)) in E.
    destruct (build1 fo pr rf fuel (S (depth s)) s1) as [[] s2|? ? ?| |] eqn:Eb; try discriminate.
    destruct (build_quiet MEval fuel src s s2 ltac:(discriminate) W Hcd Hn EF Eb) as [H|H]; [|right; exact H].
    left. pose proof H as (N & C & _).
    rewrite (context_close_eval fo rf s2 (cx s) (nested s)) in E by (rewrite ?C; assumption || reflexivity).
    cbv zeta in E.
    destruct (run_m fo rf (set_nested s2 (nested s))) as [[] s3|? ? ?| |] eqn:Er; try discriminate.
    injection E as <-. exists s2, s3.
    split; [reflexivity|]. split; [exact H|]. split; [exact Er|reflexivity].
  Qed.
End Quiet.
