(* VmPrim.v: what one logging primitive of Vm.v does.

   A primitive checks a guard on the field it works on; when the guard fails it returns an
   error and the state it was given; otherwise it replaces that one field and logs the inverse
   change.  [pstep s f e s1] lists these updates ([s1]: the field [f] replaced, [e]: the log
   entry), [runs o m] says that [m] is such a program, and [prim_runs] proves it for each
   primitive.  Invariants of the form "m keeps X" follow from [runs] by one case analysis of
   [pstep]; invariants of the form "m does not look at field Y" follow from [prim_unread]:
   a primitive commutes with every function on states that it neither reads nor overwrites. *)
From Xeh Require Import Model.Prelude Model.Bits Model.Codec Model.Cell Model.Lexer Model.Fmt Model.Vm.
Local Notation length := List.length.

(* writing the old value back *)
Lemma set_ds_back s v : set_ds (set_ds s v) (ds s) = s.
Proof. destruct s; reflexivity. Qed.
Lemma set_rs_back s v : set_rs (set_rs s v) (rs s) = s.
Proof. destruct s; reflexivity. Qed.
Lemma set_loops_back s v : set_loops (set_loops s v) (loops s) = s.
Proof. destruct s; reflexivity. Qed.
Lemma set_special_back s v : set_special (set_special s v) (special s) = s.
Proof. destruct s; reflexivity. Qed.
Lemma set_heap_back s v : set_heap (set_heap s v) (heap s) = s.
Proof. destruct s; reflexivity. Qed.
Lemma set_ip_raw_back s n : set_ip_raw (set_ip_raw s n) (ip s) = s.
Proof. destruct s as [? ? ? ? ? ? ? ? ? ? ? [] ? ? ? ? ? ? ? ? ?]; reflexivity. Qed.
Lemma set_rlog_self s : set_rlog s (rlog s) = s.
Proof. destruct s; reflexivity. Qed.

Lemma nth_error_list_set {A} (l : list A) i v old :
  nth_error l i = Some old -> nth_error (list_set l i v) i = Some v.
Proof. revert i; induction l; destruct i; cbn [list_set nth_error]; intros; try discriminate; auto. Qed.

Lemma list_set_undo {A} (l : list A) i v old :
  nth_error l i = Some old -> list_set (list_set l i v) i old = l.
Proof.
  revert i; induction l; destruct i; cbn [list_set nth_error]; intros; try discriminate.
  - congruence.
  - f_equal; auto.
Qed.

(* [add_rstep] changes the log and nothing else *)
Lemma add_rstep_log e s : exists l, add_rstep e s = set_rlog s l.
Proof.
  unfold add_rstep. destruct (rlog s) eqn:E; [eauto|].
  exists None. rewrite <- E. symmetry. apply set_rlog_self.
Qed.

Lemma add_rstep_some e s l : rlog s = Some l -> add_rstep e s = set_rlog s (Some (e :: l)).
Proof. unfold add_rstep. intros ->. reflexivity. Qed.

(* [g] can be moved across the logging of an entry *)
Definition logs_through (g : state -> state) : Prop := forall e s, add_rstep e (g s) = g (add_rstep e s).

Lemma logs_through_setter g :
  (forall s, rlog (g s) = rlog s) -> (forall s l, set_rlog (g s) l = g (set_rlog s l)) -> logs_through g.
Proof. intros H1 H2 e s. unfold add_rstep. rewrite H1. destruct (rlog s); [apply H2|reflexivity]. Qed.

Inductive fld := FDs | FRs | FLoops | FSpecial | FHeap | FIp.

Inductive pstep (s : state) : fld -> rstep -> state -> Prop :=
| ps_push_data c :
    limit_reached (stack_limit s) (length (ds s)) = false -> pstep s FDs RPopData (set_ds s (c :: ds s))
| ps_pop_data c r :
    ds s = c :: r -> ds_len (cx s) < length (ds s) -> pstep s FDs (RPushData c) (set_ds s r)
| ps_swap_data a b r :
    ds s = a :: b :: r -> 2 <= data_depth s -> pstep s FDs RSwapData (set_ds s (b :: a :: r))
| ps_rot_data a b c r :
    ds s = a :: b :: c :: r -> 3 <= data_depth s -> pstep s FDs RRotData (set_ds s (c :: b :: a :: r))
| ps_push_return f : pstep s FRs RPopReturn (set_rs s (f :: rs s))
| ps_pop_return f r :
    rs s = f :: r -> rs_len (cx s) < length (rs s) -> pstep s FRs (RPushReturn f) (set_rs s r)
| ps_set_locals f r l :
    rs s = f :: r -> rs_len (cx s) < length (rs s) ->
    pstep s FRs (RSetLocals (locals f)) (set_rs s (mkframe (fn_addr f) (return_to f) l :: r))
| ps_push_loop l : pstep s FLoops RPopLoop (set_loops s (l :: loops s))
| ps_pop_loop l r :
    loops s = l :: r -> ls_len (cx s) < length (loops s) -> pstep s FLoops (RPushLoop l) (set_loops s r)
| ps_set_loop l r l' :
    loops s = l :: r -> ls_len (cx s) < length (loops s) ->
    pstep s FLoops (RLoopNextBack l) (set_loops s (l' :: r))
| ps_push_special p : pstep s FSpecial RPopSpecial (set_special s (p :: special s))
| ps_pop_special p r :
    special s = p :: r -> ss_ptr (cx s) < length (special s) ->
    pstep s FSpecial (RPushSpecial p) (set_special s r)
| ps_set_var a v old :
    mode_eqb (cmode (cx s)) MMeta = false -> nth_error (heap s) a = Some old ->
    pstep s FHeap (RSwapRef a old) (set_heap s (list_set (heap s) a v))
| ps_set_ip n : pstep s FIp (RSetIp (ip s)) (set_ip_raw s n).

(* [o]: the field the program works on, if it writes at all *)
Definition did (o : option fld) (s s' : state) : Prop :=
  s' = s \/ exists f e s1, o = Some f /\ pstep s f e s1 /\ s' = add_rstep e s1.

Definition runs (o : option fld) {A} (m : M A) : Prop :=
  forall s, match m s with
            | ROk _ s' => did o s s'
            | RErr k p s' => s' = s /\ p = None /\ k <> ELimit
            | _ => False
            end.

Inductive prim : option fld -> forall {A}, M A -> Prop :=
| p_pop_data : prim (Some FDs) pop_data
| p_top_data : prim None top_data
| p_swap_data : prim (Some FDs) swap_data
| p_rot_data : prim (Some FDs) rot_data
| p_push_return f : prim (Some FRs) (push_return f)
| p_pop_return : prim (Some FRs) pop_return
| p_top_frame : prim None top_frame
| p_init_local i v : prim (Some FRs) (init_local i v)
| p_push_loop l : prim (Some FLoops) (push_loop l)
| p_pop_loop : prim (Some FLoops) pop_loop
| p_loop_next : prim (Some FLoops) loop_next
| p_loop_set_items c : prim (Some FLoops) (loop_set_items c)
| p_push_special p : prim (Some FSpecial) (push_special p)
| p_pop_special : prim (Some FSpecial) pop_special
| p_get_var a : prim None (get_var a)
| p_set_var a v : prim (Some FHeap) (set_var a v)
| p_set_ip n : prim (Some FIp) (set_ip n)
| p_next_ip : prim (Some FIp) next_ip.

Lemma did_step s f e s1 : pstep s f e s1 -> did (Some f) s (add_rstep e s1).
Proof. intros H. right. exists f, e, s1. auto. Qed.

(* the primitives that push log first and write second *)
Lemma set_ds_logged e s v : set_ds (add_rstep e s) v = add_rstep e (set_ds s v).
Proof. symmetry. apply (logs_through_setter (fun s => set_ds s v)); reflexivity. Qed.
Lemma set_rs_logged e s v : set_rs (add_rstep e s) v = add_rstep e (set_rs s v).
Proof. symmetry. apply (logs_through_setter (fun s => set_rs s v)); reflexivity. Qed.
Lemma set_loops_logged e s v : set_loops (add_rstep e s) v = add_rstep e (set_loops s v).
Proof. symmetry. apply (logs_through_setter (fun s => set_loops s v)); reflexivity. Qed.
Lemma set_special_logged e s v : set_special (add_rstep e s) v = add_rstep e (set_special s v).
Proof. symmetry. apply (logs_through_setter (fun s => set_special s v)); reflexivity. Qed.
Lemma set_ip_raw_logged e s n : set_ip_raw (add_rstep e s) n = add_rstep e (set_ip_raw s n).
Proof. symmetry. apply (logs_through_setter (fun s => set_ip_raw s n)); reflexivity. Qed.

(* the guard of a primitive that works on the top of a stack: the stack is not empty and its
   top lies above the mark; otherwise the primitive fails (or, for [pop_special], does nothing) *)
Local Ltac refused := solve [repeat split; discriminate | left; reflexivity].
Local Ltac top_guard E C :=
  match goal with |- context [match ?l with [] => _ | _ :: _ => _ end] => destruct l eqn:E; [refused|] end;
  match goal with |- context [if ?b then _ else _] => destruct b eqn:C; [|refused] end.
Local Ltac above E C := rewrite E; apply Nat.ltb_lt; exact C.

Lemma prim_runs o A (m : M A) : prim o m -> runs o m.
Proof.
  intros H s. destruct H.
  - unfold pop_data. top_guard E C. apply did_step, ps_pop_data; [exact E|above E C].
  - unfold top_data. top_guard E C. left. reflexivity.
  - unfold swap_data. destruct (ds s) as [|a [|b r]] eqn:E; try refused.
    destruct (_ <=? _) eqn:C; [|refused].
    rewrite set_ds_logged. apply did_step, ps_swap_data; [exact E|apply Nat.leb_le, C].
  - unfold rot_data. destruct (ds s) as [|a [|b [|c r]]] eqn:E; try refused.
    destruct (_ <=? _) eqn:C; [|refused].
    rewrite set_ds_logged. apply did_step, ps_rot_data; [exact E|apply Nat.leb_le, C].
  - unfold push_return. rewrite set_rs_logged. apply did_step, ps_push_return.
  - unfold pop_return. top_guard E C. apply did_step, ps_pop_return; [exact E|above E C].
  - unfold top_frame. top_guard E C. left. reflexivity.
  - unfold init_local. top_guard E C. apply did_step, ps_set_locals; [exact E|above E C].
  - unfold push_loop. rewrite set_loops_logged. apply did_step, ps_push_loop.
  - unfold pop_loop. top_guard E C. apply did_step, ps_pop_loop; [exact E|above E C].
  - unfold loop_next. top_guard E C. apply did_step, ps_set_loop; [exact E|above E C].
  - unfold loop_set_items. top_guard E C. apply did_step, ps_set_loop; [exact E|above E C].
  - unfold push_special. rewrite set_special_logged. apply did_step, ps_push_special.
  - unfold pop_special. top_guard E C. apply did_step, ps_pop_special; [exact E|above E C].
  - unfold get_var. destruct (mode_eqb _ _); [refused|]. destruct (nth_error _ _); refused.
  - unfold set_var. destruct (mode_eqb _ _) eqn:C; [refused|].
    destruct (nth_error _ _) eqn:E; [|refused]. apply did_step, ps_set_var; assumption.
  - unfold set_ip. rewrite set_ip_raw_logged. apply did_step, ps_set_ip.
  - unfold next_ip. rewrite set_ip_raw_logged. apply did_step, ps_set_ip.
Qed.

(* [g] leaves alone what the primitives read, and what they write can be written before or
   after it: setting the meter, the output, the limits, erasing the log *)
Record unread (g : state -> state) : Prop := {
  ur_ds : forall s, ds (g s) = ds s;
  ur_rs : forall s, rs (g s) = rs s;
  ur_loops : forall s, loops (g s) = loops s;
  ur_special : forall s, special (g s) = special s;
  ur_heap : forall s, heap (g s) = heap s;
  ur_cx : forall s, cx (g s) = cx s;
  ur_set_ds : forall s v, set_ds (g s) v = g (set_ds s v);
  ur_set_rs : forall s v, set_rs (g s) v = g (set_rs s v);
  ur_set_loops : forall s v, set_loops (g s) v = g (set_loops s v);
  ur_set_special : forall s v, set_special (g s) v = g (set_special s v);
  ur_set_heap : forall s v, set_heap (g s) v = g (set_heap s v);
  ur_set_cx : forall s v, set_cx (g s) v = g (set_cx s v) }.

(* every primitive goes the same way: the guard reads the same values, and each write and the
   logging commute with [g] *)
Lemma prim_unread g : unread g -> logs_through g ->
  forall o A (m : M A), prim o m -> forall s, m (g s) = res_map g (m s).
Proof.
  intros U L o A m H s.
  destruct H;
    cbv beta delta [pop_data top_data swap_data rot_data push_return pop_return top_frame init_local
                    push_loop pop_loop loop_next loop_set_items push_special pop_special get_var set_var
                    set_ip next_ip ip set_ip_raw data_depth];
    rewrite ?(ur_ds _ U), ?(ur_rs _ U), ?(ur_loops _ U), ?(ur_special _ U), ?(ur_heap _ U), ?(ur_cx _ U),
            ?L, ?(ur_cx _ U);
    repeat match goal with |- context [match ?x with _ => _ end] => destruct x end;
    cbn [res_map];
    rewrite ?(ur_set_ds _ U), ?(ur_set_rs _ U), ?(ur_set_loops _ U), ?(ur_set_special _ U),
            ?(ur_set_heap _ U), ?(ur_set_cx _ U), ?L;
    reflexivity.
Qed.

Lemma push_data_unread g : unread g -> logs_through g -> (forall s, stack_limit (g s) = stack_limit s) ->
  forall c s, push_data c (g s) = res_map g (push_data c s).
Proof.
  intros U L HS c s. unfold push_data. rewrite HS, (ur_ds _ U).
  destruct (limit_reached _ _); [reflexivity|]. cbn [res_map]. rewrite L, (ur_set_ds _ U). reflexivity.
Qed.

Lemma over_data_unread g : unread g -> logs_through g -> (forall s, stack_limit (g s) = stack_limit s) ->
  forall s, over_data (g s) = res_map g (over_data s).
Proof.
  intros U L HS s. unfold over_data, data_depth. rewrite (ur_ds _ U), (ur_cx _ U).
  destruct (ds s) as [|a [|b r]]; try reflexivity. destruct (_ <=? _); [|reflexivity].
  rewrite L. apply push_data_unread; assumption.
Qed.

(* undoing a log entry: [ROverData] is undone by the logging [pop_data], the others write only *)
Lemma reverse_changes_unread g : unread g -> forall r, (r = ROverData -> logs_through g) ->
  forall s, reverse_changes r (g s) = res_map g (reverse_changes r s).
Proof.
  intros U r L s.
  destruct r; cbv beta delta [reverse_changes set_ip_raw data_depth] iota;
    try (rewrite (prim_unread g U (L eq_refl) _ _ _ p_pop_data s); destruct (pop_data s); reflexivity);
    rewrite ?(ur_ds _ U), ?(ur_rs _ U), ?(ur_loops _ U), ?(ur_special _ U), ?(ur_heap _ U), ?(ur_cx _ U);
    repeat match goal with |- context [match ?x with _ => _ end] => destruct x end;
    cbn [res_map];
    rewrite ?(ur_set_ds _ U), ?(ur_set_rs _ U), ?(ur_set_loops _ U), ?(ur_set_special _ U),
            ?(ur_set_heap _ U), ?(ur_set_cx _ U);
    reflexivity.
Qed.

(* the state without its stacks, heap, instruction pointer and log *)
Definition shell (s : state) : state :=
  set_rlog (set_ip_raw (set_heap (set_special (set_loops (set_rs (set_ds s []) []) []) []) []) 0) None.

Lemma shell_add_rstep e s : shell (add_rstep e s) = shell s.
Proof. destruct (add_rstep_log e s) as [l ->]. reflexivity. Qed.

Lemma did_shell o s s' : did o s s' -> shell s' = shell s.
Proof.
  intros [->|(f & e & s1 & _ & P & ->)]; [reflexivity|].
  rewrite shell_add_rstep. destruct P; reflexivity.
Qed.

(* the stacks and the heap other than the one the program works on *)
Lemma did_others o s s' : did o s s' ->
  (o <> Some FDs -> ds s' = ds s) /\ (o <> Some FRs -> rs s' = rs s) /\
  (o <> Some FLoops -> loops s' = loops s) /\ (o <> Some FSpecial -> special s' = special s) /\
  (o <> Some FHeap -> heap s' = heap s) /\ (o <> Some FIp -> cx s' = cx s).
Proof.
  intros [->|(f & e & s1 & -> & P & ->)]; [repeat split|].
  destruct (add_rstep_log e s1) as [l ->].
  destruct P; repeat split; intros N; try reflexivity; contradiction N; reflexivity.
Qed.

Lemma push_data_did c s :
  match push_data c s with
  | ROk _ s' => did (Some FDs) s s'
  | RErr k p s' => s' = s /\ p = None /\ k = ELimit /\ limit_reached (stack_limit s) (length (ds s)) = true
  | _ => False
  end.
Proof.
  unfold push_data. destruct (limit_reached _ _) eqn:L; [auto|].
  rewrite set_ds_logged. apply did_step, ps_push_data, L.
Qed.

(* [over_data] logs its own entry first and then pushes *)
Lemma over_data_eq s :
  over_data s = RErr EUnderflow None s \/ exists b, over_data s = push_data b (add_rstep ROverData s).
Proof.
  unfold over_data. destruct (ds s) as [|a [|b r]]; auto. destruct (_ <=? _); eauto.
Qed.

Lemma reverse_changes_shell r s u s' : reverse_changes r s = ROk u s' -> shell s' = shell s.
Proof.
  destruct r; cbv beta delta [reverse_changes] iota;
    try (pose proof (prim_runs _ _ _ p_pop_data s) as D; destruct (pop_data s); try discriminate;
         intros H; injection H as _ <-; exact (did_shell _ _ _ D));
    repeat match goal with |- context [match ?x with _ => _ end] => destruct x end;
    intros H; try discriminate H; injection H as _ <-; reflexivity.
Qed.
