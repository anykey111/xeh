(* CursorFrame.v: C06 (b) as the plain frame property: a parsing word that fails - with ANY
   error kind, the data-stack limit included - leaves the heap (input, offset, stash, byte order,
   output) untouched and the data stack equal to the original minus the popped arguments.
   (The words push first and advance afterwards: a push refused by the stack limit does not
   move the offset.) *)
From Xeh Require Import Model.Prelude Model.Bits Model.Codec Model.Cell Model.Lexer Model.Fmt
                        Model.Vm Model.Words Model.Boot.
From Xeh Require Import Proofs.VmStep Proofs.CursorDefs Proofs.CursorProofs
                        Proofs.CursorWords Proofs.CursorTable Proofs.CursorInv.
Local Notation length := List.length.

Lemma behaves_err r (Q : state -> Prop) (E : ekind -> state -> Prop) k p s' :
  behaves r Q E -> r = RErr k p s' -> E k s'.
Proof. intros H ->. exact H. Qed.

Lemma fail_frame_cursor ar s s' inp off :
  cursor s inp off -> fail_frame ar s s' ->
  cursor s' inp off /\ h_input (heap s') = Some inp /\ h_offset (heap s') = Some off /\
  h_stash (heap s') = h_stash (heap s).
Proof.
  intros (Hm & Hc) (Hh & Hs & _). rewrite Hh.
  split; [split; [eapply sim_notmeta; eauto|rewrite Hh; exact Hc]|].
  destruct Hc as (_ & Hi & Ho & _). auto.
Qed.

Theorem fail_keeps_offset : forall s inp off k p s', cursor s inp off ->
  (forall n, read_bits n s = RErr k p s' -> fail_frame 0 s s') /\
  (forall n o, read_unsigned n o s = RErr k p s' -> fail_frame 0 s s') /\
  (forall n o, read_signed n o s = RErr k p s' -> fail_frame 0 s s') /\
  (forall fo n o, read_float fo n o s = RErr k p s' -> fail_frame 0 s s').
Proof.
  intros s inp off k p s' Hcur. split; [|split; [|split]].
  - intros n Hrun. pose proof (bits_gen s inp off Hcur n s (ds s) [] 0 (st_init s) eq_refl (le_n 0)) as Hwp.
    unfold wp in Hwp. rewrite Hrun in Hwp. exact Hwp.
  - intros n o. apply (behaves_err _ _ _ k p s' (plain_of_gen s _ _ (unsigned_gen s inp off Hcur) n o)).
  - intros n o. apply (behaves_err _ _ _ k p s' (plain_of_gen s _ _ (signed_gen s inp off Hcur) n o)).
  - intros fo n o. apply (behaves_err _ _ _ k p s' (plain_of_gen s _ _ (float_gen s inp off Hcur fo) n o)).
Qed.

(* the stack (one cell) is at its limit (1); u8be is refused with
   the limit error and NOTHING has changed - the state left behind is the state before *)
Definition lim_state : state :=
  mkstate [] [CInt 0; CBits (mkcbs 3 19 [171; 205; 239]%N); CInt 3; CVec []; CNil; CInt 0]
          [] [] [] [] [CInt 7] [] [] [] [] ctx0 [] 0%Z None None (Some 1%Z) None EmptyString None false.

Lemma lim_state_cursor : cursor lim_state (mkcbs 3 19 [171; 205; 239]%N) 3.
Proof.
  split; [reflexivity|]. unfold hcursor. cbn [lim_state heap].
  split; [cbn; lia|]. split; [reflexivity|]. split; [reflexivity|]. split.
  - split; [cbn; lia|]. split; [cbn; lia|]. repeat constructor.
  - split; [reflexivity|]. cbn. lia.
Qed.

Example limit_keeps_offset :
  read_unsigned 8 Big lim_state = RErr ELimit None lim_state /\
  h_offset (heap lim_state) = Some 3%Z.
Proof. split; [vm_compute; reflexivity|reflexivity]. Qed.

(* all parsing words, open-bitstr / close-bitstr included, on the full invariant *)
Theorem cursor_table_frame : forall fo,
  Forall (fun nw => forall s k p s', cur_inv s -> snd nw s = RErr k p s' -> fail_frame 1 s s')
         (cursor_table fo).
Proof.
  intro fo. unfold cursor_table. constructor; [|constructor].
  - cbn [snd]. intros s k p s' ((inp & off & Hcur) & (v & Hv & _) & _) Hrun.
    pose proof (open_word s inp off Hcur v Hv) as H. unfold wp in H. rewrite Hrun in H. exact H.
  - cbn [snd]. intros s k p s' ((inp & off & Hcur) & (v & Hv & _) & _) Hrun.
    pose proof (close_word s inp off Hcur v Hv) as H. unfold wp in H. rewrite Hrun in H.
    destruct H as (_ & H). eapply fail_frame_mono; [|exact H]. lia.
  - eapply Forall_impl; [|apply plain_table_ok].
    intros nw Hf s k p s' ((inp & off & Hcur) & _). apply (behaves_err _ _ _ k p s' (Hf s inp off Hcur)).
Qed.

(* why open-bitstr is stated on [cur_inv] and not on [cursor] alone: if the stash cell did not
   hold a vector (no word and no named variable can make it so: heap cell 3 has no dictionary
   name), open-bitstr would fail with a type error AFTER replacing input and offset *)
Example open_needs_stash_vector :
  let s := mkstate [] [CInt 0; CBits (mkcbs 0 8 [255]%N); CInt 2; CNil; CNil; CInt 0]
                   [] [] [] [] [CBits (mkcbs 0 16 [1; 2]%N)] [] [] [] [] ctx0 [] 0%Z None None None None
                   EmptyString None false in
  cursor s (mkcbs 0 8 [255]%N) 2 /\ ~ cur_inv s /\
  exists s', w_open_bitstr s = RErr EType (Some CNil) s' /\ h_offset (heap s') = Some 0%Z /\
             h_input (heap s') = Some (mkcbs 0 16 [1; 2]%N).
Proof.
  cbv zeta. split; [|split].
  - split; [reflexivity|]. unfold hcursor. cbn [heap].
    split; [cbn; lia|]. split; [reflexivity|]. split; [reflexivity|]. split.
    + split; [cbn; lia|]. split; [cbn; lia|]. repeat constructor.
    + split; [reflexivity|]. cbn. lia.
  - intros (_ & (v & Hv & _) & _). discriminate Hv.
  - eexists. split; [vm_compute; reflexivity|]. split; reflexivity.
Qed.
