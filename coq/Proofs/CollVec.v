(* CollVec.v: the list-level laws of the vector words of C12: relative_index / vector_get (every
   integer index), slicing_index / slice_list, sort_cells (permutation, sortedness, commutation
   with strip, stability, idempotence), and small sequence facts used by the word-level
   statements of CollWords.v. *)
From Xeh Require Import Model.Prelude Model.Bits Model.Codec Model.Cell Model.Lexer Model.Fmt
                        Model.Vm Model.Words Proofs.BitsProofs Proofs.CellProofs Proofs.CollProofs.
From Coq Require Import Sorting.Sorted Sorting.Permutation ZifyBool ZifyNat ZifyN.
Local Notation length := List.length.

(* the index a vector of length [len] is read at for the (possibly negative) index [i] *)
Definition vec_index (len : nat) (i : Z) : option nat :=
  if (0 <=? i)%Z && (i <? Z.of_nat len)%Z then Some (Z.to_nat i)
  else if (- Z.of_nat len <=? i)%Z && (i <? 0)%Z then Some (Z.to_nat (Z.of_nat len + i))
  else None.

Theorem relative_index_spec : forall (len : nat) (i : Z),
  relative_index len i =
  if (0 <=? i)%Z && (i <? Z.of_nat len)%Z then Some (Z.to_nat i)
  else if (- Z.of_nat len <=? i)%Z && (i <? 0)%Z then Some (Z.to_nat (Z.of_nat len + i))
  else None.
Proof.
  intros len i. unfold relative_index.
  destruct (Z.ltb_spec i 0) as [H0 | H0].
  - destruct (Z.ltb_spec (Z.of_nat len) (Z.abs i)) as [H1 | H1];
      destruct (Z.leb_spec 0 i); try lia; cbn [andb];
      destruct (Z.leb_spec (- Z.of_nat len) i); try lia; cbn [andb]; try reflexivity.
    f_equal. lia.
  - destruct (Z.leb_spec 0 i); try lia. cbn [andb].
    destruct (Z.ltb_spec i (Z.of_nat len)); try reflexivity.
    destruct (Z.leb_spec (- Z.of_nat len) i); cbn [andb]; reflexivity.
Qed.

Lemma vec_index_nonneg : forall len i, (0 <= i < Z.of_nat len)%Z -> vec_index len i = Some (Z.to_nat i).
Proof.
  intros len i H. unfold vec_index.
  destruct (Z.leb_spec 0 i); try lia. destruct (Z.ltb_spec i (Z.of_nat len)); try lia. reflexivity.
Qed.

Lemma vec_index_neg : forall len i, (- Z.of_nat len <= i < 0)%Z ->
  vec_index len i = Some (Z.to_nat (Z.of_nat len + i)).
Proof.
  intros len i H. unfold vec_index.
  destruct (Z.leb_spec 0 i); try lia. cbn [andb].
  destruct (Z.leb_spec (- Z.of_nat len) i); try lia. destruct (Z.ltb_spec i 0); try lia. reflexivity.
Qed.

Lemma vec_index_none : forall len i, (i < - Z.of_nat len \/ Z.of_nat len <= i)%Z -> vec_index len i = None.
Proof.
  intros len i H. unfold vec_index.
  destruct (Z.leb_spec 0 i); destruct (Z.ltb_spec i (Z.of_nat len)); try lia; cbn [andb];
    destruct (Z.leb_spec (- Z.of_nat len) i); try lia; cbn [andb]; try reflexivity.
  destruct (Z.ltb_spec i 0); try lia; reflexivity.
Qed.

Lemma vec_index_some_iff : forall len i,
  (exists n, vec_index len i = Some n) <-> (- Z.of_nat len <= i < Z.of_nat len)%Z.
Proof.
  intros len i. split.
  - intros [n H]. destruct (Z.lt_ge_cases i (- Z.of_nat len)) as [L | L].
    + rewrite vec_index_none in H by lia. discriminate.
    + destruct (Z.lt_ge_cases i (Z.of_nat len)) as [U | U]; [lia|].
      rewrite vec_index_none in H by lia. discriminate.
  - intro H. destruct (Z.lt_ge_cases i 0).
    + rewrite vec_index_neg by lia. eauto.
    + rewrite vec_index_nonneg by lia. eauto.
Qed.

Lemma vec_index_lt : forall len i n, vec_index len i = Some n -> (n < len)%nat.
Proof.
  intros len i n. unfold vec_index.
  destruct (Z.leb_spec 0 i); destruct (Z.ltb_spec i (Z.of_nat len)); cbn [andb];
    try (intro E; injection E as <-; lia);
    destruct (Z.leb_spec (- Z.of_nat len) i); destruct (Z.ltb_spec i 0); cbn [andb];
    try discriminate; intro E; injection E as <-; lia.
Qed.

Lemma vec_index_nth : forall {A} (v : list A) i n,
  vec_index (length v) i = Some n -> exists c, nth_error v n = Some c.
Proof.
  intros A v i n H. apply vec_index_lt in H.
  destruct (nth_error v n) eqn:E; eauto.
  apply nth_error_None in E. lia.
Qed.

Theorem vector_get_spec : forall v i s,
  vector_get v i s =
  match vec_index (length v) i with
  | Some n => match nth_error v n with Some c => ROk c s | None => RErr EBounds None s end
  | None => RErr EBounds None s
  end.
Proof.
  intros v i s. unfold vector_get. rewrite relative_index_spec. fold (vec_index (length v) i).
  destruct (vec_index (length v) i) as [n|]; [|reflexivity].
  destruct (nth_error v n); reflexivity.
Qed.

Corollary vector_get_nonneg : forall v i s, (0 <= i < Z.of_nat (length v))%Z ->
  exists c, nth_error v (Z.to_nat i) = Some c /\ vector_get v i s = ROk c s.
Proof.
  intros v i s H. rewrite vector_get_spec. pose proof (vec_index_nonneg _ _ H) as E.
  destruct (vec_index_nth v _ _ E) as [c Hc]. rewrite E, Hc. eauto.
Qed.

Corollary vector_get_neg : forall v i s, (- Z.of_nat (length v) <= i < 0)%Z ->
  exists c, nth_error v (Z.to_nat (Z.of_nat (length v) + i)) = Some c /\ vector_get v i s = ROk c s.
Proof.
  intros v i s H. rewrite vector_get_spec. pose proof (vec_index_neg _ _ H) as E.
  destruct (vec_index_nth v _ _ E) as [c Hc]. rewrite E, Hc. eauto.
Qed.

Corollary vector_get_oob : forall v i s, (i < - Z.of_nat (length v) \/ Z.of_nat (length v) <= i)%Z ->
  vector_get v i s = RErr EBounds None s.
Proof. intros v i s H. rewrite vector_get_spec, vec_index_none by assumption. reflexivity. Qed.

Corollary vector_get_cases : forall v i s,
  (exists n c, vec_index (length v) i = Some n /\ nth_error v n = Some c /\ vector_get v i s = ROk c s) \/
  (vec_index (length v) i = None /\ vector_get v i s = RErr EBounds None s).
Proof.
  intros v i s. rewrite vector_get_spec. destruct (vec_index (length v) i) as [n|] eqn:E.
  - left. destruct (vec_index_nth v _ _ E) as [c Hc]. rewrite Hc. eauto.
  - right. auto.
Qed.

Corollary vector_get_last : forall v x s, vector_get (v ++ [x]) (-1) s = ROk x s.
Proof.
  intros v x s. rewrite vector_get_spec, vec_index_neg by (rewrite app_length; cbn [length]; lia).
  replace (Z.to_nat (Z.of_nat (length (v ++ [x])) + -1)) with (length v + 0)%nat
    by (rewrite app_length; cbn [length]; lia).
  rewrite nth_error_app2 by lia. replace (length v + 0 - length v)%nat with 0%nat by lia. reflexivity.
Qed.

Theorem slicing_index_spec : forall (i : Z) (len : nat),
  Z.of_nat (slicing_index i len) =
  if (i <? 0)%Z then Z.max 0 (Z.of_nat len + i) else Z.min i (Z.of_nat len).
Proof.
  intros i len. unfold slicing_index. destruct (Z.ltb_spec i 0); lia.
Qed.

Lemma slicing_index_le : forall i len, (slicing_index i len <= len)%nat.
Proof.
  intros i len. pose proof (slicing_index_spec i len) as H.
  destruct (i <? 0)%Z eqn:E; lia.
Qed.

Lemma slicing_index_nonneg : forall i len, (0 <= i)%Z ->
  slicing_index i len = Nat.min (Z.to_nat i) len.
Proof.
  intros i len H. pose proof (slicing_index_spec i len) as E.
  destruct (Z.ltb_spec i 0); lia.
Qed.

Lemma slicing_index_neg : forall i len, (i < 0)%Z ->
  slicing_index i len = (len - Z.to_nat (- i))%nat.
Proof.
  intros i len H. pose proof (slicing_index_spec i len) as E.
  destruct (Z.ltb_spec i 0); lia.
Qed.

Lemma slicing_index_mono : forall i j len, (i <= j)%Z -> (0 <= i \/ j < 0)%Z ->
  (slicing_index i len <= slicing_index j len)%nat.
Proof.
  intros i j len Hij Hs.
  pose proof (slicing_index_spec i len) as Ei. pose proof (slicing_index_spec j len) as Ej.
  destruct (Z.ltb_spec i 0); destruct (Z.ltb_spec j 0); lia.
Qed.

Theorem slice_list_spec : forall A (l : list A) st en,
  slice_list l st en =
  let a := slicing_index st (length l) in
  let b := slicing_index en (length l) in
  firstn (b - a) (skipn a l).
Proof.
  intros A l st en. unfold slice_list. cbv zeta. f_equal. lia.
Qed.

Corollary slice_list_empty_idx : forall A (l : list A) st en,
  (slicing_index en (length l) <= slicing_index st (length l))%nat -> slice_list l st en = [].
Proof.
  intros A l st en H. rewrite slice_list_spec. cbv zeta.
  replace (slicing_index en (length l) - slicing_index st (length l))%nat with 0%nat by lia.
  reflexivity.
Qed.

Corollary slice_list_empty : forall A (l : list A) st en,
  (en <= st)%Z -> (0 <= en \/ st < 0)%Z -> slice_list l st en = [].
Proof.
  intros A l st en H1 H2. apply slice_list_empty_idx. apply slicing_index_mono; assumption.
Qed.

Corollary slice_list_nonneg : forall A (l : list A) st en,
  (0 <= st <= en)%Z -> (en <= Z.of_nat (length l))%Z ->
  slice_list l st en = firstn (Z.to_nat en - Z.to_nat st) (skipn (Z.to_nat st) l).
Proof.
  intros A l st en H1 H2. rewrite slice_list_spec. cbv zeta.
  rewrite !slicing_index_nonneg by lia. f_equal; [lia | f_equal; lia].
Qed.

Section GSort.
  Context {A : Type} (cmp : A -> A -> comparison).

  Fixpoint gsins (x : A) (l : list A) : list A :=
    match l with
    | [] => [x]
    | y :: r => match cmp x y with
                | Gt => y :: gsins x r
                | _ => x :: l
                end
    end.
  Definition gsort (l : list A) : list A := fold_right gsins [] l.

  Lemma gsins_perm : forall x l, Permutation (gsins x l) (x :: l).
  Proof.
    induction l as [| y r IH]; cbn [gsins]; auto.
    destruct (cmp x y); auto.
    eapply perm_trans; [apply perm_skip; apply IH | apply perm_swap].
  Qed.

  Lemma gsort_perm : forall l, Permutation (gsort l) l.
  Proof.
    induction l as [| a l IH]; cbn [gsort fold_right]; auto.
    eapply perm_trans; [apply gsins_perm | apply perm_skip; exact IH].
  Qed.

  Lemma gsins_Forall : forall (P : A -> Prop) x l, P x -> Forall P l -> Forall P (gsins x l).
  Proof.
    intros P x l Hx Hl. rewrite Forall_forall in *. intros z Hz.
    apply (Permutation_in _ (gsins_perm x l)) in Hz. destruct Hz as [<- | Hz]; auto.
  Qed.

  Lemma gsort_Forall : forall (P : A -> Prop) l, Forall P l -> Forall P (gsort l).
  Proof.
    intros P l Hl. rewrite Forall_forall in *. intros z Hz.
    apply Hl. apply (Permutation_in _ (gsort_perm l)). assumption.
  Qed.

  (* adjacent elements of the output are related by what the insertion tested; no law of
     [cmp] is needed *)
  Definition adj_ok (a b : A) : Prop := cmp a b <> Gt \/ cmp b a = Gt.

  Lemma gsins_locally : forall x l, LocallySorted adj_ok l -> LocallySorted adj_ok (gsins x l).
  Proof.
    intros x l H. induction H as [| y | y z r H IH Hyz]; cbn [gsins].
    - constructor.
    - destruct (cmp x y) eqn:E.
      + apply LSorted_consn; [apply LSorted_cons1 | left; congruence].
      + apply LSorted_consn; [apply LSorted_cons1 | left; congruence].
      + apply LSorted_consn; [apply LSorted_cons1 | right; assumption].
    - assert (Hle : cmp x y <> Gt -> LocallySorted adj_ok (x :: y :: z :: r)).
      { intro N. apply LSorted_consn; [apply LSorted_consn; assumption | left; assumption]. }
      destruct (cmp x y) eqn:E; try (apply Hle; congruence).
      cbn [gsins] in *. destruct (cmp x z) eqn:E2;
        (apply LSorted_consn; [exact IH |]); auto; right; assumption.
  Qed.

  Lemma gsort_locally : forall l, LocallySorted adj_ok (gsort l).
  Proof.
    induction l as [| a l IH]; cbn [gsort fold_right]; [constructor|].
    apply gsins_locally. exact IH.
  Qed.

  Lemma gsort_sorted_id : forall l, StronglySorted (fun a b => cmp a b <> Gt) l -> gsort l = l.
  Proof.
    induction l as [| a l IH]; intro H; auto.
    inversion H as [| ? ? HS HF]; subst. cbn [gsort fold_right]. fold (gsort l). rewrite IH by assumption.
    destruct l as [| y r]; auto. cbn [gsins]. inversion HF; subst.
    destruct (cmp a y); congruence.
  Qed.

  Section WithPO.
    Hypothesis PO : preorder cmp.
    Let le (a b : A) : Prop := cmp a b <> Gt.

    Lemma gsins_sorted : forall x l, StronglySorted le l -> StronglySorted le (gsins x l).
    Proof.
      intros x l. induction l as [| y r IH]; intro H; cbn [gsins].
      - repeat constructor.
      - inversion H as [| ? ? HS HF]; subst.
        assert (Hle : cmp x y <> Gt -> StronglySorted le (x :: y :: r)).
        { intro N. constructor; [assumption|]. constructor; [exact N|].
          rewrite Forall_forall in *. intros z Hz. unfold le.
          apply (po_le_trans _ PO x y z); [exact N | apply HF; assumption]. }
        destruct (cmp x y) eqn:E; try (apply Hle; congruence).
        constructor; [apply IH; assumption|].
        apply gsins_Forall; [|assumption].
        unfold le. rewrite (po_anti _ PO), E. cbn. congruence.
    Qed.

    Theorem gsort_sorted : forall l, StronglySorted le (gsort l).
    Proof.
      induction l as [| a l IH]; cbn [gsort fold_right]; [constructor|].
      apply gsins_sorted. exact IH.
    Qed.

    Corollary gsort_idem : forall l, gsort (gsort l) = gsort l.
    Proof. intro l. apply gsort_sorted_id. apply gsort_sorted. Qed.

    (* the new element goes IN FRONT of the elements equal to it *)
    Lemma gsins_filter : forall k x l,
      filter (fun y => cmp_is_eq (cmp y k)) (gsins x l) =
      ((if cmp_is_eq (cmp x k) then [x] else []) ++ filter (fun y => cmp_is_eq (cmp y k)) l)%list.
    Proof.
      intros k x l. induction l as [| y r IH].
      - cbn [gsins filter]. rewrite app_nil_r. reflexivity.
      - assert (Hle : filter (fun y => cmp_is_eq (cmp y k)) (x :: y :: r) =
                      ((if cmp_is_eq (cmp x k) then [x] else []) ++
                       filter (fun y => cmp_is_eq (cmp y k)) (y :: r))%list).
        { change (filter (fun y => cmp_is_eq (cmp y k)) (x :: y :: r))
            with (if cmp_is_eq (cmp x k) then x :: filter (fun y => cmp_is_eq (cmp y k)) (y :: r)
                  else filter (fun y => cmp_is_eq (cmp y k)) (y :: r)).
          destruct (cmp_is_eq (cmp x k)); reflexivity. }
        cbn [gsins]. destruct (cmp x y) eqn:E; try exact Hle.
        clear Hle. cbn [filter]. rewrite IH.
        destruct (cmp_is_eq (cmp x k)) eqn:Ex; destruct (cmp_is_eq (cmp y k)) eqn:Ey; try reflexivity.
        exfalso. apply cmp_is_eq_true in Ex. apply cmp_is_eq_true in Ey.
        rewrite (po_cong _ PO _ _ Ex) in E. rewrite (po_sym _ PO _ _ Ey) in E. discriminate.
    Qed.

    Theorem gsort_stable : forall k l,
      filter (fun y => cmp_is_eq (cmp y k)) (gsort l) = filter (fun y => cmp_is_eq (cmp y k)) l.
    Proof.
      intros k l. induction l as [| a l IH]; auto.
      cbn [gsort fold_right]. fold (gsort l). rewrite gsins_filter, IH.
      cbn [filter]. destruct (cmp_is_eq (cmp a k)); reflexivity.
    Qed.
  End WithPO.
End GSort.

Lemma gsins_ext : forall {A} (c1 c2 : A -> A -> comparison) (P : A -> Prop),
  (forall a b, P a -> P b -> c1 a b = c2 a b) ->
  forall x l, P x -> Forall P l -> gsins c1 x l = gsins c2 x l.
Proof.
  intros A c1 c2 P H x l Hx Hl. induction Hl as [| y r Hy Hr IH]; auto.
  cbn [gsins]. rewrite H, IH by assumption. reflexivity.
Qed.

Lemma gsort_ext : forall {A} (c1 c2 : A -> A -> comparison) (P : A -> Prop),
  (forall a b, P a -> P b -> c1 a b = c2 a b) ->
  forall l, Forall P l -> gsort c1 l = gsort c2 l.
Proof.
  intros A c1 c2 P H l Hl. induction Hl as [| a l Ha Hl IH]; auto.
  cbn [gsort fold_right]. fold (gsort c1 l) (gsort c2 l). rewrite IH.
  apply (gsins_ext c1 c2 P); auto. apply gsort_Forall. assumption.
Qed.

Lemma gsins_map : forall {A B} (f : A -> B) (cA : A -> A -> comparison) (cB : B -> B -> comparison),
  (forall a b, cB (f a) (f b) = cA a b) ->
  forall x l, map f (gsins cA x l) = gsins cB (f x) (map f l).
Proof.
  intros A B f cA cB H x l. induction l as [| y r IH]; auto.
  cbn [gsins map]. rewrite H. destruct (cA x y); cbn [map]; rewrite ?IH; reflexivity.
Qed.

Lemma gsort_map : forall {A B} (f : A -> B) (cA : A -> A -> comparison) (cB : B -> B -> comparison),
  (forall a b, cB (f a) (f b) = cA a b) ->
  forall l, map f (gsort cA l) = gsort cB (map f l).
Proof.
  intros A B f cA cB H l. induction l as [| a l IH]; auto.
  cbn [gsort fold_right map]. fold (gsort cA l) (gsort cB (map f l)).
  rewrite (gsins_map f cA cB H), IH. reflexivity.
Qed.

Lemma sort_insert_generic : forall x l, sort_insert x l = gsins cell_cmp x l.
Proof. reflexivity. Qed.

Lemma sort_cells_generic : forall l, sort_cells l = gsort cell_cmp l.
Proof. reflexivity. Qed.

Lemma sort_cells_scmp : forall l, Forall tagwf l -> sort_cells l = gsort scmp l.
Proof.
  intros l H. rewrite sort_cells_generic. apply (gsort_ext cell_cmp scmp tagwf); [|assumption].
  intros a b Ha Hb. apply cmp_strip; assumption.
Qed.

Theorem sort_cells_perm : forall l, Permutation (sort_cells l) l.
Proof. exact (gsort_perm cell_cmp). Qed.

Lemma sort_cells_in : forall l x, In x (sort_cells l) <-> In x l.
Proof.
  intros l x. split; apply Permutation_in; [| symmetry]; apply sort_cells_perm.
Qed.

Lemma sort_cells_Forall : forall (P : cell -> Prop) l, Forall P l -> Forall P (sort_cells l).
Proof. exact (gsort_Forall cell_cmp). Qed.

Lemma sort_cells_nil : sort_cells [] = [].
Proof. reflexivity. Qed.

Lemma sort_cells_cons : forall a l, sort_cells (a :: l) = sort_insert a (sort_cells l).
Proof. reflexivity. Qed.

Theorem sort_cells_sorted : forall l, Forall tagwf l ->
  StronglySorted (fun a b => cell_cmp a b <> Gt) (sort_cells l).
Proof.
  intros l H. pose proof (sort_cells_Forall tagwf l H) as HT.
  rewrite sort_cells_scmp in * by assumption. rewrite Forall_forall in HT.
  eapply StronglySorted_ext_in; [| apply (gsort_sorted scmp scmp_preorder)].
  cbv beta. intros x y Hx Hy. rewrite cmp_strip by (apply HT; assumption). auto.
Qed.

Corollary sort_cells_Sorted : forall l, Forall tagwf l ->
  Sorted (fun a b => cell_cmp a b <> Gt) (sort_cells l).
Proof. intros. apply StronglySorted_Sorted. apply sort_cells_sorted. assumption. Qed.

(* without any hypothesis: adjacent elements are in the order the insertion tested
   (for tagwf cells the right disjunct says cell_cmp a b = Lt) *)
Theorem sort_cells_locally : forall l,
  LocallySorted (fun a b => cell_cmp a b <> Gt \/ cell_cmp b a = Gt) (sort_cells l).
Proof. exact (gsort_locally cell_cmp). Qed.

Theorem sort_cells_strip : forall l, Forall tagwf l ->
  map strip (sort_cells l) = sort_cells (map strip l).
Proof.
  intros l H. rewrite sort_cells_scmp by assumption.
  rewrite (gsort_map strip scmp scmp).
  - symmetry. apply sort_cells_scmp. apply Forall_forall. intros x Hx.
    apply in_map_iff in Hx. destruct Hx as [y [<- _]]. apply tagwf_strip.
  - intros a b. rewrite scmp_strip_l, scmp_strip_r. reflexivity.
Qed.

Theorem sort_cells_sorted_id : forall l,
  StronglySorted (fun a b => cell_cmp a b <> Gt) l -> sort_cells l = l.
Proof. exact (gsort_sorted_id cell_cmp). Qed.

Corollary sort_cells_strict_id : forall l,
  StronglySorted (fun a b => cell_cmp a b = Lt) l -> sort_cells l = l.
Proof.
  intros l H. apply sort_cells_sorted_id.
  eapply StronglySorted_ext_in; [| exact H]. cbv beta. intros; congruence.
Qed.

(* STABILITY: elements that compare equal keep their relative order (as slice::sort) *)
Example sort_keeps_equal :
  sort_cells [CInt 2; CTag [] (CInt 1); CInt 1] = [CTag [] (CInt 1); CInt 1; CInt 2] /\
  sort_cells [CInt 2; CInt 1; CTag [] (CInt 1)] = [CInt 1; CTag [] (CInt 1); CInt 2].
Proof. split; vm_compute; reflexivity. Qed.

Theorem sort_cells_stable : forall l k, Forall tagwf l -> tagwf k ->
  filter (fun y => cmp_is_eq (cell_cmp y k)) (sort_cells l) =
  filter (fun y => cmp_is_eq (cell_cmp y k)) l.
Proof.
  intros l k Hl Hk.
  assert (E : forall m, Forall tagwf m ->
            filter (fun y => cmp_is_eq (cell_cmp y k)) m = filter (fun y => cmp_is_eq (scmp y k)) m).
  { intros m Hm. apply filter_ext_in. intros a Ha. rewrite Forall_forall in Hm. rewrite cmp_strip; auto. }
  rewrite (E _ (sort_cells_Forall tagwf l Hl)), (E _ Hl).
  rewrite sort_cells_scmp by assumption.
  apply (gsort_stable scmp scmp_preorder).
Qed.

Lemma vec_rev_length : forall (v : list cell), length (rev v) = length v.
Proof. intro v. apply rev_length. Qed.

Lemma vec_rev_involutive : forall (v : list cell), rev (rev v) = v.
Proof. intro v. apply rev_involutive. Qed.

Lemma vec_push_length : forall (v : list cell) x, length (v ++ [x]) = S (length v).
Proof. intros v x. rewrite app_length. cbn [length]. lia. Qed.

Lemma vec_push_last : forall (v : list cell) x, nth_error (v ++ [x]) (length v) = Some x.
Proof.
  intros v x. rewrite nth_error_app2 by lia. rewrite Nat.sub_diag. reflexivity.
Qed.

Lemma vec_push_old : forall (v : list cell) x n, (n < length v)%nat ->
  nth_error (v ++ [x]) n = nth_error v n.
Proof. intros v x n H. apply nth_error_app1. assumption. Qed.

Lemma vec_rev_nth : forall (v : list cell) n, (n < length v)%nat ->
  nth_error (rev v) n = nth_error v (length v - S n).
Proof.
  intros v n H. destruct (nth_error v (length v - S n)) eqn:E.
  - assert (L : (length v - S n < length v)%nat) by lia.
    rewrite (nth_error_nth' (rev v) c) by (rewrite rev_length; assumption).
    rewrite rev_nth by assumption. f_equal.
    apply (nth_error_nth v _ CNil) in E.
    rewrite (nth_indep v c CNil) by lia. assumption.
  - apply nth_error_None in E. lia.
Qed.
