(* DbgMapRun.v (C17, 3): where a run-time error leaves the machine.

   A failing [fetch_and_run] keeps ip, the debug map and the sources, so the entry
   [nth_error (dbg s') (ip s')] read after the failure is the entry of the instruction that
   failed; a failing [run] failed in exactly one such step, taken in a running state
   (ip inside the code), so under alignment the entry exists. *)
From Xeh Require Import Model.Prelude Model.Bits Model.Codec Model.Cell Model.Lexer Model.Fmt
                        Model.Vm Model.Words Model.Build.
From Xeh Require Import Proofs.VmFrame Proofs.VmLimits Proofs.DbgMapVm Proofs.DbgMapAlign.

Lemma steps_vmrel : forall nf, (forall w f, nf w = Some f -> wl f) ->
  forall n s s', steps nf n s = Some s' -> vmrel s s'.
Proof.
  intros nf Hnf. induction n as [|n IH]; intros s s' H; cbn [steps] in H.
  - injection H as <-. apply vmrel_refl.
  - pose proof (far_vmrel nf Hnf s) as H1.
    destruct (fetch_and_run nf s) as [u s1|k p s1| |]; try discriminate.
    cbn [res_all] in H1. eapply vmrel_trans; [exact H1|]. apply IH. exact H.
Qed.

Theorem far_err_location : forall fo s k p s',
  fetch_and_run (native_fn fo) s = RErr k p s' ->
  ip s' = ip s /\ dbg s' = dbg s /\ sources s' = sources s /\
  length (code s') = length (code s).
Proof.
  intros fo s k p s' H. split; [eapply far_err_ip; exact H|].
  pose proof (far_vmrel (native_fn fo) (native_wl fo) s) as V. rewrite H in V. cbn [res_all] in V.
  destruct (vmrel_keeps _ _ V) as (A1 & A2 & A3 & _). auto.
Qed.

(* the instruction that failed is the one at ip (the patched one for a Resolve cell), and
   the failure is not the step's own bookkeeping: either the instruction limit, or an
   unknown late-bound word, or the execution of the instruction itself *)
Theorem far_err_cases : forall fo s k p s',
  fetch_and_run (native_fn fo) s = RErr k p s' ->
  (k = ELimit /\ p = None) \/
  (exists name, nth_error (code s) (ip s) = Some (OResolve name) /\ dict_entry s name = None /\ k = EUnknown) \/
  (exists op s1, (nth_error (code s) (ip s) = Some op \/
                  exists name e, nth_error (code s) (ip s) = Some (OResolve name) /\
                                 dict_entry s name = Some e /\ op = resolve_op e) /\
                 ip s1 = ip s /\ exec_op (native_fn fo) (ip s) op s1 = RErr k p s').
Proof.
  intros fo s k p s' H. pose proof (far_spec_holds (native_fn fo) s) as FS. rewrite H in FS.
  inversion FS as [ Hm | | op Hm Hn Hr Hx | name Hm Hn Hd | name e Hm Hn Hd Hm2 | name e Hm Hn Hd Hm2 Hx ]; subst.
  - left. auto.
  - right. right. exists op, (set_meter s (meter s + 1)%Z). split; [left; exact Hn|]. split; [reflexivity|]. congruence.
  - right. left. exists name. auto.
  - left. auto.
  - right. right.
    exists (resolve_op e), (set_meter (set_code (set_meter s (meter s + 1)%Z)
                                               (list_set (code s) (ip s) (resolve_op e))) (meter s + 1 + 1)%Z).
    split; [right; exists name, e; auto|]. split; [reflexivity|].
    first [exact Hx | reflexivity].
Qed.

Theorem run_err_location : forall fo fuel s k p s',
  run (native_fn fo) fuel s = Some (RErr k p s') ->
  exists n s1,
    steps (native_fn fo) n s = Some s1 /\ is_running s1 = true /\
    fetch_and_run (native_fn fo) s1 = RErr k p s' /\
    ip s' = ip s1 /\ dbg s' = dbg s /\ sources s' = sources s /\
    ip s' < length (code s') /\
    (al s -> exists t, nth_error (dbg s') (ip s') = Some t /\ nth_error (dbg s) (ip s1) = Some t).
Proof.
  intros fo fuel s k p s' H.
  destruct (run_err_step _ _ _ _ _ _ H) as (n & s1 & H1 & H2 & H3).
  exists n, s1. split; [exact H1|]. split; [exact H2|]. split; [exact H3|].
  destruct (far_err_location _ _ _ _ _ H3) as (A1 & A2 & A3 & A4).
  pose proof (steps_vmrel _ (native_wl fo) _ _ _ H1) as V.
  destruct (vmrel_keeps _ _ V) as (B1 & B2 & B3 & _).
  unfold is_running in H2. apply Nat.ltb_lt in H2.
  split; [exact A1|]. split; [congruence|]. split; [congruence|]. split; [lia|].
  intros Ha. unfold al in Ha.
  assert (L : ip s1 < length (dbg s)) by lia.
  destruct (nth_error (dbg s) (ip s1)) as [t|] eqn:En; [|apply nth_error_None in En; lia].
  exists t. split; [|reflexivity]. rewrite A1, A2, B2. exact En.
Qed.
