(* VmFetch.v: the shape of one instruction step, and induction along [steps] and [run].

   [fetch_and_run] checks the instruction limit, counts the fetch, and executes the opcode at
   the instruction pointer.  A [late] cell ([OResolve]) is the one exception: it is replaced by
   the opcode its name resolves to, and the step starts again on the patched code, where it
   cannot meet a [late] cell a second time ([far_resolve], [patched_plain]).  So a fact about
   all steps needs the four plain cases and an argument that it survives the patch. *)
From Xeh Require Import Model.Prelude Model.Bits Model.Codec Model.Cell Model.Lexer Model.Fmt
                        Model.Vm Model.Words.
From Xeh Require Import Proofs.VmPrim Proofs.VmFrame.
Local Notation length := List.length.

#[local] Arguments Z.add : simpl never.

Definition tick (s : state) : state := set_meter s (meter s + 1)%Z.

(* [s] after the fetch of a [late] cell whose name resolves to [e] *)
Definition patched (s : state) (e : entry) : state :=
  set_code (tick s) (list_set (code s) (ip s) (resolve_op e)).

Definition at_resolve (s : state) : bool :=
  match nth_error (code s) (ip s) with Some (OResolve _) => true | _ => false end.

Lemma resolve_op_not_resolve e n : resolve_op e <> OResolve n.
Proof.
  destruct e as [c|a|imm [x|x] len]; cbn [resolve_op]; try discriminate.
  unfold load_value_opcode. destruct c; try discriminate. destruct (in_i64 z); discriminate.
Qed.

Lemma resolve_or_not op : (exists n, op = OResolve n) \/ (forall n, op <> OResolve n).
Proof. destruct op; try (right; intros n; discriminate). left. eexists. reflexivity. Qed.

Lemma not_resolve_at s : not_resolve s <-> at_resolve s = false.
Proof.
  unfold not_resolve, at_resolve. destruct (nth_error (code s) (ip s)) as [op|]; [|split; [reflexivity|discriminate]].
  destruct op; split; intros H; try reflexivity; try discriminate. contradiction (H name eq_refl).
Qed.

Lemma not_resolve_at_op s op :
  nth_error (code s) (ip s) = Some op -> (forall n, op <> OResolve n) -> at_resolve s = false.
Proof. intros E N. unfold at_resolve. rewrite E. destruct op; try reflexivity. contradiction (N name eq_refl). Qed.

Section Fetch.
  Variable nf : natives.

  Lemma far_limit s : mlim s (meter s) = true -> fetch_and_run nf s = RErr ELimit None s.
  Proof. intros H. unfold fetch_and_run. rewrite meter_increase_eq, H. reflexivity. Qed.

  Lemma far_panic s :
    mlim s (meter s) = false -> nth_error (code s) (ip s) = None -> fetch_and_run nf s = RPanic.
  Proof.
    intros H0 H1. unfold fetch_and_run. rewrite meter_increase_eq, H0.
    change (code (set_meter s (meter s + 1)%Z)) with (code s). rewrite H1. reflexivity.
  Qed.

  Lemma far_plain s op :
    mlim s (meter s) = false -> nth_error (code s) (ip s) = Some op -> (forall n, op <> OResolve n) ->
    fetch_and_run nf s = exec_op nf (ip s) op (tick s).
  Proof.
    intros H0 H1 H2. unfold fetch_and_run. rewrite meter_increase_eq, H0.
    change (code (set_meter s (meter s + 1)%Z)) with (code s). rewrite H1.
    destruct op; try reflexivity. exfalso. eapply H2. reflexivity.
  Qed.

  Lemma far_unknown s name :
    mlim s (meter s) = false -> nth_error (code s) (ip s) = Some (OResolve name) ->
    dict_entry s name = None -> fetch_and_run nf s = RErr EUnknown None (tick s).
  Proof.
    intros H0 H1 H2. unfold fetch_and_run. rewrite meter_increase_eq, H0.
    change (code (set_meter s (meter s + 1)%Z)) with (code s). rewrite H1.
    change (dict_entry (set_meter s (meter s + 1)%Z) name) with (dict_entry s name). rewrite H2. reflexivity.
  Qed.

  Lemma patched_plain s e op :
    nth_error (code s) (ip s) = Some op ->
    nth_error (code (patched s e)) (ip (patched s e)) = Some (resolve_op e).
  Proof. intros H. exact (nth_error_list_set _ _ _ _ H). Qed.

  Lemma far_resolve s name e :
    mlim s (meter s) = false -> nth_error (code s) (ip s) = Some (OResolve name) ->
    dict_entry s name = Some e -> fetch_and_run nf s = fetch_and_run nf (patched s e).
  Proof.
    intros H0 H1 H2. unfold fetch_and_run at 1. rewrite meter_increase_eq, H0.
    change (code (set_meter s (meter s + 1)%Z)) with (code s). rewrite H1.
    change (dict_entry (set_meter s (meter s + 1)%Z) name) with (dict_entry s name). rewrite H2.
    fold (tick s). fold (patched s e). change (ip s) with (ip (patched s e)).
    rewrite meter_increase_eq.
    destruct (mlim (patched s e) (meter (patched s e))) eqn:E; [symmetry; apply far_limit; exact E|].
    symmetry. apply far_plain; [exact E|exact (patched_plain s e _ H1)|apply resolve_op_not_resolve].
  Qed.

  (* the ways a step can go *)
  Inductive far_view (s : state) : res unit -> Prop :=
  | fv_limit : mlim s (meter s) = true -> far_view s (RErr ELimit None s)
  | fv_panic : mlim s (meter s) = false -> nth_error (code s) (ip s) = None -> far_view s RPanic
  | fv_plain op :
      mlim s (meter s) = false -> nth_error (code s) (ip s) = Some op -> (forall n, op <> OResolve n) ->
      far_view s (exec_op nf (ip s) op (tick s))
  | fv_unknown name :
      mlim s (meter s) = false -> nth_error (code s) (ip s) = Some (OResolve name) ->
      dict_entry s name = None -> far_view s (RErr EUnknown None (tick s))
  | fv_resolve name e :
      mlim s (meter s) = false -> nth_error (code s) (ip s) = Some (OResolve name) ->
      dict_entry s name = Some e -> far_view s (fetch_and_run nf (patched s e)).

  Lemma far_cases s : far_view s (fetch_and_run nf s).
  Proof.
    destruct (mlim s (meter s)) eqn:E0; [rewrite far_limit by exact E0; apply fv_limit; exact E0|].
    destruct (nth_error (code s) (ip s)) as [op|] eqn:E1;
      [|rewrite far_panic by assumption; apply fv_panic; assumption].
    destruct (resolve_or_not op) as [[name ->]|N];
      [|rewrite (far_plain s op) by assumption; apply fv_plain; assumption].
    destruct (dict_entry s name) as [e|] eqn:E2.
    - rewrite (far_resolve s name e) by assumption. eapply fv_resolve; eassumption.
    - rewrite (far_unknown s name) by assumption. eapply fv_unknown; eassumption.
  Qed.

  (* a fact about every step: the four plain cases, and the patch *)
  Lemma far_ind (P : state -> res unit -> Prop) :
    (forall s, mlim s (meter s) = true -> P s (RErr ELimit None s)) ->
    (forall s, mlim s (meter s) = false -> nth_error (code s) (ip s) = None -> P s RPanic) ->
    (forall s op, mlim s (meter s) = false -> nth_error (code s) (ip s) = Some op ->
                  (forall n, op <> OResolve n) -> P s (exec_op nf (ip s) op (tick s))) ->
    (forall s name, mlim s (meter s) = false -> nth_error (code s) (ip s) = Some (OResolve name) ->
                    dict_entry s name = None -> P s (RErr EUnknown None (tick s))) ->
    (forall s name e r, mlim s (meter s) = false -> nth_error (code s) (ip s) = Some (OResolve name) ->
                        dict_entry s name = Some e -> at_resolve (patched s e) = false ->
                        P (patched s e) r -> P s r) ->
    forall s, P s (fetch_and_run nf s).
  Proof.
    intros HL HP HX HU HR.
    assert (Plain : forall s, at_resolve s = false -> P s (fetch_and_run nf s)).
    { intros s A. destruct (far_cases s) as [E0|E0 E1|op E0 E1 N|name E0 E1 E2|name e E0 E1 E2];
        [apply HL|apply HP|apply HX|eapply HU|exfalso; unfold at_resolve in A; rewrite E1 in A; discriminate A];
        eassumption. }
    intros s. destruct (far_cases s) as [E0|E0 E1|op E0 E1 N|name E0 E1 E2|name e E0 E1 E2];
      [apply HL|apply HP|apply HX|eapply HU|]; try eassumption.
    assert (A : at_resolve (patched s e) = false)
      by (apply not_resolve_at_op with (resolve_op e);
          [exact (patched_plain s e _ E1)|apply resolve_op_not_resolve]).
    exact (HR s name e _ E0 E1 E2 A (Plain _ A)).
  Qed.
End Fetch.

Lemma steps_ind nf (P : nat -> state -> state -> Prop) :
  (forall s, P 0 s s) ->
  (forall n s s1 sn, fetch_and_run nf s = ROk tt s1 -> steps nf n s1 = Some sn -> P n s1 sn -> P (S n) s sn) ->
  forall n s sn, steps nf n s = Some sn -> P n s sn.
Proof.
  intros H0 HS. induction n as [|n IH]; intros s sn H; cbn [steps] in H.
  - injection H as <-. apply H0.
  - destruct (fetch_and_run nf s) as [[] s1| | |] eqn:E; try discriminate. eapply HS; eauto.
Qed.

(* [run]: the machine has stopped, or the step succeeds and the run goes on, or the step is the result *)
Lemma run_ind nf (P : nat -> state -> res unit -> Prop) :
  (forall f s, is_running s = false -> P (S f) s (ROk tt s)) ->
  (forall f s s1 r, is_running s = true -> fetch_and_run nf s = ROk tt s1 ->
                    run nf f s1 = Some r -> P f s1 r -> P (S f) s r) ->
  (forall f s, is_running s = true -> (forall u s', fetch_and_run nf s <> ROk u s') ->
               P (S f) s (fetch_and_run nf s)) ->
  forall f s r, run nf f s = Some r -> P f s r.
Proof.
  intros H0 HS HF. induction f as [|f IH]; intros s r H; cbn [run] in H; [discriminate|].
  destruct (is_running s) eqn:R; [|injection H as <-; apply H0; exact R].
  destruct (fetch_and_run nf s) as [[] s1|k p s1| |] eqn:E.
  - eapply HS; eauto.
  - injection H as <-. rewrite <- E. apply HF; [exact R|]. rewrite E. discriminate.
  - injection H as <-. rewrite <- E. apply HF; [exact R|]. rewrite E. discriminate.
  - injection H as <-. rewrite <- E. apply HF; [exact R|]. rewrite E. discriminate.
Qed.

(* a run is a number of successful steps, then a stop or a step that does not succeed *)
Lemma run_steps nf fuel s r : run nf fuel s = Some r ->
  exists n sn, n < fuel /\ steps nf n s = Some sn /\
    ((is_running sn = false /\ r = ROk tt sn) \/
     (is_running sn = true /\ r = fetch_and_run nf sn /\ forall u s', r <> ROk u s')).
Proof.
  revert fuel s r. apply (run_ind nf (fun fuel s r => exists n sn, n < fuel /\ steps nf n s = Some sn /\
    ((is_running sn = false /\ r = ROk tt sn) \/
     (is_running sn = true /\ r = fetch_and_run nf sn /\ forall u s', r <> ROk u s')))).
  - intros f s R. exists 0, s. split; [lia|]. split; [reflexivity|]. left. split; [exact R|reflexivity].
  - intros f s s1 r _ E _ (n & sn & Hn & Hs & Hd). exists (S n), sn. split; [lia|].
    split; [cbn [steps]; rewrite E; exact Hs|exact Hd].
  - intros f s R Hf. exists 0, s. split; [lia|]. split; [reflexivity|]. right. auto.
Qed.
