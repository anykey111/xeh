(* VmLimitsRunBuild.v (C14): the limits at build time.
   [brel s s']: the limits are the same, the meter did not go back and did not pass the
   instruction limit, the heap is within the heap limit (or did not grow), the data stack is
   within the stack limit (or did not grow).  Every program of the builder keeps [brel]:
   token reading, code emission, the immediate words (control structures, definitions, [var],
   [let], [const], meta blocks), code run at build time ([run_m]), closing a context, the
   unwinding of a failed build; hence [build1], [eval] and [compile] for every source. *)
From Xeh Require Import Model.Prelude Model.Bits Model.Codec Model.Cell Model.Lexer Model.Fmt
                        Model.Vm Model.Words Model.Build.
From Xeh Require Import Proofs.VmFrame Proofs.VmLimits Proofs.BuildLet Proofs.NoPanic Proofs.NoPanicBuild Proofs.NoPanicFlow
                        Proofs.MetaBase Proofs.UnwindLists Proofs.UnwindFrame
                        Proofs.VmLimitsRunBase Proofs.VmLimitsRunStep Proofs.VmLimitsRunRun.
Local Notation length := List.length.
Local Open Scope list_scope.
Local Open Scope string_scope.

#[local] Arguments Z.add : simpl never.
#[local] Arguments Z.sub : simpl never.
#[local] Arguments Z.mul : simpl never.
#[local] Arguments Z.ltb : simpl never.
#[local] Arguments Z.leb : simpl never.
#[local] Arguments Z.eqb : simpl never.
#[local] Arguments Z.of_nat : simpl never.
#[local] Arguments Z.to_nat : simpl never.

Definition brel (s s' : state) : Prop :=
  insn_limit s' = insn_limit s /\ heap_limit s' = heap_limit s /\ stack_limit s' = stack_limit s /\
  (meter s <= meter s')%Z /\
  (forall N, insn_limit s = Some N -> (meter s <= N)%Z -> (meter s' <= N)%Z) /\
  (forall H, heap_limit s = Some H -> length (heap s') <= Nat.max (Z.to_nat H) (length (heap s))) /\
  (forall S, stack_limit s = Some S -> length (ds s') <= Nat.max (Z.to_nat S) (length (ds s))).

Lemma brel_refl s : brel s s.
Proof. unfold brel. repeat split; try reflexivity; try lia; auto; intros; apply Nat.le_max_r. Qed.

Lemma brel_trans a b c : brel a b -> brel b c -> brel a c.
Proof.
  intros (A1 & A2 & A3 & A4 & A5 & A6 & A7) (B1 & B2 & B3 & B4 & B5 & B6 & B7).
  unfold brel. repeat split; try congruence; try lia.
  - intros N EN Hle. apply B5; [congruence|]. apply A5; assumption.
  - intros H EH. specialize (A6 H EH). rewrite <- A2 in EH. specialize (B6 H EH). lia.
  - intros S ES. specialize (A7 S ES). rewrite <- A3 in ES. specialize (B7 S ES). lia.
Qed.

Lemma bounded_brel s s' : bounded s s' -> brel s s'.
Proof.
  intros (A1 & A2 & A3 & A4 & A5 & A6 & A7). unfold brel. repeat split; try assumption.
  intros H _. rewrite A4. apply Nat.le_max_r.
Qed.

(* the fields the limits talk about *)
Definition lcore (s : state) := (insn_limit s, heap_limit s, stack_limit s, meter s, heap s, ds s).

Lemma brel_lcore s s' : lcore s' = lcore s -> brel s s'.
Proof.
  unfold lcore. intros E. injection E as E1 E2 E3 E4 E5 E6. unfold brel.
  rewrite E1, E2, E3, E4, E5, E6. apply brel_refl.
Qed.

Lemma brel_lcore_l s s1 s' : lcore s1 = lcore s -> brel s1 s' -> brel s s'.
Proof. intros E H. eapply brel_trans; [apply brel_lcore; exact E|exact H]. Qed.
Lemma brel_lcore_r s s1 s' : brel s s1 -> lcore s' = lcore s1 -> brel s s'.
Proof. intros H E. eapply brel_trans; [exact H|apply brel_lcore; exact E]. Qed.

Definition BF : frame :=
  mkFrame (fun _ => True) brel (fun s _ => brel_refl s) brel_trans (fun _ _ _ _ => I).

Definition lcorep {A} (m : M A) : Prop := forall s, res_all (fun s' => lcore s' = lcore s) (m s).

Lemma fp_lcorep A (m : M A) : lcorep m -> fp BF m.
Proof.
  intros H s _. specialize (H s). cbn [BF fr_rel].
  destruct (m s); cbn [res_all] in *; auto; apply brel_lcore; assumption.
Qed.

Lemma lcorep_code_emit op : lcorep (code_emit op).
Proof.
  intros s. unfold code_emit. cbv zeta.
  destruct (_ <? _)%nat; [reflexivity|]. destruct (_ =? _)%nat; [reflexivity|exact I].
Qed.
Lemma lcorep_backpatch pos op : lcorep (backpatch pos op).
Proof. intros s. unfold backpatch. destruct (_ <? _)%nat; [reflexivity|exact I]. Qed.
Lemma lcorep_backpatch_jump pos offs : lcorep (backpatch_jump pos offs).
Proof.
  intros s. unfold backpatch_jump. destruct (nth_error (code s) pos) as [op|]; [|reflexivity].
  destruct op; try exact I; apply lcorep_backpatch.
Qed.
Lemma lcorep_dict_insert name e : lcorep (dict_insert name e).
Proof. intros s. reflexivity. Qed.
Lemma lcorep_intern_source buf : lcorep (intern_source buf).
Proof. intros s. reflexivity. Qed.
Lemma lcorep_context_open m : lcorep (context_open m).
Proof. intros s. reflexivity. Qed.
Lemma lcorep_join_str_vec sep v : lcorep (join_str_vec sep v).
Proof. intros s. unfold join_str_vec. destruct (join_cells 40 sep v); [reflexivity|exact I]. Qed.
Lemma lcorep_push_flow f : lcorep (push_flow f).
Proof. intros s. reflexivity. Qed.
Lemma lcorep_pop_flow : lcorep pop_flow.
Proof.
  intros s. unfold pop_flow. destruct (flows s); [reflexivity|]. destruct (_ <? _)%nat; reflexivity.
Qed.
Lemma lcorep_take : lcorep take_first_cond_flow.
Proof.
  intros s. unfold take_first_cond_flow. cbv zeta.
  destruct (take_cond (pending s)) as [[f act']|]; reflexivity.
Qed.

Section Tokens.
  Variable pr : string -> option Z.

  Lemma lcorep_next_token : forall fuel, lcorep (next_token pr fuel).
  Proof.
    induction fuel as [|f IH]; intros s; cbn [next_token]; [exact I|].
    destruct (input s) as [|il rest]; [reflexivity|]. cbv zeta.
    destruct (lex_next_nonws _ _) as [t l'].
    destruct t; try exact I; try reflexivity.
    - specialize (IH (set_input (set_last_tok (set_input s (mkinlex (in_src il) l' :: rest))
                                              (Some (in_src il, lstart l', lpos l'))) rest)).
      destruct (next_token pr f _); cbn [res_all] in *; auto.
    - destruct (pr text); reflexivity.
  Qed.

  Lemma lcorep_get_token : lcorep (get_token pr).
  Proof. intros s. unfold get_token. apply lcorep_next_token. Qed.

  Lemma lcorep_next_name : lcorep (next_name pr).
  Proof.
    intros s. unfold next_name. cbv zeta. pose proof (lcorep_get_token s) as H.
    destruct (get_token pr s) as [t s1|k p s1| |]; cbn [res_all] in *; auto.
    destruct t; cbn [res_all]; try exact H; destruct (last_tok s); exact H.
  Qed.
End Tokens.

Lemma lim_rel_brel s s' : lim_rel s s' -> brel s s'.
Proof.
  intros (L1 & L2 & L3 & L4 & L5 & _ & _ & L8). unfold brel.
  split; [exact L2|]. split; [exact L3|]. split; [exact L4|]. split; [lia|].
  split; [intros N _ Hle; lia|]. split.
  - intros H _. rewrite L5. apply Nat.le_max_r.
  - intros S ES. specialize (L8 S ES). lia.
Qed.

Lemma fpb_wl A (m : M A) : wl m -> fp BF m.
Proof.
  intros W s _. pose proof (wl_lim _ _ W s) as L. cbn [BF fr_rel].
  destruct (m s); cbn [res_all] in *; auto; apply lim_rel_brel; exact L.
Qed.

Lemma fpb_alloc_heap v : fp BF (alloc_heap v).
Proof.
  intros s _. cbn [BF fr_rel]. unfold alloc_heap.
  destruct (mode_eqb _ _); [apply brel_refl|].
  destruct (limit_reached (heap_limit s) (length (heap s))) eqn:E; [apply brel_refl|].
  cbn [res_all]. unfold brel. cbn [set_heap insn_limit heap_limit stack_limit meter heap ds].
  split; [reflexivity|]. split; [reflexivity|]. split; [reflexivity|]. split; [lia|].
  split; [intros N _ Hle; exact Hle|]. split.
  - intros H EH. unfold limit_reached in E. rewrite EH in E. apply Z.leb_gt in E.
    rewrite app_length. cbn [length]. lia.
  - intros S _. apply Nat.le_max_r.
Qed.

Section Machine.
  Variable fo : fops.
  Variable rf : nat.

  Lemma fpb_run_m : fp BF (run_m fo rf).
  Proof.
    intros s _. cbn [BF fr_rel]. unfold run_m, nf.
    destruct (run (native_fn fo) rf s) as [r|] eqn:E; [|exact I].
    destruct r as [u s'|k p s'| |]; cbn [res_all]; try exact I; apply bounded_brel;
      eapply (run_bounded (native_fn fo) (native_wlx fo)); [exact E|reflexivity|exact E|reflexivity].
  Qed.

  Lemma fpb_emit_results : forall fuel, fp BF (emit_results fuel).
  Proof.
    induction fuel as [|f IH]; intros s _; cbn [emit_results BF fr_rel]; [apply brel_refl|].
    destruct (_ <? _)%nat; [|apply brel_refl].
    pose proof (fpb_wl _ _ wl_pop_data s I) as H1. cbn [BF fr_rel] in H1.
    destruct (pop_data s) as [v s1|k p s1| |]; cbn [res_all] in *; auto.
    pose proof (lcorep_code_emit (load_value_opcode v) s1) as H2. unfold code_emit_value.
    destruct (code_emit (load_value_opcode v) s1) as [u s2|k p s2| |]; cbn [res_all] in *; auto.
    - pose proof (IH s2 I) as H3. cbn [BF fr_rel] in H3.
      destruct (emit_results f s2); cbn [res_all] in *; auto;
        (eapply brel_trans; [eapply brel_lcore_r; [exact H1|exact H2]|exact H3]).
    - eapply brel_lcore_r; [exact H1|exact H2].
  Qed.

  Lemma fpb_context_close : fp BF (context_close fo rf).
  Proof.
    intros s _. cbn [BF fr_rel]. unfold context_close.
    destruct (nested s) as [|prev rest]; [apply brel_refl|]. cbv zeta.
    set (s0 := set_nested s rest).
    assert (E0 : lcore s0 = lcore s) by reflexivity.
    pose proof (fpb_run_m s0 I) as HR. cbn [BF fr_rel] in HR.
    destruct (cmode (cx s0)).
    - cbn [res_all]. apply brel_lcore. reflexivity.
    - destruct (run_m fo rf s0) as [u s1|k p s1| |]; cbn [res_all] in *; try exact I;
        (eapply brel_lcore_l; [exact E0|]; eapply brel_lcore_r; [exact HR|reflexivity]).
    - destruct (run_m fo rf s0) as [u s1|k p s1| |]; cbn [res_all] in *; try exact I;
        [|eapply brel_lcore_l; [exact E0|exact HR]].
      set (s2 := set_dbg (set_code s1 _) _).
      set (s3 := set_dict s2 _).
      assert (E3 : lcore s3 = lcore s1) by reflexivity.
      match goal with |- context [if ?b then _ else _] => destruct b end.
      + pose proof (fpb_emit_results (S (length (ds s3))) s3 I) as H4. cbn [BF fr_rel] in H4.
        destruct (emit_results (S (length (ds s3))) s3) as [u4 s4|k p s4| |]; cbn [res_all] in *; try exact I;
          (eapply brel_lcore_l; [exact E0|]; eapply brel_trans; [exact HR|];
           eapply brel_lcore_l; [symmetry; exact E3|]).
        * eapply brel_lcore_r; [exact H4|reflexivity].
        * exact H4.
      + cbn [res_all]. eapply brel_lcore_l; [exact E0|]. eapply brel_lcore_r; [exact HR|reflexivity].
  Qed.
End Machine.

Ltac fpb_prim :=
  lazymatch goal with
  | |- fpa _ _ (ret _) => apply fpa_ret
  | |- fpa _ _ (fail _ _) => apply fpa_fail
  | |- fpa _ _ unsup => apply fpa_unsup
  | |- fpa _ _ panic => apply fpa_panic
  | |- fpa _ _ (code_emit _) => apply (fp_lcorep _ _ (lcorep_code_emit _))
  | |- fpa _ _ (backpatch _ _) => apply (fp_lcorep _ _ (lcorep_backpatch _ _))
  | |- fpa _ _ (backpatch_jump _ _) => apply (fp_lcorep _ _ (lcorep_backpatch_jump _ _))
  | |- fpa _ _ (dict_insert _ _) => apply (fp_lcorep _ _ (lcorep_dict_insert _ _))
  | |- fpa _ _ (intern_source _) => apply (fp_lcorep _ _ (lcorep_intern_source _))
  | |- fpa _ _ (context_open _) => apply (fp_lcorep _ _ (lcorep_context_open _))
  | |- fpa _ _ (join_str_vec _ _) => apply (fp_lcorep _ _ (lcorep_join_str_vec _ _))
  | |- fpa _ _ (get_token _) => apply (fp_lcorep _ _ (lcorep_get_token _))
  | |- fpa _ _ (next_name _) => apply (fp_lcorep _ _ (lcorep_next_name _))
  | |- fpa _ _ (push_flow _) => apply (fp_lcorep _ _ (lcorep_push_flow _))
  | |- fpa _ _ pop_flow => apply (fp_lcorep _ _ lcorep_pop_flow)
  | |- fpa _ _ take_first_cond_flow => apply (fp_lcorep _ _ lcorep_take)
  | |- fpa _ _ (alloc_heap _) => apply fpb_alloc_heap
  | |- fpa _ _ (run_m _ _) => apply fpb_run_m
  | |- fpa _ _ (context_close _ _) => apply fpb_context_close
  | |- fpa _ _ pop_data => apply (fpb_wl _ _ wl_pop_data)
  | |- fpa _ _ (push_data _) => apply (fpb_wl _ _ (wl_push_data _))
  | |- fpa _ _ (push_return _) => apply (fpb_wl _ _ (wl_push_return _))
  | |- fpa _ _ (set_ip _) => apply (fpb_wl _ _ (wl_set_ip _))
  end.

Create HintDb fpbdb.

Ltac fpb_step :=
  cbv beta zeta;
  first
    [ fpb_prim
    | solve [ auto 2 with fpbdb nocore ]
    | match goal with H : _ |- fpa _ _ _ => solve [ apply H ] end
    | lazymatch goal with
      | |- fp _ _ => intro
      | |- fpa _ _ (bind get _) => apply fpa_get_bind
      | |- fpa _ _ (bind _ _) => apply fpa_bind; [ | intro ]
      | |- fpa _ _ (match ?x with _ => _ end) => destruct x eqn:?
      | |- fpa _ _ (put _) => apply fpa_put; intros _; apply brel_lcore; reflexivity
      | |- fpa _ _ ?m => let h := head_of m in unfold h
      end ].

Ltac fpb_solve := repeat fpb_step.

Lemma fpb_endcase_loop : forall fuel org s, fpa BF s (endcase_loop fuel org).
Proof. induction fuel as [|f IH]; intros org; change (fp BF (endcase_loop (S f) org)) || change (fp BF (endcase_loop 0 org)); cbn [endcase_loop]; fpb_solve. Qed.
#[export] Hint Resolve fpb_endcase_loop : fpbdb.

Lemma fpb_repeat_loop : forall fuel s, fpa BF s (repeat_loop fuel).
Proof. induction fuel as [|f IH]; change (fp BF (repeat_loop (S f))) || change (fp BF (repeat_loop 0)); cbn [repeat_loop]; fpb_solve. Qed.
#[export] Hint Resolve fpb_repeat_loop : fpbdb.

Lemma fpb_loop_loop : forall fuel a b s, fpa BF s (loop_loop fuel a b).
Proof. induction fuel as [|f IH]; intros a b; change (fp BF (loop_loop (S f) a b)) || change (fp BF (loop_loop 0 a b)); cbn [loop_loop]; fpb_solve. Qed.
#[export] Hint Resolve fpb_loop_loop : fpbdb.

Lemma fpb_vec_collect p : fp BF (vec_collect_till_ptr p).
Proof. apply fpb_wl. wl_solve. Qed.
Lemma fpb_vec_collect_a p s : fpa BF s (vec_collect_till_ptr p).
Proof. apply fpb_vec_collect. Qed.
#[export] Hint Resolve fpb_vec_collect_a : fpbdb.

Lemma fpb_build_local_variable name s : fpa BF s (build_local_variable name).
Proof. unfold build_local_variable. fpb_solve. Qed.
#[export] Hint Resolve fpb_build_local_variable : fpbdb.

Lemma fpb_build_global_variable name s : fpa BF s (build_global_variable name).
Proof. unfold build_global_variable. fpb_solve. Qed.
#[export] Hint Resolve fpb_build_global_variable : fpbdb.

Lemma fpb_emit_native w s : fpa BF s (emit_native w).
Proof. fpb_solve. Qed.
Lemma fpb_code_emit_value v s : fpa BF s (code_emit_value v).
Proof. fpb_solve. Qed.
#[export] Hint Resolve fpb_emit_native fpb_code_emit_value : fpbdb.

Lemma fpb_build_let_named w s : fpa BF s (build_let_named w).
Proof. fpb_solve. Qed.
Lemma fpb_build_let_match v s : fpa BF s (build_let_match v).
Proof. fpb_solve. Qed.
Lemma fpb_let_vec_next i s : fpa BF s (let_vec_next i).
Proof. fpb_solve. Qed.
#[export] Hint Resolve fpb_build_let_named fpb_build_let_match fpb_let_vec_next : fpbdb.

Section Let4.
  Variable pr : string -> option Z.

  Lemma fpb_build_let_in f : fp BF (build_let_in pr f).
  Proof.
    apply (build_let_in_closed pr (fun A m => fp BF m));
      [apply fp_ret|apply fp_fail|apply fp_unsup|apply fp_bind|apply fp_lcorep, lcorep_get_token
      |intros op; apply fp_lcorep, lcorep_code_emit|intros w s; apply fpb_build_let_named].
  Qed.
End Let4.

Section Top4.
  Variable fo : fops.
  Variable pr : string -> option Z.
  Variable rf : nat.

  Lemma fpb_immediate_fn : forall fuel name w,
    immediate_fn fo pr rf fuel name = Some w -> fp BF w.
  Proof.
    intros fuel name w H. unfold immediate_fn in H. cbv zeta in H.
    apply (table_find_row (fun _ m => fp BF m) _ _ _) with (2 := H).
    pose proof (fpb_build_let_in pr fuel) as HL.
    repeat (apply Forall_cons; [ cbn [snd]; fpb_solve | ]).
    apply Forall_nil.
  Qed.

  Lemma fpb_run_immediate fuel f : fp BF (run_immediate fo pr rf fuel f).
  Proof.
    unfold run_immediate. destruct f as [x|name].
    - fpb_solve.
    - destruct (immediate_fn fo pr rf fuel name) as [w|] eqn:E; [|apply fp_unsup].
      eapply fpb_immediate_fn. exact E.
  Qed.

  Lemma fpb_build_word fuel name : fp BF (build_word fo pr rf fuel name).
  Proof. pose proof (fpb_run_immediate fuel) as HR. unfold build_word. fpb_solve. Qed.

  Lemma fpb_build1 : forall fuel depth, fp BF (build1 fo pr rf fuel depth).
  Proof.
    induction fuel as [|f IH]; intros depth; cbn [build1]; [apply fp_unsup|].
    pose proof (fpb_build_word f) as HW. fpb_solve.
  Qed.

  Lemma leave_contexts_lcore : forall fuel depth s, lcore (leave_contexts fuel depth s) = lcore s.
  Proof.
    induction fuel as [|f IH]; intros depth s; cbn [leave_contexts]; [reflexivity|].
    destruct (_ <? _)%nat; [|reflexivity]. destruct (nested s) as [|prev rest]; [reflexivity|].
    rewrite IH. reflexivity.
  Qed.

  Lemma trunc_brel : forall t x y, brel t (set_heap (set_ds t (lastn x (ds t))) (firstn y (heap t))).
  Proof.
    intros t x y. unfold brel. cbn [set_heap set_ds insn_limit heap_limit stack_limit meter heap ds].
    split; [reflexivity|]. split; [reflexivity|]. split; [reflexivity|]. split; [lia|].
    split; [intros N _ Hle; exact Hle|]. split.
    - intros H _. rewrite firstn_length. lia.
    - intros S _. rewrite lastn_length. lia.
  Qed.

  Lemma pop_ctx_lcore : forall t rest prev, lcore (set_cx (set_nested t rest) prev) = lcore t.
  Proof. reflexivity. Qed.

  (* the part of [build_unwind] after the contexts have been left *)
  Definition unwind_rest (depth dsl heapl : nat) (s1 : state) : state :=
    let c := cx s1 in
    let s2 := set_dbg (set_code s1 (firstn (cs_len c) (code s1))) (firstn (cs_len c) (dbg s1)) in
    let s3 := set_dict (set_flows s2 (lastn (fs_len c) (flows s2))) (firstn (di_len c) (dict s2)) in
    let s4 := set_special (set_loops (set_rs s3 (lastn (rs_len c) (rs s3))) (lastn (ls_len c) (loops s3)))
                          (lastn (ss_ptr c) (special s3)) in
    let s5 := set_heap (set_ds s4 (lastn dsl (ds s4))) (firstn heapl (heap s4)) in
    match nested s5 with
    | prev :: rest => if (depth <? length (nested s5))%nat then set_cx (set_nested s5 rest) prev else s5
    | [] => s5
    end.

  Lemma unwind_rest_brel : forall depth dsl heapl s1, brel s1 (unwind_rest depth dsl heapl s1).
  Proof.
    intros depth dsl heapl s1. unfold unwind_rest. cbv zeta.
    set (s4 := set_special _ _).
    assert (E4 : lcore s4 = lcore s1) by reflexivity.
    clearbody s4.
    pose proof (trunc_brel s4 dsl heapl) as B45.
    set (s5 := set_heap _ _) in *. clearbody s5.
    assert (B5 : brel s1 s5) by (eapply brel_trans; [apply brel_lcore; exact E4|exact B45]).
    destruct (nested s5) as [|prev rest]; [exact B5|].
    destruct (_ <? _)%nat; [|exact B5].
    eapply brel_lcore_r; [exact B5|apply pop_ctx_lcore].
  Qed.

  Lemma build_unwind_rest : forall depth inputs dsl heapl s,
    build_unwind depth inputs dsl heapl s =
    unwind_rest depth dsl heapl
      (leave_contexts (S (length (nested (set_input s (lastn inputs (input s)))))) depth
                      (set_input s (lastn inputs (input s)))).
  Proof. intros. unfold build_unwind, unwind_rest. cbv zeta. reflexivity. Qed.

  Lemma build_unwind_brel : forall depth inputs dsl heapl s, brel s (build_unwind depth inputs dsl heapl s).
  Proof.
    intros depth inputs dsl heapl s. rewrite build_unwind_rest.
    eapply brel_trans; [|apply unwind_rest_brel].
    apply brel_lcore. rewrite leave_contexts_lcore. reflexivity.
  Qed.

  Theorem fpb_build_from_source : forall fuel src m, fp BF (build_from_source fo pr rf fuel src m).
  Proof.
    intros fuel src m s _. cbn [BF fr_rel]. unfold build_from_source. cbv zeta.
    assert (H1 : fp BF (context_open m ;; intern_source src)) by fpb_solve.
    specialize (H1 s I). cbn [BF fr_rel] in H1.
    destruct ((context_open m ;; intern_source src) s) as [u s1|k p s1| |]; cbn [res_all] in *; auto.
    pose proof (fpb_build1 fuel (length (nested s1)) s1 I) as H2. cbn [BF fr_rel] in H2.
    destruct (build1 fo pr rf fuel (length (nested s1)) s1) as [u2 s2|k p s2| |]; cbn [res_all] in *; auto.
    - pose proof (fpb_context_close fo rf s2 I) as H3. cbn [BF fr_rel] in H3.
      destruct (context_close fo rf s2); cbn [res_all] in *; auto;
        (eapply brel_trans; [exact H1|]; eapply brel_trans; [exact H2|exact H3]).
    - eapply brel_trans; [exact H1|]. eapply brel_trans; [exact H2|]. apply build_unwind_brel.
  Qed.
End Top4.

Theorem build1_limits : forall fo pr rf fuel depth s r s',
  build1 fo pr rf fuel depth s = r -> res_state r = Some s' -> brel s s'.
Proof.
  intros fo pr rf fuel depth s r s' H Hr. pose proof (fpb_build1 fo pr rf fuel depth s I) as B.
  rewrite H in B. cbn [BF fr_rel] in B.
  destruct r; cbn [res_state res_all] in *; try discriminate; injection Hr as <-; exact B.
Qed.

Theorem eval_limits : forall fo pr rf fuel src s r s',
  eval fo pr rf fuel src s = r -> res_state r = Some s' -> brel s s'.
Proof.
  intros fo pr rf fuel src s r s' H Hr. pose proof (fpb_build_from_source fo pr rf fuel src MEval s I) as B.
  unfold eval in H. rewrite H in B. cbn [BF fr_rel] in B.
  destruct r; cbn [res_state res_all] in *; try discriminate; injection Hr as <-; exact B.
Qed.

Theorem compile_limits : forall fo pr rf fuel src s r s',
  compile fo pr rf fuel src s = r -> res_state r = Some s' -> brel s s'.
Proof.
  intros fo pr rf fuel src s r s' H Hr. pose proof (fpb_build_from_source fo pr rf fuel src MCompile s I) as B.
  unfold compile in H. rewrite H in B. cbn [BF fr_rel] in B.
  destruct r; cbn [res_state res_all] in *; try discriminate; injection Hr as <-; exact B.
Qed.

(* the stack limit is on the absolute size of the data stack: code running above [k] hidden
   cells (a meta block opened on a non-empty stack) sees a limit of S - k *)
Theorem push_visible_room : forall c s S,
  stack_limit s = Some S -> ds_len (cx s) <= length (ds s) ->
  (exists s', push_data c s = ROk tt s') <->
  (Z.of_nat (data_depth s) < S - Z.of_nat (ds_len (cx s)))%Z.
Proof.
  intros c s S ES Hk. unfold push_data, limit_reached, data_depth. rewrite ES.
  destruct (S <=? Z.of_nat (length (ds s)))%Z eqn:E.
  - apply Z.leb_le in E. split; [intros [s' H]; discriminate H|intros H; lia].
  - apply Z.leb_gt in E. split; [intros _; lia|intros _; eexists; reflexivity].
Qed.

Lemma run_ds_len : forall fo fuel s r s',
  run (native_fn fo) fuel s = Some r -> res_state r = Some s' -> ds_len (cx s') = ds_len (cx s).
Proof.
  intros fo fuel s r s' H Hr. pose proof (run_frame_native fo fuel s) as FR. rewrite H in FR.
  assert (FR' : frame_rel s s') by (destruct r; cbn [res_state res_all] in *; try discriminate; injection Hr as <-; exact FR).
  destruct FR' as (_ & _ & _ & _ & _ & _ & _ & _ & _ & _ & A11 & _). rewrite A11. reflexivity.
Qed.

Theorem run_visible_bound : forall fo fuel s r s' S,
  run (native_fn fo) fuel s = Some r -> res_state r = Some s' ->
  stack_limit s = Some S ->
  ds_len (cx s') = ds_len (cx s) /\
  data_depth s' <= Nat.max (Z.to_nat S - ds_len (cx s)) (data_depth s).
Proof.
  intros fo fuel s r s' S H Hr ES. pose proof (run_ds_len fo fuel s r s' H Hr) as E.
  destruct (run_bounded (native_fn fo) (native_wlx fo) fuel s r s' H Hr) as (_ & _ & _ & _ & _ & _ & B7).
  specialize (B7 S ES). split; [exact E|]. unfold data_depth. rewrite E. lia.
Qed.
