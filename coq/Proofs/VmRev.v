(* VmRev.v: one backward step undoes one forward step (C02). *)
From Xeh Require Import Model.Prelude Model.Bits Model.Codec Model.Cell Model.Lexer Model.Fmt Model.Vm Model.Words.
From Xeh Require Import Proofs.VmPrim Proofs.WordProg Proofs.VmFrame Proofs.VmFetch Proofs.VmRevBase Proofs.VmRevWords.
Local Notation length := List.length.

(* logged changes, then exactly one set_ip / next_ip; a failure leaves logged changes only *)
Definition stepshape (k : nat) (m : M unit) : Prop :=
  forall s, recording s = true -> wf_marks s ->
    match m s with
    | ROk _ s' => exists s2 n, R k s s2 /\ stopping s2 = stopping s /\
                               s' = set_ip_raw (add_rstep (RSetIp (ip s2)) s2) n
    | RErr _ _ s' => R k s s'
    | _ => True
    end.

Lemma ss_weaken k k' m : stepshape k m -> k <= k' -> stepshape k' m.
Proof.
  intros H Hk s Hr Hw. specialize (H s Hr Hw). destruct (m s); auto.
  - destruct H as (s2 & n & H1 & H2 & H3). exists s2, n. eauto using R_weaken.
  - eauto using R_weaken.
Qed.

Lemma ss_set_ip n : stepshape 0 (set_ip n).
Proof. intros s Hr Hw. cbn. exists s, n. auto using R_refl. Qed.
Lemma ss_next_ip : stepshape 0 next_ip.
Proof. intros s Hr Hw. cbn. exists s, (S (ip s)). auto using R_refl. Qed.
Lemma ss_fail k p : stepshape 0 (fail k p).
Proof. intros s Hr Hw. cbn. auto using R_refl. Qed.
Lemma ss_unsup : stepshape 0 unsup.
Proof. intros s Hr Hw. exact I. Qed.

Lemma ss_bind k1 k2 {A} (m : M A) (f : A -> M unit) :
  rev k1 m -> (forall a, stepshape k2 (f a)) -> stepshape (k1 + k2) (bind m f).
Proof.
  intros Hm Hf s Hr Hw. unfold bind. specialize (Hm s Hr Hw).
  destruct (m s) as [a s1|k p s1| |]; auto.
  - destruct Hm as [HR Hs].
    specialize (Hf a s1 (R_recording _ _ _ HR) (R_wf _ _ _ HR)).
    destruct (f a s1) as [b s2|k p s2| |]; auto.
    + destruct Hf as (s3 & n & H1 & H2 & H3). exists s3, n.
      split; [eapply R_trans; eauto|]. split; [congruence | auto].
    + eapply R_trans; eauto.
  - eapply R_weaken; eauto. lia.
Qed.

Lemma ss_bind0 {A} (m : M A) (f : A -> M unit) :
  rev 0 m -> (forall a, stepshape 0 (f a)) -> stepshape 0 (bind m f).
Proof. intros. change 0 with (0 + 0). apply ss_bind; auto. Qed.

(* what an instruction does before it moves the instruction pointer *)
Definition body_caps : caps := mkcaps false false true true true true false.

Ltac ss_step :=
  lazymatch goal with
  | |- stepshape 0 (bind _ _) =>
    apply ss_bind0; [apply (wprog_rev body_caps); [wp_solve|reflexivity..] | intro]
  | |- stepshape 0 (set_ip _) => apply ss_set_ip
  | |- stepshape 0 next_ip => apply ss_next_ip
  | |- stepshape 0 (fail _ _) => apply ss_fail
  | |- stepshape 0 unsup => apply ss_unsup
  | |- stepshape 0 (match ?x with _ => _ end) => destruct x
  end.

Lemma exec_op_shape nf ip0 op :
  (forall w f, nf w = Some f -> rev 1 f) -> stepshape 1 (exec_op nf ip0 op).
Proof.
  intros Hnf. destruct op; cbn [exec_op];
    try solve [apply ss_weaken with 0; [repeat ss_step | lia]].
  destruct (nf w) eqn:E.
  - change 1 with (1 + 0). apply ss_bind; [eauto | intro; apply ss_next_ip].
  - apply ss_weaken with 0; [apply ss_unsup | lia].
Qed.

Lemma meter_increase_ok s u s1 : meter_increase s = ROk u s1 -> s1 = set_meter s (meter s + 1)%Z.
Proof.
  unfold meter_increase. destruct (insn_limit s); [destruct (_ <=? _)%Z|]; congruence.
Qed.
Lemma meter_increase_err s k p s1 : meter_increase s = RErr k p s1 -> s1 = s.
Proof.
  unfold meter_increase. destruct (insn_limit s); [destruct (_ <=? _)%Z|]; congruence.
Qed.

(* a fetch that does not patch a Resolve is the metered execution of the fetched opcode *)
Lemma fetch_not_resolve nf s : not_resolve s ->
  fetch_and_run nf s = RErr ELimit None s \/ fetch_and_run nf s = RPanic \/
  exists op, nth_error (code s) (ip s) = Some op /\
             fetch_and_run nf s = exec_op nf (ip s) op (tick s).
Proof.
  intros Hn. destruct (far_cases nf s) as [E0|E0 E1|op E0 E1 N|name E0 E1 E2|name e E0 E1 E2]; auto;
    try contradiction (Hn name E1).
  right. right. exists op. auto.
Qed.

(* what a step that does not patch a Resolve does to a recording machine *)
Lemma far_shape nf s :
  (forall w f, nf w = Some f -> rev 1 f) -> recording s = true -> wf_marks s -> not_resolve s ->
  match fetch_and_run nf s with
  | ROk _ s' => exists s2 n, R 1 (tick s) s2 /\ stopping s2 = stopping s /\
                             s' = set_ip_raw (add_rstep (RSetIp (ip s2)) s2) n
  | RErr _ _ s' => s' = s \/ R 1 (tick s) s'
  | _ => True
  end.
Proof.
  intros Hnf Hr Hw Hn. destruct (fetch_not_resolve nf s Hn) as [-> | [-> | [op [_ ->]]]]; [left; reflexivity|exact I|].
  pose proof (exec_op_shape nf (ip s) op Hnf (tick s) Hr Hw) as Hs.
  destruct (exec_op nf (ip s) op (tick s)); [exact Hs|right; exact Hs|exact I|exact I].
Qed.

Lemma set_ip_undo s2 n l :
  rlog s2 = Some l ->
  set_ip_raw (add_rstep (RSetIp (ip s2)) s2) n = set_rlog (set_ip_raw s2 n) (Some (RSetIp (ip s2) :: l)) /\
  undo1 (RSetIp (ip s2)) (set_ip_raw s2 n) = Some s2.
Proof.
  intros H. rewrite set_ip_raw_logged, (add_rstep_some _ (set_ip_raw s2 n) l H). split; [reflexivity|].
  cbn [undo1 reverse_changes]. apply f_equal, set_ip_raw_back.
Qed.

Lemma norm_self s : norm s (out s) (rlog s) (stopping s) = s.
Proof. destruct s; reflexivity. Qed.

Section Main.
  Variable fo : fops.
  Local Notation nf := (native_fn fo).

  Lemma nf_rev : forall w f, nf w = Some f -> rev 1 f.
  Proof. intros w f. apply native_fn_rev. Qed.

  (* the patch of a Resolve touches none of the three invariants *)
  Theorem step_invariants : forall s s',
    recording s = true -> log_ok s -> wf_marks s ->
    fetch_and_run nf s = ROk tt s' ->
    recording s' = true /\ log_ok s' /\ wf_marks s'.
  Proof.
    intros s s' Hr _ Hw. revert s' Hr Hw.
    apply (far_ind nf (fun s r => forall s', recording s = true -> wf_marks s -> r = ROk tt s' ->
             recording s' = true /\ log_ok s' /\ wf_marks s')); clear s; try discriminate.
    - intros s op _ _ _ s' Hr Hw He.
      pose proof (exec_op_shape nf (ip s) op nf_rev (tick s) Hr Hw) as Hs.
      rewrite He in Hs. destruct Hs as (s2 & n & HR & Hst & ->).
      destruct HR as (l0 & es & A1 & A2 & A3 & A4 & A5 & A6).
      destruct (set_ip_undo s2 n _ A2) as [-> _].
      repeat split; try apply A5.
    - intros s name e r _ _ _ _ IH s'. exact (IH s').
  Qed.

  Lemma eq_rev_result s l0 s2 :
    rlog s = Some l0 -> stopping s2 = stopping s ->
    eq_rev (set_rlog (norm (set_meter s (meter s + 1)%Z) (out s2) (rlog s2) (stopping s2)) (Some l0)) s.
  Proof.
    intros H1 H2. unfold eq_rev, erase_mo, norm. rewrite H2.
    destruct s; cbn in *; subst; reflexivity.
  Qed.

  Theorem rnext_undoes_step : forall s s',
    recording s = true -> log_ok s -> wf_marks s -> not_resolve s ->
    fetch_and_run nf s = ROk tt s' ->
    exists s'', rnext s' = ROk tt s'' /\ eq_rev s'' s.
  Proof.
    intros s s' Hr Hl Hw Hn H.
    pose proof (far_shape nf s nf_rev Hr Hw Hn) as Hs.
    rewrite H in Hs. destruct Hs as (s2 & n & HR & Hst & ->).
    destruct HR as (l0 & es & A1 & A2 & A3 & A4 & A5 & A6).
    destruct (set_ip_undo s2 n _ A2) as [-> Hu1].
    apply log_ok_stop in Hl. destruct Hl as (l0' & Hl1 & Hl2).
    change (rlog (tick s)) with (rlog s) in A1. rewrite Hl1 in A1. injection A1 as ->.
    specialize (A6 (out s2) (rlog s2) (stopping s2)). rewrite norm_self in A6.
    eexists. split.
    - eapply rnext_undo; eauto.
    - apply eq_rev_result; auto.
  Qed.

  (* the statement without the extra hypothesis is false: see [failed_step_counterexample] *)
  Theorem rnext_undoes_failed_step_weak : forall s k p s',
    recording s = true -> log_ok s -> wf_marks s -> not_resolve s ->
    fetch_and_run nf s = RErr k p s' -> log_len s < log_len s' ->
    stopping s' = stopping s ->
    exists s'', rnext s' = ROk tt s'' /\ eq_rev s'' s.
  Proof.
    intros s k p s' Hr Hl Hw Hn H Hlen Hstop.
    pose proof (far_shape nf s nf_rev Hr Hw Hn) as Hs.
    rewrite H in Hs. destruct Hs as [->|(l0 & es & A1 & A2 & A3 & A4 & A5 & A6)]; [lia|].
    apply log_ok_stop in Hl. destruct Hl as (l0' & Hl1 & Hl2).
    change (rlog (tick s)) with (rlog s) in A1. rewrite Hl1 in A1. injection A1 as ->.
    unfold log_len in Hlen. rewrite Hl1, A2, app_length in Hlen.
    destruct es as [|r es]; [cbn in Hlen; lia|].
    specialize (A6 (out s') (rlog s') (stopping s')). rewrite norm_self in A6.
    cbn [undo_list] in A6. destruct (undo1 r s') as [s1'|] eqn:E1; [|discriminate].
    unfold no_setip in A3. cbn [forallb] in A3. apply andb_true_iff in A3. destruct A3 as [_ A3].
    rewrite <- (set_rlog_same s' _ A2).
    eexists. split.
    - cbn [app]. eapply rnext_undo; eauto.
    - apply eq_rev_result; auto.
  Qed.
End Main.

(* a backward step writes stacks, heap, instruction pointer and log: the rest stays *)
Lemma rnext_loop_shell fuel : forall s u s', rnext_loop fuel s = ROk u s' -> shell s' = shell s.
Proof.
  induction fuel; intros s u s' H; cbn [rnext_loop] in H; [injection H as _ <-; reflexivity|].
  unfold log_pop in H. destruct (rlog s) as [[|r l]|] eqn:E; try (injection H as _ <-; reflexivity).
  assert (G : match reverse_changes r (set_rlog s (Some l)) with
              | ROk _ s'' => rnext_loop fuel s''
              | e => e
              end = ROk u s' -> shell s' = shell s).
  { destruct (reverse_changes r (set_rlog s (Some l))) eqn:E2; try discriminate.
    intros H2. rewrite (IHfuel _ _ _ H2). exact (reverse_changes_shell _ _ _ _ E2). }
  destruct r; auto. injection H as _ <-. rewrite shell_add_rstep. reflexivity.
Qed.

Lemma rnext_shell s u s' : rnext s = ROk u s' -> shell s' = shell s.
Proof.
  unfold rnext, log_pop. destruct (rlog s) as [[|r l]|] eqn:E; try apply rnext_loop_shell.
  destruct (reverse_changes r (set_rlog s (Some l))) eqn:E2; try discriminate.
  intros H2. rewrite (rnext_loop_shell _ _ _ _ H2). exact (reverse_changes_shell _ _ _ _ E2).
Qed.

(* the conclusion of the failed-step property forces the flag to be unchanged: the
   hypothesis added in [rnext_undoes_failed_step_weak] is the weakest possible *)
Lemma failed_step_stopping_necessary s s' s'' :
  rnext s' = ROk tt s'' -> eq_rev s'' s -> stopping s' = stopping s.
Proof.
  intros H1 H2. pose proof (f_equal stopping (rnext_shell _ _ _ H1)) as E.
  apply (f_equal stopping) in H2. cbn in E, H2. congruence.
Qed.

Lemma exec_op_ks nf ip0 op :
  (forall w f, nf w = Some f -> w = "exit"%string \/ ks f) ->
  op <> ONative "exit" -> ks (exec_op nf ip0 op).
Proof.
  intros Hnf Hop. destruct op; cbn [exec_op];
    try (apply (wprog_ks (mkcaps false true true true true true true)); [wp_solve|reflexivity]; fail).
  destruct (nf w) eqn:E; [|intro; exact I].
  destruct (Hnf _ _ E) as [->|H]; [congruence|].
  apply ks_bind; [auto | intro; apply (ks_runs _ _ (prim_runs _ _ _ p_next_ip))].
Qed.

Section Weak2.
  Variable fo : fops.
  Local Notation nf := (native_fn fo).

  (* every word other than [exit] leaves the about-to-stop flag alone, also when it fails *)
  Lemma failed_step_stopping_noexit : forall s k p s',
    not_resolve s -> fetch_and_run nf s = RErr k p s' ->
    nth_error (code s) (ip s) <> Some (ONative "exit") ->
    stopping s' = stopping s.
  Proof.
    intros s k p s' Hn H Hne.
    destruct (fetch_not_resolve nf s Hn) as [E | [E | [op [Eop E]]]]; rewrite E in H; try discriminate.
    { injection H as _ _ <-. reflexivity. }
    assert (Hk : ks (exec_op nf (ip s) op)).
    { apply exec_op_ks; [apply native_fn_ks | congruence]. }
    specialize (Hk (tick s)). rewrite H in Hk. exact Hk.
  Qed.

  (* every failed step other than the word [exit] is undone *)
  Theorem rnext_undoes_failed_step_weak_noexit : forall s k p s',
    recording s = true -> log_ok s -> wf_marks s -> not_resolve s ->
    fetch_and_run nf s = RErr k p s' -> log_len s < log_len s' ->
    nth_error (code s) (ip s) <> Some (ONative "exit") ->
    exists s'', rnext s' = ROk tt s'' /\ eq_rev s'' s.
  Proof.
    intros s k p s' Hr Hl Hw Hn H Hlen Hne.
    eapply rnext_undoes_failed_step_weak; eauto. eapply failed_step_stopping_noexit; eauto.
  Qed.
End Weak2.

Definition mo (m : Z) (o : string) (s : state) : state := set_out (set_meter s m) o.

Lemma unread_mo z o : unread (mo z o).
Proof. constructor; reflexivity. Qed.
Lemma logs_through_mo z o : logs_through (mo z o).
Proof. apply logs_through_setter; reflexivity. Qed.

Lemma rnext_loop_mo m o fuel : forall s,
  rnext_loop fuel (mo m o s) = res_map (mo m o) (rnext_loop fuel s).
Proof.
  induction fuel; intros s; [reflexivity|].
  cbn [rnext_loop]. unfold log_pop. cbn [rlog mo set_out set_meter].
  destruct (rlog s) as [[|r l]|] eqn:E; try reflexivity.
  change (set_rlog (mo m o s) (Some l)) with (mo m o (set_rlog s (Some l))).
  destruct r; try reflexivity;
    (rewrite (reverse_changes_unread _ (unread_mo m o)) by (intros _; apply logs_through_mo);
     destruct (reverse_changes _ (set_rlog s (Some l))); cbn [res_map]; auto).
Qed.

Lemma rnext_mo m o s : rnext (mo m o s) = res_map (mo m o) (rnext s).
Proof.
  unfold rnext, log_pop. cbn [rlog mo set_out set_meter].
  destruct (rlog s) as [[|r l]|] eqn:E.
  - apply (rnext_loop_mo m o _ s).
  - change (set_rlog (mo m o s) (Some l)) with (mo m o (set_rlog s (Some l))).
    rewrite (reverse_changes_unread _ (unread_mo m o)) by (intros _; apply logs_through_mo).
    destruct (reverse_changes _ (set_rlog s (Some l))); cbn [res_map]; auto.
    apply rnext_loop_mo.
  - apply (rnext_loop_mo m o _ s).
Qed.

Lemma eq_rev_refl s : eq_rev s s.
Proof. reflexivity. Qed.
Lemma eq_rev_sym a b : eq_rev a b -> eq_rev b a.
Proof. unfold eq_rev; auto. Qed.
Lemma eq_rev_trans a b c : eq_rev a b -> eq_rev b c -> eq_rev a c.
Proof. unfold eq_rev; congruence. Qed.

Lemma rnext_eq_rev a b a' :
  eq_rev a b -> rnext a = ROk tt a' -> exists b', rnext b = ROk tt b' /\ eq_rev a' b'.
Proof.
  unfold eq_rev. intros He Ha.
  assert (H : rnext (erase_mo a) = ROk tt (erase_mo a')).
  { change (erase_mo a) with (mo 0%Z EmptyString a). rewrite rnext_mo, Ha. reflexivity. }
  rewrite He in H. change (erase_mo b) with (mo 0%Z EmptyString b) in H. rewrite rnext_mo in H.
  destruct (rnext b) as [[] b'| | |]; try discriminate.
  exists b'. split; auto. cbn [res_map] in H.
  assert (E : mo 0%Z EmptyString b' = erase_mo a') by congruence.
  symmetry; exact E.
Qed.

Lemma rnexts_eq_rev k : forall a b a',
  eq_rev a b -> rnexts k a = Some a' -> exists b', rnexts k b = Some b' /\ eq_rev a' b'.
Proof.
  induction k; intros a b a' He Ha; cbn [rnexts] in *.
  - injection Ha as <-. eauto.
  - destruct (rnext a) as [[] a1| | |] eqn:E; try discriminate.
    destruct (rnext_eq_rev _ _ _ He E) as (b1 & -> & He1). eauto.
Qed.

Lemma steps_snoc nf n : forall s sn,
  steps nf (S n) s = Some sn ->
  exists sm, steps nf n s = Some sm /\ fetch_and_run nf sm = ROk tt sn.
Proof.
  induction n; intros s sn H.
  - cbn in H. destruct (fetch_and_run nf s) as [[] s1| | |] eqn:E; try discriminate.
    exists s. split; auto. congruence.
  - cbn [steps] in H. destruct (fetch_and_run nf s) as [[] s1| | |] eqn:E; try discriminate.
    destruct (IHn s1 sn H) as (sm & H1 & H2).
    exists sm. split; auto. cbn [steps]. rewrite E. auto.
Qed.

Section Rewind.
  Variable fo : fops.
  Local Notation nf := (native_fn fo).

  Lemma steps_invariants n : forall s sn,
    recording s = true -> log_ok s -> wf_marks s ->
    steps nf n s = Some sn ->
    recording sn = true /\ log_ok sn /\ wf_marks sn.
  Proof.
    intros s sn Hr Hl Hw H. revert Hr Hl Hw. revert n s sn H.
    apply (steps_ind nf (fun _ s sn => recording s = true -> log_ok s -> wf_marks s ->
             recording sn = true /\ log_ok sn /\ wf_marks sn)); [auto|].
    intros n s s1 sn E _ IH Hr Hl Hw.
    destruct (step_invariants fo s s1 Hr Hl Hw E) as (A & B & C). auto.
  Qed.

  Theorem rewind : forall n k s sn,
    recording s = true -> log_ok s -> wf_marks s ->
    (forall m sm, m < n -> steps nf m s = Some sm -> not_resolve sm) ->
    steps nf n s = Some sn -> k <= n ->
    exists s' sm, rnexts k sn = Some s' /\ steps nf (n - k) s = Some sm /\ eq_rev s' sm.
  Proof.
    induction n; intros k s sn Hr Hl Hw Hn Hs Hk.
    - assert (k = 0) by lia. subst k. exists sn, sn. cbn in *. auto using eq_rev_refl.
    - destruct k as [|j].
      + exists sn, sn. rewrite Nat.sub_0_r. cbn [rnexts]. auto using eq_rev_refl.
      + destruct (steps_snoc nf n s sn Hs) as (sm' & H1 & H2).
        destruct (steps_invariants n s sm' Hr Hl Hw H1) as (Ir & Il & Iw).
        assert (Inr : not_resolve sm') by (eapply (Hn n); eauto).
        destruct (rnext_undoes_step fo sm' sn Ir Il Iw Inr H2) as (s'' & Hx & He).
        assert (Hn' : forall m sm, m < n -> steps nf m s = Some sm -> not_resolve sm).
        { intros m sm Hm. apply Hn. lia. }
        destruct (IHn j s sm' Hr Hl Hw Hn' H1 ltac:(lia)) as (t & sm & R1 & R2 & R3).
        destruct (rnexts_eq_rev j sm' s'' t (eq_rev_sym _ _ He) R1) as (t' & R1' & R3').
        exists t', sm. cbn [rnexts]. rewrite Hx. change (S n - S j) with (n - j).
        repeat split; auto. eapply eq_rev_trans; [apply eq_rev_sym; eauto | eauto].
  Qed.
End Rewind.

(* rnext_undoes_failed_step as stated in Props/C02.v is FALSE *)
(* The word [exit] sets about_to_stop (a field that no log entry restores), then pops its
   argument (logged) and always fails with EExit.  The failed step has logged a change, a
   backward step restores the data stack, but about_to_stop stays set. *)
Definition cex_fo : fops :=
  mkfops Z.add Z.add Z.add Z.add Z.add Z.add Z.add (fun x => x) (fun x => x) (fun x => x) (fun x => x) (fun x => x).
Definition cex_s : state :=
  mkstate [] [] [ONative "exit"] [] [] [] [CInt 0] [] [] [] [] (mkctx 0 0 0 0 0 0 0 0 MEval) []
          0%Z None None None (Some []) EmptyString None false.
Definition cex_s' : state :=
  mkstate [] [] [ONative "exit"] [] [] [] [] [] [] [] [] (mkctx 0 0 0 0 0 0 0 0 MEval) []
          1%Z None None None (Some [RPushData (CInt 0)]) EmptyString None true.

Example cex_fetch : fetch_and_run (native_fn cex_fo) cex_s = RErr EExit (Some (CInt 0)) cex_s'.
Proof. vm_compute. reflexivity. Qed.
Example cex_rnext :
  rnext cex_s' = ROk tt (set_stopping (set_meter cex_s 1%Z) true).
Proof. vm_compute. reflexivity. Qed.

Theorem failed_step_counterexample :
  ~ (forall fo s k p s',
       recording s = true -> log_ok s -> wf_marks s -> not_resolve s ->
       fetch_and_run (native_fn fo) s = RErr k p s' -> log_len s < log_len s' ->
       exists s'', rnext s' = ROk tt s'' /\ eq_rev s'' s).
Proof.
  intros H.
  destruct (H cex_fo cex_s EExit (Some (CInt 0)) cex_s') as (s'' & H1 & H2).
  - reflexivity.
  - exact I.
  - unfold wf_marks; cbn; lia.
  - intros name. cbn. discriminate.
  - exact cex_fetch.
  - cbn. lia.
  - rewrite cex_rnext in H1. injection H1 as <-.
    apply (f_equal stopping) in H2. discriminate.
Qed.

Print Assumptions rnext_undoes_step.
Print Assumptions step_invariants.
Print Assumptions rnext_undoes_failed_step_weak.
Print Assumptions rewind.
Print Assumptions rnext_undoes_failed_step_weak_noexit.
Print Assumptions failed_step_stopping_necessary.
Print Assumptions failed_step_counterexample.
