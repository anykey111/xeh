(* BuildLet.v: the four mutually recursive pattern builders of `let`, walked once.

   Any family of programs that contains [ret], [fail], [unsup], the token reader, [code_emit]
   and [build_let_named] and is closed under [bind] contains the four builders at every fuel.
   Every invariant of the compiler front end is such a family, so each gets the builders of
   `let` by instantiating [build_let_closed]. *)
From Xeh Require Import Model.Prelude Model.Bits Model.Codec Model.Cell Model.Lexer Model.Fmt
                        Model.Vm Model.Words Model.Build.
Local Open Scope string_scope.

Section BuildLet.
  Variable pr : string -> option Z.
  Variable P : forall A : Type, M A -> Prop.
  Arguments P {A} _.
  Hypothesis P_ret : forall A (a : A), P (ret a).
  Hypothesis P_fail : forall A k p, P (@fail A k p).
  Hypothesis P_unsup : forall A, P (@unsup A).
  Hypothesis P_bind : forall A B (m : M A) (f : A -> M B), P m -> (forall a, P (f a)) -> P (bind m f).
  Hypothesis P_tok : P (get_token pr).
  Hypothesis P_emit : forall op, P (code_emit op).
  Hypothesis P_named : forall w, P (build_let_named w).

  (* the inner loops of [build_let_map] / [build_let_vec], named *)
  Definition let_map_loop (f : nat) : nat -> M unit :=
    fix go (k : nat) : M unit :=
      match k with
      | O => unsup
      | S k' =>
        let* t := get_token pr in
        match t with
        | BWord w =>
          if String.eqb w "}" then emit_native "%let-map-end"
          else if String.eqb w "]" then fail EFlow None
          else fail EExpectLit None
        | BLit key =>
          code_emit_value key ;; emit_native "%let-map-lookup" ;; build_let_in pr f ;; go k'
        | BEnd => fail EExpectLit None
        end
      end.

  Definition let_vec_loop (f : nat) : nat -> Z -> M unit :=
    fix go (k : nat) (idx : Z) : M unit :=
      match k with
      | O => unsup
      | S k' =>
        let* t := get_token pr in
        match t with
        | BWord w =>
          if String.eqb w "[" then
            let* i' := let_vec_next idx in build_let_vec pr f 0%Z ;; go k' i'
          else if String.eqb w "]" then
            if (idx =? usize_max)%Z then emit_native "%let-vec-any-len"
            else
              emit_native "%let-vec-len" ;;
              code_emit_value (insert_tag (CInt idx) assert_msg (CStr "vector length mismatch")) ;;
              emit_native "assert-eq"
          else if String.eqb w "&" then
            code_emit_value (CInt idx) ;; emit_native "%let-vec-rest" ;; build_let_in pr f ;; go k' usize_max
          else if String.eqb w "{" then
            let* i' := let_vec_next idx in build_let_map pr f ;; go k' i'
          else if String.eqb w "}" then fail EFlow None
          else if String.eqb w "^" then
            let* i' := let_vec_next idx in build_let_tags pr f ;; go k' (i' - 1)%Z
          else
            let* i' := let_vec_next idx in build_let_named w ;; go k' i'
        | BLit v => let* i' := let_vec_next idx in build_let_match v ;; go k' i'
        | BEnd => fail ELetSyntax None
        end
      end.

  Lemma build_let_map_S f :
    build_let_map pr (S f) = (emit_native "%let-map-begin" ;; let_map_loop f (S f)).
  Proof. reflexivity. Qed.

  Lemma build_let_vec_S f i : build_let_vec pr (S f) i = let_vec_loop f (S f) i.
  Proof. reflexivity. Qed.

  (* one step through a term: a leaf, an induction hypothesis, or a bind / a case split *)
  Ltac P_step :=
    cbv beta zeta;
    first
      [ apply P_ret | apply P_fail | apply P_unsup | apply P_tok | apply P_emit | apply P_named
      | assumption
      | match goal with H : forall _, P _ |- P _ => apply H end
      | lazymatch goal with
        | |- P (bind _ _) => apply P_bind; [ | intro ]
        | |- P (match ?x with _ => _ end) => destruct x
        | |- P (emit_native _) => unfold emit_native
        | |- P (code_emit_value _) => unfold code_emit_value
        | |- P (build_let_match _) => unfold build_let_match
        | |- P (let_vec_next _) => unfold let_vec_next
        end ].

  Theorem build_let_closed : forall f,
    P (build_let_in pr f) /\ P (build_let_tags pr f) /\ P (build_let_map pr f) /\
    (forall i, P (build_let_vec pr f i)).
  Proof.
    induction f as [|f (IHin & IHtags & IHmap & IHvec)]; [repeat split; intros; apply P_unsup|].
    assert (Hmap : P (build_let_map pr (S f))).
    { rewrite build_let_map_S. apply P_bind; [apply P_emit|intros _].
      generalize (S f) as k. induction k as [|k IHk]; cbn [let_map_loop]; [apply P_unsup|].
      fold (let_map_loop f) in *. repeat P_step. }
    assert (Hvec : forall i, P (build_let_vec pr (S f) i)).
    { intros i. rewrite build_let_vec_S. revert i.
      generalize (S f) as k. induction k as [|k IHk]; intros i; cbn [let_vec_loop]; [apply P_unsup|].
      fold (let_vec_loop f) in *. repeat P_step. }
    assert (Htags : P (build_let_tags pr (S f))) by (cbn [build_let_tags]; repeat P_step).
    assert (Hin : P (build_let_in pr (S f))) by (cbn [build_let_in]; repeat P_step).
    repeat split; assumption.
  Qed.

  Corollary build_let_in_closed f : P (build_let_in pr f).
  Proof. exact (proj1 (build_let_closed f)). Qed.
End BuildLet.
