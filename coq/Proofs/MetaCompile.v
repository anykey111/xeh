(* MetaCompile.v (C11): outside meta blocks the builder executes nothing.

   In a context that is not a meta context, with no user-defined immediate word in the
   dictionary, every program of the builder except #( (and the failing #) ~) const, and
   `immediate` which creates a user-defined immediate word) keeps the frame [R5]: data
   stack, context and context stack unchanged, the other stacks only extended, the heap
   extended by nil cells only (var / let), no user-defined immediate word created. *)
From Xeh Require Import Model.Prelude Model.Bits Model.Codec Model.Cell Model.Lexer Model.Fmt
                        Model.Vm Model.Words Model.Build.
From Xeh Require Import Proofs.VmFrame Proofs.VmLimits Proofs.NoPanic Proofs.NoPanicBuild Proofs.NoPanicFlow
                        Proofs.MetaBase Proofs.MetaPurge Proofs.MetaBuild Proofs.MetaClose Proofs.MetaPrefix
                        Proofs.MetaPrefixBuild Proofs.MetaPrefixWords Proofs.MetaBlock Proofs.MetaSeg.
Local Notation length := List.length.
Local Open Scope string_scope.
Local Open Scope list_scope.

Definition user_imm (e : dentry) : bool :=
  match dent e with DFun true (FInterp _) _ => true | _ => false end.
Definition no_user_imm (d : list dentry) : Prop := Forall (fun e => user_imm e = false) d.

Lemma no_user_imm_forallb d : forallb (fun e => negb (user_imm e)) d = true -> no_user_imm d.
Proof.
  intros H. apply Forall_forall. intros e He. rewrite forallb_forall in H.
  apply negb_true_iff. exact (H e He).
Qed.

Definition Pre5 (s : state) : Prop :=
  cmode (cx s) <> MMeta /\ wfm s /\ cd_inv s /\ no_user_imm (dict s).

Definition R5 (s s' : state) : Prop :=
  nested s' = nested s /\ cx s' = cx s /\ ds s' = ds s /\
  keeps (length (rs s)) (rs s) (rs s') /\ keeps (length (loops s)) (loops s) (loops s') /\
  keeps (length (special s)) (special s) (special s') /\
  keeps (fs_len (cx s)) (flows s) (flows s') /\
  (exists k, heap s' = heap s ++ repeat CNil k) /\ cd_inv s' /\ no_user_imm (dict s').

Lemma R5_refl s : Pre5 s -> R5 s s.
Proof.
  intros (Hm & (W1 & W2 & W3 & W4 & W5) & Hcd & Hn). unfold R5.
  repeat split; try reflexivity; try assumption; try lia.
  exists 0. cbn [repeat]. rewrite app_nil_r. reflexivity.
Qed.

Lemma keeps_len_trans {A} (a b c : list A) :
  keeps (length a) a b -> keeps (length b) b c -> keeps (length a) a c.
Proof.
  intros K1 K2. eapply keeps_trans; [exact K1|].
  apply (keeps_le _ _ _ _ (proj1 K1) K2). lia.
Qed.

Lemma R5_trans a b c : R5 a b -> R5 b c -> R5 a c.
Proof.
  intros (A1 & A2 & A3 & A4 & A5 & A6 & A7 & (k1 & A8) & A9 & A10)
         (B1 & B2 & B3 & B4 & B5 & B6 & B7 & (k2 & B8) & B9 & B10).
  rewrite A2 in B7. unfold R5.
  split; [congruence|]. split; [congruence|]. split; [congruence|].
  split; [eapply keeps_len_trans; eassumption|]. split; [eapply keeps_len_trans; eassumption|].
  split; [eapply keeps_len_trans; eassumption|]. split; [eapply keeps_trans; eassumption|].
  split; [|split; assumption].
  exists (k1 + k2). rewrite B8, A8, <- app_assoc, repeat_app. reflexivity.
Qed.

Lemma R5_keep a b : Pre5 a -> R5 a b -> Pre5 b.
Proof.
  intros (Hm & (W1 & W2 & W3 & W4 & W5) & Hcd & Hn) (A1 & A2 & A3 & A4 & A5 & A6 & A7 & A8 & A9 & A10).
  unfold Pre5, wfm. rewrite A2, A3.
  split; [exact Hm|]. split; [|split; assumption].
  repeat split; try assumption; first [apply A4|apply A5|apply A6|apply A7|idtac]; try lia.
  - destruct A4 as [L _]. lia.
  - destruct A5 as [L _]. lia.
  - destruct A6 as [L _]. lia.
Qed.

Definition F5 : frame := mkFrame Pre5 R5 R5_refl R5_trans R5_keep.

(* programs that change nothing the frame talks about *)
Definition dictp {A} (m : M A) : Prop := forall s, res_all (fun s' => dict s' = dict s) (m s).

Lemma fp5_quiet A (m : M A) : scorep m -> cdp m -> dictp m -> fp F5 m.
Proof.
  intros Hs Hc Hd s P. cbn [F5 fr_pre fr_rel] in *.
  pose proof P as (Hm & W & Hcd & Hn). destruct W as (W1 & W2 & W3 & W4 & W5).
  specialize (Hs s). specialize (Hc s Hcd). specialize (Hd s).
  destruct (m s); cbn [res_all] in *; auto;
    unfold score in Hs; injection Hs as E1 E2 E3 E4 E5 E6 E7 E8;
    unfold R5; rewrite E1, E2, E3, E4, E5, E6, E7, E8, Hd;
    (repeat split; try reflexivity; try assumption; try lia;
     exists 0; cbn [repeat]; rewrite app_nil_r; reflexivity).
Qed.

Lemma dictp_corep A (m : M A) : corep m -> dictp m.
Proof.
  intros H s. destruct (H s) as [_ C]. destruct (m s); cbn [res_all] in *; auto;
    destruct (core_fields _ _ C) as (_ & D & _); exact D.
Qed.

Lemma dictp_code_emit op : dictp (code_emit op).
Proof.
  intros s. unfold code_emit. cbv zeta. destruct (_ <? _)%nat; [reflexivity|].
  destruct (_ =? _)%nat; [reflexivity|exact I].
Qed.
Lemma dictp_backpatch pos op : dictp (backpatch pos op).
Proof. intros s. unfold backpatch. destruct (_ <? _)%nat; [reflexivity|exact I]. Qed.
Lemma dictp_backpatch_jump pos offs : dictp (backpatch_jump pos offs).
Proof.
  intros s. unfold backpatch_jump. destruct (nth_error (code s) pos) as [op|]; [|reflexivity].
  destruct op; try exact I; apply dictp_backpatch.
Qed.

Lemma R5_flows s fl' : Pre5 s -> keeps (fs_len (cx s)) (flows s) fl' -> R5 s (set_flows s fl').
Proof.
  intros (Hm & (W1 & W2 & W3 & W4 & W5) & Hcd & Hn) K. unfold R5.
  cbn [set_flows nested cx ds rs loops special flows heap dict].
  repeat split; try reflexivity; try assumption; try lia; try apply K.
  exists 0. cbn [repeat]. rewrite app_nil_r. reflexivity.
Qed.

Lemma R5_dict s d' : Pre5 s -> no_user_imm d' -> R5 s (set_dict s d').
Proof.
  intros (Hm & (W1 & W2 & W3 & W4 & W5) & Hcd & Hn) K. unfold R5.
  cbn [set_dict nested cx ds rs loops special flows heap dict].
  repeat split; try reflexivity; try assumption; try lia.
  exists 0. cbn [repeat]. rewrite app_nil_r. reflexivity.
Qed.

Lemma no_user_imm_set d i e' : no_user_imm d -> user_imm e' = false -> no_user_imm (list_set d i e').
Proof.
  unfold no_user_imm. revert i. induction d as [|x d IH]; intros i H He; [constructor|].
  inversion H; subst. destruct i; cbn [list_set]; constructor; auto.
Qed.

Lemma fp5_push_flow f : fp F5 (push_flow f).
Proof.
  intros s P. unfold push_flow, modify. cbn [res_all F5 fr_rel]. apply R5_flows; [exact P|].
  apply (keeps_app _ [f]). apply P.
Qed.

Lemma fp5_pop_flow : fp F5 pop_flow.
Proof.
  intros s P. unfold pop_flow. cbn [F5 fr_rel].
  destruct (flows s) as [|f r] eqn:E; [apply R5_refl; exact P|].
  destruct (_ <? _)%nat eqn:El; [|apply R5_refl; exact P].
  cbn [res_all]. apply R5_flows; [exact P|]. apply Nat.ltb_lt in El. rewrite E.
  unfold keeps. cbn [length] in *. split; [lia|]. symmetry. apply lastn_cons. lia.
Qed.

Lemma fp5_take : fp F5 take_first_cond_flow.
Proof.
  intros s P. unfold take_first_cond_flow. cbv zeta. cbn [F5 fr_rel].
  destruct (take_cond (pending s)) as [[f act']|]; [|apply R5_refl; exact P].
  cbn [res_all]. apply R5_flows; [exact P|]. apply keeps_pending. apply P.
Qed.

Lemma fp5_dict_insert name e : user_imm (mkdent name e) = false -> fp F5 (dict_insert name e).
Proof.
  intros He s P. unfold dict_insert. cbn [res_all F5 fr_rel]. apply R5_dict; [exact P|].
  apply Forall_app. split; [apply P|]. constructor; [exact He|constructor].
Qed.

Lemma fp5_alloc_nil : fp F5 (alloc_heap CNil).
Proof.
  intros s P. unfold alloc_heap. cbn [F5 fr_rel].
  destruct (mode_eqb _ _); [apply R5_refl; exact P|].
  destruct (limit_reached _ _); [apply R5_refl; exact P|].
  cbn [res_all]. pose proof P as (Hm & (W1 & W2 & W3 & W4 & W5) & Hcd & Hn). unfold R5.
  cbn [set_heap nested cx ds rs loops special flows heap dict].
  repeat split; try reflexivity; try assumption; try lia.
  exists 1. reflexivity.
Qed.

Lemma R5_set_locals s ls : Pre5 s ->
  R5 s (set_flows s (set_fun_locals (pending s) ls ++ skipn (length (pending s)) (flows s))).
Proof. intros P. apply R5_flows; [exact P|]. apply keeps_pending. apply P. Qed.

Lemma fp5_code_emit op : fp F5 (code_emit op).
Proof. exact (fp5_quiet _ _ (scorep_code_emit _) (cdp_code_emit _) (dictp_code_emit _)). Qed.

Lemma fp5_get_token pr : fp F5 (get_token pr).
Proof. exact (fp5_quiet _ _ (scorep_get_token _) (cdp_get_token _) (dictp_corep _ _ (corep_get_token _))). Qed.

Lemma fp5_next_name pr : fp F5 (next_name pr).
Proof. exact (fp5_quiet _ _ (scorep_next_name _) (cdp_next_name _) (dictp_corep _ _ (corep_next_name _))). Qed.

Lemma user_imm_plain name e : plain_entry e = true -> user_imm (mkdent name e) = false.
Proof. unfold user_imm. cbn [dent]. destruct e as [c|a|[|] [x|n] l]; intros H; try reflexivity; discriminate H. Qed.

#[export] Hint Extern 1 (fpa F5 _ (code_emit _)) => apply fp5_code_emit : fpdb.
#[export] Hint Extern 1 (fpa F5 _ pop_flow) => apply fp5_pop_flow : fpdb.
#[export] Hint Extern 1 (fpa F5 _ (backpatch_jump _ _)) =>
  apply (fp5_quiet _ _ (scorep_backpatch_jump _ _) (cdp_backpatch_jump _ _) (dictp_backpatch_jump _ _)) : fpdb.

Lemma fp5_build_local_variable name s : fpa F5 s (build_local_variable name).
Proof.
  revert s. change (fp F5 (build_local_variable name)). unfold build_local_variable. repeat fp_step.
  apply R5_set_locals. assumption.
Qed.

Lemma fp5_i_def_end s : fpa F5 s i_def_end.
Proof.
  revert s. change (fp F5 i_def_end). unfold i_def_end. repeat fp_step.
  match goal with
  | H : set_dict_len _ _ _ = Some _ |- _ =>
    unfold set_dict_len in H;
    repeat match type of H with
           | match ?x with _ => _ end = _ => destruct x eqn:?; try discriminate H
           end;
    injection H as <-
  end.
  match goal with P : fr_pre F5 ?s |- _ => cbn [F5 fr_pre fr_rel] in * end.
  apply R5_dict; [assumption|].
  match goal with
  | P : Pre5 ?s, H1 : nth_error (dict ?s) ?i = Some ?d, H2 : dent ?d = DFun _ _ _ |- _ =>
    apply no_user_imm_set; [apply P|];
    assert (Hd : user_imm d = false)
      by (destruct P as (_ & _ & _ & Hn); unfold no_user_imm in Hn; rewrite Forall_forall in Hn;
          apply Hn; eapply nth_error_In; exact H1);
    unfold user_imm in *; cbn [dent]; rewrite H2 in Hd; exact Hd
  end.
Qed.

(* outside a meta context, without `const` and `immediate` *)
Lemma bprog_R5 A (m : M A) : bprog false m -> fp F5 m.
Proof.
  induction 1.
  - apply fp_ret.
  - apply fp_fail.
  - apply fp_unsup.
  - apply fp_bind; assumption.
  - intros s. apply fpa_get_bind. apply H0.
  - apply fp5_code_emit.
  - exact (fp5_quiet _ _ (scorep_backpatch _ _) (cdp_backpatch _ _) (dictp_backpatch _ _)).
  - exact (fp5_quiet _ _ (scorep_backpatch_jump _ _) (cdp_backpatch_jump _ _) (dictp_backpatch_jump _ _)).
  - apply fp5_push_flow.
  - apply fp5_pop_flow.
  - apply fp5_take.
  - apply fp5_dict_insert, user_imm_plain. assumption.
  - apply fp5_alloc_nil.
  - apply fp5_get_token.
  - apply fp5_next_name.
  - intros s. apply fp5_i_def_end.
  - intros s. apply fp5_build_local_variable.
  - discriminate.
  - discriminate.
Qed.

Lemma fp5_endcase_loop : forall fuel org s, fpa F5 s (endcase_loop fuel org).
Proof. intros fuel org. exact (bprog_R5 _ _ (bp_endcase_loop _ fuel org)). Qed.
Lemma fp5_repeat_loop : forall fuel s, fpa F5 s (repeat_loop fuel).
Proof. intros fuel. exact (bprog_R5 _ _ (bp_repeat_loop _ fuel)). Qed.
Lemma fp5_loop_loop : forall fuel a b s, fpa F5 s (loop_loop fuel a b).
Proof. intros fuel a b. exact (bprog_R5 _ _ (bp_loop_loop _ fuel a b)). Qed.

Lemma fp5_build_global_variable name s : fpa F5 s (build_global_variable name).
Proof. exact (bprog_R5 _ _ (bp_global _ name) s). Qed.
Lemma fp5_build_let_named w s : fpa F5 s (build_let_named w).
Proof. exact (bprog_R5 _ _ (bp_let_named _ w) s). Qed.
Lemma fp5_build_let_match v s : fpa F5 s (build_let_match v).
Proof. unfold build_let_match. repeat fp_step. Qed.
Lemma fp5_let_vec_next i s : fpa F5 s (let_vec_next i).
Proof. unfold let_vec_next. repeat fp_step. Qed.

Definition ctx5_word (name : string) : bool := ctx_word name || imm_cap name.

Lemma fp5_immediate_fn fo pr rf fuel name w :
  immediate_fn fo pr rf fuel name = Some w -> ctx5_word name = false -> fp F5 w.
Proof.
  intros H Hc. apply orb_false_iff in Hc. destruct Hc as [Hc Hi].
  apply bprog_R5. rewrite <- Hi. eapply immediate_bprog; eassumption.
Qed.
