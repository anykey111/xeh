(* Proofs of the C04 lemmas: every bit-string operation of the mirror is a
   function of the abstract bit sequence [abs]. *)
From Xeh Require Import Model.Prelude Model.Bits Proofs.BitsBasic.
From Xeh Require Import Proofs.BitsKernel Proofs.BitsLists Proofs.BitsMirror.
From Coq Require Import ZifyBool ZifyNat ZifyN.
Local Ltac Zify.zify_post_hook ::= Z.div_mod_to_equations.

Lemma iter8_spec : forall c, wf c -> iter8 c = map grp (chunk8 (abs c)).
Proof. exact iter8_abs. Qed.

Lemma seek_spec : forall c pos, wf c ->
  match seek c pos with
  | Some r => cstart c <= pos <= cend c /\ wf r /\ abs r = skipn (pos - cstart c) (abs c)
  | None => ~ (cstart c <= pos <= cend c)
  end.
Proof.
  intros c pos (H1 & H2 & H3). unfold seek.
  destruct ((cstart c <=? pos) && (pos <=? cend c)) eqn:E.
  - split; [lia|]. split.
    + apply wf_mk; [lia|assumption|assumption].
    + rewrite abs_mk, abs_unfold, skipn_map_seq. f_equal. f_equal; lia.
  - lia.
Qed.

Lemma peek_spec : forall c n, wf c ->
  match peek c n with
  | Some r => n <= clen c /\ wf r /\ abs r = firstn n (abs c)
  | None => clen c < n
  end.
Proof.
  intros c n (H1 & H2 & H3). unfold peek, clen. cbv zeta.
  destruct ((cstart c <=? cstart c + n) && (cstart c + n <=? cend c)) eqn:E.
  - split; [lia|]. split.
    + apply wf_mk; [lia|lia|assumption].
    + rewrite abs_mk, abs_unfold, firstn_map_seq. f_equal. f_equal; lia.
  - lia.
Qed.

Lemma substr_spec : forall c s e, wf c ->
  match substr c s e with
  | Some r => s <= e /\ cstart c <= s /\ e <= cend c /\ wf r /\
              abs r = firstn (e - s) (skipn (s - cstart c) (abs c))
  | None => ~ (s <= e /\ cstart c <= s /\ e <= cend c)
  end.
Proof.
  intros c s e (H1 & H2 & H3). unfold substr.
  destruct ((s <=? e) && (cstart c <=? s) && (e <=? cend c)) eqn:E.
  - split; [lia|]. split; [lia|]. split; [lia|]. split.
    + apply wf_mk; [lia|lia|assumption].
    + rewrite abs_mk, abs_unfold, skipn_map_seq, firstn_map_seq. f_equal. f_equal; lia.
  - lia.
Qed.

Lemma split_at_spec : forall c i, wf c ->
  match split_at c i with
  | Some (l, r) => i <= clen c /\ wf l /\ wf r /\
                   abs l = firstn i (abs c) /\ abs r = skipn i (abs c)
  | None => clen c < i
  end.
Proof.
  intros c n (H1 & H2 & H3). unfold split_at, clen. cbv zeta.
  destruct (cend c <? cstart c + n) eqn:E.
  - lia.
  - split; [lia|]. split; [|split; [|split]].
    + apply wf_mk; [lia|lia|assumption].
    + apply wf_mk; [lia|assumption|assumption].
    + rewrite abs_mk, abs_unfold, firstn_map_seq. f_equal. f_equal; lia.
    + rewrite abs_mk, abs_unfold, skipn_map_seq. f_equal. f_equal; lia.
Qed.

Lemma detach_cstart : forall u c, cstart (detach u c) = 0.
Proof.
  intros u c. unfold detach. destruct (u && (cstart c =? 0)) eqn:E; [lia|].
  destruct (clen c =? 0); reflexivity.
Qed.

Lemma detach_cend : forall u c, cend (detach u c) = clen c.
Proof.
  intros u c. unfold detach, clen. destruct (u && (cstart c =? 0)) eqn:E; [lia|].
  destruct (cend c - cstart c =? 0) eqn:E2; cbn [cend]; lia.
Qed.

Lemma detach_kept u c : u && (cstart c =? 0) = true -> detach u c = c.
Proof. intros E. unfold detach. rewrite E. reflexivity. Qed.

Lemma detach_copied u c : u && (cstart c =? 0) = false -> detach u c = detach false c.
Proof. intros E. unfold detach. rewrite E. reflexivity. Qed.

Lemma detach_canon c : wf c -> detach false c = canon (abs c).
Proof.
  intros Hc. unfold detach. cbn [andb]. rewrite <- (abs_length c).
  destruct (length (abs c) =? 0) eqn:E.
  - destruct (abs c); [reflexivity|discriminate].
  - rewrite detach_data by assumption. reflexivity.
Qed.

Lemma detach_spec : forall u c, wf c -> wf (detach u c) /\ abs (detach u c) = abs c.
Proof.
  intros u c Hc. destruct (u && (cstart c =? 0)) eqn:E.
  - rewrite (detach_kept u c E). auto.
  - rewrite (detach_copied u c E), (detach_canon c Hc). apply canon_spec.
Qed.

Lemma append_canon u c t : wf c -> wf t -> append u c t = canon (abs c ++ abs t).
Proof.
  intros Hc Ht. destruct (detach_spec u c Hc) as [Wd Ad]. unfold append.
  rewrite (append_bits_mut_canon _ t Wd Ht (detach_cstart u c)), Ad. reflexivity.
Qed.

Lemma append_spec : forall u c t, wf c -> wf t ->
  wf (append u c t) /\ abs (append u c t) = abs c ++ abs t.
Proof. intros u c t Hc Ht. rewrite (append_canon u c t Hc Ht). apply canon_spec. Qed.

Lemma insert_canon u c i s : wf c -> wf s ->
  match insert u c i s with
  | Some r => i <= clen c /\ r = canon (firstn i (abs c) ++ abs s ++ skipn i (abs c))
  | None => clen c < i
  end.
Proof.
  intros Hc Hs. unfold insert. pose proof (split_at_spec c i Hc) as HS.
  destruct (split_at c i) as [[l r]|]; [|exact HS].
  destruct HS as (Hi & Wl & Wr & <- & <-). split; [exact Hi|].
  destruct (detach_spec u l Wl) as [Wd Ad].
  rewrite (append_bits_mut_canon _ s Wd Hs (detach_cstart u l)), Ad.
  destruct (canon_spec (abs l ++ abs s)) as [Wc Ac].
  rewrite (append_bits_mut_canon _ r Wc Wr eq_refl), Ac, <- app_assoc. reflexivity.
Qed.

Lemma insert_spec : forall u c i s, wf c -> wf s ->
  match insert u c i s with
  | Some r => i <= clen c /\ wf r /\ abs r = firstn i (abs c) ++ abs s ++ skipn i (abs c)
  | None => clen c < i
  end.
Proof.
  intros u c i s Hc Hs. pose proof (insert_canon u c i s Hc Hs) as H.
  destruct (insert u c i s) as [r|]; [|exact H].
  destruct H as [Hi ->]. split; [exact Hi|apply canon_spec].
Qed.

Lemma invert_spec : forall u c, wf c ->
  wf (invert u c) /\ abs (invert u c) = map negb (abs c).
Proof.
  intros u c Hc. unfold invert. cbv zeta.
  destruct (detach_spec u c Hc) as [Hd Ha]. rewrite <- Ha.
  set (s := detach u c) in *. clearbody s. destruct Hd as (H1 & H2 & H3). unfold clen.
  split.
  - apply wf_mk.
    + assumption.
    + rewrite xor_bits_length. assumption.
    + apply bytes_ok_xor_bits. assumption.
  - rewrite abs_mk, abs_unfold, map_map. apply map_ext_in. intros i Hi.
    apply in_seq in Hi. rewrite getbit_xor_bits by (assumption || lia).
    replace ((cstart s <=? i) && (i <? cstart s + (cend s - cstart s))) with true by lia.
    reflexivity.
Qed.

Lemma grp_inj g h : grp g = grp h -> g = h.
Proof.
  unfold grp. intros E. injection E as E1 E2. apply bits_to_N_inj; assumption.
Qed.

Lemma cons_inj {A} (x y : A) l l' : x :: l = y :: l' -> x = y /\ l = l'.
Proof. intros E. split; congruence. Qed.

Lemma map_grp_inj : forall X Y, map grp X = map grp Y -> X = Y.
Proof.
  induction X as [|g X IH]; intros [|h Y] E; cbn [map] in E; try discriminate.
  - reflexivity.
  - apply cons_inj in E. destruct E as [E1 E2].
    f_equal; [apply grp_inj; assumption|apply IH; assumption].
Qed.

Lemma map_grp_split : forall X Y : list (list bool),
  map bits_to_N X = map bits_to_N Y -> map (@length bool) X = map (@length bool) Y ->
  map grp X = map grp Y.
Proof.
  induction X as [|g X IH]; intros [|h Y] E L; cbn [map] in *; try discriminate.
  - reflexivity.
  - apply cons_inj in E. destruct E as [E1 E2].
    apply cons_inj in L. destruct L as [L1 L2]. unfold grp at 1 3.
    rewrite E1, L1. f_equal. apply IH; assumption.
Qed.

Lemma chunk8_inj_grp la lb : map grp (chunk8 la) = map grp (chunk8 lb) -> la = lb.
Proof.
  intros E. apply map_grp_inj in E.
  rewrite <- (concat_chunk8 la), <- (concat_chunk8 lb), E. reflexivity.
Qed.

Lemma eq_with_spec : forall a b, wf a -> wf b -> (eq_with a b = true <-> abs a = abs b).
Proof.
  intros a b Ha Hb. unfold eq_with.
  destruct (clen a =? clen b) eqn:El; cbn [negb].
  - apply Nat.eqb_eq in El.
    destruct (is_u8_slice a && is_u8_slice b) eqn:Es.
    + apply andb_prop in Es. destruct Es as [Ea Eb].
      rewrite (list_eqb_spec N.eqb N.eqb_eq).
      rewrite (bytes_of_spec a Ha Ea), (bytes_of_spec b Hb Eb). split.
      * intros E. apply chunk8_inj_grp. apply map_grp_split; [assumption|].
        unfold chunk8. rewrite !abs_length, El.
        apply chunks8_lengths. rewrite !abs_length. assumption.
      * intros ->. reflexivity.
    + rewrite (list_eqb_spec pair_eqb pair_eqb_spec).
      rewrite (iter8_abs a Ha), (iter8_abs b Hb). split.
      * apply chunk8_inj_grp.
      * intros ->. reflexivity.
  - split; [discriminate|]. intros E.
    apply (f_equal (@length bool)) in E. rewrite !abs_length in E. lia.
Qed.

Lemma padding_spec : forall c, wf c -> to_bytes_with_padding c = map bits_to_N (chunk8 (abs c)).
Proof.
  intros c Hc. unfold to_bytes_with_padding. rewrite iter8_abs by assumption.
  rewrite map_map. reflexivity.
Qed.

Lemma to_bytes_spec : forall c, wf c ->
  to_bytes c = if clen c mod 8 =? 0 then Some (map bits_to_N (chunk8 (abs c))) else None.
Proof.
  intros c Hc. unfold to_bytes, is_bytestr.
  destruct (clen c mod 8 =? 0) eqn:E1; [|reflexivity].
  destruct (cstart c mod 8 =? 0) eqn:E2.
  - assert (Hs : is_u8_slice c = true).
    { unfold is_u8_slice, is_bytestr. rewrite E1, E2. reflexivity. }
    unfold slice. rewrite Hs. f_equal. apply bytes_of_spec; assumption.
  - f_equal. apply padding_spec. assumption.
Qed.

Lemma bytestr_spec : forall c, wf c ->
  bytestr c = if clen c mod 8 =? 0 then Some (map bits_to_N (chunk8 (abs c))) else None.
Proof.
  intros c Hc. unfold bytestr, slice.
  destruct (is_u8_slice c) eqn:Es.
  - pose proof (slice_inv c Es) as [_ H2]. rewrite H2. cbn [Nat.eqb].
    f_equal. apply bytes_of_spec; assumption.
  - unfold is_bytestr. destruct (clen c mod 8 =? 0) eqn:E1; [|reflexivity].
    f_equal. apply padding_spec. assumption.
Qed.

Lemma of_bools_canon l : of_bools l = canon l.
Proof.
  unfold of_bools, from_bits, bvb_finish.
  destruct (fold_append_inv l bvb_empty [] binv_empty) as [-> HP]. exact (packs_canon _ _ HP).
Qed.

Lemma of_bools_spec : forall l, wf (of_bools l) /\ abs (of_bools l) = l.
Proof. intros l. rewrite of_bools_canon. apply canon_spec. Qed.

Lemma from_hex_canon ds : Forall (fun d => (d < 16)%N) ds ->
  from_hex ds = canon (flat_map nibble_bits ds).
Proof.
  intros Hds. unfold from_hex.
  pose proof (from_hex_go_inv ds 0 [] [] Hds (conj eq_refl (conj eq_refl packs_nil))) as H.
  destruct (from_hex_go ds 0 []) as [n buf]. cbn [fst snd app] in H. destruct H as (-> & _ & HP).
  exact (packs_canon _ _ HP).
Qed.
