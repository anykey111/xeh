(* DumpFuel.v: the line loop of the hex dump always ends within its fuel on a well-formed value, so `dump` / `dump-at`
   never leave the model ([RUnsup]) for a well-formed input: with DumpUtf8.v they either print or fail cleanly. *)
From Xeh Require Import Model.Prelude Model.Bits Model.Codec Model.Cell Model.Lexer Model.Fmt Model.Vm Model.Words.
From Xeh Require Import Proofs.BitsBasic Proofs.BitsLists Proofs.BitsMirror Proofs.DumpUtf8.
From Coq Require Import Lia ZifyBool ZifyN ZifyNat.
Local Notation length := List.length.

Lemma sum_split (it : list (N * nat)) n :
  list_sum (map snd it) = list_sum (map snd (firstn n it)) + list_sum (map snd (skipn n it)).
Proof. rewrite <- list_sum_app, <- map_app, firstn_skipn. reflexivity. Qed.

Lemma pos_sum_ge_length (it : list (N * nat)) :
  Forall (fun g => 0 < snd g) it -> length it <= list_sum (map snd it).
Proof.
  induction 1 as [|g it Hg _ IH]; [cbn; lia|]. cbn [map length].
  change (list_sum (snd g :: map snd it)) with (snd g + list_sum (map snd it)). lia.
Qed.

Lemma dump_lines_some : forall fuel it pos,
  Forall (fun g => 0 < snd g) it -> length it < fuel ->
  dump_lines fuel pos (pos + list_sum (map snd it)) it <> None.
Proof.
  induction fuel as [|fuel IH]; intros it pos Hp Hf; [lia|].
  cbn [dump_lines].
  destruct (Nat.ltb_spec pos (pos + list_sum (map snd it))) as [Hlt|Hge]; [|discriminate].
  destruct (dump_row 8 pos it) as [[[[b h] a] p] i] eqn:E.
  destruct (dump_row_advance _ _ _ _ _ _ _ _ E) as (Hi & Hpp & _).
  assert (Hne : it <> []) by (intro C; subst it; cbn in Hlt; lia).
  assert (Hlen : length i < fuel).
  { subst i. rewrite skipn_length. destruct it; [contradiction|]. cbn [length] in *. lia. }
  assert (Hpi : Forall (fun g => 0 < snd g) i).
  { subst i. rewrite <- (firstn_skipn 8 it) in Hp. apply Forall_app in Hp. apply Hp. }
  assert (He : pos + list_sum (map snd it) = p + list_sum (map snd i)).
  { subst p i. rewrite (sum_split it 8). lia. }
  rewrite He. specialize (IH i p Hpi Hlen).
  destruct (dump_lines fuel p (p + list_sum (map snd i)) i); [discriminate|contradiction].
Qed.

Lemma chunks8_nonempty {A} : forall fuel (l : list A), Forall (fun g => g <> []) (chunks8 fuel l).
Proof.
  induction fuel as [|fuel IH]; intros l; cbn [chunks8]; [constructor|].
  destruct l as [|x l]; [constructor|]. constructor; [cbn; discriminate|apply IH].
Qed.

Lemma length_concat_sum {A} (ls : list (list A)) : List.length (List.concat ls) = list_sum (map (@List.length A) ls).
Proof. induction ls as [|l ls IH]; cbn; [reflexivity|]. rewrite app_length, IH. reflexivity. Qed.

Lemma iter8_groups : forall c, wf c ->
  Forall (fun g => 0 < snd g) (iter8 c) /\ list_sum (map snd (iter8 c)) = clen c.
Proof.
  intros c Hw. rewrite (iter8_abs c Hw). split.
  - apply Forall_map. unfold chunk8.
    eapply Forall_impl; [|apply chunks8_nonempty]. intros g Hg. cbn. destruct g; [contradiction|cbn; lia].
  - rewrite map_map. cbn [grp snd]. rewrite <- length_concat_sum, concat_chunk8. apply abs_length.
Qed.

Theorem fmt_bitstr_dump_total : forall c, wf c -> fmt_bitstr_dump c <> None.
Proof.
  intros c Hw. unfold fmt_bitstr_dump. destruct (iter8_groups c Hw) as (Hp & Hs).
  assert (Hend : cend c = cstart c + list_sum (map snd (iter8 c))).
  { rewrite Hs. unfold clen. destruct Hw as (Hle & _). lia. }
  rewrite Hend at 1. apply dump_lines_some; [exact Hp|].
  pose proof (pos_sum_ge_length _ Hp). lia.
Qed.

Definition input_wf (s : state) : Prop :=
  forall c b, nth_error (heap s) R_INPUT = Some c -> value c = CBits b -> wf b.

Lemma dump_bitstr_at_in_model : forall start s, input_wf s -> dump_bitstr_at start s <> RUnsup.
Proof.
  intros start s Hin.
  destruct (dump_bitstr_at_cases start s) as [(k & p & ->)|(c & b & Ec & Ev & Eb & ->)]; [discriminate|].
  cbv zeta in Eb.
  match goal with |- context [fmt_bitstr_dump ?x] => destruct (fmt_bitstr_dump x) as [t|] eqn:Ef end; [discriminate|].
  exfalso. revert Ef. apply fmt_bitstr_dump_total.
  destruct (Hin c _ Ec Ev) as (H1 & H2 & H3).
  unfold wf. cbn [cstart cend cdata]. repeat split; [lia|lia|exact H3].
Qed.
