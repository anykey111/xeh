(* VmLimitsRunFail.v (C14): what an instruction that fails with a limit error leaves behind.
   - instruction limit: nothing changed (first fetch), or the [late] cell resolved and the
     first fetch counted (second fetch);
   - stack limit: the state at the refused push.  The interpreter does NOT roll the
     instruction back: for instructions that only push this is the initial state with the
     meter advanced; for the others operands, vector marks, partially pushed results stay as
     they are (witnesses at the end of the file). *)
From Xeh Require Import Model.Prelude Model.Bits Model.Codec Model.Cell Model.Lexer Model.Fmt
                        Model.Vm Model.Words Model.Struct Model.Build Model.Boot.
From Xeh Require Import Proofs.VmPrim Proofs.VmFrame Proofs.VmFetch Proofs.VmLimits Proofs.StructNat Proofs.UnwindLists Proofs.UnwindFrame
                        Proofs.UnwindWitness Proofs.VmLimitsRunBase Proofs.VmLimitsRunStep.
Local Notation length := List.length.
Local Open Scope string_scope.

#[local] Arguments Z.add : simpl never.
#[local] Arguments Z.sub : simpl never.
#[local] Arguments Z.mul : simpl never.
#[local] Arguments Z.ltb : simpl never.
#[local] Arguments Z.leb : simpl never.
#[local] Arguments Z.eqb : simpl never.
#[local] Arguments Z.of_nat : simpl never.
#[local] Arguments Z.to_nat : simpl never.

(* instructions whose body is one [push_data] (after reads that change nothing) *)
Definition push_only (op : opcode) : bool :=
  match op with
  | OLoad _ | OLoadNil | OLoadI64 _ | OLoadF64 _ | OLoadStr _ | OLoadCell _ | OLoadLocal _ => true
  | ONative w => String.eqb w "dup" || String.eqb w "depth"
  | _ => false
  end.

(* instructions that never push *)
Definition never_pushes (op : opcode) : bool :=
  match op with
  | ONop | OCall _ | ORet | OJumpIf _ | OJumpIfNot _ | OJump _ | ODo _ | OBreak _
  | OLoop _ | OCaseOf _ | OStore _ | OInitLocal _ => true
  | _ => false
  end.

(* programs that never fail with a limit error *)
Definition P_nolim {A} (m : M A) : Prop := forall s p s', m s <> RErr ELimit p s'.

Lemma nolim_ret A (a : A) : P_nolim (ret a).
Proof. intros s p s' H. discriminate H. Qed.
Lemma nolim_fail A k q : k <> ELimit -> P_nolim (@fail A k q).
Proof. intros Hk s p s' H. injection H as -> _ _. contradiction. Qed.
Lemma nolim_unsup A : P_nolim (@unsup A).
Proof. intros s p s' H. discriminate H. Qed.
Lemma nolim_bind A B (m : M A) (f : A -> M B) : P_nolim m -> (forall a, P_nolim (f a)) -> P_nolim (bind m f).
Proof.
  intros Hm Hf s p s' H. unfold bind in H. destruct (m s) as [a s1|k q s1| |] eqn:E; try discriminate.
  - eapply Hf. exact H.
  - injection H as -> -> ->. eapply Hm. exact E.
Qed.

Lemma nolim_panic A : P_nolim (@panic A).
Proof. intros s p s' H. discriminate H. Qed.
Lemma nolim_get_bind B (k : state -> M B) : (forall s0, P_nolim (k s0)) -> P_nolim (bind get k).
Proof. intros H s p s' E. unfold bind, get in E. eapply H. exact E. Qed.
Lemma nolim_runs o A (m : M A) : runs o m -> P_nolim m.
Proof. intros H s p s' E. specialize (H s). rewrite E in H. destruct H as (_ & _ & N). exact (N eq_refl). Qed.
Lemma nolim_print msg : P_nolim (print msg).
Proof. intros s p s' H. discriminate H. Qed.
Lemma nolim_set_stopping b : P_nolim (modify (fun s => set_stopping s b)).
Proof. intros s p s' H. discriminate H. Qed.

Create HintDb nolimdb.

(* everything but [push_data] and [over_data] *)
Ltac nolim_step :=
  cbv beta zeta;
  first
    [ apply nolim_ret | apply nolim_unsup | apply nolim_panic | (apply nolim_fail; discriminate)
    | (eapply nolim_runs, prim_runs; constructor) | apply nolim_print | apply nolim_set_stopping
    | solve [ auto 2 with nolimdb nocore ]
    | lazymatch goal with
      | |- P_nolim (bind get _) => apply nolim_get_bind; intro
      | |- P_nolim (bind _ _) => apply nolim_bind; [ | intro ]
      | |- P_nolim (match ?x with _ => _ end) => destruct x
      | |- P_nolim (push_data _) => fail
      | |- P_nolim over_data => fail
      | |- P_nolim ?m => let h := head_of m in unfold h
      end ].

Lemma exec_op_never_pushes : forall nf ip0 op s1 p s',
  never_pushes op = true -> exec_op nf ip0 op s1 <> RErr ELimit p s'.
Proof.
  intros nf ip0 op s1 p s' Hop. revert s1 p s'.
  change (P_nolim (exec_op nf ip0 op)).
  destruct op; try discriminate Hop; clear Hop; cbn [exec_op]; repeat nolim_step.
Qed.

(* ... and programs that push once, at the end *)
Lemma push_next_limit : forall c s1 p s', (push_data c ;; next_ip) s1 = RErr ELimit p s' -> s' = s1.
Proof.
  intros c s1 p s' H. unfold bind, push_data in H.
  destruct (limit_reached _ _); [injection H as _ <-; reflexivity|discriminate H].
Qed.

Lemma exec_op_load_limit : forall nf ip0 op s1 p s',
  match op with
  | OLoad _ | OLoadNil | OLoadI64 _ | OLoadF64 _ | OLoadStr _ | OLoadCell _ | OLoadLocal _ => True
  | _ => False
  end ->
  exec_op nf ip0 op s1 = RErr ELimit p s' -> s' = s1.
Proof.
  intros nf ip0 op s1 p s' Hop. destruct op; try contradiction; clear Hop; cbn [exec_op];
    try apply push_next_limit.
  - unfold bind at 1, get_var.
    destruct (mode_eqb _ _); [discriminate|]. destruct (nth_error (heap s1) a); [|discriminate].
    apply push_next_limit.
  - unfold bind at 1, top_frame.
    destruct (rs s1) as [|f r]; [discriminate|]. destruct (_ <? _)%nat; [|discriminate].
    destruct (nth_error (locals f) i); [apply push_next_limit|discriminate].
Qed.

Section Frame.
  Variable fo : fops.
  Let nf := native_fn fo.

  Lemma native_dup : nf "dup" = Some dup_data.
  Proof. reflexivity. Qed.
  Lemma native_depth : nf "depth" = Some w_depth.
  Proof. reflexivity. Qed.

  Lemma exec_op_push_only_limit : forall ip0 op s1 p s',
    push_only op = true -> exec_op nf ip0 op s1 = RErr ELimit p s' -> s' = s1.
  Proof.
    intros ip0 op s1 p s' Hop Hx.
    destruct op; try discriminate Hop; try (eapply exec_op_load_limit; [|exact Hx]; exact I).
    cbn [push_only] in Hop. apply orb_true_iff in Hop. destruct Hop as [E|E]; apply String.eqb_eq in E; subst w.
    - cbn [exec_op] in Hx. rewrite native_dup in Hx. revert Hx.
      unfold dup_data, bind at 1 2, top_data.
      destruct (ds s1) as [|c r]; [cbv beta iota; intros Hx; discriminate Hx|].
      destruct (_ <? _)%nat; [|cbv beta iota; intros Hx; discriminate Hx].
      exact (push_next_limit c s1 p s').
    - cbn [exec_op] in Hx. rewrite native_depth in Hx. revert Hx.
      unfold w_depth, bind at 1 2, get.
      exact (push_next_limit (cnat (data_depth s1)) s1 p s').
  Qed.

  Lemma op_class : forall op, (forall n, op <> OResolve n) ->
    (exists w, op = ONative w) \/ push_only op = true \/ never_pushes op = true.
  Proof.
    intros op Nr. destruct op; try (right; left; reflexivity); try (right; right; reflexivity).
    - exfalso. eapply Nr. reflexivity.
    - left. eexists. reflexivity.
  Qed.

  (* the state an instruction body starts from: [s] after one or two fetches *)
  Definition fetched (s s1 : state) : Prop :=
    s1 = set_meter s (meter s + 1)%Z \/
    exists name e, nth_error (code s) (ip s) = Some (OResolve name) /\ dict_entry s name = Some e /\
      s1 = set_meter (set_code (set_meter s (meter s + 1)%Z) (list_set (code s) (ip s) (resolve_op e)))
                     (meter s + 1 + 1)%Z.

  (* A relation that does not see the meter and the resolution of a [late] cell, and that every
     native word keeps when it fails with a limit error, holds between the start and the end of
     every instruction that fails with a limit error: the other instructions either fail before
     they change anything or do not fail this way. *)
  Lemma limit_failure_keeps (Q : state -> state -> Prop) :
    (forall s, Q s s) ->
    (forall s s', Q (tick s) s' -> Q s s') -> (forall s e s', Q (patched s e) s' -> Q s s') ->
    (forall w f s p s', nf w = Some f -> f s = RErr ELimit p s' -> Q s s') ->
    forall s p s', fetch_and_run nf s = RErr ELimit p s' -> Q s s'.
  Proof.
    intros Qr Qt Qp Qn s.
    apply (far_ind nf (fun s r => forall p s', r = RErr ELimit p s' -> Q s s')); clear s; try discriminate.
    - intros s _ p s' H. injection H as <- <-. apply Qr.
    - intros s op _ _ N p s' Hx. apply Qt. destruct (op_class op N) as [[w ->]|[Hc|Hc]].
      + cbn [exec_op] in Hx. destruct (nf w) as [f|] eqn:E; [|discriminate Hx]. unfold bind in Hx.
        destruct (f (tick s)) as [u x|k q x| |] eqn:Ef; try discriminate Hx.
        injection Hx as -> -> ->. exact (Qn w f _ _ _ E Ef).
      + apply exec_op_push_only_limit in Hx; [|exact Hc]. subst s'. apply Qr.
      + exfalso. eapply exec_op_never_pushes; eauto.
    - intros s name e r _ _ _ _ IH p s' Hx. apply (Qp s e). exact (IH p s' Hx).
  Qed.

  (* what survives a failed native word: the return stack and the context, so the ip
     (StructNat.native_keeps) *)
  Lemma limit_failure_rs_cx : forall s p s',
    fetch_and_run nf s = RErr ELimit p s' -> rs s' = rs s /\ cx s' = cx s.
  Proof.
    intros s p s' H. apply (limit_failure_keeps (fun s s' => rs s' = rs s /\ cx s' = cx s)) with (5 := H); auto.
    intros w f s0 p0 s0' E Ef. pose proof (native_keeps fo w f s0 E) as K. rewrite Ef in K.
    cbn [rkeeps] in K. destruct K as (K1 & K2 & _). auto.
  Qed.

  (* instructions that only push: the failed instruction leaves the state it found, up to the
     meter (advanced by one when the failure is the stack limit, not at all when it is the
     instruction limit) *)
  Theorem push_only_failure_unchanged : forall s op p s',
    fetch_and_run nf s = RErr ELimit p s' ->
    nth_error (code s) (ip s) = Some op -> push_only op = true ->
    s' = s \/ s' = set_meter s (meter s + 1)%Z.
  Proof.
    intros s op p s' H Hop Hc.
    destruct (far_cases nf s) as [E0|E0 E1|op' E0 E1 N|name E0 E1 E2|name e E0 E1 E2];
      try discriminate H; try (rewrite Hop in E1; injection E1 as ->; discriminate Hc).
    - injection H as <- <-. left. reflexivity.
    - rewrite Hop in E1. injection E1 as <-. right.
      eapply exec_op_push_only_limit; [exact Hc|exact H].
  Qed.

  (* instructions that never push fail with a limit error only through the meter, and then
     nothing at all has changed *)
  Theorem never_pushes_failure : forall s op p s',
    fetch_and_run nf s = RErr ELimit p s' ->
    nth_error (code s) (ip s) = Some op -> never_pushes op = true ->
    s' = s /\ exists N, insn_limit s = Some N /\ (N <= meter s)%Z.
  Proof.
    intros s op p s' H Hop Hc.
    destruct (far_cases nf s) as [E0|E0 E1|op' E0 E1 N|name E0 E1 E2|name e E0 E1 E2];
      try discriminate H; try (rewrite Hop in E1; injection E1 as ->; discriminate Hc).
    - injection H as <- <-. split; [reflexivity|]. unfold mlim in E0.
      destruct (insn_limit s) as [N|]; [|discriminate]. exists N. split; [reflexivity|apply Z.leb_le; exact E0].
    - rewrite Hop in E1. injection E1 as <-. exfalso. eapply exec_op_never_pushes; eauto.
  Qed.
End Frame.

Definition lw_obs (s : state) := (ds s, special s, ip s, is_running s).
Definition lw_kind {A} (r : option (res A)) : option ekind :=
  match r with Some (RErr k _ _) => Some k | Some (ROk _ _) => None | _ => Some EOther end.
Definition lw_state {A} (r : option (res A)) : state :=
  match r with Some r => wit_state r | None => boot end.
Definition lw_nf : natives := native_fn wit_fo.

(* W1: an empty vector literal on a full stack.  [%vec-end] takes the mark of [%vec-begin] off
   the special stack, then the push of the vector is refused: the mark is gone, and when the
   limit is lifted and the machine resumed the same instruction fails with a flow error,
   while the unlimited machine builds the vector. *)
Definition w1_s0 : state := set_limits boot None None (Some 2%Z).
Definition w1_fail : res unit := wit_eval "1 2 [ ]" w1_s0.
Definition w1_resumed : option (res unit) := run lw_nf 100 (set_limits (wit_state w1_fail) None None None).

Definition w1_compiled : state := wit_state (compile wit_fo wit_pr wit_rf wit_fuel "1 2 [ ]" w1_s0).
Definition w1_before : state := match steps lw_nf 3 w1_compiled with Some s => s | None => boot end.

Theorem vec_end_not_rolled_back :
  (exists s', w1_fail = RErr ELimit None s') /\
  lw_obs (wit_state w1_fail) = ([CInt 2; CInt 1], [], 3, true) /\
  (* the failing step in isolation *)
  steps lw_nf 3 w1_compiled = Some w1_before /\
  nth_error (code w1_before) (ip w1_before) = Some (ONative "%vec-end") /\
  insn_limit w1_before = None /\ stack_limit w1_before = Some 2%Z /\
  ds w1_before = [CInt 2; CInt 1] /\ special w1_before = [2] /\
  (exists s', fetch_and_run lw_nf w1_before = RErr ELimit None s' /\
              ds s' = [CInt 2; CInt 1] /\ special s' = []) /\
  (* resuming after the limit is lifted *)
  lw_kind w1_resumed = Some EFlow /\
  (exists s', wit_eval "1 2 [ ]" boot = ROk tt s' /\ ds s' = [CVec []; CInt 2; CInt 1]).
Proof.
  split; [eexists; vm_compute; reflexivity|].
  do 7 (split; [vm_compute; reflexivity|]).
  split; [eexists; split; [vm_compute; reflexivity|split; reflexivity]|].
  split; [vm_compute; reflexivity|].
  eexists. split; [vm_compute; reflexivity|reflexivity].
Qed.

(* W2: a limit set below the current depth (the property allows this: the stack may keep the
   size it had).  [+] pops both operands, then the push of the sum is refused: the operands
   are gone; resumed without limit the machine adds the next two numbers. *)
Definition w2_s0 : state := set_limits (wit_state (wit_eval "1 2 3 4 5" boot)) None None (Some 3%Z).
Definition w2_fail : res unit := wit_eval "+" w2_s0.
Definition w2_resumed : option (res unit) := run lw_nf 100 (set_limits (wit_state w2_fail) None None None).

Theorem operands_not_restored :
  ds w2_s0 = [CInt 5; CInt 4; CInt 3; CInt 2; CInt 1] /\
  (exists s', w2_fail = RErr ELimit None s') /\
  ds (wit_state w2_fail) = [CInt 3; CInt 2; CInt 1] /\
  lw_kind w2_resumed = None /\ ds (lw_state w2_resumed) = [CInt 5; CInt 1] /\
  (exists s', wit_eval "+" (set_limits w2_s0 None None None) = ROk tt s' /\
              ds s' = [CInt 9; CInt 3; CInt 2; CInt 1]).
Proof.
  split; [vm_compute; reflexivity|]. split; [eexists; vm_compute; reflexivity|].
  split; [vm_compute; reflexivity|]. split; [vm_compute; reflexivity|]. split; [vm_compute; reflexivity|].
  eexists. split; [vm_compute; reflexivity|reflexivity].
Qed.

(* W3: [unbox] under a limit that was set above the current depth: the vector is popped, two
   of its three elements are pushed, the third is refused; the vector is lost. *)
Definition w3_s0 : state := set_limits (wit_state (wit_eval "1 [ 7 8 9 ]" boot)) None None (Some 3%Z).
Definition w3_fail : res unit := wit_eval "unbox" w3_s0.
Definition w3_resumed : option (res unit) := run lw_nf 100 (set_limits (wit_state w3_fail) None None None).

Theorem unbox_partial_push :
  ds w3_s0 = [CVec [CInt 7; CInt 8; CInt 9]; CInt 1] /\
  (exists s', w3_fail = RErr ELimit None s') /\
  ds (wit_state w3_fail) = [CInt 8; CInt 7; CInt 1] /\
  lw_kind w3_resumed = Some EType /\
  (exists s', wit_eval "unbox" (set_limits w3_s0 None None None) = ROk tt s' /\
              ds s' = [CInt 9; CInt 8; CInt 7; CInt 1]).
Proof.
  split; [vm_compute; reflexivity|]. split; [eexists; vm_compute; reflexivity|].
  split; [vm_compute; reflexivity|]. split; [vm_compute; reflexivity|].
  eexists. split; [vm_compute; reflexivity|reflexivity].
Qed.

(* W4: [foreach] over a vector on a stack with one free cell: [%foreach-init] pushes the
   length, the push of the start index is refused; the extra cell stays *)
Definition w4_s0 : state := set_limits boot None None (Some 2%Z).
Definition w4_fail : res unit := wit_eval "[ 5 6 ] foreach loop" w4_s0.
Definition w4_resumed : option (res unit) := run lw_nf 100 (set_limits (wit_state w4_fail) None None None).

Theorem foreach_init_partial_push :
  (exists s', w4_fail = RErr ELimit None s') /\
  ds (wit_state w4_fail) = [CInt 2; CVec [CInt 5; CInt 6]] /\
  lw_kind w4_resumed = Some EType /\
  (exists s', wit_eval "[ 5 6 ] foreach loop" boot = ROk tt s' /\ ds s' = []).
Proof.
  split; [eexists; vm_compute; reflexivity|]. split; [vm_compute; reflexivity|].
  split; [vm_compute; reflexivity|].
  eexists. split; [vm_compute; reflexivity|reflexivity].
Qed.

(* W5: [over] on a full stack while recording: the reverse-log entry of [over] is written
   before the push is refused, so the failed instruction leaves a longer log (stepping back
   consumes the entry without harm: the logging pop it performs is undone at once) *)
Definition w5_s0 : state :=
  set_rlog (set_limits (wit_state (wit_eval "1 2" boot)) None None (Some 2%Z)) (Some []).
Definition w5_fail : res unit := wit_eval "over" w5_s0.

Theorem over_logs_before_failing :
  (exists s', w5_fail = RErr ELimit None s') /\
  ds (wit_state w5_fail) = [CInt 2; CInt 1] /\ rlog (wit_state w5_fail) = Some [ROverData] /\
  (exists s', rnext (wit_state w5_fail) = ROk tt s' /\ ds s' = [CInt 2; CInt 1] /\ rlog s' = Some []).
Proof.
  split; [eexists; vm_compute; reflexivity|]. split; [vm_compute; reflexivity|].
  split; [vm_compute; reflexivity|].
  eexists. split; [vm_compute; reflexivity|split; reflexivity].
Qed.

(* a positive instance: a literal on a full stack fails and changes only the meter *)
Definition w6_s0 : state := set_limits boot None None (Some 2%Z).
Definition w6_fail : res unit := wit_eval "1 2 3" w6_s0.
Definition w6_resumed : option (res unit) := run lw_nf 100 (set_limits (wit_state w6_fail) None None None).

Theorem literal_failure_resumes :
  (exists s', w6_fail = RErr ELimit None s') /\
  ds (wit_state w6_fail) = [CInt 2; CInt 1] /\
  lw_kind w6_resumed = None /\ ds (lw_state w6_resumed) = [CInt 3; CInt 2; CInt 1].
Proof.
  split; [eexists; vm_compute; reflexivity|]. split; [vm_compute; reflexivity|].
  split; vm_compute; reflexivity.
Qed.
