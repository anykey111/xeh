(* BitsDetach.v (C04): the representation of the result of detach / append / insert / invert
   does not depend on the ownership flag [u] (= Rc::strong_count == 1).

   [detach u c] keeps [c] as it is only when [u] holds AND [c] starts at bit 0; otherwise it
   copies and rebases to bit 0.  Hence the start offset of a detached value is ALWAYS 0, its
   end is ALWAYS [clen c], and the bits are those of [c]; only the backing bytes beyond the
   value (stale bits after the end, slack bytes) may differ between the two paths.
   [append_bits_mut] cuts the buffer back to the value and clears the stale bits before it
   appends, so for [append] and [insert] even the backing bytes are the same: these two are
   functions of their value arguments alone. *)
From Xeh Require Import Model.Prelude Model.Bits Proofs.BitsBasic.
From Xeh Require Import Proofs.BitsKernel Proofs.BitsLists Proofs.BitsMirror Proofs.BitsProofs.
From Coq Require Import ZifyBool ZifyNat ZifyN.
Local Ltac Zify.zify_post_hook ::= Z.div_mod_to_equations.

Lemma detach_start : forall u c,
  cstart (detach u c) = 0 /\
  ((u = true /\ cstart c = 0 /\ detach u c = c) \/
   (~ (u = true /\ cstart c = 0) /\ detach u c = detach false c)).
Proof.
  intros u c. split; [apply detach_cstart|].
  destruct (u && (cstart c =? 0)) eqn:E.
  - left. rewrite (detach_kept u c E). apply andb_prop in E. destruct E as [-> E0].
    apply Nat.eqb_eq in E0. auto.
  - right. split; [|apply detach_copied, E]. intros [-> E0]. rewrite E0 in E. discriminate.
Qed.

(* append_bits_mut only looks at the range and the trimmed buffer *)

Lemma trim_tail_ext a b : wf a -> wf b -> cstart a = 0 -> cstart b = 0 -> abs a = abs b ->
  cend a = cend b /\ trim_tail a = trim_tail b.
Proof.
  intros Ha Hb Sa Sb E.
  assert (EL : cend a = cend b).
  { pose proof (f_equal (@length bool) E) as L. rewrite !abs_length in L. unfold clen in L. lia. }
  split; [exact EL|].
  pose proof (trim_tail_packs a Ha) as Pa. pose proof (trim_tail_packs b Hb) as Pb.
  rewrite !abs_unfold, Sa, Sb, !Nat.sub_0_r in E. rewrite E in Pa.
  exact (packs_inj _ _ _ Pa Pb).
Qed.

Lemma append_bits_mut_cong a b t :
  cstart a = cstart b -> cend a = cend b -> trim_tail a = trim_tail b ->
  append_bits_mut a t = append_bits_mut b t.
Proof.
  intros S E T. unfold append_bits_mut, is_u8_slice, is_bytestr, clen. cbv zeta.
  rewrite S, E, T. reflexivity.
Qed.

Lemma append_bits_mut_abs_cong a b t :
  wf a -> wf b -> cstart a = 0 -> cstart b = 0 -> abs a = abs b ->
  append_bits_mut a t = append_bits_mut b t.
Proof.
  intros Ha Hb Sa Sb E. destruct (trim_tail_ext a b Ha Hb Sa Sb E) as [EL T].
  apply append_bits_mut_cong; [rewrite Sa, Sb; reflexivity|exact EL|exact T].
Qed.

(* the whole result, backing bytes included, is the same on both ownership paths *)
Lemma append_indep : forall u u' c t, wf c -> append u c t = append u' c t.
Proof.
  intros u u' c t Hc. unfold append.
  destruct (detach_spec u c Hc) as [W1 A1]. destruct (detach_spec u' c Hc) as [W2 A2].
  apply append_bits_mut_abs_cong; [exact W1|exact W2|apply detach_cstart|apply detach_cstart|].
  rewrite A1, A2. reflexivity.
Qed.

Lemma insert_range : forall u c i s, cstart c <= cend c ->
  match insert u c i s with
  | Some r => i <= clen c /\ cstart r = 0 /\ cend r = clen c + clen s
  | None => clen c < i
  end.
Proof.
  intros u c i s Hse. unfold insert, split_at. cbv zeta.
  destruct (cend c <? cstart c + i) eqn:E; [unfold clen; lia|].
  destruct (append_bits_mut_range
              (append_bits_mut (detach u (mkcbs (cstart c) (cstart c + i) (cdata c))) s)
              (mkcbs (cstart c + i) (cend c) (cdata c))) as [-> ->].
  destruct (append_bits_mut_range (detach u (mkcbs (cstart c) (cstart c + i) (cdata c))) s) as [-> ->].
  rewrite detach_cstart, detach_cend. unfold clen. cbn [cstart cend]. lia.
Qed.

Lemma insert_indep : forall u u' c i s, wf c -> insert u c i s = insert u' c i s.
Proof.
  intros u u' c i s Hc. unfold insert. pose proof (split_at_spec c i Hc) as HS.
  destruct (split_at c i) as [[l r]|]; [|reflexivity].
  destruct HS as (_ & Hl & _).
  destruct (detach_spec u l Hl) as [W1 A1]. destruct (detach_spec u' l Hl) as [W2 A2].
  rewrite (append_bits_mut_abs_cong (detach u l) (detach u' l) s W1 W2
             (detach_cstart u l) (detach_cstart u' l)) by (rewrite A1, A2; reflexivity).
  reflexivity.
Qed.
