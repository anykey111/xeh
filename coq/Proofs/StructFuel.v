(* StructFuel.v: the structural evaluator is monotone in its fuel: a result other than
   "out of fuel" is kept by every larger fuel; hence the result of a program, when it
   exists, is unique. *)
From Xeh Require Import Model.Prelude Model.Bits Model.Codec Model.Cell Model.Lexer Model.Fmt
                        Model.Vm Model.Words Model.Struct Proofs.StructBase.
Local Notation length := List.length.

Section Fuel.
  Variable fo : fops.
  Variable funs : list (nat * list stmt).
  Notation sblock := (sblock fo funs).
  Notation sstmt := (sstmt fo funs).

  Lemma do_iter_sle : forall body body' pl,
    (forall s, sle (body s) (body' s)) ->
    forall k k' s, k <= k' -> sle (do_iter body pl k s) (do_iter body' pl k' s).
  Proof.
    intros body body' pl Hb. induction k as [| k IH]; intros k' s Hk.
    - apply sle_out.
    - destruct k' as [| k']; [ lia | ].
      rewrite !do_iter_S. apply sle_on_res; [ apply Hb | | intro; apply sle_refl ].
      intro s3. apply sle_run_m. intros more s4. apply sle_if; [ | apply sle_refl ].
      apply IH. lia.
  Qed.

  Lemma case_go_sle : forall blk blk' dflt,
    (forall l s, sle (blk l s) (blk' l s)) ->
    forall arms s, sle (case_go blk dflt arms s) (case_go blk' dflt arms s).
  Proof.
    intros blk blk' dflt Hb. induction arms as [| [[pre pof] body] r IH]; intro s.
    - rewrite !case_go_nil. apply Hb.
    - rewrite !case_go_cons. apply sle_on_res; [ apply Hb | | intro; apply sle_refl ].
      intro s1. apply sle_run_m. intros eq s2. apply sle_if; [ | apply IH ].
      apply sle_run_m. intros _ s3. apply Hb.
  Qed.

  Lemma fuel_sle_both : forall f,
    (forall f' l s, f <= f' -> sle (sblock f l s) (sblock f' l s)) /\
    (forall f' x s, f <= f' -> sle (sstmt f x s) (sstmt f' x s)).
  Proof.
    induction f as [| f [IHb IHs]].
    - split; intros; apply sle_out.
    - split.
      + intros f' l s Hf. destruct f' as [| f']; [ lia | ]. destruct l as [| x r].
        * rewrite !sblock_nil. apply sle_refl.
        * rewrite !sblock_cons. apply sle_on_res; [ apply IHs; lia | | intro; apply sle_refl ].
          intro s'. apply IHb. lia.
      + intros f' x s Hf. destruct f' as [| f']; [ lia | ].
        destruct x; repeat sstmt_unfold; try apply sle_refl.
        * destruct (fun_body funs f0); [ | apply sle_refl ].
          apply sle_run_m. intros _ s1. apply sle_on_res; [ apply IHb; lia | | ]; intro; apply sle_refl.
        * apply sle_run_m. intros b s1. apply sle_if; [ apply IHb; lia | apply sle_refl ].
        * apply sle_run_m. intros b s1. apply sle_if; apply IHb; lia.
        * apply case_go_sle. intros l s0. apply IHb. lia.
        * apply sle_on_res; [ apply IHb; lia | | intro; apply sle_refl ].
          intro s1. apply sle_run_m. intros c s2. apply sle_if; [ apply sle_refl | apply IHs; lia ].
        * apply sle_on_res; [ apply IHb; lia | | intro; apply sle_refl ].
          intro s1. apply IHs. lia.
        * apply sle_on_res; [ apply IHb; lia | | intro; apply sle_refl ].
          intro s1. apply sle_run_m. intros go s2. apply sle_if; [ | apply sle_refl ].
          apply sle_on_res; [ apply IHb; lia | | intro; apply sle_refl ].
          intro s3. apply IHs. lia.
        * apply sle_run_m. intros l s1. apply sle_if; [ apply sle_refl | ].
          apply sle_run_m. intros _ s2. apply do_iter_sle; [ | lia ].
          intro s0. apply IHb. lia.
  Qed.

  Lemma sblock_sle : forall f f' l s, f <= f' -> sle (sblock f l s) (sblock f' l s).
  Proof. intros f f' l s H. apply (proj1 (fuel_sle_both f)). assumption. Qed.
  Lemma sstmt_sle : forall f f' x s, f <= f' -> sle (sstmt f x s) (sstmt f' x s).
  Proof. intros f f' x s H. apply (proj2 (fuel_sle_both f)). assumption. Qed.

  Theorem sblock_fuel_mono : forall f l s r,
    sblock f l s = r -> r <> SOut -> forall f', f <= f' -> sblock f' l s = r.
  Proof.
    intros f l s r H N f' Hf. subst r. apply sle_eq; [ apply sblock_sle; assumption | assumption ].
  Qed.

  Lemma sle_unique : forall (g : nat -> sres),
    (forall f f', f <= f' -> sle (g f) (g f')) ->
    forall f1 f2 r1 r2, g f1 = r1 -> r1 <> SOut -> g f2 = r2 -> r2 <> SOut -> r1 = r2.
  Proof.
    intros g Hg f1 f2 r1 r2 <- N1 <- N2.
    destruct (Nat.le_ge_cases f1 f2) as [L | L]; [ symmetry | ]; apply sle_eq; auto.
  Qed.
End Fuel.
