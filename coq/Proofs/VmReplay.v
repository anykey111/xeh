(* VmReplay.v: replay after rewinding (C02): forward runs from [eq_rev]-related states stay
   related step for step; the round trip  n forward / k backward / m forward;  arbitrary
   interleavings of forward and backward moves. *)
From Xeh Require Import Model.Prelude Model.Bits Model.Codec Model.Cell Model.Lexer Model.Fmt Model.Vm Model.Words.
From Xeh Require Import Proofs.VmPrim Proofs.VmFrame Proofs.VmFetch Proofs.VmLimits Proofs.VmRevBase Proofs.VmRevWords Proofs.VmRev
                        Proofs.VmReplayBase Proofs.VmReplayWords.
Local Notation length := List.length.

#[local] Arguments Z.add : simpl never.
#[local] Arguments Z.sub : simpl never.
#[local] Arguments Z.mul : simpl never.
#[local] Arguments Z.ltb : simpl never.
#[local] Arguments Z.leb : simpl never.
#[local] Arguments Z.eqb : simpl never.
#[local] Arguments Z.of_nat : simpl never.
#[local] Arguments Z.to_nat : simpl never.

Lemma steps_add nf i : forall j s,
  steps nf (i + j) s = match steps nf i s with Some t => steps nf j t | None => None end.
Proof.
  induction i; intros j s; cbn [steps Nat.add]; auto.
  destruct (fetch_and_run nf s) as [[] s1| | |]; auto.
Qed.

Lemma steps_le nf N i s sN : steps nf N s = Some sN -> i <= N -> exists si, steps nf i s = Some si.
Proof.
  intros H Hi. replace N with (i + (N - i)) in H by lia. rewrite steps_add in H.
  destruct (steps nf i s); eauto; discriminate.
Qed.

Lemma steps_succ nf n s sn sn' :
  steps nf n s = Some sn -> fetch_and_run nf sn = ROk tt sn' -> steps nf (S n) s = Some sn'.
Proof.
  intros H1 H2. replace (S n) with (n + 1) by lia. rewrite steps_add, H1. cbn [steps]. rewrite H2. reflexivity.
Qed.

Lemma rnext_meter_out s u s' : rnext s = ROk u s' -> meter s' = meter s /\ out s' = out s.
Proof. intro H. apply rnext_shell in H. split; [exact (f_equal meter H)|exact (f_equal out H)]. Qed.

Lemma rnexts_meter_out k : forall s s', rnexts k s = Some s' -> meter s' = meter s /\ out s' = out s.
Proof.
  induction k; intros s s' H; cbn [rnexts] in H.
  - injection H as <-. auto.
  - destruct (rnext s) as [[] s1| | |] eqn:E; try discriminate.
    destruct (rnext_meter_out _ _ _ E) as [A B]. destruct (IHk _ _ H) as [C D]. split; congruence.
Qed.

Inductive move := Fwd | Back.

Fixpoint walk (nf : natives) (w : list move) (s : state) : option state :=
  match w with
  | [] => Some s
  | Fwd :: r => match fetch_and_run nf s with ROk _ s' => walk nf r s' | _ => None end
  | Back :: r => match rnext s with ROk _ s' => walk nf r s' | _ => None end
  end.

(* the position after the walk; None when the walk leaves the range 0..N *)
Fixpoint walk_pos (N : nat) (w : list move) (p : nat) : option nat :=
  match w with
  | [] => Some p
  | Fwd :: r => if p <? N then walk_pos N r (S p) else None
  | Back :: r => match p with O => None | S q => walk_pos N r q end
  end.

Fixpoint fwd_count (w : list move) : nat :=
  match w with
  | [] => 0
  | Fwd :: r => S (fwd_count r)
  | Back :: r => fwd_count r
  end.

Lemma walk_pos_le N w : forall p q, p <= N -> walk_pos N w p = Some q -> q <= N.
Proof.
  induction w as [|[] r IH]; intros p q Hp H; cbn [walk_pos] in H.
  - injection H as <-. auto.
  - destruct (p <? N) eqn:E; [|discriminate]. apply Nat.ltb_lt in E. eapply IH; [|eauto]. lia.
  - destruct p; [discriminate|]. eapply IH; [|eauto]. lia.
Qed.

Lemma walk_app nf a : forall b s,
  walk nf (a ++ b) s = match walk nf a s with Some t => walk nf b t | None => None end.
Proof.
  induction a as [|[] r IH]; intros b s; cbn [walk app]; auto.
  - destruct (fetch_and_run nf s); auto.
  - destruct (rnext s); auto.
Qed.

Lemma walk_backs nf k : forall s, walk nf (repeat Back k) s = rnexts k s.
Proof.
  induction k; intro s; cbn [repeat walk rnexts]; auto. destruct (rnext s); auto.
Qed.

Lemma walk_fwds nf m : forall s, walk nf (repeat Fwd m) s = steps nf m s.
Proof.
  induction m; intro s; cbn [repeat walk steps]; auto. destruct (fetch_and_run nf s); auto.
Qed.

Lemma meter_ok_le j j' s : meter_ok j s -> (j' <= j)%Z -> meter_ok j' s.
Proof. unfold meter_ok. destruct (insn_limit s); auto. intros. lia. Qed.

Lemma meter_ok_transfer j j' s s' :
  meter_ok j s -> insn_limit s' = insn_limit s -> (meter s' + j' <= meter s + j)%Z -> meter_ok j' s'.
Proof. unfold meter_ok. intros H ->. destruct (insn_limit s); auto. intros. lia. Qed.

Definition resolve_free (s : state) : Prop :=
  forall i name, nth_error (code s) i <> Some (OResolve name).

Definition is_resolve (op : opcode) : bool := match op with OResolve _ => true | _ => false end.
Definition resolve_freeb (s : state) : bool := forallb (fun op => negb (is_resolve op)) (code s).

Lemma resolve_freeb_ok s : resolve_freeb s = true -> resolve_free s.
Proof.
  unfold resolve_freeb, resolve_free. intros H i name Hi.
  rewrite forallb_forall in H. specialize (H _ (nth_error_In _ _ Hi)). discriminate.
Qed.

Section Replay.
  Variable fo : fops.
  Local Notation nf := (native_fn fo).

  (* a successful step increments the meter once, or twice when it patches a Resolve *)
  Lemma step_meter : forall s s',
    fetch_and_run nf s = ROk tt s' ->
    (meter s < meter s' <= meter s + 2)%Z /\ insn_limit s' = insn_limit s /\
    mlim s (meter s) = false /\
    (forall name, nth_error (code s) (ip s) = Some (OResolve name) -> mlim s (meter s + 1)%Z = false).
  Proof.
    intros s s' H. pose proof (far_lim nf (native_wl fo) s) as L. rewrite H in L.
    destruct L as [(L1 & _) M]. pose proof (ticks_range s).
    split; [lia|]. split; [exact L1|].
    destruct (far_cases nf s) as [E0|E0 E1|op E0 E1 N|name E0 E1 E2|name e E0 E1 E2]; try discriminate H;
      (split; [exact E0|]); intros name' E1'; try congruence.
    destruct (mlim s (meter s + 1)%Z) eqn:E3; [|reflexivity].
    rewrite (far_limit nf (patched s e) E3) in H. discriminate H.
  Qed.

  Lemma step_meter_nr : forall s s',
    not_resolve s -> fetch_and_run nf s = ROk tt s' ->
    meter s' = (meter s + 1)%Z /\ insn_limit s' = insn_limit s /\ code s' = code s.
  Proof.
    intros s s' Hn H. pose proof (far_lim nf (native_wl fo) s) as L. rewrite H in L.
    destruct L as [(L1 & _ & _ & _ & _ & _ & _ & C) M]. apply not_resolve_at in Hn.
    unfold ticks in M. rewrite Hn in M. auto.
  Qed.

  (* a program without Resolve instructions: the code never changes, so no step executes one *)
  Lemma resolve_free_steps n : forall s sn,
    resolve_free s -> steps nf n s = Some sn -> not_resolve sn.
  Proof.
    intros s sn Hf H. revert Hf. revert n s sn H.
    apply (steps_ind nf (fun _ s sn => resolve_free s -> not_resolve sn)).
    - intros s Hf name. apply Hf.
    - intros n s s1 sn E _ IH Hf. apply IH. unfold resolve_free.
      destruct (step_meter_nr s s1 (fun name => Hf (ip s) name) E) as (_ & _ & ->). exact Hf.
  Qed.

  Lemma steps_insn_limit n : forall s sn, steps nf n s = Some sn -> insn_limit sn = insn_limit s.
  Proof.
    revert n. apply (steps_ind nf (fun _ s sn => insn_limit sn = insn_limit s)); [reflexivity|].
    intros n s s1 sn E _ IH. destruct (step_meter s s1 E) as (_ & B2 & _). congruence.
  Qed.

  (* every step uses up at most two of the increments the limit still allows *)
  Lemma steps_meter_ok n j : forall s sn,
    steps nf n s = Some sn -> meter_ok (2 * Z.of_nat n + j) s -> meter_ok j sn.
  Proof.
    revert n. apply (steps_ind nf (fun n s sn => meter_ok (2 * Z.of_nat n + j) s -> meter_ok j sn)).
    - intros s H. eapply meter_ok_le; [exact H|lia].
    - intros n s s1 sn E _ IH H. destruct (step_meter s s1 E) as (B1 & B2 & _).
      apply IH. eapply meter_ok_transfer; [exact H|exact B2|lia].
  Qed.

  (* a successful step is reproduced from any related state with room under the limit *)
  Lemma step_transfer : forall a b a',
    eq_rev a b -> fetch_and_run nf a = ROk tt a' ->
    (meter_ok 2 b \/ (not_resolve a /\ meter_ok 1 b)) ->
    exists b', fetch_and_run nf b = ROk tt b' /\ eq_rev a' b'.
  Proof.
    intros a b a' E H Hm.
    destruct (step_meter a a' H) as (_ & _ & A0 & A1).
    assert (R : res_rel (fetch_and_run nf a) (fetch_and_run nf b)).
    { apply far_rel_gen; auto; [apply native_rel| |].
      - rewrite A0. symmetry. destruct Hm as [Hm | [_ Hm]].
        + pose proof (meter_ok_mlim 2 0 b Hm ltac:(lia)) as L. rewrite Z.add_0_r in L. exact L.
        + pose proof (meter_ok_mlim 1 0 b Hm ltac:(lia)) as L. rewrite Z.add_0_r in L. exact L.
      - intros name Hname. rewrite (A1 name Hname). symmetry. destruct Hm as [Hm | [Hn _]].
        + apply (meter_ok_mlim 2 1 b Hm). lia.
        + exfalso. eapply Hn; eauto. }
    rewrite H in R. apply res_rel_iff in R. unfold res_rel_cases in R.
    destruct (fetch_and_run nf b) as [[] b'| | |]; try contradiction.
    exists b'. destruct R. auto.
  Qed.

  Theorem replay_steps : forall m a b a',
    eq_rev a b -> meter_ok (2 * Z.of_nat m) b ->
    steps nf m a = Some a' ->
    exists b', steps nf m b = Some b' /\ eq_rev a' b'.
  Proof.
    induction m; intros a b a' E Hm H; cbn [steps] in *.
    - injection H as <-. eauto.
    - destruct (fetch_and_run nf a) as [[] a1| | |] eqn:Ea; try discriminate.
      destruct (step_transfer a b a1 E Ea) as (b1 & Eb & E1).
      { left. eapply meter_ok_le; eauto. lia. }
      rewrite Eb.
      destruct (step_meter b b1 Eb) as (B1 & B2 & _).
      apply (IHm a1 b1 a' E1); auto.
      eapply meter_ok_transfer; eauto. lia.
  Qed.

  (* when no Resolve is executed every step costs exactly one increment *)
  Lemma replay_steps_nr_meter : forall m a b a',
    eq_rev a b -> meter_ok (Z.of_nat m) b ->
    (forall i ai, i < m -> steps nf i a = Some ai -> not_resolve ai) ->
    steps nf m a = Some a' ->
    exists b', steps nf m b = Some b' /\ eq_rev a' b' /\
               meter b' = (meter b + Z.of_nat m)%Z /\ insn_limit b' = insn_limit b.
  Proof.
    induction m; intros a b a' E Hm Hn H; cbn [steps] in *.
    - injection H as <-. exists b. repeat split; auto. lia.
    - destruct (fetch_and_run nf a) as [[] a1| | |] eqn:Ea; try discriminate.
      assert (Hna : not_resolve a) by (apply (Hn 0); [lia | reflexivity]).
      destruct (step_transfer a b a1 E Ea) as (b1 & Eb & E1).
      { right. split; auto. eapply meter_ok_le; eauto. lia. }
      rewrite Eb.
      destruct (step_meter_nr b b1 (eq_rev_not_resolve _ _ E Hna) Eb) as (B1 & B2 & _).
      destruct (IHm a1 b1 a' E1) as (b' & S1 & S2 & S3 & S4); auto.
      + eapply meter_ok_transfer; eauto. lia.
      + intros i ai Hi Hs. apply (Hn (S i)); [lia|]. cbn [steps]. rewrite Ea. exact Hs.
      + exists b'. repeat split; auto; [lia | congruence].
  Qed.

  Theorem replay_steps_nr : forall m a b a',
    eq_rev a b -> meter_ok (Z.of_nat m) b ->
    (forall i ai, i < m -> steps nf i a = Some ai -> not_resolve ai) ->
    steps nf m a = Some a' ->
    exists b', steps nf m b = Some b' /\ eq_rev a' b'.
  Proof.
    intros m a b a' E Hm Hn H. destruct (replay_steps_nr_meter m a b a' E Hm Hn H) as (b' & A & B & _). eauto.
  Qed.

  Theorem replay_steps_nolimit : forall m a b a',
    eq_rev a b -> insn_limit a = None ->
    steps nf m a = Some a' ->
    exists b', steps nf m b = Some b' /\ eq_rev a' b'.
  Proof.
    intros m a b a' E L H. eapply replay_steps; eauto.
    apply meter_ok_nolimit. rewrite <- (f_equal insn_limit E : insn_limit a = insn_limit b). exact L.
  Qed.

  (* the same when the run ends in a failing (or unsupported / panicking) step *)
  Theorem replay_steps_final : forall m a b a',
    eq_rev a b -> meter_ok (2 * Z.of_nat m + 2) b ->
    steps nf m a = Some a' -> meter_ok 2 a' ->
    exists b', steps nf m b = Some b' /\ eq_rev a' b' /\
               res_rel_cases (fetch_and_run nf a') (fetch_and_run nf b').
  Proof.
    intros m a b a' E Hm H Ha.
    destruct (replay_steps m a b a' E) as (b' & Hb & E'); auto.
    { eapply meter_ok_le; eauto. lia. }
    exists b'. split; auto. split; auto.
    apply step_congruence; auto. exact (steps_meter_ok m 2 b b' Hb Hm).
  Qed.

  Theorem replay_steps_final_nolimit : forall m a b a',
    eq_rev a b -> insn_limit a = None ->
    steps nf m a = Some a' ->
    exists b', steps nf m b = Some b' /\ eq_rev a' b' /\
               res_rel_cases (fetch_and_run nf a') (fetch_and_run nf b').
  Proof.
    intros m a b a' E L H.
    destruct (replay_steps_nolimit m a b a' E L H) as (b' & Hb & E').
    exists b'. split; auto. split; auto.
    apply step_congruence_nolimit; auto. rewrite (steps_insn_limit m a a' H). exact L.
  Qed.

  (* one backward step gives EXACTLY the earlier state, except that the meter and the captured
     output keep their later values *)
  Theorem rnext_undoes_step_exact : forall s s',
    recording s = true -> log_ok s -> wf_marks s -> not_resolve s ->
    fetch_and_run nf s = ROk tt s' ->
    rnext s' = ROk tt (set_out (set_meter s (meter s')) (out s')).
  Proof.
    intros s s' Hr Hl Hw Hn H.
    destruct (rnext_undoes_step fo s s' Hr Hl Hw Hn H) as (s'' & Hx & He).
    rewrite Hx. f_equal.
    destruct (rnext_meter_out _ _ _ Hx) as [<- <-].
    apply eq_rev_sym in He. apply (eq_rev_mo s s'' He).
  Qed.

  (* the invariants hold again after a backward step *)
  Theorem rnext_invariants : forall s s' s'',
    recording s = true -> log_ok s -> wf_marks s -> not_resolve s ->
    fetch_and_run nf s = ROk tt s' -> rnext s' = ROk tt s'' ->
    recording s'' = true /\ log_ok s'' /\ wf_marks s'' /\ not_resolve s''.
  Proof.
    intros s s' s'' Hr Hl Hw Hn H Hx.
    destruct (rnext_undoes_step fo s s' Hr Hl Hw Hn H) as (t & Hx' & He).
    rewrite Hx in Hx'. injection Hx' as <-. apply eq_rev_sym in He.
    destruct (eq_rev_invariants _ _ He (conj Hr (conj Hl Hw))) as (A & B & C).
    split; [exact A|]. split; [exact B|]. split; [exact C|]. eapply eq_rev_not_resolve; eauto.
  Qed.

  Section Walk.
    Variables (N : nat) (s sN : state).
    Hypothesis Hr : recording s = true.
    Hypothesis Hl : log_ok s.
    Hypothesis Hw : wf_marks s.
    Hypothesis Hnr : forall i si, i < N -> steps nf i s = Some si -> not_resolve si.
    Hypothesis HN : steps nf N s = Some sN.

    Lemma walk_tracks : forall w p q sp cur,
      p <= N -> steps nf p s = Some sp -> eq_rev cur sp ->
      meter_ok (Z.of_nat (fwd_count w)) cur ->
      walk_pos N w p = Some q ->
      exists cur' sq, walk nf w cur = Some cur' /\ steps nf q s = Some sq /\ eq_rev cur' sq /\
                      recording cur' = true /\ log_ok cur' /\ wf_marks cur'.
    Proof.
      induction w as [|[] r IH]; intros p q sp cur Hp Hsp E Hm Hq; cbn [walk walk_pos fwd_count] in *.
      - injection Hq as <-. exists cur, sp.
        split; [reflexivity|]. split; [exact Hsp|]. split; [exact E|].
        exact (eq_rev_invariants _ _ (eq_rev_sym _ _ E) (steps_invariants fo p s sp Hr Hl Hw Hsp)).
      - destruct (p <? N) eqn:Ep; [|discriminate]. apply Nat.ltb_lt in Ep.
        destruct (steps_le nf N (S p) s sN HN ltac:(lia)) as (sp1 & Hsp1).
        destruct (steps_snoc nf p s sp1 Hsp1) as (sp' & Hsp' & Hf).
        rewrite Hsp in Hsp'. injection Hsp' as <-.
        assert (Hn : not_resolve sp) by (eapply Hnr; eauto).
        apply eq_rev_sym in E.
        destruct (step_transfer sp cur sp1 E Hf) as (cur1 & Hc & E1).
        { right. split; auto. eapply meter_ok_le; eauto. lia. }
        rewrite Hc.
        destruct (step_meter_nr cur cur1 (eq_rev_not_resolve _ _ E Hn) Hc) as (B1 & B2 & _).
        apply (IH (S p) q sp1 cur1); auto using eq_rev_sym.
        eapply meter_ok_transfer; eauto. lia.
      - destruct p as [|p']; [discriminate|].
        destruct (steps_snoc nf p' s sp Hsp) as (sq & Hsq & Hf).
        destruct (steps_invariants fo p' s sq Hr Hl Hw Hsq) as (Ir & Il & Iw).
        assert (Hn : not_resolve sq) by (eapply (Hnr p'); eauto; lia).
        destruct (rnext_undoes_step fo sq sp Ir Il Iw Hn Hf) as (t & Hx & He).
        apply eq_rev_sym in E.
        destruct (rnext_eq_rev sp cur t E Hx) as (cur1 & Hc & E1).
        rewrite Hc.
        assert (E2 : eq_rev cur1 sq).
        { eapply eq_rev_trans; [apply eq_rev_sym; exact E1 | exact He]. }
        apply (IH p' q sq cur1); auto; try lia.
        destruct (rnext_meter_out _ _ _ Hc) as [M1 _].
        destruct (step_meter sq sp Hf) as (_ & L1 & _).
        eapply meter_ok_transfer; [exact Hm | | lia].
        rewrite (f_equal insn_limit E2 : insn_limit cur1 = insn_limit sq).
        rewrite <- (f_equal insn_limit E : insn_limit sp = insn_limit cur). congruence.
    Qed.
  End Walk.

  (* the walk starts from the state reached after n forward steps of the original run *)
  Theorem walk_round_trip : forall N n s sN sn w q,
    recording s = true -> log_ok s -> wf_marks s ->
    (forall i si, i < N -> steps nf i s = Some si -> not_resolve si) ->
    steps nf N s = Some sN -> n <= N -> steps nf n s = Some sn ->
    meter_ok (Z.of_nat (fwd_count w)) sn ->
    walk_pos N w n = Some q ->
    exists cur sq, walk nf w sn = Some cur /\ steps nf q s = Some sq /\ eq_rev cur sq /\
                   recording cur = true /\ log_ok cur /\ wf_marks cur.
  Proof.
    intros N n s sN sn w q Hr Hl Hw Hnr HN Hn Hsn Hm Hq.
    eapply (walk_tracks N s sN Hr Hl Hw Hnr HN w n q sn sn); auto using eq_rev_refl.
  Qed.

  Lemma fwd_count_app a b : fwd_count (a ++ b) = fwd_count a + fwd_count b.
  Proof. induction a as [|[] r IH]; cbn [fwd_count app]; auto. rewrite IH. reflexivity. Qed.
  Lemma fwd_count_backs k : fwd_count (repeat Back k) = 0.
  Proof. induction k; cbn; auto. Qed.
  Lemma fwd_count_fwds m : fwd_count (repeat Fwd m) = m.
  Proof. induction m; cbn; auto. Qed.

  Lemma walk_pos_app N a : forall b p,
    walk_pos N (a ++ b) p = match walk_pos N a p with Some q => walk_pos N b q | None => None end.
  Proof.
    induction a as [|[] r IH]; intros b p; cbn [walk_pos app]; auto.
    - destruct (p <? N); auto.
    - destruct p; auto.
  Qed.
  Lemma walk_pos_backs N k : forall p, k <= p -> walk_pos N (repeat Back k) p = Some (p - k).
  Proof.
    induction k; intros p Hp; cbn [repeat walk_pos].
    - f_equal. lia.
    - destruct p; [lia|]. rewrite IHk by lia. reflexivity.
  Qed.
  Lemma walk_pos_fwds N m : forall p, p + m <= N -> walk_pos N (repeat Fwd m) p = Some (p + m).
  Proof.
    induction m; intros p Hp; cbn [repeat walk_pos].
    - f_equal. lia.
    - rewrite (proj2 (Nat.ltb_lt p N)) by lia. rewrite IHm by lia. f_equal. lia.
  Qed.

  (* n forward, k backward, m forward again *)
  Theorem round_trip : forall n k m s sn,
    recording s = true -> log_ok s -> wf_marks s ->
    (forall i si, i < n -> steps nf i s = Some si -> not_resolve si) ->
    steps nf n s = Some sn -> k <= n -> m <= k ->
    meter_ok (Z.of_nat m) sn ->
    exists s1 s2 t, rnexts k sn = Some s1 /\ steps nf m s1 = Some s2 /\
                    steps nf (n - k + m) s = Some t /\ eq_rev s2 t.
  Proof.
    intros n k m s sn Hr Hl Hw Hnr Hsn Hk Hm Hmo.
    destruct (walk_round_trip n n s sn sn (repeat Back k ++ repeat Fwd m) (n - k + m)
                Hr Hl Hw Hnr Hsn (le_n _) Hsn) as (cur & sq & W & Hs & E & _).
    { rewrite fwd_count_app, fwd_count_backs, fwd_count_fwds. exact Hmo. }
    { rewrite walk_pos_app, walk_pos_backs by lia. apply walk_pos_fwds. lia. }
    rewrite walk_app, walk_backs in W.
    destruct (rnexts k sn) as [s1|] eqn:E1; [|discriminate].
    rewrite walk_fwds in W.
    exists s1, cur, sq. auto.
  Qed.

  (* the same for a program without Resolve instructions and without an instruction limit *)
  Theorem walk_round_trip_plain : forall N n s sN sn w q,
    recording s = true -> log_ok s -> wf_marks s -> resolve_freeb s = true -> insn_limit s = None ->
    steps nf N s = Some sN -> n <= N -> steps nf n s = Some sn ->
    walk_pos N w n = Some q ->
    exists cur sq, walk nf w sn = Some cur /\ steps nf q s = Some sq /\ eq_rev cur sq /\
                   recording cur = true /\ log_ok cur /\ wf_marks cur.
  Proof.
    intros N n s sN sn w q Hr Hl Hw Hf HL HN Hn Hsn Hq.
    apply (walk_round_trip N n s sN sn w q Hr Hl Hw); auto.
    - intros i si _ Hs. eapply resolve_free_steps; eauto. apply resolve_freeb_ok; auto.
    - apply meter_ok_nolimit. rewrite (steps_insn_limit n s sn Hsn). exact HL.
  Qed.

  Theorem round_trip_plain : forall n k m s sn,
    recording s = true -> log_ok s -> wf_marks s -> resolve_freeb s = true -> insn_limit s = None ->
    steps nf n s = Some sn -> k <= n -> m <= k ->
    exists s1 s2 t, rnexts k sn = Some s1 /\ steps nf m s1 = Some s2 /\
                    steps nf (n - k + m) s = Some t /\ eq_rev s2 t.
  Proof.
    intros n k m s sn Hr Hl Hw Hf HL Hsn Hk Hm.
    apply (round_trip n k m s sn Hr Hl Hw); auto.
    - intros i si _ Hs. eapply resolve_free_steps; eauto. apply resolve_freeb_ok; auto.
    - apply meter_ok_nolimit. rewrite (steps_insn_limit n s sn Hsn). exact HL.
  Qed.
End Replay.

(* Four Nops under an instruction limit of 5: four forward steps succeed, two backward steps
   succeed, but the meter is not rewound (it stays at 4), so the second replayed step is
   refused with ELimit although the original run executed it. *)
Definition rt_s : state :=
  mkstate [] [] [ONop; ONop; ONop; ONop] [] [] [] [] [] [] [] [] (mkctx 0 0 0 0 0 0 0 0 MEval) []
          0%Z (Some 5%Z) None None (Some []) EmptyString None false.

Theorem round_trip_needs_meter :
  exists s4 s2 s3,
    recording rt_s = true /\ log_ok rt_s /\ wf_marks rt_s /\
    (forall i si, i < 4 -> steps (native_fn cex_fo) i rt_s = Some si -> not_resolve si) /\
    steps (native_fn cex_fo) 4 rt_s = Some s4 /\
    rnexts 2 s4 = Some s2 /\
    fetch_and_run (native_fn cex_fo) s2 = ROk tt s3 /\
    fetch_and_run (native_fn cex_fo) s3 = RErr ELimit None s3 /\
    meter s2 = 4%Z.
Proof.
  do 3 eexists.
  split; [reflexivity|]. split; [exact I|]. split; [unfold wf_marks; cbn; lia|].
  split.
  { intros i si Hi Hs name.
    assert (Hc : code si = [ONop; ONop; ONop; ONop]).
    { destruct i as [|[|[|[|i]]]]; try lia; vm_compute in Hs; injection Hs as <-; reflexivity. }
    rewrite Hc. intro Hx.
    destruct (ip si) as [|[|[|[|j]]]]; cbn in Hx; try discriminate. destruct j; discriminate. }
  split; [vm_compute; reflexivity|].
  split; [vm_compute; reflexivity|].
  split; [vm_compute; reflexivity|].
  split; [vm_compute; reflexivity|].
  reflexivity.
Qed.

(* so the round trip WITHOUT the hypothesis on the meter is false *)
Theorem round_trip_unmetered_refuted :
  ~ (forall fo n k m s sn,
       recording s = true -> log_ok s -> wf_marks s ->
       (forall i si, i < n -> steps (native_fn fo) i s = Some si -> not_resolve si) ->
       steps (native_fn fo) n s = Some sn -> k <= n -> m <= k ->
       exists s1 s2 t, rnexts k sn = Some s1 /\ steps (native_fn fo) m s1 = Some s2 /\
                       steps (native_fn fo) (n - k + m) s = Some t /\ eq_rev s2 t).
Proof.
  intro H.
  destruct round_trip_needs_meter as (s4 & s2 & s3 & Hr & Hl & Hw & Hn & H4 & Hb & F1 & F2 & _).
  destruct (H cex_fo 4 2 2 rt_s s4 Hr Hl Hw Hn H4 ltac:(lia) ltac:(lia)) as (s1 & s2' & t & A & B & _).
  rewrite Hb in A. injection A as <-. cbn [steps] in B. rewrite F1, F2 in B. discriminate.
Qed.

Print Assumptions round_trip_unmetered_refuted.
Print Assumptions replay_steps.
Print Assumptions replay_steps_nr.
Print Assumptions replay_steps_final.
Print Assumptions replay_steps_final_nolimit.
Print Assumptions rnext_undoes_step_exact.
Print Assumptions rnext_invariants.
Print Assumptions walk_round_trip.
Print Assumptions round_trip.
Print Assumptions round_trip_needs_meter.
Print Assumptions walk_round_trip_plain.
Print Assumptions round_trip_plain.
