(* BaseNProofs.v: the text encodings of Model/BaseN.v round-trip for every byte
   string of every length, and text outside the alphabet decodes to None (C18). *)
From Xeh Require Import Model.Prelude Model.BaseN Proofs.BaseNKernel.
From Coq Require Import ZifyBool ZifyNat ZifyN.
Local Ltac Zify.zify_post_hook ::= Z.div_mod_to_equations.
Local Open Scope N_scope.

Definition bytes_lt (d : list N) : Prop := Forall (fun x => x < 256) d.

Lemma split_groups {A} (k : nat) : (0 < k)%nat -> forall d : list A,
  exists gs rest, d = concat gs ++ rest /\ Forall (fun g => length g = k) gs /\ (length rest < k)%nat.
Proof.
  intros Hk d. remember (length d) as n eqn:En. revert d En.
  induction n as [n IH] using lt_wf_ind. intros d En.
  destruct (Nat.lt_ge_cases (length d) k) as [L|L].
  - exists [], d. repeat split; [constructor | assumption].
  - destruct (IH (length (skipn k d))) with (d := skipn k d) as (gs & rest & E & F & R).
    + rewrite skipn_length. lia.
    + reflexivity.
    + exists (firstn k d :: gs), rest. repeat split.
      * cbn [concat]. rewrite <- app_assoc, <- E. symmetry. apply firstn_skipn.
      * constructor; [|assumption]. rewrite firstn_length. lia.
      * assumption.
Qed.

Lemma Forall_concat {A} (P : A -> Prop) gs : Forall P (concat gs) -> Forall (Forall P) gs.
Proof.
  induction gs as [|g gs IH]; cbn [concat]; intros H; constructor.
  - apply Forall_app in H. apply H.
  - apply IH. apply Forall_app in H. apply H.
Qed.

Definition group (k : nat) (g : list N) : Prop := length g = k /\ bytes_lt g.

Lemma split_bytes k d : (0 < k)%nat -> bytes_lt d ->
  exists gs t, d = concat gs ++ t /\ Forall (group k) gs /\ (length t < k)%nat /\ bytes_lt t.
Proof.
  intros Hk Hd. destruct (split_groups k Hk d) as (gs & t & -> & HF & Ht).
  apply Forall_app in Hd. destruct Hd as [Hgs Hbt]. apply Forall_concat in Hgs.
  exists gs, t. repeat split; try assumption. apply Forall_and; assumption.
Qed.

Lemma group_lengths k gs : Forall (group k) gs -> Forall (fun g => length g = k) gs.
Proof. apply Forall_impl. intros g H. apply H. Qed.

Lemma length_concat_groups {A} k (gs : list (list A)) :
  Forall (fun g => length g = k) gs -> length (concat gs) = (k * length gs)%nat.
Proof.
  induction 1 as [|g gs Hg _ IH]; cbn [concat length]; [lia|].
  rewrite app_length, IH, Hg. lia.
Qed.

Lemma groups_fuel {A} k (gs : list (list A)) t :
  (0 < k)%nat -> Forall (fun g => length g = k) gs -> (length gs <= length (concat gs ++ t))%nat.
Proof. intros Hk HF. rewrite app_length, (length_concat_groups k) by assumption. nia. Qed.

(* A fuel-driven loop [F] that consumes one encoded group [e g] per round and combines what it
   makes of it with the rest by [op] does so for any number of groups, given one unit of fuel
   for each.  Every chunk loop of the six coders below is an instance. *)
Lemma groups_unroll {A C R} (P : C -> Prop) (F : nat -> list A -> R) (e : C -> list A) (op : C -> R -> R) :
  (forall f g r, P g -> F (S f) (e g ++ r) = op g (F f r)) ->
  forall gs t fuel, Forall P gs -> (length gs <= fuel)%nat ->
  F fuel (flat_map e gs ++ t) = fold_right op (F (fuel - length gs)%nat t) gs.
Proof.
  intros step gs t. induction gs as [|g gs IH]; intros fuel HP Hfuel.
  - cbn [flat_map app length fold_right]. rewrite Nat.sub_0_r. reflexivity.
  - inversion HP as [|? ? Hg HP']; subst. cbn [length] in Hfuel.
    destruct fuel as [|fuel]; [lia|].
    cbn [flat_map fold_right length Nat.sub]. rewrite <- app_assoc, step by assumption.
    rewrite IH by (assumption || lia). reflexivity.
Qed.

Lemma fold_right_app_flat {C B} (h : C -> list B) x gs :
  fold_right (fun g acc => h g ++ acc) x gs = flat_map h gs ++ x.
Proof.
  induction gs as [|g gs IH]; [reflexivity|]. cbn [fold_right flat_map]. rewrite IH. apply app_assoc.
Qed.

Lemma flat_map_id {A} (gs : list (list A)) : flat_map (fun g => g) gs = concat gs.
Proof. induction gs as [|g gs IH]; [reflexivity|]. cbn [flat_map concat]. rewrite IH. reflexivity. Qed.

(* the two list-valued cases: an encoder reads the groups themselves, a decoder their encodings *)
Lemma enc_unroll {A B} (P : list A -> Prop) (F : nat -> list A -> list B) (h : list A -> list B) :
  (forall f g r, P g -> F (S f) (g ++ r) = h g ++ F f r) ->
  forall gs t fuel, Forall P gs -> (length gs <= fuel)%nat ->
  F fuel (concat gs ++ t) = flat_map h gs ++ F (fuel - length gs)%nat t.
Proof.
  intros step gs t fuel HP Hfuel. rewrite <- flat_map_id.
  rewrite (groups_unroll P F (fun g => g) (fun g acc => h g ++ acc)) by assumption.
  apply fold_right_app_flat.
Qed.

Lemma dec_unroll {A B} (P : list B -> Prop) (F : nat -> list A -> list B) (e : list B -> list A) :
  (forall f g r, P g -> F (S f) (e g ++ r) = g ++ F f r) ->
  forall gs t fuel, Forall P gs -> (length gs <= fuel)%nat ->
  F fuel (flat_map e gs ++ t) = concat gs ++ F (fuel - length gs)%nat t.
Proof.
  intros step gs t fuel HP Hfuel.
  rewrite (groups_unroll P F e (fun g acc => g ++ acc)) by assumption.
  rewrite fold_right_app_flat, flat_map_id. reflexivity.
Qed.

Lemma flat_map_length_const {A B} (h : A -> list B) k l :
  (forall x, length (h x) = k) -> length (flat_map h l) = (k * length l)%nat.
Proof.
  intros H. induction l as [|x l IH]; [cbn; lia|]. cbn [flat_map length].
  rewrite app_length, IH, H. lia.
Qed.

Lemma Forall_flat_map {A B} (P : A -> Prop) (Q : B -> Prop) (h : A -> list B) l :
  (forall x, P x -> Forall Q (h x)) -> Forall P l -> Forall Q (flat_map h l).
Proof.
  intros H. induction 1 as [|x l Hx _ IH]; cbn [flat_map]; [constructor|].
  apply Forall_app. split; [apply H; assumption|assumption].
Qed.

Lemma map_flat_map {A B C} (f : B -> C) (h : A -> list B) l :
  flat_map (fun x => map f (h x)) l = map f (flat_map h l).
Proof. induction l as [|x l IH]; [reflexivity|]. cbn [flat_map]. rewrite map_app, IH. reflexivity. Qed.

Lemma nth_bytes_lt g i : bytes_lt g -> nth i g 0 < 256.
Proof.
  intros H. destruct (Nat.lt_ge_cases i (length g)) as [L|L].
  - unfold bytes_lt in H. rewrite Forall_forall in H. apply H. apply nth_In. assumption.
  - rewrite nth_overflow by assumption. lia.
Qed.

Lemma map_opt_app {A B} (f : A -> option B) l1 l2 v1 v2 :
  map_opt f l1 = Some v1 -> map_opt f l2 = Some v2 -> map_opt f (l1 ++ l2) = Some (v1 ++ v2).
Proof.
  revert v1. induction l1 as [|x l1 IH]; intros v1 H1 H2; cbn [map_opt app] in *.
  - injection H1 as <-. assumption.
  - destruct (f x) as [y|]; [|discriminate].
    destruct (map_opt f l1) as [ys|] eqn:E; [|discriminate].
    injection H1 as <-. rewrite (IH ys eq_refl H2). reflexivity.
Qed.

Lemma map_opt_map {A B} (f : A -> option B) (g : B -> A) (P : B -> Prop) l :
  (forall v, P v -> f (g v) = Some v) -> Forall P l -> map_opt f (map g l) = Some l.
Proof.
  intros Hf. induction 1 as [|v l Hv _ IH]; cbn [map map_opt]; [reflexivity|].
  rewrite (Hf v Hv), IH. reflexivity.
Qed.

Lemma map_opt_none {A B} (f : A -> option B) l c : In c l -> f c = None -> map_opt f l = None.
Proof.
  induction l as [|x l IH]; intros Hin Hc; [contradiction|]. cbn [map_opt].
  destruct Hin as [->|Hin].
  - rewrite Hc. reflexivity.
  - rewrite (IH Hin Hc). destruct (f x); reflexivity.
Qed.

Lemma map_opt_length {A B} (f : A -> option B) l v : map_opt f l = Some v -> length v = length l.
Proof.
  revert v. induction l as [|x l IH]; intros v H; cbn [map_opt] in H.
  - injection H as <-. reflexivity.
  - destruct (f x); [|discriminate]. destruct (map_opt f l) eqn:E; [|discriminate].
    injection H as <-. cbn [length]. f_equal. apply IH. reflexivity.
Qed.

Lemma count_trailing_eq_spec : forall p k l,
  (p <= k)%nat -> (k = p \/ match l with [] => True | c :: _ => c <> 61 end) ->
  count_trailing_eq k (repeat 61 p ++ l) = p.
Proof.
  induction p as [|p IH]; intros k l Hk Hl.
  - cbn [repeat app]. destruct k as [|k]; [reflexivity|]. cbn [count_trailing_eq].
    destruct l as [|c r]; [reflexivity|].
    destruct Hl as [Hl|Hl]; [discriminate|].
    destruct (N.eqb_spec c 61); [contradiction|reflexivity].
  - destruct k as [|k]; [lia|]. cbn [repeat app count_trailing_eq].
    change (61 =? 61) with true. cbv iota. f_equal. apply IH; [lia|].
    destruct Hl as [Hl|Hl]; [left; lia|right; assumption].
Qed.

Lemma rev_repeat {A} (x : A) n : rev (repeat x n) = repeat x n.
Proof.
  induction n as [|n IH]; [reflexivity|]. cbn [repeat rev]. rewrite IH.
  clear IH. induction n as [|n IH]; [reflexivity|]. cbn [repeat app]. rewrite IH. reflexivity.
Qed.

(* text free of '=' followed by [p] of them, seen by a decoder that looks at the last [k]
   characters: it counts the [p] and what is left in front of them is the text *)
Lemma trailing_pad txt p k : ~ In 61 txt -> (p <= k)%nat ->
  count_trailing_eq (Nat.min k (length (txt ++ repeat 61 p))) (rev (txt ++ repeat 61 p)) = p /\
  firstn (length (txt ++ repeat 61 p) - p) (txt ++ repeat 61 p) = txt.
Proof.
  intros Hne Hp. rewrite app_length, repeat_length. split.
  - rewrite rev_app_distr, rev_repeat. apply count_trailing_eq_spec; [lia|]. right.
    destruct (rev txt) as [|c r] eqn:Er; [trivial|].
    intros ->. apply Hne, in_rev. rewrite Er. left. reflexivity.
  - replace (length txt + p - p)%nat with (length txt + 0)%nat by lia.
    rewrite firstn_app_2. cbn [firstn]. apply app_nil_r.
Qed.

Definition b64_grp (g : list N) : list N := b64_idx3 (nth 0 g 0) (nth 1 g 0) (nth 2 g 0).
Definition b64_tail_vals (t : list N) : list N :=
  match t with [b0; b1] => b64_idx2 b0 b1 | [b0] => b64_idx1 b0 | _ => [] end.
Definition b64_tail_pad (t : list N) : nat :=
  match t with [_; _] => 1%nat | [_] => 2%nat | _ => 0%nat end.
Definition b64_vals (gs : list (list N)) (t : list N) : list N := flat_map b64_grp gs ++ b64_tail_vals t.

Lemma b64_enc_step f g r : length g = 3%nat ->
  b64_enc_chunks (S f) (g ++ r) = map (nthN b64_alphabet) (b64_grp g) ++ b64_enc_chunks f r.
Proof. intros Hg. destruct g as [|b0 [|b1 [|b2 [|? ?]]]]; try discriminate. reflexivity. Qed.

Lemma b64_enc_tail t f : (length t < 3)%nat ->
  b64_enc_chunks (S f) t = map (nthN b64_alphabet) (b64_tail_vals t) ++ repeat 61 (b64_tail_pad t).
Proof. intros Ht. destruct t as [|b0 [|b1 [|b2 ?]]]; cbn [length] in Ht; try lia; reflexivity. Qed.

Lemma b64_encode_groups gs t :
  Forall (fun g => length g = 3%nat) gs -> (length t < 3)%nat ->
  b64_encode (concat gs ++ t)
  = map (nthN b64_alphabet) (b64_vals gs t) ++ repeat 61 (b64_tail_pad t).
Proof.
  intros HF Ht. pose proof (groups_fuel 3 gs t ltac:(lia) HF) as Hfuel.
  unfold b64_encode, b64_vals.
  rewrite (enc_unroll _ _ _ b64_enc_step) by (assumption || lia).
  rewrite Nat.sub_succ_l, b64_enc_tail by assumption.
  rewrite map_flat_map, map_app, <- app_assoc. reflexivity.
Qed.

Lemma b64_grp_lt g : group 3 g -> Forall (fun v => v < 64) (b64_grp g).
Proof. intros [_ Hb]. apply b64_idx3_lt; apply nth_bytes_lt; assumption. Qed.

Lemma b64_tail_lt t : bytes_lt t -> Forall (fun v => v < 64) (b64_tail_vals t).
Proof.
  intros Hb. pose proof (nth_bytes_lt t 0 Hb) as H0. pose proof (nth_bytes_lt t 1 Hb) as H1.
  destruct t as [|b0 [|b1 [|b2 ?]]]; cbn [b64_tail_vals nth] in *;
    [constructor | apply b64_idx1_lt | apply b64_idx2_lt | constructor]; assumption.
Qed.

Lemma b64_dec_step f g r : group 3 g -> b64_dec_quads (S f) (b64_grp g ++ r) = g ++ b64_dec_quads f r.
Proof.
  intros [Hl Hb]. unfold b64_grp.
  rewrite b64_kernel3 by (apply nth_bytes_lt; assumption).
  destruct g as [|b0 [|b1 [|b2 [|? ?]]]]; try discriminate. reflexivity.
Qed.

(* the final group decodes to the tail, and passes the decoder's check of its unused bits *)
Lemma b64_tail_kernel t f : (length t < 3)%nat -> bytes_lt t ->
  b64_dec_quads (S f) (b64_tail_vals t) = t /\
  N.land (last (b64_tail_vals t) 0) (match t with [_] => 15 | _ => 3 end) = 0.
Proof.
  intros Ht Hb. pose proof (nth_bytes_lt t 0 Hb) as H0. pose proof (nth_bytes_lt t 1 Hb) as H1.
  destruct t as [|b0 [|b1 [|b2 ?]]]; cbn [length b64_tail_vals nth] in *; try lia.
  - split; reflexivity.
  - apply b64_kernel1; assumption.
  - apply b64_kernel2; assumption.
Qed.

Lemma last_app_ne {A} (l1 l2 : list A) d : l2 <> [] -> last (l1 ++ l2) d = last l2 d.
Proof.
  intros H. induction l1 as [|x l1 IH]; [reflexivity|]. cbn [app].
  remember (l1 ++ l2) as m eqn:E. destruct m as [|y m].
  - destruct l1; cbn in E; [subst; contradiction | discriminate].
  - exact IH.
Qed.

Lemma b64_text_no_pad V : Forall (fun v => v < 64) V -> ~ In 61 (map (nthN b64_alphabet) V).
Proof.
  intros L Hin. apply in_map_iff in Hin. destruct Hin as (v & E & Hv).
  rewrite Forall_forall in L. apply (b64_sym_alpha v (L v Hv)). assumption.
Qed.

Theorem b64_round : forall d, bytes_lt d -> b64_decode (b64_encode d) = Some d.
Proof.
  intros d Hd.
  destruct (split_bytes 3 d ltac:(lia) Hd) as (gs & t & -> & HG & Ht & Hbt).
  pose proof (group_lengths 3 gs HG) as HF.
  rewrite b64_encode_groups by assumption.
  assert (Lv : Forall (fun v => v < 64) (b64_vals gs t)).
  { apply Forall_app. split; [apply (Forall_flat_map _ _ _ _ b64_grp_lt HG)|apply b64_tail_lt, Hbt]. }
  assert (HlenV : length (b64_vals gs t) = (4 * length gs + length (b64_tail_vals t))%nat).
  { unfold b64_vals. rewrite app_length, (flat_map_length_const _ 4) by reflexivity. reflexivity. }
  assert (Hdq : b64_dec_quads (S (length (b64_vals gs t))) (b64_vals gs t) = concat gs ++ t).
  { unfold b64_vals at 2. rewrite (dec_unroll _ _ _ b64_dec_step) by (assumption || lia).
    rewrite Nat.sub_succ_l by lia. rewrite (proj1 (b64_tail_kernel t _ Ht Hbt)). reflexivity. }
  destruct (b64_tail_kernel t 0 Ht Hbt) as [_ Hlast].
  assert (Hp : (b64_tail_pad t <= 2)%nat) by (destruct t as [|? [|? [|? ?]]]; cbn; lia).
  destruct (trailing_pad _ _ 2 (b64_text_no_pad _ Lv) Hp) as [Hpad Hbody].
  unfold b64_decode. cbv zeta. rewrite Hpad, Hbody.
  rewrite (map_opt_map _ _ _ _ (fun v Hv => proj1 (b64_sym_alpha v Hv)) Lv), Hdq, HlenV.
  unfold b64_vals.
  destruct t as [|b0 [|b1 [|b2 ?]]]; cbn [length] in Ht; try lia;
    cbn [b64_tail_vals b64_tail_pad b64_idx1 b64_idx2 length] in *.
  - replace ((4 * length gs + 0 + 0) mod 4)%nat with 0%nat by lia.
    replace ((4 * length gs + 0) mod 4)%nat with 0%nat by lia. reflexivity.
  - replace ((4 * length gs + 2 + 2) mod 4)%nat with 0%nat by lia.
    replace ((4 * length gs + 2) mod 4)%nat with 2%nat by lia.
    rewrite last_app_ne, Hlast by discriminate. reflexivity.
  - replace ((4 * length gs + 3 + 1) mod 4)%nat with 0%nat by lia.
    replace ((4 * length gs + 3) mod 4)%nat with 3%nat by lia.
    rewrite last_app_ne, Hlast by discriminate. reflexivity.
Qed.

Lemma count_trailing_eq_firstn : forall k l,
  (count_trailing_eq k l <= length l)%nat /\
  firstn (count_trailing_eq k l) l = repeat 61 (count_trailing_eq k l).
Proof.
  induction k as [|k IH]; intros l; [cbn [count_trailing_eq]; split; [lia|reflexivity]|].
  destruct l as [|c r]; [cbn [count_trailing_eq]; split; [cbn; lia|reflexivity]|].
  cbn [count_trailing_eq]. destruct (N.eqb_spec c 61) as [->|Hne].
  - destruct (IH r) as [H1 H2]. cbn [length firstn repeat]. split; [lia|]. rewrite H2. reflexivity.
  - split; [cbn [length]; lia|reflexivity].
Qed.

Lemma strip_padding_in data k c :
  In c data -> c <> 61 ->
  In c (firstn (length data - count_trailing_eq k (rev data)) data).
Proof.
  intros Hin Hc. set (p := count_trailing_eq k (rev data)).
  destruct (count_trailing_eq_firstn k (rev data)) as [Hp Hrep]. fold p in Hp, Hrep.
  rewrite rev_length in Hp.
  rewrite <- (firstn_skipn (length data - p) data) in Hin.
  apply in_app_or in Hin. destruct Hin as [Hin|Hin]; [assumption|exfalso].
  assert (E : skipn (length data - p) data = repeat 61 p).
  { rewrite <- (rev_involutive data) at 2. rewrite skipn_rev.
    rewrite rev_length. replace (length data - (length data - p))%nat with p by lia.
    rewrite Hrep. apply rev_repeat. }
  rewrite E in Hin. apply repeat_spec in Hin. contradiction.
Qed.

Theorem b64_invalid : forall data c,
  In c data -> ~ In c b64_alphabet -> c <> 61 -> b64_decode data = None.
Proof.
  intros data c Hin Hal Hc. unfold b64_decode. cbv zeta.
  rewrite (map_opt_none b64_sym _ c); [reflexivity| |].
  - apply strip_padding_in; assumption.
  - destruct (b64_sym c) as [v|] eqn:E; [|reflexivity].
    exfalso. apply Hal. apply (b64_sym_some c v E).
Qed.

Definition b32_grp (g : list N) : list N :=
  b32_idx (nth 0 g 0) (nth 1 g 0) (nth 2 g 0) (nth 3 g 0) (nth 4 g 0).
Definition b32_tv (t : list N) : list N := match t with [] => [] | _ => b32_grp t end.
(* the symbols that carry bits of [r] bytes, r < 5; the encoder drops the rest of the final group *)
Definition b32_kept (r : nat) : nat := ((r * 8 + 4) / 5)%nat.
Definition b32_ne (t : list N) : nat := (length (b32_tv t) - b32_kept (length t))%nat.

Lemma b32_tv_length t : length (b32_tv t) = match t with [] => 0%nat | _ => 8%nat end.
Proof. destruct t; reflexivity. Qed.

Lemma b32_enc_chunks_nil al fuel : b32_enc_chunks al fuel [] = [].
Proof. destruct fuel; reflexivity. Qed.

Lemma b32_enc_step al f g r : length g = 5%nat ->
  b32_enc_chunks al (S f) (g ++ r) = map (nthN al) (b32_grp g) ++ b32_enc_chunks al f r.
Proof. intros Hg. destruct g as [|b0 [|b1 [|b2 [|b3 [|b4 [|? ?]]]]]]; try discriminate. reflexivity. Qed.

Lemma b32_enc_tail al t f : (length t < 5)%nat ->
  b32_enc_chunks al (S f) t = map (nthN al) (b32_tv t).
Proof.
  intros Ht. destruct t as [|b0 t']; [reflexivity|].
  cbn [b32_enc_chunks]. rewrite skipn_all2, firstn_all2 by lia.
  rewrite b32_enc_chunks_nil. apply app_nil_r.
Qed.

Lemma b32_encode_shape a gs t :
  Forall (fun g => length g = 5%nat) gs -> (length t < 5)%nat ->
  b32_encode a (concat gs ++ t)
  = map (nthN (b32_al a)) (flat_map b32_grp gs ++ firstn (b32_kept (length t)) (b32_tv t))
    ++ match a with Rfc4648 => repeat 61 (b32_ne t) | Crockford => [] end.
Proof.
  intros HF Ht. pose proof (groups_fuel 5 gs t ltac:(lia) HF) as Hfuel.
  assert (He : forall al, b32_enc_chunks al (S (length (concat gs ++ t))) (concat gs ++ t)
               = map (nthN al) (flat_map b32_grp gs ++ b32_tv t)).
  { intros al. rewrite (enc_unroll _ _ _ (b32_enc_step al)) by (assumption || lia).
    rewrite Nat.sub_succ_l, b32_enc_tail by assumption. rewrite map_flat_map, map_app. reflexivity. }
  assert (Hr : (length (concat gs ++ t) mod 5 = length t)%nat).
  { rewrite app_length, (length_concat_groups 5) by assumption. lia. }
  assert (Hk : forall al, t <> [] ->
            let ret := map (nthN al) (flat_map b32_grp gs ++ b32_tv t) in
            firstn (length ret - (8 - (length t * 8 + 4) / 5)) ret
            = map (nthN al) (flat_map b32_grp gs ++ firstn (b32_kept (length t)) (b32_tv t))).
  { intros al Hne ret. unfold ret. rewrite map_length, app_length, firstn_map. f_equal.
    replace (length (b32_tv t)) with 8%nat by (destruct t; [contradiction|reflexivity]).
    fold (b32_kept (length t)).
    replace (length (flat_map b32_grp gs) + 8 - (8 - b32_kept (length t)))%nat
      with (length (flat_map b32_grp gs) + b32_kept (length t))%nat by (unfold b32_kept; lia).
    apply firstn_app_2. }
  unfold b32_encode, b32_ne.
  destruct t as [|b0 t'].
  - destruct a; cbv beta iota zeta; rewrite He, Hr; cbn [length Nat.eqb b32_al b32_tv firstn repeat];
      rewrite ?app_nil_r; reflexivity.
  - destruct a; cbv beta iota zeta; rewrite He, Hr; cbn [length Nat.eqb b32_al];
      rewrite Hk by discriminate; rewrite ?app_nil_r; reflexivity.
Qed.

Lemma b32_grp_lt g : bytes_lt g -> Forall (fun v => v < 32) (b32_grp g).
Proof. intros H. apply b32_idx_lt; apply nth_bytes_lt; assumption. Qed.

Lemma nth_first5 (t : list N) : (length t <= 5)%nat ->
  [nth 0 t 0; nth 1 t 0; nth 2 t 0; nth 3 t 0; nth 4 t 0] = t ++ repeat 0 (5 - length t).
Proof.
  intros H. destruct t as [|b0 [|b1 [|b2 [|b3 [|b4 [|? ?]]]]]]; cbn [length] in H; try lia; reflexivity.
Qed.

Lemma b32_grp_kernel t : (length t <= 5)%nat -> bytes_lt t ->
  b32_dec_chunk (b32_grp t) = t ++ repeat 0 (5 - length t).
Proof.
  intros Hl Hb. unfold b32_grp. rewrite b32_kernel by (apply nth_bytes_lt; assumption).
  apply nth_first5, Hl.
Qed.

Lemma b32_dec_chunks_nil fuel : b32_dec_chunks fuel [] = [].
Proof. destruct fuel; reflexivity. Qed.

Lemma b32_dec_chunks_cons f v : v <> [] ->
  b32_dec_chunks (S f) v = b32_dec_chunk (firstn 8 v) ++ b32_dec_chunks f (skipn 8 v).
Proof. intros H. destruct v; [contradiction|reflexivity]. Qed.

Lemma b32_dec_step f g r : group 5 g -> b32_dec_chunks (S f) (b32_grp g ++ r) = g ++ b32_dec_chunks f r.
Proof.
  intros [Hl Hb].
  change (b32_dec_chunks (S f) (b32_grp g ++ r)) with (b32_dec_chunk (b32_grp g) ++ b32_dec_chunks f r).
  rewrite b32_grp_kernel, Hl by (assumption || lia). cbn [Nat.sub repeat]. rewrite app_nil_r. reflexivity.
Qed.

(* symbols the encoder dropped, or replaced by padding that decodes to zero, were zero: *)
Lemma b32_tail_pad t : (0 < length t < 5)%nat ->
  firstn (b32_kept (length t)) (b32_grp t) ++ repeat 0 (b32_ne t) = b32_grp t.
Proof.
  intros Ht. destruct t as [|b0 [|b1 [|b2 [|b3 [|b4 ?]]]]]; cbn [length] in Ht; try lia.
  - apply b32_idx_tail1.
  - apply b32_idx_tail2.
  - apply b32_idx_tail3.
  - apply b32_idx_tail4.
Qed.

(* and the decoder reads missing symbols as zero *)
Lemma b32_dec_chunk_pad l n : b32_dec_chunk (l ++ repeat 0 n) = b32_dec_chunk l.
Proof.
  assert (E : forall i, nth i (l ++ repeat 0 n) 0 = nth i l 0).
  { intros i. destruct (Nat.lt_ge_cases i (length l)) as [L|L].
    - apply app_nth1, L.
    - rewrite app_nth2, nth_repeat, nth_overflow by assumption. reflexivity. }
  unfold b32_dec_chunk. rewrite !E. reflexivity.
Qed.

Lemma b32_tail_dec t W m f : (length t <= 5)%nat -> bytes_lt t -> W <> [] -> W ++ repeat 0 m = b32_grp t ->
  firstn (length t) (b32_dec_chunks (S f) W) = t.
Proof.
  intros Ht Hb Hne HW.
  assert (Hl : (length W <= 8)%nat).
  { apply (f_equal (@length N)) in HW. rewrite app_length in HW. change (length (b32_grp t)) with 8%nat in HW. lia. }
  rewrite b32_dec_chunks_cons, (firstn_all2 (n:=8) W), skipn_all2, b32_dec_chunks_nil, app_nil_r by assumption.
  rewrite <- (b32_dec_chunk_pad W m), HW, b32_grp_kernel by assumption.
  rewrite firstn_app, Nat.sub_diag, firstn_all. apply app_nil_r.
Qed.

Lemma map_opt_repeat {A B} (f : A -> option B) c v n : f c = Some v -> map_opt f (repeat c n) = Some (repeat v n).
Proof. intros H. induction n as [|n IH]; [reflexivity|]. cbn [repeat map_opt]. rewrite H, IH. reflexivity. Qed.

Lemma in_firstn {A} (x : A) n l : In x (firstn n l) -> In x l.
Proof. intros H. rewrite <- (firstn_skipn n l). apply in_or_app. left. assumption. Qed.

Theorem b32_round : forall a d, bytes_lt d -> b32_decode a (b32_encode a d) = Some d.
Proof.
  intros a d Hd.
  destruct (split_bytes 5 d ltac:(lia) Hd) as (gs & t & -> & HG & Ht & Hbt).
  pose proof (group_lengths 5 gs HG) as HF.
  rewrite b32_encode_shape by assumption.
  set (W := firstn (b32_kept (length t)) (b32_tv t)).
  set (pe := match a with Rfc4648 => b32_ne t | Crockford => 0%nat end).
  replace (match a with Rfc4648 => repeat 61 (b32_ne t) | Crockford => [] end)
    with (repeat 61 pe) by (subst pe; destruct a; reflexivity).
  set (V := flat_map b32_grp gs ++ W).
  assert (Hk : (b32_kept (length t) <= length (b32_tv t) <= 8)%nat).
  { rewrite b32_tv_length. unfold b32_kept. destruct t; cbn [length] in *; lia. }
  assert (LV : Forall (fun v => v < 32) V).
  { apply Forall_app. split; [apply (Forall_flat_map _ _ _ _ (fun g Hg => b32_grp_lt g (proj2 Hg)) HG)|].
    apply Forall_forall. intros x Hx. apply in_firstn in Hx.
    destruct t; [contradiction|]. pose proof (b32_grp_lt _ Hbt) as L. rewrite Forall_forall in L. apply L, Hx. }
  assert (HlenV : length V = (8 * length gs + b32_kept (length t))%nat).
  { unfold V, W. rewrite app_length, (flat_map_length_const _ 8), firstn_length by reflexivity. lia. }
  assert (Hpe : (pe <= b32_ne t <= 6)%nat).
  { subst pe. unfold b32_ne, b32_kept. rewrite b32_tv_length. destruct a, t; cbn [length] in *; lia. }
  assert (Hno : ~ In 61 (map (nthN (b32_al a)) V)).
  { intros Hin. apply in_map_iff in Hin. destruct Hin as (v & E & Hv).
    rewrite Forall_forall in LV. apply (b32_sym_alpha a v (LV v Hv)). assumption. }
  destruct (trailing_pad _ pe 6 Hno ltac:(lia)) as [Hpad _].
  unfold b32_decode.
  replace (forallb (fun c => c <? 128) (map (nthN (b32_al a)) V ++ repeat 61 pe)) with true.
  2:{ symmetry. apply forallb_forall. intros c Hc. apply N.ltb_lt.
      apply in_app_or in Hc. destruct Hc as [Hc|Hc].
      - apply in_map_iff in Hc. destruct Hc as (v & <- & Hv).
        rewrite Forall_forall in LV. apply (b32_sym_alpha a v (LV v Hv)).
      - apply repeat_spec in Hc. subst c. lia. }
  cbn [negb]. cbv zeta. rewrite Hpad. fold (b32_inv a).
  assert (Hsym : map_opt (b32_sym (b32_inv a)) (map (nthN (b32_al a)) V ++ repeat 61 pe) = Some (V ++ repeat 0 pe)).
  { apply map_opt_app.
    - apply (map_opt_map _ _ _ _ (fun v Hv => proj1 (b32_sym_alpha a v Hv)) LV).
    - subst pe. destruct a; [apply map_opt_repeat|]; reflexivity. }
  rewrite Hsym, !app_length, map_length, !repeat_length, HlenV.
  replace ((8 * length gs + b32_kept (length t) + pe - pe) * 5 / 8)%nat with (5 * length gs + length t)%nat
    by (unfold b32_kept; lia).
  f_equal. unfold V. rewrite <- app_assoc.
  rewrite (dec_unroll _ _ _ b32_dec_step) by (assumption || lia).
  rewrite <- (length_concat_groups 5 gs HF), firstn_app_2. f_equal.
  destruct (Nat.eq_dec (length t) 0) as [E0|E0].
  - destruct t; [|discriminate]. reflexivity.
  - rewrite Nat.sub_succ_l by lia.
    assert (HW : W = firstn (b32_kept (length t)) (b32_grp t)) by (subst W; destruct t; [contradiction|reflexivity]).
    apply (b32_tail_dec t _ (b32_ne t - pe)); try assumption; try lia.
    + rewrite HW. unfold b32_kept. destruct t as [|b0 t']; [contradiction|]. cbn [length] in *.
      destruct ((S (length t') * 8 + 4) / 5)%nat eqn:E; [lia|discriminate].
    + rewrite <- app_assoc, <- repeat_app, HW. replace (pe + (b32_ne t - pe))%nat with (b32_ne t) by lia.
      apply b32_tail_pad. lia.
Qed.

(* text outside the alphabet (either case, the padding character for RFC 4648, the
   Crockford aliases I L O) is rejected *)
Theorem b32_invalid : forall a data c,
  In c data -> ~ b32_accepts a c -> b32_decode a data = None.
Proof.
  intros a data c Hin Hna. unfold b32_decode.
  destruct (negb (forallb (fun c0 => c0 <? 128) data)); [reflexivity|]. cbv zeta.
  fold (b32_inv a).
  rewrite (map_opt_none (b32_sym (b32_inv a)) _ c); [reflexivity|assumption|].
  destruct (b32_sym (b32_inv a) c) as [v|] eqn:E; [|reflexivity].
  exfalso. apply Hna. apply (b32_sym_some a c v E).
Qed.

Definition z85_gnum (g : list N) : N := be32 (nth 0 g 0) (nth 1 g 0) (nth 2 g 0) (nth 3 g 0).
Definition z85_genc (g : list N) : list N := z85_enc_num (z85_gnum g).
(* the final group of one to three bytes: zeros in front, their digits replaced by '#' *)
Definition z85_tail_text (t : list N) : list N :=
  match t with
  | [] => []
  | _ => let diff := (4 - length t)%nat in repeat 35 diff ++ skipn diff (z85_genc (repeat 0 diff ++ t))
  end.

Lemma z85_enc_step f g r : length g = 4%nat ->
  z85_enc_chunks (S f) (g ++ r) = z85_genc g ++ z85_enc_chunks f r.
Proof. intros Hg. destruct g as [|b0 [|b1 [|b2 [|b3 [|? ?]]]]]; try discriminate. reflexivity. Qed.

Lemma z85_enc_tail t f : (length t < 4)%nat -> z85_enc_chunks (S f) t = z85_tail_text t.
Proof. intros Ht. destruct t as [|b0 [|b1 [|b2 [|b3 ?]]]]; cbn [length] in Ht; try lia; reflexivity. Qed.

Lemma z85_encode_shape gs t : Forall (fun g => length g = 4%nat) gs -> (length t < 4)%nat ->
  z85_encode (concat gs ++ t) = flat_map z85_genc gs ++ z85_tail_text t.
Proof.
  intros HF Ht. pose proof (groups_fuel 4 gs t ltac:(lia) HF) as Hfuel. unfold z85_encode.
  rewrite (enc_unroll _ _ _ z85_enc_step) by (assumption || lia).
  rewrite Nat.sub_succ_l, z85_enc_tail by assumption. reflexivity.
Qed.

Lemma z85_gnum_lt g : bytes_lt g -> z85_gnum g < 4294967296.
Proof. intros H. apply be32_lt; apply nth_bytes_lt; assumption. Qed.

Lemma z85_gnum_bytes g : group 4 g -> be_bytes32 (z85_gnum g) = g.
Proof.
  intros [Hl Hb]. unfold z85_gnum. rewrite be_bytes32_be32 by (apply nth_bytes_lt; assumption).
  destruct g as [|b0 [|b1 [|b2 [|b3 [|? ?]]]]]; try discriminate. reflexivity.
Qed.

Lemma z85_dec_chunks_cons f d : d <> [] ->
  z85_dec_chunks (S f) d =
  match z85_decode_chunk (firstn 5 d), z85_dec_chunks f (skipn 5 d) with
  | Some a, Some b => Some (a ++ b)
  | _, _ => None
  end.
Proof. intros H. destruct d; [contradiction|reflexivity]. Qed.

Lemma z85_dec_chunks_nil f : z85_dec_chunks f [] = Some [].
Proof. destruct f; reflexivity. Qed.

Lemma z85_dec_step f g r : group 4 g ->
  z85_dec_chunks (S f) (z85_genc g ++ r) = option_map (app g) (z85_dec_chunks f r).
Proof.
  intros Hg.
  change (z85_dec_chunks (S f) (z85_genc g ++ r))
    with (match z85_decode_chunk (z85_genc g), z85_dec_chunks f r with
          | Some a, Some b => Some (a ++ b) | _, _ => None end).
  unfold z85_genc. rewrite z85_group_kernel, (z85_gnum_bytes g Hg) by (apply z85_gnum_lt, Hg).
  destruct (z85_dec_chunks f r); reflexivity.
Qed.

Lemma z85_dec_groups gs fuel : Forall (group 4) gs -> (length gs <= fuel)%nat ->
  z85_dec_chunks fuel (flat_map z85_genc gs) = Some (concat gs).
Proof.
  intros HG Hfuel. rewrite <- (app_nil_r (flat_map z85_genc gs)).
  rewrite (groups_unroll _ _ _ (fun g => option_map (app g)) z85_dec_step) by assumption.
  rewrite z85_dec_chunks_nil.
  clear. induction gs as [|g gs IH]; [reflexivity|]. cbn [fold_right concat]. rewrite IH. reflexivity.
Qed.

Lemma count_lead_hash_repeat n l : match l with c :: _ => c <> 35 | [] => True end ->
  count_lead_hash (repeat 35 n ++ l) = n.
Proof.
  intros Hl. induction n as [|n IH]; cbn [repeat app count_lead_hash].
  - destruct l as [|c r]; [reflexivity|]. cbn [count_lead_hash]. destruct (N.eqb_spec c 35); [contradiction|reflexivity].
  - change (35 =? 35) with true. cbv iota. rewrite IH. reflexivity.
Qed.

Lemma z85_horner_app l1 l2 acc : z85_horner (l1 ++ l2) acc = z85_horner l2 (z85_horner l1 acc).
Proof. apply fold_left_app. Qed.

(* a number that fits into 4 - diff bytes: its first diff base-85 digits are zero, the next is
   not the one written '#' *)
Lemma z85_digits_small n diff : (0 < diff < 4)%nat -> n < 256 ^ (4 - N.of_nat diff) ->
  firstn diff (z85_digits n) = repeat 0 diff /\ nth diff (z85_digits n) 0 <> 84 /\ n < 16777216.
Proof.
  intros Hd Hn. unfold z85_digits.
  destruct diff as [|[|[|[|?]]]]; try lia; cbn [firstn repeat nth].
  - change (256 ^ (4 - N.of_nat 1)) with 16777216 in Hn. split; [entrywise_lia|lia].
  - change (256 ^ (4 - N.of_nat 2)) with 65536 in Hn. split; [entrywise_lia|lia].
  - change (256 ^ (4 - N.of_nat 3)) with 256 in Hn. split; [entrywise_lia|lia].
Qed.

Lemma z85_decode_tail_num n diff : (0 < diff < 4)%nat -> n < 256 ^ (4 - N.of_nat diff) ->
  z85_decode_tail (repeat 35 diff ++ skipn diff (z85_enc_num n)) = Some (skipn diff (be_bytes32 n)).
Proof.
  intros Hd Hn. destruct (z85_digits_small n diff Hd Hn) as (Hz & Hx & Hn3).
  assert (Hh : z85_horner (skipn diff (z85_digits n)) 0 = n).
  { rewrite <- (z85_horner_digits n) at 2 by lia.
    rewrite <- (firstn_skipn diff (z85_digits n)) at 2. rewrite z85_horner_app, Hz.
    f_equal. clear. induction diff as [|k IH]; [reflexivity|exact IH]. }
  assert (Hl : Forall (fun v => v < 85) (skipn diff (z85_digits n))).
  { apply Forall_forall. intros v Hv. pose proof (z85_digits_lt n) as L. rewrite Forall_forall in L.
    apply L. rewrite <- (firstn_skipn diff (z85_digits n)). apply in_or_app. right. exact Hv. }
  unfold z85_decode_tail. rewrite z85_enc_num_digits, skipn_map, count_lead_hash_repeat.
  - rewrite skipn_app, skipn_all2, repeat_length, Nat.sub_diag by (rewrite repeat_length; lia).
    cbn [skipn app]. rewrite z85_chunk_num_letters, Hh by assumption.
    replace (4294967295 <? n) with false by lia.
    replace (256 ^ (4 - N.of_nat diff) - 1 <? n) with false by lia. reflexivity.
  - destruct (skipn diff (z85_digits n)) as [|v r] eqn:E; [exact I|]. cbn [map].
    assert (Ev : v = nth diff (z85_digits n) 0).
    { rewrite <- (firstn_skipn diff (z85_digits n)), E, app_nth2, firstn_length by (rewrite firstn_length; cbn [z85_digits length]; lia).
      cbn [z85_digits length]. replace (diff - Nat.min diff 5)%nat with 0%nat by lia. reflexivity. }
    intro C. apply z85_letter in C; [|inversion Hl; assumption]. rewrite Ev in C. contradiction.
Qed.

Lemma z85_tail_kernel t : (0 < length t < 4)%nat -> bytes_lt t ->
  z85_decode_tail (z85_tail_text t) = Some t /\ length (z85_tail_text t) = 5%nat /\
  nth 0 (z85_tail_text t) 0 = 35.
Proof.
  intros Ht Hb.
  pose proof (nth_bytes_lt t 0 Hb) as H0. pose proof (nth_bytes_lt t 1 Hb) as H1.
  pose proof (nth_bytes_lt t 2 Hb) as H2.
  destruct t as [|b0 [|b1 [|b2 [|b3 ?]]]]; cbn [length nth] in *; try lia;
    (split; [|split; reflexivity]).
  - change (z85_tail_text [b0]) with (repeat 35 3 ++ skipn 3 (z85_enc_num (be32 0 0 0 b0))).
    rewrite z85_decode_tail_num, be_bytes32_be32
      by (try lia; change (256 ^ (4 - N.of_nat 3)) with 256; unfold be32; lia).
    reflexivity.
  - change (z85_tail_text [b0; b1]) with (repeat 35 2 ++ skipn 2 (z85_enc_num (be32 0 0 b0 b1))).
    rewrite z85_decode_tail_num, be_bytes32_be32
      by (try lia; change (256 ^ (4 - N.of_nat 2)) with 65536; unfold be32; lia).
    reflexivity.
  - change (z85_tail_text [b0; b1; b2]) with (repeat 35 1 ++ skipn 1 (z85_enc_num (be32 0 b0 b1 b2))).
    rewrite z85_decode_tail_num, be_bytes32_be32
      by (try lia; change (256 ^ (4 - N.of_nat 1)) with 16777216; unfold be32; lia).
    reflexivity.
Qed.

Lemma z85_last_group gs : gs <> [] -> Forall (group 4) gs ->
  exists X g, flat_map z85_genc gs = X ++ z85_genc g /\ bytes_lt g /\ length X = (5 * length gs - 5)%nat.
Proof.
  intros Hne HG. destruct (exists_last Hne) as (gs' & g & ->).
  apply Forall_app in HG. destruct HG as [_ Hg]. inversion Hg as [|? ? [_ Hb] _]; subst.
  exists (flat_map z85_genc gs'), g. rewrite flat_map_app. cbn [flat_map]. rewrite app_nil_r.
  repeat split; [assumption|].
  rewrite (flat_map_length_const _ 5), app_length by reflexivity. cbn [length]. lia.
Qed.

Theorem z85_crate_round : forall d, bytes_lt d -> z85_crate_decode (z85_encode d) = Some d.
Proof.
  intros d Hd.
  destruct (split_bytes 4 d ltac:(lia) Hd) as (gs & t & -> & HG & Ht & Hbt).
  rewrite z85_encode_shape by (apply group_lengths, HG || assumption).
  assert (HlenX : length (flat_map z85_genc gs) = (5 * length gs)%nat)
    by (apply flat_map_length_const; reflexivity).
  unfold z85_crate_decode. cbv zeta.
  destruct (Nat.eq_dec (length t) 0) as [E0|E0].
  - destruct t; [|discriminate]. cbn [z85_tail_text]. rewrite !app_nil_r, HlenX.
    destruct gs as [|g0 gs0]; [reflexivity|]. set (gs := g0 :: gs0) in *.
    destruct (z85_last_group gs ltac:(discriminate) HG) as (X & g & E & Hg & HlX).
    replace (5 * length gs =? 0)%nat with false by (subst gs; cbn [length]; lia).
    replace ((5 * length gs) mod 5 =? 0)%nat with true by lia. cbn [negb].
    replace (nth (5 * length gs - 5) (flat_map z85_genc gs) 0 =? 35) with false.
    + rewrite <- HlenX, firstn_all, z85_dec_groups by (assumption || lia). reflexivity.
    + symmetry. apply N.eqb_neq. rewrite E, <- HlX, app_nth2, Nat.sub_diag by lia.
      apply z85_group_first, z85_gnum_lt, Hg.
  - destruct (z85_tail_kernel t ltac:(lia) Hbt) as (Kd & Kl & Kh).
    rewrite app_length, HlenX, Kl.
    replace (5 * length gs + 5 =? 0)%nat with false by lia.
    replace ((5 * length gs + 5) mod 5 =? 0)%nat with true by lia. cbn [negb].
    replace (5 * length gs + 5 - 5)%nat with (length (flat_map z85_genc gs) + 0)%nat by lia.
    rewrite app_nth2_plus, Kh. change (35 =? 35) with true. cbv iota.
    rewrite firstn_app_2, skipn_app. cbn [firstn]. rewrite app_nil_r.
    rewrite skipn_all2 by lia. replace (length (flat_map z85_genc gs) + 0 - length (flat_map z85_genc gs))%nat with 0%nat by lia.
    cbn [skipn app]. rewrite z85_dec_groups, Kd by (assumption || lia). reflexivity.
Qed.

Lemma z85_dec_chunks_in : forall fuel d out c,
  (length d < fuel)%nat -> z85_dec_chunks fuel d = Some out -> In c d -> In c z85_letters.
Proof.
  induction fuel as [|fuel IH]; intros d out c Hf H Hin; [lia|].
  destruct d as [|x d']; [contradiction|].
  rewrite z85_dec_chunks_cons in H by discriminate.
  set (d := x :: d') in *.
  destruct (z85_decode_chunk (firstn 5 d)) as [a|] eqn:E1; [|discriminate].
  destruct (z85_dec_chunks fuel (skipn 5 d)) as [b|] eqn:E2; [|discriminate].
  rewrite <- (firstn_skipn 5 d) in Hin. apply in_app_or in Hin. destruct Hin as [Hin|Hin].
  - unfold z85_decode_chunk in E1.
    destruct (z85_chunk_num (firstn 5 d) 0) as [n|] eqn:E3; [|discriminate].
    eapply z85_chunk_num_in; eassumption.
  - eapply (IH (skipn 5 d)); try eassumption.
    rewrite skipn_length. unfold d in *. cbn [length] in *. lia.
Qed.

Lemma count_lead_hash_skipn : forall l c, In c l -> In c (skipn (count_lead_hash l) l) \/ c = 35.
Proof.
  induction l as [|x l IH]; intros c Hin; [contradiction|].
  cbn [count_lead_hash]. destruct (N.eqb_spec x 35) as [->|Hne].
  - destruct Hin as [<-|Hin]; [right; reflexivity|]. cbn [skipn]. apply IH. assumption.
  - left. assumption.
Qed.

Theorem z85_crate_invalid : forall data c,
  In c data -> ~ In c z85_letters -> z85_crate_decode data = None.
Proof.
  intros data c Hin Hna. destruct (z85_crate_decode data) as [out|] eqn:E; [exfalso|reflexivity].
  apply Hna. clear Hna. unfold z85_crate_decode in E. cbv zeta in E.
  destruct (length data =? 0)%nat eqn:E0.
  { apply Nat.eqb_eq in E0. destruct data; [contradiction|discriminate]. }
  destruct (negb (length data mod 5 =? 0)%nat); [discriminate|].
  set (chunked := if nth (length data - 5) data 0 =? 35 then (length data - 5)%nat else length data) in *.
  destruct (z85_dec_chunks (S (length data)) (firstn chunked data)) as [o1|] eqn:E1; [|discriminate].
  rewrite <- (firstn_skipn chunked data) in Hin. apply in_app_or in Hin. destruct Hin as [Hin|Hin].
  - eapply z85_dec_chunks_in; [|eassumption|assumption]. rewrite firstn_length. lia.
  - destruct (nth (length data - 5) data 0 =? 35) eqn:Eh.
    + destruct (z85_decode_tail (skipn chunked data)) as [tl|] eqn:E2; [|discriminate].
      unfold z85_decode_tail in E2. cbv zeta in E2.
      destruct (z85_chunk_num (skipn (count_lead_hash (skipn chunked data)) (skipn chunked data)) 0) as [n|] eqn:E3;
        [|discriminate].
      destruct (count_lead_hash_skipn _ _ Hin) as [Hc| ->].
      * eapply z85_chunk_num_in; eassumption.
      * vm_compute. tauto.
    + subst chunked. rewrite skipn_all in Hin. contradiction.
Qed.

(* one whole group of each encoding, and the encoders are homomorphic over whole groups;
   together with the tails above this pins the encoders to the standard alphabets *)
Definition be24 (b0 b1 b2 : N) : N := (b0 * 256 + b1) * 256 + b2.
Definition be40 (b0 b1 b2 b3 b4 : N) : N := (((b0 * 256 + b1) * 256 + b2) * 256 + b3) * 256 + b4.

Theorem b64_group_digits b0 b1 b2 : b0 < 256 -> b1 < 256 -> b2 < 256 ->
  let n := be24 b0 b1 b2 in
  b64_encode [b0; b1; b2]
  = map (nthN b64_alphabet) [ n / 262144; (n / 4096) mod 64; (n / 64) mod 64; n mod 64 ].
Proof.
  intros H0 H1 H2 n. change (b64_encode [b0; b1; b2]) with (map (nthN b64_alphabet) (b64_idx3 b0 b1 b2)).
  f_equal. rewrite b64_idx3_arith by assumption.
  unfold n, be24. entrywise_lia.
Qed.

Theorem b32_group_digits a b0 b1 b2 b3 b4 :
  b0 < 256 -> b1 < 256 -> b2 < 256 -> b3 < 256 -> b4 < 256 ->
  let n := be40 b0 b1 b2 b3 b4 in
  b32_encode a [b0; b1; b2; b3; b4]
  = map (nthN (b32_al a))
        [ n / 34359738368; (n / 1073741824) mod 32; (n / 33554432) mod 32; (n / 1048576) mod 32;
          (n / 32768) mod 32; (n / 1024) mod 32; (n / 32) mod 32; n mod 32 ].
Proof.
  intros H0 H1 H2 H3 H4 n.
  assert (E : b32_encode a [b0; b1; b2; b3; b4] = map (nthN (b32_al a)) (b32_idx b0 b1 b2 b3 b4))
    by (destruct a; reflexivity).
  rewrite E. f_equal. rewrite b32_idx_arith by assumption.
  unfold n, be40. entrywise_lia.
Qed.

(* whole groups are encoded independently of what follows: by the shape of the three encodings *)
Lemma app_as_groups {A} (g : list A) gs t : g ++ concat gs ++ t = concat (g :: gs) ++ t.
Proof. cbn [concat]. apply app_assoc. Qed.

Lemma one_group {A} (g : list A) : g = concat [g] ++ [].
Proof. cbn [concat]. rewrite !app_nil_r. reflexivity. Qed.

Theorem b64_encode_app g d : length g = 3%nat -> b64_encode (g ++ d) = b64_encode g ++ b64_encode d.
Proof.
  intros Hg.
  destruct (split_groups 3 ltac:(lia) d) as (gs & t & -> & HF & Ht).
  rewrite app_as_groups. rewrite (one_group g) at 2.
  rewrite !b64_encode_groups by (try assumption; try (cbn; lia); repeat (constructor; try assumption)).
  unfold b64_vals. cbn [flat_map b64_tail_vals b64_tail_pad repeat]. rewrite !app_nil_r.
  rewrite !map_app, <- !app_assoc. reflexivity.
Qed.

Theorem z85_encode_app g d : length g = 4%nat -> z85_encode (g ++ d) = z85_encode g ++ z85_encode d.
Proof.
  intros Hg.
  destruct (split_groups 4 ltac:(lia) d) as (gs & t & -> & HF & Ht).
  rewrite app_as_groups. rewrite (one_group g) at 2.
  rewrite !z85_encode_shape by (try assumption; try (cbn; lia); repeat (constructor; try assumption)).
  cbn [flat_map z85_tail_text]. rewrite !app_nil_r, <- app_assoc. reflexivity.
Qed.

Theorem b32_encode_app a g d : length g = 5%nat -> b32_encode a (g ++ d) = b32_encode a g ++ b32_encode a d.
Proof.
  intros Hg.
  destruct (split_groups 5 ltac:(lia) d) as (gs & t & -> & HF & Ht).
  rewrite app_as_groups. rewrite (one_group g) at 2.
  rewrite !b32_encode_shape by (try assumption; try (cbn; lia); repeat (constructor; try assumption)).
  cbn [flat_map length b32_kept b32_tv firstn b32_ne repeat]. rewrite !app_nil_r.
  rewrite !map_app, <- !app_assoc. f_equal.
  destruct a; cbn [app]; reflexivity.
Qed.

Lemma ends_hash5_app5 X a b c e f :
  ends_hash5 (X ++ [a; b; c; e; f]) = true -> a = 35 /\ b = 35 /\ c = 35 /\ e = 35 /\ f = 35.
Proof.
  unfold ends_hash5. rewrite rev_app_distr. cbn [rev app].
  intros H. repeat (apply andb_prop in H; destruct H as [H ?]).
  repeat match goal with Hx : (_ =? _) = true |- _ => apply N.eqb_eq in Hx end.
  subst. repeat split.
Qed.

Lemma z85_encode_not_hash5 d : bytes_lt d -> ends_hash5 (z85_encode d) = false.
Proof.
  intros Hd.
  destruct (split_bytes 4 d ltac:(lia) Hd) as (gs & t & -> & HG & Ht & Hbt).
  rewrite z85_encode_shape by (apply group_lengths, HG || assumption).
  destruct (ends_hash5 _) eqn:E; [exfalso|reflexivity].
  destruct (Nat.eq_dec (length t) 0) as [E0|E0].
  - destruct t; [|discriminate]. cbn [z85_tail_text] in E. rewrite app_nil_r in E.
    destruct gs as [|g0 gs0]; [discriminate|].
    destruct (z85_last_group (g0 :: gs0) ltac:(discriminate) HG) as (X & g & EX & Hg & _).
    rewrite EX in E. apply ends_hash5_app5 in E. destruct E as (Ea & _).
    apply (z85_group_first (z85_gnum g) (z85_gnum_lt g Hg)). exact Ea.
  - destruct (z85_tail_kernel t ltac:(lia) Hbt) as (Kd & Kl & Kh).
    destruct (z85_tail_text t) as [|a [|b [|c [|e [|f [|? ?]]]]]]; try discriminate.
    apply ends_hash5_app5 in E. destruct E as (-> & -> & -> & -> & ->).
    vm_compute in Kd. injection Kd as <-. cbn [length] in E0. lia.
Qed.

Theorem z85_round : forall d, bytes_lt d -> z85_decode (z85_encode d) = Some d.
Proof.
  intros d Hd. unfold z85_decode. rewrite z85_encode_not_hash5 by assumption. apply z85_crate_round. assumption.
Qed.

Theorem z85_invalid : forall data c,
  In c data -> ~ In c z85_letters -> z85_decode data = None.
Proof.
  intros data c Hin Hna. unfold z85_decode. destruct (ends_hash5 data); [reflexivity|].
  apply (z85_crate_invalid data c); assumption.
Qed.

(* the crate's `4 - diff` underflows on a tail group of five padding marks; after the guard the tail group
   of a text the crate treats as having a tail starts with at most four *)
Theorem z85_guard_excludes_underflow : forall X a b c e f,
  ends_hash5 (X ++ [a; b; c; e; f]) = false -> (count_lead_hash [a; b; c; e; f] <= 4)%nat.
Proof.
  intros X a b c e f H. cbn [count_lead_hash].
  destruct (N.eqb_spec a 35) as [->|]; [|lia]. destruct (N.eqb_spec b 35) as [->|]; [|lia].
  destruct (N.eqb_spec c 35) as [->|]; [|lia]. destruct (N.eqb_spec e 35) as [->|]; [|lia].
  destruct (N.eqb_spec f 35) as [->|]; [|lia].
  exfalso. unfold ends_hash5 in H. rewrite rev_app_distr in H. cbn [rev app] in H. discriminate.
Qed.
