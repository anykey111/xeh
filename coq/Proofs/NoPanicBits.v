(* NoPanicBits.v (C08 e): the bit-string library has no panic outcome in the model (reads
   outside a buffer return 0 through [nthb]); what corresponds to the Rust slice accesses
   is that, for a well-formed value, every byte index the iterators touch is inside the
   buffer.  The constructors produce well-formed values (BitsProofs / CodecProofs). *)
From Xeh Require Import Model.Prelude Model.Bits Model.Codec.
From Xeh Require Import Proofs.BitsBasic Proofs.BitsKernel Proofs.BitsLists Proofs.BitsMirror
                        Proofs.BitsProofs Proofs.CodecProofs.
From Coq Require Import ZifyBool ZifyNat ZifyN.
Local Ltac Zify.zify_post_hook ::= Z.div_mod_to_equations.

(* a bit of the range lives in a byte of the buffer: Bits::next, data[pos / 8] *)
Theorem bit_index_safe : forall c i, wf c -> cstart c <= i < cend c -> i / 8 < length (cdata c).
Proof. intros c i (H1 & H2 & _) Hi. lia. Qed.

(* the byte indices Iter8::next reads, following [iter8_go]: data[idx], and data[idx + 1]
   when the group crosses a byte boundary (the bit count of cut_bits does not depend on
   the byte it is given) *)
Fixpoint iter8_reads (e fuel pos : nat) : list nat :=
  match fuel with
  | O => []
  | S f =>
    if e <=? pos then [] else
    let len := Nat.min (e - pos) 8 in
    let idx := pos / 8 in
    let n := snd (cut_bits 0 pos (pos + len)) in
    (idx :: (if n <? len then [idx + 1] else [])) ++ iter8_reads e f (pos + len)
  end.

Lemma cut_bits_count x y s e : snd (cut_bits x s e) = snd (cut_bits y s e).
Proof. reflexivity. Qed.

Lemma iter8_reads_safe : forall (d : list N) e fuel pos, e <= 8 * length d ->
  Forall (fun i => i < length d) (iter8_reads e fuel pos).
Proof.
  intros d e. induction fuel as [|f IH]; intros pos He; cbn [iter8_reads]; [constructor|].
  destruct (e <=? pos) eqn:E; [constructor|]. cbv zeta.
  apply Forall_app. split; [|apply IH; exact He].
  unfold cut_bits. cbn [snd].
  constructor; [lia|].
  destruct (Nat.min (pos + Nat.min (e - pos) 8 - pos) (8 - pos mod 8) <? Nat.min (e - pos) 8) eqn:E2;
    [|constructor].
  constructor; [lia|constructor].
Qed.

(* slice / bytes_of: &data[start / 8 .. upper_bound_index(end)] is a valid range *)
Theorem bytes_range_safe : forall c, wf c ->
  cstart c / 8 <= ubi (cend c) /\ ubi (cend c) <= length (cdata c).
Proof.
  intros c (H1 & H2 & _). split.
  - pose proof (ubi_ge (cend c)). lia.
  - apply ubi_le. exact H2.
Qed.

Theorem from_bytes_wf : forall d, Forall (fun x => (x < 256)%N) d -> wf (from_bytes d).
Proof. intros d H. unfold from_bytes. apply wf_mk; [lia|lia|exact H]. Qed.

Theorem of_bools_wf : forall l, wf (of_bools l).
Proof. intros l. exact (proj1 (of_bools_spec l)). Qed.
