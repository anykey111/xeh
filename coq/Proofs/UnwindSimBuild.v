(* UnwindSimBuild.v (C15): building a source in eval mode and in compile mode proceeds in
   lockstep.  The two builds differ only in the context opened for the source ([tE] with mode
   MEval on one side, [tC] = the same marks with mode MCompile and another ds_len on the
   other); that context is the current one until a meta block is opened and sits in the
   nested list, below the meta contexts, while meta blocks are open.  [okc] / [rel_st] is this
   relation; [rp P] = [mrel rel_st P] (UnwindRel.v) says that program P maps related states to
   related results with the same value.  Here: what the walk of UnwindRel.v asks of the
   relation, and the words that read the mode or the data-stack mark of the context (they
   only do so inside a meta block, where the two states differ in the nested list alone). *)
From Xeh Require Import Model.Prelude Model.Bits Model.Codec Model.Cell Model.Lexer Model.Fmt
                        Model.Vm Model.Words Model.Build.
From Xeh Require Import Proofs.VmFrame Proofs.VmLimits Proofs.NoPanic Proofs.NoPanicBuild Proofs.BuildUnwind Proofs.UnwindRel
                        Proofs.UnwindLists Proofs.UnwindFrame Proofs.UnwindInv Proofs.UnwindBuild
                        Proofs.UnwindIrr Proofs.UnwindSimVm.
Local Notation length := List.length.

Definition wc (t : state) (md : mode) (dl : nat) (n' : list ctx) : state :=
  set_nested (set_cx t (mkctx dl (cs_len (cx t)) (rs_len (cx t)) (fs_len (cx t)) (ls_len (cx t))
                              (ss_ptr (cx t)) (di_len (cx t)) (cip (cx t)) md)) n'.

Ltac sim_cbv :=
  cbv [wc res_map res_all
       set_code set_dbg set_dict set_flows set_cx set_nested set_input set_last_tok set_sources
       set_heap set_ds set_rs set_loops set_special set_meter set_rlog set_out set_stopping
       dict heap code dbg sources input ds rs flows loops special cx nested meter insn_limit
       heap_limit stack_limit rlog out last_tok stopping
       ds_len cs_len rs_len fs_len ls_len ss_ptr di_len cip cmode].

Section Sim.
  Variable tE : ctx.          (* the context of the eval-mode build *)
  Variable dlC : nat.         (* the ds_len of the compile-mode one *)
  Variable base0 : list ctx.  (* the contexts below it *)
  Hypothesis HtE : cmode tE = MEval.

  Definition tC : ctx :=
    mkctx dlC (cs_len tE) (rs_len tE) (fs_len tE) (ls_len tE) (ss_ptr tE) (di_len tE) (cip tE) MCompile.

  Definition okc (t : state) (md : mode) (dl : nat) (n' : list ctx) : Prop :=
    (cx t = tE /\ nested t = base0 /\ md = MCompile /\ dl = dlC /\ n' = base0) \/
    (cmode (cx t) = MMeta /\ md = MMeta /\ dl = ds_len (cx t) /\
     exists ups, Forall (fun c => cmode c = MMeta) ups /\
                 nested t = ups ++ tE :: base0 /\ n' = ups ++ tC :: base0).

  Definition rel_st (s s' : state) : Prop := exists md dl n', okc s md dl n' /\ s' = wc s md dl n'.

  Local Notation rres := (rres rel_st).
  Local Notation rp := (mrel rel_st).

  Lemma rel_st_intro t md dl n' : okc t md dl n' -> rel_st t (wc t md dl n').
  Proof. intros H. exists md, dl, n'. auto. Qed.

  Lemma rp_intro A (P : M A) :
    (forall t md dl n', okc t md dl n' -> rres (P t) (P (wc t md dl n'))) -> rp P.
  Proof. intros H s s' (md & dl & n' & Ho & ->). apply H, Ho. Qed.

  Lemma okc_mode t md dl n' : okc t md dl n' -> mode_eqb md MMeta = mode_eqb (cmode (cx t)) MMeta.
  Proof.
    intros [(E1 & _ & -> & _)|(E1 & -> & _)].
    - rewrite E1, HtE. reflexivity.
    - rewrite E1. reflexivity.
  Qed.

  Lemma okc_keep t s md dl n' : cx s = cx t -> nested s = nested t -> okc t md dl n' -> okc s md dl n'.
  Proof. unfold okc. intros -> ->. auto. Qed.

  Lemma rel_core s s' : rel_st s s' -> core s' = core s.
  Proof. intros (md & dl & n' & _ & ->). reflexivity. Qed.

  Lemma rel_keep (f : state -> state) :
    (forall t md dl n', f (wc t md dl n') = wc (f t) md dl n') ->
    (forall t, cx (f t) = cx t /\ nested (f t) = nested t) ->
    forall s s', rel_st s s' -> rel_st (f s) (f s').
  Proof.
    intros H1 H2 s s' (md & dl & n' & Ho & ->). rewrite H1. destruct (H2 s) as [Ec En].
    apply rel_st_intro. eapply okc_keep; eassumption.
  Qed.

  Lemma rel_set_code s s' c : rel_st s s' -> rel_st (set_code s c) (set_code s' c).
  Proof. apply (rel_keep (fun s => set_code s c)); [reflexivity|split; reflexivity]. Qed.
  Lemma rel_set_dict s s' d : rel_st s s' -> rel_st (set_dict s d) (set_dict s' d).
  Proof. apply (rel_keep (fun s => set_dict s d)); [reflexivity|split; reflexivity]. Qed.
  Lemma rel_set_flows s s' f : rel_st s s' -> rel_st (set_flows s f) (set_flows s' f).
  Proof. apply (rel_keep (fun s => set_flows s f)); [reflexivity|split; reflexivity]. Qed.

  Lemma rp_keep A (P : M A) :
    (forall t md dl n', mode_eqb md MMeta = mode_eqb (cmode (cx t)) MMeta ->
        P (wc t md dl n') = res_map (fun s => wc s md dl n') (P t)) ->
    (forall t, res_all (fun s => cx s = cx t /\ nested s = nested t) (P t)) ->
    rp P.
  Proof.
    intros H1 H2. apply rp_intro. intros t md dl n' Ho.
    rewrite (H1 t md dl n' (okc_mode _ _ _ _ Ho)). specialize (H2 t).
    destruct (P t) as [a s|k p s| |]; cbn [res_map UnwindRel.rres res_all] in *; auto;
      destruct H2 as [Ec En]; repeat split;
      (apply rel_st_intro; eapply okc_keep; eauto).
  Qed.

  Ltac keep_prim :=
    apply rp_keep;
    [ let t := fresh "t" in let Hmode := fresh "Hmode" in
      intros t ? ? ? Hmode; destruct_state t; match goal with c : ctx |- _ => destruct c end;
      cbv [cmode cx] in Hmode;
      cbv [code_emit intern_source alloc_heap limit_reached];
      sim_cbv; try rewrite Hmode; break_matches; reflexivity
    | let t := fresh "t" in
      intros t; destruct_state t;
      cbv [code_emit intern_source alloc_heap limit_reached];
      sim_cbv; break_matches; auto ].

  Lemma rp_code_emit op : rp (code_emit op).
  Proof. keep_prim. Qed.
  Lemma rp_intern_source buf : rp (intern_source buf).
  Proof. keep_prim. Qed.
  Lemma rp_alloc_heap v : rp (alloc_heap v).
  Proof. keep_prim. Qed.

  Section Tok.
    Variable pr : string -> option Z.

    Lemma next_token_wc : forall fuel t md dl n',
      next_token pr fuel (wc t md dl n') = res_map (fun s => wc s md dl n') (next_token pr fuel t).
    Proof.
      induction fuel as [|f IH]; intros t md dl n'; cbn [next_token]; [reflexivity|].
      change (input (wc t md dl n')) with (input t).
      destruct (input t) as [|il rest]; [reflexivity|]. cbv zeta.
      destruct (lex_next_nonws _ _) as [tk l'].
      destruct tk; try reflexivity.
      - apply (IH (set_input (set_last_tok (set_input t (mkinlex (in_src il) l' :: rest))
                                           (Some (in_src il, lstart l', lpos l'))) rest)).
      - destruct (pr text); reflexivity.
    Qed.

    Lemma reads_ctx t t' : reads_only t t' -> cx t' = cx t /\ nested t' = nested t.
    Proof. intros (inp & lt & ->). split; reflexivity. Qed.

    Lemma rp_get_token : rp (get_token pr).
    Proof.
      apply rp_keep.
      - intros t md dl n' _. unfold get_token. apply next_token_wc.
      - intros t. pose proof (get_token_reads pr t) as H.
        destruct (get_token pr t); cbn [res_all] in *; auto; apply reads_ctx, H.
    Qed.

    Lemma rp_next_name : rp (next_name pr).
    Proof.
      apply rp_keep.
      - intros t md dl n' _. unfold next_name. cbv zeta. unfold get_token.
        change (tok_fuel (wc t md dl n')) with (tok_fuel t). rewrite next_token_wc.
        change (last_tok (wc t md dl n')) with (last_tok t).
        destruct (next_token pr (tok_fuel t) t) as [tk s1|k p s1| |]; cbn [res_map]; try reflexivity.
        destruct tk; try reflexivity; destruct (last_tok t); reflexivity.
      - intros t. pose proof (next_name_reads pr t) as H.
        destruct (next_name pr t); cbn [res_all] in *; auto; apply reads_ctx, H.
    Qed.
  End Tok.

  Lemma wc_meta t n' : cmode (cx t) = MMeta -> wc t MMeta (ds_len (cx t)) n' = set_nested t n'.
  Proof. destruct t as [? ? ? ? ? ? ? ? ? ? ? c ? ? ? ? ? ? ? ? ?]. destruct c. cbn. intros ->. reflexivity. Qed.

  Lemma rel_meta s s' : rel_st s s' -> cmode (cx s) = MMeta ->
    exists ups, Forall (fun c => cmode c = MMeta) ups /\
                nested s = ups ++ tE :: base0 /\ s' = set_nested s (ups ++ tC :: base0).
  Proof.
    intros (md & dl & n' & [(E1 & _)|(_ & -> & -> & ups & F & E & ->)] & ->) Hm.
    - rewrite E1, HtE in Hm. discriminate.
    - exists ups. rewrite (wc_meta s _ Hm). auto.
  Qed.

  Lemma rel_meta_intro t ups : cmode (cx t) = MMeta -> Forall (fun c => cmode c = MMeta) ups ->
    nested t = ups ++ tE :: base0 -> rel_st t (set_nested t (ups ++ tC :: base0)).
  Proof.
    intros Hm F E. exists MMeta, (ds_len (cx t)), (ups ++ tC :: base0). split.
    - right. repeat split; try assumption. exists ups. repeat split; assumption.
    - symmetry. apply wc_meta. exact Hm.
  Qed.

  Lemma rel_mode s s' : rel_st s s' -> mode_eqb (cmode (cx s')) MMeta = mode_eqb (cmode (cx s)) MMeta.
  Proof. intros (md & dl & n' & Ho & ->). exact (okc_mode _ _ _ _ Ho). Qed.

  (* from a meta context: [rpb P] says that P maps related states to related results, [rpm P]
     that in addition it stays in the meta context *)
  Definition rpb {A} (P : M A) : Prop :=
    forall s s', rel_st s s' -> cmode (cx s) = MMeta -> rres (P s) (P s').

  Definition rpm {A} (P : M A) : Prop :=
    forall s s', rel_st s s' -> cmode (cx s) = MMeta ->
      rres (P s) (P s') /\ match P s with ROk _ t => cmode (cx t) = MMeta | _ => True end.

  Lemma chg_same t n' : chg t (cs_len (cx t)) (fs_len (cx t)) (di_len (cx t)) n' = set_nested t n'.
  Proof. destruct t as [? ? ? ? ? ? ? ? ? ? ? c ? ? ? ? ? ? ? ? ?]. destruct c. reflexivity. Qed.

  Lemma rpm_nested A (P : M A) :
    (forall s n', P (set_nested s n') = res_map (fun r => set_nested r n') (P s)) ->
    (forall s, res_all (frame_rel s) (P s)) -> rpm P.
  Proof.
    intros H1 H2 s s' H Hm. destruct (rel_meta s s' H Hm) as (ups & F & E1 & ->).
    rewrite H1. specialize (H2 s).
    assert (K : forall t, frame_rel s t -> cmode (cx t) = MMeta /\ rel_st t (set_nested t (ups ++ tC :: base0))).
    { intros t FR. assert (Mt : cmode (cx t) = MMeta) by (rewrite (fr_cx _ _ FR); exact Hm).
      split; [exact Mt|]. apply rel_meta_intro; [exact Mt|exact F|]. rewrite (fr_nested _ _ FR). exact E1. }
    destruct (P s) as [a t|k p t| |]; cbn [res_map UnwindRel.rres res_all] in *; auto;
      destruct (K t H2) as [Mt Rt]; auto.
  Qed.

  Lemma chg_frame s r n' : frame_rel s r ->
    chg r (cs_len (cx s)) (fs_len (cx s)) (di_len (cx s)) n' = set_nested r n'.
  Proof. intros FR. rewrite <- (chg_same r n'), (fr_cx _ _ FR). reflexivity. Qed.

  Lemma nested_indep A (P : M A) :
    (forall s cs fs di n', P (chg s cs fs di n') = res_map (fun r => chg r cs fs di n') (P s)) ->
    (forall s, res_all (frame_rel s) (P s)) ->
    forall s n', P (set_nested s n') = res_map (fun r => set_nested r n') (P s).
  Proof.
    intros H1 H2 s n'. rewrite <- (chg_same s n'), H1. specialize (H2 s).
    destruct (P s) as [a r|k p r| |]; cbn [res_map res_all] in *; try reflexivity;
      rewrite (chg_frame _ _ _ H2); reflexivity.
  Qed.

  Lemma rpm_wx A (P : M A) : wx P -> wl P -> rpm P.
  Proof.
    intros HX HL. apply rpm_nested; [apply nested_indep|]; try apply wx_chg; try apply wl_frame; assumption.
  Qed.

  Section Meta.
    Variable fo : fops.
    Variable rf : nat.

    Lemma run_m_nested s n' : run_m fo rf (set_nested s n') = res_map (fun r => set_nested r n') (run_m fo rf s).
    Proof.
      apply (nested_indep unit (run_m fo rf)).
      - intros. apply run_m_chg.
      - apply run_m_frame.
    Qed.

    Lemma rpm_run_m : rpm (run_m fo rf).
    Proof. apply rpm_nested; [apply run_m_nested|apply run_m_frame]. Qed.

    Lemma rp_context_open_meta : rp (context_open MMeta).
    Proof.
      apply rp_intro. intros t md dl n' Ho. unfold context_open. cbv zeta. cbn [UnwindRel.rres].
      split; [reflexivity|].
      destruct Ho as [(E1 & E2 & -> & -> & ->)|(Hm & -> & -> & ups & F & E1 & ->)].
      - (* from the source level *)
        cbn [wc set_nested set_cx cx cmode mode_eqb ds_len ds code rs flows loops special dict nested code_origin].
        rewrite E1, HtE. cbn [mode_eqb].
        match goal with |- rel_st ?a ?b2 => set (sE := a) end.
        exists MMeta, (ds_len (cx sE)), ([] ++ tC :: base0). split.
        + right. subst sE. cbn [set_nested set_cx cx nested cmode ds_len]. repeat split.
          exists []. repeat split; [constructor|]. cbn [app]. rewrite E2. reflexivity.
        + subst sE. unfold wc. cbn [set_nested set_cx cx nested cmode ds_len cs_len rs_len fs_len ls_len ss_ptr di_len cip app].
          rewrite E2. reflexivity.
      - (* from a meta block *)
        rewrite (wc_meta t _ Hm).
        cbn [set_nested set_cx cx cmode mode_eqb ds_len ds code rs flows loops special dict nested code_origin].
        match goal with |- rel_st ?a ?b2 => set (sE := a) end.
        exists MMeta, (ds_len (cx sE)), ((cx t :: ups) ++ tC :: base0). split.
        + right. subst sE. cbn [set_nested set_cx cx nested cmode ds_len]. repeat split.
          exists (cx t :: ups). repeat split; [constructor; assumption|]. cbn [app]. rewrite E1. reflexivity.
        + subst sE. unfold wc. cbn [set_nested set_cx cx nested cmode ds_len cs_len rs_len fs_len ls_len ss_ptr di_len cip app].
          reflexivity.
    Qed.
  End Meta.

  Section Close.
    Variable fo : fops.
    Variable rf : nat.

    Lemma pop_data_nested s n' : pop_data (set_nested s n') = res_map (fun r => set_nested r n') (pop_data s).
    Proof. exact (nested_indep _ pop_data (wx_chg _ _ wx_pop_data) (wl_frame _ _ wl_pop_data) s n'). Qed.

    Lemma code_emit_nested op s n' :
      code_emit op (set_nested s n') = res_map (fun r => set_nested r n') (code_emit op s).
    Proof.
      unfold code_emit. cbv zeta. cbn [set_nested code dbg last_tok].
      destruct (_ <? _)%nat; [reflexivity|]. destruct (_ =? _)%nat; reflexivity.
    Qed.

    Lemma emit_results_nested : forall fuel s n',
      emit_results fuel (set_nested s n') = res_map (fun r => set_nested r n') (emit_results fuel s).
    Proof.
      induction fuel as [|f IH]; intros s n'; cbn [emit_results]; [reflexivity|].
      change (cx (set_nested s n')) with (cx s). change (ds (set_nested s n')) with (ds s).
      destruct (ds_len (cx s) <? length (ds s))%nat; [|reflexivity].
      rewrite pop_data_nested. destruct (pop_data s) as [v s1|k p s1| |]; cbn [res_map]; try reflexivity.
      unfold code_emit_value. rewrite code_emit_nested.
      destruct (code_emit (load_value_opcode v) s1) as [u s2|k p s2| |]; cbn [res_map]; try reflexivity.
      apply IH.
    Qed.

    Lemma close_meta_tail_nested prev prev' s n' :
      fs_len prev' = fs_len prev -> mode_eqb (cmode prev') MMeta = mode_eqb (cmode prev) MMeta ->
      match close_meta_tail prev s with
      | ROk _ r => exists s4, nested s4 = nested s /\ r = set_cx s4 prev /\
                              close_meta_tail prev' (set_nested s n') = ROk tt (set_cx (set_nested s4 n') prev')
      | RErr _ _ _ => False
      | RPanic => close_meta_tail prev' (set_nested s n') = RPanic
      | RUnsup => close_meta_tail prev' (set_nested s n') = RUnsup
      end.
    Proof.
      intros Xf Xm. unfold close_meta_tail, bind, modify, get.
      change (close_cut (set_nested s n')) with (set_nested (close_cut s) n').
      assert (Er : close_reemits prev' (set_nested (close_cut s) n') = close_reemits prev (close_cut s)).
      { unfold close_reemits. cbn [set_nested flows]. rewrite Xf, Xm. reflexivity. }
      rewrite Er. destruct (close_reemits prev (close_cut s)).
      - change (ds (set_nested (close_cut s) n')) with (ds (close_cut s)). rewrite emit_results_nested.
        pose proof (emit_results_keeps (S (length (ds (close_cut s)))) (close_cut s)) as K.
        destruct (emit_results _ (close_cut s)) as [u s4|k p s4| |]; cbn [res_map]; auto.
        exists s4. split; [apply K|split; reflexivity].
      - exists (close_cut s). repeat split.
    Qed.

    (* the close runs what is left of the block on both sides *)
    Lemma close_meta_rel : rpb (context_close fo rf).
    Proof.
      intros t t' H Hm. destruct (rel_meta t t' H Hm) as (ups & F & E1 & ->).
      rewrite !context_close_eq. cbn [set_nested nested cx]. rewrite E1, Hm.
      assert (X : exists prev rest prev' rest',
                 ups ++ tE :: base0 = prev :: rest /\ ups ++ tC :: base0 = prev' :: rest' /\
                 fs_len prev' = fs_len prev /\
                 mode_eqb (cmode prev') MMeta = mode_eqb (cmode prev) MMeta /\
                 (forall s4, nested s4 = rest -> rel_st (set_cx s4 prev) (set_cx (set_nested s4 rest') prev')) /\
                 (forall s1, cmode (cx s1) = MMeta ->
                    rel_st (set_nested s1 (prev :: rest)) (set_nested s1 (prev' :: rest')))).
      { assert (XE : forall s1, cmode (cx s1) = MMeta ->
                  rel_st (set_nested s1 (ups ++ tE :: base0)) (set_nested s1 (ups ++ tC :: base0))).
        { intros s1 M1. exact (rel_meta_intro (set_nested s1 (ups ++ tE :: base0)) ups M1 F eq_refl). }
        destruct ups as [|u ups']; cbn [app] in *.
        - exists tE, base0, tC, base0. repeat split; [cbn; rewrite HtE; reflexivity| |exact XE].
          intros s4 N4. exists MCompile, dlC, base0. split.
          + left. cbn [set_cx cx nested]. repeat split. exact N4.
          + reflexivity.
        - exists u, (ups' ++ tE :: base0), u, (ups' ++ tC :: base0). repeat split; [|exact XE].
          intros s4 N4. inversion F as [|? ? Hu F']; subst.
          exact (rel_meta_intro (set_cx s4 u) ups' Hu F' N4). }
      destruct X as (prev & rest & prev' & rest' & -> & -> & Xf & Xm & Xfin & Xerr).
      change (set_nested (set_nested t (prev' :: rest')) rest') with (set_nested (set_nested t rest) rest').
      rewrite (run_m_nested fo rf (set_nested t rest) rest').
      pose proof (run_m_frame fo rf (set_nested t rest)) as FR.
      destruct (run_m fo rf (set_nested t rest)) as [u s1|k p s1| |]; cbn [res_map res_all] in *; try exact I;
        pose proof (fr_nested _ _ FR) as N1; cbn [set_nested nested] in N1.
      - pose proof (close_meta_tail_nested prev prev' s1 rest' Xf Xm) as Y.
        destruct (close_meta_tail prev s1) as [u4 r|k p r| |]; try contradiction; try (rewrite Y; exact I).
        destruct Y as (s4 & N4 & -> & ->). split; [destruct u4; reflexivity|]. apply Xfin. rewrite N4. exact N1.
      - assert (M1 : cmode (cx s1) = MMeta) by (rewrite (fr_cx _ _ FR); exact Hm).
        cbn [UnwindRel.rres nested set_nested]. repeat split. rewrite N1. exact (Xerr s1 M1).
    Qed.
  End Close.

  Section Words.
    Variable fo : fops.
    Variable pr : string -> option Z.
    Variable rf : nat.

    Lemma rpb_of_rp A (P : M A) : rp P -> rpb P.
    Proof. intros H s s' Hs _. apply H, Hs. Qed.

    Lemma rpb_bind A B (P : M A) (f : A -> M B) : rpm P -> (forall a, rpb (f a)) -> rpb (bind P f).
    Proof.
      intros HP Hf s s' H Hm. destruct (HP s s' H Hm) as [X M1].
      apply rres_bind; [exact X|]. intros a t t' E Ht. rewrite E in M1. apply Hf; assumption.
    Qed.

    Lemma rpb_bind_rp A B (P : M A) (f : A -> M B) : rpb P -> (forall a, rp (f a)) -> rpb (bind P f).
    Proof.
      intros HP Hf s s' H Hm. apply rres_bind; [apply HP; assumption|]. intros a t t' _ Ht. apply Hf, Ht.
    Qed.

    Lemma rpb_get_bind B (k : state -> M B) :
      (forall s0 n', k (set_nested s0 n') = k s0) -> (forall s0, rpb (k s0)) -> rpb (bind get k).
    Proof.
      intros H1 H2 s s' H Hm. unfold bind, get. pose proof (rel_meta s s' H Hm) as (ups & _ & _ & E).
      rewrite E at 1. rewrite H1. apply H2; assumption.
    Qed.

    (* the words that only make sense inside a meta block start with this test *)
    Lemma rp_meta_get B (k : state -> M B) e :
      (forall s0 n', k (set_nested s0 n') = k s0) -> (forall s0, rpb (k s0)) ->
      rp (let* s := get in if negb (mode_eqb (cmode (cx s)) MMeta) then fail e None else k s).
    Proof.
      intros H1 H2 s s' H. unfold bind at 1 2. unfold get. rewrite (rel_mode s s' H).
      destruct (mode_eqb (cmode (cx s)) MMeta) eqn:E; cbn [negb]; [|apply mrel_fail, H].
      apply mode_eqb_meta in E. exact (rpb_get_bind B k H1 H2 s s' H E).
    Qed.

    Lemma rp_bind_meta A B (P : M A) (f : A -> M B) s s' :
      rp P -> (forall a, rpb (f a)) -> rel_st s s' ->
      match P s with ROk _ t => cmode (cx t) = MMeta | _ => True end ->
      rres (bind P f s) (bind P f s').
    Proof.
      intros HP Hf H M1. apply rres_bind; [apply HP, H|]. intros a t t' E Ht. rewrite E in M1.
      apply Hf; assumption.
    Qed.

    Lemma rp_i_nested_end : rp (i_nested_end fo rf).
    Proof.
      apply rp_meta_get; [reflexivity|intros s0].
      destruct (has_pending_flow s0); [apply rpb_of_rp, mrel_fail|exact (close_meta_rel fo rf)].
    Qed.

    Lemma rp_i_nested_inject : rp (i_nested_inject fo rf).
    Proof.
      apply rp_meta_get; [reflexivity|intros s0].
      destruct (has_pending_flow s0); [apply rpb_of_rp, mrel_fail|].
      apply rpb_bind; [apply rpm_wx; [wx_solve|wl_solve]|intros v].
      apply rpb_bind; [apply rpm_wx; unfold join_str_vec; [wx_solve|wl_solve]|intros txt].
      apply rpb_bind_rp; [exact (close_meta_rel fo rf)|intros _; apply rp_intern_source].
    Qed.

    Lemma rp_i_const : rp (i_const pr).
    Proof.
      unfold i_const. apply mrel_bind; [apply rp_next_name|intros n].
      apply rp_meta_get; [reflexivity|intros s0].
      apply rpb_bind; [apply rpm_wx; [apply wx_pop_data|apply wl_pop_data]|intros v].
      apply rpb_of_rp, rp_keep.
      - intros s ? ? ? _. cbv [bind get put fail ret dict_insert dict_pos].
        cbn [wc set_nested set_cx set_dict dict res_map]. break_matches; reflexivity.
      - intros s. cbv [bind get put fail ret dict_insert dict_pos].
        break_matches; cbn [res_all set_dict cx nested]; auto.
    Qed.

    Lemma rp_enum_name_field val : rp (let* nm := next_name pr in enum_add_field nm val).
    Proof.
      apply mrel_bind; [apply rp_next_name|intros nm].
      exact (mrel_enum_add_field rel_st rel_core rel_set_dict rel_set_flows rp_context_open_meta nm val).
    Qed.

    (* the value of `=` is popped from the data stack of the context returned to, whose mark is
       the same on both sides only if that is a meta context *)
    Lemma i_enum_field_set_rel s s' : rel_st s s' -> enum_field_bad fo rf s = false ->
      rres (i_enum_field_set fo pr rf s) (i_enum_field_set fo pr rf s').
    Proof.
      intros H EB. apply rp_bind_meta; [apply rp_i_nested_end| |exact H|].
      - intros _. apply rpb_bind; [apply rpm_wx; [apply wx_pop_data|apply wl_pop_data]|intros c].
        apply rpb_of_rp.
        apply mrel_bind; [unfold m_xint; destruct (value c); first [apply mrel_ret|apply mrel_fail]|intros z].
        apply rp_enum_name_field.
      - unfold enum_field_bad in EB. destruct (i_nested_end fo rf s); auto.
        apply negb_false_iff, andb_true_iff in EB. apply mode_eqb_meta, EB.
    Qed.

    (* likewise the check of `endenum` that no value is left *)
    Lemma i_endenum_rel s s' : rel_st s s' -> enum_close_bad fo rf s = false ->
      rres (i_endenum fo rf s) (i_endenum fo rf s').
    Proof.
      intros H EB. apply rp_bind_meta; [apply rp_i_nested_end| |exact H|].
      - intros _. apply rpb_get_bind; [reflexivity|intros s0].
        destruct (0 <? data_depth s0)%nat; apply rpb_of_rp; [apply mrel_fail|].
        apply mrel_bind; [exact (mrel_pop_flow rel_st rel_core rel_set_flows)|intros fl].
        destruct fl as [f|]; [|apply mrel_fail]. destruct f; try exact (mrel_fail rel_st _ _ _).
        apply rp_i_nested_end.
      - unfold enum_close_bad in EB. destruct (i_nested_end fo rf s); auto.
        apply negb_false_iff in EB. apply mode_eqb_meta, EB.
    Qed.
  End Words.
End Sim.
