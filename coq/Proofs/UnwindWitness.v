(* UnwindWitness.v (C10 / C15): the states and sources of the witnesses showing that the
   hypotheses of the restoration theorem and of "eval = compile ;; run" cannot be dropped;
   the witnesses themselves are evaluated in Props/C10.v and Props/C15_evalrun.v. *)
From Xeh Require Import Model.Prelude Model.Bits Model.Codec Model.Cell Model.Lexer Model.Fmt
                        Model.Vm Model.Words Model.Build Model.Boot.
From Xeh Require Import Proofs.VmFrame Proofs.VmLimits Proofs.UnwindLists Proofs.UnwindFrame
                        Proofs.UnwindInv Proofs.UnwindBuild Proofs.UnwindMain Proofs.UnwindSimMain.
Local Notation length := List.length.
Local Open Scope string_scope.

Definition wit_zf (a b : Z) : Z := 0%Z.
Definition wit_fo : fops := fops_with wit_zf wit_zf wit_zf wit_zf wit_zf wit_zf wit_zf.
Definition wit_pr : string -> option Z := fun _ => None.
Definition wit_rf : nat := 1000.
Definition wit_fuel : nat := 1000.
Definition wit_eval (src : string) (s : state) : res unit := eval wit_fo wit_pr wit_rf wit_fuel src s.
Definition wit_state {A} (r : res A) : state := match r with ROk _ s => s | RErr _ _ s => s | _ => boot end.
Definition wit_opened (src : string) (s : state) : state :=
  wit_state ((context_open MEval ;; intern_source src) s).
Definition wit_built (src : string) (s : state) : res unit :=
  build1 wit_fo wit_pr wit_rf wit_fuel (length (nested (wit_opened src s))) (wit_opened src s).
Definition wit_unwound (src : string) (s : state) : state :=
  build_unwind (length (nested s)) (length (input s)) (length (ds s)) (length (heap s))
               (wit_state (wit_built src s)).

Definition wf_b (s : state) : bool :=
  match input s with [] => true | _ => false end &&
  (length (dbg s) =? length (code s))%nat && forallb (fun op => negb (is_resolve op)) (code s).

Lemma wf_b_sound s : wf_b s = true -> build_wf s.
Proof.
  unfold wf_b, build_wf. intros H. apply andb_true_iff in H. destruct H as [H H3].
  apply andb_true_iff in H. destruct H as [H1 H2]. repeat split.
  - destruct (input s); [reflexivity|discriminate].
  - apply Nat.eqb_eq. exact H2.
  - rewrite forallb_forall in H3. apply Forall_forall. intros op Hop. specialize (H3 op Hop).
    destruct (is_resolve op); [discriminate|reflexivity].
Qed.

(* F1: a user-defined immediate word *)
Definition f1_s : state := wit_state (wit_eval ": foo immediate drop ; 7 8" boot).
Definition f1_src : string := "foo bar".

(* F2: const overwrites an older constant *)
Definition f2_s : state := wit_state (wit_eval "#( 1 const X #)" boot).
Definition f2_src : string := "#( 5 const X #) junk".

(* F3: an unresolved late stub *)
Definition f3_s : state := wit_state (wit_eval "late foo : bar foo ;" boot).
Definition f3_src : string := ": foo 2 ; #( bar #) junk".
Definition f3_probe : string := "7 drop : foo 1 ; bar".

(* C15: a user-defined immediate word separates eval from compile ;; run *)
Definition f4_s : state := wit_state (wit_eval ": foo immediate drop ; 7" boot).

