(* StructNonterm.v: loops that structurally never terminate never fall through; a counted
   loop whose body stops at a `break` pops its record and ends normally. *)
From Xeh Require Import Model.Prelude Model.Bits Model.Codec Model.Cell Model.Lexer Model.Fmt
                        Model.Vm Model.Words Model.Struct
                        Proofs.VmFrame Proofs.StructBase Proofs.StructNat Proofs.StructInv
                        Proofs.StructLoops Proofs.StructRs Proofs.StructDo.
Local Notation length := List.length.

Definition never_done (r : sres) : Prop := forall s', r <> SDone s'.

Lemma never_done_none : forall r, fin r = None -> never_done r.
Proof. intros r E s' ->. discriminate E. Qed.

Definition nd_run_m := run_m_cases never_done never_done_none.
Definition nd_on_res := on_res_cases never_done never_done_none.

Definition no_result (r : sres) : Prop :=
  match r with
  | SDone _ | SBroke _ => False
  | _ => True
  end.

Section Nonterm.
  Variable fo : fops.
  Variable funs : list (nat * list stmt).
  Notation sblock := (sblock fo funs).
  Notation sstmt := (sstmt fo funs).

  Theorem repeat_never_done : forall b,
    (forall f s s', sblock f b s <> SBroke s') ->
    forall f s s', sstmt f (SRepeat b) s <> SDone s'.
  Proof.
    intros b Hb. induction f as [| f IH]; intro s; [ apply never_done_none; reflexivity | ].
    rewrite sstmt_SRepeat. apply nd_on_res; intros s1 E; [ exact (IH s1) | ].
    exfalso. eapply Hb; eauto.
  Qed.

  Corollary repeat_no_result : forall b,
    (forall f s s', sblock f b s <> SBroke s') ->
    forall f s, no_result (sstmt f (SRepeat b) s).
  Proof.
    intros b Hb f s. destruct (sstmt f (SRepeat b) s) eqn:E; cbn; auto.
    - eapply repeat_never_done; eauto.
    - eapply loop_never_broke; [ | exact E ]. reflexivity.
  Qed.

  Theorem repeat_diverges : forall b (Inv : state -> Prop),
    (forall f s, Inv s -> sblock f b s = SOut \/ exists s', sblock f b s = SDone s' /\ Inv s') ->
    forall f s, Inv s -> sstmt f (SRepeat b) s = SOut.
  Proof.
    intros b Inv Hb. induction f as [| f IH]; intros s Hs; [ reflexivity | ].
    rewrite sstmt_SRepeat. destruct (Hb f s Hs) as [E | (s1 & E & H1)]; rewrite E; cbn [on_res].
    - reflexivity.
    - apply IH. exact H1.
  Qed.

  Theorem until_never_done : forall b p,
    (forall f s s1 s2, sblock f b s = SDone s1 -> m_test s1 <> ROk true s2) ->
    forall f s s', sstmt f (SUntil b p) s <> SDone s'.
  Proof.
    intros b p Hc. induction f as [| f IH]; intro s; [ apply never_done_none; reflexivity | ].
    rewrite sstmt_SUntil. apply nd_on_res; intros s1 E; [ | intros s' E'; discriminate E' ].
    apply nd_run_m. intros [] s2 Et; [ | exact (IH s2) ].
    exfalso. eapply Hc; eauto.
  Qed.

  Theorem until_diverges : forall b p (Inv : state -> Prop),
    (forall f s, Inv s ->
       sblock f b s = SOut \/
       exists s1 s2, sblock f b s = SDone s1 /\ m_test s1 = ROk false s2 /\ Inv s2) ->
    forall f s, Inv s -> sstmt f (SUntil b p) s = SOut.
  Proof.
    intros b p Inv Hb. induction f as [| f IH]; intros s Hs; [ reflexivity | ].
    rewrite sstmt_SUntil. destruct (Hb f s Hs) as [E | (s1 & s2 & E & Et & H2)]; rewrite E; cbn [on_res].
    - reflexivity.
    - rewrite (run_m_ok _ _ _ _ _ _ _ Et). apply IH. exact H2.
  Qed.

  Theorem while_never_done : forall c p b,
    (forall f s s', sblock f c s <> SBroke s') ->
    (forall f s s', sblock f b s <> SBroke s') ->
    (forall f s s1 s2, sblock f c s = SDone s1 -> m_test s1 <> ROk false s2) ->
    forall f s s', sstmt f (SWhile c p b) s <> SDone s'.
  Proof.
    intros c p b Hcb Hbb Hc. induction f as [| f IH]; intro s; [ apply never_done_none; reflexivity | ].
    rewrite sstmt_SWhile. apply nd_on_res; intros s1 E; [ | exfalso; eapply Hcb; eauto ].
    apply nd_run_m. intros [] s2 Et; [ | exfalso; eapply Hc; eauto ].
    apply nd_on_res; intros s3 E3; [ exact (IH s3) | exfalso; eapply Hbb; eauto ].
  Qed.

  Theorem while_diverges : forall c p b (Inv : state -> Prop),
    (forall f s, Inv s ->
       sblock f c s = SOut \/
       exists s1 s2, sblock f c s = SDone s1 /\ m_test s1 = ROk true s2 /\
                     (sblock f b s2 = SOut \/ exists s3, sblock f b s2 = SDone s3 /\ Inv s3)) ->
    forall f s, Inv s -> sstmt f (SWhile c p b) s = SOut.
  Proof.
    intros c p b Inv Hb. induction f as [| f IH]; intros s Hs; [ reflexivity | ].
    rewrite sstmt_SWhile. destruct (Hb f s Hs) as [E | (s1 & s2 & E & Et & Hbody)]; rewrite E; cbn [on_res].
    - reflexivity.
    - rewrite (run_m_ok _ _ _ _ _ _ _ Et). destruct Hbody as [E3 | (s3 & E3 & H3)]; rewrite E3; cbn [on_res].
      + reflexivity.
      + apply IH. exact H3.
  Qed.

  Theorem break_stmt : forall f s, sstmt (S f) SBreak s = SBroke s.
  Proof. reflexivity. Qed.
End Nonterm.

Section DoBreak.
  Variable fo : fops.
  Variable funs : list (nat * list stmt).
  Notation sblock := (sblock fo funs).
  Notation sstmt := (sstmt fo funs).

  Theorem do_catches_break : forall f p b pl s l s1 s2 i si s3,
    do_init s = ROk l s1 -> push_loop l s1 = ROk tt s2 ->
    (Z.of_nat i < l_end l - l_start l)%Z -> i < f ->
    trips (sblock f b) i s2 = Some si -> sblock f b si = SBroke s3 ->
    sstmt (S f) (SDo p b pl) s = run_m pop_loop pl s3 (fun _ s4 => SDone s4).
  Proof.
    intros f p b pl s l s1 s2 i si s3 Ei Ep Hi Hf Ht Hb.
    pose proof Ep as Ep0. apply push_loop_ok in Ep0 as (L2 & _ & _).
    rewrite (sstmt_SDo_entered fo funs f p b pl s l s1 s2 Ei) by (assumption || lia).
    rewrite (proj1 (do_iter_trips _ pl (loop_keys_block fo funs f b) i f s2 l _ si L2 (Nat.lt_le_incl _ _ Hf) Ht) Hi).
    destruct (f - i) as [| k] eqn:Ek; [ lia | ]. rewrite do_iter_S, Hb. reflexivity.
  Qed.

  (* with the loop-stack mark of the context below the stack, the pop succeeds *)
  Theorem do_catches_break_done : forall f p b pl s l s1 s2 i si s3,
    ls_len (cx s) <= length (loops s) ->
    do_init s = ROk l s1 -> push_loop l s1 = ROk tt s2 ->
    (Z.of_nat i < l_end l - l_start l)%Z -> i < f ->
    trips (sblock f b) i s2 = Some si -> sblock f b si = SBroke s3 ->
    exists l4 s4, pop_loop s3 = ROk l4 s4 /\ sstmt (S f) (SDo p b pl) s = SDone s4 /\
                  map lkey (loops s4) = map lkey (loops s) /\ cx s4 = cx s.
  Proof.
    intros f p b pl s l s1 s2 i si s3 Hwf Ei Ep Hi Hf Ht Hb.
    pose proof (do_catches_break f p b pl s l s1 s2 i si s3 Ei Ep Hi Hf Ht Hb) as Hd.
    destruct (do_init_ok _ _ _ Ei) as [(_ & C1 & M1 & _) _].
    pose proof Ep as Ep0. apply push_loop_ok in Ep0 as (L2 & C2 & _).
    (* the state before the breaking trip, and after the break *)
    destruct (trips_state _ (loop_keys_block fo funs f b) i s2 l _ si L2) as (Ci & _ & li & ri & Eli & _ & _ & Mi);
      [ lia | exact Ht | ].
    destruct (loop_keys_block fo funs f b si s3 (or_intror Hb)) as [C3 M3].
    rewrite Eli in M3. apply map_lkey_cons_inv in M3 as (l3 & r3 & E3 & _ & M3).
    assert (G : (ls_len (cx s3) <? length (loops s3)) = true).
    { apply Nat.ltb_lt. rewrite C3, Ci, C2, C1, E3. cbn [length].
      assert (length r3 = length (loops s)).
      { rewrite <- (map_length lkey r3), M3, Mi, M1. apply map_length. }
      lia. }
    destruct (pop_loop_succeeds s3 l3 r3 E3 G) as (s4 & E4).
    exists l3, s4. split; [ exact E4 | ].
    split; [ rewrite Hd, (run_m_ok _ _ _ _ _ _ _ E4); reflexivity | ].
    apply pop_loop_ok in E4 as (E4 & C4 & _). rewrite E3 in E4. injection E4 as E4.
    split; [ rewrite <- E4; congruence | congruence ].
  Qed.
End DoBreak.
