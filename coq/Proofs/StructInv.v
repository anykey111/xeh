(* StructInv.v: syntactic predicates over statements ([all_stmt], [has_own_break]), case
   analysis of the evaluator's results, and a generic theorem: a reflexive-transitive
   relation between states that is respected by the data-level primitives, by the words of
   the program, by calls and by the bracket of a counted loop relates the state before a
   block to the state after it, whether the block ran to its end ([SDone]) or stopped at a
   break ([SBroke]). *)
From Xeh Require Import Model.Prelude Model.Bits Model.Codec Model.Cell Model.Lexer Model.Fmt
                        Model.Vm Model.Words Model.Struct
                        Proofs.VmFrame Proofs.CompileLayout Proofs.StructBase Proofs.StructNat.
Local Notation length := List.length.

Section AllStmt.
  Variable P : stmt -> bool.
  Fixpoint all_stmt (x : stmt) : bool :=
    let ab := fix ab (l : list stmt) : bool :=
                match l with [] => true | y :: r => all_stmt y && ab r end in
    P x &&
    match x with
    | SIf _ t => ab t
    | SIfE _ t e => ab t && ab e
    | SCase arms d =>
      (fix go (l : list (list stmt * pos * list stmt)) : bool :=
         match l with
         | [] => true
         | (pre, _, body) :: r => ab pre && ab body && go r
         end) arms && ab d
    | SUntil b _ | SRepeat b | SDo _ b _ => ab b
    | SWhile c _ b => ab c && ab b
    | _ => true
    end.
  Fixpoint all_block (l : list stmt) : bool :=
    match l with [] => true | y :: r => all_stmt y && all_block r end.
  Fixpoint all_arms (l : list (list stmt * pos * list stmt)) : bool :=
    match l with
    | [] => true
    | (pre, _, body) :: r => all_block pre && all_block body && all_arms r
    end.

  Lemma all_block_cons : forall x r, all_block (x :: r) = all_stmt x && all_block r.
  Proof. reflexivity. Qed.
  Lemma all_block_app : forall a b, all_block (a ++ b) = all_block a && all_block b.
  Proof.
    induction a as [| x a IH]; intro b; [ reflexivity | ].
    cbn [app all_block]. rewrite IH. apply andb_assoc.
  Qed.
  Lemma all_arms_cons : forall pre pof body r,
    all_arms ((pre, pof, body) :: r) = all_block pre && all_block body && all_arms r.
  Proof. reflexivity. Qed.

  Lemma all_stmt_head : forall x, all_stmt x = true -> P x = true.
  Proof. intros x H. destruct x; cbn [all_stmt] in H; apply andb_prop in H; tauto. Qed.
  Lemma all_stmt_SIf : forall p t, all_stmt (SIf p t) = P (SIf p t) && all_block t.
  Proof. reflexivity. Qed.
  Lemma all_stmt_SIfE : forall p t e, all_stmt (SIfE p t e) = P (SIfE p t e) && (all_block t && all_block e).
  Proof. reflexivity. Qed.
  Lemma all_stmt_SCase : forall arms d,
    all_stmt (SCase arms d) = P (SCase arms d) && (all_arms arms && all_block d).
  Proof. reflexivity. Qed.
  Lemma all_stmt_SUntil : forall b p, all_stmt (SUntil b p) = P (SUntil b p) && all_block b.
  Proof. reflexivity. Qed.
  Lemma all_stmt_SRepeat : forall b, all_stmt (SRepeat b) = P (SRepeat b) && all_block b.
  Proof. reflexivity. Qed.
  Lemma all_stmt_SWhile : forall c p b,
    all_stmt (SWhile c p b) = P (SWhile c p b) && (all_block c && all_block b).
  Proof. reflexivity. Qed.
  Lemma all_stmt_SDo : forall p b pl, all_stmt (SDo p b pl) = P (SDo p b pl) && all_block b.
  Proof. reflexivity. Qed.

  Lemma all_stmt_true : (forall x, P x = true) -> (forall x, all_stmt x = true) /\ (forall l, all_block l = true).
  Proof.
    intro HP.
    assert (Hs : forall x, all_stmt x = true).
    { apply (CompileLayout.stmt_ind2 (fun x => all_stmt x = true) (fun l => all_block l = true)
                       (fun a => all_arms a = true)).
      all: try (intros; cbn [all_stmt]; rewrite HP; reflexivity).
      - reflexivity.
      - intros x r Hx Hr. rewrite all_block_cons, Hx, Hr. reflexivity.
      - reflexivity.
      - intros pre p body r Hp Hb Hr. rewrite all_arms_cons, Hp, Hb, Hr. reflexivity.
      - intros p t Ht. rewrite all_stmt_SIf, HP, Ht. reflexivity.
      - intros p t e Ht He. rewrite all_stmt_SIfE, HP, Ht, He. reflexivity.
      - intros arms d Ha Hd. rewrite all_stmt_SCase, HP, Ha, Hd. reflexivity.
      - intros b p Hb. rewrite all_stmt_SUntil, HP, Hb. reflexivity.
      - intros b Hb. rewrite all_stmt_SRepeat, HP, Hb. reflexivity.
      - intros c p b Hc Hb. rewrite all_stmt_SWhile, HP, Hc, Hb. reflexivity.
      - intros p b pl Hb. rewrite all_stmt_SDo, HP, Hb. reflexivity. }
    split; [ exact Hs | ].
    induction l as [| x r IH]; [ reflexivity | ]. rewrite all_block_cons, Hs, IH. reflexivity.
  Qed.
End AllStmt.

(* [has_own_break x]: evaluating [x] can stop at a `break` that belongs to a loop AROUND [x]:
   a break directly in [x], or inside if / case / until inside [x] (until does not catch a
   break; repeat, while and do catch the breaks of their own bodies) *)
Fixpoint has_own_break (x : stmt) : bool :=
  let ob := fix ob (l : list stmt) : bool :=
              match l with [] => false | y :: r => has_own_break y || ob r end in
  match x with
  | SBreak => true
  | SIf _ t => ob t
  | SIfE _ t e => ob t || ob e
  | SCase arms d =>
    (fix go (l : list (list stmt * pos * list stmt)) : bool :=
       match l with
       | [] => false
       | (pre, _, body) :: r => ob pre || ob body || go r
       end) arms || ob d
  | SUntil b _ => ob b
  | _ => false
  end.
Fixpoint has_own_break_block (l : list stmt) : bool :=
  match l with [] => false | y :: r => has_own_break y || has_own_break_block r end.
Fixpoint has_own_break_arms (l : list (list stmt * pos * list stmt)) : bool :=
  match l with
  | [] => false
  | (pre, _, body) :: r => has_own_break_block pre || has_own_break_block body || has_own_break_arms r
  end.

Lemma has_own_break_SIf : forall p t, has_own_break (SIf p t) = has_own_break_block t.
Proof. reflexivity. Qed.
Lemma has_own_break_SIfE : forall p t e,
  has_own_break (SIfE p t e) = has_own_break_block t || has_own_break_block e.
Proof. reflexivity. Qed.
Lemma has_own_break_SCase : forall arms d,
  has_own_break (SCase arms d) = has_own_break_arms arms || has_own_break_block d.
Proof. reflexivity. Qed.
Lemma has_own_break_SUntil : forall b p, has_own_break (SUntil b p) = has_own_break_block b.
Proof. reflexivity. Qed.
Lemma has_own_break_block_app : forall a b,
  has_own_break_block (a ++ b) = has_own_break_block a || has_own_break_block b.
Proof.
  induction a as [| x a IH]; intro b; [ reflexivity | ].
  cbn [app has_own_break_block]. rewrite IH. apply orb_assoc.
Qed.

Definition funs_nobreak (funs : list (nat * list stmt)) : Prop :=
  forall g body, fun_body funs g = Some body -> has_own_break_block body = false.

Definition fin (r : sres) : option state :=
  match r with SDone s => Some s | SBroke s => Some s | _ => None end.

Definition post (Q : state -> Prop) (r : sres) : Prop := forall s', fin r = Some s' -> Q s'.

Lemma post_here : forall (Q : state -> Prop) r s, fin r = Some s -> Q s -> post Q r.
Proof. intros Q r s E H s' E'. rewrite E in E'. injection E' as <-. exact H. Qed.

Lemma post_none : forall Q r, fin r = None -> post Q r.
Proof. intros Q r E s' E'. rewrite E in E'. discriminate. Qed.

Lemma fin_of_or : forall r s, r = SDone s \/ r = SBroke s -> fin r = Some s.
Proof. intros r s [-> | ->]; reflexivity. Qed.

(* A property of results that holds of those without a final state (an error, out of fuel,
   outside the model) holds of [run_m m p s k] and of [on_res r kd kb] when it holds of the
   continuation that is taken. *)
Section Cases.
  Variable P : sres -> Prop.
  Hypothesis P_none : forall r, fin r = None -> P r.

  Lemma run_m_cases : forall A (m : M A) p s k,
    (forall a s1, m s = ROk a s1 -> P (k a s1)) -> P (run_m m p s k).
  Proof.
    intros A m p s k H. unfold run_m. destruct (m s); [ apply H; reflexivity | | | ]; apply P_none; reflexivity.
  Qed.

  Lemma on_res_cases : forall r kd kb,
    (forall s1, r = SDone s1 -> P (kd s1)) -> (forall s1, r = SBroke s1 -> P (kb s1)) ->
    P (on_res r kd kb).
  Proof.
    intros r kd kb Hd Hb. destruct r; cbn [on_res]; [ apply Hd | apply Hb | | | ]; try reflexivity;
      apply P_none; reflexivity.
  Qed.
End Cases.

Lemma bind_ok_inv : forall A B (m : M A) (f : A -> M B) s b s2,
  bind m f s = ROk b s2 -> exists a s1, m s = ROk a s1 /\ f a s1 = ROk b s2.
Proof. intros A B m f s b s2 H. unfold bind in H. destruct (m s); try discriminate. eauto. Qed.

Lemma wn_m_cond : forall c, wn false (m_cond c).
Proof. intro c. unfold m_cond. destruct (value c); constructor. Qed.
Lemma wn_m_test : wn false m_test.
Proof. apply wn_bind; [ apply wn_pop_data | apply wn_m_cond ]. Qed.
Lemma wn_m_of : wn false m_of.
Proof. repeat (constructor; intros). Qed.
Lemma wn_m_isize : forall c, wn false (m_isize c).
Proof. intro c. unfold m_isize. destruct (value c); try constructor. destruct (in_isize _); constructor. Qed.
Lemma wn_do_init : wn false do_init.
Proof.
  unfold do_init. repeat (apply wn_bind; [ first [ apply wn_pop_data | apply wn_m_isize ] | intro ]).
  apply wn_ret.
Qed.
Lemma wn_get_push : forall a, wn false (let* v := get_var a in push_data v).
Proof. repeat (constructor; intros). Qed.
Lemma wn_pop_set : forall a, wn false (let* v := pop_data in set_var a v).
Proof. repeat (constructor; intros). Qed.

Lemma wn_ok_keeps : forall fe A (m : M A) s a s', wn fe m -> m s = ROk a s' -> keeps fe s s'.
Proof. intros fe A m s a s' W E. pose proof (wn_keeps fe A m W s) as H. rewrite E in H. exact H. Qed.
Lemma wn_err_keeps : forall fe A (m : M A) s k p s', wn fe m -> m s = RErr k p s' -> keeps fe s s'.
Proof. intros fe A m s k p s' W E. pose proof (wn_keeps fe A m W s) as H. rewrite E in H. exact H. Qed.

Lemma top_frame_ok : forall s f s', top_frame s = ROk f s' -> s' = s /\ exists r, rs s = f :: r.
Proof.
  intros s f s' H. unfold top_frame in H. destruct (rs s) as [| f0 r]; [ discriminate | ].
  destruct (Nat.ltb _ _); [ | discriminate ]. injection H as <- <-. eauto.
Qed.

Lemma m_locget_keeps : forall i s a s', m_locget i s = ROk a s' -> keeps false s s'.
Proof.
  intros i s a s' H. unfold m_locget in H. apply bind_ok_inv in H as (fr & s1 & E & H).
  apply top_frame_ok in E as [-> _].
  destruct (nth_error (locals fr) i); [ | discriminate ].
  eapply wn_ok_keeps; [ apply wn_push_data | exact H ].
Qed.

Section Ends.
  Variable R : state -> state -> Prop.
  Notation ends s r := (post (R s) r).
  Hypothesis R_refl : forall s, R s s.
  Hypothesis R_trans : forall a b c, R a b -> R b c -> R a c.

  Lemma ends_done : forall s, ends s (SDone s).
  Proof. intro s. eapply post_here; [ reflexivity | apply R_refl ]. Qed.
  Lemma ends_broke : forall s, ends s (SBroke s).
  Proof. intro s. eapply post_here; [ reflexivity | apply R_refl ]. Qed.

  Lemma ends_after : forall s s1 r, R s s1 -> ends s1 r -> ends s r.
  Proof. intros s s1 r H1 H s' E. eapply R_trans; [ exact H1 | apply H; exact E ]. Qed.

  Lemma ends_run_m : forall A (m : M A) p s k,
    (forall a s1, m s = ROk a s1 -> R s s1) -> (forall a s1, ends s1 (k a s1)) ->
    ends s (run_m m p s k).
  Proof.
    intros A m p s k Hm Hk. apply run_m_cases; [ apply post_none | ].
    intros a s1 E. eapply ends_after; [ eapply Hm; exact E | apply Hk ].
  Qed.

  Lemma ends_on_res : forall s r kd kb,
    ends s r -> (forall s1, ends s1 (kd s1)) -> (forall s1, ends s1 (kb s1)) ->
    ends s (on_res r kd kb).
  Proof.
    intros s r kd kb Hr Hd Hb. apply on_res_cases; [ apply post_none | | ]; intros s1 E.
    - eapply ends_after; [ apply Hr; rewrite E; reflexivity | apply Hd ].
    - eapply ends_after; [ apply Hr; rewrite E; reflexivity | apply Hb ].
  Qed.

  Lemma do_iter_ends : forall (body : state -> sres) pl,
    (forall s, ends s (body s)) ->
    (forall s m s', loop_next s = ROk m s' -> R s s') ->
    forall k s, post (fun s' => exists s4 l, R s s4 /\ pop_loop s4 = ROk l s') (do_iter body pl k s).
  Proof.
    intros body pl Hb Hn. induction k as [| k IH]; intro s; [ apply post_none; reflexivity | ].
    rewrite do_iter_S. apply on_res_cases; [ apply post_none | | ]; intros s3 E;
      (assert (R3 : R s s3) by (apply Hb; rewrite E; reflexivity)).
    - apply run_m_cases; [ apply post_none | ]. intros more s4 E4.
      assert (R4 : R s s4) by (eapply R_trans; [ exact R3 | eapply Hn; exact E4 ]).
      destruct more.
      + intros s' E'. destruct (IH s4 s' E') as (s5 & l & R5 & P5).
        exists s5, l. split; [ eapply R_trans; eassumption | exact P5 ].
      + apply run_m_cases; [ apply post_none | ]. intros l s5 E5.
        eapply post_here; [ reflexivity | ]. exists s4, l. split; assumption.
    - apply run_m_cases; [ apply post_none | ]. intros l s5 E5.
      eapply post_here; [ reflexivity | ]. exists s3, l. split; assumption.
  Qed.
End Ends.

Section Generic.
  Variable fo : fops.
  Variable funs : list (nat * list stmt).
  Variable R : state -> state -> Prop.
  Variable ok : stmt -> bool.
  Notation sblock := (sblock fo funs).
  Notation sstmt := (sstmt fo funs).
  Notation ends s r := (post (R s) r).

  Hypothesis R_refl : forall s, R s s.
  Hypothesis R_trans : forall a b c, R a b -> R b c -> R a c.
  Hypothesis R_keeps : forall s s', keeps false s s' -> R s s'.
  Hypothesis H_prim : forall w p m s s',
    ok (SPrim w p) = true -> native_fn fo w = Some m -> m s = ROk tt s' -> R s s'.
  Hypothesis H_locset : forall i p v s s',
    ok (SLocSet i p) = true -> init_local i v s = ROk tt s' -> R s s'.
  Hypothesis H_call : forall f g p s,
    ok (SCall g p) = true ->
    (forall b s, all_block ok b = true -> ends s (sblock f b s)) ->
    ends s (sstmt (S f) (SCall g p) s).
  Hypothesis H_do : forall (body : state -> sres) pl l k s1 s2,
    (forall s, ends s (body s)) ->
    push_loop l s1 = ROk tt s2 -> ends s1 (do_iter body pl k s2).

  Let ends_done := ends_done R R_refl.
  Let ends_broke := ends_broke R R_refl.
  Let ends_run_m := ends_run_m R R_trans.
  Let ends_on_res := ends_on_res R R_trans.

  Lemma ends_wn : forall A (m : M A) p s k,
    wn false m -> (forall a s1, ends s1 (k a s1)) -> ends s (run_m m p s k).
  Proof.
    intros A m p s k W. apply ends_run_m. intros a s1 E. apply R_keeps. eapply wn_ok_keeps; eauto.
  Qed.

  Lemma gen_case_go : forall blk d,
    (forall l s, all_block ok l = true -> ends s (blk l s)) ->
    all_block ok d = true ->
    forall arms s, all_arms ok arms = true -> ends s (case_go blk d arms s).
  Proof.
    intros blk d Hblk Hd. induction arms as [| [[pre pof] body] r IH]; intros s Ha.
    - rewrite case_go_nil. apply Hblk. exact Hd.
    - rewrite case_go_cons. rewrite all_arms_cons in Ha.
      apply andb_prop in Ha as [Ha Hr]. apply andb_prop in Ha as [Hp Hbd].
      apply ends_on_res; [ apply Hblk; exact Hp | | apply ends_broke ].
      intro s1. apply ends_wn; [ apply wn_m_of | ]. intros [] s2; [ | apply IH; exact Hr ].
      apply ends_wn; [ apply wn_pop_data | ]. intros _ s3. apply Hblk. exact Hbd.
  Qed.

  Lemma gen_both : forall f,
    (forall b s, all_block ok b = true -> ends s (sblock f b s)) /\
    (forall x s, all_stmt ok x = true -> ends s (sstmt f x s)).
  Proof.
    induction f as [| f [IHb IHs]].
    - split; intros; apply post_none; reflexivity.
    - split.
      { intros [| x r] s Hok.
        - rewrite sblock_nil. apply ends_done.
        - rewrite sblock_cons. rewrite all_block_cons in Hok. apply andb_prop in Hok as [Hx Hr].
          apply ends_on_res; [ apply IHs; exact Hx | intro; apply IHb; exact Hr | apply ends_broke ]. }
      intros x s Hok. pose proof (all_stmt_head ok x Hok) as Hhead.
      destruct x as [c p | w p | g p | a p | a p | i p | i p | p t | p t e | arms d | b p | b | c p b | p b pl | | g].
      + rewrite sstmt_SLit. apply ends_wn; [ apply wn_push_data | intros; apply ends_done ].
      + rewrite sstmt_SPrim. destruct (native_fn fo w) as [m |] eqn:En; [ | apply post_none; reflexivity ].
        apply ends_run_m; [ | intros; apply ends_done ]. intros [] s1 E. eapply H_prim; eauto.
      + apply H_call; [ exact Hhead | exact IHb ].
      + rewrite sstmt_SGet. apply ends_wn; [ apply wn_get_push | intros; apply ends_done ].
      + rewrite sstmt_SSet. apply ends_wn; [ apply wn_pop_set | intros; apply ends_done ].
      + rewrite sstmt_SLocGet. apply ends_run_m; [ | intros; apply ends_done ].
        intros a s1 E. apply R_keeps. eapply m_locget_keeps; eauto.
      + rewrite sstmt_SLocSet. apply ends_run_m; [ | intros; apply ends_done ].
        intros [] s1 E. apply bind_ok_inv in E as (v & s0 & E0 & E1).
        eapply R_trans; [ apply R_keeps; eapply wn_ok_keeps; [ apply wn_pop_data | exact E0 ] | ].
        eapply H_locset; eauto.
      + rewrite sstmt_SIf. rewrite all_stmt_SIf in Hok. apply andb_prop in Hok as [_ Ht].
        apply ends_wn; [ apply wn_m_test | ]. intros [] s1; [ apply IHb; exact Ht | apply ends_done ].
      + rewrite sstmt_SIfE. rewrite all_stmt_SIfE in Hok. apply andb_prop in Hok as [_ Hte].
        apply andb_prop in Hte as [Ht He].
        apply ends_wn; [ apply wn_m_test | ]. intros [] s1; apply IHb; assumption.
      + rewrite sstmt_SCase. rewrite all_stmt_SCase in Hok. apply andb_prop in Hok as [_ Hok].
        apply andb_prop in Hok as [Ha Hd]. apply gen_case_go; assumption.
      + rewrite sstmt_SUntil. pose proof Hok as Hb.
        rewrite all_stmt_SUntil in Hb. apply andb_prop in Hb as [_ Hb].
        apply ends_on_res; [ apply IHb; exact Hb | | apply ends_broke ].
        intro s1. apply ends_wn; [ apply wn_m_test | ].
        intros [] s2; [ apply ends_done | apply IHs; exact Hok ].
      + rewrite sstmt_SRepeat. pose proof Hok as Hb.
        rewrite all_stmt_SRepeat in Hb. apply andb_prop in Hb as [_ Hb].
        apply ends_on_res; [ apply IHb; exact Hb | intro; apply IHs; exact Hok | apply ends_done ].
      + rewrite sstmt_SWhile. pose proof Hok as Hcb.
        rewrite all_stmt_SWhile in Hcb. apply andb_prop in Hcb as [_ Hcb].
        apply andb_prop in Hcb as [Hc Hb].
        apply ends_on_res; [ apply IHb; exact Hc | | apply ends_done ].
        intro s1. apply ends_wn; [ apply wn_m_test | ]. intros [] s2; [ | apply ends_done ].
        apply ends_on_res; [ apply IHb; exact Hb | intro; apply IHs; exact Hok | apply ends_done ].
      + rewrite sstmt_SDo. rewrite all_stmt_SDo in Hok. apply andb_prop in Hok as [_ Hb].
        apply ends_wn; [ apply wn_do_init | ]. intros l s1.
        destruct (l_end l <=? l_start l)%Z; [ apply ends_done | ].
        apply run_m_cases; [ apply post_none | ]. intros [] s2 E2.
        eapply H_do; [ | exact E2 ]. intro s0. apply IHb. exact Hb.
      + rewrite sstmt_SBreak. apply ends_broke.
      + rewrite sstmt_SDef. apply ends_done.
  Qed.
End Generic.
