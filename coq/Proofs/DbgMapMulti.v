(* DbgMapMulti.v (C17, 5): building a later source never modifies the debug entries (nor the
   texts) of earlier sources.

   Fix the debug map [dbg0] (length [base]) and the number [depth0] of nested contexts at the
   start of a build.  [K]: the debug map still starts with [dbg0], the sources still start
   with the earlier texts, and the context stack is
        pre ++ cm :: post      (length post = depth0 + 1)
   where cm is the context opened for this source (code mark = base, not a meta context) and
   every context in pre (opened by this source) has a code mark >= base.  The truncations
   (meta-block close, build_unwind) cut at the code mark of a context of pre ++ [cm], hence at
   or above base.  When a meta block fails while running, context_close has already dropped
   the context below it, so the error invariant [KE] only says that the contexts above the
   bottom depth0 + 1 ones have code marks >= base. *)
From Xeh Require Import Model.Prelude Model.Bits Model.Codec Model.Cell Model.Lexer Model.Fmt
                        Model.Vm Model.Words Model.Build Model.Boot.
From Xeh Require Import Proofs.VmFrame Proofs.VmLimits Proofs.DbgMapVm Proofs.DbgMapGen
                        Proofs.DbgMapAlign Proofs.BuildUnwind Proofs.BuildShape.

Definition cshape (c : ctx) : nat * mode := (cs_len c, cmode c).
Definition shape (s : state) : list (nat * mode) := map cshape (cx s :: nested s).

Lemma cshape_noip c c' : ctx_noip c' = ctx_noip c -> cshape c' = cshape c.
Proof. intros H. unfold cshape. rewrite (ctx_noip_cs _ _ H), (ctx_noip_mode _ _ H). reflexivity. Qed.

Lemma shape_vm s s' : vmrel s s' -> shape s' = shape s.
Proof.
  intros V. destruct (vmrel_keeps _ _ V) as (_ & _ & _ & _ & _ & K6 & K7).
  unfold shape. cbn [map]. rewrite K6, (cshape_noip _ _ K7). reflexivity.
Qed.

Lemma firstn_firstn_le {A} (l : list A) a b : a <= b -> firstn a (firstn b l) = firstn a l.
Proof. intros H. rewrite firstn_firstn. rewrite Nat.min_l by exact H. reflexivity. Qed.

Lemma firstn_app_le {A} (l x : list A) n : n <= length l -> firstn n (l ++ x) = firstn n l.
Proof.
  intros H. rewrite firstn_app. replace (n - length l) with 0 by lia.
  cbn [firstn]. apply app_nil_r.
Qed.

Section K.
  Variable base : nat.
  Variable dbg0 : list tokref.
  Variable srcs0 : list string.
  Variable depth0 : nat.
  Variable m0 : mode.
  Variable post0 : list (nat * mode).

  Definition shape_ok (l : list (nat * mode)) : Prop :=
    exists pre cm post, l = pre ++ cm :: post /\ length post = S depth0 /\
                        fst cm = base /\ snd cm <> MMeta /\ Forall (fun c => base <= fst c) pre /\
                        snd cm = m0 /\ post = post0.

  Definition shape_okE (l : list (nat * mode)) : Prop :=
    exists pre post, l = pre ++ post /\ length post = S depth0 /\ pre <> [] /\
                     Forall (fun c => base <= fst c) pre.

  Definition Kw (s : state) : Prop :=
    al s /\ firstn base (dbg s) = dbg0 /\ base <= length (dbg s) /\
    exists ext, sources s = srcs0 ++ ext.

  Definition K (s : state) : Prop := Kw s /\ shape_ok (shape s).
  Definition KE (s : state) : Prop := Kw s /\ shape_okE (shape s).

  Lemma shape_ok_E l : shape_ok l -> shape_okE l.
  Proof.
    intros (pre & cm & post & E & L & F1 & F2 & F3 & F4 & F5).
    exists (pre ++ [cm]), post. split; [rewrite <- app_assoc; exact E|]. split; [exact L|].
    split; [destruct pre; discriminate|]. apply Forall_app. split; [exact F3|].
    constructor; [lia|constructor].
  Qed.

  Lemma K_KE s : K s -> KE s.
  Proof. intros [A B]. split; [exact A|apply shape_ok_E; exact B]. Qed.

  Lemma shape_okE_head l : shape_okE l -> exists x r, l = x :: r /\ base <= fst x.
  Proof.
    intros (pre & post & E & L & N & F). destruct pre as [|x pre']; [congruence|].
    exists x, (pre' ++ post). split; [rewrite E; reflexivity|]. inversion F; assumption.
  Qed.

  (* a meta context on top of an ok stack: it belongs to pre *)
  Lemma shape_ok_meta x l : shape_ok (x :: l) -> snd x = MMeta -> base <= fst x /\ shape_ok l.
  Proof.
    intros (pre & cm & post & E & L & F1 & F2 & F3 & F4 & F5) Hx.
    destruct pre as [|y pre'].
    - cbn [app] in E. injection E as -> ->. congruence.
    - cbn [app] in E. injection E as -> ->. inversion F3 as [|a b Fa Fb]; subst. split; [exact Fa|].
      exists pre', cm, post0. repeat split; auto.
  Qed.

  Lemma shape_ok_meta_drop x y l : shape_ok (x :: y :: l) -> snd x = MMeta -> shape_okE (x :: l).
  Proof.
    intros (pre & cm & post & E & L & F1 & F2 & F3 & F4 & F5) Hx.
    destruct pre as [|x' pre'].
    - cbn [app] in E. injection E as -> <-. congruence.
    - cbn [app] in E. injection E as -> E. inversion F3 as [|a b Fa Fb]; subst.
      destruct pre' as [|y' pre''].
      + cbn [app] in E. injection E as -> ->. exists [x'], post0. repeat split; auto; discriminate.
      + cbn [app] in E. injection E as -> ->. inversion Fb as [|a b Fa' Fb']; subst.
        exists (x' :: pre'' ++ [cm]), post0. split; [cbn [app]; rewrite <- app_assoc; reflexivity|].
        split; [exact L|]. split; [discriminate|]. constructor; [exact Fa|].
        apply Forall_app. split; [exact Fb'|]. constructor; [lia|constructor].
  Qed.

  Lemma Kw_vm s s' : vmrel s s' -> Kw s -> Kw s'.
  Proof.
    intros V (A & B & C & D). destruct (vmrel_keeps _ _ V) as (K1 & K2 & K3 & _).
    split; [eapply al_vm; eassumption|]. rewrite K2, K3. auto.
  Qed.

  Lemma K_vm s s' : vmrel s s' -> K s -> K s'.
  Proof. intros V [A B]. split; [eapply Kw_vm; eassumption|]. rewrite (shape_vm _ _ V). exact B. Qed.

  Lemma KE_vm s s' : vmrel s s' -> KE s -> KE s'.
  Proof. intros V [A B]. split; [eapply Kw_vm; eassumption|]. rewrite (shape_vm _ _ V). exact B. Qed.

  Lemma Kw_eq s s' : code s' = code s -> dbg s' = dbg s -> sources s' = sources s -> Kw s -> Kw s'.
  Proof.
    intros E1 E2 E3 (A & B & C & D). split; [eapply al_eq; eassumption|]. rewrite E2, E3. auto.
  Qed.

  Lemma K_bk s s' : bk s s' -> K s -> K s'.
  Proof.
    intros (B1 & B2 & B3 & B4 & B5 & _) [A B]. split; [eapply Kw_eq; eassumption|].
    unfold shape. rewrite B4, B5. exact B.
  Qed.

  Lemma Kw_emit op s : Kw s -> Kw (emit_state op s).
  Proof.
    intros (A & B & C & D). split; [apply al_emit_state; exact A|].
    unfold emit_state. cbn [set_code set_dbg dbg sources].
    rewrite firstn_app_le by exact C. rewrite app_length. split; [exact B|]. split; [lia|exact D].
  Qed.

  Lemma Kw_trunc s n : base <= n -> Kw s ->
    Kw (set_dbg (set_code s (firstn n (code s))) (firstn n (dbg s))).
  Proof.
    intros Hn (A & B & C & D). split; [apply al_trunc; exact A|].
    cbn [set_code set_dbg dbg sources]. rewrite firstn_firstn_le by exact Hn.
    rewrite firstn_length. split; [exact B|]. split; [lia|exact D].
  Qed.

  Notation kgp := (gp K KE).

  Lemma K_emit op : kgp (code_emit op).
  Proof.
    intros s [A B]. rewrite code_emit_al by exact (proj1 A). split; [apply Kw_emit; exact A|exact B].
  Qed.

  Section Tok.
    Variable pr : string -> option Z.

    Lemma K_res_bk {A} (m : M A) : (forall s, res_all (bk s) (m s)) -> kgp m.
    Proof. apply (gp_bk K K KE (fun _ h => h) K_KE). exact K_bk. Qed.

    Lemma K_tok : kgp (get_token pr).
    Proof. apply K_res_bk. apply get_token_bk. Qed.

    Lemma K_name : kgp (next_name pr).
    Proof. apply K_res_bk. apply next_name_bk. Qed.
  End Tok.

  Lemma K_open_meta : kgp (context_open MMeta).
  Proof.
    intros s [A B]. unfold context_open. cbv zeta. split; [exact A|].
    unfold shape. cbn [set_nested set_cx cx nested map].
    destruct B as (pre & cm & post & E & L & F1 & F2 & F3 & F4 & F5).
    exists ((length (code s), MMeta) :: pre), cm, post.
    split; [cbn [app]; f_equal; exact E|]. split; [exact L|]. split; [exact F1|]. split; [exact F2|].
    split; [|split; [exact F4|exact F5]].
    constructor; [|exact F3]. cbn [fst]. destruct A as (Aa & _ & Ac & _). unfold al in Aa. lia.
  Qed.

  Lemma K_intern t : kgp (intern_source t).
  Proof.
    intros s [(A & B & C & (ext & D)) S]. unfold intern_source. cbv zeta.
    split; [|exact S]. split; [exact A|]. split; [exact B|]. split; [exact C|].
    exists (ext ++ [t]). cbn [set_input set_sources sources]. rewrite D, app_assoc. reflexivity.
  Qed.

  Section Close.
    Variable fo : fops.
    Variable rf : nat.

    Lemma close_Kw : forall s, Kw s -> (cmode (cx s) = MMeta -> base <= cs_len (cx s)) ->
      res_all Kw (context_close fo rf s).
    Proof.
      apply (close_data Kw (fun n => base <= n)).
      - exact Kw_vm.
      - intros s s' (E1 & E2 & E3 & _). apply Kw_eq; assumption.
      - intros op s s' E Hs. rewrite code_emit_al in E by exact (proj1 Hs). injection E as <-.
        apply Kw_emit. exact Hs.
      - intros s n. apply Kw_trunc.
    Qed.

    Lemma K_close : gq KE (fun s => K s /\ cmode (cx s) = MMeta) (fun _ => K) (context_close fo rf).
    Proof.
      intros s [[Hs Sh] Hm].
      assert (Hb : cmode (cx s) = MMeta -> base <= cs_len (cx s)).
      { intros _. unfold shape in Sh. cbn [map] in Sh. exact (proj1 (shape_ok_meta _ _ Sh Hm)). }
      pose proof (close_Kw s Hs Hb) as W.
      assert (S1 : forall prev rest u s1 s4, nested s = prev :: rest ->
                     run_m fo rf (set_nested s rest) = ROk u s1 -> emitted (close_cut s1) s4 ->
                     shape s4 = cshape (cx s) :: map cshape rest).
      { intros prev rest u s1 s4 En Er E4. destruct (emitted_frame _ _ E4) as (_ & _ & F3 & F4 & _).
        pose proof (run_m_vmrel fo rf (set_nested s rest)) as V. rewrite Er in V.
        unfold shape. rewrite F3, F4. exact (shape_vm _ _ V). }
      destruct (close_spec_holds fo rf s)
        as [En|prev rest En Em|prev rest u s1 En Em Er|prev rest k p s1 En Em Er|prev rest k p s1 En Em Er
           |prev rest u s1 s4 En Em Er E4|prev rest u s1 k p s4 En Em Er E4| | |];
        cbn [res_all] in W; try exact I; try congruence.
      - apply K_KE. split; assumption.
      - split; [exact W|]. pose proof (run_m_vmrel fo rf (set_nested s rest)) as V. rewrite Er in V.
        cbn [res_all] in V. destruct (vmrel_keeps _ _ V) as (_ & _ & _ & _ & _ & K6 & K7).
        unfold shape. cbn [set_nested cx nested map]. rewrite K6. cbn [set_nested nested map].
        rewrite (cshape_noip _ _ K7). apply shape_ok_E. unfold shape in Sh. rewrite En in Sh. exact Sh.
      - split; [exact W|]. unfold shape in Sh. rewrite En in Sh. cbn [map] in Sh.
        pose proof (S1 _ _ _ _ _ En Er E4) as X. unfold shape in X. cbn [map] in X.
        apply (f_equal (@tl _)) in X. cbn [tl] in X.
        unfold shape. cbn [set_cx cx nested map]. rewrite X. exact (proj2 (shape_ok_meta _ _ Sh Hm)).
      - split; [exact W|]. unfold shape in Sh. rewrite En in Sh. cbn [map] in Sh.
        rewrite (S1 _ _ _ _ _ En Er E4). exact (shape_ok_meta_drop _ _ _ Sh Hm).
    Qed.
  End Close.

  Lemma leave_contexts_shape : forall fuel s, shape_okE (shape s) ->
    shape_okE (shape (leave_contexts fuel depth0 s)).
  Proof.
    induction fuel as [|f IH]; intros s H; cbn [leave_contexts]; [exact H|].
    destruct (S depth0 <? length (nested s))%nat eqn:El; [|exact H].
    destruct (nested s) as [|prev rest] eqn:En; [exact H|].
    apply IH. apply Nat.ltb_lt in El. cbn [length] in El.
    destruct H as (pre & post & E & L & N & F).
    unfold shape in E. rewrite En in E. cbn [map] in E.
    unfold shape. cbn [set_cx set_nested cx nested map].
    assert (Hl : length (cshape (cx s) :: cshape prev :: map cshape rest) = length pre + length post)
      by (rewrite E, app_length; reflexivity).
    cbn [length] in Hl. rewrite map_length in Hl.
    destruct pre as [|x pre']; [congruence|]. destruct pre' as [|y pre''].
    - cbn [length] in Hl. lia.
    - cbn [app] in E. apply (f_equal (@tl _)) in E. cbn [tl] in E. exists (y :: pre''), post.
      split; [exact E|]. split; [exact L|]. split; [discriminate|]. inversion F; assumption.
  Qed.

  Lemma unwind_prefix : forall inputs dsl heapl s, KE s ->
    let s' := build_unwind depth0 inputs dsl heapl s in
    firstn base (dbg s') = dbg0 /\ base <= length (dbg s') /\ sources s' = sources s /\ al s'.
  Proof.
    intros inputs dsl heapl s [Hw He]. cbv zeta.
    (* the context returned to has its code mark at or above [base] *)
    assert (D : exists k, base <= k /\ dbg (build_unwind depth0 inputs dsl heapl s) = firstn k (dbg s)).
    { rewrite build_unwind_eq. cbv zeta. set (s0 := set_input s (lastn inputs (input s))).
      pose proof (leave_contexts_shape (S (length (nested s))) s0 He) as E1.
      destruct (shape_okE_head _ E1) as (x & r & Ex & Hx).
      destruct (leave_contexts_frame (S (length (nested s))) depth0 s0) as (c & n & E). rewrite E in *.
      injection Ex as <- _. exists (cs_len c). split; [exact Hx|].
      change (nested (unwind_cut dsl heapl (set_nested (set_cx s0 c) n))) with n.
      destruct n as [|prev rest]; [reflexivity|].
      destruct (depth0 <? length (prev :: rest))%nat; reflexivity. }
    destruct D as (k & Hk & D). destruct Hw as (Ha & X2 & X3 & _). rewrite D.
    split; [rewrite firstn_firstn_le by exact Hk; exact X2|].
    split; [rewrite firstn_length; lia|].
    split; [|apply al_build_unwind; exact Ha].
    destruct (build_unwind_shape depth0 inputs dsl heapl s) as (c & c' & n' & ->). reflexivity.
  Qed.
End K.

Section Top.
  Variable fo : fops.
  Variable pr : string -> option Z.
  Variable rf : nat.

  Definition keeps_earlier (s : state) (src : string) (s' : state) : Prop :=
    firstn (length (dbg s)) (dbg s') = dbg s /\ length (dbg s) <= length (dbg s') /\
    (exists ext, sources s' = sources s ++ src :: ext) /\ al s'.

  Definition start_state (src : string) (m : mode) (s : state) : state :=
    set_input (set_sources (set_nested (set_cx s (mkctx
         (if mode_eqb (cmode (cx s)) m then ds_len (cx s) else length (ds s))
         (length (code s)) (length (rs s)) (length (flows s)) (length (loops s))
         (length (special s)) (length (dict s)) (code_origin s) m)) (cx s :: nested s))
         (sources s ++ [src])) (mkinlex (length (sources s)) (lex_new src) :: input s).

  Lemma start_state_eq src m s : (context_open m;; intern_source src) s = ROk tt (start_state src m s).
  Proof. reflexivity. Qed.

  Lemma K_start : forall src m s, m <> MMeta -> al s ->
    K (length (dbg s)) (dbg s) (sources s ++ [src]) (length (nested s)) m (map cshape (cx s :: nested s))
      (start_state src m s).
  Proof.
    intros src m s Hm Ha. split.
    - split; [exact Ha|]. cbn [start_state set_input set_sources set_nested set_cx dbg sources].
      split; [apply firstn_all|]. split; [lia|]. exists []. rewrite app_nil_r. reflexivity.
    - unfold shape. cbn [start_state set_input set_sources set_nested set_cx cx nested map].
      exists [], (length (code s), m), (map cshape (cx s :: nested s)).
      split; [reflexivity|]. split; [cbn [map length]; rewrite map_length; reflexivity|].
      split; [cbn [fst]; unfold al in Ha; lia|]. split; [exact Hm|].
      split; [constructor|]. split; reflexivity.
  Qed.

  Lemma K_build1 : forall base dbg0 srcs0 depth0 m0 post0 fuel d,
    gp0 (K base dbg0 srcs0 depth0 m0 post0) (KE base dbg0 srcs0 depth0) (build1 fo pr rf fuel d).
  Proof.
    intros base dbg0 srcs0 depth0 m0 post0.
    exact (gp0_build1 fo pr rf (K base dbg0 srcs0 depth0 m0 post0) (K base dbg0 srcs0 depth0 m0 post0)
                    (KE base dbg0 srcs0 depth0)
                    (fun _ h => h) (K_KE base dbg0 srcs0 depth0 m0 post0)
                    (K_vm base dbg0 srcs0 depth0 m0 post0) (K_vm base dbg0 srcs0 depth0 m0 post0)
                    (K_emit base dbg0 srcs0 depth0 m0 post0)
                    (K_tok base dbg0 srcs0 depth0 m0 post0 pr) (gq_tok0_same _ _ _ (K_tok base dbg0 srcs0 depth0 m0 post0 pr))
                    (K_name base dbg0 srcs0 depth0 m0 post0 pr)
                    (K_open_meta base dbg0 srcs0 depth0 m0 post0) (K_close base dbg0 srcs0 depth0 m0 post0 fo rf)
                    (K_intern base dbg0 srcs0 depth0 m0 post0)).
  Qed.

  Theorem multi_build_from_source : forall fuel src m s, m <> MMeta -> al s ->
    res_all (keeps_earlier s src) (build_from_source fo pr rf fuel src m s).
  Proof.
    intros fuel src m s Hm Ha. unfold build_from_source. cbv zeta. rewrite start_state_eq.
    set (base := length (dbg s)). set (srcs0 := sources s ++ [src]). set (depth0 := length (nested s)).
    pose proof (K_build1 _ _ _ _ _ _ fuel (length (nested (start_state src m s))) _ (K_start src m s Hm Ha)) as H2.
    fold base srcs0 depth0 in H2.
    destruct (build1 fo pr rf fuel _ (start_state src m s)) as [u2 s2|k p s2| |]; auto.
    - destruct H2 as [Hw Hsh].
      assert (Hb : cmode (cx s2) = MMeta -> base <= cs_len (cx s2)).
      { intros Hmm. unfold shape in Hsh. cbn [map] in Hsh.
        exact (proj1 (shape_ok_meta base depth0 m _ _ _ Hsh Hmm)). }
      pose proof (close_Kw base (dbg s) srcs0 fo rf s2 Hw Hb) as H3.
      destruct (context_close fo rf s2) as [u s'|k p s'| |]; cbn [res_all] in *; auto;
        destruct H3 as (X1 & X2 & X3 & (ext & X4));
        (split; [exact X2|]; split; [exact X3|]; split; [|exact X1];
         exists ext; rewrite X4; unfold srcs0; rewrite <- app_assoc; reflexivity).
    - cbn [res_all].
      destruct (unwind_prefix base (dbg s) srcs0 depth0 (length (input s)) (length (ds s)) (length (heap s)) s2 H2)
        as (X1 & X2 & X3 & X4).
      split; [exact X1|]. split; [exact X2|]. split; [|exact X4].
      destruct H2 as [(_ & _ & _ & (ext & X5)) _]. exists ext. rewrite X3, X5. unfold srcs0.
      rewrite <- app_assoc. reflexivity.
  Qed.

  (* with no context of this source left open, the current context is the one opened for the
     source and the one below it is (up to ip) the context the build started in *)
  Lemma K_closed_shape : forall base dbg0 srcs0 depth0 m0 post0 s,
    K base dbg0 srcs0 depth0 m0 post0 s -> length (nested s) = S depth0 ->
    cmode (cx s) = m0 /\ map cshape (nested s) = post0.
  Proof.
    intros base dbg0 srcs0 depth0 m0 post0 s [_ (pre & cm & post & E & L & F1 & F2 & F3 & F4 & F5)] Hn.
    assert (Hl : length (shape s) = length pre + S (length post)) by (rewrite E, app_length; reflexivity).
    unfold shape in Hl, E. cbn [map length] in Hl. rewrite map_length in Hl.
    destruct pre as [|x pre']; [|cbn [length] in Hl; lia].
    cbn [app map] in E. injection E as E1 E2. split.
    - rewrite <- F4, <- E1. reflexivity.
    - rewrite E2. exact F5.
  Qed.

End Top.

Lemma keeps_earlier_entries s src s' : keeps_earlier s src s' ->
  (forall i t, nth_error (dbg s) i = Some t -> nth_error (dbg s') i = Some t) /\
  (forall n txt, nth_error (sources s) n = Some txt -> nth_error (sources s') n = Some txt) /\
  nth_error (sources s') (length (sources s)) = Some src.
Proof.
  intros (A & B & (ext & C) & _). split; [|split].
  - intros i t H. rewrite <- A in H.
    assert (L : i < length (dbg s)) by (rewrite <- A; apply nth_error_Some; congruence).
    rewrite <- (firstn_skipn (length (dbg s)) (dbg s')). rewrite nth_error_app1; [exact H|].
    rewrite firstn_length. lia.
  - intros n txt H. rewrite C. rewrite nth_error_app1; [exact H|]. apply nth_error_Some. congruence.
  - rewrite C. rewrite nth_error_app2 by lia. rewrite Nat.sub_diag. reflexivity.
Qed.

Lemma intern_source_appends t s :
  intern_source t s = ROk tt (set_input (set_sources s (sources s ++ [t]))
                                        (mkinlex (length (sources s)) (lex_new t) :: input s)).
Proof. reflexivity. Qed.
