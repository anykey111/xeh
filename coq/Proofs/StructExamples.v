(* StructExamples.v: concrete programs and states used by Props/C01_struct.v to show that the
   hypotheses of its theorems are satisfiable, and the checkers that turn the syntactic
   hypotheses about function tables into computations. *)
From Xeh Require Import Model.Prelude Model.Bits Model.Codec Model.Cell Model.Lexer Model.Fmt
                        Model.Vm Model.Words Model.Struct Model.Boot
                        Proofs.VmFrame Proofs.StructBase Proofs.StructNat Proofs.StructInv
                        Proofs.StructLoops Proofs.StructRs Proofs.StructDo Proofs.StructNonterm.
Local Notation length := List.length.
Local Open Scope string_scope.

Lemma fun_body_In : forall funs g body, fun_body funs g = Some body -> In (g, body) funs.
Proof.
  induction funs as [| [k b] r IH]; intros g body H; cbn [fun_body] in H; [ discriminate | ].
  destruct (Nat.eqb_spec k g).
  - injection H as <-. subst. left. reflexivity.
  - right. apply IH. exact H.
Qed.

Definition xfo : fops := fops_with Z.add Z.sub Z.mul Z.div Z.rem Z.min Z.max.
Definition nopr : string -> option Z := fun _ => None.

(* definitions with a local, a redefinition, a begin/repeat left by break, nested counted loops *)
Definition ex_src : string :=
  ": sq local x x x * ; : quad sq sq ; : sq 1 + ; 2 quad sq begin dup 1000 > if break then dup * repeat 2 0 do 3 0 do J I loop loop".

Definition ex_prog : list stmt * list (nat * list stmt) :=
  match parse_source xfo nopr ex_src 6 with
  | Some (b, fs, _) => (b, fs)
  | None => ([], [])
  end.
Definition ex_body : list stmt := fst ex_prog.
Definition ex_funs : list (nat * list stmt) := snd ex_prog.

Definition res_ds (r : sres) : option (list cell) :=
  match r with SDone s => Some (ds s) | _ => None end.
Definition res_stacks (r : sres) : option (list loopr * list frame) :=
  match r with SDone s => Some (loops s, rs s) | SBroke s => Some (loops s, rs s) | _ => None end.

Definition p0 : pos := (0, 0)%nat.

(* begin 1 drop repeat *)
Definition ex_spin_body : list stmt := [SLit (CInt 1) p0; SPrim "drop" p0].
Lemma ex_spin_inv : forall f s, s = boot ->
  sblock xfo [] f ex_spin_body s = SOut \/ exists s', sblock xfo [] f ex_spin_body s = SDone s' /\ s' = boot.
Proof.
  intros f s ->. destruct f as [| [| [| f]]]; try (left; reflexivity).
  right. exists boot. split; [ vm_compute; reflexivity | reflexivity ].
Qed.

(* begin false until *)
Definition ex_until_body : list stmt := [SLit (CFlag false) p0].
Lemma ex_until_inv : forall f s, s = boot ->
  sblock xfo [] f ex_until_body s = SOut \/
  exists s1 s2, sblock xfo [] f ex_until_body s = SDone s1 /\ m_test s1 = ROk false s2 /\ s2 = boot.
Proof.
  intros f s ->. destruct f as [| [| f]]; try (left; reflexivity).
  right. exists (set_ds boot [CFlag false]), boot.
  split; [ vm_compute; reflexivity | ]. split; [ vm_compute; reflexivity | reflexivity ].
Qed.

(* begin true while repeat *)
Definition ex_while_cond : list stmt := [SLit (CFlag true) p0].
Lemma ex_while_inv : forall f s, s = boot ->
  sblock xfo [] f ex_while_cond s = SOut \/
  exists s1 s2, sblock xfo [] f ex_while_cond s = SDone s1 /\ m_test s1 = ROk true s2 /\
                (sblock xfo [] f [] s2 = SOut \/ exists s3, sblock xfo [] f [] s2 = SDone s3 /\ s3 = boot).
Proof.
  intros f s ->. destruct f as [| [| f]]; try (left; reflexivity).
  right. exists (set_ds boot [CFlag true]), boot.
  split; [ vm_compute; reflexivity | ]. split; [ vm_compute; reflexivity | ].
  right. exists boot. split; reflexivity.
Qed.

(* the conditions of the "never done" theorems for these loops: after a block that pushes a
   flag, the test finds that flag *)
Lemma lit_flag_test : forall fo funs f c p s s1 b s2,
  sblock fo funs f [SLit (CFlag c) p] s = SDone s1 -> m_test s1 = ROk b s2 -> b = c.
Proof.
  intros fo funs f c p s s1 b s2 H. destruct f as [| [| f]]; try discriminate.
  rewrite sblock_cons, sstmt_SLit in H.
  unfold run_m in H. destruct (push_data (CFlag c) s) as [[] s' | | |] eqn:E; cbn [on_res] in H; try discriminate.
  rewrite sblock_nil in H. injection H as <-.
  unfold push_data in E. destruct (limit_reached _ _); [ discriminate | ]. injection E as <-.
  unfold m_test, bind, pop_data. cbn [ds set_ds].
  destruct (Nat.ltb _ _); [ | discriminate ]. cbn. intro Et. injection Et as <- _. reflexivity.
Qed.

(* `3 0 do`: the start index is on top *)
Definition ex_do_state : state := set_ds boot [CInt 0; CInt 3].
Definition ex_do_zero_state : state := set_ds boot [CInt 5; CInt 5].
(* a loop record and a vector on the stack, for "%foreach-next" *)
Definition ex_foreach_state : state := set_ds (set_loops boot [mkloop CNil 0 3]) [CVec [CInt 7]].
(* a frame, for `local` *)
Definition ex_frame_state : state := set_ds (set_rs boot [mkframe 0 0 []]) [CInt 9].
