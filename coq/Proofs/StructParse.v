(* StructParse.v: facts about the parser [pseq] of Model/Struct.v.
   * name resolution: [rpos] finds the newest declaration of a local (its last occurrence),
     [lookup] the newest binding of a global (the first in the newest-first list);
   * a parse ends at the end of the input or at one of the terminators it was given
     ([pseq_term]);
   * the invariant of a parse, for every token list: what has been compiled stays compiled
     (the accumulator is a prefix of the result), function ids are allocated in increasing
     order and an id once bound keeps its body (so a call compiled before a redefinition
     keeps calling the old body), the nesting counters are restored, the pending-break flag
     is exact enough that neither the top level of a parsed source nor the body of any parsed
     definition has a `break` at its own level. *)
From Xeh Require Import Model.Prelude Model.Bits Model.Codec Model.Cell Model.Lexer Model.Fmt
                        Model.Vm Model.Words Model.Struct Proofs.StructBase Proofs.StructNat Proofs.StructInv
                        Proofs.StructLoops Proofs.StructRs.
Local Notation length := List.length.
Local Open Scope string_scope.

Lemma rpos_app : forall l1 l2 n i acc,
  rpos (l1 ++ l2) n i acc = rpos l2 n (i + length l1) (rpos l1 n i acc).
Proof.
  induction l1 as [| x r IH]; intros l2 n i acc; cbn [app rpos length].
  - rewrite Nat.add_0_r. reflexivity.
  - rewrite IH. replace (S i + length r) with (i + S (length r)) by lia. reflexivity.
Qed.

Lemma rpos_declared_other : forall ls m n, m <> n -> rpos (ls ++ [m]) n 0 None = rpos ls n 0 None.
Proof.
  intros ls m n H. rewrite rpos_app. cbn [rpos]. apply String.eqb_neq in H. rewrite H. reflexivity.
Qed.

Lemma rpos_some : forall l n i acc k,
  rpos l n i acc = Some k ->
  (acc = Some k /\ ~ In n l) \/
  (exists j, k = i + j /\ nth_error l j = Some n /\ forall j', j < j' -> nth_error l j' <> Some n).
Proof.
  induction l as [| x r IH]; intros n i acc k H; cbn [rpos] in H.
  - left. split; [ exact H | intros [] ].
  - apply IH in H as [(Ha & Hn) | (j & Hk & Hj & Hlast)].
    + destruct (String.eqb_spec x n) as [-> | Ne].
      * right. exists 0. injection Ha as <-. repeat split; [ lia | ].
        intros j' Hj' E. destruct j' as [| j']; [ lia | ]. cbn in E. apply nth_error_In in E. contradiction.
      * left. split; [ exact Ha | ]. intros [E | E]; [ contradiction | contradiction ].
    + right. exists (S j). repeat split; [ lia | exact Hj | ].
      intros j' Hj' E. destruct j' as [| j']; [ lia | ]. cbn in E. apply (Hlast j'); [ lia | exact E ].
Qed.

Lemma rpos_none_acc : forall l n i acc, ~ In n l -> rpos l n i acc = acc.
Proof.
  induction l as [| x r IH]; intros n i acc H; [ reflexivity | ].
  cbn [rpos]. destruct (String.eqb_spec x n) as [-> | Ne].
  - exfalso. apply H. left. reflexivity.
  - apply IH. intro E. apply H. right. exact E.
Qed.

Lemma rpos_in : forall l n i acc, In n l -> exists k, rpos l n i acc = Some k.
Proof.
  induction l as [| x r IH]; intros n i acc H; [ destruct H | ].
  cbn [rpos]. destruct (in_dec string_dec n r) as [Hr | Hr].
  - apply IH. exact Hr.
  - destruct H as [-> | H]; [ | contradiction ].
    rewrite String.eqb_refl, rpos_none_acc by exact Hr. eauto.
Qed.

Lemma lookup_newest : forall n b l, lookup ((n, b) :: l) n = Some b.
Proof. intros. cbn [lookup]. rewrite String.eqb_refl. reflexivity. Qed.

Lemma lookup_app_first : forall l1 l2 n b, lookup l1 n = Some b -> lookup (l1 ++ l2) n = Some b.
Proof.
  induction l1 as [| [k c] r IH]; intros l2 n b H; [ discriminate | ].
  cbn [app lookup] in *. destruct (String.eqb k n); auto.
Qed.

Definition local_ix (e : penv) (w : string) : option nat :=
  match plocals e with Some ls => rpos ls w 0 None | None => None end.

Definition stmt_of_binding (bd : binding) (p : pos) : stmt :=
  match bd with
  | BVar x => SGet x p
  | BFun g => SCall g p
  | BConst c => SLit c p
  end.

Section Steps.
  Variable fo : fops.
  Variable pr : string -> option Z.
  Notation pseq := (pseq fo pr).

  Definition def_env (e : penv) (name : string) : penv :=
    mkpenv ((name, BFun (nfun e)) :: names e) (funs e) (S (nfun e)) (nheap e) (Some [])
           (loopdepth e) (S (nest e)).
  Definition after_def (e e1 : penv) (body : list stmt) : penv :=
    mkpenv (names e1) ((nfun e, body) :: funs e1) (nfun e1) (nheap e1) None (loopdepth e) (nest e).

  Theorem pseq_colon_step : forall f a b rest e terms acc brk name na nb r0 body tp r1 e1,
    local_ix e ":" = None -> lookup (names e) ":" = None -> mem terms ":" = false ->
    plocals e = None -> skipb rest = (TWord name, na, nb) :: r0 ->
    pseq f r0 (def_env e name) [";"] [] false = POk body ";" tp r1 e1 false ->
    pseq (S f) ((TWord ":", a, b) :: rest) e terms acc brk =
    pseq f r1 (after_def e e1 body) terms (SDef (nfun e) :: acc) brk.
  Proof.
    intros f a b rest e terms acc brk name na nb r0 body tp r1 e1 H H0 H1 H2 H3 H4.
    unfold local_ix in H. cbn [Struct.pseq]. rewrite H, H0, H1. cbn. rewrite H2, H3.
    unfold def_env in H4. rewrite H4. reflexivity.
  Qed.
End Steps.

Section Arms.
  Variable pf : list (tok * nat * nat) -> penv -> list string -> list stmt -> bool -> pres.
  Variable e : penv.
  Variable terms : list string.
  Variable acc : list stmt.
  Fixpoint parse_arms (k : nat) (toks : list (tok * nat * nat)) (e' : penv)
           (got : list (list stmt * pos * list stmt)) (brk' : bool) : pres :=
    match k with
    | O => PUnsup
    | S k' =>
      match pf toks e' ["of"; "endcase"] [] false with
      | POk pre "of" pof r1 e1 b1 =>
        match pf r1 e1 ["endof"] [] false with
        | POk body "endof" _ r2 e2 b2 => parse_arms k' r2 e2 (got ++ [(pre, pof, body)])%list (brk' || b1 || b2)
        | POk _ _ _ _ _ _ => PErr EFlow
        | x => x
        end
      | POk dflt "endcase" _ r1 e1 b1 =>
        pf r1 (leave e e1) terms (SCase got dflt :: acc) (brk' || b1)
      | POk _ _ _ _ _ _ => PErr EFlow
      | x => x
      end
    end.
End Arms.

(* the word `case` apart: [cbn [pseq]] would also unfold its loop over the arms, which runs on
   the fuel [S f]; here the loop keeps its name *)
Lemma pseq_case_unfold : forall fo pr f a b rest e terms acc brk,
  pseq fo pr (S f) ((TWord "case", a, b) :: rest) e terms acc brk =
  match local_ix e "case" with
  | Some i => pseq fo pr f rest e terms (SLocGet i (a, b) :: acc) brk
  | None =>
    match lookup (names e) "case" with
    | Some bd => pseq fo pr f rest e terms (stmt_of_binding bd (a, b) :: acc) brk
    | None =>
      if mem terms "case" then POk (rev acc) "case" (a, b) rest e brk
      else parse_arms (pseq fo pr f) e terms acc (S f) rest (enter e false) [] brk
    end
  end.
Proof.
  intros. unfold local_ix. cbn [pseq].
  destruct (match plocals e with Some ls => rpos ls "case" 0 None | None => None end); [ reflexivity | ].
  destruct (lookup (names e) "case") as [[] |]; try reflexivity.
Qed.

Definition term_in (terms : list string) (r : pres) : Prop :=
  match r with POk _ t _ _ _ _ => t = "" \/ In t terms | _ => True end.

Lemma mem_In : forall l n, mem l n = true -> In n l.
Proof.
  intros l n H. apply existsb_exists in H as (x & Hx & E). apply String.eqb_eq in E. subst x. exact Hx.
Qed.

(* One step down the body of [pseq], for a goal [P (pseq ..)]: the condition of an `if` and
   the scrutinee of a `match` are named and destructed.  Where the scrutinee is a sub-parse,
   [T] (it returns one of its terminators) gives one case for each terminator, in which the
   match on the terminator string computes. *)
Ltac pstep T :=
  lazymatch goal with
  | |- _ (if ?c then _ else _) => destruct c eqn:?; try discriminate
  | |- _ (match pseq ?fo ?pr ?f ?t ?e ?tm ?ac ?bk with _ => _ end) =>
    let I := fresh "I" in
    pose proof (T t e tm ac bk) as I;
    destruct (pseq fo pr f t e tm ac bk) eqn:?;
    [ cbn [term_in In] in I; decompose [or] I; clear I; try contradiction; subst; cbv beta match | .. ]
  | |- _ (match ?x with _ => _ end) => destruct x eqn:?
  end.

Section Term.
  Variable fo : fops.
  Variable pr : string -> option Z.

  Lemma arms_term : forall f,
    (forall toks e terms acc brk, term_in terms (pseq fo pr f toks e terms acc brk)) ->
    forall e terms acc k toks e' got brk',
      term_in terms (parse_arms (pseq fo pr f) e terms acc k toks e' got brk').
  Proof.
    intros f IH e terms acc. induction k as [| k IHk]; intros toks e' got brk'; [ exact I | ].
    cbn [parse_arms]. repeat pstep IH; first [ exact I | apply IH | apply IHk ].
  Qed.

  Theorem pseq_term : forall f toks e terms acc brk, term_in terms (pseq fo pr f toks e terms acc brk).
  Proof.
    induction f as [| f IH]; intros toks e terms acc brk; [ exact I | ].
    destruct toks as [| [[[| w | | | c | txt | x y z] a] b] rest];
      try (cbn [pseq]; first [ apply IH | exact I | left; reflexivity ]).
    - destruct (String.eqb w "case") eqn:Ecase.
      + apply String.eqb_eq in Ecase. subst w. rewrite pseq_case_unfold.
        repeat pstep IH; try apply IH.
        * right. apply mem_In. assumption.
        * apply arms_term. exact IH.
      + cbn [pseq]. repeat pstep IH; try exact I; try apply IH.
        right. apply mem_In. assumption.
    - cbn [pseq]. destruct (pr txt); [ apply IH | exact I ].
  Qed.
End Term.

Definition kext (e e' : penv) : Prop :=
  nfun e <= nfun e' /\
  (forall g, g < nfun e -> fun_body (funs e') g = fun_body (funs e) g) /\
  loopdepth e' = loopdepth e /\ nest e' = nest e /\
  (plocals e = None -> plocals e' = None) /\
  (forall ls, plocals e = Some ls -> 0 < nest e ->
     exists more, plocals e' = Some (ls ++ more)%list /\ names e' = names e) /\
  (funs_nobreak (funs e) -> funs_nobreak (funs e')) /\
  nheap e <= nheap e'.

Definition pinv (e : penv) (acc : list stmt) (brk : bool) (r : pres) : Prop :=
  match r with
  | POk body term tp rest e' brk' =>
      kext e e' /\ exists l, body = (rev acc ++ l)%list /\
        (brk = true -> brk' = true) /\ (has_own_break_block l = true -> brk' = true) /\
        (loopdepth e = 0 -> brk = false -> brk' = false) /\
        (plocals e = None -> no_local_block l = true)
  | _ => True
  end.

Lemma kext_refl : forall e, kext e e.
Proof.
  intro e. unfold kext. repeat split; auto. intros ls H _. exists []. rewrite app_nil_r. auto.
Qed.

Lemma kext_trans : forall a b c, kext a b -> kext b c -> kext a c.
Proof.
  intros a b c (A1 & A2 & A3 & A4 & A5 & A6 & A7 & A8) (B1 & B2 & B3 & B4 & B5 & B6 & B7 & B8).
  unfold kext. repeat split; try lia; try congruence; auto.
  - intros g Hg. rewrite B2 by lia. apply A2. exact Hg.
  - intros ls H N. destruct (A6 ls H N) as (m1 & P1 & N1).
    destruct (B6 _ P1) as (m2 & P2 & N2); [ lia | ].
    exists (m1 ++ m2)%list. rewrite app_assoc. split; congruence.
Qed.

Lemma kext_enter_leave : forall e il e2, kext (enter e il) e2 -> kext e (leave e e2).
Proof.
  intros e il e2 (A1 & A2 & A3 & A4 & A5 & A6 & A7 & A8). unfold kext. cbn in *.
  repeat split; auto.
  all: try (intros ls H N; apply A6; [ exact H | lia ]).
Qed.

Lemma kext_set_locals : forall e ls name,
  plocals e = Some ls -> kext e (set_locals e (Some (ls ++ [name])%list)).
Proof.
  intros e ls name H. unfold kext. cbn. repeat split; auto.
  - intro N. congruence.
  - intros ls0 H0 _. rewrite H in H0. injection H0 as <-. exists [name]. auto.
Qed.

Lemma kext_var : forall e name,
  (0 <? nest e)%nat = false ->
  kext e (mkpenv ((name, BVar (nheap e)) :: names e) (funs e) (nfun e) (S (nheap e)) (plocals e)
                 (loopdepth e) (nest e)).
Proof.
  intros e name H. apply Nat.ltb_ge in H. unfold kext. cbn. repeat split; auto.
  intros ls _ N. lia.
Qed.

Lemma funs_nobreak_cons : forall g body fs,
  has_own_break_block body = false -> funs_nobreak fs -> funs_nobreak ((g, body) :: fs).
Proof.
  intros g body fs Hb Hf g' b' H. cbn [fun_body] in H. destruct (Nat.eqb g g').
  - injection H as <-. exact Hb.
  - eapply Hf; eauto.
Qed.

Lemma kext_colon : forall e name e1 body,
  plocals e = None -> kext (def_env e name) e1 -> has_own_break_block body = false ->
  kext e (after_def e e1 body).
Proof.
  intros e name e1 body HN (A1 & A2 & A3 & A4 & A5 & A6 & A7 & A8) Hb. unfold kext. cbn in *.
  repeat split; auto; try lia.
  - intros g Hg. destruct (Nat.eqb_spec (nfun e) g); [ lia | ]. apply A2. lia.
  - intros ls H. congruence.
  - intro Hf. apply funs_nobreak_cons; auto.
Qed.

Lemma pinv_here : forall e acc brk t tp rest, pinv e acc brk (POk (rev acc) t tp rest e brk).
Proof.
  intros. cbn [pinv]. split; [ apply kext_refl | ]. exists []. rewrite app_nil_r.
  repeat split; auto. discriminate.
Qed.

Lemma kext_locN : forall e e', kext e e' -> plocals e = None -> plocals e' = None.
Proof. intros e e' H. apply H. Qed.

Lemma kext_depth : forall e e', kext e e' -> loopdepth e' = loopdepth e.
Proof. intros e e' H. apply H. Qed.

Lemma pinv_tail : forall e e1 acc x brk brk1 r,
  pinv e1 (x :: acc) brk1 r ->
  kext e e1 -> (brk = true -> brk1 = true) -> (has_own_break x = true -> brk1 = true) ->
  (loopdepth e = 0 -> brk = false -> brk1 = false) ->
  (plocals e = None -> no_local_stmt x = true) ->
  pinv e acc brk r.
Proof.
  intros e e1 acc x brk brk1 r H K B1 B2 B3 B4. destruct r as [body t tp rest e' brk' | |]; cbn [pinv] in *; auto.
  destruct H as (K' & l & -> & C1 & C2 & C3 & C4). split; [ eapply kext_trans; eauto | ].
  exists (x :: l). cbn [rev]. rewrite <- app_assoc. cbn [app]. repeat split; auto.
  - cbn [has_own_break_block]. intro H. apply orb_prop in H as [H | H]; auto.
  - intros D N. apply C3; auto. rewrite (kext_depth _ _ K). exact D.
  - intro N. unfold no_local_block. rewrite all_block_cons. unfold no_local_stmt in B4. rewrite (B4 N).
    apply C4. apply (kext_locN _ _ K N).
Qed.

Lemma pinv_step : forall e e1 acc x brk r,
  pinv e1 (x :: acc) brk r ->
  kext e e1 -> has_own_break x = false -> (plocals e = None -> no_local_stmt x = true) ->
  pinv e acc brk r.
Proof.
  intros e e1 acc x brk r H K B N. apply (pinv_tail e e1 acc x brk brk r H); auto.
  rewrite B. discriminate.
Qed.

Lemma no_pending : forall b : bool, (b = true -> false = true) -> b = false.
Proof. intros [] H; [ discriminate (H eq_refl) | reflexivity ]. Qed.

Lemma sub_block : forall e il e0 body t tp rest e1 b1,
  kext (enter e il) e0 -> pinv e0 [] false (POk body t tp rest e1 b1) ->
  kext (enter e il) e1 /\ (has_own_break_block body = true -> b1 = true) /\
  (loopdepth e = 0 -> il = false -> b1 = false) /\ (plocals e = None -> all_block ok_nolocal body = true).
Proof.
  intros e il e0 body t tp rest e1 b1 K (K1 & l & -> & _ & HB & HD & HN). cbn [rev app] in *.
  split; [ eapply kext_trans; eauto | ]. split; [ exact HB | ]. split.
  - intros D ->. apply HD; [ | reflexivity ]. rewrite (kext_depth _ _ K). exact D.
  - intro N. apply HN. apply (kext_locN _ _ K). exact N.
Qed.

(* [sub_block] for every sub-parse among the hypotheses ([IH]: the invariant at their fuel) *)
Ltac sub_blocks IH :=
  repeat match goal with
  | E : pseq _ _ _ ?t ?e0 ?tm [] false = POk _ _ _ _ _ _ |- _ =>
    let H := fresh "H" in
    pose proof (IH t e0 tm [] false) as H; rewrite E in H;
    eapply sub_block in H; [ | first [ apply kext_refl | eassumption ] ]; clear E;
    let K := fresh "K" in let HB := fresh "HB" in let HD := fresh "HD" in let HN := fresh "HN" in
    destruct H as (K & HB & HD & HN)
  end.

Lemma all_arms_app : forall P a b, all_arms P (a ++ b) = all_arms P a && all_arms P b.
Proof.
  intros P. induction a as [| [[pre pof] body] a IH]; intro b; [ reflexivity | ].
  cbn [app]. rewrite !all_arms_cons, IH. rewrite !andb_assoc. reflexivity.
Qed.

Lemma has_own_break_arms_app : forall a b,
  has_own_break_arms (a ++ b) = has_own_break_arms a || has_own_break_arms b.
Proof.
  induction a as [| [[pre pof] body] a IH]; intro b; [ reflexivity | ].
  cbn [app has_own_break_arms]. rewrite IH. rewrite !orb_assoc. reflexivity.
Qed.

Section Inv.
  Variable fo : fops.
  Variable pr : string -> option Z.

  Lemma arms_inv : forall f,
    (forall toks e terms acc brk, pinv e acc brk (pseq fo pr f toks e terms acc brk)) ->
    forall e terms acc brk k toks e' got brk',
      kext (enter e false) e' -> (brk = true -> brk' = true) ->
      (has_own_break_arms got = true -> brk' = true) ->
      (loopdepth e = 0 -> brk = false -> brk' = false) ->
      (plocals e = None -> all_arms ok_nolocal got = true) ->
      pinv e acc brk (parse_arms (pseq fo pr f) e terms acc k toks e' got brk').
  Proof.
    intros f IH e terms acc brk. induction k as [| k IHk]; intros toks e' got brk' Hk B1 B2 B3 B4; [ exact I | ].
    cbn [parse_arms]. repeat pstep (pseq_term fo pr f); try exact I; sub_blocks IH.
    - (* another arm *)
      apply IHk.
      + exact K0.
      + intro H. rewrite (B1 H). reflexivity.
      + rewrite has_own_break_arms_app. cbn [has_own_break_arms]. rewrite orb_false_r. intro H.
        apply orb_prop in H as [H | H]; [ rewrite (B2 H); reflexivity | ].
        apply orb_prop in H as [H | H]; [ rewrite (HB H) | rewrite (HB0 H) ]; rewrite ?orb_true_r; reflexivity.
      + intros D N. rewrite (B3 D N), (HD D eq_refl), (HD0 D eq_refl). reflexivity.
      + intro N. rewrite all_arms_app, (B4 N), all_arms_cons, (HN N), (HN0 N). reflexivity.
    - (* endcase *)
      eapply pinv_tail; [ apply IH | eapply kext_enter_leave; exact K | | | | ].
      + intro H. rewrite (B1 H). reflexivity.
      + rewrite has_own_break_SCase. intro H.
        apply orb_prop in H as [H | H]; [ rewrite (B2 H); reflexivity | rewrite (HB H); apply orb_true_r ].
      + intros D N. rewrite (B3 D N), (HD D eq_refl). reflexivity.
      + intro N. unfold no_local_stmt. rewrite all_stmt_SCase, (B4 N), (HN N). reflexivity.
  Qed.

  Theorem pseq_inv : forall f toks e terms acc brk, pinv e acc brk (pseq fo pr f toks e terms acc brk).
  Proof.
    induction f as [| f IH]; intros toks e terms acc brk; [ exact I | ].
    assert (single : forall t x, has_own_break x = false -> no_local_stmt x = true ->
                     pinv e acc brk (pseq fo pr f t e terms (x :: acc) brk)).
    { intros t x B N. eapply pinv_step; [ apply IH | apply kext_refl | exact B | intro; exact N ]. }
    destruct toks as [| [[[| w | | | c | txt | x y z] a] b] rest];
      try (cbn [pseq]; first [ apply pinv_here | apply IH | exact I ]).
    - destruct (String.eqb w "case") eqn:Ecase.
      + apply String.eqb_eq in Ecase. subst w. rewrite pseq_case_unfold.
        repeat pstep (pseq_term fo pr f).
        * apply single; reflexivity.
        * destruct b0; apply single; reflexivity.
        * apply pinv_here.
        * apply arms_inv; auto; [ apply kext_refl | discriminate ].
      + cbn [pseq]. repeat pstep (pseq_term fo pr f); try exact I; sub_blocks IH;
          try (apply single; reflexivity).
        * apply pinv_here.
        * (* if else then *)
          eapply pinv_tail; [ apply IH | eapply kext_enter_leave; exact K0 | intros ->; reflexivity | | | ].
          -- intro H. apply orb_prop in H as [H | H]; [ rewrite (HB H) | rewrite (HB0 H) ];
               rewrite ?orb_true_r; reflexivity.
          -- intros D ->. rewrite (HD D eq_refl), (HD0 D eq_refl). reflexivity.
          -- intro N. unfold no_local_stmt. rewrite all_stmt_SIfE, (HN N), (HN0 N). reflexivity.
        * (* if then *)
          eapply pinv_tail; [ apply IH | eapply kext_enter_leave; exact K | intros ->; reflexivity | | | ].
          -- intro H. rewrite (HB H). apply orb_true_r.
          -- intros D ->. rewrite (HD D eq_refl). reflexivity.
          -- intro N. unfold no_local_stmt. rewrite all_stmt_SIf, (HN N). reflexivity.
        * (* begin until: no break is pending *)
          eapply pinv_step; [ apply IH | eapply kext_enter_leave; exact K | exact (no_pending _ HB) | ].
          intro N. unfold no_local_stmt. rewrite all_stmt_SUntil, (HN N). reflexivity.
        * (* begin repeat *)
          eapply pinv_step; [ apply IH | eapply kext_enter_leave; exact K | reflexivity | ].
          intro N. unfold no_local_stmt. rewrite all_stmt_SRepeat, (HN N). reflexivity.
        * (* begin while repeat *)
          eapply pinv_step; [ apply IH | eapply kext_enter_leave; exact K0 | reflexivity | ].
          intro N. unfold no_local_stmt. rewrite all_stmt_SWhile, (HN N), (HN0 N). reflexivity.
        * (* do loop *)
          eapply pinv_step; [ apply IH | eapply kext_enter_leave; exact K | reflexivity | ].
          intro N. unfold no_local_stmt. rewrite all_stmt_SDo, (HN N). reflexivity.
        * (* break: the depth is not 0 *)
          eapply pinv_tail; [ apply IH | apply kext_refl | reflexivity | reflexivity | | reflexivity ].
          intros D _. rewrite D in *. discriminate.
        * (* : name ... ; with no break pending at the ; *)
          match goal with E : pseq _ _ _ ?t ?e0 ?tm [] false = _ |- _ =>
            pose proof (IH t e0 tm [] false) as P; rewrite E in P end.
          destruct P as (K & l' & -> & _ & HB & _).
          eapply pinv_step; [ apply IH | | reflexivity | reflexivity ].
          eapply kext_colon; [ assumption | exact K | exact (no_pending _ HB) ].
        * (* local *)
          eapply pinv_step; [ apply IH | apply kext_set_locals; assumption | reflexivity | congruence ].
        * (* var *)
          eapply pinv_step; [ apply IH | apply kext_var; assumption | reflexivity | reflexivity ].
    - cbn [pseq]. apply single; reflexivity.
    - cbn [pseq]. destruct (pr txt); [ apply single; reflexivity | exact I ].
  Qed.
End Inv.
