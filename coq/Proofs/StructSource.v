(* StructSource.v: consequences of the parser invariant: redefinition, and whole sources
   (what [seval_source] runs is a parsed program, so the syntactic hypotheses of the
   evaluator theorems hold of it by construction). *)
From Xeh Require Import Model.Prelude Model.Bits Model.Codec Model.Cell Model.Lexer Model.Fmt
                        Model.Vm Model.Words Model.Struct
                        Proofs.StructBase Proofs.StructNat Proofs.StructInv Proofs.StructLoops
                        Proofs.StructRs Proofs.StructParse.
Local Notation length := List.length.
Local Open Scope string_scope.

Section Source.
  Variable fo : fops.
  Variable pr : string -> option Z.

  Theorem parse_funs_stable : forall f toks e terms acc brk body t tp rest e' brk',
    pseq fo pr f toks e terms acc brk = POk body t tp rest e' brk' ->
    nfun e <= nfun e' /\ forall g, g < nfun e -> fun_body (funs e') g = fun_body (funs e) g.
  Proof.
    intros f toks e terms acc brk body t tp rest e' brk' H.
    pose proof (pseq_inv fo pr f toks e terms acc brk) as P. rewrite H in P.
    destruct P as ((K1 & K2 & _) & _). split; assumption.
  Qed.

  Theorem parse_definition_body_names : forall f toks e terms acc brk body t tp rest e' brk' ls,
    pseq fo pr f toks e terms acc brk = POk body t tp rest e' brk' ->
    plocals e = Some ls -> 0 < nest e ->
    names e' = names e /\ exists more, plocals e' = Some (ls ++ more)%list.
  Proof.
    intros f toks e terms acc brk body t tp rest e' brk' ls H HL HN.
    pose proof (pseq_inv fo pr f toks e terms acc brk) as P. rewrite H in P.
    destruct P as ((_ & _ & _ & _ & _ & K6 & _) & _).
    destruct (K6 ls HL HN) as (more & E1 & E2). split; eauto.
  Qed.

  (* `: name body ;` at the top level: the statements compiled so far are kept as they are
     (so a call compiled earlier keeps its function id); the name now means the NEW id; the
     new id is fresh; every older id keeps its body *)
  Theorem redefinition : forall f a b rest e terms acc brk name na nb r0 body tp r1 e1,
    local_ix e ":" = None -> lookup (names e) ":" = None -> mem terms ":" = false ->
    plocals e = None -> skipb rest = (TWord name, na, nb) :: r0 ->
    pseq fo pr f r0 (def_env e name) [";"] [] false = POk body ";" tp r1 e1 false ->
    let e2 := after_def e e1 body in
    pseq fo pr (S f) ((TWord ":", a, b) :: rest) e terms acc brk =
      pseq fo pr f r1 e2 terms (SDef (nfun e) :: acc) brk /\
    lookup (names e2) name = Some (BFun (nfun e)) /\
    fun_body (funs e2) (nfun e) = Some body /\
    (forall g, g < nfun e -> fun_body (funs e2) g = fun_body (funs e) g) /\
    (forall g, lookup (names e) name = Some (BFun g) -> g < nfun e ->
       fun_body (funs e2) g = fun_body (funs e) g).
  Proof.
    intros f a b rest e terms acc brk name na nb r0 body tp r1 e1 H H0 H1 H2 H3 H4 e2.
    split; [ eapply pseq_colon_step; eauto | ].
    pose proof (parse_definition_body_names _ _ _ _ _ _ _ _ _ _ _ _ [] H4 eq_refl) as [N _];
      [ cbn; lia | ].
    pose proof (parse_funs_stable _ _ _ _ _ _ _ _ _ _ _ _ H4) as [F1 F2]. cbn [def_env nfun funs] in F1, F2.
    assert (Hold : forall g, g < nfun e -> fun_body (funs e2) g = fun_body (funs e) g).
    { intros g Hg. unfold e2, after_def. cbn [funs fun_body].
      destruct (Nat.eqb_spec (nfun e) g); [ lia | ]. apply F2. lia. }
    split; [ | split; [ | split ] ].
    - unfold e2, after_def. cbn [names]. rewrite N. unfold def_env. cbn [names]. apply lookup_newest.
    - unfold e2, after_def. cbn [funs fun_body]. rewrite Nat.eqb_refl. reflexivity.
    - exact Hold.
    - intros g _ Hg. apply Hold. exact Hg.
  Qed.

  Theorem parse_source_no_stray_break : forall src h body funs n,
    parse_source fo pr src h = Some (body, funs, n) ->
    has_own_break_block body = false /\ funs_nobreak funs /\ no_local_block body = true.
  Proof.
    intros src h body funs n. unfold parse_source. cbv zeta.
    match goal with |- context [pseq fo pr ?f ?t ?e0 ?tm ?ac ?bk] =>
      generalize (pseq_inv fo pr f t e0 tm ac bk); generalize (pseq fo pr f t e0 tm ac bk)
    end.
    intros [bd [| ? ?] tp rest e' brk' | |] P H; try discriminate H. injection H as <- <- <-.
    cbn [pinv rev app] in P. destruct P as ((_ & _ & _ & _ & _ & _ & K7 & _) & l & -> & _ & HB & HD & HN).
    cbn in HD. specialize (HD eq_refl eq_refl). subst brk'.
    split; [ | split ].
    - apply no_pending. exact HB.
    - apply K7. cbn. intros g b Hg. discriminate Hg.
    - apply HN. reflexivity.
  Qed.

  Theorem seval_source_runs_parse : forall fuel src s r,
    seval_source fo pr fuel src s = CRun r ->
    exists body funs n,
      parse_source fo pr src (length (heap s)) = Some (body, funs, n) /\
      r = sblock fo funs fuel body (set_heap s (heap s ++ repeat CNil (n - length (heap s)))%list).
  Proof.
    intros fuel src s r. unfold seval_source, parse_source. cbv zeta.
    match goal with |- context [pseq fo pr ?f ?t ?e0 ?tm ?ac ?bk] => generalize (pseq fo pr f t e0 tm ac bk) end.
    intros [bd [| ? ?] tp rest e' brk' | |] H; try discriminate H. injection H as <-. eauto.
  Qed.
End Source.
