(* StructDo.v: the trip count of a counted loop.
   * limit <= start: the body is not evaluated at all;
   * start < limit: when every evaluation of the body runs to its end, the body is evaluated
     exactly limit - start times, with the index start, start+1, ..., limit-1 on top of the
     loop stack, and the loop's record is popped afterwards. *)
From Xeh Require Import Model.Prelude Model.Bits Model.Codec Model.Cell Model.Lexer Model.Fmt
                        Model.Vm Model.Words Model.Struct
                        Proofs.VmFrame Proofs.StructBase Proofs.StructNat Proofs.StructInv Proofs.StructLoops.
Local Notation length := List.length.

Fixpoint trips (body : state -> sres) (n : nat) (s : state) : option state :=
  match n with
  | O => Some s
  | S n' =>
    match body s with
    | SDone s3 => match loop_next s3 with
                  | ROk _ s4 => trips body n' s4
                  | _ => None
                  end
    | _ => None
    end
  end.

Lemma loop_next_guard : forall s m s',
  loop_next s = ROk m s' -> (ls_len (cx s) <? length (loops s)) = true.
Proof.
  intros s m s' H. unfold loop_next in H. destruct (loops s); [ discriminate | ].
  destruct (Nat.ltb _ _); [ reflexivity | discriminate ].
Qed.

Lemma pop_loop_succeeds : forall s l r,
  loops s = l :: r -> (ls_len (cx s) <? length (loops s)) = true ->
  exists s', pop_loop s = ROk l s'.
Proof.
  intros s l r E G. unfold pop_loop. rewrite E in *. rewrite G. eauto.
Qed.

Lemma loop_next_succeeds : forall s l r,
  loops s = l :: r -> (ls_len (cx s) <? length (loops s)) = true ->
  exists s', loop_next s = ROk (next_start l <? l_end l)%Z s'.
Proof.
  intros s l r E G. unfold loop_next. rewrite E in *. rewrite G. unfold next_start. eauto.
Qed.

Section Trips.
  Variable body : state -> sres.
  Variable pl : pos.
  Hypothesis Hbody : forall s s', body s = SDone s' \/ body s = SBroke s' ->
    cx s' = cx s /\ map lkey (loops s') = map lkey (loops s).

  Lemma trip_step : forall s l r s3 m s4,
    loops s = l :: r -> body s = SDone s3 -> loop_next s3 = ROk m s4 ->
    exists l4 r4, loops s4 = l4 :: r4 /\ l_start l4 = next_start l /\ l_end l4 = l_end l /\
                  map lkey r4 = map lkey r /\ m = (next_start l <? l_end l)%Z /\
                  cx s4 = cx s /\ (ls_len (cx s4) <? length (loops s4)) = true.
  Proof.
    intros s l r s3 m s4 El Eb En.
    destruct (Hbody s s3 (or_introl Eb)) as [C3 M3]. rewrite El in M3.
    apply map_lkey_cons_inv in M3 as (l3 & r3 & E3 & K3 & M3).
    pose proof (loop_next_guard _ _ _ En) as G.
    apply loop_next_ok in En as (C4 & _ & l' & r' & E' & E4 & Em).
    rewrite E3 in E'. injection E' as <- <-.
    unfold lkey in K3. injection K3 as Ks Ke.
    assert (Ns : next_start l3 = next_start l) by (unfold next_start; rewrite Ks, Ke; reflexivity).
    exists (mkloop (l_items l3) (next_start l3) (l_end l3)), r3.
    cbn [l_start l_end]. rewrite Ns, Ke in *. repeat split; auto; try congruence.
    rewrite C4, E4. rewrite E3 in G. exact G.
  Qed.

  Lemma next_start_lt : forall l, (l_start l < l_end l)%Z -> next_start l = (l_start l + 1)%Z.
  Proof. intros l H. unfold next_start. apply Z.ltb_lt in H. rewrite H. reflexivity. Qed.

  Lemma trips_state : forall i s l r si,
    loops s = l :: r -> (Z.of_nat i <= l_end l - l_start l)%Z ->
    trips body i s = Some si ->
    cx si = cx s /\ (0 < i -> (ls_len (cx si) <? length (loops si)) = true) /\
    exists li ri, loops si = li :: ri /\ l_start li = (l_start l + Z.of_nat i)%Z /\ l_end li = l_end l /\
                  map lkey ri = map lkey r.
  Proof.
    induction i as [| i IH]; intros s l r si El Hi H; cbn [trips] in H.
    - injection H as <-. split; [ reflexivity | ]. split; [ lia | ]. exists l, r. repeat split; auto. lia.
    - destruct (body s) as [s3 | | | |] eqn:Eb; try discriminate.
      destruct (loop_next s3) as [m s4 | | |] eqn:En; try discriminate.
      destruct (trip_step s l r s3 m s4 El Eb En) as (l4 & r4 & E4 & S4 & L4 & M4 & _ & C4 & G4).
      rewrite next_start_lt in S4 by lia.
      destruct (IH s4 l4 r4 si E4) as (Ci & Gi & li & ri & Ei & Si & Li & Mi); [ lia | exact H | ].
      split; [ congruence | ]. split.
      + intros _. destruct i as [| i]; [ | apply Gi; lia ]. cbn [trips] in H. injection H as <-. exact G4.
      + exists li, ri. repeat split; try congruence. lia.
  Qed.

  Lemma do_iter_trips : forall i k s l r si,
    loops s = l :: r -> i <= k -> trips body i s = Some si ->
    ((Z.of_nat i < l_end l - l_start l)%Z -> do_iter body pl k s = do_iter body pl (k - i) si) /\
    (0 < i -> Z.of_nat i = (l_end l - l_start l)%Z ->
     do_iter body pl k s = run_m pop_loop pl si (fun _ s5 => SDone s5)).
  Proof.
    induction i as [| i IH]; intros k s l r si El Hk H; cbn [trips] in H.
    - injection H as <-. rewrite Nat.sub_0_r. split; [ reflexivity | lia ].
    - destruct k as [| k]; [ lia | ].
      destruct (body s) as [s3 | | | |] eqn:Eb; try discriminate.
      destruct (loop_next s3) as [m s4 | | |] eqn:En; try discriminate.
      destruct (trip_step s l r s3 m s4 El Eb En) as (l4 & r4 & E4 & S4 & L4 & M4 & -> & _).
      destruct (IH k s4 l4 r4 si E4) as [IH1 IH2]; [ lia | exact H | ].
      rewrite do_iter_S, Eb. cbn [on_res]. rewrite (run_m_ok _ _ _ _ _ _ _ En).
      split; [ intro Hi | intros _ Hi ]; rewrite next_start_lt in * by lia.
      + replace (l_start l + 1 <? l_end l)%Z with true by (symmetry; apply Z.ltb_lt; lia).
        apply IH1. lia.
      + destruct i as [| i].
        * cbn [trips] in H. injection H as <-.
          replace (l_start l + 1 <? l_end l)%Z with false by (symmetry; apply Z.ltb_ge; lia). reflexivity.
        * replace (l_start l + 1 <? l_end l)%Z with true by (symmetry; apply Z.ltb_lt; lia).
          apply IH2; lia.
  Qed.
End Trips.

Lemma do_init_ok : forall s l s1,
  do_init s = ROk l s1 -> keeps false s s1 /\ l_items l = CNil.
Proof.
  intros s l s1 H. split; [ eapply wn_ok_keeps; [ apply wn_do_init | exact H ] | ].
  unfold do_init in H.
  repeat (apply bind_ok_inv in H as (? & ? & _ & H)).
  unfold ret in H. injection H as <- _. reflexivity.
Qed.

Section Do.
  Variable fo : fops.
  Variable funs : list (nat * list stmt).
  Notation sblock := (sblock fo funs).
  Notation sstmt := (sstmt fo funs).

  Theorem do_zero_trip : forall f p b pl s l s1,
    do_init s = ROk l s1 -> (l_end l <= l_start l)%Z ->
    sstmt (S f) (SDo p b pl) s = SDone s1.
  Proof.
    intros f p b pl s l s1 Ei Hle. rewrite sstmt_SDo, (run_m_ok _ _ _ _ _ _ _ Ei).
    apply Z.leb_le in Hle. rewrite Hle. reflexivity.
  Qed.

  Corollary do_zero_trip_loops : forall f p b pl s l s1,
    do_init s = ROk l s1 -> (l_end l <= l_start l)%Z ->
    sstmt (S f) (SDo p b pl) s = SDone s1 /\ loops s1 = loops s /\ rs s1 = rs s.
  Proof.
    intros f p b pl s l s1 Ei Hle. split; [ eapply do_zero_trip; eauto | ].
    destruct (do_init_ok _ _ _ Ei) as [(R & _ & _ & L) _]. split; [ apply L; reflexivity | exact R ].
  Qed.

  Lemma sstmt_SDo_entered : forall f p b pl s l s1 s2,
    do_init s = ROk l s1 -> (l_start l < l_end l)%Z -> push_loop l s1 = ROk tt s2 ->
    sstmt (S f) (SDo p b pl) s = do_iter (sblock f b) pl f s2.
  Proof.
    intros f p b pl s l s1 s2 Ei Hlt Ep. rewrite sstmt_SDo, (run_m_ok _ _ _ _ _ _ _ Ei).
    apply Z.leb_gt in Hlt. rewrite Hlt, (run_m_ok _ _ _ _ _ _ _ Ep). reflexivity.
  Qed.

  Theorem do_exact_trips : forall f p b pl s l s1 s2 n s4,
    do_init s = ROk l s1 -> (l_start l < l_end l)%Z -> push_loop l s1 = ROk tt s2 ->
    n = Z.to_nat (l_end l - l_start l) -> n <= f ->
    trips (sblock f b) n s2 = Some s4 ->
    exists l5 s5, pop_loop s4 = ROk l5 s5 /\ l_start l5 = l_end l /\ l_end l5 = l_end l /\
                  sstmt (S f) (SDo p b pl) s = SDone s5.
  Proof.
    intros f p b pl s l s1 s2 n s4 Ei Hlt Ep Hn Hf Ht.
    pose proof Ep as Ep0. apply push_loop_ok in Ep0 as (L2 & _ & _).
    destruct (trips_state _ (loop_keys_block fo funs f b) n s2 l _ s4 L2) as (_ & G & l4 & r4 & E4 & S4 & L4 & _);
      [ lia | exact Ht | ].
    destruct (pop_loop_succeeds s4 l4 r4 E4) as (s5 & E5); [ apply G; lia | ].
    exists l4, s5. repeat split; [ exact E5 | lia | exact L4 | ].
    rewrite (sstmt_SDo_entered f p b pl s l s1 s2 Ei Hlt Ep).
    rewrite (proj2 (do_iter_trips _ pl (loop_keys_block fo funs f b) n f s2 l _ s4 L2 Hf Ht)) by lia.
    rewrite (run_m_ok _ _ _ _ _ _ _ E5). reflexivity.
  Qed.
End Do.
