(* VmLimitsRunRun.v (C14): executions of any length.
   - [bounded]: along [steps] and at the end of [run] (success or error) the meter, the data
     stack and the heap stay within the limits;
   - the meter counts one per instruction (two for the instruction that resolves a [late] cell);
   - [steps_relim] / [run_relim]: an execution that does not end in a limit error is the same
     under any more permissive limits, in particular on the unlimited machine;
   - recovery after the instruction limit (and after any limit failure that left the state
     unchanged up to the meter): raise the limit, resume, get what the unlimited machine gets. *)
From Xeh Require Import Model.Prelude Model.Bits Model.Codec Model.Cell Model.Lexer Model.Fmt
                        Model.Vm Model.Words.
From Xeh Require Import Proofs.VmPrim Proofs.VmFrame Proofs.VmFetch Proofs.VmLimits Proofs.VmDrive Proofs.UnwindLists Proofs.UnwindFrame
                        Proofs.VmLimitsRunBase Proofs.VmLimitsRunStep.
Local Notation length := List.length.

#[local] Arguments Z.add : simpl never.
#[local] Arguments Z.sub : simpl never.
#[local] Arguments Z.mul : simpl never.
#[local] Arguments Z.ltb : simpl never.
#[local] Arguments Z.leb : simpl never.
#[local] Arguments Z.eqb : simpl never.
#[local] Arguments Z.of_nat : simpl never.
#[local] Arguments Z.to_nat : simpl never.

Definition bounded (s0 s : state) : Prop :=
  insn_limit s = insn_limit s0 /\ heap_limit s = heap_limit s0 /\ stack_limit s = stack_limit s0 /\
  length (heap s) = length (heap s0) /\
  (meter s0 <= meter s)%Z /\
  (forall N, insn_limit s0 = Some N -> (meter s0 <= N)%Z -> (meter s <= N)%Z) /\
  (forall S, stack_limit s0 = Some S -> length (ds s) <= Nat.max (Z.to_nat S) (length (ds s0))).

Lemma bounded_refl s : bounded s s.
Proof. unfold bounded. repeat split; try reflexivity; try lia; auto; intros; apply Nat.le_max_r. Qed.

Lemma bounded_trans a b c : bounded a b -> bounded b c -> bounded a c.
Proof.
  intros (A1 & A2 & A3 & A4 & A5 & A6 & A7) (B1 & B2 & B3 & B4 & B5 & B6 & B7).
  unfold bounded. repeat split; try congruence; try lia.
  - intros N EN Hle. apply B6; [congruence|]. apply A6; assumption.
  - intros S ES. specialize (A7 S ES). rewrite <- A3 in ES. specialize (B7 S ES). lia.
Qed.

Definition erase_lim (s : state) : state := relim 0%Z None None None s.
Definition unlimited (s : state) : state := set_limits s None None None.

Lemma erase_relim mt i h k s : erase_lim (relim mt i h k s) = erase_lim s.
Proof. reflexivity. Qed.
Lemma unlimited_relim s : unlimited s = relim (meter s) None None None s.
Proof. destruct s; reflexivity. Qed.
Lemma erase_unlimited s : erase_lim (unlimited s) = erase_lim s.
Proof. reflexivity. Qed.

Lemma is_elimit_res_map_eq {A} f g (r1 r2 : res A) :
  res_map f r1 = res_map g r2 -> is_elimit r1 = is_elimit r2.
Proof. intros H. apply (f_equal is_elimit) in H. rewrite !res_map_is_elimit in H. exact H. Qed.

Section WithTable.
  Variable nf : natives.
  Hypothesis Hnf : forall w f, nf w = Some f -> wlx f.

  Let Hwl : forall w f, nf w = Some f -> wl f := Hnf_wl nf Hnf.

  Lemma far_bounded : forall s r s',
    fetch_and_run nf s = r -> res_state r = Some s' -> bounded s s'.
  Proof.
    intros s r s' H Hr.
    destruct (far_step_rel nf Hwl s r s' H Hr) as (A1 & A2 & A3 & A4 & A5 & A6 & A7 & _).
    unfold bounded. repeat split; try assumption; try lia.
    intros S ES. specialize (A5 S ES). lia.
  Qed.

  Lemma steps_bounded : forall n s sn, steps nf n s = Some sn -> bounded s sn.
  Proof.
    apply (steps_ind nf (fun _ s sn => bounded s sn)); [apply bounded_refl|].
    intros n s s1 sn E _ IH. eapply bounded_trans; [eapply far_bounded; [exact E|reflexivity]|exact IH].
  Qed.

  Lemma run_bounded : forall fuel s r s',
    run nf fuel s = Some r -> res_state r = Some s' -> bounded s s'.
  Proof.
    intros fuel s r s' H. revert s'. revert fuel s r H.
    apply (run_ind nf (fun _ s r => forall s', res_state r = Some s' -> bounded s s')).
    - intros _ s _ s' Hr. injection Hr as <-. apply bounded_refl.
    - intros _ s s1 r _ E _ IH s' Hr.
      eapply bounded_trans; [eapply far_bounded; [exact E|reflexivity]|exact (IH s' Hr)].
    - intros _ s _ _ s' Hr. eapply far_bounded; [reflexivity|exact Hr].
  Qed.

  Definition no_resolve (s : state) : Prop := Forall (fun op => is_resolve op = false) (code s).

  Lemma no_resolve_at s : no_resolve s -> at_resolve s = false.
  Proof.
    unfold no_resolve, at_resolve. intros H. destruct (nth_error (code s) (ip s)) as [op|] eqn:E; [|reflexivity].
    apply nth_error_In in E. rewrite Forall_forall in H. specialize (H op E). destruct op; try reflexivity. discriminate.
  Qed.

  Lemma steps_meter_range : forall n s sn,
    steps nf n s = Some sn ->
    (meter s + Z.of_nat n <= meter sn <= meter s + 2 * Z.of_nat n)%Z.
  Proof.
    apply (steps_ind nf (fun n s sn => (meter s + Z.of_nat n <= meter sn <= meter s + 2 * Z.of_nat n)%Z)); [lia|].
    intros n s s1 sn E _ IH. pose proof (far_lim nf Hwl s) as L. rewrite E in L. destruct L as [_ M].
    pose proof (ticks_range s). lia.
  Qed.

  Lemma steps_meter_exact : forall n s sn,
    steps nf n s = Some sn -> no_resolve s ->
    meter sn = (meter s + Z.of_nat n)%Z /\ no_resolve sn.
  Proof.
    apply (steps_ind nf (fun n s sn => no_resolve s -> meter sn = (meter s + Z.of_nat n)%Z /\ no_resolve sn)).
    - intros s Hn. split; [lia|exact Hn].
    - intros n s s1 sn E _ IH Hn. pose proof (far_lim nf Hwl s) as L. rewrite E in L.
      destruct L as [(_ & _ & _ & _ & _ & _ & _ & C) M]. unfold ticks in M.
      rewrite (no_resolve_at s Hn) in M, C.
      destruct IH as [M2 Hn2]; [unfold no_resolve; rewrite C by reflexivity; exact Hn|]. split; [lia|exact Hn2].
  Qed.

  (* a successful run is a number of steps ending on a stopped machine *)
  Lemma run_ok_steps : forall fuel s s',
    run nf fuel s = Some (ROk tt s') ->
    exists n, n < fuel /\ steps nf n s = Some s' /\ is_running s' = false.
  Proof.
    intros fuel s s' H. destruct (run_steps nf fuel s _ H) as (n & sn & Hn & Hs & [(R & E)|(_ & _ & F)]).
    - injection E as <-. eauto.
    - contradiction (F tt s' eq_refl).
  Qed.

  (* a failed run is a number of steps followed by the failing instruction *)
  Lemma run_err_steps : forall fuel s k p se,
    run nf fuel s = Some (RErr k p se) ->
    exists n sn, n < fuel /\ steps nf n s = Some sn /\ is_running sn = true /\
                 fetch_and_run nf sn = RErr k p se.
  Proof.
    intros fuel s k p se H. destruct (run_steps nf fuel s _ H) as (n & sn & Hn & Hs & [(_ & E)|(R & E & _)]).
    - discriminate E.
    - exists n, sn. auto.
  Qed.

  Lemma run_mono : forall k k' s r, run nf k s = Some r -> k <= k' -> run nf k' s = Some r.
  Proof.
    induction k as [|k IH]; intros k' s r H Hle; [discriminate|].
    destruct k' as [|k']; [lia|]. cbn [run] in *.
    destruct (is_running s); [|exact H].
    destruct (fetch_and_run nf s) as [u s1| | |]; try exact H. apply IH; [exact H|lia].
  Qed.

  Lemma room_le_step s s1 mt i :
    insn_limit s1 = insn_limit s -> room_le s mt i -> room_le s1 (mt + (meter s1 - meter s))%Z i.
  Proof.
    unfold room_le. intros E. destruct i as [N'|]; [|auto]. rewrite E.
    destruct (insn_limit s) as [N|]; [|auto]. lia.
  Qed.

  (* a successful step under other limits, ready for the rest of the execution *)
  Lemma far_relim_ok s s1 mt i h k :
    fetch_and_run nf s = ROk tt s1 -> lim_le (stack_limit s) k -> room_le s mt i ->
    fetch_and_run nf (relim mt i h k s) = ROk tt (relim (mt + (meter s1 - meter s))%Z i h k s1) /\
    lim_le (stack_limit s1) k /\ room_le s1 (mt + (meter s1 - meter s))%Z i.
  Proof.
    intros E Hle Hroom.
    destruct (far_bounded s _ s1 E eq_refl) as (L1 & _ & L3 & _).
    split; [|split; [rewrite L3; exact Hle|apply room_le_step; assumption]].
    rewrite (far_relim nf Hnf s mt i h k Hle Hroom) by (rewrite E; reflexivity). rewrite E. reflexivity.
  Qed.

  Lemma steps_relim : forall n s sn mt i h k,
    steps nf n s = Some sn -> lim_le (stack_limit s) k -> room_le s mt i ->
    steps nf n (relim mt i h k s) = Some (relim (mt + (meter sn - meter s))%Z i h k sn).
  Proof.
    intros n s sn mt i h k H. revert mt. revert n s sn H.
    apply (steps_ind nf (fun n s sn => forall mt, lim_le (stack_limit s) k -> room_le s mt i ->
             steps nf n (relim mt i h k s) = Some (relim (mt + (meter sn - meter s))%Z i h k sn))).
    - intros s mt _ _. cbn [steps]. replace (mt + (meter s - meter s))%Z with mt by lia. reflexivity.
    - intros n s s1 sn E _ IH mt Hle Hroom. cbn [steps].
      destruct (far_relim_ok s s1 mt i h k E Hle Hroom) as (-> & Hle1 & Hroom1).
      rewrite (IH _ Hle1 Hroom1). f_equal. f_equal. lia.
  Qed.

  Lemma run_relim : forall fuel s r mt i h k,
    run nf fuel s = Some r -> is_elimit r = false ->
    lim_le (stack_limit s) k -> room_le s mt i ->
    run nf fuel (relim mt i h k s) =
    Some (res_map (fun x => relim (mt + (meter x - meter s))%Z i h k x) r).
  Proof.
    intros fuel s r mt i h k H. revert mt. revert fuel s r H.
    apply (run_ind nf (fun fuel s r => forall mt, is_elimit r = false -> lim_le (stack_limit s) k -> room_le s mt i ->
             run nf fuel (relim mt i h k s) = Some (res_map (fun x => relim (mt + (meter x - meter s))%Z i h k x) r)));
      intros f s; cbn [run]; change (is_running (relim ?mt i h k s)) with (is_running s).
    - intros R mt _ _ _. rewrite R. cbn [res_map]. replace (mt + (meter s - meter s))%Z with mt by lia. reflexivity.
    - intros s1 r R E _ IH mt Hne Hle Hroom. rewrite R.
      destruct (far_relim_ok s s1 mt i h k E Hle Hroom) as (-> & Hle1 & Hroom1).
      rewrite (IH _ Hne Hle1 Hroom1). f_equal.
      destruct r; cbn [res_map]; try reflexivity; f_equal; f_equal; lia.
    - intros R F mt Hne Hle Hroom. rewrite R, (far_relim nf Hnf s mt i h k Hle Hroom Hne).
      destruct (fetch_and_run nf s) as [u s1|k1 p1 s1| |]; try reflexivity. contradiction (F u s1 eq_refl).
  Qed.

  (* the observable result: everything but meter and limits *)
  Lemma run_erase : forall fuel s r,
    run nf fuel s = Some r -> is_elimit r = false ->
    exists r', run nf fuel (erase_lim s) = Some r' /\ res_map erase_lim r' = res_map erase_lim r.
  Proof.
    intros fuel s r H Hne. eexists. split.
    - apply (run_relim fuel s r 0%Z None None None H Hne); exact I.
    - destruct r; reflexivity.
  Qed.

  (* two machines that differ only in meter and limits, neither stopped by a limit *)
  Lemma run_same : forall fuel s t r r',
    erase_lim s = erase_lim t ->
    run nf fuel s = Some r -> is_elimit r = false ->
    run nf fuel t = Some r' -> is_elimit r' = false ->
    res_map erase_lim r = res_map erase_lim r'.
  Proof.
    intros fuel s t r r' E H1 N1 H2 N2.
    destruct (run_erase fuel s r H1 N1) as (a & A1 & A2).
    destruct (run_erase fuel t r' H2 N2) as (b & B1 & B2).
    rewrite E in A1. rewrite A1 in B1. injection B1 as <-. congruence.
  Qed.

  Lemma run_unlimited_never_limit : forall fuel s r,
    insn_limit s = None -> stack_limit s = None -> run nf fuel s = Some r -> is_elimit r = false.
  Proof.
    intros fuel s r Hi Hs H. revert Hi Hs. revert fuel s r H.
    apply (run_ind nf (fun _ s r => insn_limit s = None -> stack_limit s = None -> is_elimit r = false)).
    - reflexivity.
    - intros _ s s1 r _ E _ IH Hi Hs. destruct (far_bounded s _ s1 E eq_refl) as (L1 & _ & L3 & _).
      apply IH; congruence.
    - intros _ s _ _ Hi Hs. destruct (fetch_and_run nf s) as [u s1|[] p1 s1| |] eqn:E; try reflexivity. exfalso.
      destruct (far_limit_cause nf Hnf s p1 s1 E) as [_ [N EN _ _|N name e EN _ _ _ _|S ES _ _ _]]; congruence.
  Qed.

  (* the failed instruction left the state as it was, up to meter and limits, or up to the
     resolution of the [late] cell it was about to execute *)
  Definition unchanged_failure (s s' : state) : Prop :=
    erase_lim s' = erase_lim s \/
    exists name e, nth_error (code s) (ip s) = Some (OResolve name) /\ dict_entry s name = Some e /\
                   erase_lim s' = erase_lim (set_code s (list_set (code s) (ip s) (resolve_op e))).

  Lemma limit_cause_unchanged s s' :
    limit_cause s s' -> stack_limit s = None -> unchanged_failure s s'.
  Proof.
    intros [N EN _ ->|N name e EN _ E1 E2 ->|S ES _ _ _] Hs.
    - left. reflexivity.
    - right. exists name, e. split; [exact E1|]. split; [exact E2|]. reflexivity.
    - congruence.
  Qed.

  (* resuming from the state a failed instruction left, when that state is unchanged: same
     observable result as the machine without limits started at the state before the failure.
     When the failure left a [late] cell resolved, the machine started before it resolves the cell
     again and then is the resumed machine with one more fetch counted. *)
  Lemma resume_unchanged : forall s s' fuel r,
    unchanged_failure s s' ->
    run nf fuel s' = Some r -> is_elimit r = false ->
    exists r', run nf fuel (erase_lim s) = Some r' /\ res_map erase_lim r' = res_map erase_lim r.
  Proof.
    intros s s' fuel r [E|(name & e & E1 & E2 & E)] H Hne;
      destruct (run_erase fuel s' r H Hne) as (r1 & A & B); rewrite E in A; [eauto|].
    assert (N1 : is_elimit r1 = false) by (rewrite <- Hne; exact (is_elimit_res_map_eq _ _ _ _ B)).
    set (p := set_code s (list_set (code s) (ip s) (resolve_op e))) in *.
    pose proof (run_relim fuel (erase_lim p) r1 1%Z None None None A N1 I I) as A1.
    exists (res_map (fun x => relim (1 + (meter x - meter (erase_lim p)))%Z None None None x) r1).
    split; [|rewrite <- B; destruct r1; reflexivity].
    rewrite <- A1. change (relim 1%Z None None None (erase_lim p)) with (patched (erase_lim s) e).
    destruct fuel as [|f]; [reflexivity|]. cbn [run].
    rewrite (far_resolve nf (erase_lim s) name e eq_refl E1 E2).
    assert (Rs : is_running (erase_lim s) = true).
    { unfold is_running. apply Nat.ltb_lt, nth_error_Some. change (nth_error (code s) (ip s) <> None). congruence. }
    assert (Rp : is_running (patched (erase_lim s) e) = true).
    { rewrite <- Rs. unfold is_running. cbn [patched tick set_code set_meter code ip cx].
      rewrite list_set_length. reflexivity. }
    rewrite Rs, Rp. reflexivity.
  Qed.

  (* run to a limit failure that left the state unchanged, set any new limits (and meter), resume:
     if the resumed run is not stopped by a limit again, its result is the one the machine
     without limits reaches from the start *)
  Theorem recover_steps : forall n s0 sn p se,
    steps nf n s0 = Some sn ->
    fetch_and_run nf sn = RErr ELimit p se -> unchanged_failure sn se ->
    forall mt i h k fuel r,
      run nf fuel (relim mt i h k se) = Some r -> is_elimit r = false ->
      exists sn' r', steps nf n (unlimited s0) = Some sn' /\ run nf fuel sn' = Some r' /\
                     res_map erase_lim r' = res_map erase_lim r.
  Proof.
    intros n s0 sn p se Hs Hf Hu mt i h k fuel r Hr Hne.
    assert (Hu' : unchanged_failure sn (relim mt i h k se)).
    { destruct Hu as [E|(name & e & E1 & E2 & E)]; [left|right; exists name, e; repeat split; try assumption];
        rewrite erase_relim; exact E. }
    destruct (resume_unchanged sn _ fuel r Hu' Hr Hne) as (r1 & A & B).
    rewrite unlimited_relim.
    rewrite (steps_relim n s0 sn (meter s0) None None None Hs I I).
    eexists.
    assert (N1 : is_elimit r1 = false).
    { rewrite <- Hne. exact (is_elimit_res_map_eq _ _ _ _ B). }
    pose proof (run_relim fuel (erase_lim sn) r1 (meter s0 + (meter sn - meter s0))%Z None None None A N1 I I) as A2.
    change (relim (meter s0 + (meter sn - meter s0))%Z None None None (erase_lim sn))
      with (relim (meter s0 + (meter sn - meter s0))%Z None None None sn) in A2.
    eexists. split; [reflexivity|]. split; [exact A2|].
    rewrite <- B. destruct r1; reflexivity.
  Qed.

  (* the same from [run]: with only an instruction limit set, every limit failure is an
     unchanged one *)
  Theorem recover_run_insn : forall fuel0 s0 p se,
    stack_limit s0 = None ->
    run nf fuel0 s0 = Some (RErr ELimit p se) ->
    forall mt i h fuel r,
      run nf fuel (relim mt i h None se) = Some r -> is_elimit r = false ->
      exists r', run nf (fuel0 + fuel) (unlimited s0) = Some r' /\
                 res_map erase_lim r' = res_map erase_lim r.
  Proof.
    intros fuel0 s0 p se Hs0 H0 mt i h fuel r Hr Hne.
    destruct (run_err_steps fuel0 s0 ELimit p se H0) as (n & sn & Hn & Hst & Hrun & Hf).
    destruct (steps_bounded n s0 sn Hst) as (_ & _ & B3 & _).
    destruct (far_limit_cause nf Hnf sn p se Hf) as [_ LC].
    pose proof (limit_cause_unchanged sn se LC ltac:(congruence)) as Hu.
    destruct (recover_steps n s0 sn p se Hst Hf Hu mt i h None fuel r Hr Hne) as (sn' & r' & A1 & A2 & A3).
    exists r'. split; [|exact A3].
    destruct fuel as [|f]; [discriminate|].
    rewrite (run_is_stepping nf n (unlimited s0) sn' (fuel0 + S f) A1 ltac:(lia)).
    assert (Rn : is_running sn' = true).
    { rewrite unlimited_relim in A1.
      rewrite (steps_relim n s0 sn (meter s0) None None None Hst I I) in A1. injection A1 as <-. exact Hrun. }
    rewrite Rn. eapply run_mono; [exact A2|lia].
  Qed.
End WithTable.
