(* Bit-string literals read as written: every character between the bars contributes its bits
   (a hex digit four, '.' and 'x' one, whitespace none); malformed and unterminated literals. *)
From Xeh Require Import Model.Prelude Model.Bits Model.Cell Model.Lexer Model.Fmt.
From Xeh Require Import Proofs.BitsLists.
From Xeh Require Import Proofs.LexBasic Proofs.LexNum Proofs.LexNext Proofs.LexPrintBits.
Local Open Scope string_scope.

Inductive bitem :=
| BHex (up : bool) (d : N)   (* a hex digit, either case *)
| BDot                       (* '.' : a clear bit *)
| BX                         (* 'x' : a set bit *)
| BSpace (c : ascii).        (* ASCII whitespace, ignored *)

Definition bitem_ok (i : bitem) : bool :=
  match i with BHex _ d => (d <? 16)%N | BSpace c => is_ws c | _ => true end.

Definition bitem_char (i : bitem) : ascii :=
  match i with BHex up d => digit_char up d | BDot => "."%char | BX => "x"%char | BSpace c => c end.

Definition bitem_bits (i : bitem) : list bool :=
  match i with BHex _ d => nibble_bits d | BDot => [false] | BX => [true] | BSpace _ => [] end.

Fixpoint bitems_text (l : list bitem) : string :=
  match l with [] => "" | i :: r => String (bitem_char i) (bitems_text r) end.

Fixpoint bitems_bits (l : list bitem) : list bool :=
  match l with [] => [] | i :: r => (bitem_bits i ++ bitems_bits r)%list end.

Lemma bitems_text_length items : String.length (bitems_text items) = List.length items.
Proof. induction items as [|i items IH]; [reflexivity|]. cbn [bitems_text String.length List.length]. rewrite IH. reflexivity. Qed.

(* the two readings of a nibble agree: a table of 16 rows *)
Lemma nibble_N_bits d : (d < 16)%N -> nibble_N d = map b2n (nibble_bits d).
Proof.
  intros H.
  assert (A : forallb (fun k => list_eqb N.eqb (nibble_N (N.of_nat k)) (map b2n (nibble_bits (N.of_nat k))))
                      (seq 0 16) = true) by (vm_compute; reflexivity).
  rewrite forallb_forall in A. specialize (A (N.to_nat d)). rewrite in_seq, N2Nat.id in A.
  apply (list_eqb_spec N.eqb N.eqb_eq), A. lia.
Qed.

Lemma hex_digit_char_val up d : (d < 16)%N -> hex_digit (digit_char up d) = Some d.
Proof. intros H. unfold hex_digit. rewrite digit_val_char by lia. replace (d <? 16)%N with true by lia. reflexivity. Qed.

Lemma ws_not_hex c : is_ws c = true -> hex_digit c = None.
Proof.
  intros H. unfold hex_digit. destruct (digit_val c) as [v|] eqn:E; [|reflexivity].
  destruct (digit_val_inv c v E) as (Hv & up & <-).
  pose proof (digit_char_range up v Hv) as R. cbv zeta in R. apply ws_byte in H. lia.
Qed.

Lemma bitem_bits_of i : bitem_ok i = true -> bits_of (bitem_char i) = Some (map b2n (bitem_bits i)).
Proof.
  unfold bits_of. destruct i as [up d| | |c]; cbn [bitem_ok bitem_char bitem_bits]; intros H; try reflexivity.
  - rewrite hex_digit_char_val, nibble_N_bits by lia. reflexivity.
  - rewrite (ws_not_hex c H), H. reflexivity.
Qed.

Lemma bitems_text_bits : forall items, forallb bitem_ok items = true ->
  text_bits (bitems_text items) = Some (map b2n (bitems_bits items)).
Proof.
  induction items as [|i items IH]; intros H; [reflexivity|].
  cbn [forallb] in H. apply andb_prop in H. destruct H as [Hi H].
  cbn [bitems_text bitems_bits text_bits]. rewrite (bitem_bits_of i Hi), (IH H), map_app. reflexivity.
Qed.

Lemma lex_next_bitems l items tl : forallb bitem_ok items = true -> lrest l = "|" ++ bitems_text items ++ tl ->
  lex_next l = fin3 l (lex_bits tl (lpos l + 1 + List.length items)
                         (fold_left append_bit (map b2n (bitems_bits items)) bvb_empty) (llen l)).
Proof.
  intros Hok Hl. rewrite (lex_next_bar l _ Hl), (lex_bits_text _ _ _ _ _ _ (bitems_text_bits items Hok)).
  rewrite bitems_text_length. replace (S (lpos l) + List.length items) with (lpos l + 1 + List.length items) by lia.
  reflexivity.
Qed.

Lemma lex_next_bitstr l items rest :
  forallb bitem_ok items = true -> lrest l = "|" ++ bitems_text items ++ "|" ++ rest ->
  let p' := lpos l + List.length items + 2 in
  lex_next l = (TLit (CBits (of_bools (bitems_bits items))), mklex rest p' (lpos l) (llen l)).
Proof.
  intros Hok Hl p'. rewrite (lex_next_bitems l items (String "|" rest) Hok Hl), lex_bits_close. subst p'. cbn [fin3].
  replace (S (lpos l + 1 + List.length items)) with (lpos l + List.length items + 2) by lia. reflexivity.
Qed.

Definition bits_bad_char (c : ascii) : bool :=
  match hex_digit c with
  | Some _ => false
  | None => negb (is_ws c) && negb (byte_of c =? 46)%N && negb (byte_of c =? 120)%N && negb (byte_of c =? 124)%N
  end.

