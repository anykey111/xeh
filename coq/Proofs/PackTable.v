(* PackTable.v: the construction words by name (Props/C07.v checks that these are the programs
   the interpreter's word table [native_fn] runs). *)
From Xeh Require Import Model.Prelude Model.Bits Model.Codec Model.Cell Model.Lexer Model.Fmt
                        Model.Vm Model.Words.
Local Open Scope string_scope.
Local Open Scope Z_scope.

Definition pack_table (fo : fops) : list (string * M unit) := [
  ("int!", with_size (fun n => with_order (pack_int n)));
  ("uint!", with_size (fun n => with_order (pack_int n)));
  ("float!", with_size (fun n => with_order (pack_float fo n)));
  ("big", w_set_order true);
  ("little", w_set_order false);
  ("%vec-begin", w_vec_begin);
  ("%vec-end", w_vec_end);
  ("open-bitstr", w_open_bitstr);
  ("remain", w_remain);
  ("bits", with_size read_bits);
  ("int", with_size (fun n => with_order (read_signed n)));
  ("uint", with_size (fun n => with_order (read_unsigned n)));
  ("float", with_size (fun n => with_order (read_float fo n)));
  (">bitstr", w_into_bitstr);
  ("emit", w_emit);
  ("u8!", with_order (pack_int 8));
  ("u8le!", pack_int 8 Little);
  ("u8be!", pack_int 8 Big);
  ("i8!", with_order (pack_int 8));
  ("i8le!", pack_int 8 Little);
  ("i8be!", pack_int 8 Big);
  ("u16!", with_order (pack_int 16));
  ("u16le!", pack_int 16 Little);
  ("u16be!", pack_int 16 Big);
  ("i16!", with_order (pack_int 16));
  ("i16le!", pack_int 16 Little);
  ("i16be!", pack_int 16 Big);
  ("u32!", with_order (pack_int 32));
  ("u32le!", pack_int 32 Little);
  ("u32be!", pack_int 32 Big);
  ("i32!", with_order (pack_int 32));
  ("i32le!", pack_int 32 Little);
  ("i32be!", pack_int 32 Big);
  ("u64!", with_order (pack_int 64));
  ("u64le!", pack_int 64 Little);
  ("u64be!", pack_int 64 Big);
  ("i64!", with_order (pack_int 64));
  ("i64le!", pack_int 64 Little);
  ("i64be!", pack_int 64 Big);
  ("f32!", with_order (pack_float fo 32));
  ("f32le!", pack_float fo 32 Little);
  ("f32be!", pack_float fo 32 Big);
  ("f64!", with_order (pack_float fo 64));
  ("f64le!", pack_float fo 64 Little);
  ("f64be!", pack_float fo 64 Big)
].
