(* CompileEval.v: the instructions as "shared action, then move", and the machine-side lemmas
   for jumps, calls and returns.  (The equations of the evaluator are those of StructBase.v.) *)
From Xeh Require Import Model.Prelude Model.Bits Model.Codec Model.Cell Model.Lexer Model.Fmt
                        Model.Vm Model.Words Model.Struct
                        Proofs.VmFrame Proofs.StructBase Proofs.CompileSim Proofs.CompileLayout Proofs.CompileStep.
Local Notation length := List.length.

#[local] Arguments Z.add : simpl never.
#[local] Arguments Z.sub : simpl never.
#[local] Arguments Z.mul : simpl never.
#[local] Arguments Z.ltb : simpl never.
#[local] Arguments Z.leb : simpl never.
#[local] Arguments Z.eqb : simpl never.
#[local] Arguments Z.of_nat : simpl never.
#[local] Arguments Z.to_nat : simpl never.

Section Eq.
  Variable fo : fops.
  Variable funs : list (nat * list stmt).

  Lemma sblock_0 : forall l s, sblock fo funs 0 l s = SOut.
  Proof. reflexivity. Qed.
  Lemma sstmt_0 : forall x s, sstmt fo funs 0 x s = SOut.
  Proof. reflexivity. Qed.
End Eq.

Section Exec.
  Variable nf : natives.

  Lemma load_value_not_resolve : forall c n, load_value_opcode c <> OResolve n.
  Proof. intros c n. destruct c; cbn [load_value_opcode]; try discriminate. destruct (in_i64 z); discriminate. Qed.

  Lemma exec_load_value : forall ip0 c s1,
    exec_op nf ip0 (load_value_opcode c) s1 = bind (push_data c) (fun _ => next_ip) s1.
  Proof.
    intros ip0 c s1. destruct c; cbn [load_value_opcode]; try reflexivity.
    destruct (in_i64 z); reflexivity.
  Qed.

  Lemma exec_load : forall ip0 a s1,
    exec_op nf ip0 (OLoad a) s1 = bind (let* v := get_var a in push_data v) (fun _ => next_ip) s1.
  Proof. intros. cbn [exec_op]. symmetry. apply bind_assoc. Qed.
  Lemma exec_store : forall ip0 a s1,
    exec_op nf ip0 (OStore a) s1 = bind (let* v := pop_data in set_var a v) (fun _ => next_ip) s1.
  Proof. intros. cbn [exec_op]. symmetry. apply bind_assoc. Qed.
  Lemma exec_initlocal : forall ip0 i s1,
    exec_op nf ip0 (OInitLocal i) s1 = bind (let* v := pop_data in init_local i v) (fun _ => next_ip) s1.
  Proof. intros. cbn [exec_op]. symmetry. apply bind_assoc. Qed.
  Lemma exec_loadlocal : forall ip0 i s1,
    exec_op nf ip0 (OLoadLocal i) s1 = bind (m_locget i) (fun _ => next_ip) s1.
  Proof.
    intros. cbn [exec_op]. unfold m_locget, bind. destruct (top_frame s1); try reflexivity.
    destruct (nth_error (locals a) i); reflexivity.
  Qed.
  Lemma exec_jumpifnot : forall ip0 rel s1,
    exec_op nf ip0 (OJumpIfNot rel) s1 =
    bind m_test (fun b => if negb b then set_ip (jump_target ip0 rel) else next_ip) s1.
  Proof. intros. cbn [exec_op]. symmetry. apply bind_assoc. Qed.
  Lemma exec_caseof : forall ip0 rel s1,
    exec_op nf ip0 (OCaseOf rel) s1 =
    bind m_of (fun eq => if eq then (let* _ := pop_data in next_ip) else set_ip (jump_target ip0 rel)) s1.
  Proof.
    intros. cbn [exec_op]. unfold m_of, bind, ret. destruct (pop_data s1); try reflexivity.
    destruct (top_data s); reflexivity.
  Qed.
End Exec.

Lemma par_m_test : par m_test.
Proof. exact par_cond. Qed.
Lemma par_m_of : par m_of.
Proof. exact par_caseof. Qed.
Lemma par_m_locget : forall i, par (m_locget i).
Proof. exact par_loadlocal. Qed.

Section Cont.
  Variable nf : natives.
  Variable c : list opcode.

  Lemma jump_to : forall s t rel, mach c s -> sim t s -> nth_error c (ip s) = Some (OJump rel) ->
    exists s1, fetch_and_run nf s = ROk tt s1 /\ mach c s1 /\ ip s1 = jump_target (ip s) rel /\
               sim t s1 /\ rskeys s1 = rskeys s.
  Proof.
    intros s t rel M Hsim Hn. destruct M as [Mc Ml Mi].
    rewrite (fetch_plain nf s (OJump rel) Mi) by (rewrite ?Mc; assumption || discriminate).
    cbn [exec_op]. rewrite set_ip_off by exact Ml.
    eexists. split; [reflexivity|]. split; [split; assumption|]. split; [reflexivity|].
    split; [apply sim_set_ip_r, sim_set_meter_r; exact Hsim|reflexivity].
  Qed.

  Lemma call_to : forall s t a, mach c s -> sim t s -> nth_error c (ip s) = Some (OCall a) ->
    exists t1 s1, push_return (mkframe 0 0 []) t = ROk tt t1 /\
                  fetch_and_run nf s = ROk tt s1 /\ mach c s1 /\ ip s1 = a /\ sim t1 s1 /\
                  rskeys s1 = (a, S (ip s)) :: rskeys s.
  Proof.
    intros s t a M Hsim Hn. destruct M as [Mc Ml Mi].
    rewrite (fetch_plain nf s (OCall a) Mi) by (rewrite ?Mc; assumption || discriminate).
    cbn [exec_op]. unfold bind, push_return.
    assert (Hlt : rlog t = None) by (rewrite (sim_rlog _ _ Hsim); exact Ml).
    rewrite !add_rstep_off by assumption.
    rewrite set_ip_off by exact Ml.
    eexists. eexists. split; [reflexivity|]. split; [reflexivity|].
    split; [split; assumption|]. split; [reflexivity|]. split; [|reflexivity].
    apply sim_set_ip_r. apply sim_set_rs; [apply sim_set_meter_r; exact Hsim|].
    cbn [map]. f_equal. exact (sim_rs_strip _ _ Hsim).
  Qed.

  Lemma ret_to : forall s t a r K, mach c s -> sim t s -> nth_error c (ip s) = Some ORet ->
    rskeys s = (a, r) :: K ->
    match pop_return t with
    | ROk _ t1 => exists s1, fetch_and_run nf s = ROk tt s1 /\ mach c s1 /\ ip s1 = r /\ sim t1 s1 /\ rskeys s1 = K
    | RErr k pl t1 => exists s1, fetch_and_run nf s = RErr k pl s1 /\ sim t1 s1
    | RPanic => False
    | RUnsup => False
    end.
  Proof.
    intros s t a r K M Hsim Hn HK. destruct M as [Mc Ml Mi].
    rewrite (fetch_plain nf s ORet Mi) by (rewrite ?Mc; assumption || discriminate).
    cbn [exec_op]. unfold bind, pop_return.
    assert (Hlt : rlog t = None) by (rewrite (sim_rlog _ _ Hsim); exact Ml).
    pose proof (sim_rs_strip _ _ Hsim) as Hr. pose proof (sim_rs_length _ _ Hsim) as Hlen.
    destruct (sim_marks _ _ Hsim) as (_ & Hm & _).
    change (rs (set_meter s (meter s + 1)%Z)) with (rs s).
    change (cx (set_meter s (meter s + 1)%Z)) with (cx s).
    rewrite Hm, Hlen. unfold rskeys in HK.
    destruct (rs s) as [|fs rs'] eqn:Es; [discriminate|].
    destruct (rs t) as [|ft rt] eqn:Et; [discriminate|].
    cbn [map] in HK, Hr.
    assert (Hk1b : return_to fs = r)
      by (apply (f_equal (fun l => match l with x :: _ => snd x | [] => 0 end)) in HK; exact HK).
    assert (Hk2 : map fkey rs' = K) by (apply (f_equal (@tl _)) in HK; exact HK).
    assert (Hr2 : map strip rt = map strip rs') by (apply (f_equal (@tl _)) in Hr; exact Hr).
    destruct (rs_len (cx s) <? length (fs :: rs')).
    - rewrite !add_rstep_off by assumption. rewrite set_ip_off by exact Ml.
      eexists. split; [reflexivity|]. split; [split; assumption|].
      split; [exact Hk1b|]. split.
      + apply sim_set_ip_r. apply sim_set_rs; [apply sim_set_meter_r; exact Hsim|exact Hr2].
      + unfold rskeys. cbn [rs set_ip_raw set_cx set_rs]. exact Hk2.
    - eexists. split; [reflexivity|]. apply sim_set_meter_r. exact Hsim.
  Qed.
End Cont.
