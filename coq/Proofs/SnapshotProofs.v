(* SnapshotProofs.v (C03, interpreter level): in the model every container of [state] is a
   value, so a clone of a state IS the state, and evaluation is a function of
   (state, source) only.  These lemmas are true by construction; they are stated so that the
   correspondence check has something to compare the real clone()/eval() against. *)
From Xeh Require Import Model.Prelude Model.Bits Model.Codec Model.Cell Model.Lexer Model.Fmt
                        Model.Vm Model.Words Model.Build.
Local Notation length := List.length.

Definition clone_state (s : state) : state := s.

(* the state an eval call leaves behind (result or error); the state itself if the call is
   outside the model *)
Definition eval_state (fo : fops) (pr : string -> option Z) (rf bf : nat)
           (s : state) (src : string) : state :=
  match res_state (eval fo pr rf bf src s) with Some s' => s' | None => s end.

Definition run_path (fo : fops) (pr : string -> option Z) (rf bf : nat)
           (srcs : list string) (s : state) : state :=
  fold_left (eval_state fo pr rf bf) srcs s.

Lemma eval_functional : forall fo pr rf bf src s1 s2,
  s1 = s2 -> eval fo pr rf bf src s1 = eval fo pr rf bf src s2.
Proof. intros. subst. reflexivity. Qed.

Lemma eval_on_clone : forall fo pr rf bf src s,
  eval fo pr rf bf src (clone_state s) = eval fo pr rf bf src s.
Proof. reflexivity. Qed.

(* a snapshot is not changed by later activity on the original *)
Lemma snapshot_unchanged : forall fo pr rf bf srcs s,
  let snap := clone_state s in
  let s' := run_path fo pr rf bf srcs s in
  snap = s /\ run_path fo pr rf bf srcs snap = s'.
Proof. intros. split; reflexivity. Qed.

(* clone trees: the state of a node depends only on the path from the root; a clone taken
   after the prefix [p] and driven through [q] is where the original gets by [p ++ q] *)
Lemma clone_tree : forall fo pr rf bf p q s,
  run_path fo pr rf bf (p ++ q) s = run_path fo pr rf bf q (clone_state (run_path fo pr rf bf p s)).
Proof. intros. unfold run_path, clone_state. apply fold_left_app. Qed.
