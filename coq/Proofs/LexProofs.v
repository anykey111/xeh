(* C16 / C17(a): the lexer lemmas.  The proofs live in the helper files; this file
   re-exports those that Props/C16.v rests on and states the refutations of the three
   statements that are false for byte strings that are not UTF-8.

   Proved with the statements of Props/C16.v:
     lex_tiles, int_from_str_radix_spec, print_read_bitstr, hex_negative_refuted;
     totality, progress and the decimal print/read round trip are proved in Props/C16.v from
     lex_all_shape, lex_string_inv and print_read_int_next.
   False as stated (counterexamples below), proved in Props/C16.v under [valid_utf8 s = true]
   from lex_string_good:
     lex_reaches_end, word_text (the substring half holds unconditionally: word_text_substring)
     token_location_spec -> token_location_spec_weak
                            (exact unconditional form: token_location_exact,
                             exact condition: token_location_spec_iff) *)
From Xeh Require Import Model.Prelude Model.Bits Model.Cell Model.Lexer Model.Fmt Proofs.BitsProofs.
From Xeh Require Export Proofs.LexLoc Proofs.LexBasic Proofs.LexNext Proofs.LexNum Proofs.LexAll
  Proofs.LexMorePrint Proofs.LexPrintBits.
Local Open Scope string_scope.

(* a lone UTF-8 lead byte: the lexer advances by the announced width 2 over a 1-byte text *)
Theorem lex_reaches_end_refuted :
  ~ (forall s pre a b,
       lex_string s = (pre ++ [(TEnd, a, b)])%list -> a = String.length s /\ b = String.length s).
Proof.
  intros H. destruct lex_reaches_end_counterexample as [E L].
  destruct (H _ _ _ _ E) as [A _]. rewrite L in A. discriminate.
Qed.

(* lead byte followed by a space: the space is swallowed as the "second byte" of the character *)
Theorem word_text_refuted :
  ~ (forall s w a b,
       In (TWord w, a, b) (lex_string s) -> w = substring_of s a b /\ no_ws w = true).
Proof.
  intros H. destruct word_text_counterexample as [I N].
  destruct (H _ _ _ _ I) as [_ W]. rewrite N in W. discriminate.
Qed.

(* a lone lead byte: the line end is reported one past the end of the text *)
Theorem token_location_spec_refuted :
  ~ (forall s p, s <> EmptyString -> p <= String.length s ->
       token_location s p = (spec_line s p, spec_col s p, spec_line_start s p, spec_line_end s p)).
Proof.
  intros H. destruct token_location_spec_counterexample as (A & B & C).
  exact (C (H _ _ A B)).
Qed.

(* the validity predicate accepts real UTF-8 (curly quotes, a 2-byte and a 4-byte character)
   and rejects truncated or stray bytes *)
Example valid_utf8_accepts :
  valid_utf8 (ldq ++ "a" ++ String (ascii_of_N 195) (String (ascii_of_N 169) "")
                  ++ String (ascii_of_N 240) (String (ascii_of_N 159) (String (ascii_of_N 152) (String (ascii_of_N 128) "")))
                  ++ rdq) = true.
Proof. vm_compute. reflexivity. Qed.
Example valid_utf8_rejects :
  valid_utf8 (String (ascii_of_N 195) "") = false /\ valid_utf8 (String (ascii_of_N 169) "") = false /\
  valid_utf8 (String (ascii_of_N 226) (String (ascii_of_N 128) "a")) = false.
Proof. vm_compute. auto. Qed.

Check lex_tiles : forall s, tiles 0 (lex_string s).
Check int_from_str_radix_spec : forall (neg : bool) (radix : N) (ds : list N) (body : string),
  (2 <= radix <= 36)%N -> ds <> [] -> Forall (fun d => (d < radix)%N) ds ->
  body = fold_right (fun d acc => String (digit_char false d) acc) EmptyString ds ->
  let v := (if neg then - digits_value (Z.of_N radix) ds 0 else digits_value (Z.of_N radix) ds 0)%Z in
  int_from_str_radix ((if neg then "-" else "") ++ body) radix = if in_i128 v then Some v else None.
Check print_read_bitstr : forall b, wf b ->
  let txt := fmt_bitstr b in
  exists b', lex_string txt = [(TLit (CBits b'), 0, String.length txt); (TEnd, String.length txt, String.length txt)]
             /\ wf b' /\ abs b' = abs b.
Check hex_negative_refuted :
  exists z, in_i128 z = true /\
    let txt := fmt_int (fl_set_base fmt_default 16) z in
    forall n, lex_string txt <> [(TLit (CInt z), 0, n); (TEnd, n, n)].
Check word_text_substring : forall s w a b,
  In (TWord w, a, b) (lex_string s) -> w = substring_of s a b.
Check token_location_spec_weak : forall s p,
  valid_utf8 s = true -> s <> EmptyString -> p <= String.length s ->
  token_location s p = (spec_line s p, spec_col s p, spec_line_start s p, spec_line_end s p).
