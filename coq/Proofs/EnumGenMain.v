(* EnumGenMain.v (C11): what `enum Name : f1 ... : fn endenum` does, for every list of field
   names, at the level described in EnumGen.v. *)
From Xeh Require Import Model.Prelude Model.Bits Model.Codec Model.Cell Model.Lexer Model.Fmt
                        Model.Vm Model.Words Model.Build Model.Boot.
From Xeh Require Import Proofs.VmFrame Proofs.NoPanicBuild Proofs.MetaBase Proofs.MetaPurge Proofs.EnumGen.
Local Notation length := List.length.
Local Open Scope string_scope.
Local Open Scope list_scope.

#[local] Arguments Z.add : simpl never.
#[local] Arguments Z.of_nat : simpl never.

(* top level of a source (the current context is not a meta context) and the debug map is as
   long as the code (true in every API-reachable state: C17 alignment) *)
Definition enum_pre (s : state) : Prop :=
  cmode (cx s) <> MMeta /\ length (dbg s) = length (code s).
Definition enum_pre_b (s : state) : bool :=
  negb (mode_eqb (cmode (cx s)) MMeta) && (length (dbg s) =? length (code s))%nat.
Lemma enum_pre_b_sound s : enum_pre_b s = true -> enum_pre s.
Proof.
  unfold enum_pre_b, enum_pre. intros H. apply andb_true_iff in H. destruct H as [H1 H2].
  split; [|apply Nat.eqb_eq; exact H2]. intros E. rewrite E in H1. discriminate.
Qed.

(* the outer meta context (holds the two field words and the enum entry) *)
Definition ectx1 (s : state) : ctx :=
  mkctx (length (ds s)) (length (code s)) (length (rs s)) (length (flows s)) (length (loops s))
        (length (special s)) (length (dict s)) (length (code s)) MMeta.
(* the inner one, opened after k constants *)
Definition ectx2 (s : state) (k : nat) : ctx :=
  mkctx (length (ds s)) (length (code s)) (length (rs s)) (S (length (flows s))) (length (loops s))
        (length (special s)) (length (dict s) + 2 + k) (length (code s)) MMeta.

Definition edict (s : state) (fields : list (string * Z)) : list dentry :=
  dict s ++ enum_imms ++ map const_of fields.

(* inside the inner context, between two field words *)
Definition estate (s : state) (E : string) (fields : list (string * Z)) (i : list inlex) (l : option tokref) : state :=
  mkstate (edict s fields) (heap s) (code s) (dbg s) (sources s) i (ds s) (rs s)
          (FEnum E fields :: flows s) (loops s) (special s) (ectx2 s (length fields))
          (ectx1 s :: cx s :: nested s) (meter s) (insn_limit s) (heap_limit s) (stack_limit s)
          (rlog s) (out s) l (stopping s).
(* back in the outer context (after the inner one was closed) *)
Definition estate1 (s : state) (E : string) (fields : list (string * Z)) (i : list inlex) (l : option tokref) : state :=
  mkstate (edict s fields) (heap s) (code s) (dbg s) (sources s) i (ds s) (rs s)
          (FEnum E fields :: flows s) (loops s) (special s) (ectx1 s)
          (cx s :: nested s) (meter s) (insn_limit s) (heap_limit s) (stack_limit s)
          (rlog s) (out s) l (stopping s).
(* after endenum *)
Definition efinal (s : state) (fields : list (string * Z)) (i : list inlex) (l : option tokref) : state :=
  mkstate (dict s ++ enum_order (map const_of fields)) (heap s) (code s) (dbg s) (sources s) i (ds s) (rs s)
          (flows s) (loops s) (special s) (cx s) (nested s) (meter s) (insn_limit s) (heap_limit s)
          (stack_limit s) (rlog s) (out s) l (stopping s).

Lemma edict_length s fields : length (edict s fields) = length (dict s) + 2 + length fields.
Proof. unfold edict, enum_imms. rewrite !app_length, map_length. cbn [length]. lia. Qed.

Ltac st :=
  cbn [set_code set_dbg set_dict set_flows set_cx set_nested set_input set_last_tok set_sources
       set_heap set_ds set_rs set_loops set_special set_meter set_rlog set_out set_stopping
       dict heap code dbg sources input ds rs flows loops special cx nested meter insn_limit
       heap_limit stack_limit rlog out last_tok stopping
       ds_len cs_len rs_len fs_len ls_len ss_ptr di_len cip cmode ectx1 ectx2 mode_eqb negb orb andb].

Section Gen.
  Variable fo : fops.
  Variable pr : string -> option Z.
  Variable rf : nat.      (* the builder runs the machine with fuel S rf *)

  (* closing the inner context: nothing has been compiled or defined in it *)
  Lemma close_inner s E fields i l : length (dbg s) = length (code s) ->
    i_nested_end fo (S rf) (estate s E fields i l) = ROk tt (estate1 s E fields i l).
  Proof.
    intros Hd. unfold estate, estate1. unfold i_nested_end, bind, get. st.
    unfold has_pending_flow. st. cbn [length]. rewrite Nat.ltb_irrefl.
    unfold context_close. st. cbv zeta. st.
    unfold run_m. cbn [run]. unfold is_running, ip. st. rewrite Nat.ltb_irrefl. st.
    rewrite firstn_all. rewrite <- Hd at 2. rewrite firstn_all.
    rewrite purge_dict_past by (rewrite edict_length; lia).
    cbn [length].
    replace (S (length (flows s)) - length (flows s)) with 1 by lia. cbn [firstn].
    reflexivity.
  Qed.

  Lemma enum_opens s E i1 l1 : enum_pre s -> reads pr (input s) (last_tok s) E i1 l1 ->
    i_enum pr s = ROk tt (estate s E [] i1 l1).
  Proof.
    intros [Hm Hd] R. unfold i_enum. unfold bind at 1. rewrite (R s eq_refl eq_refl).
    unfold i_nested_begin, def_immediate, bind, context_open, dict_insert, push_flow, modify, ret, code_origin.
    cbv zeta. st. rewrite (not_meta_eqb _ Hm). st.
    unfold estate, edict, enum_imms, field_imm, ectx1, ectx2. cbn [map length app].
    rewrite <- !app_assoc. cbn [app]. rewrite !app_length. cbn [length].
    rewrite ?Nat.add_0_r. reflexivity.
  Qed.

  Lemma field_adds s E fields i l f v i1 l1 : length (dbg s) = length (code s) ->
    reads pr i l f i1 l1 -> enum_next_value fields = Some v ->
    i_enum_field fo pr (S rf) (estate s E fields i l) = ROk tt (estate s E (fields ++ [(f, v)]) i1 l1).
  Proof.
    intros Hd R Ev. unfold i_enum_field. unfold bind at 1. rewrite (close_inner s E fields i l Hd).
    unfold bind at 1. rewrite (R (estate1 s E fields i l) eq_refl eq_refl).
    unfold enum_add_field, bind, get. unfold estate1 at 1. st. rewrite Ev.
    unfold put, dict_insert, i_nested_begin, context_open, code_origin. cbv zeta. unfold estate1. st.
    unfold estate, ectx2, ectx1. cbn [length].
    assert (E1 : edict s fields ++ [mkdent f (DConst (CInt v))] = edict s (fields ++ [(f, v)])).
    { unfold edict. rewrite map_app. cbn [map const_of fst snd]. rewrite <- !app_assoc. reflexivity. }
    assert (E2 : length (edict s fields ++ [mkdent f (DConst (CInt v))]) = length (dict s) + 2 + length (fields ++ [(f, v)])).
    { rewrite E1. apply edict_length. }
    rewrite E2, E1. reflexivity.
  Qed.

  (* the field after i128::MAX is refused before anything is defined: the state is the one after
     the close of the inner context and the read of the name *)
  Lemma field_overflow s E fields i l f i1 l1 : length (dbg s) = length (code s) ->
    reads pr i l f i1 l1 -> enum_next_value fields = None ->
    i_enum_field fo pr (S rf) (estate s E fields i l) = RErr EOverflow None (estate1 s E fields i1 l1).
  Proof.
    intros Hd R Ev. unfold i_enum_field. unfold bind at 1. rewrite (close_inner s E fields i l Hd).
    unfold bind at 1. rewrite (R (estate1 s E fields i l) eq_refl eq_refl).
    unfold enum_add_field, bind, get. unfold estate1 at 1. st. rewrite Ev. reflexivity.
  Qed.

  Lemma endenum_closes s E fields i l : enum_pre s ->
    i_endenum fo (S rf) (estate s E fields i l) = ROk tt (efinal s fields i l).
  Proof.
    intros [Hm Hd]. unfold i_endenum. unfold bind at 1. rewrite (close_inner s E fields i l Hd).
    unfold bind at 1. unfold get at 1. unfold estate1.
    unfold data_depth. st. rewrite Nat.sub_diag. cbn [Nat.ltb Nat.leb].
    unfold bind at 1. unfold pop_flow. st. cbn [length].
    rewrite (proj2 (Nat.ltb_lt _ _) (Nat.lt_succ_diag_r (length (flows s)))). st.
    unfold i_nested_end, bind, get. st.
    unfold has_pending_flow. st. rewrite Nat.ltb_irrefl.
    unfold context_close. st. cbv zeta. st.
    unfold run_m. cbn [run]. unfold is_running, ip. st. rewrite Nat.ltb_irrefl. st.
    rewrite firstn_all.
    replace (firstn (length (code s)) (dbg s)) with (dbg s) by (rewrite <- Hd; symmetry; apply firstn_all).
    rewrite purge_dict_full by (rewrite edict_length; lia).
    unfold edict. rewrite firstn_app, firstn_all, Nat.sub_diag. cbn [firstn]. rewrite app_nil_r.
    rewrite skipn_app, skipn_all, Nat.sub_diag. cbn [skipn app].
    rewrite purge_enum by (apply Forall_forall; intros e He; apply in_map_iff in He; destruct He as (x & <- & _); reflexivity).
    rewrite (not_meta_eqb _ Hm). st.
    cbn [emit_results]. st. rewrite Nat.ltb_irrefl.
    reflexivity.
  Qed.

  Fixpoint repeat_m (n : nat) (m : M unit) : M unit :=
    match n with O => ret tt | S k => m ;; repeat_m k m end.

  (* reading the keyword token that makes build1 invoke the next immediate word *)
  Definition rd_tok : M unit := let* _ := get_token pr in ret tt.

  (* what build1 does for `enum Name : f1 : f2 ... : fn endenum` once it has read `enum`: the
     immediate words in this order, each field word and `endenum` after reading its own token *)
  Definition enum_seq (n : nat) : M unit :=
    i_enum pr ;; repeat_m n (rd_tok ;; i_enum_field fo pr (S rf)) ;; rd_tok ;; i_endenum fo (S rf).

  Lemma rd_tok_estate s E fields i l kw i0 l0 : tokreads pr i l kw i0 l0 ->
    rd_tok (estate s E fields i l) = ROk tt (estate s E fields i0 l0).
  Proof. intros T. unfold rd_tok, bind. rewrite (T (estate s E fields i l) eq_refl eq_refl). reflexivity. Qed.

  (* the fields numbered from k *)
  Fixpoint numbered (k : Z) (fs : list string) : list (string * Z) :=
    match fs with [] => [] | f :: r => (f, k) :: numbered (k + 1)%Z r end.

  (* the accumulated fields end with value k - 1 (or there are none and k = 0) *)
  Definition ends_before (acc : list (string * Z)) (k : Z) : Prop :=
    match rev acc with [] => k = 0%Z | (_, v) :: _ => k = (v + 1)%Z end.

  Lemma next_value_ends acc k : ends_before acc k -> in_i128 k = true -> enum_next_value acc = Some k.
  Proof.
    unfold ends_before, enum_next_value. destruct (rev acc) as [|[f v] r]; intros -> H; [reflexivity|].
    rewrite H. reflexivity.
  Qed.

  Lemma ends_before_snoc acc f k : ends_before (acc ++ [(f, k)]) (k + 1)%Z.
  Proof. unfold ends_before. rewrite rev_app_distr. reflexivity. Qed.

  Lemma fields_run s E : enum_pre s ->
    forall fs acc k i l i2 l2,
      feeds_fields pr i l fs i2 l2 -> ends_before acc k ->
      (forall j, (0 <= j < Z.of_nat (length fs))%Z -> in_i128 (k + j)%Z = true) ->
      (repeat_m (length fs) (rd_tok ;; i_enum_field fo pr (S rf)) ;; rd_tok ;; i_endenum fo (S rf))
        (estate s E acc i l) =
      ROk tt (efinal s (acc ++ numbered k fs) i2 l2).
  Proof.
    intros P. induction fs as [|f fs IH]; intros acc k i l i2 l2 Fd He Hr.
    - inversion Fd as [? ? ? ? T|]; subst. cbn [length repeat_m numbered]. rewrite app_nil_r.
      unfold bind at 1. unfold ret at 1. unfold bind at 1. rewrite (rd_tok_estate _ _ _ _ _ _ _ _ T).
      apply endenum_closes. exact P.
    - inversion Fd as [|? ? ? ? i0 l0 i1 l1 ? ? T R Fd']; subst. cbn [length repeat_m numbered].
      unfold bind at 1. unfold bind at 1. unfold bind at 1. rewrite (rd_tok_estate _ _ _ _ _ _ _ _ T).
      assert (Hk : in_i128 k = true).
      { replace k with (k + 0)%Z by lia. apply Hr. cbn [length]. lia. }
      rewrite (field_adds s E acc i0 l0 f k i1 l1 (proj2 P) R (next_value_ends acc k He Hk)).
      specialize (IH (acc ++ [(f, k)]) (k + 1)%Z i1 l1 i2 l2 Fd' (ends_before_snoc acc f k)).
      unfold bind at 1 in IH. rewrite IH.
      + rewrite <- app_assoc. reflexivity.
      + intros j Hj. replace (k + 1 + j)%Z with (k + (j + 1))%Z by lia. apply Hr. cbn [length]. lia.
  Qed.

  (* MAIN: all field lists.  s is the state in which build1 has just read the token `enum` *)
  Theorem enum_seq_spec s E fs i1 l1 i2 l2 :
    enum_pre s -> reads pr (input s) (last_tok s) E i1 l1 -> feeds_fields pr i1 l1 fs i2 l2 ->
    (Z.of_nat (length fs) <= two127)%Z ->
    enum_seq (length fs) s = ROk tt (efinal s (numbered 0 fs) i2 l2).
  Proof.
    intros P R Fd Hn.
    unfold enum_seq. unfold bind at 1. rewrite (enum_opens s E i1 l1 P R).
    apply (fields_run s E P fs [] 0%Z i1 l1 i2 l2 Fd eq_refl).
    intros j Hj. unfold in_i128, i128_min, i128_max. apply andb_true_iff. split; apply Z.leb_le.
    - assert (0 <= two127)%Z by (unfold two127; apply Z.pow_nonneg; lia). lia.
    - lia.
  Qed.
End Gen.
