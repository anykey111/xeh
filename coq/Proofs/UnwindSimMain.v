(* UnwindSimMain.v (C15): eval is compile followed by run.  The token loops of the two
   builds run in lockstep (UnwindSimBuild.v); a failed build is unwound to the same state on
   both sides; after a successful build eval runs the new code in the context opened for
   the source, compile-then-run runs it in the outer context, and for an idle top-level
   state the two contexts agree on everything execution reads (UnwindSimVm.v). *)
From Xeh Require Import Model.Prelude Model.Bits Model.Codec Model.Cell Model.Lexer Model.Fmt
                        Model.Vm Model.Words Model.Build.
From Xeh Require Import Proofs.VmFrame Proofs.VmLimits Proofs.NoPanic Proofs.NoPanicBuild Proofs.UnwindRel
                        Proofs.BuildUnwind Proofs.UnwindLists Proofs.UnwindFrame Proofs.UnwindInv Proofs.UnwindBuild
                        Proofs.UnwindMain Proofs.UnwindAfter Proofs.UnwindIrr Proofs.UnwindSimVm
                        Proofs.UnwindSimBuild.
Local Notation length := List.length.

Lemma const_clobbers_0 pr s : const_clobbers pr 0 s = false.
Proof.
  unfold const_clobbers. destruct (next_name pr s) as [n s'|k p s'| |]; try reflexivity.
  destruct (dict_pos s' n); reflexivity.
Qed.

Section SimLoop.
  Variable fo : fops.
  Variable pr : string -> option Z.
  Variable rf : nat.
  Variable tE : ctx.
  Variable dlC : nat.
  Variable base0 : list ctx.
  Hypothesis HtE : cmode tE = MEval.

  Local Notation okc := (okc tE dlC base0).
  Local Notation rel_st := (rel_st tE dlC base0).
  Local Notation rres := (rres rel_st).

  (* outside the situations [calls_bad] reports (with mark 0: user-defined immediate words, and
     the two enum words in the wrong place) the two builds run in lockstep *)
  Lemma build_word_rel f name s s' : rel_st s s' -> bad_word fo pr rf 0 s name = false ->
    rres (build_word fo pr rf f name s) (build_word fo pr rf f name s').
  Proof.
    refine (rres_build_word fo pr rf rel_st (rel_core tE dlC base0) (rel_set_code tE dlC base0)
              (rel_set_dict tE dlC base0) (rel_set_flows tE dlC base0)
              (rp_code_emit tE dlC base0 HtE) (rp_alloc_heap tE dlC base0 HtE)
              (rp_context_open_meta tE dlC base0 HtE) (rp_get_token tE dlC base0 HtE pr)
              (rp_next_name tE dlC base0 HtE pr) (rp_i_nested_end tE dlC base0 HtE fo rf)
              (rp_i_nested_inject tE dlC base0 HtE fo rf) (rp_i_const tE dlC base0 HtE pr)
              (native_bad fo pr rf 0) _ _ true _ f name s s').
    - intros t t' H C. apply (i_enum_field_set_rel tE dlC base0 HtE); [exact H|exact (proj2 (orb_false_elim _ _ C))].
    - intros t t' H C. apply (i_endenum_rel tE dlC base0 HtE); [exact H|].
      exact (proj2 (orb_false_elim _ _ (proj1 (orb_false_elim _ _ C)))).
    - discriminate.
  Qed.

  Theorem build1_rel fuel depth s s' : rel_st s s' -> calls_bad fo pr rf 0 fuel depth s = false ->
    rres (build1 fo pr rf fuel depth s) (build1 fo pr rf fuel depth s').
  Proof.
    refine (rres_build1 fo pr rf (bad_word fo pr rf 0) rel_st _ _ (rp_get_token tE dlC base0 HtE pr)
              (rp_code_emit tE dlC base0 HtE) _ _ build_word_rel fuel depth s s').
    - intros t t' H. unfold runs_first. rewrite (rel_mode tE dlC base0 HtE t t' H).
      destruct H as (md & dl & n' & _ & ->). reflexivity.
    - intros t t' H E. apply andb_true_iff in E. destruct E as [E _]. apply mode_eqb_meta in E.
      apply (rpm_run_m tE dlC base0 HtE fo rf t t' H E).
    - (* at the end of the input the nested lists have the same length *)
      intros d t t' H. unfold bind, get.
      assert (E : length (nested t') = length (nested t) /\ has_pending_flow t' = has_pending_flow t).
      { destruct H as (md & dl & n' & [(_ & -> & _ & _ & ->)|(_ & _ & _ & ups & _ & -> & ->)] & ->);
          cbn [wc set_nested nested]; rewrite ?app_length; split; reflexivity. }
      destruct E as [-> ->]. destruct (negb _); [apply mrel_fail, H|].
      destruct (has_pending_flow t); [apply mrel_fail, H|apply mrel_ret, H].
    - intros t t' (md & dl & n' & _ & ->). reflexivity.
  Qed.

  (* both sides are unwound to the same state: the context opened for the source differs in
     its mode and its data-stack mark, which the cut does not use *)
  Lemma unwind_rel s s' rest prev i d h : rel_st s s' -> base0 = prev :: rest ->
    build_unwind (length rest) i d h s' = build_unwind (length rest) i d h s.
  Proof.
    intros (md & dl & n' & Ho & ->) ->.
    assert (X : exists ms ms', cx s :: nested s = ms ++ tE :: prev :: rest /\
                  cx (wc s md dl n') :: nested (wc s md dl n') = ms' ++ tC tE dlC :: prev :: rest).
    { destruct Ho as [(E1 & E2 & -> & -> & ->)|(Hm & -> & -> & ups & F & E1 & ->)].
      - exists [], []. cbn [app wc set_nested set_cx cx nested]. rewrite E1, E2. split; reflexivity.
      - exists (cx s :: ups), (cx (wc s MMeta (ds_len (cx s)) (ups ++ tC tE dlC :: prev :: rest)) :: ups).
        cbn [app wc set_nested set_cx cx nested]. rewrite E1. split; reflexivity. }
    destruct X as (ms & ms' & X1 & X2).
    rewrite (build_unwind_chain _ _ _ _ _ _ _ _ X1), (build_unwind_chain _ _ _ _ _ _ _ _ X2). reflexivity.
  Qed.
End SimLoop.

(* an idle top-level state: no nested context, the outer context evaluates, the machine is
   stopped exactly at the end of the code, and no frame / loop / collection is pending above
   the marks of the outer context *)
Definition idle_top (s : state) : Prop :=
  nested s = [] /\ cmode (cx s) = MEval /\ ip s = length (code s) /\
  rs_len (cx s) = length (rs s) /\ ls_len (cx s) = length (loops s) /\
  ss_ptr (cx s) = length (special s).

Lemma set_nested_same s : set_nested s (nested s) = s.
Proof. destruct s; reflexivity. Qed.

Lemma idle_ctx s : idle_top s ->
  cx s = mkctx (ds_len (tmp_ctx s MEval)) (cs_len (cx s)) (rs_len (tmp_ctx s MEval)) (fs_len (cx s))
               (ls_len (tmp_ctx s MEval)) (ss_ptr (tmp_ctx s MEval)) (di_len (cx s))
               (cip (tmp_ctx s MEval)) (cmode (tmp_ctx s MEval)).
Proof.
  unfold idle_top, ip, tmp_ctx. destruct s as [? ? ? ? ? ? ? ? ? ? ? c ? ? ? ? ? ? ? ? ?]. destruct c.
  cbn. intros (_ & -> & -> & -> & -> & ->). reflexivity.
Qed.

Lemma idle_start s s2 dlC : idle_top s -> cx s2 = tmp_ctx s MEval ->
  set_cx (set_nested (wc s2 MCompile dlC [cx s]) []) (cx s) =
  chg (set_nested s2 []) (cs_len (cx s)) (fs_len (cx s)) (di_len (cx s)) [].
Proof.
  intros Hi Ec. unfold chg. cbn [wc set_nested set_cx cx nested]. rewrite Ec.
  rewrite <- (idle_ctx s Hi). reflexivity.
Qed.

Lemma idle_fin s s0 s3 : idle_top s -> cx s0 = tmp_ctx s MEval -> nested s0 = [] -> frame_rel s0 s3 ->
  set_cx s3 (if mode_eqb (cmode (cx s)) MEval then set_ctx_ip (cx s) (ip s3) else cx s) =
  chg s3 (cs_len (cx s)) (fs_len (cx s)) (di_len (cx s)) [].
Proof.
  intros Hi Ec En F3. pose proof (fr_nested _ _ F3) as A4. pose proof (fr_cx _ _ F3) as A11. clear F3.
  assert (F1 : ds_len (cx s3) = ds_len (tmp_ctx s MEval)) by (rewrite A11, Ec; reflexivity).
  assert (F2 : rs_len (cx s3) = rs_len (tmp_ctx s MEval)) by (rewrite A11, Ec; reflexivity).
  assert (F3 : ls_len (cx s3) = ls_len (tmp_ctx s MEval)) by (rewrite A11, Ec; reflexivity).
  assert (F4 : ss_ptr (cx s3) = ss_ptr (tmp_ctx s MEval)) by (rewrite A11, Ec; reflexivity).
  assert (F5 : cmode (cx s3) = cmode (tmp_ctx s MEval)) by (rewrite A11, Ec; reflexivity).
  unfold chg. rewrite F1, F2, F3, F4, F5.
  destruct Hi as (In & Im & Hi'). rewrite Im. cbn [mode_eqb].
  rewrite (idle_ctx s (conj In (conj Im Hi'))) at 1. unfold ip. cbn [set_ctx_ip ds_len cs_len rs_len fs_len ls_len ss_ptr di_len cip cmode].
  rewrite En in A4.
  match goal with |- ?a = set_nested ?b [] =>
    assert (X : set_nested b [] = b) by (rewrite <- (set_nested_same b) at 2; cbn [set_cx nested]; rewrite A4; reflexivity);
    rewrite X end.
  reflexivity.
Qed.

Theorem eval_is_compile_run : forall fo pr rf fuel src s s1,
  idle_top s ->
  (context_open MEval ;; intern_source src) s = ROk tt s1 ->
  calls_bad fo pr rf 0 fuel (length (nested s1)) s1 = false ->
  eval fo pr rf fuel src s = (compile fo pr rf fuel src ;; run_m fo rf) s.
Proof.
  intros fo pr rf fuel src s s1 (In & Im & Ii & Ir & Il & Is) E1 CB.
  set (tE := tmp_ctx s MEval). set (dlC := length (ds s)). set (base0 := cx s :: nested s).
  assert (HtE : cmode tE = MEval) by reflexivity.
  assert (E1C : (context_open MCompile ;; intern_source src) s = ROk tt (wc s1 MCompile dlC base0)).
  { unfold bind, context_open, intern_source in *. cbv zeta in *. injection E1 as <-.
    rewrite Im. reflexivity. }
  assert (Ho1 : okc tE dlC base0 s1 MCompile dlC base0).
  { left. unfold bind, context_open, intern_source in E1. cbv zeta in E1. injection E1 as <-.
    cbn [set_input set_sources set_nested set_cx cx nested].
    repeat split; unfold tE, tmp_ctx; try rewrite Im; reflexivity. }
  assert (N1 : length (nested s1) = length base0).
  { destruct Ho1 as [(_ & -> & _)|(_ & _ & _ & ups & _ & _ & Eb)]; [reflexivity|].
    apply (f_equal (@length ctx)) in Eb. rewrite app_length in Eb. cbn [length] in Eb. lia. }
  pose proof (build1_rel fo pr rf tE dlC base0 HtE fuel (length (nested s1)) s1 _ (rel_st_intro _ _ _ _ _ _ _ Ho1) CB) as R.
  unfold bind at 1. unfold eval, compile, build_from_source. cbv zeta.
  rewrite E1, E1C. change (nested (wc s1 MCompile dlC base0)) with base0.
  rewrite N1 in *.
  destruct (build1 fo pr rf fuel (length base0) s1) as [u s2|k p s2| |] eqn:B1;
    destruct (build1 fo pr rf fuel (length base0) (wc s1 MCompile dlC base0)) as [u' s2'|k' p' s2'| |];
    cbn [UnwindRel.rres] in R; try contradiction; try reflexivity.
  - (* both builds succeed *)
    destruct R as [_ (md & dl & n' & Ho2 & ->)]. destruct u.
    destruct (build1_ok_exit fo pr rf _ _ _ _ B1) as (X1 & _ & _).
    assert (C1 : cx s2 = tE /\ nested s2 = base0 /\ md = MCompile /\ dl = dlC /\ n' = base0).
    { destruct Ho2 as [H|(_ & _ & _ & ups & _ & E & _)]; [exact H|].
      rewrite E, app_length in X1. cbn [length] in X1. lia. }
    destruct C1 as (Ec & En & -> & -> & ->).
    rewrite !context_close_eq. change (nested (wc s2 MCompile dlC base0)) with base0. rewrite En.
    subst base0. rewrite In.
    change (cmode (cx (wc s2 MCompile dlC [cx s]))) with MCompile. rewrite Ec. cbn [tE tmp_ctx cmode].
    cbv iota.
    assert (Hidle : idle_top s) by (repeat split; assumption).
    rewrite (idle_start s s2 dlC Hidle Ec), run_m_chg.
    pose proof (run_m_frame fo rf (set_nested s2 [])) as FR.
    destruct (run_m fo rf (set_nested s2 [])) as [u3 s3|k3 p3 s3| |]; cbn [res_map res_all] in *; try reflexivity;
      unfold close_eval_fin; rewrite (idle_fin s (set_nested s2 []) s3 Hidle Ec eq_refl FR); reflexivity.
  - (* both builds fail: the same unwinding *)
    destruct R as (<- & <- & R).
    rewrite (unwind_rel tE dlC base0 s2 s2' (nested s) (cx s) _ _ _ R eq_refl). reflexivity.
Qed.
