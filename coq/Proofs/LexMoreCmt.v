(* Whitespace and comments below Lex::next: the exact results of the scanning loops skip_ws,
   skip_line and skip_mlc; where a multi-line comment ends, for all comment bodies. *)
From Xeh Require Import Model.Prelude Model.Cell Model.Lexer.
From Xeh Require Import Proofs.LexLoc Proofs.LexBasic.
Local Open Scope string_scope.

Fixpoint all_ws (s : string) : bool :=
  match s with "" => true | String c r => is_ws c && all_ws r end.

Definition next_not_ws (s : string) : bool :=
  match s with "" => true | String c _ => negb (is_ws c) end.

Lemma skip_ws_run : forall w rest n, all_ws w = true -> next_not_ws rest = true ->
  skip_ws (w ++ rest) n = (rest, n + String.length w).
Proof.
  induction w as [|c w IH]; intros rest n Hw Hr.
  - cbn [append String.length]. rewrite Nat.add_0_r. destruct rest as [|c r]; [reflexivity|].
    cbn [next_not_ws] in Hr. cbn [skip_ws]. destruct (is_ws c); [discriminate|reflexivity].
  - cbn [all_ws] in Hw. apply andb_prop in Hw. destruct Hw as [Hc Hw].
    cbn [append skip_ws String.length]. rewrite Hc. rewrite IH by assumption. f_equal. lia.
Qed.

Lemma ws_split : forall s, exists w r, s = w ++ r /\ all_ws w = true /\ next_not_ws r = true.
Proof.
  induction s as [|c s IH].
  - exists "", "". repeat split.
  - destruct (is_ws c) eqn:Ec.
    + destruct IH as (w & r & E & Hw & Hr). exists (String c w), r. subst s.
      cbn [append all_ws]. rewrite Ec, Hw. repeat split. exact Hr.
    + exists "", (String c s). cbn [append all_ws next_not_ws]. rewrite Ec. repeat split.
Qed.

Lemma all_ws_app a b : all_ws (a ++ b) = all_ws a && all_ws b.
Proof. induction a as [|c a IH]; [reflexivity|]. cbn [append all_ws]. rewrite IH. apply andb_assoc. Qed.

(* whitespace is ASCII: a run of it ends at a character boundary *)
Lemma all_ws_valid : forall w rest, all_ws w = true -> valid_go (w ++ rest) 0 = valid_go rest 0.
Proof.
  induction w as [|c w IH]; intros rest H; [reflexivity|].
  cbn [all_ws] in H. apply andb_prop in H. destruct H as [Hc H].
  destruct (ascii_width c (ws_ascii c Hc)) as [Hw Hn]. cbn [append valid_go]. rewrite Hw, Hn. apply IH. exact H.
Qed.

(* does the text enter the numeric branch: a digit, or a sign followed by a digit *)
Definition leads_number (s : string) : bool :=
  match s with
  | String c r =>
    is_digit c ||
    (((byte_of c =? 45)%N || (byte_of c =? 43)%N) &&
     match r with String c2 _ => is_digit c2 | "" => false end)
  | "" => false
  end.

Fixpoint no_nl (s : string) : bool :=
  match s with "" => true | String c r => negb (byte_of c =? 10)%N && no_nl r end.

Definition next_is_nl_or_end (s : string) : bool :=
  match s with "" => true | String c _ => (byte_of c =? 10)%N end.

Lemma skip_line_run : forall cm rest n, no_nl cm = true -> next_is_nl_or_end rest = true ->
  skip_line (cm ++ rest) n = (rest, n + String.length cm).
Proof.
  induction cm as [|c cm IH]; intros rest n Hc Hr.
  - cbn [append String.length]. rewrite Nat.add_0_r. destruct rest as [|c r]; [reflexivity|].
    cbn [next_is_nl_or_end] in Hr. cbn [skip_line]. rewrite Hr. reflexivity.
  - cbn [no_nl] in Hc. apply andb_prop in Hc. destruct Hc as [H1 H2].
    cbn [append skip_line String.length]. destruct (byte_of c =? 10)%N; [discriminate|].
    rewrite IH by assumption. f_equal. lia.
Qed.

Lemma line_split : forall s, exists cm r, s = cm ++ r /\ no_nl cm = true /\ next_is_nl_or_end r = true.
Proof.
  induction s as [|c s IH].
  - exists "", "". repeat split.
  - destruct (byte_of c =? 10)%N eqn:Ec.
    + exists "", (String c s). repeat split. exact Ec.
    + destruct IH as (cm & r & E & Hc & Hr). exists (String c cm), r. subst s.
      cbn [append no_nl]. rewrite Ec, Hc. repeat split. exact Hr.
Qed.

Lemma nl_or_end_bnd s : next_is_nl_or_end s = true -> bnd s = true.
Proof. destruct s as [|c r]; [reflexivity|]. cbn [next_is_nl_or_end]. intros H. apply ascii_bnd. lia. Qed.

(* a closing marker starts here: whitespace, backslash, ')' and then whitespace or the end *)
Definition closes_here (s : string) : bool :=
  match s with
  | String c (String c1 (String c2 r)) =>
    is_ws c && (byte_of c1 =? 92)%N && (byte_of c2 =? 41)%N && next_is_ws_or_end r
  | _ => false
  end.

Fixpoint first_close (s : string) : option nat :=
  match s with
  | "" => None
  | String c r => if closes_here s then Some 0 else option_map S (first_close r)
  end.

Lemma first_close_some : forall s i, first_close s = Some i ->
  closes_here (str_drop i s) = true /\ forall j, j < i -> closes_here (str_drop j s) = false.
Proof.
  induction s as [|c r IH]; intros i H; [discriminate|].
  cbn [first_close] in H. destruct (closes_here (String c r)) eqn:Ec.
  - injection H as <-. split; [exact Ec|]. intros j Hj. lia.
  - destruct (first_close r) as [k|] eqn:Ek; [|discriminate]. cbn [option_map] in H. injection H as <-.
    destruct (IH k eq_refl) as [I1 I2]. split; [exact I1|].
    intros j Hj. destruct j as [|j]; [exact Ec|]. cbn [str_drop]. apply I2. lia.
Qed.

Lemma first_close_none : forall s, first_close s = None -> forall j, closes_here (str_drop j s) = false.
Proof.
  induction s as [|c r IH]; intros H j.
  - rewrite str_drop_nil. reflexivity.
  - cbn [first_close] in H. destruct (closes_here (String c r)) eqn:Ec; [discriminate|].
    destruct (first_close r) as [k|] eqn:Ek; [discriminate|].
    destruct j as [|j]; [exact Ec|]. cbn [str_drop]. apply IH. reflexivity.
Qed.

Lemma first_close_unique s i : closes_here (str_drop i s) = true ->
  (forall j, j < i -> closes_here (str_drop j s) = false) -> first_close s = Some i.
Proof.
  intros H1 H2. destruct (first_close s) as [k|] eqn:Ek.
  - destruct (first_close_some s k Ek) as [K1 K2]. f_equal.
    destruct (Nat.lt_trichotomy k i) as [L|[L|L]]; [|exact L|].
    + rewrite (H2 k L) in K1. discriminate.
    + rewrite (K2 i L) in H1. discriminate.
  - rewrite (first_close_none s Ek i) in H1. discriminate.
Qed.

(* the closing marker ends in an ASCII byte (or at the end): a character starts after it *)
Lemma closes_here_valid s : closes_here s = true -> vsuf s -> valid_go (str_drop 4 s) 0 = true.
Proof.
  destruct s as [|c [|c1 [|c2 r]]]; try discriminate. cbn [closes_here]. intros H Hv.
  apply andb_prop in H. destruct H as [_ H]. destruct r as [|c3 r]; [reflexivity|].
  apply (valid_ascii_tail c3 r); [|apply ws_ascii; exact H]. do 3 apply vsuf_tail in Hv. exact Hv.
Qed.

(* what skip_mlc returns, in terms of the first closing marker *)
Definition mlc_result (s : string) (pos : nat) : option (string * nat) :=
  match first_close s with
  | Some i => Some (str_drop (i + 4) s, pos + Nat.min (i + 4) (String.length s))
  | None => None
  end.

Lemma mlc_result_skip c r pos : closes_here (String c r) = false ->
  mlc_result (String c r) pos = mlc_result r (S pos).
Proof.
  intros H. unfold mlc_result. cbn [first_close]. rewrite H.
  destruct (first_close r) as [i|]; cbn [option_map]; [|reflexivity].
  cbn [Nat.add str_drop String.length]. f_equal. f_equal. lia.
Qed.

Lemma closes_here_not_ws c r : is_ws c = false -> closes_here (String c r) = false.
Proof. intros H. destruct r as [|c1 [|c2 r]]; cbn [closes_here]; try reflexivity. rewrite H. reflexivity. Qed.

Lemma skip_mlc_spec_exact : forall f s pos, String.length s < f -> skip_mlc f s pos = mlc_result s pos.
Proof.
  induction f as [|f IH]; intros s pos Hf; [lia|].
  cbn [skip_mlc]. destruct s as [|c r]; [reflexivity|]. cbn [String.length] in Hf.
  destruct (is_ws c) eqn:Ec.
  2:{ rewrite mlc_result_skip by (apply closes_here_not_ws; exact Ec). apply IH. lia. }
  destruct r as [|c1 r1].
  { rewrite mlc_result_skip by reflexivity. apply IH. cbn [String.length]. lia. }
  cbn [String.length] in Hf.
  destruct (byte_of c1 =? 92)%N eqn:E1.
  2:{ rewrite mlc_result_skip.
      - apply IH. cbn [String.length]. lia.
      - destruct r1 as [|c2 r2]; cbn [closes_here]; [reflexivity|]. rewrite E1, andb_false_r. reflexivity. }
  assert (W1 : is_ws c1 = false) by (unfold is_ws; lia).
  destruct r1 as [|c2 r2].
  { rewrite mlc_result_skip by reflexivity.
    rewrite mlc_result_skip by reflexivity.
    replace (pos + 2) with (S (S pos)) by lia. apply IH. cbn [String.length]. lia. }
  cbn [String.length] in Hf.
  destruct (byte_of c2 =? 41)%N eqn:E2.
  2:{ rewrite mlc_result_skip by (cbn [closes_here]; rewrite E2, andb_false_r; reflexivity).
      rewrite mlc_result_skip by (apply closes_here_not_ws; exact W1).
      replace (pos + 2) with (S (S pos)) by lia. apply IH. cbn [String.length]. lia. }
  assert (W2 : is_ws c2 = false) by (unfold is_ws; lia).
  destruct r2 as [|c3 r3].
  { unfold mlc_result. cbn [first_close closes_here next_is_ws_or_end]. rewrite Ec, E1, E2. reflexivity. }
  destruct (is_ws c3) eqn:E3.
  { unfold mlc_result. cbn [first_close closes_here next_is_ws_or_end]. rewrite Ec, E1, E2, E3.
    cbn [andb Nat.add str_drop String.length]. rewrite Nat.min_l by lia. reflexivity. }
  rewrite mlc_result_skip by (cbn [closes_here next_is_ws_or_end]; rewrite E3, andb_false_r; reflexivity).
  rewrite mlc_result_skip by (apply closes_here_not_ws; exact W1).
  rewrite mlc_result_skip by (apply closes_here_not_ws; exact W2).
  replace (pos + 3) with (S (S (S pos))) by lia. apply IH. cbn [String.length] in *. lia.
Qed.

Lemma mlc_result_spec s pos s' pos' : mlc_result s pos = Some (s', pos') ->
  advx s pos s' pos' /\ (vsuf s -> valid_go s' 0 = true).
Proof.
  unfold mlc_result. destruct (first_close s) as [i|] eqn:Ei; [|discriminate]. intros H. injection H as <- <-.
  split.
  - rewrite (str_drop_min (i + 4) s). apply advx_drop. lia.
  - intros Hv. destruct (first_close_some s i Ei) as [H _].
    rewrite <- str_drop_drop. apply closes_here_valid; [exact H|]. apply vsuf_drop. exact Hv.
Qed.

Definition is_blank_tok (t : tok) : bool := match t with TWs | TComment => true | _ => false end.

Definition significant (l : list (tok * nat * nat)) : list (tok * nat * nat) :=
  filter (fun x => negb (is_blank_tok (fst (fst x)))) l.
