(* MetaNI.v (C11): what is below the data-stack mark cannot be observed.

   [sw h' s] replaces the hidden part of the data stack of s (the last [length h'] cells) by h'.
   [comm h' m]: running m commutes with that replacement - same result value or error, and the
   final states again differ by the replacement only.  It holds for every primitive, hence
   for every native word except `.s` (which prints the whole stack), for every opcode that is
   not a call of `.s`, for [fetch_and_run] and [run] on code without `.s`. *)
From Xeh Require Import Model.Prelude Model.Bits Model.Codec Model.Cell Model.Lexer Model.Fmt
                        Model.Vm Model.Words Model.Build.
From Xeh Require Import Proofs.VmFrame Proofs.VmLimits Proofs.NoPanic Proofs.NoPanicBuild Proofs.NoPanicFlow
                        Proofs.MetaBase.
Local Notation length := List.length.
Local Open Scope list_scope.

#[local] Arguments Z.add : simpl never.
#[local] Arguments Z.sub : simpl never.
#[local] Arguments Z.mul : simpl never.
#[local] Arguments Z.ltb : simpl never.
#[local] Arguments Z.leb : simpl never.
#[local] Arguments Z.eqb : simpl never.
#[local] Arguments Z.of_nat : simpl never.
#[local] Arguments Z.to_nat : simpl never.

Section NI.
  Variable h' : list cell.
  Let n := length h'.

  Definition sw (s : state) : state := set_ds s (firstn (length (ds s) - n) (ds s) ++ h').
  Definition wfd (s : state) : Prop := ds_len (cx s) = n /\ n <= length (ds s).

  Definition comm {A} (m : M A) : Prop :=
    forall s, wfd s -> m (sw s) = res_map sw (m s) /\ res_all wfd (m s).

  Lemma wfd_split s : wfd s -> exists v h, ds s = v ++ h /\ length h = n.
  Proof.
    intros [_ H]. exists (firstn (length (ds s) - n) (ds s)), (lastn n (ds s)).
    split; [apply lastn_split|]. rewrite lastn_length. lia.
  Qed.

  Lemma firstn_vis (v h : list cell) : length h = n -> firstn (length (v ++ h) - n) (v ++ h) = v.
  Proof.
    intros H. rewrite app_length, H. replace (length v + n - n) with (length v) by lia.
    rewrite firstn_app, Nat.sub_diag, firstn_all. cbn [firstn]. apply app_nil_r.
  Qed.

  Lemma set_ds_eta s : set_ds s (ds s) = s.
  Proof. destruct s. reflexivity. Qed.
  Lemma set_ds_set_ds s a b : set_ds (set_ds s a) b = set_ds s b.
  Proof. reflexivity. Qed.
  Lemma add_rstep_set_ds r s a : add_rstep r (set_ds s a) = set_ds (add_rstep r s) a.
  Proof. unfold add_rstep. cbn [set_ds rlog]. destruct (rlog s); reflexivity. Qed.
  Lemma ds_add_rstep r s : ds (add_rstep r s) = ds s.
  Proof. unfold add_rstep. destruct (rlog s); reflexivity. Qed.
  Lemma cx_add_rstep r s : cx (add_rstep r s) = cx s.
  Proof. unfold add_rstep. destruct (rlog s); reflexivity. Qed.

  Lemma sw_set (s : state) (v h : list cell) : length h = n -> sw (set_ds s (v ++ h)) = set_ds s (v ++ h').
  Proof. intros H. unfold sw. cbn [set_ds ds]. rewrite firstn_vis by exact H. reflexivity. Qed.

  Lemma sw_eq s v h : ds s = v ++ h -> length h = n -> sw s = set_ds s (v ++ h').
  Proof. intros E H. rewrite <- (set_ds_eta s) at 1. rewrite E. apply sw_set. exact H. Qed.

  Lemma sw_length s : wfd s -> length (ds (sw s)) = length (ds s).
  Proof.
    intros W. destruct (wfd_split s W) as (v & h & E & H). rewrite (sw_eq s v h E H).
    cbn [set_ds ds]. rewrite E, !app_length. fold n. lia.
  Qed.

  Lemma wfd_sw_add r s v h : length h = n -> ds_len (cx s) = n -> wfd (set_ds (add_rstep r s) (v ++ h)).
  Proof.
    intros H E. split; [cbn [set_ds cx]; rewrite cx_add_rstep; exact E|].
    cbn [set_ds ds]. rewrite app_length. lia.
  Qed.

  Lemma comm_ret A (a : A) : comm (ret a).
  Proof. intros s W. split; [reflexivity|exact W]. Qed.
  Lemma comm_fail A k p : comm (@fail A k p).
  Proof. intros s W. split; [reflexivity|exact W]. Qed.
  Lemma comm_unsup A : comm (@unsup A).
  Proof. intros s W. split; [reflexivity|exact I]. Qed.
  Lemma comm_panic A : comm (@panic A).
  Proof. intros s W. split; [reflexivity|exact I]. Qed.

  Lemma comm_bind A B (m : M A) (f : A -> M B) : comm m -> (forall a, comm (f a)) -> comm (bind m f).
  Proof.
    intros Hm Hf s W. destruct (Hm s W) as [E1 W1]. unfold bind. rewrite E1.
    destruct (m s) as [a s1|k p s1| |]; cbn [res_map res_all] in *; try (split; [reflexivity|auto]).
    apply Hf. exact W1.
  Qed.

  Lemma comm_get_bind B (k : state -> M B) :
    (forall s0, wfd s0 -> k (sw s0) = k s0) -> (forall s0, comm (k s0)) -> comm (bind get k).
  Proof.
    intros Hk Hc s W. unfold bind, get. rewrite (Hk s W). apply Hc. exact W.
  Qed.

  (* primitives that do not touch the data stack *)
  Ltac nods_prim :=
    let s := fresh "s" in
    intros s [Hn Hl]; unfold wfd, sw;
    destruct s as [d0 h0 c0 g0 so0 in0 st0 rs0 fl0 lo0 sp0 cx0 ne0 me0 il0 hl0 sl0 rl0 ou0 lt0 sg0];
    destruct rl0;
    cbv [push_return pop_return top_frame push_loop pop_loop loop_next loop_set_items push_special
         pop_special get_var set_var init_local set_ip next_ip print modify
         add_rstep ip set_ip_raw res_map res_all
         set_ds set_rs set_loops set_special set_heap set_cx set_rlog set_out set_stopping
         dict heap code dbg sources input ds rs flows loops special cx nested meter insn_limit
         heap_limit stack_limit rlog out last_tok stopping] in *;
    break_matches; split; try reflexivity; try exact I; try (split; assumption).

  Lemma comm_push_return f : comm (push_return f). Proof. nods_prim. Qed.
  Lemma comm_pop_return : comm pop_return. Proof. nods_prim. Qed.
  Lemma comm_top_frame : comm top_frame. Proof. nods_prim. Qed.
  Lemma comm_push_loop l : comm (push_loop l). Proof. nods_prim. Qed.
  Lemma comm_pop_loop : comm pop_loop. Proof. nods_prim. Qed.
  Lemma comm_loop_next : comm loop_next. Proof. nods_prim. Qed.
  Lemma comm_loop_set_items c : comm (loop_set_items c). Proof. nods_prim. Qed.
  Lemma comm_push_special p : comm (push_special p). Proof. nods_prim. Qed.
  Lemma comm_pop_special : comm pop_special. Proof. nods_prim. Qed.
  Lemma comm_get_var a : comm (get_var a). Proof. nods_prim. Qed.
  Lemma comm_set_var a v : comm (set_var a v). Proof. nods_prim. Qed.
  Lemma comm_init_local i v : comm (init_local i v). Proof. nods_prim. Qed.
  Lemma comm_set_ip i : comm (set_ip i). Proof. nods_prim. Qed.
  Lemma comm_next_ip : comm next_ip. Proof. nods_prim. Qed.
  Lemma comm_print msg : comm (print msg). Proof. nods_prim. Qed.
  Lemma comm_set_stopping b : comm (modify (fun s => set_stopping s b)). Proof. nods_prim. Qed.

  Lemma comm_push_data c : comm (push_data c).
  Proof.
    intros s W. destruct (wfd_split s W) as (v & h & E & H). destruct W as [Wn Wl].
    unfold push_data. rewrite (sw_length s (conj Wn Wl)).
    change (stack_limit (sw s)) with (stack_limit s).
    destruct (limit_reached (stack_limit s) (length (ds s))); [split; [reflexivity|split; assumption]|].
    cbn [res_map res_all]. rewrite (sw_eq s v h E H), E.
    rewrite add_rstep_set_ds. cbn [set_ds ds]. split.
    - f_equal. change (c :: v ++ h) with ((c :: v) ++ h). rewrite sw_set by exact H. reflexivity.
    - change (c :: v ++ h) with ((c :: v) ++ h). apply wfd_sw_add; assumption.
  Qed.

  (* with nothing visible, the top of the hidden part is out of reach *)
  Lemma hidden_top (A : Type) (f : cell -> list cell -> A) (e : A) (l : list cell) : length l = n ->
    match l with c :: r => if n <? length l then f c r else e | [] => e end = e.
  Proof. intros <-. destruct l; [reflexivity|]. rewrite Nat.ltb_irrefl. reflexivity. Qed.

  Lemma comm_pop_data : comm pop_data.
  Proof.
    intros s W. destruct (wfd_split s W) as (v & h & E & H). destruct W as [Wn Wl].
    unfold pop_data. rewrite (sw_eq s v h E H). cbn [set_ds ds cx]. rewrite E.
    destruct v as [|a v].
    - cbn [app]. rewrite Wn.
      rewrite (hidden_top _ (fun c r => ROk c (add_rstep (RPushData c) (set_ds s r))) _ h' eq_refl).
      rewrite (hidden_top _ (fun c r => ROk c (add_rstep (RPushData c) (set_ds s r))) _ h H).
      cbn [res_map res_all].
      split; [f_equal; symmetry; apply (sw_eq s [] h E H)|split; assumption].
    - cbn [app length].
      replace (ds_len (cx s) <? S (length (v ++ h'))) with true
        by (symmetry; apply Nat.ltb_lt; rewrite app_length; fold n; lia).
      replace (ds_len (cx s) <? S (length (v ++ h))) with true
        by (symmetry; apply Nat.ltb_lt; rewrite app_length; lia).
      cbn [res_map res_all]. rewrite !add_rstep_set_ds. split.
      + f_equal. rewrite sw_set by exact H. reflexivity.
      + apply wfd_sw_add; assumption.
  Qed.

  Lemma comm_top_data : comm top_data.
  Proof.
    intros s W. destruct (wfd_split s W) as (v & h & E & H). destruct W as [Wn Wl].
    unfold top_data. rewrite (sw_eq s v h E H). cbn [set_ds ds cx]. rewrite E.
    destruct v as [|a v].
    - cbn [app]. rewrite Wn.
      rewrite (hidden_top _ (fun c _ => ROk c (set_ds s h')) _ h' eq_refl).
      rewrite (hidden_top _ (fun c _ => ROk c s) _ h H).
      cbn [res_map res_all].
      split; [f_equal; symmetry; apply (sw_eq s [] h E H)|split; assumption].
    - cbn [app length].
      replace (ds_len (cx s) <? S (length (v ++ h'))) with true
        by (symmetry; apply Nat.ltb_lt; rewrite app_length; fold n; lia).
      replace (ds_len (cx s) <? S (length (v ++ h))) with true
        by (symmetry; apply Nat.ltb_lt; rewrite app_length; lia).
      cbn [res_map res_all]. split.
      + f_equal. symmetry. apply (sw_eq s (a :: v) h E H).
      + split; assumption.
  Qed.

  (* a word that needs k visible cells and rearranges them *)
  Lemma depth_sw s : wfd s -> data_depth (sw s) = data_depth s.
  Proof. intros W. unfold data_depth. rewrite (sw_length s W). reflexivity. Qed.

  Lemma swap_under t : data_depth t < 2 -> swap_data t = RErr EUnderflow None t.
  Proof.
    intros H. unfold swap_data. destruct (ds t) as [|a [|b r]]; try reflexivity.
    replace (2 <=? data_depth t) with false; [reflexivity|]. symmetry. apply Nat.leb_gt. exact H.
  Qed.
  Lemma rot_under t : data_depth t < 3 -> rot_data t = RErr EUnderflow None t.
  Proof.
    intros H. unfold rot_data. destruct (ds t) as [|a [|b [|c r]]]; try reflexivity.
    replace (3 <=? data_depth t) with false; [reflexivity|]. symmetry. apply Nat.leb_gt. exact H.
  Qed.
  Lemma over_under t : data_depth t < 2 -> over_data t = RErr EUnderflow None t.
  Proof.
    intros H. unfold over_data. destruct (ds t) as [|a [|b r]]; try reflexivity.
    replace (2 <=? data_depth t) with false; [reflexivity|]. symmetry. apply Nat.leb_gt. exact H.
  Qed.

  Lemma depth_split s v h : wfd s -> ds s = v ++ h -> length h = n -> data_depth s = length v.
  Proof. intros [Wn _] E H. unfold data_depth. rewrite E, app_length, Wn, H. lia. Qed.

  Lemma comm_swap_data : comm swap_data.
  Proof.
    intros s W. destruct (wfd_split s W) as (v & h & E & H). pose proof W as [Wn Wl].
    pose proof (depth_split s v h W E H) as Dv. pose proof (depth_sw s W) as Ds.
    destruct (le_lt_dec 2 (length v)) as [Hv|Hv].
    - destruct v as [|a [|b v]]; cbn [length] in Hv; try lia.
      unfold swap_data. rewrite Ds, Dv. rewrite (sw_eq s _ h E H). cbn [set_ds ds]. rewrite E. cbn [app length].
      cbn [Nat.leb]. cbn [res_map res_all]. rewrite !add_rstep_set_ds. split.
      + f_equal. change (b :: a :: v ++ h) with ((b :: a :: v) ++ h). rewrite sw_set by exact H. reflexivity.
      + change (b :: a :: v ++ h) with ((b :: a :: v) ++ h). apply wfd_sw_add; assumption.
    - rewrite (swap_under (sw s)) by (rewrite Ds, Dv; exact Hv).
      rewrite (swap_under s) by (rewrite Dv; exact Hv). split; [reflexivity|exact W].
  Qed.

  Lemma comm_rot_data : comm rot_data.
  Proof.
    intros s W. destruct (wfd_split s W) as (v & h & E & H). pose proof W as [Wn Wl].
    pose proof (depth_split s v h W E H) as Dv. pose proof (depth_sw s W) as Ds.
    destruct (le_lt_dec 3 (length v)) as [Hv|Hv].
    - destruct v as [|a [|b [|c v]]]; cbn [length] in Hv; try lia.
      unfold rot_data. rewrite Ds, Dv. rewrite (sw_eq s _ h E H). cbn [set_ds ds]. rewrite E. cbn [app length].
      cbn [Nat.leb]. cbn [res_map res_all]. rewrite !add_rstep_set_ds. split.
      + f_equal. change (c :: b :: a :: v ++ h) with ((c :: b :: a :: v) ++ h).
        rewrite sw_set by exact H. reflexivity.
      + change (c :: b :: a :: v ++ h) with ((c :: b :: a :: v) ++ h). apply wfd_sw_add; assumption.
    - rewrite (rot_under (sw s)) by (rewrite Ds, Dv; exact Hv).
      rewrite (rot_under s) by (rewrite Dv; exact Hv). split; [reflexivity|exact W].
  Qed.

  Lemma wfd_add_rstep r s : wfd s -> wfd (add_rstep r s).
  Proof. intros [A B]. split; [rewrite cx_add_rstep; exact A|rewrite ds_add_rstep; exact B]. Qed.

  Lemma sw_add_rstep r s : sw (add_rstep r s) = add_rstep r (sw s).
  Proof. unfold sw. rewrite add_rstep_set_ds, ds_add_rstep. reflexivity. Qed.

  Lemma comm_over_data : comm over_data.
  Proof.
    intros s W. destruct (wfd_split s W) as (v & h & E & H). pose proof W as [Wn Wl].
    pose proof (depth_split s v h W E H) as Dv. pose proof (depth_sw s W) as Ds.
    destruct (le_lt_dec 2 (length v)) as [Hv|Hv].
    - destruct v as [|a [|b v]]; cbn [length] in Hv; try lia.
      unfold over_data. rewrite Ds, Dv.
      assert (Ed : ds (sw s) = a :: b :: v ++ h') by (rewrite (sw_eq s _ h E H); reflexivity).
      rewrite Ed, E. cbn [app length Nat.leb]. rewrite <- sw_add_rstep.
      apply (comm_push_data b (add_rstep ROverData s)). apply wfd_add_rstep. exact W.
    - rewrite (over_under (sw s)) by (rewrite Ds, Dv; exact Hv).
      rewrite (over_under s) by (rewrite Dv; exact Hv). split; [reflexivity|exact W].
  Qed.
End NI.
