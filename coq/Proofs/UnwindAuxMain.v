(* UnwindAuxMain.v (C10, follow-up equivalence): closing a context, every immediate word,
   the token loop, the unwinding, hence a whole submission (build_from_source: eval and
   compile) map compatible states to compatible results.  With the restoration theorem: any
   source submitted after a rejected one behaves as if the rejected one had never been
   submitted. *)
From Xeh Require Import Model.Prelude Model.Bits Model.Codec Model.Cell Model.Lexer Model.Fmt
                        Model.Vm Model.Words Model.Build.
From Xeh Require Import Proofs.VmFrame Proofs.VmLimits Proofs.NoPanic Proofs.NoPanicBuild
                        Proofs.UnwindLists Proofs.UnwindRel Proofs.UnwindIrr Proofs.UnwindAuxVm Proofs.UnwindAuxBuild Proofs.BuildUnwind.
Local Notation length := List.length.

Section Close.
  Variable fo : fops.
  Variable pr : string -> option Z.
  Variable rf : nat.

  Lemma ap_emit_results : forall fuel, ap (emit_results fuel).
  Proof.
    induction fuel as [|f IH]; [apply mrel_ret|].
    intros s s' H. rewrite !emit_results_S. revert s s' H.
    apply ap_get_bind; [reflexivity|intros s0].
    destruct (_ <? _)%nat; [|apply mrel_ret].
    apply mrel_bind; [apply wx_ap, wx_pop_data|intros v].
    apply mrel_bind; [apply ap_code_emit|intros _; apply IH].
  Qed.

  Lemma arel_set_cx s s' c : arel s s' -> arel (set_cx s c) (set_cx s' c).
  Proof. apply (arel_keep (fun s => set_cx s c)); [reflexivity|repeat split]. Qed.

  Lemma arel_set_nested s s' n : arel s s' -> arel (set_nested s n) (set_nested s' n).
  Proof. apply (arel_keep (fun s => set_nested s n)); [reflexivity|repeat split]. Qed.

  Lemma arel_close_cut s s' : arel s s' -> arel (close_cut s) (close_cut s').
  Proof.
    intros (dg & so & inp & me & rl & ou & lt & sg & (A1 & A2 & A3 & A4) & ->).
    exists (firstn (cs_len (cx s)) dg), so, inp, me, rl, ou, lt, sg. split; [|reflexivity].
    unfold aok, close_cut. cbn [set_dict set_dbg set_code dbg input insn_limit meter rlog].
    rewrite !firstn_length, A1. auto.
  Qed.

  Lemma ap_close_meta_tail prev : ap (close_meta_tail prev).
  Proof.
    unfold close_meta_tail.
    apply mrel_bind; [apply mrel_modify, arel_close_cut|intros _]. apply mrel_bind.
    - apply ap_get_bind; [reflexivity|intros s0].
      destruct (close_reemits prev s0); [apply ap_emit_results|apply mrel_ret].
    - intros _. apply mrel_modify. intros s s'. apply arel_set_cx.
  Qed.

  Lemma ap_context_close : ap (context_close fo rf).
  Proof.
    intros s s' H. rewrite !context_close_eq.
    assert (E : nested s' = nested s /\ cx s' = cx s)
      by (destruct H as (dg & so & inp & me & rl & ou & lt & sg & _ & ->); split; reflexivity).
    destruct E as [-> ->]. destruct (nested s) as [|prev rest]; [apply mrel_fail, H|].
    pose proof (arel_set_nested s s' rest H) as H0. pose proof (ap_run_m fo rf _ _ H0) as X.
    destruct (cmode (cx s)).
    - split; [reflexivity|apply arel_set_cx, H0].
    - (* the outer context takes over the ip the run stopped at *)
      assert (K : forall s1 s1', arel s1 s1' -> arel (close_eval_fin prev s1) (close_eval_fin prev s1')).
      { intros s1 s1' H1. unfold close_eval_fin.
        replace (ip s1') with (ip s1)
          by (destruct H1 as (dg & so & inp & me & rl & ou & lt & sg & _ & ->); reflexivity).
        apply arel_set_cx, H1. }
      destruct (run_m fo rf (set_nested s rest)) as [u s1|k p s1| |];
        destruct (run_m fo rf (set_nested s' rest)) as [u' s1'|k' p' s1'| |];
        cbn [rres res_map] in *; try contradiction; auto; repeat split; try apply X; apply K, X.
    - destruct (run_m fo rf (set_nested s rest)) as [u s1|k p s1| |];
        destruct (run_m fo rf (set_nested s' rest)) as [u' s1'|k' p' s1'| |];
        cbn [rres] in *; try contradiction; auto.
      + apply ap_close_meta_tail, X.
      + destruct X as (<- & <- & X). repeat split.
        replace (nested s1') with (nested s1)
          by (destruct X as (dg & so & inp & me & rl & ou & lt & sg & _ & ->); reflexivity).
        apply arel_set_nested, X.
  Qed.

  Lemma ap_i_nested_end : ap (i_nested_end fo rf).
  Proof.
    apply ap_get_bind; [reflexivity|intros s0]. destruct (negb _); [apply mrel_fail|].
    destruct (has_pending_flow s0); [apply mrel_fail|apply ap_context_close].
  Qed.

  Lemma ap_i_nested_inject : ap (i_nested_inject fo rf).
  Proof.
    apply ap_get_bind; [reflexivity|intros s0]. destruct (negb _); [apply mrel_fail|].
    destruct (has_pending_flow s0); [apply mrel_fail|].
    apply mrel_bind; [apply wx_ap; wx_solve|intros v].
    apply mrel_bind; [unfold join_str_vec; destruct (join_cells _ _ v); [apply mrel_ret|apply mrel_unsup]|intros txt].
    apply mrel_bind; [apply ap_context_close|intros _; apply ap_intern_source].
  Qed.

  Lemma ap_i_const : ap (i_const pr).
  Proof.
    unfold i_const. apply mrel_bind; [apply ap_next_name|intros name].
    apply ap_get_bind; [reflexivity|intros s0].
    destruct (negb (mode_eqb (cmode (cx s0)) MMeta)); [apply mrel_fail|].
    apply mrel_bind; [apply wx_ap, wx_pop_data|intros v].
    apply ap_keep.
    - intros s ? ? ? ? ? ? ? ?. cbv [bind get put fail ret dict_insert dict_pos].
      cbn [ax set_dict dict res_map]. break_matches; reflexivity.
    - intros s. cbv [bind get put fail ret dict_insert dict_pos].
      break_matches; cbn [res_all set_dict dbg input insn_limit meter rlog]; auto 10.
  Qed.

  Local Notation walk L := (L fo pr rf arel arel_core arel_set_code arel_set_dict arel_set_flows
                              ap_code_emit ap_alloc_heap (ap_context_open MMeta)).

  Lemma ap_enum_name_field val : ap (let* nm := next_name pr in enum_add_field nm val).
  Proof.
    apply mrel_bind; [apply ap_next_name|intros nm].
    exact (mrel_enum_add_field arel arel_core arel_set_dict arel_set_flows (ap_context_open MMeta) nm val).
  Qed.

  Lemma ap_i_enum_field_set : ap (i_enum_field_set fo pr rf).
  Proof.
    unfold i_enum_field_set. apply mrel_bind; [apply ap_i_nested_end|intros _].
    apply mrel_bind; [apply wx_ap, wx_pop_data|intros c].
    apply mrel_bind; [unfold m_xint; destruct (value c); first [apply mrel_ret|apply mrel_fail]|intros v].
    apply ap_enum_name_field.
  Qed.

  Lemma ap_i_endenum : ap (i_endenum fo rf).
  Proof.
    unfold i_endenum. apply mrel_bind; [apply ap_i_nested_end|intros _].
    apply ap_get_bind; [reflexivity|intros s0].
    destruct (0 <? data_depth s0)%nat; [apply mrel_fail|].
    apply mrel_bind; [exact (mrel_pop_flow arel arel_core arel_set_flows)|intros fl].
    destruct fl as [f|]; [|apply mrel_fail]. destruct f; try exact (mrel_fail arel _ _ _). apply ap_i_nested_end.
  Qed.

  Lemma ap_build_word f name : ap (build_word fo pr rf f name).
  Proof.
    intros s s' H.
    refine (rres_build_word fo pr rf arel arel_core arel_set_code arel_set_dict arel_set_flows
              ap_code_emit ap_alloc_heap (ap_context_open MMeta) (ap_get_token pr) (ap_next_name pr)
              ap_i_nested_end ap_i_nested_inject ap_i_const (fun _ _ => false)
              (fun s s' H _ => ap_i_enum_field_set s s' H) (fun s s' H _ => ap_i_endenum s s' H)
              false _ f name s s' H _).
    - intros _ fuel x. unfold run_immediate. apply ap_get_bind; [reflexivity|intros s0].
      apply mrel_bind; [apply wx_ap, wx_push_return|intros _].
      apply mrel_bind; [apply wx_ap, wx_set_ip|intros _]. apply ap_run_m.
    - unfold word_bad. destruct (dict_entry s name) as [[| |[] []]|]; reflexivity.
  Qed.

  Lemma ap_build1 fuel depth : ap (build1 fo pr rf fuel depth).
  Proof.
    intros s s' H.
    refine (rres_build1 fo pr rf (fun _ _ => false) arel _ _ (ap_get_token pr) ap_code_emit _ _
              (fun f name s s' H _ => ap_build_word f name s s' H) fuel depth s s' H (watch_none fo pr rf _ _ _)).
    - intros t t' (dg & so & inp & me & rl & ou & lt & sg & _ & ->). reflexivity.
    - intros t t' Ht _. apply ap_run_m, Ht.
    - intros d. apply ap_get_bind; [reflexivity|intros s0].
      destruct (negb _); [apply mrel_fail|]. destruct (has_pending_flow s0); [apply mrel_fail|apply mrel_ret].
    - intros t t' (dg & so & inp & me & rl & ou & lt & sg & _ & ->). reflexivity.
  Qed.

  Lemma leave_contexts_ax : forall fuel depth t dg so inp me rl ou lt sg,
    leave_contexts fuel depth (ax t dg so inp me rl ou lt sg) =
    ax (leave_contexts fuel depth t) dg so inp me rl ou lt sg.
  Proof.
    induction fuel as [|f IH]; intros depth t dg so inp me rl ou lt sg; cbn [leave_contexts]; [reflexivity|].
    change (nested (ax t dg so inp me rl ou lt sg)) with (nested t).
    destruct (S depth <? length (nested t))%nat; [|reflexivity].
    destruct (nested t) as [|prev rest]; [reflexivity|].
    apply (IH depth (set_cx (set_nested t rest) prev)).
  Qed.

  Lemma Forall2_skipn {A B} (R : A -> B -> Prop) : forall n l l', Forall2 R l l' -> Forall2 R (skipn n l) (skipn n l').
  Proof.
    induction n as [|n IH]; intros l l' H; [exact H|]. destruct H; [constructor|]. cbn [skipn]. apply IH. assumption.
  Qed.

  Lemma build_unwind_arel depth inputs dsl heapl s s' : arel s s' ->
    arel (build_unwind depth inputs dsl heapl s) (build_unwind depth inputs dsl heapl s').
  Proof.
    intros (dg & so & inp & me & rl & ou & lt & sg & Ho & ->).
    rewrite !build_unwind_eq. cbv zeta.
    change (nested (ax s dg so inp me rl ou lt sg)) with (nested s).
    change (set_input (ax s dg so inp me rl ou lt sg) (lastn inputs (input (ax s dg so inp me rl ou lt sg))))
      with (ax (set_input s (lastn inputs (input s))) dg so (lastn inputs inp) me rl ou lt sg).
    rewrite leave_contexts_ax.
    destruct (leave_contexts_frame (S (length (nested s))) depth (set_input s (lastn inputs (input s))))
      as (c & n & ->).
    set (s1 := set_nested (set_cx (set_input s (lastn inputs (input s))) c) n).
    (* the cut of the twin is the twin of the cut, its debug map cut at the same mark *)
    change (unwind_cut dsl heapl (ax s1 dg so (lastn inputs inp) me rl ou lt sg))
      with (ax (unwind_cut dsl heapl s1) (firstn (cs_len c) dg) so (lastn inputs inp) me rl ou lt sg).
    assert (Ho5 : aok (unwind_cut dsl heapl s1) (firstn (cs_len c) dg) (lastn inputs inp) me rl).
    { pose proof (aok_input_len _ _ _ _ _ Ho) as Hl. destruct Ho as (A1 & A2 & A3 & A4).
      split; [unfold s1; cbn [unwind_cut dbg set_nested set_cx set_input]; rewrite !firstn_length, A1; reflexivity|].
      split; [|split; [exact A3|exact A4]].
      unfold s1. cbn [unwind_cut input set_nested set_cx set_input]. unfold lastn. rewrite Hl.
      apply Forall2_skipn. exact A2. }
    change (nested (ax (unwind_cut dsl heapl s1) (firstn (cs_len c) dg) so (lastn inputs inp) me rl ou lt sg)) with n.
    change (nested (unwind_cut dsl heapl s1)) with n.
    destruct n as [|prev rest]; [apply arel_intro; exact Ho5|].
    destruct (depth <? length (prev :: rest))%nat; [|apply arel_intro; exact Ho5].
    apply arel_set_cx.
    change (set_nested (ax (unwind_cut dsl heapl s1) (firstn (cs_len c) dg) so (lastn inputs inp) me rl ou lt sg) rest)
      with (ax (set_nested (unwind_cut dsl heapl s1) rest) (firstn (cs_len c) dg) so (lastn inputs inp) me rl ou lt sg).
    apply arel_intro. eapply aok_same; [..|exact Ho5]; reflexivity.
  Qed.

  Theorem ap_build_from_source fuel src m : ap (build_from_source fo pr rf fuel src m).
  Proof.
    intros s s' H. unfold build_from_source. cbv zeta.
    assert (E : nested s' = nested s /\ ds s' = ds s /\ heap s' = heap s /\ length (input s') = length (input s)).
    { destruct H as (dg & so & inp & me & rl & ou & lt & sg & Ho & ->). repeat split.
      apply (aok_input_len _ _ _ _ _ Ho). }
    destruct E as (-> & -> & -> & ->).
    assert (X : ap (context_open m ;; intern_source src))
      by (apply mrel_bind; [apply ap_context_open|intros _; apply ap_intern_source]).
    specialize (X s s' H).
    destruct ((context_open m ;; intern_source src) s) as [u s1|k p s1| |];
      destruct ((context_open m ;; intern_source src) s') as [u' s1'|k' p' s1'| |];
      cbn [rres] in *; try contradiction; auto.
    destruct X as [_ H1].
    replace (nested s1') with (nested s1)
      by (destruct H1 as (dg & so & inp & me & rl & ou & lt & sg & _ & ->); reflexivity).
    pose proof (ap_build1 fuel (length (nested s1)) s1 s1' H1) as Y.
    destruct (build1 fo pr rf fuel (length (nested s1)) s1) as [u2 s2|k p s2| |];
      destruct (build1 fo pr rf fuel (length (nested s1)) s1') as [u2' s2'|k' p' s2'| |];
      cbn [rres] in *; try contradiction; auto.
    - apply ap_context_close, Y.
    - destruct Y as (<- & <- & Y). repeat split. apply build_unwind_arel, Y.
  Qed.
End Close.
