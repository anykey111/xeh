(* DbgMapStmts2.v (C17): what the provenance invariant says in plain terms: the location of an
   entry, which token a cell gets, the machine's only write to the code. *)
From Xeh Require Import Model.Prelude Model.Bits Model.Codec Model.Cell Model.Lexer Model.Fmt
                        Model.Vm Model.Words Model.Build Model.Boot.
From Xeh Require Import Proofs.LexLoc Proofs.LexBasic Proofs.LexNext Proofs.LexAll Proofs.NoPanicLex.
From Xeh Require Import Proofs.VmFrame Proofs.VmLimits Proofs.DbgMapVm Proofs.DbgMapGen
                        Proofs.DbgMapAlign Proofs.DbgMapRun Proofs.DbgMapProv Proofs.DbgMapProvApi
                        Proofs.DbgMapMulti Proofs.DbgMapErr Proofs.BuildShape Proofs.NoPanicBuild.

Lemma prov_emit_entry : forall op s, P1 s ->
  exists t s', last_tok s = Some t /\ code_emit op s = ROk tt s' /\
               dbg s' = dbg s ++ [t] /\ code s' = code s ++ [op] /\ tok_ok s' t /\ P1 s'.
Proof.
  intros op s Hs. pose proof (prov_emit op s Hs) as H.
  destruct Hs as (((Ha & Hd & Hl & Hr) & Hi) & Hn).
  rewrite code_emit_al in * by exact Ha.
  destruct (last_tok s) as [t|] eqn:El; [|congruence].
  exists t, (emit_state op s). split; [reflexivity|]. split; [reflexivity|].
  split; [unfold emit_state, cur_tok; rewrite El; reflexivity|].
  split; [reflexivity|]. split; [|exact H].
  unfold last_ok in Hl. rewrite El in Hl. eapply tok_ok_eq; [|exact Hl]. reflexivity.
Qed.

Lemma entry_location s n a b src : entry_ok s (n, a, b) -> nth_error (sources s) n = Some src ->
  (exists tk, In (tk, a, b) (lex_string src) /\ nonws tk = true) /\
  (valid_utf8 src = true ->
   a <= b /\ b <= String.length src /\
   (src <> EmptyString ->
    token_location src a = (spec_line src a, spec_col src a, spec_line_start src a, spec_line_end src a))).
Proof.
  cbn [entry_ok]. intros (src' & E & Htk & Hb) Hs. assert (src' = src) by congruence. subst src'.
  split; [exact Htk|]. intros Hv. destruct (Hb Hv) as [B1 B2]. split; [exact B1|]. split; [exact B2|].
  intros Hne. apply token_location_spec_weak; [exact Hv|exact Hne|lia].
Qed.

Theorem api_location : forall fo pr s i n a b src,
  api_reach fo pr s -> nth_error (dbg s) i = Some (n, a, b) -> nth_error (sources s) n = Some src ->
  (exists tk, In (tk, a, b) (lex_string src) /\ nonws tk = true) /\
  (valid_utf8 src = true ->
   a <= b /\ b <= String.length src /\
   (src <> EmptyString ->
    token_location src a = (spec_line src a, spec_col src a, spec_line_start src a, spec_line_end src a))).
Proof.
  intros fo pr s i n a b src Hr Hn. apply entry_location.
  exact (proj1 (api_prov fo pr s Hr) i _ Hn).
Qed.

Theorem api_location_last : forall fo pr s n a b src,
  api_reach fo pr s -> last_tok s = Some (n, a, b) -> nth_error (sources s) n = Some src ->
  (exists tk, In (tk, a, b) (lex_string src) /\ nonws tk = true) /\
  (valid_utf8 src = true ->
   a <= b /\ b <= String.length src /\
   (src <> EmptyString ->
    token_location src a = (spec_line src a, spec_col src a, spec_line_start src a, spec_line_end src a))).
Proof.
  intros fo pr s n a b src Hr Hn. apply entry_location.
  exact (proj1 (proj2 (api_prov fo pr s Hr)) _ Hn).
Qed.

Section Cells.
  Variable fo : fops.
  Variable pr : string -> option Z.
  Variable rf : nat.

  (* a literal: one cell, tagged with the literal's own token *)
  Theorem literal_cell : forall s v s1, P0 s -> get_token pr s = ROk (BLit v) s1 ->
    exists t s2, last_tok s1 = Some t /\ tok_ok s1 t /\
                 code_emit_value v s1 = ROk tt s2 /\
                 dbg s2 = dbg s1 ++ [t] /\ code s2 = code s1 ++ [load_value_opcode v] /\
                 (last_is s1 (TLit v) \/
                  exists txt r, last_is s1 (TReal txt) /\ pr txt = Some r /\ v = CReal r).
  Proof.
    intros s v s1 Hs H. pose proof (get_token_prov pr s Hs) as T. rewrite H in T. cbn [tok_post] in T.
    destruct T as [T1 T2].
    destruct (prov_emit_entry (load_value_opcode v) s1 T1) as (t & s2 & A1 & A2 & A3 & A4 & A5 & A6).
    exists t, s2. split; [exact A1|]. split.
    - destruct T1 as (((_ & _ & Hl & _) & _) & _). unfold last_ok in Hl. rewrite A1 in Hl. exact Hl.
    - split; [exact A2|]. split; [exact A3|]. split; [exact A4|exact T2].
  Qed.

  (* a word that is not immediate (constant, variable, interpreted or native function): one
     cell - the instruction the entry resolves to - tagged with the word's own token *)
  Theorem word_cell : forall fuel s w s1 e, P0 s -> get_token pr s = ROk (BWord w) s1 ->
    dict_entry s1 w = Some e -> (forall f len, e <> DFun true f len) ->
    build_word fo pr rf fuel w s1 = code_emit (resolve_op e) s1 /\
    exists t s2, last_tok s1 = Some t /\ code_emit (resolve_op e) s1 = ROk tt s2 /\
                 dbg s2 = dbg s1 ++ [t] /\ code s2 = code s1 ++ [resolve_op e] /\
                 last_is_word s1 w.
  Proof.
    intros fuel s w s1 e Hs H Hd Hni. destruct (get_token_word pr s w s1 Hs H) as [W1 W2].
    split.
    - unfold build_word, bind, get. rewrite Hd.
      destruct e as [c|a|imm f len]; [reflexivity|reflexivity|].
      destruct imm; [exfalso; eapply Hni; reflexivity|]. destruct f; reflexivity.
    - destruct (prov_emit_entry (resolve_op e) s1 W2) as (t & s2 & A1 & A2 & A3 & A4 & _).
      exists t, s2. auto.
  Qed.
End Cells.

Theorem far_code_change : forall fo s,
  res_all (fun s' => code s' = code s \/
                     exists name e, nth_error (code s) (ip s) = Some (OResolve name) /\
                                    dict_entry s name = Some e /\
                                    code s' = list_set (code s) (ip s) (resolve_op e))
          (fetch_and_run (native_fn fo) s).
Proof.
  intros fo s. pose proof (far_spec_holds (native_fn fo) s) as FS.
  assert (X : forall i o s1 (Q : state -> Prop), (forall s', code s' = code s1 -> Q s') ->
                res_all Q (exec_op (native_fn fo) i o s1)).
  { intros i o s1 Q HQ. pose proof (exec_op_frm (native_fn fo) (native_wl fo) i o s1) as F.
    destruct (exec_op (native_fn fo) i o s1); cbn [res_all] in *; auto; apply HQ; exact (proj1 F). }
  inversion FS as [ Hm | | op Hm Hn Hr Hx | name Hm Hn Hd | name e Hm Hn Hd Hm2 | name e Hm Hn Hd Hm2 Hx ];
    cbn [res_all]; try exact I.
  - left. reflexivity.
  - apply X. intros s' E. left. exact E.
  - left. reflexivity.
  - right. exists name, e. auto.
  - apply X. intros s' E. right. exists name, e. auto.
Qed.
