(* NoPanicLex.v (C08 d): the lexer and token_location are total functions with no panic
   outcome in the model; what corresponds to the Rust slice accesses is that token spans
   are ordered and stay inside the text. *)
From Xeh Require Import Model.Prelude Model.Lexer.
From Xeh Require Import Proofs.LexLoc Proofs.LexAll.
Local Open Scope string_scope.

Theorem lex_span_inside_full : forall s t a b,
  valid_utf8 s = true -> In (t, a, b) (lex_string s) -> a <= b /\ b <= String.length s.
Proof.
  intros s t a b Hv Hin. exact (proj1 (lex_string_good s Hv _ Hin)).
Qed.

Theorem lex_span_inside : forall s t a b,
  valid_utf8 s = true -> In (t, a, b) (lex_string s) ->
  a <= String.length s /\ match t with TErr _ _ _ => True | _ => b <= String.length s end.
Proof.
  intros s t a b Hv Hin. destruct (lex_span_inside_full s t a b Hv Hin) as [H1 H2].
  split; [lia|]. destruct t; try exact I; exact H2.
Qed.

