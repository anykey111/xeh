(* String helpers, facts about single bytes, the "advance" relations between (rest, position)
   pairs and UTF-8 validity of suffixes. *)
From Xeh Require Import Model.Prelude Model.Cell Model.Lexer Proofs.LexLoc.
From Coq Require Import ZifyBool ZifyNat ZifyN.
Local Open Scope string_scope.

Lemma app_length_s : forall a b, String.length (a ++ b) = String.length a + String.length b.
Proof. induction a as [|c a IH]; intros b; cbn [append String.length]; [reflexivity|]. rewrite IH. reflexivity. Qed.

Lemma app_assoc_s : forall a b c : string, (a ++ b) ++ c = a ++ (b ++ c).
Proof. induction a as [|x a IH]; intros b c; cbn [append]; [reflexivity|]. rewrite IH. reflexivity. Qed.

Lemma app_nil_r_s : forall a : string, a ++ "" = a.
Proof. induction a as [|x a IH]; cbn [append]; [reflexivity|]. rewrite IH. reflexivity. Qed.

Lemma str_drop_0 s : str_drop 0 s = s.
Proof. reflexivity. Qed.

Lemma str_drop_nil n : str_drop n "" = "".
Proof. destruct n; reflexivity. Qed.

Lemma str_take_nil n : str_take n "" = "".
Proof. destruct n; reflexivity. Qed.

Lemma str_take_0 s : str_take 0 s = "".
Proof. reflexivity. Qed.

Lemma str_drop_length : forall n s, String.length (str_drop n s) = String.length s - n.
Proof.
  induction n as [|n IH]; intros s; [cbn [str_drop]; lia|].
  destruct s as [|c r]; [reflexivity|]. cbn [str_drop String.length]. rewrite IH. lia.
Qed.

Lemma str_drop_drop : forall a s b, str_drop b (str_drop a s) = str_drop (a + b) s.
Proof.
  induction a as [|a IH]; intros s b; [reflexivity|].
  destruct s as [|c r]; [rewrite !str_drop_nil; reflexivity|].
  cbn [str_drop Nat.add]. apply IH.
Qed.

Lemma str_take_drop : forall n s, str_take n s ++ str_drop n s = s.
Proof.
  induction n as [|n IH]; intros s; [reflexivity|].
  destruct s as [|c r]; [reflexivity|]. cbn [str_take str_drop append]. rewrite IH. reflexivity.
Qed.

Lemma str_drop_app_length a b : str_drop (String.length a) (a ++ b) = b.
Proof. induction a as [|c a IH]; [reflexivity|]. cbn [String.length append str_drop]. exact IH. Qed.

Lemma str_take_app_length a b : str_take (String.length a) (a ++ b) = a.
Proof. induction a as [|c a IH]; [reflexivity|]. cbn [String.length append str_take]. rewrite IH. reflexivity. Qed.

Lemma str_drop_app : forall k s x, k <= String.length s -> str_drop k (s ++ x) = str_drop k s ++ x.
Proof.
  induction k as [|k IH]; intros s x H; [reflexivity|].
  destruct s as [|c s]; cbn [String.length] in H; [lia|]. cbn [append str_drop]. apply IH. lia.
Qed.

Lemma str_take_app : forall k s x, k <= String.length s -> str_take k (s ++ x) = str_take k s.
Proof.
  induction k as [|k IH]; intros s x H; [reflexivity|].
  destruct s as [|c s]; cbn [String.length] in H; [lia|]. cbn [append str_take]. rewrite IH by lia. reflexivity.
Qed.

Lemma str_drop_all n s : String.length s <= n -> str_drop n s = "".
Proof.
  intros H. pose proof (str_drop_length n s) as L.
  destruct (str_drop n s); [reflexivity|cbn [String.length] in L; lia].
Qed.

Lemma str_take_all : forall n s, String.length s <= n -> str_take n s = s.
Proof.
  intros n s H. rewrite <- (app_nil_r_s (str_take n s)), <- (str_drop_all n s H). apply str_take_drop.
Qed.

Lemma str_take_add : forall a b s, str_take (a + b) s = str_take a s ++ str_take b (str_drop a s).
Proof.
  induction a as [|a IH]; intros b s; [reflexivity|].
  destruct s as [|c r]; [rewrite !str_take_nil; reflexivity|].
  cbn [Nat.add str_take str_drop append]. rewrite IH. reflexivity.
Qed.

Lemma str_drop_min n s : str_drop n s = str_drop (Nat.min n (String.length s)) s.
Proof.
  destruct (Nat.le_gt_cases n (String.length s)) as [H|H].
  - rewrite Nat.min_l by assumption. reflexivity.
  - rewrite Nat.min_r by lia. rewrite !str_drop_all by lia. reflexivity.
Qed.

Lemma no_ws_app a b : no_ws (a ++ b) = no_ws a && no_ws b.
Proof.
  induction a as [|c a IH]; [reflexivity|]. cbn [append no_ws]. rewrite IH. apply andb_assoc.
Qed.

Lemma word_split : forall s, exists body rest,
  s = body ++ rest /\ no_ws body = true /\ next_is_ws_or_end rest = true.
Proof.
  induction s as [|c s IH]; [exists "", ""; repeat split|].
  destruct (is_ws c) eqn:Ec.
  - exists "", (String c s). repeat split. exact Ec.
  - destruct IH as (body & rest & -> & Hb & Hr). exists (String c body), rest.
    cbn [append no_ws]. rewrite Ec, Hb. repeat split. exact Hr.
Qed.

Lemma byte_of_inj c n : byte_of c = n -> c = ascii_of_N n.
Proof. intros <-. unfold byte_of. symmetry. apply ascii_N_embedding. Qed.

Lemma byte_inj a b : byte_of a = byte_of b -> a = b.
Proof. intros H. rewrite (byte_of_inj b _ eq_refl). apply byte_of_inj, H. Qed.

Lemma byte_eqb c n : (byte_of c =? n)%N = true -> c = ascii_of_N n.
Proof. intros H. apply byte_of_inj, N.eqb_eq, H. Qed.

Lemma ascii_width c : (byte_of c < 128)%N -> utf8_width c = 1 /\ is_cont c = false.
Proof.
  intros H. unfold utf8_width, is_cont. replace (byte_of c <? 128)%N with true by lia.
  split; [reflexivity|lia].
Qed.

(* the five whitespace bytes are the only bytes below 33 the lexer tells apart *)
Lemma ws_byte c : is_ws c = true -> (byte_of c <= 32)%N.
Proof. unfold is_ws. lia. Qed.

Lemma ws_ascii c : is_ws c = true -> (byte_of c < 128)%N.
Proof. intros H. apply ws_byte in H. lia. Qed.

(* whitespace is none of the bytes the lexer dispatches on *)
Lemma ws_not c n : is_ws c = true -> (32 < n)%N -> (byte_of c =? n)%N = false.
Proof. intros H Hn. apply ws_byte in H. lia. Qed.

Lemma digit_byte c : is_digit c = true -> (48 <= byte_of c <= 57)%N.
Proof. unfold is_digit. lia. Qed.

Lemma digit_not_sign c : is_digit c = true -> byte_of c <> 45%N /\ byte_of c <> 43%N.
Proof. unfold is_digit. lia. Qed.

Lemma starts_ldq_false c r : (byte_of c =? 226)%N = false -> starts_ldq (String c r) = false.
Proof. intros H. destruct r as [|b [|d r]]; cbn [starts_ldq]; try reflexivity. rewrite H. reflexivity. Qed.

Lemma starts_rdq_false c r : (byte_of c =? 226)%N = false -> starts_rdq (String c r) = false.
Proof. intros H. destruct r as [|b [|d r]]; cbn [starts_rdq]; try reflexivity. rewrite H. reflexivity. Qed.

Lemma starts_ldq_iff s : starts_ldq s = true <-> exists r, s = ldq ++ r.
Proof.
  split.
  - destruct s as [|a [|b [|c r]]]; cbn [starts_ldq]; try discriminate. intros H.
    apply andb_prop in H. destruct H as [H H3]. apply andb_prop in H. destruct H as [H1 H2].
    rewrite (byte_eqb _ _ H1), (byte_eqb _ _ H2), (byte_eqb _ _ H3). exists r. reflexivity.
  - intros [r ->]. reflexivity.
Qed.

Lemma starts_rdq_iff s : starts_rdq s = true <-> exists r, s = rdq ++ r.
Proof.
  split.
  - destruct s as [|a [|b [|c r]]]; cbn [starts_rdq]; try discriminate. intros H.
    apply andb_prop in H. destruct H as [H H3]. apply andb_prop in H. destruct H as [H1 H2].
    rewrite (byte_eqb _ _ H1), (byte_eqb _ _ H2), (byte_eqb _ _ H3). exists r. reflexivity.
  - intros [r ->]. reflexivity.
Qed.

(* positions move forward and the rest is the matching suffix (drop saturates) *)
Definition adv (s : string) (p : nat) (s' : string) (p' : nat) : Prop :=
  p <= p' /\ s' = str_drop (p' - p) s.

(* exact: the bytes counted were really there *)
Definition advx (s : string) (p : nat) (s' : string) (p' : nat) : Prop :=
  exists k, k <= String.length s /\ p' = p + k /\ s' = str_drop k s.

Lemma advx_adv s p s' p' : advx s p s' p' -> adv s p s' p'.
Proof. intros (k & H1 & H2 & H3). split; [lia|]. subst. f_equal. lia. Qed.

Lemma adv_refl s p : adv s p s p.
Proof. split; [lia|]. rewrite Nat.sub_diag. reflexivity. Qed.

Lemma advx_refl s p : advx s p s p.
Proof. exists 0. split; [lia|]. split; [lia|reflexivity]. Qed.

Lemma adv_trans s p s1 p1 s2 p2 : adv s p s1 p1 -> adv s1 p1 s2 p2 -> adv s p s2 p2.
Proof.
  intros [H1 H2] [H3 H4]. split; [lia|]. subst. rewrite str_drop_drop. f_equal. lia.
Qed.

Lemma advx_trans s p s1 p1 s2 p2 : advx s p s1 p1 -> advx s1 p1 s2 p2 -> advx s p s2 p2.
Proof.
  intros (k & H1 & H2 & H3) (j & H4 & H5 & H6). subst.
  rewrite str_drop_length in H4. exists (k + j). split; [lia|]. split; [lia|].
  apply str_drop_drop.
Qed.

Lemma advx_drop s p k : k <= String.length s -> advx s p (str_drop k s) (p + k).
Proof. intros H. exists k. auto. Qed.

Lemma adv_drop s p k : adv s p (str_drop k s) (p + k).
Proof. split; [lia|]. f_equal. lia. Qed.

Lemma advx_app a b p : advx (a ++ b) p b (p + String.length a).
Proof.
  exists (String.length a). rewrite app_length_s, str_drop_app_length. split; [lia|]. split; reflexivity.
Qed.

Lemma advx_cons c r p s' p' q : advx r q s' p' -> q = S p -> advx (String c r) p s' p'.
Proof.
  intros H ->. eapply advx_trans; [|exact H]. replace (S p) with (p + 1) by lia. exact (advx_app (String c "") r p).
Qed.

Lemma adv_cons c r p s' p' q : adv r q s' p' -> q = S p -> adv (String c r) p s' p'.
Proof.
  intros [H1 H2] ->. split; [lia|]. replace (p' - p) with (S (p' - S p)) by lia. exact H2.
Qed.

Lemma str_take_advx : forall w s p, advx s p (str_drop w s) (p + String.length (str_take w s)).
Proof.
  induction w as [|w IH]; intros s p.
  - cbn [str_take str_drop String.length]. rewrite Nat.add_0_r. apply advx_refl.
  - destruct s as [|c r]; cbn [str_take str_drop String.length]; [rewrite Nat.add_0_r; apply advx_refl|].
    eapply advx_cons; [|reflexivity].
    replace (p + S (String.length (str_take w r))) with (S p + String.length (str_take w r)) by lia. apply IH.
Qed.

Lemma advx_len s p s' p' : advx s p s' p' -> p' + String.length s' = p + String.length s.
Proof. intros (k & H1 & H2 & H3). subst. rewrite str_drop_length. lia. Qed.

(* a suffix of a valid text, cut at an arbitrary byte *)
Definition vsuf (s : string) : Prop := exists need, valid_go s need = true.

Lemma vsuf_of_valid s : valid_go s 0 = true -> vsuf s.
Proof. intros H. exists 0. exact H. Qed.

Lemma vsuf_tail c r : vsuf (String c r) -> vsuf r.
Proof.
  intros [need H]. cbn [valid_go] in H. destruct need as [|k]; apply andb_prop in H; destruct H as [_ H];
    eexists; exact H.
Qed.

Lemma vsuf_drop : forall k s, vsuf s -> vsuf (str_drop k s).
Proof.
  induction k as [|k IH]; intros s H; [exact H|].
  destruct s as [|c r]; [exact H|]. cbn [str_drop]. apply IH. eapply vsuf_tail. exact H.
Qed.

Lemma vsuf_advx s p s' p' : advx s p s' p' -> vsuf s -> vsuf s'.
Proof. intros (k & _ & _ & ->). apply vsuf_drop. Qed.

(* boundary: empty, or the first byte is not a continuation byte *)
Definition bnd (s : string) : bool :=
  match s with "" => true | String c _ => negb (is_cont c) end.

Lemma valid_of_bnd s : vsuf s -> bnd s = true -> valid_go s 0 = true.
Proof.
  intros [need H] Hb. destruct s as [|c r].
  - cbn [valid_go] in *. destruct need; [reflexivity|discriminate].
  - cbn [bnd] in Hb. destruct need as [|k]; [exact H|].
    cbn [valid_go] in H. destruct (is_cont c); discriminate.
Qed.

Lemma ascii_bnd c r : (byte_of c < 128)%N -> bnd (String c r) = true.
Proof. intros H. cbn [bnd]. destruct (ascii_width c H) as [_ ->]. reflexivity. Qed.

Lemma ws_or_end_bnd s : next_is_ws_or_end s = true -> bnd s = true.
Proof. destruct s as [|c r]; [reflexivity|]. intros H. apply ascii_bnd, ws_ascii, H. Qed.

Lemma valid_ascii_tail c r : vsuf (String c r) -> (byte_of c < 128)%N -> valid_go r 0 = true.
Proof.
  intros [need H] Hc. destruct (ascii_width c Hc) as [Hw Hn].
  cbn [valid_go] in H. rewrite Hw, Hn in H. destruct need; [|discriminate]. exact H.
Qed.

Lemma valid_go_app : forall a need b, valid_go a need = true -> valid_go (a ++ b) need = valid_go b 0.
Proof.
  induction a as [|c a IH]; intros need b H.
  - cbn [valid_go] in H. apply Nat.eqb_eq in H. subst need. reflexivity.
  - cbn [append valid_go] in *. destruct need as [|k]; apply andb_prop in H; destruct H as [H1 H2];
      rewrite H1, (IH _ b H2); reflexivity.
Qed.

Lemma valid_need : forall need s, valid_go s need = true ->
  need <= String.length s /\ no_ws (str_take need s) = true /\ valid_go (str_drop need s) 0 = true.
Proof.
  induction need as [|k IH]; intros s H.
  - split; [lia|]. split; [reflexivity|exact H].
  - destruct s as [|c r]; [discriminate|]. cbn [valid_go] in H.
    apply andb_prop in H. destruct H as [H1 H2]. destruct (IH r H2) as (A & B & C).
    cbn [String.length str_take str_drop no_ws]. split; [lia|]. split; [|exact C].
    replace (is_ws c) with false by (unfold is_cont, is_ws in *; lia). exact B.
Qed.

Lemma valid_first_char c r : valid_go (String c r) 0 = true ->
  utf8_width c <= String.length (String c r) /\
  valid_go (str_drop (utf8_width c) (String c r)) 0 = true /\
  (is_ws c = false -> no_ws (str_take (utf8_width c) (String c r)) = true).
Proof.
  intros H. cbn [valid_go] in H. apply andb_prop in H. destruct H as [H1 H2].
  pose proof (utf8_width_pos c) as Hw.
  destruct (valid_need _ _ H2) as (A & B & C).
  replace (utf8_width c) with (S (utf8_width c - 1)) by lia.
  cbn [String.length str_take str_drop no_ws]. split; [lia|]. split; [exact C|].
  intros Hc. rewrite Hc, B. reflexivity.
Qed.

Lemma valid_go_tail c r need : valid_go (String c r) need = true -> exists k, valid_go r k = true.
Proof. intros H. apply (vsuf_tail c r). exists need. exact H. Qed.

(* the lead byte E2 (that of the curly quotes) starts a three-byte character *)
Lemma valid_e2 c r need : valid_go (String c r) need = true -> (byte_of c =? 226)%N = true ->
  need = 0 /\ exists c1 c2 r', r = String c1 (String c2 r') /\
                is_cont c1 = true /\ is_cont c2 = true /\ valid_go r' 0 = true.
Proof.
  intros Hv E. assert (Ec : byte_of c = 226%N) by lia. cbn [valid_go] in Hv.
  destruct need as [|k].
  2:{ apply andb_prop in Hv. destruct Hv as [Hc _]. unfold is_cont in Hc. lia. }
  split; [reflexivity|]. apply andb_prop in Hv. destruct Hv as [_ Hv].
  replace (utf8_width c - 1) with 2 in Hv by (unfold utf8_width; rewrite Ec; reflexivity).
  destruct r as [|c1 [|c2 r']]; try discriminate.
  { cbn [valid_go] in Hv. apply andb_prop in Hv. destruct Hv as [_ Hv]. discriminate. }
  cbn [valid_go] in Hv. apply andb_prop in Hv. destruct Hv as [C1 Hv].
  apply andb_prop in Hv. destruct Hv as [C2 Hv]. exists c1, c2, r'. auto.
Qed.

Definition is_err (t : tok) : bool := match t with TErr _ _ _ => true | _ => false end.

(* the literal scanners never produce TEnd, TWs, TComment or TWord *)
Definition lit_or_err (t : tok) : bool :=
  match t with TLit _ | TErr _ _ _ => true | _ => false end.
