(* CodecBasic.v: list / chunk / bit-arithmetic helpers for CodecProofs.v. *)
From Xeh Require Import Model.Prelude Model.Bits Model.Codec.
From Xeh Require Import Proofs.BitsBasic Proofs.BitsKernel Proofs.BitsLists Proofs.BitsMirror.
From Coq Require Import ZifyBool ZifyNat ZifyN.

Local Open Scope nat_scope.

Lemma chunks8_fuel {A} : forall f1 f2 (l : list A),
  length l <= f1 -> length l <= f2 -> chunks8 f1 l = chunks8 f2 l.
Proof.
  induction f1 as [|f1 IH]; intros f2 l H1 H2.
  - destruct l; [|cbn in H1; lia]. destruct f2; reflexivity.
  - destruct l as [|a l].
    + destruct f2; reflexivity.
    + destruct f2 as [|f2]; [cbn in H2; lia|].
      cbn [chunks8]. f_equal.
      apply IH; rewrite skipn_length; cbn [length] in *; lia.
Qed.

Lemma chunk8_nil {A} : @chunk8 A [] = [].
Proof. reflexivity. Qed.

Lemma chunk8_step {A} (l : list A) :
  l <> [] -> chunk8 l = firstn 8 l :: chunk8 (skipn 8 l).
Proof.
  destruct l as [|a l]; [congruence|]. intros _. unfold chunk8.
  change (length (a :: l)) with (S (length l)). cbn [chunks8]. f_equal.
  apply chunks8_fuel; rewrite ?skipn_length; cbn [length]; lia.
Qed.

Lemma chunk8_app {A} (g r : list A) : length g = 8 -> chunk8 (g ++ r) = g :: chunk8 r.
Proof.
  intros Hg. rewrite chunk8_step.
  - rewrite firstn_app, skipn_app, Hg, Nat.sub_diag.
    rewrite <- Hg, firstn_all, skipn_all. cbn [firstn skipn app].
    now rewrite app_nil_r.
  - destruct g; [discriminate|discriminate].
Qed.

Lemma chunk8_short {A} (g : list A) : g <> [] -> length g <= 8 -> chunk8 g = [g].
Proof.
  intros Hn Hl. rewrite chunk8_step by assumption.
  rewrite firstn_all2 by assumption. rewrite skipn_all2 by assumption. reflexivity.
Qed.

(* induction over the 8-bit groups of a list: a group [g] in front of the rest [r] *)
Lemma chunk8_ind {A} (P : list A -> Prop) :
  P [] ->
  (forall g r, g <> [] -> length g <= 8 -> chunk8 (g ++ r) = g :: chunk8 r -> P r -> P (g ++ r)) ->
  forall l, P l.
Proof.
  intros H0 HS l. remember (length l) as n eqn:E. revert l E.
  induction n as [n IH] using lt_wf_ind. intros l E.
  destruct l as [|a l]; [exact H0|].
  rewrite <- (firstn_skipn 8 (a :: l)). apply HS.
  - discriminate.
  - apply firstn_le_length.
  - rewrite firstn_skipn. apply chunk8_step. discriminate.
  - apply (IH (length (skipn 8 (a :: l)))); [|reflexivity].
    rewrite skipn_length. subst; cbn [length]; lia.
Qed.

Lemma bitsZ_app g r :
  bitsZ (g ++ r) = (bitsZ g * 2 ^ Z.of_nat (length r) + bitsZ r)%Z.
Proof.
  unfold bitsZ. rewrite bits_to_N_app, N2Z.inj_add, N2Z.inj_mul, N2Z.inj_pow, nat_N_Z.
  reflexivity.
Qed.

Lemma bitsZ_bound l : (0 <= bitsZ l < 2 ^ Z.of_nat (length l))%Z.
Proof.
  unfold bitsZ. split; [lia|].
  pose proof (bits_to_N_lt l) as H.
  apply N2Z.inj_lt in H. rewrite N2Z.inj_pow, nat_N_Z in H. exact H.
Qed.

Lemma bitsZ_nil : bitsZ [] = 0%Z.
Proof. reflexivity. Qed.

Local Open Scope Z_scope.

Lemma lor_disjoint a v n : 0 <= n -> 0 <= v < 2 ^ n -> Z.lor (a * 2 ^ n) v = a * 2 ^ n + v.
Proof.
  intros Hn Hv.
  assert (HL : Z.land (a * 2 ^ n) v = 0).
  { apply Z.bits_inj'; intros i Hi. rewrite Z.land_spec, Z.bits_0.
    destruct (Z.lt_ge_cases i n).
    - rewrite Z.mul_pow2_bits_low by lia. reflexivity.
    - rewrite <- (Z.mod_small v (2 ^ n)) by lia.
      rewrite Z.mod_pow2_bits_high by lia. apply andb_false_r. }
  rewrite Z.add_nocarry_lxor by exact HL. now rewrite Z.lxor_lor.
Qed.

Lemma pow_cat_bound a v k n :
  0 <= k -> 0 <= n -> 0 <= a < 2 ^ k -> 0 <= v < 2 ^ n -> 0 <= a * 2 ^ n + v < 2 ^ (k + n).
Proof.
  intros Hk Hn Ha Hv. rewrite Z.pow_add_r by lia.
  assert (0 < 2 ^ n) by (apply Z.pow_pos_nonneg; lia).
  assert (0 < 2 ^ k) by (apply Z.pow_pos_nonneg; lia).
  nia.
Qed.

Lemma pow_le_128 k : k <= 128 -> 2 ^ k <= two128.
Proof.
  intros. unfold two128. destruct (Z.lt_ge_cases k 0).
  - rewrite Z.pow_neg_r by lia. now compute.
  - apply Z.pow_le_mono_r; lia.
Qed.

Lemma lor_cat128 a v k n :
  0 <= k -> 0 <= n -> 0 <= a < 2 ^ k -> 0 <= v < 2 ^ n -> k + n <= 128 ->
  Z.lor (Z.shiftl a n mod two128) v = a * 2 ^ n + v.
Proof.
  intros Hk Hn Ha Hv H128. rewrite Z.shiftl_mul_pow2 by lia.
  pose proof (pow_cat_bound a v k n Hk Hn Ha Hv) as Hb.
  pose proof (pow_le_128 (k + n) H128).
  assert (0 < 2 ^ n) by (apply Z.pow_pos_nonneg; lia).
  rewrite Z.mod_small by nia. apply lor_disjoint; lia.
Qed.

Lemma be_fold : forall l acc k,
  0 <= k -> 0 <= acc < 2 ^ k -> k + Z.of_nat (length l) <= 128 ->
  fold_left (fun acc '(v, n) =>
               Z.lor (Z.shiftl acc (Z.of_nat n) mod two128) (Z.of_N v))
            (map grp (chunk8 l)) acc
  = acc * 2 ^ Z.of_nat (length l) + bitsZ l.
Proof.
  intros l. pattern l. apply chunk8_ind; clear l.
  - intros acc k _ _ _. cbn [chunk8 chunks8 length map fold_left].
    rewrite bitsZ_nil. change (2 ^ Z.of_nat 0) with 1. lia.
  - intros g r _ _ Hc IH acc k Hk Hacc Hlen. rewrite app_length in Hlen |- *.
    rewrite Hc. cbn [map fold_left].
    change (grp g) with (bits_to_N g, length g). cbv beta iota. fold (bitsZ g).
    pose proof (bitsZ_bound g) as Hg.
    rewrite (lor_cat128 acc (bitsZ g) k (Z.of_nat (length g))) by lia.
    rewrite (IH _ (k + Z.of_nat (length g))).
    + rewrite bitsZ_app, Nat2Z.inj_add, Z.pow_add_r by lia. ring.
    + lia.
    + apply pow_cat_bound; lia.
    + lia.
Qed.

Lemma le_fold : forall l acc sh,
  0 <= acc < 2 ^ Z.of_nat sh -> Z.of_nat sh + Z.of_nat (length l) <= 128 ->
  fst (fold_left (fun '(acc, sh) '(v, n) =>
                    (Z.lor acc (Z.shiftl (Z.of_N v) (Z.of_nat sh) mod two128), (sh + n)%nat))
                 (map grp (chunk8 l)) (acc, sh))
  = acc + le_groups (chunk8 l) sh.
Proof.
  intros l. pattern l. apply chunk8_ind; clear l.
  - intros acc sh _ _. cbn. lia.
  - intros g r _ _ Hc IH acc sh Hacc Hlen. rewrite app_length in Hlen.
    rewrite Hc. cbn [map fold_left le_groups].
    change (grp g) with (bits_to_N g, length g). cbv beta iota. fold (bitsZ g).
    pose proof (bitsZ_bound g) as Hg.
    rewrite Z.lor_comm, (lor_cat128 (bitsZ g) acc (Z.of_nat (length g)) (Z.of_nat sh)) by lia.
    rewrite IH.
    + lia.
    + rewrite Nat2Z.inj_add, (Z.add_comm (Z.of_nat sh)). apply pow_cat_bound; lia.
    + lia.
Qed.

Lemma le_groups_bound : forall l sh,
  0 <= le_groups (chunk8 l) sh /\
  le_groups (chunk8 l) sh + 2 ^ Z.of_nat sh <= 2 ^ (Z.of_nat sh + Z.of_nat (length l)).
Proof.
  intros l. pattern l. apply chunk8_ind; clear l.
  - intros sh. cbn [chunk8 chunks8 length le_groups]. rewrite Z.add_0_r. lia.
  - intros g r _ _ Hc IH sh. rewrite Hc, app_length. cbn [le_groups].
    pose proof (bitsZ_bound g) as Hg. specialize (IH (sh + length g)%nat).
    rewrite !Nat2Z.inj_add, Z.add_assoc in *.
    rewrite (Z.pow_add_r 2 (Z.of_nat sh) (Z.of_nat (length g))) in IH by lia.
    assert (0 < 2 ^ Z.of_nat sh) by (apply Z.pow_pos_nonneg; lia).
    nia.
Qed.

Local Open Scope nat_scope.
Local Ltac Zify.zify_post_hook ::= Z.div_mod_to_equations.

Definition byte_bits (x : N) : list bool :=
  map (fun i => N.testbit x (N.of_nat (7 - i))) (seq 0 8).

Lemma byte_bits_length x : length (byte_bits x) = 8.
Proof. reflexivity. Qed.

Lemma chunk8_cons {A} (g r : list A) :
  g <> [] -> length g <= 8 -> (length g = 8 \/ r = []) -> chunk8 (g ++ r) = g :: chunk8 r.
Proof.
  intros Hne Hle [H8| ->].
  - now apply chunk8_app.
  - rewrite app_nil_r. now apply chunk8_short.
Qed.

Lemma abs0_nil d : abs (mkcbs 0 0 d) = [].
Proof. reflexivity. Qed.

Lemma abs0_cons x r w :
  abs (mkcbs 0 w (x :: r)) = firstn (Nat.min w 8) (byte_bits x) ++ abs (mkcbs 0 (w - 8) r).
Proof.
  rewrite !abs_mk, !Nat.sub_0_r. replace w with (Nat.min w 8 + (w - 8)) at 1 by lia.
  rewrite seq_app, map_app. f_equal.
  - unfold byte_bits. rewrite firstn_map_seq.
    replace (Nat.min (Nat.min w 8) 8) with (Nat.min w 8) by lia.
    apply map_ext_in. intros i Hi. apply in_seq in Hi. rewrite getbit_cons.
    replace (i <? 8) with true by lia. reflexivity.
  - apply map_seq_ext. intros j Hj. rewrite getbit_cons.
    replace (0 + Nat.min w 8 + j <? 8) with false by lia. f_equal. lia.
Qed.

(* the low [n] bits of a byte, left-aligned by [shl8] and read back *)
Lemma shl_kernel_sweep :
  forallb (fun x =>
    forallb (fun n => N.eqb (bits_to_N (firstn n (byte_bits (shl8 x (8 - n))))) (x mod 2 ^ N.of_nat n))
            (seq 0 9)) bytes = true.
Proof. vm_compute. reflexivity. Qed.

Lemma shl_kernel x n : (x < 256)%N -> n <= 8 ->
  bits_to_N (firstn n (byte_bits (shl8 x (8 - n)))) = (x mod 2 ^ N.of_nat n)%N.
Proof.
  intros Hx Hn. pose proof (sweep_byte _ shl_kernel_sweep x Hx) as H. cbv beta in H.
  apply N.eqb_eq. exact (sweep_nat _ _ H n ltac:(lia)).
Qed.
