(* StructSeq.v: sequencing.  The evaluation of a concatenation is the evaluation of the first
   part followed by the evaluation of the second part (with the exact fuel bookkeeping);
   an error (or a break) of a block is the error of its first statement that does not run to
   its end, reached after all the statements before it ran to their ends. *)
From Xeh Require Import Model.Prelude Model.Bits Model.Codec Model.Cell Model.Lexer Model.Fmt
                        Model.Vm Model.Words Model.Struct Proofs.StructBase Proofs.StructFuel.
Local Notation length := List.length.

Definition stops (r : sres) : Prop :=
  match r with
  | SDone _ | SOut => False
  | _ => True
  end.

Lemma stops_not_out : forall r, stops r -> r <> SOut.
Proof. intros r St E. rewrite E in St. exact St. Qed.

Lemma on_res_stops : forall r kd, stops r -> on_res r kd SBroke = r.
Proof. intros r kd St. destruct r; try contradiction; reflexivity. Qed.

Section Seq.
  Variable fo : fops.
  Variable funs : list (nat * list stmt).
  Notation sblock := (sblock fo funs).
  Notation sstmt := (sstmt fo funs).

  Lemma sblock_done_fuel : forall l f s s', sblock f l s = SDone s' -> length l < f.
  Proof.
    induction l as [| x r IH]; intros f s s' H; destruct f as [| f]; try discriminate.
    - cbn [length]. lia.
    - rewrite sblock_cons in H. destruct (sstmt f x s) eqn:E; cbn [on_res] in H; try discriminate.
      apply IH in H. cbn [length]. lia.
  Qed.

  Theorem sblock_app_exact : forall l1 f l2 s,
    length l1 < f ->
    sblock f (l1 ++ l2) s = on_res (sblock f l1 s) (fun s' => sblock (f - length l1) l2 s') SBroke.
  Proof.
    induction l1 as [| x r IH]; intros f l2 s Hf.
    - destruct f as [| f]; [ lia | ]. rewrite sblock_nil. cbn [on_res app length]. rewrite Nat.sub_0_r. reflexivity.
    - destruct f as [| f]; [ lia | ]. cbn [app length] in *. rewrite !sblock_cons, on_res_assoc.
      destruct (sstmt f x s); cbn [on_res]; try reflexivity.
      rewrite IH by lia. reflexivity.
  Qed.

  Theorem sblock_app_short : forall l1 f l2 s,
    f <= length l1 -> sblock f (l1 ++ l2) s = sblock f l1 s.
  Proof.
    induction l1 as [| x r IH]; intros f l2 s Hf.
    - cbn [length] in Hf. assert (f = 0) by lia. subst f. reflexivity.
    - destruct f as [| f]; [ reflexivity | ]. cbn [app length] in *. rewrite !sblock_cons.
      destruct (sstmt f x s); cbn [on_res]; try reflexivity.
      apply IH. lia.
  Qed.

  Theorem sblock_app_done : forall f1 f2 l1 l2 s s1 r,
    sblock f1 l1 s = SDone s1 -> sblock f2 l2 s1 = r -> r <> SOut ->
    forall f, f1 + f2 <= f -> sblock f (l1 ++ l2) s = r.
  Proof.
    intros f1 f2 l1 l2 s s1 r H1 H2 N f Hf.
    pose proof (sblock_done_fuel _ _ _ _ H1) as L.
    rewrite sblock_app_exact by lia.
    rewrite (sblock_fuel_mono fo funs f1 l1 s _ H1) by (try discriminate; lia).
    cbn [on_res]. eapply sblock_fuel_mono; eauto. lia.
  Qed.

  Theorem sblock_app_stops : forall f1 l1 l2 s r,
    sblock f1 l1 s = r -> stops r -> forall f, f1 <= f -> sblock f (l1 ++ l2) s = r.
  Proof.
    intros f1 l1 l2 s r H1 St f Hf.
    assert (N : r <> SOut) by (apply stops_not_out; exact St).
    pose proof (sblock_fuel_mono fo funs f1 l1 s r H1 N f Hf) as H.
    destruct (Nat.lt_ge_cases (length l1) f) as [L | L].
    - rewrite sblock_app_exact by assumption. rewrite H. apply on_res_stops. exact St.
    - rewrite sblock_app_short by assumption. exact H.
  Qed.

  Theorem block_first_stop : forall f1 f2 l1 x l2 s s1 r,
    sblock f1 l1 s = SDone s1 -> sstmt f2 x s1 = r -> stops r ->
    forall f, f1 + S f2 <= f -> sblock f (l1 ++ x :: l2) s = r.
  Proof.
    intros f1 f2 l1 x l2 s s1 r H1 H2 St f Hf.
    eapply sblock_app_done; [ exact H1 | | apply stops_not_out; exact St | exact Hf ].
    rewrite sblock_cons, H2. apply on_res_stops. exact St.
  Qed.

  Theorem block_stop_inv : forall b f s r,
    sblock f b s = r -> stops r ->
    exists l1 x l2 s1,
      b = l1 ++ x :: l2 /\ length l1 < f /\ sblock f l1 s = SDone s1 /\
      sstmt (f - length l1 - 1) x s1 = r.
  Proof.
    induction b as [| x b IH]; intros f s r H St.
    - destruct f; cbn in H; subst r; contradiction.
    - destruct f as [| f]; [ cbn in H; subst r; contradiction | ].
      rewrite sblock_cons in H. destruct (sstmt f x s) as [s1 | s1 | k pl p s1 | |] eqn:E; cbn [on_res] in H.
      4: subst r; contradiction.
      2-4: exists [], x, b, s; cbn [length app]; repeat split; [ lia | ];
           replace (S f - 0 - 1) with f by lia; rewrite E; exact H.
      destruct (IH f s1 r H St) as (l1 & y & l2 & s2 & Eb & L & D & F).
      exists (x :: l1), y, l2, s2. subst b. repeat split.
      + cbn [length]. lia.
      + rewrite sblock_cons, E. exact D.
      + cbn [length]. replace (S f - S (length l1) - 1) with (f - length l1 - 1) by lia. exact F.
  Qed.

  Theorem sblock_app_done_inv : forall l1 l2 f s s',
    sblock f (l1 ++ l2) s = SDone s' ->
    exists s1, sblock f l1 s = SDone s1 /\ sblock (f - length l1) l2 s1 = SDone s'.
  Proof.
    intros l1 l2 f s s' H. pose proof (sblock_done_fuel _ _ _ _ H) as L.
    rewrite app_length in L. rewrite sblock_app_exact in H by lia.
    destruct (sblock f l1 s) as [s1 | | | |]; cbn [on_res] in H; try discriminate.
    exists s1. split; [ reflexivity | exact H ].
  Qed.

  Corollary sblock_done_each : forall l1 x l2 f s s',
    sblock f (l1 ++ x :: l2) s = SDone s' ->
    exists s1 s2, sblock f l1 s = SDone s1 /\ sstmt (f - length l1 - 1) x s1 = SDone s2 /\
                  sblock (f - length l1 - 1) l2 s2 = SDone s'.
  Proof.
    intros l1 x l2 f s s' H. apply sblock_app_done_inv in H as (s1 & H1 & H2).
    exists s1. pose proof (sblock_done_fuel _ _ _ _ H2) as L. cbn [length] in L.
    destruct (f - length l1) as [| g] eqn:Eg; [ lia | ].
    rewrite sblock_cons in H2. replace (S g - 1) with g by lia.
    destruct (sstmt g x s1) as [s2 | | | |]; cbn [on_res] in H2; try discriminate.
    exists s2. auto.
  Qed.
End Seq.
