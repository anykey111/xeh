(* UnwindFollow.v (C10): the follow-up theorem.  After a source rejected at build time,
   every later submission gives the same value or the same error as it would have given had
   the rejected source never been submitted, and leaves a state that agrees on every
   component of the machine (dictionary, heap, code, the four stacks, the flow stack, the
   contexts, the limits), on the length of the debug map and on the lexer positions of the
   pending input.  What may differ are exactly the components the unwinding does not
   restore: the texts / indices of the interned sources (hence the source index recorded in
   the debug map and in the last-token record), the instruction meter, the captured output,
   the contents of the reverse log and the stop flag. *)
From Xeh Require Import Model.Prelude Model.Bits Model.Codec Model.Cell Model.Lexer Model.Fmt
                        Model.Vm Model.Words Model.Build.
From Xeh Require Import Proofs.VmFrame Proofs.VmLimits Proofs.NoPanic Proofs.NoPanicBuild
                        Proofs.UnwindLists Proofs.UnwindFrame Proofs.UnwindInv Proofs.UnwindBuild
                        Proofs.UnwindMain Proofs.UnwindAfter Proofs.UnwindIrr Proofs.UnwindAuxVm
                        Proofs.UnwindAuxBuild Proofs.UnwindAuxMain Proofs.BuildUnwind.
Local Notation length := List.length.

Lemma Forall2_lex_refl : forall l, Forall2 lex_same l l.
Proof. induction l; constructor; [reflexivity|assumption]. Qed.

Theorem same_machine_arel s s' :
  same_machine s s' -> (insn_limit s = None \/ meter s' = meter s) -> (rlog s' = None <-> rlog s = None) ->
  arel s s'.
Proof.
  intros (A1 & A2 & A3 & A4 & A5 & A6 & A7 & A8 & A9 & A10 & A11 & A12 & A13 & A14 & A15) Hme Hrl.
  exists (dbg s'), (sources s'), (input s'), (meter s'), (rlog s'), (out s'), (last_tok s'), (stopping s').
  split.
  - unfold aok. rewrite A5, A1. repeat split; try assumption; try apply Hrl. apply Forall2_lex_refl.
  - destruct s, s'. cbn in *. subst. reflexivity.
Qed.

Theorem rejected_source_then_later : forall fo pr rf fuel src m s s1 k p s2,
  (m = MEval \/ m = MCompile) ->
  build_wf s ->
  (context_open m ;; intern_source src) s = ROk tt s1 ->
  build1 fo pr rf fuel (length (nested s1)) s1 = RErr k p s2 ->
  calls_bad fo pr rf (length (dict s)) fuel (length (nested s1)) s1 = false ->
  exists s', build_from_source fo pr rf fuel src m s = RErr k p s' /\ same_machine s s' /\
    (rlog s' = None <-> rlog s = None) /\
    ((insn_limit s = None \/ meter s' = meter s) ->
     (forall fuel2 src2 m2,
        ares (build_from_source fo pr rf fuel2 src2 m2 s) (build_from_source fo pr rf fuel2 src2 m2 s')) /\
     (forall fuel2, oares (run (native_fn fo) fuel2 s) (run (native_fn fo) fuel2 s'))).
Proof.
  intros fo pr rf fuel src m s s1 k p s2 Hm (Hin & Hdl & Hnr) E1 E2 CB.
  destruct (build_failure_unwinds fo pr rf s m Hdl (mode_not_meta m Hm) fuel src s1 k p s2 E1 E2 CB) as [X E].
  pose proof (build_unwind_restores s m Hin Hdl s2 Hnr X) as SM.
  assert (RL : rlog (build_unwind (length (nested s)) (length (input s)) (length (ds s)) (length (heap s)) s2) = None
               <-> rlog s = None)
    by (rewrite build_unwind_rlog; exact (bi_rlog s s2 (proj2 X))).
  eexists. split; [exact E|]. split; [exact SM|]. split; [exact RL|].
  intros Hme. pose proof (same_machine_arel s _ SM Hme RL) as AR. split.
  - intros. apply ap_build_from_source, AR.
  - intros. apply ap_run; [apply native_wx|exact AR].
Qed.
